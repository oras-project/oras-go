(* Regular expressions over bytes: denotation, Brzozowski-derivative matcher,
   correctness of the matcher, and a decision procedure for "every accepted
   character avoids a set of bad ranges".  Fully anchored (^...$) semantics. *)
From Oras Require Import Base.Prelude.

Inductive re : Type :=
| Emp | Eps
| Cls (rs : list (N * N))
| Cat (a c : re) | Alt (a c : re) | Star (a : re).

Definition in_ranges (rs : list (N * N)) (c : N) : bool :=
  existsb (fun r => (fst r <=? c) && (c <=? snd r)) rs.

Inductive Lang : re -> str -> Prop :=
| LEps : Lang Eps []
| LCls rs c : in_ranges rs c = true -> Lang (Cls rs) [c]
| LCat a c s t : Lang a s -> Lang c t -> Lang (Cat a c) (s ++ t)
| LAltL a c s : Lang a s -> Lang (Alt a c) s
| LAltR a c s : Lang c s -> Lang (Alt a c) s
| LStar0 a : Lang (Star a) []
| LStarS a s t : Lang a s -> Lang (Star a) t -> Lang (Star a) (s ++ t).

Fixpoint nullable (r : re) : bool :=
  match r with
  | Emp => false | Eps => true | Cls _ => false
  | Cat a c => nullable a && nullable c
  | Alt a c => nullable a || nullable c
  | Star _ => true
  end.

Definition cat (a c : re) : re :=
  match a, c with
  | Emp, _ => Emp | _, Emp => Emp
  | Eps, _ => c | _, Eps => a
  | _, _ => Cat a c
  end.

(* Alternation is kept flattened and duplicate-free (associativity,
   idempotence): without this, derivatives of ambiguous expressions such as
   (x*y+)* grow exponentially. *)
Fixpoint ranges_eqb (x y : list (N * N)) : bool :=
  match x, y with
  | [], [] => true
  | (a1, a2) :: x', (c1, c2) :: y' => (a1 =? c1) && (a2 =? c2) && ranges_eqb x' y'
  | _, _ => false
  end.

Fixpoint re_eqb (a c : re) : bool :=
  match a, c with
  | Emp, Emp => true
  | Eps, Eps => true
  | Cls x, Cls y => ranges_eqb x y
  | Cat a1 a2, Cat c1 c2 => re_eqb a1 c1 && re_eqb a2 c2
  | Alt a1 a2, Alt c1 c2 => re_eqb a1 c1 && re_eqb a2 c2
  | Star a1, Star c1 => re_eqb a1 c1
  | _, _ => false
  end.

Fixpoint flat (r : re) : list re :=
  match r with
  | Alt a c => flat a ++ flat c
  | Emp => []
  | _ => [r]
  end.

Definition mem (r : re) (l : list re) : bool := existsb (re_eqb r) l.

Fixpoint dedup (l : list re) : list re :=
  match l with
  | [] => []
  | x :: l' => if mem x l' then dedup l' else x :: dedup l'
  end.

Fixpoint alts (l : list re) : re :=
  match l with
  | [] => Emp
  | [x] => x
  | x :: l' => Alt x (alts l')
  end.

Definition alt (a c : re) : re := alts (dedup (flat a ++ flat c)).

Fixpoint deriv (x : N) (r : re) : re :=
  match r with
  | Emp | Eps => Emp
  | Cls rs => if in_ranges rs x then Eps else Emp
  | Cat a c => if nullable a then alt (cat (deriv x a) c) (deriv x c)
               else cat (deriv x a) c
  | Alt a c => alt (deriv x a) (deriv x c)
  | Star a => cat (deriv x a) (Star a)
  end.

Definition matches (r : re) (s : str) : bool :=
  nullable (fold_left (fun r x => deriv x r) s r).

(* derived forms used by the translator *)
Definition Opt (a : re) := Alt Eps a.
Definition Plus (a : re) := Cat a (Star a).
Fixpoint rep_exact (a : re) (n : nat) : re :=
  match n with O => Eps | S n => Cat a (rep_exact a n) end.
Fixpoint rep_upto (a : re) (n : nat) : re :=
  match n with O => Eps | S n => Alt Eps (Cat a (rep_upto a n)) end.
Definition Rep (a : re) (lo hi : nat) := Cat (rep_exact a lo) (rep_upto a (hi - lo)).
Definition RepMin (a : re) (lo : nat) := Cat (rep_exact a lo) (Star a).
Fixpoint Lit (s : str) : re :=
  match s with [] => Eps | x :: s' => Cat (Cls [(x, x)]) (Lit s') end.

Lemma Lang_Emp s : ~ Lang Emp s.
Proof. intro H; inversion H. Qed.

Lemma Lang_Eps s : Lang Eps s <-> s = [].
Proof. split; intro H; [now inversion H | subst; constructor]. Qed.

Lemma Lang_Cls rs s : Lang (Cls rs) s <-> exists c, s = [c] /\ in_ranges rs c = true.
Proof.
  split; intro H.
  - inversion H; subst; eauto.
  - destruct H as (c & -> & H). now constructor.
Qed.

Lemma Lang_Cat a c s : Lang (Cat a c) s <-> exists s1 s2, s = s1 ++ s2 /\ Lang a s1 /\ Lang c s2.
Proof.
  split; intro H.
  - inversion H; subst; eauto.
  - destruct H as (s1 & s2 & -> & H1 & H2). now constructor.
Qed.

Lemma Lang_Alt a c s : Lang (Alt a c) s <-> Lang a s \/ Lang c s.
Proof.
  split; intro H.
  - inversion H; subst; auto.
  - destruct H; [now apply LAltL | now apply LAltR].
Qed.

Lemma Lang_Cat_Emp_l c s : Lang (Cat Emp c) s <-> False.
Proof. rewrite Lang_Cat. split; [|tauto]. intros (s1 & s2 & _ & H & _). now apply Lang_Emp in H. Qed.
Lemma Lang_Cat_Emp_r a s : Lang (Cat a Emp) s <-> False.
Proof. rewrite Lang_Cat. split; [|tauto]. intros (s1 & s2 & _ & _ & H). now apply Lang_Emp in H. Qed.
Lemma Lang_Cat_Eps_l c s : Lang (Cat Eps c) s <-> Lang c s.
Proof.
  rewrite Lang_Cat. split.
  - intros (s1 & s2 & -> & H1 & H2). apply Lang_Eps in H1. now subst.
  - intro H. exists [], s. repeat split; auto. constructor.
Qed.
Lemma Lang_Cat_Eps_r a s : Lang (Cat a Eps) s <-> Lang a s.
Proof.
  rewrite Lang_Cat. split.
  - intros (s1 & s2 & -> & H1 & H2). apply Lang_Eps in H2. subst. now rewrite app_nil_r.
  - intro H. exists s, []. rewrite app_nil_r. repeat split; auto. constructor.
Qed.
Lemma Lang_Emp_iff s : Lang Emp s <-> False.
Proof. split; [apply Lang_Emp | tauto]. Qed.

Lemma Lang_cat a c s : Lang (cat a c) s <-> Lang (Cat a c) s.
Proof.
  unfold cat; destruct a; destruct c;
    rewrite ?Lang_Cat_Emp_l, ?Lang_Cat_Emp_r, ?Lang_Cat_Eps_l, ?Lang_Cat_Eps_r, ?Lang_Emp_iff;
    reflexivity.
Qed.

Lemma ranges_eqb_eq x y : ranges_eqb x y = true -> x = y.
Proof.
  revert y; induction x as [|[a1 a2] x IH]; intros [|[c1 c2] y]; simpl; intro H;
    try discriminate; auto.
  apply andb_true_iff in H as [H H3]. apply andb_true_iff in H as [H1 H2].
  apply N.eqb_eq in H1, H2. apply IH in H3. congruence.
Qed.

Lemma re_eqb_eq a c : re_eqb a c = true -> a = c.
Proof.
  revert c; induction a as [| |x|a1 IH1 a2 IH2|a1 IH1 a2 IH2|a1 IH1]; intros [| |y|c1 c2|c1 c2|c1];
    simpl; intro H; try discriminate; auto.
  - apply ranges_eqb_eq in H. congruence.
  - apply andb_true_iff in H as [H1 H2]. apply IH1 in H1. apply IH2 in H2. congruence.
  - apply andb_true_iff in H as [H1 H2]. apply IH1 in H1. apply IH2 in H2. congruence.
  - apply IH1 in H. congruence.
Qed.

Lemma Lang_flat r s : Lang r s <-> Exists (fun x => Lang x s) (flat r).
Proof.
  induction r as [| |x|a1 IH1 a2 IH2|a1 IH1 a2 IH2|a1 IH1]; simpl;
    rewrite ?Exists_cons, ?Exists_nil, ?Lang_Emp_iff; try tauto.
  rewrite Lang_Alt, Exists_app, IH1, IH2. reflexivity.
Qed.

Lemma Lang_alts l s : Lang (alts l) s <-> Exists (fun x => Lang x s) l.
Proof.
  induction l as [|x [|y l] IH]; simpl in *; rewrite ?Lang_Alt, ?IH, ?Exists_cons, ?Exists_nil, ?Lang_Emp_iff; tauto.
Qed.

Lemma mem_In x l : mem x l = true -> In x l.
Proof.
  unfold mem. intro H. apply existsb_exists in H as (y & Hy & E). apply re_eqb_eq in E. now subst.
Qed.

Lemma dedup_Exists (P : re -> Prop) l : Exists P (dedup l) <-> Exists P l.
Proof.
  induction l as [|x l IH]; simpl; [reflexivity|].
  destruct (mem x l) eqn:M; rewrite ?Exists_cons, IH; [|tauto].
  split; [tauto | intros [H|H]; [|exact H]]. apply mem_In in M. apply Exists_exists. eauto.
Qed.

Lemma Lang_alt a c s : Lang (alt a c) s <-> Lang (Alt a c) s.
Proof.
  unfold alt. rewrite Lang_alts, dedup_Exists, Exists_app, <- !Lang_flat, Lang_Alt. reflexivity.
Qed.

Lemma nullable_spec r : nullable r = true <-> Lang r [].
Proof.
  induction r as [| |rs|a IHa c IHc|a IHa c IHc|a IHa]; simpl.
  - split; [discriminate | intro H; now apply Lang_Emp in H].
  - split; [constructor | reflexivity].
  - split; [discriminate | intro H; apply Lang_Cls in H as (c & H & _); discriminate].
  - rewrite andb_true_iff, IHa, IHc, Lang_Cat. split.
    + intros [H1 H2]. exists [], []. auto.
    + intros (s1 & s2 & E & H1 & H2). symmetry in E. apply app_eq_nil in E as [-> ->]. auto.
  - rewrite orb_true_iff, IHa, IHc, Lang_Alt. reflexivity.
  - split; [constructor | reflexivity].
Qed.

Lemma Lang_Star_cons a x s :
  Lang (Star a) (x :: s) -> exists s1 s2, s = s1 ++ s2 /\ Lang a (x :: s1) /\ Lang (Star a) s2.
Proof.
  intro H. remember (Star a) as r eqn:Er. remember (x :: s) as w eqn:Ew.
  revert x s Er Ew.
  induction H as [| | | | | a' | a' s1 t H1 IH1 H2 IH2]; intros x0 w0 Er Ew; try discriminate.
  injection Er as ->.
  destruct s1 as [|y s1]; simpl in Ew.
  - subst t. now apply IH2.
  - injection Ew as -> <-. exists s1, t. auto.
Qed.

Theorem deriv_spec x r s : Lang (deriv x r) s <-> Lang r (x :: s).
Proof.
  revert s. induction r as [| |rs|a IHa c IHc|a IHa c IHc|a IHa]; intro s; simpl.
  - split; intro H; now apply Lang_Emp in H.
  - split; intro H; [now apply Lang_Emp in H | apply Lang_Eps in H; discriminate].
  - rewrite Lang_Cls. destruct (in_ranges rs x) eqn:E.
    + rewrite Lang_Eps. split.
      * intros ->. eauto.
      * intros (c & H & _). now injection H.
    + split; [intro H; now apply Lang_Emp in H|].
      intros (c & H & Hc). injection H as -> ->. congruence.
  - assert (Hc : Lang (cat (deriv x a) c) s <->
                 exists s1 s2, s = s1 ++ s2 /\ Lang a (x :: s1) /\ Lang c s2).
    { rewrite Lang_cat, Lang_Cat. split; intros (s1 & s2 & E & H1 & H2); exists s1, s2;
        repeat split; auto; now apply IHa. }
    destruct (nullable a) eqn:Na.
    + rewrite Lang_alt, Lang_Alt, Hc, IHc, Lang_Cat. split.
      * intros [(s1 & s2 & -> & H1 & H2) | H].
        -- exists (x :: s1), s2. auto.
        -- exists [], (x :: s). repeat split; auto. now apply nullable_spec.
      * intros (s1 & s2 & E & H1 & H2). destruct s1 as [|y s1]; simpl in E.
        -- subst s2. auto.
        -- injection E as -> ->. left. eauto.
    + rewrite Hc, Lang_Cat. split.
      * intros (s1 & s2 & -> & H1 & H2). exists (x :: s1), s2. auto.
      * intros (s1 & s2 & E & H1 & H2). destruct s1 as [|y s1]; simpl in E.
        -- apply nullable_spec in H1. congruence.
        -- injection E as -> ->. eauto.
  - rewrite Lang_alt, !Lang_Alt, IHa, IHc. reflexivity.
  - rewrite Lang_cat, Lang_Cat. split.
    + intros (s1 & s2 & -> & H1 & H2). apply IHa in H1.
      change (x :: s1 ++ s2) with ((x :: s1) ++ s2). now constructor.
    + intro H. apply Lang_Star_cons in H as (s1 & s2 & -> & H1 & H2).
      exists s1, s2. repeat split; auto. now apply IHa.
Qed.

Theorem matches_spec r s : matches r s = true <-> Lang r s.
Proof.
  unfold matches. revert r. induction s as [|x s IH]; intro r; simpl.
  - apply nullable_spec.
  - rewrite IH. apply deriv_spec.
Qed.

Lemma matches_false r s : matches r s = false <-> ~ Lang r s.
Proof.
  rewrite <- matches_spec. destruct (matches r s); split; intro H; auto; try discriminate.
  now elim H.
Qed.

Lemma Lang_Lit w s : Lang (Lit w) s <-> s = w.
Proof.
  revert s; induction w as [|x w IH]; intro s; simpl.
  - apply Lang_Eps.
  - rewrite Lang_Cat. split.
    + intros (s1 & s2 & -> & H1 & H2). apply Lang_Cls in H1 as (c & -> & H1).
      apply IH in H2. subst. simpl in H1. rewrite orb_false_r in H1.
      apply andb_true_iff in H1 as [A B]. apply N.leb_le in A, B.
      assert (c = x) by lia. now subst.
    + intros ->. exists [x], w. repeat split.
      * apply Lang_Cls. exists x. split; auto. simpl. now rewrite N.leb_refl.
      * now apply IH.
Qed.

Definition all_in (rs : list (N * N)) (s : str) : Prop := Forall (fun c => in_ranges rs c = true) s.

Lemma Lang_rep_exact_cls rs n s :
  Lang (rep_exact (Cls rs) n) s <-> length s = n /\ all_in rs s.
Proof.
  revert s; induction n as [|n IH]; intro s; simpl.
  - rewrite Lang_Eps. split.
    + intros ->. split; auto. constructor.
    + intros [H _]. now destruct s.
  - rewrite Lang_Cat. split.
    + intros (s1 & s2 & -> & H1 & H2). apply Lang_Cls in H1 as (c & -> & H1).
      apply IH in H2 as [L A]. simpl. split; [now rewrite L | now constructor].
    + intros [L A]. destruct s as [|c s]; [discriminate|]. inversion A; subst.
      exists [c], s. repeat split; [apply Lang_Cls; eauto | apply IH; split; auto].
Qed.

Lemma Lang_rep_upto_cls rs n s :
  Lang (rep_upto (Cls rs) n) s <-> (length s <= n)%nat /\ all_in rs s.
Proof.
  revert s; induction n as [|n IH]; intro s; simpl.
  - rewrite Lang_Eps. split.
    + intros ->. split; auto. constructor.
    + intros [H _]. destruct s; [auto | simpl in H; lia].
  - rewrite Lang_Alt, Lang_Eps, Lang_Cat. split.
    + intros [-> | (s1 & s2 & -> & H1 & H2)].
      * split; [simpl; lia | constructor].
      * apply Lang_Cls in H1 as (c & -> & H1). apply IH in H2 as [L A].
        simpl. split; [lia | now constructor].
    + intros [L A]. destruct s as [|c s]; [now left | right]. inversion A; subst.
      exists [c], s. repeat split; [apply Lang_Cls; eauto | apply IH; split; auto].
      simpl in L. lia.
Qed.

Lemma Lang_star_cls rs s : Lang (Star (Cls rs)) s <-> all_in rs s.
Proof.
  unfold all_in. split.
  - intro H. remember (Star (Cls rs)) as r eqn:E. induction H; try discriminate.
    + constructor.
    + injection E as ->. apply Lang_Cls in H as (c & -> & H). simpl.
      constructor; [exact H | now apply IHLang2].
  - induction 1 as [|c s H A IH]; [constructor|].
    change (c :: s) with ([c] ++ s). constructor; auto. apply Lang_Cls; eauto.
Qed.

Lemma Lang_Cat_assoc a c d s : Lang (Cat (Cat a c) d) s <-> Lang (Cat a (Cat c d)) s.
Proof.
  rewrite !Lang_Cat. split.
  - intros (x & z & -> & Hx & Hz). apply Lang_Cat in Hx as (u & v & -> & Hu & Hv).
    exists u, (v ++ z). rewrite <- app_assoc. repeat split; auto. now constructor.
  - intros (u & x & -> & Hu & Hx). apply Lang_Cat in Hx as (v & z & -> & Hv & Hz).
    exists (u ++ v), z. rewrite app_assoc. repeat split; auto. now constructor.
Qed.

(* [X][Y]{0,n}: one character of a class, then at most n of another (tags, media-type names);
   the classes are given by the range lists and by the predicates that read them *)
Lemma Lang_cls_rep rs1 rs2 n (p1 p2 : N -> bool) s :
  (forall c, in_ranges rs1 c = p1 c) -> (forall c, in_ranges rs2 c = p2 c) ->
  (Lang (Cat (Cls rs1) (Rep (Cls rs2) 0 n)) s <->
   exists c t, s = c :: t /\ p1 c = true /\ (length t <= n)%nat /\ Forall (fun x => p2 x = true) t).
Proof.
  intros E1 E2. unfold Rep. rewrite Nat.sub_0_r, Lang_Cat. cbn [rep_exact].
  assert (A : forall t, all_in rs2 t <-> Forall (fun x => p2 x = true) t).
  { intro t. unfold all_in. split; apply Forall_impl; intro x; now rewrite E2. }
  split.
  - intros (s1 & t & -> & H1 & H2). apply Lang_Cls in H1 as (c & -> & H1).
    apply Lang_Cat_Eps_l, Lang_rep_upto_cls in H2 as [L F].
    exists c, t. split; [reflexivity|]. split; [now rewrite <- E1|]. split; [exact L | now apply A].
  - intros (c & t & -> & H1 & L & F). exists [c], t. split; [reflexivity|]. split.
    + apply Lang_Cls. exists c. now rewrite E1.
    + apply Lang_Cat_Eps_l, Lang_rep_upto_cls. now rewrite A.
Qed.

(* [in_ranges rs c = p c] for a literal range list and a predicate written with leb, eqb, andb, orb *)
Ltac ranges_lia :=
  unfold in_ranges; cbn [existsb fst snd]; apply eq_true_iff_eq;
  repeat rewrite ?orb_true_iff, ?andb_true_iff, ?N.leb_le, ?N.eqb_eq;
  split; intro; lia.

(* every range of rs is disjoint from every range of bad *)
Definition ranges_avoid (rs bad : list (N * N)) : bool :=
  forallb (fun r => forallb (fun q => (snd r <? fst q) || (snd q <? fst r) || (snd r <? fst r)) bad) rs.

Lemma ranges_avoid_spec rs bad c :
  ranges_avoid rs bad = true -> in_ranges rs c = true -> in_ranges bad c = false.
Proof.
  unfold ranges_avoid, in_ranges. intros H Hc.
  apply existsb_exists in Hc as (r & Hr & Hc).
  rewrite forallb_forall in H. specialize (H r Hr). rewrite forallb_forall in H.
  apply andb_true_iff in Hc as [A B]. apply N.leb_le in A, B.
  destruct (existsb _ bad) eqn:E; auto.
  apply existsb_exists in E as (q & Hq & E). specialize (H q Hq).
  apply andb_true_iff in E as [C D]. apply N.leb_le in C, D.
  apply orb_true_iff in H as [H|H]; [apply orb_true_iff in H as [H|H]|]; apply N.ltb_lt in H; lia.
Qed.

Fixpoint avoids (bad : list (N * N)) (r : re) : bool :=
  match r with
  | Emp | Eps => true
  | Cls rs => ranges_avoid rs bad
  | Cat a c | Alt a c => avoids bad a && avoids bad c
  | Star a => avoids bad a
  end.

Theorem avoids_spec bad r s :
  avoids bad r = true -> Lang r s -> Forall (fun c => in_ranges bad c = false) s.
Proof.
  intros H L. induction L; simpl in H;
    try (apply andb_true_iff in H as [H1 H2]); auto.
  - constructor; [eapply ranges_avoid_spec; eauto | constructor].
  - apply Forall_app; auto.
  - apply Forall_app; auto.
Qed.

Lemma Forall_contains (P : N -> Prop) x s : ~ P x -> Forall P s -> contains x s = false.
Proof.
  intros Hx F. unfold contains. induction F as [|c s Hc F IH]; [reflexivity|]. simpl.
  rewrite IH, orb_false_r. apply N.eqb_neq. intros ->. auto.
Qed.

Lemma forall_not_single x s :
  Forall (fun c => in_ranges [(x, x)] c = false) s -> contains x s = false.
Proof. apply Forall_contains. simpl. now rewrite N.leb_refl. Qed.

Corollary avoids_contains x r s :
  avoids [(x, x)] r = true -> Lang r s -> contains x s = false.
Proof. intros H L. apply forall_not_single. eapply avoids_spec; eauto. Qed.
