(* C05 -- Only content matching its descriptor ever becomes visible in a store. The theorems are
   closed by [exact] of a lemma or by a line or two from a more general one, the examples by
   evaluation; the lemmas live in Proofs/Verify*.v, the model (content.ReadAll, VerifyReader,
   ioutil.CopyBuffer, cas.Memory, LimitedStorage, oci.Storage, file.Store) in Model/Verify.v and
   Model/VerifyAny.v.

   H : algorithm -> bytes -> encoded digest is arbitrary (no assumption on SHA-2).
   comb / fuel / the script [evs] quantify over every reader behaviour (arbitrary
   chunking, 0-byte reads, an error at any offset, data together with EOF/error).
   [matches_desc H dg sz bs] = length bs = sz /\ dg = alg:H alg bs /\ dg is a valid digest. *)
From Oras Require Import Base.Prelude Generated.GC05 Model.Verify Proofs.Verify Proofs.VerifyComplete Proofs.VerifyProxy Proofs.VerifyFuel Proofs.VerifyConc Proofs.VerifyTop Proofs.VerifyWriter Proofs.VerifyNames Proofs.VerifyFileConc Proofs.VerifyOpts Proofs.VerifyChunk Proofs.VerifyEof Proofs.VerifyFacts Model.VerifyAny Proofs.VerifyAny.

(* ReadAll hands back data only when length and digest match and the reader held
   nothing else *)
Theorem C05_readall :
  forall (H : str -> str -> str) comb fixed fuel src dg sz buf v,
    read_all H comb fixed fuel src dg sz = ((None, buf), v) ->
    matches_desc H dg sz buf /\
    (exists rest, stream (b_evs src) = buf ++ rest) /\
    (b_lim src = None -> neof (b_evs src) = 0%nat -> stream (b_evs src) = buf).
Proof. exact read_all_sound. Qed.
Print Assumptions C05_readall.

(* conversely: every well-behaved reader of exactly the right bytes (any chunking, any
   0-byte reads, EOF with or after the last chunk) is accepted, and a memory store
   that does not have the descriptor yet stores it *)
Theorem C05_readall_complete :
  forall (H : str -> str -> str) comb fixed fuel evs dg,
    (nfail evs + neof evs = 0)%nat -> valid_digest dg = true -> dg = digest_of H (alg_of dg) (stream evs) ->
    (ev_weight evs < fuel)%nat ->
    fst (read_all H comb fixed fuel (mkBase evs None) dg (Z.of_nat (length (stream evs))))
    = (None, stream evs).
Proof. exact read_all_complete. Qed.
Print Assumptions C05_readall_complete.

Theorem C05_push_memory_complete :
  forall (H : str -> str -> str) comb fixed fuel m d evs,
    mem_get m d = None -> (nfail evs + neof evs = 0)%nat -> valid_digest (d_dg d) = true ->
    d_dg d = digest_of H (alg_of (d_dg d)) (stream evs) -> d_sz d = Z.of_nat (length (stream evs)) ->
    (ev_weight evs < fuel)%nat ->
    mem_push H comb fixed fuel m d (mkBase evs None) = (None, (d, stream evs) :: m).
Proof. exact mem_push_complete. Qed.
Print Assumptions C05_push_memory_complete.

(* the same for ioutil.CopyBuffer with every buffer size >= 1, and for an OCI layout
   that does not hold the digest yet *)
Theorem C05_copybuffer_complete :
  forall (H : str -> str -> str) comb fuel evs bufsz dg,
    (1 <= bufsz)%nat -> (nfail evs + neof evs = 0)%nat -> valid_digest dg = true ->
    dg = digest_of H (alg_of dg) (stream evs) -> (ev_weight evs < fuel)%nat ->
    fst (copy_buffer H comb true fuel (mkBase evs None) bufsz dg (Z.of_nat (length (stream evs))))
    = (None, stream evs).
Proof. exact copy_buffer_complete. Qed.
Print Assumptions C05_copybuffer_complete.

Theorem C05_push_oci_complete :
  forall (H : str -> str -> str) comb fuel s d evs,
    oci_get s (d_dg d) = None -> (nfail evs + neof evs = 0)%nat -> valid_digest (d_dg d) = true ->
    d_dg d = digest_of H (alg_of (d_dg d)) (stream evs) -> d_sz d = Z.of_nat (length (stream evs)) ->
    (ev_weight evs < fuel)%nat ->
    oci_push H comb true fuel s d (mkBase evs None) = (None, (d_dg d, stream evs) :: s).
Proof. exact oci_push_complete. Qed.
Print Assumptions C05_push_oci_complete.

(* the same for the file store: a named push under a fresh name, and an unnamed push
   into the fallback (LimitedStorage over the memory store) *)
Theorem C05_push_file_complete :
  forall (H : str -> str -> str) comb fuel s name path d evs,
    name <> [] -> name_in name (f_names s) = false ->
    (nfail evs + neof evs = 0)%nat -> valid_digest (d_dg d) = true ->
    d_dg d = digest_of H (alg_of (d_dg d)) (stream evs) -> d_sz d = Z.of_nat (length (stream evs)) ->
    (ev_weight evs < fuel)%nat ->
    file_push H comb true fuel s name path d evs
    = (None, mkFs (assoc_set (f_files s) path (stream evs)) (name :: f_names s)
                  (assoc_set (f_d2p s) (d_dg d) path) (f_fb s)).
Proof. exact file_push_complete. Qed.
Print Assumptions C05_push_file_complete.

Theorem C05_push_limited_complete :
  forall (H : str -> str -> str) comb fixed fuel limit m d evs,
    (d_sz d <= limit)%Z -> mem_get m d = None -> (nfail evs + neof evs = 0)%nat -> valid_digest (d_dg d) = true ->
    d_dg d = digest_of H (alg_of (d_dg d)) (stream evs) -> d_sz d = Z.of_nat (length (stream evs)) ->
    (ev_weight evs < fuel)%nat ->
    limited_push (mem_push H comb fixed fuel) limit m d evs = (None, (d, stream evs) :: m).
Proof. exact limited_mem_push_complete. Qed.
Print Assumptions C05_push_limited_complete.

Theorem C05_push_file_fallback_complete :
  forall (H : str -> str -> str) comb fuel s path d evs,
    (d_sz d <= defaultFallbackPushSizeLimit)%Z -> mem_get (f_fb s) d = None ->
    (nfail evs + neof evs = 0)%nat -> valid_digest (d_dg d) = true ->
    d_dg d = digest_of H (alg_of (d_dg d)) (stream evs) -> d_sz d = Z.of_nat (length (stream evs)) ->
    (ev_weight evs < fuel)%nat ->
    file_push H comb true fuel s [] path d evs
    = (None, mkFs (f_files s) (f_names s) (f_d2p s) ((d, stream evs) :: f_fb s)).
Proof. exact file_push_fallback_complete. Qed.
Print Assumptions C05_push_file_fallback_complete.

(* FetchAll = Fetch then ReadAll: whatever bytes a store's Fetch serves (even a blob
   corrupted on disk), FetchAll returns them only if they match the descriptor *)
Theorem C05_fetchall :
  forall (H : str -> str -> str) comb fixed fuel served dg sz buf v,
    read_all H comb fixed fuel (mkBase [Data served] None) dg sz = ((None, buf), v) ->
    buf = served /\ matches_desc H dg sz served.
Proof. exact read_all_served. Qed.
Print Assumptions C05_fetchall.

(* FetchAll on the built-in stores (the model's FetchAll, which the correspondence runs
   after every push and on the final state) *)
Theorem C05_fetchall_stores :
  forall (H : str -> str -> str),
  (forall m d b, mem_fetch_all H m d = (None, b) -> mem_get m d = Some b /\ matches_desc H (d_dg d) (d_sz d) b) /\
  (forall s d b, oci_fetch_all H s d = (None, b) -> oci_get s (d_dg d) = Some b /\ matches_desc H (d_dg d) (d_sz d) b) /\
  (forall s name d b, file_fetch_all H s name d = (None, b) ->
                      file_fetch s name d = Some b /\ matches_desc H (d_dg d) (d_sz d) b).
Proof. exact fetch_all_stores. Qed.
Print Assumptions C05_fetchall_stores.

(* any use of a VerifyReader (any sequence of Read(k) and Verify calls): once
   Verify returns nil the bytes read are exactly the descriptor's, the source is
   exhausted, and the reader stays at EOF *)
Theorem C05_verify_reader :
  forall (H : str -> str -> str) comb fuel src dg sz ops v out v',
    vr_run H comb fuel dg ops (new_vr true src dg sz) [] = (v, out) ->
    vr_verify H comb fuel dg v = (None, v') ->
    matches_desc H dg sz out /\
    (exists rest, stream (b_evs src) = out ++ rest) /\
    (b_lim src = None -> neof (b_evs src) = 0%nat -> stream (b_evs src) = out) /\
    (forall k, vr_read comb v' k = (([], Some EEof), v')) /\
    vr_verify H comb fuel dg v' = (None, v').
Proof. exact verify_reader_sound. Qed.
Print Assumptions C05_verify_reader.

(* ioutil.CopyBuffer (every buffer size): nil only if what was written is exactly
   the descriptor's bytes and the reader held nothing else *)
Theorem C05_copybuffer :
  forall (H : str -> str -> str) comb fuel src bufsz dg sz out v,
    copy_buffer H comb true fuel src bufsz dg sz = ((None, out), v) ->
    matches_desc H dg sz out /\
    (exists rest, stream (b_evs src) = out ++ rest) /\
    (b_lim src = None -> neof (b_evs src) = 0%nat -> stream (b_evs src) = out).
Proof. exact copy_buffer_sound. Qed.
Print Assumptions C05_copybuffer.

(* ioutil.CopyBuffer into a destination that fails or short-writes after any number of
   bytes (io.CopyBuffer's write-error / io.ErrShortWrite handling): nil only if the
   destination took every byte, and then it holds exactly the descriptor's bytes *)
Theorem C05_copybuffer_faulty_destination :
  forall (H : str -> str -> str) comb fuel src bufsz dg sz w out v w',
    copy_buffer_w H comb true fuel src bufsz dg sz w = (((None, out), v), w') ->
    copy_buffer H comb true fuel src bufsz dg sz = ((None, out), v) /\
    (w_mode w <> None -> (length out <= w_left w)%nat) /\
    matches_desc H dg sz out /\
    (b_lim src = None -> neof (b_evs src) = 0%nat -> stream (b_evs src) = out).
Proof. exact copy_buffer_w_sound. Qed.
Print Assumptions C05_copybuffer_faulty_destination.

(* the size of the copy buffer is irrelevant: for every two buffer sizes >= 1 CopyBuffer
   returns the same error, has written the same bytes and leaves the reader in the same
   state (so os.File.ReadFrom's 32 KiB and the stores' 1 MiB pool buffer cannot matter) *)
Theorem C05_copybuffer_bufsz_independent :
  forall (H : str -> str -> str) comb fixed fuel evs b1 b2 dg sz,
    (1 <= b1)%nat -> (1 <= b2)%nat -> (ev_weight evs < fuel)%nat ->
    copy_buffer H comb fixed fuel (mkBase evs None) b1 dg sz = copy_buffer H comb fixed fuel (mkBase evs None) b2 dg sz.
Proof. exact copy_buffer_bufsz_indep. Qed.
Print Assumptions C05_copybuffer_bufsz_independent.

(* the two verification paths agree: content.ReadAll (memory store, FetchAll) and
   ioutil.CopyBuffer (OCI layout, file store; any buffer size) accept exactly the same
   (reader, descriptor) pairs and hand on the same bytes; a memory store and an OCI layout
   that do not hold the descriptor yet accept the same pushes and store the same bytes *)
Theorem C05_paths_agree :
  forall (H : str -> str -> str) comb fuel evs bufsz dg sz buf,
    (1 <= bufsz)%nat -> (ev_weight evs < fuel)%nat -> neof evs = 0%nat ->
    (fst (read_all H comb true fuel (mkBase evs None) dg sz) = (None, buf) <->
     fst (copy_buffer H comb true fuel (mkBase evs None) bufsz dg sz) = (None, buf)).
Proof. exact paths_agree. Qed.
Print Assumptions C05_paths_agree.

Theorem C05_stores_agree :
  forall (H : str -> str -> str) comb fuel m s d evs buf,
    (ev_weight evs < fuel)%nat -> neof evs = 0%nat -> mem_get m d = None -> oci_get s (d_dg d) = None ->
    (mem_push H comb true fuel m d (mkBase evs None) = (None, (d, buf) :: m) <->
     oci_push H comb true fuel s d (mkBase evs None) = (None, (d_dg d, buf) :: s)).
Proof. exact stores_agree. Qed.
Print Assumptions C05_stores_agree.

(* readers for which io.EOF is not final, NO side condition on the script: what ReadAll
   and CopyBuffer accept is exactly what the reader delivers before its first EOF; bytes
   beyond Size before that EOF are always an error (what lies behind an EOF is never read) *)
Theorem C05_accepts_exactly_upto_eof :
  forall (H : str -> str -> str) comb fixed fuel evs bufsz dg sz,
    (forall buf v, read_all H comb fixed fuel (mkBase evs None) dg sz = ((None, buf), v) -> upto_eof evs = buf) /\
    (forall out v, copy_buffer H comb fixed fuel (mkBase evs None) bufsz dg sz = ((None, out), v) -> upto_eof evs = out).
Proof.
  exact (fun H comb fixed fuel evs bufsz dg sz =>
           conj (read_all_upto_eof H comb fixed fuel evs dg sz)
                (copy_buffer_upto_eof H comb fixed fuel evs bufsz dg sz)).
Qed.
Print Assumptions C05_accepts_exactly_upto_eof.

(* ... and the same for any use of a VerifyReader: once Verify returns nil, the bytes read
   are exactly what the reader delivered before its first EOF *)
Theorem C05_verify_reader_upto_eof :
  forall (H : str -> str -> str) comb fuel evs dg sz ops v out v',
    vr_run H comb fuel dg ops (new_vr true (mkBase evs None) dg sz) [] = (v, out) ->
    vr_verify H comb fuel dg v = (None, v') -> upto_eof evs = out.
Proof. exact verify_reader_upto_eof. Qed.
Print Assumptions C05_verify_reader_upto_eof.

(* ... and a successful Push (memory store, OCI layout, named file) stores exactly those bytes *)
Theorem C05_push_stores_upto_eof :
  forall (H : str -> str -> str) comb fuel evs d,
    (forall fixed m m', mem_push H comb fixed fuel m d (mkBase evs None) = (None, m') -> m' = (d, upto_eof evs) :: m) /\
    (forall s s', oci_push H comb true fuel s d (mkBase evs None) = (None, s') -> s' = (d_dg d, upto_eof evs) :: s) /\
    (forall s name path s', name <> [] -> file_push H comb true fuel s name path d evs = (None, s') ->
       assoc_get (f_files s') path = Some (upto_eof evs)).
Proof. exact push_stores_upto_eof. Qed.
Print Assumptions C05_push_stores_upto_eof.

Theorem C05_trailing_before_eof_rejected :
  forall (H : str -> str -> str) comb fuel evs d,
    (d_sz d < Z.of_nat (length (upto_eof evs)))%Z ->
    (forall fixed buf v, read_all H comb fixed fuel (mkBase evs None) (d_dg d) (d_sz d) <> ((None, buf), v)) /\
    (forall bufsz out v, copy_buffer H comb true fuel (mkBase evs None) bufsz (d_dg d) (d_sz d) <> ((None, out), v)) /\
    (forall fixed m e m', mem_push H comb fixed fuel m d (mkBase evs None) = (e, m') -> e <> None /\ m' = m) /\
    (forall s e s', oci_push H comb true fuel s d (mkBase evs None) = (e, s') -> e <> None /\ s' = s).
Proof. exact trailing_before_eof_rejected. Qed.
Print Assumptions C05_trailing_before_eof_rejected.

(* malformed or unsupported digest, negative size, reader shorter than Size, first
   Size bytes hashing to something else, bytes beyond Size: always an error *)
Theorem C05_trailing_short_malformed_rejected :
  forall (H : str -> str -> str) comb fuel src bufsz dg sz,
    (valid_digest dg = false \/ (sz < 0)%Z \/
     (Z.of_nat (length (stream (b_evs src))) < sz)%Z \/
     dg <> digest_of H (alg_of dg) (firstn (Z.to_nat sz) (stream (b_evs src))) \/
     (b_lim src = None /\ neof (b_evs src) = 0%nat /\ (sz < Z.of_nat (length (stream (b_evs src))))%Z)) ->
    (forall fixed buf v, read_all H comb fixed fuel src dg sz <> ((None, buf), v)) /\
    (forall out v, copy_buffer H comb true fuel src bufsz dg sz <> ((None, out), v)).
Proof.
  exact (fun H comb fuel src bufsz dg sz B =>
           conj (fun fixed buf v => read_all_rejects H comb fixed fuel src dg sz buf v B)
                (fun out v => copy_buffer_rejects H comb fuel src bufsz dg sz out v B)).
Qed.
Print Assumptions C05_trailing_short_malformed_rejected.

(* a reader that returns an error at any offset before it is exhausted is never
   accepted (ReadAll, CopyBuffer with any buffer, memory / OCI / named file push) *)
Theorem C05_failing_reader_rejected :
  forall (H : str -> str -> str) comb fuel evs d,
    In Fail evs -> neof evs = 0%nat ->
    (forall fixed buf v, read_all H comb fixed fuel (mkBase evs None) (d_dg d) (d_sz d) <> ((None, buf), v)) /\
    (forall bufsz out v, copy_buffer H comb true fuel (mkBase evs None) bufsz (d_dg d) (d_sz d) <> ((None, out), v)) /\
    (forall fixed m e m', mem_push H comb fixed fuel m d (mkBase evs None) = (e, m') -> e <> None /\ m' = m) /\
    (forall s e s', oci_push H comb true fuel s d (mkBase evs None) = (e, s') -> e <> None /\ s' = s) /\
    (forall s name path e s', name <> [] -> file_push H comb true fuel s name path d evs = (e, s') -> e <> None).
Proof. exact failing_reader_rejected. Qed.
Print Assumptions C05_failing_reader_rejected.

(* a reader that fails or ends before Size bytes were delivered is never accepted, on
   any path, also behind the LimitReader of LimitedStorage / the file-store fallback
   (avail = bytes deliverable before the first error of the reader) *)
Theorem C05_early_failure_rejected :
  forall (H : str -> str -> str) comb fuel evs d,
    (Z.of_nat (avail evs) < d_sz d)%Z ->
    (forall fixed lim buf v, read_all H comb fixed fuel (mkBase evs lim) (d_dg d) (d_sz d) <> ((None, buf), v)) /\
    (forall lim bufsz out v, copy_buffer H comb true fuel (mkBase evs lim) bufsz (d_dg d) (d_sz d) <> ((None, out), v)) /\
    (forall fixed lim m e m', mem_push H comb fixed fuel m d (mkBase evs lim) = (e, m') -> e <> None /\ m' = m) /\
    (forall lim s e s', oci_push H comb true fuel s d (mkBase evs lim) = (e, s') -> e <> None /\ s' = s) /\
    (forall s name path e s', file_push H comb true fuel s name path d evs = (e, s') -> e <> None).
Proof. exact early_failure_rejected. Qed.
Print Assumptions C05_early_failure_rejected.

(* cas.Memory.Push: success stores exactly the descriptor's bytes; failure changes nothing *)
Theorem C05_push_memory :
  forall (H : str -> str -> str) comb fixed fuel m d src e m',
    mem_push H comb fixed fuel m d src = (e, m') ->
    (e = None /\ mem_get m d = None /\
     exists buf, m' = (d, buf) :: m /\ matches_desc H (d_dg d) (d_sz d) buf /\
                 (exists rest, stream (b_evs src) = buf ++ rest) /\
                 (b_lim src = None -> neof (b_evs src) = 0%nat -> stream (b_evs src) = buf))
    \/ (e <> None /\ m' = m).
Proof. exact mem_push_spec. Qed.
Print Assumptions C05_push_memory.

(* oci.Storage.Push: success adds exactly the descriptor's bytes under blobs/; failure
   leaves blobs/ as it was (ingest/ is not part of this sequential model: left-over
   ingest files are judged by the oracle, signature ingest-left, and in the concurrent
   model by [ingest_files]) *)
Theorem C05_push_oci :
  forall (H : str -> str -> str) comb fuel s d src e s',
    oci_push H comb true fuel s d src = (e, s') ->
    (e = None /\ oci_get s (d_dg d) = None /\
     exists out, s' = (d_dg d, out) :: s /\ matches_desc H (d_dg d) (d_sz d) out /\
                 (exists rest, stream (b_evs src) = out ++ rest) /\
                 (b_lim src = None -> neof (b_evs src) = 0%nat -> stream (b_evs src) = out))
    \/ (e <> None /\ s' = s).
Proof. exact oci_push_spec. Qed.
Print Assumptions C05_push_oci.

(* LimitedStorage over any store: too big = nothing happens, otherwise the inner push
   of the reader cut at Size *)
Theorem C05_push_limited :
  forall St (push : St -> desc -> base -> option rerr * St) limit st d evs e st',
    limited_push push limit st d evs = (e, st') ->
    (e = Some ETooBig /\ st' = st) \/
    ((d_sz d <= limit)%Z /\ push st d (mkBase evs (Some (d_sz d))) = (e, st')).
Proof. exact @limited_push_spec. Qed.
Print Assumptions C05_push_limited.

(* file.Store.Push (named files and the limited-memory fallback), on every state reached
   without aliasing, for a push whose resolved path does not alias a path that serves
   visible content ([path_free]; [path] = resolveWritePath name): the store invariant
   is kept; success makes matching content visible; failure leaves Exists and Fetch of
   every descriptor unchanged.  PARTIAL: without [path_free] the statement is false for
   the code (names are compared as strings but written as paths), see
   C05_push_file_alias_refuted -- known finding file-alias-clobbers-visible. *)
Theorem C05_push_file_partial :
  forall (H : str -> str -> str) comb fuel s name path d evs e s',
    file_reach H s -> path_free s path ->
    file_push H comb true fuel s name path d evs = (e, s') ->
    (e = None ->
       exists bs, file_fetch s' name d = Some bs /\ file_exists s' name d = true /\
                  d_dg d = digest_of H (alg_of (d_dg d)) bs /\ valid_digest (d_dg d) = true /\
                  ((name <> [] \/ assoc_get (f_d2p s) (d_dg d) = None) ->
                   matches_desc H (d_dg d) (d_sz d) bs /\ exists rest, stream evs = bs ++ rest)) /\
    (e <> None -> forall name' d', file_exists s' name' d' = file_exists s name' d' /\
                                   file_fetch s' name' d' = file_fetch s name' d').
Proof.
  exact (fun H comb fuel s name path d evs e s' R Pf E =>
           proj2 (file_push_spec H comb fuel s name path d evs e s' (file_reach_ok H s R) (fun _ => Pf) E)).
Qed.
Print Assumptions C05_push_file_partial.

(* the full statement (any name) is refuted by the model of the current code: "a" and
   "./a" are two names of one path; a successful second push replaces the bytes served
   under the first descriptor, a FAILED second push removes them *)
Theorem C05_push_file_alias_refuted :
  exists (H : str -> str -> str) dX dY s1 s2 s2' e,
    file_push H false true 20 (mkFs [] [] [] []) (b "a") (b "a") dX [Data [1;2;3]] = (None, s1) /\
    (* second name, same path, good content: Fetch of the first descriptor changes *)
    file_push H false true 20 s1 (b "./a") (b "a") dY [Data [7;7]] = (None, s2) /\
    file_fetch s1 (b "a") dX = Some [1;2;3] /\ file_fetch s2 (b "a") dX = Some [7;7] /\
    d_dg dX <> digest_of H (alg_of (d_dg dX)) [7;7] /\
    (* second name, same path, bad content: the push fails and the first content is gone *)
    file_push H false true 20 s1 (b "./a") (b "a") dY [Data [9]] = (Some e, s2') /\
    file_exists s2' (b "a") dX = true /\ file_fetch s2' (b "a") dX = None.
Proof. exact file_alias_refuted. Qed.
Print Assumptions C05_push_file_alias_refuted.

(* the FULL statement for the file store by names: resolveWritePath (lexical
   filepath.Clean + traversal check) is part of the model ([file_push_name]); in every
   history in which no pushed name resolves to the path of another name in use
   ([no_alias], a condition on the names alone) a successful push makes matching content
   visible and a failed one (incl. duplicate name, refused traversal) changes nothing *)
Theorem C05_push_file_names :
  forall (H : str -> str -> str) comb fuel s name d evs e s',
    file_reach_names H s -> no_alias s name ->
    file_push_name H comb true fuel s name d evs = (e, s') ->
    (e = None ->
       exists bs, file_fetch s' name d = Some bs /\ file_exists s' name d = true /\
                  d_dg d = digest_of H (alg_of (d_dg d)) bs /\ valid_digest (d_dg d) = true /\
                  ((name <> [] \/ assoc_get (f_d2p s) (d_dg d) = None) ->
                   matches_desc H (d_dg d) (d_sz d) bs /\ exists rest, stream evs = bs ++ rest)) /\
    (e <> None -> forall name' d', file_exists s' name' d' = file_exists s name' d' /\
                                   file_fetch s' name' d' = file_fetch s name' d').
Proof. exact file_push_name_spec. Qed.
Print Assumptions C05_push_file_names.

Theorem C05_file_names_visible_matches :
  forall (H : str -> str -> str) s name d bs,
    file_reach_names H s -> file_fetch s name d = Some bs ->
    d_dg d = digest_of H (alg_of (d_dg d)) bs /\ valid_digest (d_dg d) = true.
Proof. exact file_names_visible_matches. Qed.
Print Assumptions C05_file_names_visible_matches.

(* a name that leaves the working directory (cleaned form starts with "..", or absolute)
   is refused before anything is written *)
Theorem C05_file_traversal_refused :
  forall (H : str -> str -> str) comb fuel s name d evs,
    name <> [] -> name_in name (f_names s) = false -> resolve_name name = None ->
    file_push_name H comb true fuel s name d evs = (Some ETraversal, s).
Proof. exact file_push_traversal. Qed.
Print Assumptions C05_file_traversal_refused.

(* Store.DisableOverwrite: resolveWritePath refuses a path that exists, so nothing that
   is visible can be clobbered: the FULL statement for EVERY name, aliases included, over
   all histories of such a store (any mix of the other options) *)
Theorem C05_push_file_disable_overwrite :
  forall (H : str -> str -> str) comb o fuel s name d evs e s',
    file_reach_do H s -> o_disable_overwrite o = true -> name <> [] ->
    file_push_opt H comb true o fuel s name d evs = (e, s') ->
    (e = None ->
       exists bs, file_fetch s' name d = Some bs /\ file_exists s' name d = true /\
                  matches_desc H (d_dg d) (d_sz d) bs /\ exists rest, stream evs = bs ++ rest) /\
    (e <> None -> forall name' d', file_exists s' name' d' = file_exists s name' d' /\
                                   file_fetch s' name' d' = file_fetch s name' d') /\
    (forall name' d' bs, file_fetch s' name' d' = Some bs ->
                         d_dg d' = digest_of H (alg_of (d_dg d')) bs /\ valid_digest (d_dg d') = true).
Proof. exact file_disable_overwrite. Qed.
Print Assumptions C05_push_file_disable_overwrite.

(* the option-free push is the default instance; Store.IgnoreNoName discards unnamed content *)
Theorem C05_file_options :
  forall (H : str -> str -> str) comb fuel s name d evs,
    file_push_opt H comb true default_opts fuel s name d evs = file_push_name H comb true fuel s name d evs /\
    (forall o, o_ignore_noname o = true -> file_push_opt H comb true o fuel s [] d evs = (None, s)).
Proof. exact file_options. Qed.
Print Assumptions C05_file_options.

(* Exists and Fetch agree on every reachable state (so "leaves Exists false and Fetch
   failing" is one statement): OCI layout, and the file store with its digestToPath /
   name status / fallback lookup *)
Theorem C05_exists_iff_fetch :
  forall (H : str -> str -> str),
  (forall s d, valid_digest (d_dg d) = true ->
     (oci_exists s d = (None, true) <-> exists bs, oci_get s (d_dg d) = Some bs)) /\
  (forall s name d, file_reach H s ->
     (file_exists s name d = true <-> exists bs, file_fetch s name d = Some bs)).
Proof. exact exists_iff_fetch. Qed.
Print Assumptions C05_exists_iff_fetch.

(* bad input never gets in, whatever the store *)
Theorem C05_push_bad_rejected :
  forall (H : str -> str -> str) comb fuel d evs,
    (forall fixed m e m',
       bad_input H (mkBase evs None) (d_dg d) (d_sz d) ->
       mem_push H comb fixed fuel m d (mkBase evs None) = (e, m') -> e <> None /\ m' = m) /\
    (forall fixed limit m e m',
       bad_input H (mkBase evs (Some (d_sz d))) (d_dg d) (d_sz d) ->
       limited_push (mem_push H comb fixed fuel) limit m d evs = (e, m') -> e <> None /\ m' = m) /\
    (forall s e s',
       bad_input H (mkBase evs None) (d_dg d) (d_sz d) ->
       oci_push H comb true fuel s d (mkBase evs None) = (e, s') -> e <> None /\ s' = s) /\
    (forall s name path e s',
       bad_input H (mkBase evs (match name with [] => Some (d_sz d) | _ => None end)) (d_dg d) (d_sz d) ->
       file_push H comb true fuel s name path d evs = (e, s') -> e <> None).
Proof.
  exact (fun H comb fuel d evs =>
    conj (fun fixed m e m' B => mem_push_refused H comb fixed fuel m d _ e m' (fun buf v => read_all_rejects H comb fixed fuel _ _ _ buf v B))
   (conj (fun fixed limit m e m' B => limited_push_refused H comb fixed fuel limit m d evs e m' (fun buf v => read_all_rejects H comb fixed fuel _ _ _ buf v B))
   (conj (fun s e s' B => oci_push_refused H comb true fuel s d _ e s' (fun out v => copy_buffer_rejects H comb fuel _ _ _ _ out v B))
         (fun s name path => file_push_rejects H comb fuel s name path d evs)))).
Qed.
Print Assumptions C05_push_bad_rejected.

(* after ANY history of pushes (good, bad, duplicate, limited) whatever a store
   serves matches the descriptor / digest it is served under (file store: histories
   without name aliasing, see C05_push_file_alias_refuted) *)
Theorem C05_visible_matches :
  forall (H : str -> str -> str),
    (forall m d bs, mem_reach H m -> mem_get m d = Some bs -> matches_desc H (d_dg d) (d_sz d) bs) /\
    (forall s dg bs, oci_reach H s -> oci_get s dg = Some bs ->
                     dg = digest_of H (alg_of dg) bs /\ valid_digest dg = true) /\
    (forall s name d bs, file_reach H s -> file_fetch s name d = Some bs ->
                         d_dg d = digest_of H (alg_of (d_dg d)) bs /\ valid_digest (d_dg d) = true).
Proof.
  exact (fun H => conj (fun m d bs R => mem_reach_ok H m R d bs)
                 (conj (fun s dg bs R => oci_reach_ok H s R dg bs)
                       (fun s name d bs R => file_fetch_ok H s name d bs (file_reach_ok H s R)))).
Qed.
Print Assumptions C05_visible_matches.

(* the fuel of the model's loops excludes nothing: with more fuel than the weight of
   the reader script (events + bytes) ReadAll and CopyBuffer (buffer >= 1) never
   report EFuel and their complete result no longer depends on the fuel *)
Theorem C05_fuel_sufficient :
  forall (H : str -> str -> str) comb fixed fuel src bufsz dg sz,
    (ev_weight (b_evs src) < fuel)%nat ->
    fst (fst (read_all H comb fixed fuel src dg sz)) <> Some EFuel /\
    (forall fuel', (ev_weight (b_evs src) < fuel')%nat ->
       read_all H comb fixed fuel' src dg sz = read_all H comb fixed fuel src dg sz) /\
    ((1 <= bufsz)%nat ->
       fst (fst (copy_buffer H comb fixed fuel src bufsz dg sz)) <> Some EFuel /\
       forall fuel', (ev_weight (b_evs src) < fuel')%nat ->
         copy_buffer H comb fixed fuel' src bufsz dg sz = copy_buffer H comb fixed fuel src bufsz dg sz).
Proof.
  exact (fun H comb fixed fuel src bufsz dg sz Fu =>
           let (A, B) := read_all_fuel H comb fixed fuel src dg sz Fu in
           conj A (conj B (fun B1 => copy_buffer_fuel H comb fixed fuel src bufsz dg sz B1 Fu))).
Qed.
Print Assumptions C05_fuel_sufficient.

(* cas.Proxy (NewProxy / NewProxyWithLimit over a cas.Memory cache; Fetch, any
   sequence of Read sizes, Close; StopCaching on or off; the io.Pipe / drain protocol
   between the TeeReader and the cache push): the cache only ever holds verified
   content; what Fetch hands out is a prefix of the cached bytes (hit) or of the base
   store's bytes (miss); with StopCaching or when the cache push fails (short, wrong,
   trailing, malformed, too big) the cache is unchanged; when it is filled, it is
   filled with bytes of the base that match the descriptor *)
Theorem C05_proxy :
  forall (H : str -> str -> str) limit stop m d comb evs ks rs ce m',
    (forall d0 bs, mem_get m d0 = Some bs -> matches_desc H (d_dg d0) (d_sz d0) bs) ->
    proxy_fetch H limit stop m d comb evs ks = ((rs, ce), m') ->
    (forall d0 bs, mem_get m' d0 = Some bs -> matches_desc H (d_dg d0) (d_sz d0) bs) /\
    match mem_get m d with
    | Some bs =>
        matches_desc H (d_dg d) (d_sz d) bs /\ m' = m /\ ce = None /\
        exists rest, bs = concat (map fst rs) ++ rest
    | None =>
        (exists rest, stream evs = concat (map fst rs) ++ rest) /\
        (stop = true -> m' = m /\ ce = None) /\
        (ce <> None -> m' = m) /\
        (m' = m \/
         exists buf, m' = (d, buf) :: m /\ ce = None /\ matches_desc H (d_dg d) (d_sz d) buf /\
                     (exists rest, stream evs = buf ++ rest) /\
                     (limit = None -> buf = concat (map fst rs)))
    end.
Proof. exact proxy_fetch_spec. Qed.
Print Assumptions C05_proxy.

(* over ALL histories of fetches through one proxy: the cache invariant, and what a cache
   hit serves *)
Theorem C05_proxy_histories :
  forall (H : str -> str -> str),
    (forall m, proxy_reach H m ->
       forall d bs, mem_get m d = Some bs -> matches_desc H (d_dg d) (d_sz d) bs) /\
    (forall limit stop m d comb evs ks rs ce m' bs,
       proxy_reach H m -> mem_get m d = Some bs ->
       proxy_fetch H limit stop m d comb evs ks = ((rs, ce), m') ->
       matches_desc H (d_dg d) (d_sz d) bs /\ m' = m /\ ce = None /\
       exists rest, bs = concat (map fst rs) ++ rest).
Proof. exact (fun H => conj (proxy_reach_ok H) (proxy_history_hit H)). Qed.
Print Assumptions C05_proxy_histories.

(* concurrent pushes into one OCI layout (any number of threads, any descriptors --
   in particular good and bad content under one digest --, any schedule of their
   Stat / CreateTemp / Write / Remove / Rename micro-steps): at every instant every
   file under blobs/ hashes to its name, and a push that reports success has put its
   reader's exact bytes there *)
Theorem C05_concurrent_same_digest :
  forall (H : str -> str -> str) blobs ts sched st,
    oci_reach H blobs -> Forall (fun t => t_pc t = PStart) ts ->
    crun H (mkC blobs ts) sched = Some st ->
    (forall dg bs, oci_get (c_blobs st) dg = Some bs ->
                   dg = digest_of H (alg_of dg) bs /\ valid_digest dg = true) /\
    (forall i n st' t w, cstep H st i n = Some st' -> nth_error (c_thr st) i = Some t ->
                         t_pc t = PIngest w [] None ->
       exists w', oci_get (c_blobs st') (d_dg (t_d t)) = Some w' /\
                  matches_desc H (d_dg (t_d t)) (d_sz (t_d t)) w' /\ (neof (t_evs t) = 0%nat -> stream (t_evs t) = w')).
Proof.
  exact (fun H blobs ts sched st R F E =>
    let Iv := crun_inv H sched _ _ (cinv_start H blobs ts (oci_reach_ok H blobs R) F) E in
    conj (proj1 Iv) (fun i n st' t w => cstep_success_sound H st i n st' t w Iv)).
Qed.
Print Assumptions C05_concurrent_same_digest.

(* ... and for every reader script (EOF not final): the bytes a successful concurrent push
   puts under blobs/ are exactly what its reader delivered before its first EOF *)
Theorem C05_concurrent_oci_upto_eof :
  forall (H : str -> str -> str) blobs ts sched st,
    oci_reach H blobs -> Forall (fun t => t_pc t = PStart) ts ->
    crun H (mkC blobs ts) sched = Some st ->
    forall i n st' t w, cstep H st i n = Some st' -> nth_error (c_thr st) i = Some t ->
      t_pc t = PIngest w [] None ->
      oci_get (c_blobs st') (d_dg (t_d t)) = Some (upto_eof (t_evs t)) /\
      matches_desc H (d_dg (t_d t)) (d_sz (t_d t)) (upto_eof (t_evs t)).
Proof. exact concurrent_oci_upto. Qed.
Print Assumptions C05_concurrent_oci_upto_eof.

(* the same for one cas.Memory (directly or through LimitedStorage): Load, ReadAll,
   LoadOrStore of any number of threads in any order; what a successful push has stored
   is a prefix of its reader's bytes (LimitedStorage cuts the reader at Size; without it see
   C05_concurrent_memory_upto_eof) *)
Theorem C05_concurrent_memory :
  forall (H : str -> str -> str) m ts sched st,
    mem_reach H m -> Forall (fun t => m_pc t = MStart) ts ->
    mrun H (mkM m ts) sched = Some st ->
    (forall d bs, mem_get (ms_mem st) d = Some bs -> matches_desc H (d_dg d) (d_sz d) bs) /\
    (forall i st' t buf, mstep H st i = Some st' -> nth_error (ms_thr st) i = Some t ->
       m_pc t = MRead None buf -> mem_get (ms_mem st) (m_d t) = None ->
       mem_get (ms_mem st') (m_d t) = Some buf /\ matches_desc H (d_dg (m_d t)) (d_sz (m_d t)) buf /\
       exists rest, stream (m_evs t) = buf ++ rest).
Proof. exact memory_concurrent. Qed.
Print Assumptions C05_concurrent_memory.

(* the outcome set memory-store races are compared with consists of runs of that system *)
Theorem C05_concurrent_memory_explored :
  forall (H : str -> str -> str) fuel st st',
    In st' (explore_m H fuel st) -> exists sched, mrun H st sched = Some st'.
Proof. exact explore_m_reachable. Qed.
Print Assumptions C05_concurrent_memory_explored.

(* concurrent NAMED pushes into one file.Store (any number of threads: good and bad
   content, one digest under several names, one name several times; per-name lock,
   duplicate check, resolveWritePath, Create, CopyBuffer, record-or-remove), any
   schedule, provided no two different names in play ([U]) resolve to one path: at every
   instant what Fetch serves hashes to the digest asked for, and a push that reports
   success has made its reader's exact bytes visible under its name *)
Theorem C05_concurrent_file :
  forall (H : str -> str -> str) (U : list str),
    (forall a c, In a U -> In c U -> resolve_name a = resolve_name c -> a = c) ->
    forall s ts sched st,
    file_reach_names H s -> (forall n, name_in n (f_names s) = true -> In n U) ->
    Forall (fun t => ft_pc t = FStart /\ In (ft_name t) U) ts ->
    frun H (mkFC s ts) sched = Some st ->
    (forall name d bs, file_fetch (fc_st st) name d = Some bs ->
                       d_dg d = digest_of H (alg_of (d_dg d)) bs /\ valid_digest (d_dg d) = true) /\
    (forall i st' t out path, fstep H st i = Some st' -> nth_error (fc_thr st) i = Some t ->
       ft_pc t = FWrite None out path ->
       file_fetch (fc_st st') (ft_name t) (ft_d t) = Some out /\
       matches_desc H (d_dg (ft_d t)) (d_sz (ft_d t)) out /\ (neof (ft_evs t) = 0%nat -> stream (ft_evs t) = out)).
Proof. exact file_concurrent. Qed.
Print Assumptions C05_concurrent_file.

(* the outcome set file-store races are compared with consists of runs of that system *)
Theorem C05_concurrent_file_explored :
  forall (H : str -> str -> str) fuel st st',
    In st' (explore_f H fuel st) -> exists sched, frun H st sched = Some st'.
Proof. exact explore_f_reachable. Qed.
Print Assumptions C05_concurrent_file_explored.

(* the memory and file-store transition systems for EVERY reader script (io.EOF not final):
   what a successful concurrent push stores / makes visible is exactly what its reader
   delivered before its first EOF -- no premise on the script *)
Theorem C05_concurrent_memory_upto_eof :
  forall (H : str -> str -> str) m ts sched st,
    mem_reach H m -> Forall (fun t => m_pc t = MStart /\ m_lim t = None) ts ->
    mrun H (mkM m ts) sched = Some st ->
    forall i t buf, nth_error (ms_thr st) i = Some t -> m_pc t = MRead None buf -> buf = upto_eof (m_evs t).
Proof. exact memory_concurrent_upto. Qed.
Print Assumptions C05_concurrent_memory_upto_eof.

Theorem C05_concurrent_file_upto_eof :
  forall (H : str -> str -> str) (U : list str),
    (forall a c, In a U -> In c U -> resolve_name a = resolve_name c -> a = c) ->
    forall s ts sched st,
    file_reach_names H s -> (forall n, name_in n (f_names s) = true -> In n U) ->
    Forall (fun t => ft_pc t = FStart /\ In (ft_name t) U) ts ->
    frun H (mkFC s ts) sched = Some st ->
    forall i st' t out path, fstep H st i = Some st' -> nth_error (fc_thr st) i = Some t ->
      ft_pc t = FWrite None out path ->
      file_fetch (fc_st st') (ft_name t) (ft_d t) = Some (upto_eof (ft_evs t)).
Proof. exact file_concurrent_upto. Qed.
Print Assumptions C05_concurrent_file_upto_eof.

(* the outcome set the implementation's concurrent runs are compared with (exhaustive
   interleaving of the micro-steps, [explore]) consists of runs of the transition
   system only, so the invariant above holds for each of those outcomes *)
Theorem C05_concurrent_explored :
  forall (H : str -> str -> str) fuel big blobs ts st',
    oci_reach H blobs -> Forall (fun t => t_pc t = PStart) ts ->
    In st' (explore H fuel big (mkC blobs ts)) ->
    (exists sched, crun H (mkC blobs ts) sched = Some st') /\
    (forall dg bs, oci_get (c_blobs st') dg = Some bs ->
                   dg = digest_of H (alg_of dg) bs /\ valid_digest dg = true).
Proof.
  exact (fun H fuel big blobs ts st' R F I1 =>
           conj (explore_reachable H fuel big _ _ I1) (explore_invariant H fuel big blobs ts st' R F I1)).
Qed.
Print Assumptions C05_concurrent_explored.

(* the explorers are also COMPLETE: every schedule (for the OCI system: with unsplit
   Writes) that runs until no thread can move ends in a listed state, so the sets the
   implementation's races are compared with are exactly the terminal states of the three
   transition systems; and a finished OCI race leaves nothing under ingest/ *)
Theorem C05_explorers_complete :
  forall (H : str -> str -> str),
  (forall big sched fuel st st',
     crun H st (map (fun i => (i, big)) sched) = Some st' -> (forall i, cstep H st' i big = None) ->
     (length sched < fuel)%nat -> In st' (explore H fuel big st)) /\
  (forall sched fuel st st',
     mrun H st sched = Some st' -> (forall i, mstep H st' i = None) ->
     (length sched < fuel)%nat -> In st' (explore_m H fuel st)) /\
  (forall sched fuel st st',
     frun H st sched = Some st' -> (forall i, fstep H st' i = None) ->
     (length sched < fuel)%nat -> In st' (explore_f H fuel st)) /\
  (forall st, Forall (fun t => exists r, t_pc t = PDone r) (c_thr st) -> ingest_files st = []).
Proof.
  exact (fun H => conj (explore_complete H) (conj (explore_m_complete H)
                 (conj (explore_f_complete H) ingest_empty_when_done))).
Qed.
Print Assumptions C05_explorers_complete.

(* ... and the restriction to unsplit Writes loses nothing: every schedule of the OCI
   system, with the Writes split in any way, that runs from "no push started" to "every push
   done" ends in a state that an unsplit schedule reaches too, i.e. in an explored outcome
   (big = any bound on the bytes of each reader script, as the correspondence uses) *)
Theorem C05_split_writes_explored :
  forall (H : str -> str -> str) big blobs ts sched st',
    Forall (fun t => t_pc t = PStart /\ (length (stream (t_evs t)) <= S big)%nat) ts ->
    crun H (mkC blobs ts) sched = Some st' ->
    Forall (fun t => exists r, t_pc t = PDone r) (c_thr st') ->
    exists is, crun H (mkC blobs ts) (map (fun i => (i, big)) is) = Some st' /\
               forall fuel, (length is < fuel)%nat -> In st' (explore H fuel big (mkC blobs ts)).
Proof. exact split_writes_explored. Qed.
Print Assumptions C05_split_writes_explored.

(* ... in particular with the fuel 4 * threads + 2 that the correspondence gives the
   explorer: every finished race of the OCI system is in the compared outcome set *)
Theorem C05_explorer_fuel :
  forall (H : str -> str -> str) big blobs ts sched st',
    Forall (fun t => t_pc t = PStart /\ (length (stream (t_evs t)) <= S big)%nat) ts ->
    crun H (mkC blobs ts) sched = Some st' ->
    Forall (fun t => exists r, t_pc t = PDone r) (c_thr st') ->
    In st' (explore H (4 * length ts + 2) big (mkC blobs ts)).
Proof. exact split_writes_explored_fuel. Qed.
Print Assumptions C05_explorer_fuel.

(* 17 syntactic facts about the mirrored Go functions (statement order and exact shape of
   the modelled statements), regenerated from the source on every run (kind c05_srcfact) *)
Theorem C05_source_facts :
  (c05_f_readall &&
   c05_f_readfull &&
   c05_f_newvr &&
   c05_f_vr_read &&
   c05_f_vr_verify &&
   c05_f_ensure_eof &&
   c05_f_fetchall &&
   c05_f_copybuffer &&
   c05_f_limited &&
   c05_f_memory_push &&
   c05_f_oci_push &&
   c05_f_oci_ingest &&
   c05_f_file_push &&
   c05_f_file_save &&
   c05_f_file_pushfile &&
   c05_f_resolve &&
   c05_f_proxy_fetch) = true.
Proof. exact c05_srcfacts_hold. Qed.
Print Assumptions C05_source_facts.

(* the size guards of the model are the conditions of the Go `if` statements themselves
   (LimitedStorage.Push: expected.Size > ls.PushLimit; ReadAll and NewVerifyReader:
   desc.Size < 0; VerifyReader.Verify: vr.base.N > 0), translated into Gallina by the
   translator on every run (the c05_g_ functions) *)
Theorem C05_source_guards :
  forall (H : str -> str -> str) comb,
  (forall St (push : St -> desc -> base -> option rerr * St) limit st d evs,
     limited_push push limit st d evs =
     if c05_g_limited (d_sz d) limit then (Some ETooBig, st) else push st d (mkBase evs (Some (d_sz d)))) /\
  (forall fixed fuel src dg sz,
     c05_g_readall_size sz = true ->
     fst (read_all H comb fixed fuel src dg sz) = (Some EInvalidSize, [])) /\
  (forall fixed fuel src dg sz,
     c05_g_readall_size sz = false ->
     read_all H comb fixed fuel src dg sz =
     let '((buf, e), v') := read_full (vr_read comb) fuel (new_vr fixed src dg sz) (Z.to_nat sz) [] in
     match e with
     | Some e0 => ((Some e0, buf), v')
     | None => let '(e1, v'') := vr_verify H comb fuel dg v' in ((e1, buf), v'')
     end) /\
  (forall fixed src dg sz,
     new_vr_gen fixed src dg sz =
     if negb (valid_digest dg) then mkVr src sz [] (Some EBadDigest) false
     else if fixed && c05_g_newvr_size sz then mkVr src sz [] (Some EInvalidSize) false
          else mkVr src sz [] None false) /\
  (forall fuel dg v,
     v_verified v = false -> v_err v = None -> c05_g_verify_early (v_N v) = true ->
     vr_verify H comb fuel dg v = (Some EEarly, v)).
Proof. exact c05_source_guards. Qed.
Print Assumptions C05_source_guards.

(* the behaviour before the repair (NewVerifyReader accepted a negative Size): the
   CopyBuffer path stored the empty blob under a descriptor of size -1 *)
Theorem C05_push_sound_refuted_negative_size :
  forall (H : str -> str -> str) comb (mt : str),
    valid_digest (empty_digest H) = true ->
    exists d, (d_sz d < 0)%Z /\
      oci_push H comb false 1 [] d (mkBase [] None) = (None, [(d_dg d, [])]).
Proof.
  exact (fun H comb mt V => ex_intro _ (mkDesc mt (empty_digest H) (-1))
                              (conj eq_refl (oci_push_prefix_negative_size H comb mt V))).
Qed.
Print Assumptions C05_push_sound_refuted_negative_size.

(* ------------------------------------------------------------------ the hypotheses are satisfiable *)
(* toyH / toy_dg: a toy digest function (Proofs/VerifyTop.v): 64 hex characters derived from the byte sum *)

Example C05_ex_readall_ok :
  read_all toyH true true 20 (mkBase [Zero; Data [1;2]; Zero; Data [3]] None) (toy_dg [1;2;3]) 3
  = ((None, [1;2;3]), mkVr (mkBase [] None) 0 [1;2;3] (Some EEof) true).
Proof. vm_compute. reflexivity. Qed.

Example C05_ex_readall_trailing :
  fst (fst (read_all toyH false true 20 (mkBase [Data [1;2;3;4]] None) (toy_dg [1;2;3]) 3)) = Some ETrailing.
Proof. vm_compute. reflexivity. Qed.

Example C05_ex_copybuffer_mismatch :
  fst (copy_buffer toyH false true 20 (mkBase [Data [1;2]; Data [3;4]] None) 3 (toy_dg [1;2;3]) 4)
  = (Some EMismatch, [1;2;3;4]).
Proof. vm_compute. reflexivity. Qed.

Example C05_ex_oci_history :
  let good := mkDesc [] (toy_dg [1;2;3]) 3 in
  let '(e1, s1) := oci_push toyH false true 20 [] good (mkBase [Data [1]; Fail] None) in
  let '(e2, s2) := oci_push toyH false true 20 s1 good (mkBase [Data [1;2;3]] None) in
  let '(e3, s3) := oci_push toyH false true 20 s2 good (mkBase [Data [1;2;3]] None) in
  (e1, s1, e2, s2, e3) = (Some EInjected, [], None, [(toy_dg [1;2;3], [1;2;3])], Some EExists).
Proof. vm_compute. reflexivity. Qed.

Example C05_ex_refuted_hypothesis : valid_digest (empty_digest toyH) = true.
Proof. vm_compute. reflexivity. Qed.

(* two threads, a good and a bad push of one digest, interleaved *)
Example C05_ex_concurrent :
  let d := mkDesc [] (toy_dg [1;2;3]) 3 in
  let ts := [mkThr d [Data [1;2;3]] false 20 PStart; mkThr d [Data [9;9;9]] false 20 PStart] in
  match crun toyH (mkC [] ts) [(0,0); (1,0); (1,5); (0,0); (1,0); (0,5); (0,0)]%nat with
  | Some st => c_blobs st = [(toy_dg [1;2;3], [1;2;3])] /\ ingest_files st = []
  | None => False
  end.
Proof. vm_compute. split; reflexivity. Qed.

(* the hypotheses of the completeness theorems hold for a chunked reader with 0-byte reads *)
Example C05_ex_complete_hypotheses :
  let evs := [Zero; Data [1;2]; Zero; Data [3]; Zero] in
  nfail evs = 0%nat /\ valid_digest (toy_dg (stream evs)) = true /\
  toy_dg (stream evs) = digest_of toyH (alg_of (toy_dg (stream evs))) (stream evs) /\
  fst (copy_buffer toyH true true 20 (mkBase evs None) 1 (toy_dg (stream evs)) 3) = (None, [1;2;3]).
Proof. vm_compute. repeat split; reflexivity. Qed.

(* the proxy: a good fetch fills the cache, a second fetch is a hit, a trailing byte is refused *)
Example C05_ex_proxy :
  let d := mkDesc [] (toy_dg [1;2;3]) 3 in
  let '((r1, c1), m1) := proxy_fetch toyH None false [] d false [Data [1;2]; Data [3]] [2; 5; 1]%nat in
  let '((r2, c2), m2) := proxy_fetch toyH None false m1 d false [Data [9]] [5; 1]%nat in
  let '((r3, c3), m3) := proxy_fetch toyH None false [] d false [Data [1;2;3;4]] [3; 5; 1]%nat in
  (c1, m1, map fst r2, c2, c3, m3) = (None, [(d, [1;2;3])], [[1;2;3]; []], None, Some ETrailing, []).
Proof. vm_compute. reflexivity. Qed.

(* io.EOF is not final for an arbitrary reader: what lies behind an EOF is never read
   (first script: accepted), an EOF before Size bytes is an error even if more data would
   follow, and after (data, EOF) in one call more data is trailing data *)
Example C05_ex_eof_not_final :
  (fst (read_all toyH false true 20 (mkBase [Data [1;2;3]; Eof; Data [9]] None) (toy_dg [1;2;3]) 3),
   fst (fst (read_all toyH false true 20 (mkBase [Data [1;2]; Eof; Data [3]] None) (toy_dg [1;2;3]) 3)),
   fst (fst (copy_buffer toyH true true 20 (mkBase [Data [1;2;3]; Eof; Data [9]] None) 2 (toy_dg [1;2;3]) 3)))
  = ((None, [1;2;3]), Some EUnexpEof, Some ETrailing).
Proof. vm_compute. reflexivity. Qed.

(* ---- "every reader behaviour", without the script: the reader below the VerifyReader is ANY
   state machine obeying the io.Reader contract (a Read returns at most len(p) bytes) - a
   network stream, a reader that goes on after EOF, another VerifyReader ...  Whatever sequence
   of Read(k) and Verify calls the caller makes: if some Verify answered nil, everything the
   Reads handed out is exactly the bytes the descriptor names (sz bytes hashing to dg) *)
Theorem C05_verify_any_reader :
  forall (H : str -> str -> str) (S : Type) (rd : S -> nat -> rres * S),
    (forall s k, (length (fst (fst (rd s k))) <= k)%nat) ->
    forall src dg sz fuel ops v' out' oks',
      g_run H rd fuel dg ops (g_new src dg sz) [] 0%nat = (v', out', oks') ->
      (0 < oks')%nat ->
      Z.of_nat (length out') = sz /\ verified H dg out' = true /\ valid_digest dg = true.
Proof. exact @verify_any_reader_sound. Qed.
Print Assumptions C05_verify_any_reader.

(* a VerifyReader over such a reader is such a reader again: the statement above holds for
   verifying readers nested to any depth, e.g. a caller that hands Push / NewVerifyReader a
   reader that is itself a VerifyReader for ANY inner descriptor (dgi, szi) *)
Theorem C05_verify_reader_closure :
  forall (S : Type) (rd : S -> nat -> rres * S),
    (forall s k, (length (fst (fst (rd s k))) <= k)%nat) ->
    forall v k, (length (fst (fst (g_read rd v k))) <= k)%nat.
Proof. exact @g_read_ok. Qed.
Print Assumptions C05_verify_reader_closure.

Theorem C05_nested_verify_reader :
  forall (H : str -> str -> str) comb (src : base) dgi szi dg sz fuel ops v' out' oks',
    g_run H (g_read (base_read comb)) fuel dg ops (g_new (g_new src dgi szi) dg sz) [] 0%nat = (v', out', oks') ->
    (0 < oks')%nat ->
    Z.of_nat (length out') = sz /\ verified H dg out' = true /\ valid_digest dg = true.
Proof. exact nested_verify_reader_sound. Qed.
Print Assumptions C05_nested_verify_reader.

(* the generic definitions at the scripted reader ARE the model the correspondence check runs
   (Model/Verify.v vr_read / vr_verify, observables of the VR / ST / RA cases) *)
Theorem C05_any_reader_instance_is_model :
  forall (H : str -> str -> str) comb fuel dg v k,
    g_read (base_read comb) (to_g v) k = (fst (vr_read comb v k), to_g (snd (vr_read comb v k))) /\
    g_verify H (base_read comb) fuel dg (to_g v) =
      (fst (vr_verify H comb fuel dg v), to_g (snd (vr_verify H comb fuel dg v))) /\
    (forall s k', (length (fst (fst (base_read comb s k'))) <= k')%nat).
Proof. intros H comb fuel dg v k. exact (conj (to_g_read comb v k) (conj (to_g_verify H comb fuel dg v) (base_read_ok comb))). Qed.
Print Assumptions C05_any_reader_instance_is_model.
