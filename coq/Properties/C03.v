(* C03 -- ExtendedCopy reaches every ancestor's graph; depth and filters bound it.
   Statements, each closed by one lemma of Proofs/FindRoots*.v at the right instance; the
   model of findRoots / FilterArtifactType / FilterAnnotation in Model/FindRoots.v.

   Vocabulary: [s_preds s x] is what the source's Predecessors serves for node x, in
   the served order (Go map order) -- every theorem quantifies over it.
   [find_preds s fs] is opts.FindPredecessors after the filter calls [fs];
   [anc s fs x a]: a is reachable from x through followed predecessors;
   [anc_steps s fs k x a]: in exactly k steps.  [acyclic_source]: content
   addressing (a predecessor embeds its successor's digest). *)
From Oras Require Import Base.Prelude Model.FindRoots Proofs.FindRoots.
From Oras Require Import Model.CopySpec Proofs.CopySpec Proofs.FindRootsCopy Proofs.FindRootsMem Proofs.FindRootsAll.
Local Open Scope nat_scope.

(* Depth <= 0 (any filter stack, in particular none: find_preds s [] = s_preds s):
   the roots are exactly the tops of the given node's upward closure, and every
   member of the upward closure lies under some root. *)
Theorem C03_roots_unlimited :
  forall (s : source) (fs : list filter) (rank : nat -> nat) (limit : Z) (node : desc)
         (fuel : nat) (roots : list desc),
    acyclic_source s rank -> (limit <= 0)%Z ->
    find_roots fuel s fs limit node = Some roots ->
    (forall r, In r roots -> anc s fs (d_id node) (d_id r) /\ find_preds s fs (d_id r) = []) /\
    (forall a, anc s fs (d_id node) a -> find_preds s fs a = [] -> In a (map d_id roots)) /\
    (forall a, anc s fs (d_id node) a -> exists r, In r roots /\ anc s fs a (d_id r)).
Proof.
  exact (fun s fs rank limit node fuel roots Hac =>
           roots_unlimited (find_preds s fs) limit node rank (find_preds_rank s fs rank Hac) fuel roots).
Qed.
Print Assumptions C03_roots_unlimited.

(* "no filter" is the empty stack: the followed relation is the source's own *)
Theorem C03_no_filter :
  forall (s : source) (x : nat), find_preds s [] x = s_preds s x.
Proof. exact find_preds_nil. Qed.
Print Assumptions C03_no_filter.

(* Depth = d > 0: every root is an ancestor at most d followed steps away (a top,
   or exactly d steps away), and the given node lies under some root. *)
Theorem C03_depth_bounds :
  forall (s : source) (fs : list filter) (rank : nat -> nat) (limit : Z) (node : desc)
         (fuel : nat) (roots : list desc),
    acyclic_source s rank -> (0 < limit)%Z ->
    find_roots fuel s fs limit node = Some roots ->
    (forall r, In r roots ->
       (exists k, Z.of_nat k <= limit /\ anc_steps s fs k (d_id node) (d_id r))%Z /\
       (find_preds s fs (d_id r) = [] \/ anc_steps s fs (Z.to_nat limit) (d_id node) (d_id r))) /\
    (exists r, In r roots /\ anc s fs (d_id node) (d_id r)).
Proof.
  exact (fun s fs rank limit node fuel roots Hac =>
           roots_depth (find_preds s fs) limit node rank (find_preds_rank s fs rank Hac) fuel roots).
Qed.
Print Assumptions C03_depth_bounds.

(* ... and for ANY Depth (in particular d = 1) every followed direct predecessor of the given node
   lies under a root: the two-sided bound is not exact further up (C03_depth_not_exact), but the
   direct predecessors / referrers are never lost *)
Theorem C03_direct_predecessors_covered :
  forall (s : source) (fs : list filter) (rank : nat -> nat) (limit : Z) (node : desc)
         (fuel : nat) (roots : list desc),
    acyclic_source s rank ->
    find_roots fuel s fs limit node = Some roots ->
    forall p, In p (find_preds s fs (d_id node)) -> exists r, In r roots /\ anc s fs (d_id p) (d_id r).
Proof.
  exact (fun s fs rank limit node fuel roots Hac =>
           roots_cover_direct_preds (find_preds s fs) limit node rank (find_preds_rank s fs rank Hac) fuel roots).
Qed.
Print Assumptions C03_direct_predecessors_covered.

(* The loop terminates within the fuel the runner uses, on every finite source,
   for every depth, filter stack and served order (no acyclicity needed: the
   visited set bounds it). *)
Theorem C03_terminates :
  forall (s : source) (fs : list filter) (limit : Z) (node : desc) (n : nat),
    (forall x p, x < n -> In p (s_preds s x) -> d_id p < n) -> d_id node < n ->
    exists roots, find_roots (fuel_for s n) s fs limit node = Some roots.
Proof. exact find_roots_terminates. Qed.
Print Assumptions C03_terminates.

(* A caller may set opts.FindPredecessors itself.  The walk theorems hold for ANY such function
   (acyclic), and filters stacked on it follow exactly those of its predecessors whose manifest
   satisfies them. *)
Theorem C03_any_find_predecessors_unlimited :
  forall (fp : nat -> list desc) (rank : nat -> nat) (limit : Z) (node : desc) (fuel : nat) (roots : list desc),
    (forall x p, In p (fp x) -> rank x < rank (d_id p)) -> (limit <= 0)%Z ->
    find_roots_fp fuel fp limit node = Some roots ->
    (forall r, In r roots -> Proofs.FindRoots.reach fp (d_id node) (d_id r) /\ fp (d_id r) = []) /\
    (forall a, Proofs.FindRoots.reach fp (d_id node) a -> fp a = [] -> In a (map d_id roots)) /\
    (forall a, Proofs.FindRoots.reach fp (d_id node) a -> exists r, In r roots /\ Proofs.FindRoots.reach fp a (d_id r)).
Proof. exact (fun fp rank limit node fuel roots Hr => roots_unlimited fp limit node rank Hr fuel roots). Qed.
Print Assumptions C03_any_find_predecessors_unlimited.

Theorem C03_any_find_predecessors_depth :
  forall (fp : nat -> list desc) (rank : nat -> nat) (limit : Z) (node : desc) (fuel : nat) (roots : list desc),
    (forall x p, In p (fp x) -> rank x < rank (d_id p)) -> (0 < limit)%Z ->
    find_roots_fp fuel fp limit node = Some roots ->
    (forall r, In r roots ->
       (exists k, Z.of_nat k <= limit /\ Proofs.FindRoots.path fp k (d_id node) (d_id r))%Z /\
       (fp (d_id r) = [] \/ Proofs.FindRoots.path fp (Z.to_nat limit) (d_id node) (d_id r))) /\
    (exists r, In r roots /\ Proofs.FindRoots.reach fp (d_id node) (d_id r)).
Proof. exact (fun fp rank limit node fuel roots Hr => roots_depth fp limit node rank Hr fuel roots). Qed.
Print Assumptions C03_any_find_predecessors_depth.

Theorem C03_custom_filter_exact :
  forall (s : source) (custom : nat -> list desc) (fs : list filter) (x : nat),
    Forall (desc_consistent s) (custom x) ->
    map d_id (find_preds_custom s custom fs x) =
    List.filter (fun id => forallb (fun f => keep_spec s f id) fs) (map d_id (custom x)).
Proof. exact find_preds_custom_exact. Qed.
Print Assumptions C03_custom_filter_exact.

(* Depth <= 0: the SET of roots does not depend on how the source happens to serve its
   predecessors (order, multiplicity, which optional descriptor fields are present) -- fresh or
   reopened store, any Go map order. *)
Theorem C03_roots_order_independent :
  forall (s1 s2 : source) (fs : list filter) (rank1 rank2 : nat -> nat) (limit : Z) (node : desc)
         (fuel1 fuel2 : nat) (roots1 roots2 : list desc),
    (forall x y, In y (map d_id (s_preds s1 x)) <-> In y (map d_id (s_preds s2 x))) ->
    (forall f y, keep_spec s1 f y = keep_spec s2 f y) ->
    all_served_ok s1 -> all_served_ok s2 ->
    acyclic_source s1 rank1 -> acyclic_source s2 rank2 -> (limit <= 0)%Z ->
    find_roots fuel1 s1 fs limit node = Some roots1 ->
    find_roots fuel2 s2 fs limit node = Some roots2 ->
    forall a, In a (map d_id roots1) <-> In a (map d_id roots2).
Proof. exact roots_unlimited_order_independent. Qed.
Print Assumptions C03_roots_order_independent.

(* The call sequence (an intermediate observable compared with the implementation on every
   case): the logging loop returns the same roots, and opts.FindPredecessors is called at most
   once per node. *)
Theorem C03_calls_once :
  forall (fuel : nat) (s : source) (fs : list filter) (limit : Z) (node : desc) (roots : list desc) (calls : list nat),
    find_roots_log fuel s fs limit node = Some (roots, calls) ->
    find_roots fuel s fs limit node = Some roots /\ NoDup calls.
Proof. exact find_roots_log_spec. Qed.
Print Assumptions C03_calls_once.

(* The extracted runner executes the loop with the depth arithmetic re-read from findRoots by
   the translator (start depth, stop condition, pushed depth); it is the proved loop. *)
Theorem C03_runner_is_model :
  forall (fuel : nat) (s : source) (fs : list filter) (limit : Z) (node : desc),
    find_roots_run fuel (find_preds s fs) limit node = find_roots_log fuel s fs limit node.
Proof. exact find_roots_run_eq. Qed.
Print Assumptions C03_runner_is_model.

(* likewise the filters: the runner executes them with the keep closures and fetch guards
   re-read from FilterAnnotation / FilterArtifactType *)
Theorem C03_runner_filters_are_model :
  forall (s : source) (fs : list filter) (x : nat),
    find_preds_g s fs x = find_preds s fs x /\
    forall custom, find_preds_custom_g s custom fs x = find_preds_custom s custom fs x.
Proof. exact (fun s fs x => conj (find_preds_g_eq s fs x) (fun c => find_preds_custom_g_eq s c fs x)). Qed.
Print Assumptions C03_runner_filters_are_model.

(* Failing source operations (Predecessors / Referrers / the Fetch of a missing field), any
   position k of the armed fault: when findRoots nevertheless succeeds, its result is the
   fault-free one -- no error is swallowed into a partial predecessor list or root set; so
   every theorem above applies to every successful call.  Without a fault the error-aware
   model is the plain one. *)
Theorem C03_errors_surface :
  forall (fuel : nat) (s : source) (fs : list filter) (limit : Z) (node : desc) (k : nat) (roots : list desc),
    find_roots_e fuel s fs limit node k = ROk roots -> find_roots fuel s fs limit node = Some roots.
Proof. exact find_roots_e_success. Qed.
Print Assumptions C03_errors_surface.

(* the same below a caller-supplied FindPredecessors (its own call into the source is the first
   operation, every filter fetch follows) *)
Theorem C03_errors_surface_custom :
  forall (fuel : nat) (s : source) (custom : nat -> list desc) (fs : list filter) (limit : Z)
         (node : desc) (k : nat) (roots : list desc),
    find_roots_custom_e fuel s custom fs limit node k = ROk roots ->
    find_roots_fp fuel (find_preds_custom s custom fs) limit node = Some roots.
Proof. exact find_roots_custom_e_success. Qed.
Print Assumptions C03_errors_surface_custom.

(* totality: with the runner's fuel the error-aware findRoots ends with a root set or an error,
   for every armed fault, on every finite source *)
Theorem C03_errors_total :
  forall (s : source) (fs : list filter) (limit : Z) (node : desc) (n k : nat),
    (forall x p, x < n -> In p (s_preds s x) -> d_id p < n) -> d_id node < n ->
    find_roots_e (fuel_for s n) s fs limit node k <> RFuel.
Proof. exact find_roots_e_total. Qed.
Print Assumptions C03_errors_total.

Theorem C03_no_fault_agrees :
  forall (fuel : nat) (s : source) (fs : list filter) (limit : Z) (node : desc),
    find_roots_e fuel s fs limit node 0 =
    match find_roots fuel s fs limit node with Some roots => ROk roots | None => RFuel end.
Proof. exact find_roots_e_nofault. Qed.
Print Assumptions C03_no_fault_agrees.

(* a reached fault is an error: e.g. the very first operation *)
Theorem C03_first_operation_fails :
  forall (fuel : nat) (s : source) (fs : list filter) (limit : Z) (node : desc),
    (limit <= 0)%Z -> find_roots_e (S fuel) s fs limit node 1 = RErr.
Proof. exact (fun fuel s fs limit node _ => find_roots_e_first_op fuel s fs limit node). Qed.
Print Assumptions C03_first_operation_fails.

(* Filters: whatever descriptors the source serves ([served_ok]: fields present or
   missing, as long as present fields are the manifest's; complete when the source
   is a ReferrerLister, whose first filter does not fetch), a predecessor is followed exactly
   when its manifest's artifact type (artifactType, else config media type) /
   annotation value satisfies every filter; order and multiplicity preserved. *)
Theorem C03_filter_exact :
  forall (s : source) (fs : list filter) (x : nat),
    Forall (served_ok s) (s_preds s x) ->
    map d_id (find_preds s fs x) =
    List.filter (fun id => forallb (fun f => keep_spec s f id) fs) (map d_id (s_preds s x)).
Proof. exact find_preds_exact. Qed.
Print Assumptions C03_filter_exact.

(* no hypothesis on the descriptors is left for a store that serves plain descriptors (a reloaded
   OCI layout since fix fda86b1; the harness asserts it on every reopened source) *)
Theorem C03_filter_exact_plain :
  forall (s : source) (fs : list filter) (x : nat),
    s_lister s = false -> Forall plain_desc (s_preds s x) ->
    map d_id (find_preds s fs x) =
    List.filter (fun id => forallb (fun f => keep_spec s f id) fs) (map d_id (s_preds s x)).
Proof. exact find_preds_exact_plain. Qed.
Print Assumptions C03_filter_exact_plain.

Theorem C03_filter_followed_iff :
  forall (s : source) (fs : list filter) (x y : nat),
    Forall (served_ok s) (s_preds s x) ->
    (In y (map d_id (find_preds s fs x)) <->
     In y (map d_id (s_preds s x)) /\ forall f, In f fs -> keep_spec s f y = true).
Proof. exact find_preds_followed_iff. Qed.
Print Assumptions C03_filter_followed_iff.

(* The same in terms of manifest content only (filters composed with the walk):
   [followed_spec s fs x y]: the source lists y as a predecessor of x and y's manifest (artifact
   type = artifactType, else config media type; annotations) satisfies every filter;
   [anc_spec] its reflexive-transitive closure, [rpath] its k-step paths. *)
Theorem C03_roots_unlimited_by_content :
  forall (s : source) (fs : list filter) (rank : nat -> nat) (limit : Z) (node : desc)
         (fuel : nat) (roots : list desc),
    all_served_ok s -> acyclic_source s rank -> (limit <= 0)%Z ->
    find_roots fuel s fs limit node = Some roots ->
    (forall r, In r roots ->
       anc_spec s fs (d_id node) (d_id r) /\ forall y, ~ followed_spec s fs (d_id r) y) /\
    (forall a, anc_spec s fs (d_id node) a -> (forall y, ~ followed_spec s fs a y) -> In a (map d_id roots)) /\
    (forall a, anc_spec s fs (d_id node) a -> exists r, In r roots /\ anc_spec s fs a (d_id r)).
Proof.
  exact (fun s fs rank limit node fuel roots Hok Hac =>
           roots_unlimited_rel (find_preds s fs) (followed_spec s fs) (fun x y => E_followed_spec s fs x y Hok)
             rank (find_preds_rank s fs rank Hac) limit node fuel roots).
Qed.
Print Assumptions C03_roots_unlimited_by_content.

Theorem C03_depth_bounds_by_content :
  forall (s : source) (fs : list filter) (rank : nat -> nat) (limit : Z) (node : desc)
         (fuel : nat) (roots : list desc),
    all_served_ok s -> acyclic_source s rank -> (0 < limit)%Z ->
    find_roots fuel s fs limit node = Some roots ->
    (forall r, In r roots ->
       exists k, (Z.of_nat k <= limit)%Z /\ rpath (followed_spec s fs) k (d_id node) (d_id r)) /\
    (exists r, In r roots /\ anc_spec s fs (d_id node) (d_id r)).
Proof.
  exact (fun s fs rank limit node fuel roots Hok Hac =>
           roots_depth_rel (find_preds s fs) (followed_spec s fs) (fun x y => E_followed_spec s fs x y Hok)
             rank (find_preds_rank s fs rank Hac) limit node fuel roots).
Qed.
Print Assumptions C03_depth_bounds_by_content.

(* Sources backed by graph.Memory (memory, OCI layout, file store): composed with C07's theorem
   (Predecessors is exact after every history of Index / Remove / IndexAll), the walk is a walk
   over the LINKS of the stored content.  [backed_by s gm]: the store serves graph.Memory's
   predecessor sets; [followed_links]: y is stored, its content links to x (subject, config, layer,
   manifest, blob) and its manifest satisfies the filters; [content_acyclic]: content addressing.
   No source-level acyclicity or inverse-link hypothesis is left. *)
Theorem C03_roots_unlimited_memory_backed :
  forall (ct : GM.amap) (fuelm : nat) (ops : list GM.op) (s : source) (fs : list filter)
         (rank : GM.node -> nat) (limit : Z) (node : desc) (fuel : nat) (roots : list desc),
    let gm := GM.s_g (fst (GM.run ct fuelm GM.init_state ops)) in
    let R := followed_links (GM.ctab ct) gm s fs in
    let up a c := exists k, rpath R k a c in
    backed_by s gm -> all_served_ok s -> content_acyclic (GM.ctab ct) rank -> (limit <= 0)%Z ->
    find_roots fuel s fs limit node = Some roots ->
    (forall r, In r roots -> up (d_id node) (d_id r) /\ forall y, ~ R (d_id r) y) /\
    (forall a, up (d_id node) a -> (forall y, ~ R a y) -> In a (map d_id roots)) /\
    (forall a, up (d_id node) a -> exists r, In r roots /\ up a (d_id r)).
Proof. exact roots_unlimited_memory_backed. Qed.
Print Assumptions C03_roots_unlimited_memory_backed.

Theorem C03_memory_backed_inverse_link :
  forall (ct : GM.amap) (fuelm : nat) (ops : list GM.op) (s : source),
    let gm := GM.s_g (fst (GM.run ct fuelm GM.init_state ops)) in
    backed_by s gm ->
    forall x p, In p (s_preds s x) -> In (N.of_nat x) (GM.ctab ct (N.of_nat (d_id p))).
Proof. exact backed_pred_is_inverse_link. Qed.
Print Assumptions C03_memory_backed_inverse_link.

Example C03_ex_memory_backed :
  backed_by src_mem_two (GM.s_g (fst (GM.run ct_two 10 GM.init_state ops_two))) /\
  all_served_ok src_mem_two /\
  content_acyclic (GM.ctab ct_two) N.to_nat /\
  find_roots (fuel_for src_mem_two 3) src_mem_two [] 0%Z (mkDesc 0 [] None)
    = Some [mkDesc 2 [] None; mkDesc 1 [] None].
Proof. exact ex_backed. Qed.

(* The pinned source (before the fix: commit c24ca78 of the repository branch)
   violated it: fetchArtifactType answered with the config media type of an image
   manifest that declares artifactType (defect F9). *)
Theorem C03_filter_exact_refuted_prefix :
  exists (s : source) (re : str -> bool) (x : nat),
    Forall (served_ok s) (s_preds s x) /\
    map d_id (find_preds_prefix s [FArt (Some re)] x) <>
    List.filter (fun id => re (effective_type s id)) (map d_id (s_preds s x)).
Proof. exact find_preds_prefix_refuted. Qed.
Print Assumptions C03_filter_exact_refuted_prefix.

(* [served_ok] cannot be dropped: a served descriptor that carries fields which are not the
   manifest's (the annotations / artifactType of the index entry that points to it -- what a
   reloaded OCI layout served before fix fda86b1, audit F1) is judged on those fields; the
   annotation filter follows a manifest without annotations, the type filter drops a manifest
   whose effective type matches. *)
Theorem C03_filter_exact_refuted_embedded :
  let keyf := [FAnn (b "vnd.docker.reference.type") None] in
  let typf := [FArt (Some (str_eqb (b "application/vnd.oci.image.config.v1+json")))] in
  ~ Forall (served_ok embedded_source) (s_preds embedded_source 0) /\
  map d_id (find_preds embedded_source keyf 0) = [1] /\
  List.filter (fun id => forallb (fun f => keep_spec embedded_source f id) keyf)
              (map d_id (s_preds embedded_source 0)) = [] /\
  map d_id (find_preds embedded_source typf 0) = [] /\
  List.filter (fun id => forallb (fun f => keep_spec embedded_source f id) typf)
              (map d_id (s_preds embedded_source 0)) = [1].
Proof. exact filter_exact_refuted_embedded. Qed.
Print Assumptions C03_filter_exact_refuted_embedded.

(* End to end, general form (any link relation, any "held" predicate).  [succ] is the link
   relation, [down succ a x]: x is reachable from a through links, [held x]: the destination
   holds x byte-identical after return.
   The copy phase is C01's subject: its closure fact is the hypothesis
   [copy_closure_C01] (each root's graph arrives). *)
Section ExtendedClosure.
  Variable s : source.
  Variable fs : list filter.
  Variable limit : Z.
  Variable node : desc.
  Variable succ : nat -> list nat.
  Variable held : nat -> Prop.
  Variable rank : nat -> nat.
  Variable fuel : nat.
  Variable roots : list desc.
  Hypothesis source_acyclic : acyclic_source s rank.
  Hypothesis pred_is_inverse_link : forall x p, In p (s_preds s x) -> In x (succ (d_id p)).
  Hypothesis roots_found : find_roots fuel s fs limit node = Some roots.
  Hypothesis copy_closure_C01 : forall r, In r roots -> forall x, down succ (d_id r) x -> held x.

  (* unlimited depth: the destination holds the graph of every member of the
     given node's (filtered) upward closure *)
  Theorem C03_extended_closure_gen :
    (limit <= 0)%Z ->
    forall a, anc s fs (d_id node) a -> forall x, down succ a x -> held x.
  Proof.
    exact (fun Hl => extended_closure_gen s fs limit node succ pred_is_inverse_link held rank fuel roots
                       source_acyclic Hl roots_found copy_closure_C01).
  Qed.

  (* any depth: the given node's own graph is held *)
  Theorem C03_depth_own_graph_gen :
    forall x, down succ (d_id node) x -> held x.
  Proof.
    exact (depth_own_graph s fs limit node succ pred_is_inverse_link held rank fuel roots
             source_acyclic roots_found copy_closure_C01).
  Qed.

  (* Depth = d: nothing new outside the graphs of ancestors at most d steps away,
     given that the copy phase writes only below roots (C01's other half) *)
  Variable initially : nat -> Prop.
  Hypothesis copy_only_C01 :
    forall x, held x -> initially x \/ exists r, In r roots /\ down succ (d_id r) x.

  Theorem C03_depth_nothing_outside_gen :
    (0 < limit)%Z ->
    forall x, held x ->
      initially x \/
      exists a k, (Z.of_nat k <= limit)%Z /\ anc_steps s fs k (d_id node) a /\ down succ a x.
  Proof.
    exact (fun Hl => depth_upper s fs rank limit node succ held initially fuel roots
                       source_acyclic Hl roots_found copy_only_C01).
  Qed.
End ExtendedClosure.
Print Assumptions C03_extended_closure_gen.
Print Assumptions C03_depth_own_graph_gen.
Print Assumptions C03_depth_nothing_outside_gen.

(* End to end with C01's transition system (Model/CopySpec.v) in the place of the Section
   hypotheses: [g] is C01's content universe, [reach g] its link reachability (foreign layers
   cut), [has g final x]: the final destination holds x.
   [extended_copy_run g final roots]: the copy phase of ExtendedCopyGraph is ONE accepted run of
   the copyGraph transition system in which every root found is dispatched (c_root = one root,
   c_xroots = the others: one syncutil.Go, shared tracker, proxy and limiter), that returned
   success from a link-closed destination and whose destination content is part of the final
   destination.  Quantifying over the accepted trace quantifies over every interleaving of the
   roots' visible events for every Concurrency.  C01's invariants give closure below every root. *)
Theorem C03_extended_closure :
  forall (s : source) (fs : list filter) (limit : Z) (nd : desc) (rank : nat -> nat)
         (fuel : nat) (roots : list desc) (g : graph) (final : list node),
    acyclic_source s rank ->
    (forall x p, In p (s_preds s x) -> In x (succ' g (d_id p))) ->
    mt_consistent g ->
    find_roots fuel s fs limit nd = Some roots ->
    extended_copy_run g final roots ->
    (limit <= 0)%Z ->
    forall a, anc s fs (d_id nd) a ->
    forall x, Proofs.CopySpec.reach g a x -> has g final x = true.
Proof.
  intros s fs limit nd rank fuel roots g final Hac Hinv Hmt Hf Hruns Hl a Ha x Hx.
  apply (extended_closure_gen s fs limit nd (succ' g) Hinv (fun y => has g final y = true)
           rank fuel roots Hac Hl Hf (copy_closure_from_C01 g final roots Hmt Hruns) a Ha x).
  now apply down_reach.
Qed.
Print Assumptions C03_extended_closure.

(* any Depth: the given node's own graph is held *)
Theorem C03_depth_own_graph :
  forall (s : source) (fs : list filter) (limit : Z) (nd : desc) (rank : nat -> nat)
         (fuel : nat) (roots : list desc) (g : graph) (final : list node),
    acyclic_source s rank ->
    (forall x p, In p (s_preds s x) -> In x (succ' g (d_id p))) ->
    mt_consistent g ->
    find_roots fuel s fs limit nd = Some roots ->
    extended_copy_run g final roots ->
    forall x, Proofs.CopySpec.reach g (d_id nd) x -> has g final x = true.
Proof.
  intros s fs limit nd rank fuel roots g final Hac Hinv Hmt Hf Hruns x Hx.
  apply (depth_own_graph s fs limit nd (succ' g) Hinv (fun y => has g final y = true)
           rank fuel roots Hac Hf (copy_closure_from_C01 g final roots Hmt Hruns) x).
  now apply down_reach.
Qed.
Print Assumptions C03_depth_own_graph.

(* Depth = d: nothing new outside the graphs of ancestors at most d steps away -- for every run
   (successful or not, any prefix) of the copy phase that dispatches only roots that findRoots
   returned; [d0] is what the destination held before *)
Theorem C03_depth_nothing_outside :
  forall (s : source) (fs : list filter) (limit : Z) (nd : desc) (rank : nat -> nat)
         (fuel : nat) (roots : list desc) (g : graph) (d0 final : list node),
    acyclic_source s rank -> (0 < limit)%Z ->
    find_roots fuel s fs limit nd = Some roots ->
    extended_copy_run_only g d0 final roots ->
    forall x, In x final ->
      In x d0 \/
      exists a k, (Z.of_nat k <= limit)%Z /\ anc_steps s fs k (d_id nd) a /\ Proofs.CopySpec.reach g a x.
Proof. exact depth_nothing_outside_C01. Qed.
Print Assumptions C03_depth_nothing_outside.

(* any Depth, any filter: nothing new outside the graphs of the followed ancestors *)
Theorem C03_nothing_outside :
  forall (s : source) (fs : list filter) (limit : Z) (nd : desc) (rank : nat -> nat)
         (fuel : nat) (roots : list desc) (g : graph) (d0 final : list node),
    acyclic_source s rank ->
    find_roots fuel s fs limit nd = Some roots ->
    extended_copy_run_only g d0 final roots ->
    forall x, In x final ->
      In x d0 \/ exists a, anc s fs (d_id nd) a /\ Proofs.CopySpec.reach g a x.
Proof. exact nothing_outside_C01. Qed.
Print Assumptions C03_nothing_outside.

(* satisfiable with two roots sharing a child (blob 0 <- manifests 1, 2): one accepted run,
   Concurrency 2, the two roots' events interleaved, the shared blob copied once *)
Example C03_ex_two_roots :
  acyclic_source src_two (fun x => x) /\
  (forall x p, In p (s_preds src_two x) -> In x (succ' g_two (d_id p))) /\
  mt_consistent g_two /\
  find_roots (fuel_for src_two 3) src_two [] 0%Z (mkDesc 0 [] None)
    = Some [mkDesc 2 [] None; mkDesc 1 [] None] /\
  extended_copy_run g_two [1; 2; 0] [mkDesc 2 [] None; mkDesc 1 [] None].
Proof. exact ex_two_roots. Qed.

Example C03_ex_two_roots_only :
  extended_copy_run_only g_two [] [1; 2; 0] [mkDesc 2 [] None; mkDesc 1 [] None].
Proof. exact ex_two_roots_only. Qed.

(* THE PROPERTY's first sentence for sources backed by graph.Memory (memory, OCI layout, file
   store), composed from C07 (Predecessors exact after EVERY history [ops] of Index / Remove /
   IndexAll), this property's walk, and C01's copy transition system: after a successful
   ExtendedCopyGraph with unlimited depth and no filter the destination holds every node [x]
   reachable through links from any stored node [a] that reaches the given node through links
   ([up_links]: paths over "y is stored and its content links to x").  Left as hypotheses: the
   store serves graph.Memory's sets ([backed_by], checked by the harness on every case), both
   models mean the same content.Successors ([links_agree]), content addressing, C01's
   mt_consistent, and that the real copy phase is an accepted run ([extended_copy_run]). *)
Theorem C03_property_unlimited_memory_backed :
  forall (ct : GM.amap) (fuelm : nat) (ops : list GM.op) (s : source) (g : graph) (nd : desc)
         (final : list node),
    backed_by s (GM.s_g (fst (GM.run ct fuelm GM.init_state ops))) ->
    (forall p x, In (N.of_nat x) (GM.ctab ct (N.of_nat p)) <-> In x (g_succ g p)) ->
    (forall a, anc s [] (d_id nd) a -> g_foreign g a = false) ->
    forall (rank : GM.node -> nat) (limit : Z) (fuel : nat) (roots : list desc),
    content_acyclic (GM.ctab ct) rank -> mt_consistent g -> (limit <= 0)%Z ->
    find_roots fuel s [] limit nd = Some roots ->
    extended_copy_run g final roots ->
    forall a, up_links ct fuelm ops (d_id nd) a ->
    forall x, Proofs.CopySpec.reach g a x -> has g final x = true.
Proof.
  intros ct fuelm ops s g nd final Hb Hla Hnf rank limit fuel roots Hc Hmt Hl Hf Hrun.
  apply (all_closure ct fuelm ops s [] g nd _ (E_nofilter ct fuelm ops s Hb) (fun x y H => H)
           (ex_intro _ _ (backed_acyclic _ _ s rank (GP.history_inv ct fuelm ops) Hb Hc))
           Hla Hnf limit fuel roots final Hmt Hl Hf Hrun).
Qed.
Print Assumptions C03_property_unlimited_memory_backed.

(* ... its second sentence, Depth = d > 0: the given node's own graph is held, and nothing new
   lies outside the graphs of stored nodes at most d link steps above the given node
   ([extended_copy_run_only]: the copy phase dispatched only roots that findRoots returned;
   d0 = what the destination held before) *)
Theorem C03_property_depth_memory_backed :
  forall (ct : GM.amap) (fuelm : nat) (ops : list GM.op) (s : source) (g : graph) (nd : desc)
         (d0 final : list node),
    backed_by s (GM.s_g (fst (GM.run ct fuelm GM.init_state ops))) ->
    (forall p x, In (N.of_nat x) (GM.ctab ct (N.of_nat p)) <-> In x (g_succ g p)) ->
    (forall a, anc s [] (d_id nd) a -> g_foreign g a = false) ->
    forall (rank : GM.node -> nat) (limit : Z) (fuel : nat) (roots : list desc),
    content_acyclic (GM.ctab ct) rank -> mt_consistent g -> (0 < limit)%Z ->
    find_roots fuel s [] limit nd = Some roots ->
    extended_copy_run g final roots -> extended_copy_run_only g d0 final roots ->
    (forall x, Proofs.CopySpec.reach g (d_id nd) x -> has g final x = true) /\
    (forall x, In x final ->
       In x d0 \/
       exists a k, (Z.of_nat k <= limit)%Z /\
         rpath (link_up (GM.ctab ct) (GM.s_g (fst (GM.run ct fuelm GM.init_state ops)))) k (d_id nd) a /\
         Proofs.CopySpec.reach g a x).
Proof.
  intros ct fuelm ops s g nd d0 final Hb Hla Hnf rank limit fuel roots Hc Hmt Hl Hf Hrun Hrun2.
  pose proof (ex_intro (fun r => acyclic_source s r) _
                (backed_acyclic _ _ s rank (GP.history_inv ct fuelm ops) Hb Hc)) as Hac.
  split.
  - apply (all_own_graph ct fuelm ops s [] g nd _ (E_nofilter ct fuelm ops s Hb) (fun x y H => H)
             Hac Hla Hnf limit fuel roots final Hmt Hf Hrun).
  - apply (all_depth_nothing_outside s [] g nd _ (E_nofilter ct fuelm ops s Hb)
             Hac limit fuel roots d0 final Hl Hf Hrun2).
Qed.
Print Assumptions C03_property_depth_memory_backed.

(* ... and with filters (unlimited depth): everything below every stored node that reaches the
   given node through links whose manifests satisfy the filters *)
Theorem C03_property_filtered_memory_backed :
  forall (ct : GM.amap) (fuelm : nat) (ops : list GM.op) (s : source) (fs : list filter) (g : graph)
         (nd : desc) (final : list node),
    backed_by s (GM.s_g (fst (GM.run ct fuelm GM.init_state ops))) -> all_served_ok s ->
    (forall p x, In (N.of_nat x) (GM.ctab ct (N.of_nat p)) <-> In x (g_succ g p)) ->
    (forall a, anc s fs (d_id nd) a -> g_foreign g a = false) ->
    forall (rank : GM.node -> nat) (limit : Z) (fuel : nat) (roots : list desc),
    content_acyclic (GM.ctab ct) rank -> mt_consistent g -> (limit <= 0)%Z ->
    find_roots fuel s fs limit nd = Some roots ->
    extended_copy_run g final roots ->
    forall a, (exists k, rpath (followed_links (GM.ctab ct) (GM.s_g (fst (GM.run ct fuelm GM.init_state ops))) s fs)
                               k (d_id nd) a) ->
    forall x, Proofs.CopySpec.reach g a x -> has g final x = true.
Proof.
  intros ct fuelm ops s fs g nd final Hb Hok Hla Hnf rank limit fuel roots Hc Hmt Hl Hf Hrun.
  apply (all_closure ct fuelm ops s fs g nd _
           (backed_followed (GM.ctab ct) _ s fs (GP.history_inv ct fuelm ops) Hb Hok)
           (fun x y H => proj1 H)
           (ex_intro _ _ (backed_acyclic _ _ s rank (GP.history_inv ct fuelm ops) Hb Hc))
           Hla Hnf limit fuel roots final Hmt Hl Hf Hrun).
Qed.
Print Assumptions C03_property_filtered_memory_backed.

Example C03_ex_property_all :
  forall a, up_links ct_two 10 ops_two (d_id (mkDesc 0 [] None)) a ->
  forall x, Proofs.CopySpec.reach g_two a x -> has g_two [1; 2; 0] x = true.
Proof. exact ex_property_all. Qed.

(* ExtendedCopy = Resolve; ExtendedCopyGraph; Tag: on success the destination
   reference (source reference when left blank) names the given node *)
Theorem C03_tagged :
  forall resolve ok tag_ok src_ref dst_ref tags node tags',
    extended_copy resolve ok tag_ok src_ref dst_ref tags = Some (node, tags') ->
    resolve src_ref = Some node /\ ok node = true /\
    resolve_tag (if is_empty dst_ref then src_ref else dst_ref) tags' = Some (d_id node).
Proof. exact extended_copy_tags. Qed.
Print Assumptions C03_tagged.

(* ... and when it fails, the error is that of the first failing step, in the order Resolve
   (source), FindPredecessors (source), copy of the roots, Tag (destination) *)
Theorem C03_error_origin :
  forall resolve roots_ok copy_ok tag_ok src_ref dst_ref tags,
    match extended_copy_x resolve roots_ok copy_ok tag_ok src_ref dst_ref tags with
    | XOk node tags' =>
        extended_copy resolve (fun _ => (roots_ok && copy_ok)%bool) tag_ok src_ref dst_ref tags = Some (node, tags')
    | XErr op =>
        extended_copy resolve (fun _ => (roots_ok && copy_ok)%bool) tag_ok src_ref dst_ref tags = None /\
        match op with
        | OpResolve => resolve src_ref = None
        | OpFindPredecessors => resolve src_ref <> None /\ roots_ok = false
        | OpCopy => resolve src_ref <> None /\ roots_ok = true /\ copy_ok = false
        | OpTag => resolve src_ref <> None /\ roots_ok = true /\ copy_ok = true /\ tag_ok = false
        end
    end.
Proof. exact extended_copy_x_spec. Qed.
Print Assumptions C03_error_origin.

(* ---- the hypotheses are satisfiable; concrete runs of the model ----
   (sources ex_source, ex_remote, diamond_source: Proofs/FindRoots.v) *)

Example C03_ex_acyclic : acyclic_source ex_source (fun x => x).
Proof. exact ex_acyclic. Qed.

Example C03_ex_consistent : forall x, Forall (served_ok ex_source) (s_preds ex_source x).
Proof. exact ex_served_ok. Qed.

Example C03_ex_all_served_ok : all_served_ok ex_source.
Proof. exact ex_served_ok. Qed.

(* a ReferrerLister source (remote repository) serving complete referrer descriptors *)
Example C03_ex_remote_ok : forall x, Forall (served_ok ex_remote) (s_preds ex_remote x).
Proof. exact ex_remote_served_ok. Qed.

Example C03_ex_remote_filter :
  map d_id (find_preds ex_remote [FAnn (b "k") None; FArt (Some (str_eqb (b "sbom")))] 1) = [2] /\
  map d_id (find_preds ex_remote [FArt (Some (str_eqb (b "sig")))] 1) = [4].
Proof. vm_compute. split; reflexivity. Qed.

(* unlimited, no filter: the two tops 2 and 4 *)
Example C03_ex_unlimited :
  option_map (map d_id) (find_roots (fuel_for ex_source 5) ex_source [] 0%Z ex_node) = Some [4; 2].
Proof. vm_compute. reflexivity. Qed.

(* depth 2: the index 3 stands in for its referrer 4 *)
Example C03_ex_depth2 :
  option_map (map d_id) (find_roots (fuel_for ex_source 5) ex_source [] 2%Z ex_node) = Some [3; 2].
Proof. vm_compute. reflexivity. Qed.

(* artifact-type filter "sbom" while walking from the image: only the artifact referrer is followed *)
Example C03_ex_filter :
  option_map (map d_id)
    (find_roots (fuel_for ex_source 5) ex_source [FArt (Some (str_eqb (b "sbom")))] 0%Z (mkDesc 1 [] None))
  = Some [2].
Proof. vm_compute. reflexivity. Qed.

(* the bound of C03_depth_bounds is two-sided, not exact: with Depth = 2 on the
   diamond the DFS reaches node 1 first at depth 2 (through 2) and stops there, so
   node 3 -- two steps away through 0 <- 1 <- 3 -- is under no root *)
Example C03_depth_not_exact :
  option_map (map d_id) (find_roots (fuel_for diamond_source 4) diamond_source [] 2%Z (mkDesc 0 [] None))
    = Some [1] /\
  anc_steps diamond_source [] 2 0 3.
Proof. exact diamond_depth_not_exact. Qed.

Example C03_ex_tagged :
  extended_copy (fun r => if str_eqb r (b "v1") then Some ex_node else None) (fun _ => true) true
                (b "v1") [] [] = Some (ex_node, [(b "v1", 0)]).
Proof. vm_compute. reflexivity. Qed.
