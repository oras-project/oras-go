(* C04 -- Copy work accounting: bounded concurrency, single transfer, ordered callbacks. The
   theorems are closed by [exact] of a lemma or by a line or two from a more general one, the
   examples by evaluation; lemmas in Proofs/CopyAcct.v. Same transition system as C01
   (Model/CopySpec.v); [accepts g c d0 tr = Some st] = tr is a run of Copy/CopyGraph. A trace
   quantifier covers every interleaving and every latency assignment (a latency assignment only
   selects an interleaving of the visible events). *)
From Oras Require Import Base.Prelude Generated.GC04 Model.CopySpec Model.CopyTop Model.CopyOpt
  Proofs.CopySpec Proofs.CopyAcct Proofs.CopyOpt Proofs.CopyAbort.
From Oras Require Import Model.CopyHold Proofs.CopyHold Proofs.CopySrcOrder.
From Oras Require Model.CopyCancel.
From Oras Require Import Model.CopyPermit Proofs.CopyPermit.
Local Open Scope nat_scope.
From Oras Require Model.CopyImpl Proofs.CopyImplBase Properties.C02_protocol Proofs.CopyPermitsFinal.

(* at every instant (every prefix of every accepted trace) at most K source reads
   (Fetch ... Close) and at most K destination operations (Exists, Push/PushReference,
   Tag) are in flight *)
Theorem C04_inflight :
  forall (g : graph) (c : cfg) (d0 : list node) (tr1 tr2 : list event) (st : state),
    accepts g c d0 (tr1 ++ tr2) = Some st ->
    exists st1, accepts g c d0 tr1 = Some st1 /\
                inflight_src g st1 <= c_K c /\ inflight_dst g st1 <= c_K c.
Proof. exact inflight_prefix_lemma. Qed.
Print Assumptions C04_inflight.

(* K is Concurrency, or the default regenerated from copy.go (3) when Concurrency <= 0 *)
Theorem C04_default_K :
  forall opt, (opt <= 0)%Z -> eff_K defaultConcurrency opt = 3.
Proof. exact (eff_K_default defaultConcurrency). Qed.
Print Assumptions C04_default_K.

(* no node is fetched from the source more than once (manifests: one fetch through the
   caching proxy, then pushed from the cache) and none is pushed more than once *)
Theorem C04_single_transfer :
  forall (g : graph) (c : cfg) (d0 : list node) (tr : list event) (st : state) (n : node),
    accepts g c d0 tr = Some st ->
    cnt (is_fetch n) tr <= 1 /\ cnt (is_push n) tr <= 1.
Proof. exact (fun g c d0 tr st n H => conj (fetch_once g c n tr _ _ H) (push_once g c n tr _ _ H)). Qed.
Print Assumptions C04_single_transfer.

(* ... within copyGraph.  The whole call can read a node once more in Copy's PROLOGUE (known
   finding prologue-read-twice): a non-manifest root resolved through a ReferenceFetcher, and the
   manifest + config blob read by WithTargetPlatform on an image-manifest root, are read there
   without feeding the cache and fetched again while copying.  Refutation of the clause for the
   whole call, and the bound that does hold: *)
Theorem C04_single_fetch_refuted_by_prologue :
  exists g c d0 tr st pro n,
    accepts g c d0 tr = Some st /\ returned st = Some true /\
    pro = prologue_reads true (c_root c) None /\ g_ismf g n = false /\
    reads_in_call n pro tr = 2.
Proof.
  exists g_blob, (mkCfg 3 MTagger 0 false true [] []), [], tr_blobroot. eexists.
  exists [0], 0. split; [vm_compute; reflexivity|]. repeat split.
Qed.
Print Assumptions C04_single_fetch_refuted_by_prologue.

Theorem C04_reads_in_call_bound :
  forall (g : graph) (c : cfg) (d0 : list node) (tr : list event) (st : state) (n : node)
         (pro : list node),
    accepts g c d0 tr = Some st -> reads_in_call n pro tr <= count_occ Nat.eq_dec pro n + 1.
Proof. exact reads_in_call_bound. Qed.
Print Assumptions C04_reads_in_call_bound.

(* every callback is invoked at most once per node *)
Theorem C04_callbacks_at_most_once :
  forall (g : graph) (c : cfg) (d0 : list node) (tr : list event) (st : state) (n : node),
    accepts g c d0 tr = Some st ->
    cnt (is_cb CPre n) tr <= 1 /\ cnt (is_cb CPost n) tr <= 1 /\ cnt (is_cb CSkip n) tr <= 1 /\
    cnt (is_cb CMounted n) tr <= 1 /\ cnt (is_cb CMountFrom n) tr <= 1.
Proof. exact callbacks_once_lemma. Qed.
Print Assumptions C04_callbacks_at_most_once.

(* every node uploaded by a successful copy (is_xfer: a successful Push/PushReference,
   or a Mount that fell back to uploading): exactly one PreCopy, exactly one PostCopy,
   no OnCopySkipped ... *)
Theorem C04_transferred_exactly_once :
  forall (g : graph) (c : cfg) (d0 : list node) (tr : list event) (st : state)
         (n : node) (e : event),
    accepts g c d0 tr = Some st -> returned st = Some true ->
    In e tr -> is_xfer n e ->
    cnt (is_cb CPre n) tr = 1 /\ cnt (is_cb CPost n) tr = 1 /\ cnt (is_cb CSkip n) tr = 0.
Proof. exact transferred_exactly_once. Qed.
Print Assumptions C04_transferred_exactly_once.

(* ... in that order: PreCopy before the push completes, PostCopy after it *)
Theorem C04_push_between_callbacks :
  forall (g : graph) (c : cfg) (d0 : list node) (tr1 : list event) (n : node) (e : event)
         (tr2 : list event) (st : state),
    is_xfer n e ->
    accepts g c d0 (tr1 ++ e :: tr2) = Some st ->
    In (Cb CPre n) tr1 /\ ~ In (Cb CPost n) tr1.
Proof. exact push_between_callbacks. Qed.
Print Assumptions C04_push_between_callbacks.

(* a mounted node of a successful copy triggers exactly one OnMounted *)
Theorem C04_mounted_exactly_once :
  forall (g : graph) (c : cfg) (d0 : list node) (tr : list event) (st : state) (n : node),
    accepts g c d0 tr = Some st -> returned st = Some true ->
    In (MtE n MMounted) tr -> cnt (is_cb CMounted n) tr = 1.
Proof. exact mounted_exactly_once. Qed.
Print Assumptions C04_mounted_exactly_once.

(* a node's PostCopy comes after the terminal notification (PostCopy, OnCopySkipped or OnMounted)
   of each of its non-foreign successors; the only node that completes without a
   notification is the already-present root of a ReferencePusher copy (prepareCopy
   re-pushes it with the reference instead of calling OnCopySkipped), which is no
   node's successor in an acyclic graph *)
Theorem C04_postcopy_after_successors :
  forall (g : graph) (c : cfg) (d0 : list node) (tr1 : list event) (n : node)
         (tr2 : list event) (st : state),
    accepts g c d0 (tr1 ++ Cb CPost n :: tr2) = Some st ->
    forall x, In x (succ' g n) -> notified x tr1 \/ root_refpush c x = true.
Proof. exact postcopy_after_successors. Qed.
Print Assumptions C04_postcopy_after_successors.

(* an error returned by a callback: the call does not return success *)
Theorem C04_callback_error_aborts :
  forall (g : graph) (c : cfg) (d0 : list node) (tr1 : list event) (k : cbk) (n : node)
         (tr2 : list event) (st : state),
    accepts g c d0 (tr1 ++ CbFail k n :: tr2) = Some st -> returned st <> Some true.
Proof. exact callback_error_aborts. Qed.
Print Assumptions C04_callback_error_aborts.

(* satisfiable: the concrete run of C01's example respects K = 2 and is accepted *)
Example C04_example :
  exists st, accepts g_ex c_ex [1] tr_ex = Some st /\ returned st = Some true /\
             cnt (is_fetch 0) tr_ex = 1 /\ cnt (is_cb CSkip 1) tr_ex = 1 /\ c_K c_ex = 2.
Proof. eexists. split; [vm_compute; reflexivity|]. repeat split; reflexivity. Qed.

(* ---- optional callbacks (Model/CopyOpt.v): the statements for every choice [cs] of which
   callbacks are set; tr is the recorded trace (no event of a nil callback), full its
   elaboration accepted by the transition system ---- *)
Theorem C04_inflight_any_callbacks :
  forall (cs : cbset) (g : graph) (c : cfg) (d0 : list node) (tr1 tr2 : list event)
         (st : state) (full : list event),
    accepts_opt cs g c d0 (tr1 ++ tr2) = Some (st, full) ->
    exists st1 f1, accepts_opt cs g c d0 tr1 = Some (st1, f1) /\
                   inflight_src g st1 <= c_K c /\ inflight_dst g st1 <= c_K c.
Proof.
  intros cs g c d0 tr1 tr2 st full Ha. unfold accepts_opt in *. apply run_opt_app in Ha as [s1 [f1 [f2 [H1 [_ _]]]]].
  exists s1, f1. split; [exact H1|].
  apply (inflight_lemma g c d0 f1). exact (run_opt_sound cs g c tr1 _ _ _ H1).
Qed.
Print Assumptions C04_inflight_any_callbacks.

Theorem C04_single_transfer_any_callbacks :
  forall (cs : cbset) (g : graph) (c : cfg) (d0 : list node) (tr : list event) (st : state)
         (full : list event) (n : node),
    accepts_opt cs g c d0 tr = Some (st, full) ->
    cnt (is_fetch n) tr <= 1 /\ cnt (is_push n) tr <= 1.
Proof. exact single_transfer_opt. Qed.
Print Assumptions C04_single_transfer_any_callbacks.

Theorem C04_callback_at_most_once_any_callbacks :
  forall (cs : cbset) (g : graph) (c : cfg) (d0 : list node) (tr : list event) (st : state)
         (full : list event) (k : cbk) (n : node),
    accepts_opt cs g c d0 tr = Some (st, full) -> cnt (is_cb k n) tr <= 1.
Proof.
  intros cs g c d0 tr st full k n Ha. pose proof (cb_once g c k n full _ _ (run_opt_sound cs g c tr _ _ _ Ha)).
  rewrite <- (run_opt_erase cs g c tr _ _ _ Ha). pose proof (cnt_erase_le cs (is_cb k n) full). lia.
Qed.
Print Assumptions C04_callback_at_most_once_any_callbacks.

(* an uploaded node of a successful copy: each of PreCopy / PostCopy that is set is invoked
   exactly once; OnCopySkipped is not invoked *)
Theorem C04_transferred_any_callbacks :
  forall (cs : cbset) (g : graph) (c : cfg) (d0 : list node) (tr : list event) (st : state)
         (full : list event) (n : node) (e : event),
    accepts_opt cs g c d0 tr = Some (st, full) -> returned st = Some true ->
    In e tr -> is_xfer n e ->
    (cs CPre = true -> cnt (is_cb CPre n) tr = 1) /\
    (cs CPost = true -> cnt (is_cb CPost n) tr = 1) /\
    cnt (is_cb CSkip n) tr = 0.
Proof. exact transferred_opt. Qed.
Print Assumptions C04_transferred_any_callbacks.

Theorem C04_mounted_any_callbacks :
  forall (cs : cbset) (g : graph) (c : cfg) (d0 : list node) (tr : list event) (st : state)
         (full : list event) (n : node),
    accepts_opt cs g c d0 tr = Some (st, full) -> returned st = Some true ->
    In (MtE n MMounted) tr -> cs CMounted = true -> cnt (is_cb CMounted n) tr = 1.
Proof. exact mounted_opt. Qed.
Print Assumptions C04_mounted_any_callbacks.

(* order, read on the elaborated trace: where a hook is nil, the point at which the code
   would have invoked it counts as the notification *)
Theorem C04_postcopy_after_successors_any_callbacks :
  forall (cs : cbset) (g : graph) (c : cfg) (d0 : list node) (tr : list event) (st : state)
         (full f1 : list event) (n : node) (f2 : list event),
    accepts_opt cs g c d0 tr = Some (st, full) -> full = f1 ++ Cb CPost n :: f2 ->
    forall x, In x (succ' g n) -> notified x f1 \/ root_refpush c x = true.
Proof.
  intros cs g c d0 tr st full f1 n f2 Ha ->. apply (postcopy_after_successors g c d0 f1 n f2 st).
  exact (run_opt_sound cs g c tr _ _ _ Ha).
Qed.
Print Assumptions C04_postcopy_after_successors_any_callbacks.

Theorem C04_callback_error_aborts_any_callbacks :
  forall (cs : cbset) (g : graph) (c : cfg) (d0 : list node) (tr : list event) (st : state)
         (full : list event) (k : cbk) (n : node),
    accepts_opt cs g c d0 tr = Some (st, full) -> In (CbFail k n) tr -> returned st <> Some true.
Proof.
  intros cs g c d0 tr st full k n Ha Hin.
  apply (recorded_in_full cs g c d0 tr st full _ Ha), in_split in Hin as [f1 [f2 ->]].
  exact (callback_error_aborts g c d0 f1 k n f2 st (run_opt_sound cs g c tr _ _ _ Ha)).
Qed.
Print Assumptions C04_callback_error_aborts_any_callbacks.

(* the in-flight bound stated on the TRACE: at every prefix of an accepted trace the source reads
   begun (Fetch called) minus those closed is at most K; likewise destination operations begun
   (Exists, Push/PushReference, Tag, Mount called) minus returned -- the latter as long as no
   callback has failed (after a failing PreCopy inside Mount the model drops that Mount at once
   while the real call is still returning: there only the oracle's gauge and the permit theorems
   below speak) *)
Theorem C04_inflight_on_trace :
  forall (g : graph) (c : cfg) (d0 : list node) (tr1 tr2 : list event) (st : state),
    accepts g c d0 (tr1 ++ tr2) = Some st ->
    cnt is_src_open tr1 - cnt is_src_close tr1 <= c_K c /\
    (cnt is_cbfail tr1 = 0 -> cnt is_dst_open tr1 - cnt is_dst_close tr1 <= c_K c).
Proof. exact inflight_trace_lemma. Qed.
Print Assumptions C04_inflight_on_trace.

(* PreCopy precedes the BEGIN of the push of a node that is not yet in the destination (a push
   without PreCopy is only the re-push with the reference of a present / mounted ReferencePusher root) *)
Theorem C04_precopy_before_push_begin :
  forall (g : graph) (c : cfg) (d0 : list node) (tr1 : list event) (n : node) (ref : bool)
         (tr2 : list event) (st : state),
    accepts g c d0 (tr1 ++ PuB n ref :: tr2) = Some st ->
    exists st1, accepts g c d0 tr1 = Some st1 /\
                (has g (dst st1) n = false -> In (Cb CPre n) tr1).
Proof. exact pre_before_push_begin. Qed.
Print Assumptions C04_precopy_before_push_begin.

(* reading of the clause "exactly one PreCopy followed by exactly one PostCopy or OnMounted":
   a mounted node gets OnMounted and NEITHER PreCopy nor PostCopy (mountOrCopyNode calls PreCopy
   only when the last candidate falls back to uploading) *)
Theorem C04_mounted_no_precopy_postcopy :
  forall (g : graph) (c : cfg) (d0 : list node) (tr : list event) (st : state) (n : node),
    accepts g c d0 tr = Some st -> In (MtE n MMounted) tr ->
    ~ In (Cb CPre n) tr /\ ~ In (Cb CPost n) tr.
Proof. exact mounted_no_pre_post. Qed.
Print Assumptions C04_mounted_no_precopy_postcopy.

(* ---- the limiter hand-off itself (syncutil.Go / LimitedRegion.Start / End, semaphore permits):
   proved on the protocol model Model/CopyImpl.v in Properties/C02_protocol.v (tied to the real
   syncutil / status.Tracker by C02's protocol harness cmd/goimpl); restated here so that C04's
   proof layer depends on them.  Permits are conserved (free + holders = K, a finished task holds
   none) and the operations in flight never exceed the permits held, hence K. *)
Theorem C04_permits_conserved :
  forall succ K ext roots s, CopyImplBase.Reachable succ K ext roots s ->
    CopyImpl.free s + CopyImpl.holders s = K /\ CopyImpl.holders s <= K /\
    (forall t, CopyImpl.is_fin (CopyImpl.t_pc (CopyImpl.tasks s t)) = true ->
               CopyImpl.t_holds (CopyImpl.tasks s t) = false).
Proof. exact C02_protocol.C04_permits_conserved. Qed.
Print Assumptions C04_permits_conserved.

Theorem C04_inflight_bounded_by_permits :
  forall succ K ext roots s, CopyImplBase.Reachable succ K ext roots s ->
    CopyImpl.inflight s <= CopyImpl.holders s /\ CopyImpl.inflight s <= K.
Proof. exact C02_protocol.C04_inflight_bounded. Qed.
Print Assumptions C04_inflight_bounded_by_permits.

(* ---- "aborts the copy", terminal notifications and uploads counted together ---- *)

(* "an error returned by a callback aborts the copy": the node never completes, hence NO direct
   predecessor of it is ever copied -- none of the predecessor's PreCopy / PostCopy / MountFrom /
   OnMounted invocations (returning nil or an error) and none of its Mount calls occurs anywhere in
   the trace, before or after the failure, in any interleaving.  (Not transitive: a predecessor that
   the destination already holds is skipped without looking at its successors.) *)
Theorem C04_failed_successor_blocks_predecessors :
  forall (g : graph) (c : cfg) (d0 : list node) (tr : list event) (st : state) (k : cbk) (n p : node),
    accepts g c d0 tr = Some st -> In (CbFail k n) tr -> In n (succ' g p) ->
    (forall k', k' <> CSkip -> ~ In (Cb k' p) tr /\ ~ In (CbFail k' p) tr) /\
    ~ In (MtB p) tr /\ (forall r, ~ In (MtE p r) tr).
Proof. exact failed_successor_blocks_parent. Qed.
Print Assumptions C04_failed_successor_blocks_predecessors.

(* for every choice of nil callbacks, on the elaborated trace (the invocation point of a nil PreCopy
   stands right before the node's Fetch / Push) ... *)
Theorem C04_failed_successor_blocks_predecessors_any_callbacks :
  forall (g : graph) (c : cfg) (d0 : list node) (cs : cbset) (tr : list event) (st : state)
         (full : list event) (k : cbk) (n p : node),
    accepts_opt cs g c d0 tr = Some (st, full) -> In (CbFail k n) tr -> In n (succ' g p) ->
    forall e, In e full -> copy_ev p e = false.
Proof. exact failed_successor_blocks_parent_opt. Qed.
Print Assumptions C04_failed_successor_blocks_predecessors_any_callbacks.

(* ... hence such a predecessor is never uploaded: the only push of it that can occur is the
   re-push (with the reference) of a root the destination holds already *)
Theorem C04_failed_successor_predecessor_not_pushed :
  forall (g : graph) (c : cfg) (d0 : list node) (cs : cbset) (tr : list event) (st : state)
         (full : list event) (k : cbk) (n p : node) (r : bool) (f1 f2 : list event),
    accepts_opt cs g c d0 tr = Some (st, full) -> In (CbFail k n) tr -> In n (succ' g p) ->
    full = f1 ++ PuB p r :: f2 ->
    exists st1, accepts g c d0 f1 = Some st1 /\ has g (dst st1) p = true.
Proof. exact failed_successor_parent_not_pushed. Qed.
Print Assumptions C04_failed_successor_predecessor_not_pushed.

(* the seeded change "close(done) also on failure" yields exactly such a trace; the transition
   system rejects it (and C04_abort_example: the hypotheses above are satisfiable) *)
Example C04_abort_example :
  exists st, accepts g_ab c_ab [] tr_ab = Some st /\ returned st = Some false /\
             In (CbFail CPre 0) tr_ab /\ In 0 (succ' g_ab 2) /\
             cnt (is_upload 1) tr_ab = 1 /\ cnt (is_term 1) tr_ab = 1.
Proof.
  eexists. split; [vm_compute; reflexivity|].
  repeat split; try reflexivity; simpl; auto 12.
Qed.
Example C04_copy_past_failure_rejected : accepts g_ab c_ab [] tr_ab_bad = None.
Proof. vm_compute. reflexivity. Qed.

(* PostCopy, OnCopySkipped and OnMounted exclude each other: per node at most ONE terminal
   notification of any kind (returning nil or an error) ... *)
Theorem C04_terminal_notification_at_most_once :
  forall (g : graph) (c : cfg) (d0 : list node) (tr : list event) (st : state) (n : node),
    accepts g c d0 tr = Some st ->
    cnt (is_cb CPost n) tr + cnt (is_cb CSkip n) tr + cnt (is_cb CMounted n) tr <= 1.
Proof. exact term_once_lemma. Qed.
Print Assumptions C04_terminal_notification_at_most_once.

(* ... and every node a successful copy visited (dst.Exists was called on it) got exactly one --
   except the already-present root of a ReferencePusher copy (re-pushed with the reference by
   prepareCopy instead of OnCopySkipped), which gets none *)
Theorem C04_exactly_one_terminal_notification :
  forall (g : graph) (c : cfg) (d0 : list node) (tr : list event) (st : state) (n : node),
    accepts g c d0 tr = Some st -> returned st = Some true -> In (ExB n) tr ->
    cnt (is_cb CPost n) tr + cnt (is_cb CSkip n) tr + cnt (is_cb CMounted n) tr = 1 \/
    (root_refpush c n = true /\
     cnt (is_cb CPost n) tr + cnt (is_cb CSkip n) tr + cnt (is_cb CMounted n) tr = 0).
Proof. exact exactly_one_terminal. Qed.
Print Assumptions C04_exactly_one_terminal_notification.

(* single transfer, counting the upload inside Mount: per node at most one of
   { Push / PushReference called, Mount fell back to uploading } *)
Theorem C04_single_upload :
  forall (g : graph) (c : cfg) (d0 : list node) (tr : list event) (st : state) (n : node),
    accepts g c d0 tr = Some st -> cnt (is_upload n) tr <= 1.
Proof. exact upload_once_lemma. Qed.
Print Assumptions C04_single_upload.

(* ---- the permit-holding overlay (Model/CopyHold.v): the intervals during which a task holds a
   permit of the limiter, as far as the visible events show them -- a LEAF keeps its permit from
   dst.Exists to the end of its task (copyGraph.fn calls region.End() only for nodes with
   successors), a non-leaf gives it up while its successors run and re-acquires it (region.Start())
   before PreCopy / MountFrom.  C04's runner replays every recorded trace on this overlay. ---- *)

(* the overlay only strengthens the guard: what it accepts, the transition system accepts -- so
   every theorem above applies to the traces the runner accepts *)
Theorem C04_overlay_refines :
  forall (g : graph) (c : cfg) (d0 : list node) (tr : list event) (st : state),
    accepts_h g c d0 tr = Some st -> accepts g c d0 tr = Some st.
Proof. exact (fun g c d0 tr => run_h_run g c tr _). Qed.
Print Assumptions C04_overlay_refines.

Theorem C04_overlay_refines_any_callbacks :
  forall (cs : cbset) (g : graph) (c : cfg) (d0 : list node) (tr : list event) (st : state)
         (full : list event),
    accepts_opt_h cs g c d0 tr = Some (st, full) -> accepts_opt cs g c d0 tr = Some (st, full).
Proof. exact (fun cs g c d0 tr st full => run_opt_h_run_opt cs g c tr _ (st, full)). Qed.
Print Assumptions C04_overlay_refines_any_callbacks.

(* ... also under C01's cancellation layer (Model/CopyCancel.v: the caller's context ends), which the
   shared runner steps through: the overlay's version of it accepts nothing the layer rejects *)
Theorem C04_overlay_refines_cancellation :
  forall (cs : cbset) (g : graph) (c : cfg) (d0 : list node) (tr : list CopyCancel.cevent)
         (r : CopyCancel.cstate * list event),
    caccepts_opt_h cs g c d0 tr = Some r -> CopyCancel.caccepts_opt cs g c d0 tr = Some r.
Proof. exact (fun cs g c d0 tr => crun_opt_h_crun_opt cs g c tr _). Qed.
Print Assumptions C04_overlay_refines_cancellation.

(* at every instant at most K permits are held, and the source reads and destination operations in
   flight are covered by the permits held *)
Theorem C04_permits_held_bounded :
  forall (g : graph) (c : cfg) (d0 : list node) (tr1 tr2 : list event) (st : state),
    accepts_h g c d0 (tr1 ++ tr2) = Some st ->
    exists st1, accepts_h g c d0 tr1 = Some st1 /\ holders g st1 <= c_K c /\
                inflight_src g st1 <= holders g st1 /\ inflight_dst g st1 <= holders g st1.
Proof. exact holders_prefix_lemma. Qed.
Print Assumptions C04_permits_held_bounded.

Theorem C04_permits_held_bounded_any_callbacks :
  forall (cs : cbset) (g : graph) (c : cfg) (d0 : list node) (tr1 tr2 : list event) (st : state)
         (full : list event),
    accepts_opt_h cs g c d0 (tr1 ++ tr2) = Some (st, full) ->
    exists st1 f1, accepts_opt_h cs g c d0 tr1 = Some (st1, f1) /\ holders g st1 <= c_K c /\
                   inflight_src g st1 <= holders g st1 /\ inflight_dst g st1 <= holders g st1.
Proof. exact holders_prefix_opt_lemma. Qed.
Print Assumptions C04_permits_held_bounded_any_callbacks.

(* after a successful return no task holds a permit (the spec-side counterpart of
   C04_all_permits_free_at_return below) *)
Theorem C04_no_permit_held_at_success :
  forall (g : graph) (c : cfg) (d0 : list node) (tr : list event) (st : state),
    accepts_h g c d0 tr = Some st -> returned st = Some true -> holders g st = 0.
Proof. exact no_holders_at_success. Qed.
Print Assumptions C04_no_permit_held_at_success.

(* the overlay's holding intervals are those of the protocol model: "certainly holds" is
   CopyImplBase.must_hold of the program counter that the phase stands for (TExists, TFind, TPush hold;
   a non-leaf in TGo .. TStart does not) -- the two models cannot drift apart on who holds a permit *)
Theorem C04_overlay_matches_protocol_holding :
  forall (g : graph) (n : node) (p : phase),
    holds_ph g n p =
    match pc_of_phase (leaf g n) p with Some q => CopyImplBase.must_hold q | None => false end.
Proof. exact overlay_holds_is_protocol_must_hold. Qed.
Print Assumptions C04_overlay_matches_protocol_holding.

(* the overlay is strictly tighter: with K = 1 a second blob cannot be probed while a leaf that was
   found absent waits for its PreCopy (it holds the only permit) -- CopySpec alone accepts that
   interleaving -- and the sequential run is accepted *)
Example C04_overlay_is_tighter :
  (exists st, accepts g_leaf c_leaf [] tr_leaf_bad = Some st) /\
  accepts_h g_leaf c_leaf [] tr_leaf_bad = None /\
  (exists st, accepts_h g_leaf c_leaf [] tr_leaf_ok = Some st /\ returned st = Some true).
Proof.
  split; [eexists; vm_compute; reflexivity|].
  split; [vm_compute; reflexivity|].
  eexists. split; vm_compute; reflexivity.
Qed.

(* ---- the limiter after the call.  On the protocol model (Model/CopyImpl.v): once the top-level
   syncutil.Go has returned -- nil or an error, any fault, any interleaving -- every task has
   finished, nothing is in flight and all K permits are free.  The harness reads exactly this off
   the real semaphore after every CopyGraph call made through the verif hook (oracle: permit-leak),
   and at every recorded event that the operations in flight are covered by the permits taken
   (oracle: op-without-permit; the model-side statement is C04_inflight_bounded_by_permits). ---- *)
Theorem C04_all_permits_free_at_return :
  forall succ K ext roots, (forall n m, In m (succ n) -> m < n) ->
  forall s, CopyImplBase.Reachable succ K ext roots s -> CopyImpl.is_final s = true ->
    CopyImpl.free s = K /\ CopyImpl.holders s = 0 /\ CopyImpl.inflight s = 0.
Proof. exact CopyPermitsFinal.all_permits_free_at_return. Qed.
Print Assumptions C04_all_permits_free_at_return.

(* satisfiable, on a failing run: K = 2, ExtendedCopyGraph with roots 4 and 3 over the DAG of
   C02_protocol's examples, the first push fails; the run is reachable, final, and returns an error *)
Example C04_all_permits_free_example :
  let ls := snd (CopyImpl.sched C02_protocol.ex_succ CopyImpl.pick_push_fault 400 (CopyImpl.init 2 true [4; 3]) []) in
  match CopyImpl.run C02_protocol.ex_succ (CopyImpl.init 2 true [4; 3]) ls with
  | Some s => CopyImpl.is_final s = true /\ CopyImpl.result s = Some true /\ CopyImpl.free s = 2
  | None => False
  end.
Proof. vm_compute. repeat split; reflexivity. Qed.

(* ---- tie to the Go sources beyond the constant (Generated/GC04.v, regenerated on every run) ---- *)

(* the size of the semaphore, translated from the syntax of BOTH places that create it (copyGraph in
   copy.go, ExtendedCopyGraph in extendedcopy.go: the `if opts.Concurrency <= 0` guard, the assigned
   default, the argument of semaphore.NewWeighted), is the model's effective concurrency; the runner
   computes K with the generated function *)
Theorem C04_limiter_size :
  forall opt : Z,
    Z.to_nat (copyGraph_limiter_size opt) = eff_K defaultConcurrency opt /\
    Z.to_nat (ExtendedCopyGraph_limiter_size opt) = eff_K defaultConcurrency opt /\
    ((0 < opt)%Z -> copyGraph_limiter_size opt = opt) /\
    ((opt <= 0)%Z -> copyGraph_limiter_size opt = 3%Z).
Proof. exact limiter_sizes_lemma. Qed.
Print Assumptions C04_limiter_size.

(* the order of the calls in the sources that the transition system and the protocol model are
   written after (translator kind callseq): copyGraph.fn claims, probes, finds successors, releases
   its permit, dispatches, waits, re-acquires, copies; copyNode = PreCopy, doCopyNode, PostCopy;
   doCopyNode = Fetch, deferred Close, Push; syncutil.Go acquires before spawning and releases in the
   goroutine's defer; Start acquires, End releases; ExtendedCopyGraph creates ONE limiter and ONE
   tracker and its closure releases the permit around copyGraph *)
Theorem C04_source_call_order :
  c04_calls_copyGraph =
    [b "tracker.TryCommit"; b "close"; b "dst.Exists"; b "opts.OnCopySkipped"; b "opts.FindSuccessors";
     b "removeForeignLayers"; b "region.End"; b "syncutil.Go"; b "tracker.TryCommit"; b "region.Start";
     b "proxy.Cache.Exists"; b "copyNode"; b "mountOrCopyNode"; b "syncutil.Go"]%string /\
  c04_calls_copyNode = [b "opts.PreCopy"; b "doCopyNode"; b "opts.PostCopy"]%string /\
  c04_calls_doCopyNode = [b "src.Fetch"; b "rc.Close"; b "dst.Push"]%string /\
  c04_calls_mountOrCopyNode =
    [b "copyNode"; b "copyNode"; b "opts.MountFrom"; b "copyNode"; b "opts.PreCopy"; b "src.Fetch";
     b "mounter.Mount"; b "opts.OnMounted"; b "opts.PostCopy"]%string /\
  c04_calls_ExtendedCopyGraph =
    [b "findRoots"; b "semaphore.NewWeighted"; b "status.NewTracker"; b "syncutil.Go"; b "region.End";
     b "copyGraph"; b "region.Start"]%string /\
  c04_calls_Go =
    [b "LimitRegion"; b "region.Start"; b "eg.Go"; b "lr.End"; b "fn"; b "eg.Wait"; b "context.Cause"]%string /\
  c04_calls_Start = [b "lr.limiter.Acquire"]%string /\
  c04_calls_End = [b "lr.limiter.Release"]%string.
Proof. exact source_call_order. Qed.
Print Assumptions C04_source_call_order.

(* ... and the transition system enforces that order on the visible events of every node, in every
   interleaving.  For a blob: PreCopy before src.Fetch; *)
Theorem C04_fetch_after_precopy :
  forall (g : graph) (c : cfg) (d0 : list node) (tr1 : list event) (n : node) (tr2 : list event) (st : state),
    accepts g c d0 (tr1 ++ SFB n :: tr2) = Some st ->
    g_ismf g n = false -> root_refpush c n = false -> In (Cb CPre n) tr1.
Proof. exact fetch_after_precopy. Qed.
Print Assumptions C04_fetch_after_precopy.

(* content that is not in the proxy cache is pushed while its source reader is open (Fetch called
   and returned before dst.Push is called); *)
Theorem C04_push_after_fetch :
  forall (g : graph) (c : cfg) (d0 : list node) (tr1 : list event) (n : node) (r : bool)
         (tr2 : list event) (st : state),
    accepts g c d0 (tr1 ++ PuB n r :: tr2) = Some st ->
    exists st1, accepts g c d0 tr1 = Some st1 /\
                (memb n (cached st1) = false -> In (SFB n) tr1 /\ In (SFE n) tr1).
Proof. exact push_after_fetch. Qed.
Print Assumptions C04_push_after_fetch.

(* the reader is closed only after dst.Push was called (the deferred rc.Close); PostCopy after the push
   returned is C04_push_between_callbacks *)
Theorem C04_close_after_push :
  forall (g : graph) (c : cfg) (d0 : list node) (tr1 : list event) (n : node) (tr2 : list event) (st : state),
    accepts g c d0 (tr1 ++ SFC n :: tr2) = Some st ->
    g_ismf g n = false -> c_mount c = false -> In (PuB n (root_refpush c n)) tr1.
Proof. exact close_after_push. Qed.
Print Assumptions C04_close_after_push.

(* ---- the real semaphore's free-permit readings are part of the recorded run
   and are judged by the model (Model/CopyPermit.v), not only by the oracle ---- *)

(* every reading f of an accepted run taken while the call runs: the permits that the overlay knows to
   be held at that instant plus the free ones fit into K -- hence the operations in flight plus the
   free permits do; a reading taken after the call returned (nil or an error) shows ALL K permits free
   (a leaked permit is a rejected run; protocol-side: C04_all_permits_free_at_return) *)
Theorem C04_permit_readings_bounded :
  forall (cs : cbset) (g : graph) (c : cfg) (d0 : list node) (tr1 : list pev) (f : nat) (tr2 : list pev)
         (st : state) (full : list event),
    paccepts_opt cs g c d0 (tr1 ++ PFree f :: tr2) = Some (st, full) ->
    exists st1 f1, paccepts_opt cs g c d0 tr1 = Some (st1, f1) /\
      (returned st1 = None ->
         holders g st1 + f <= c_K c /\ holders g st1 <= c_K c /\
         inflight_src g st1 + f <= c_K c /\ inflight_dst g st1 + f <= c_K c) /\
      (returned st1 <> None -> f = c_K c).
Proof. exact readings_bounded. Qed.
Print Assumptions C04_permit_readings_bounded.

(* a run with readings is a run: dropping the readings leaves a trace the overlay accepts with the same
   final state and elaboration, so every theorem above applies to it *)
Theorem C04_permit_readings_run :
  forall (cs : cbset) (g : graph) (c : cfg) (d0 : list node) (tr : list pev) (st : state) (full : list event),
    paccepts_opt cs g c d0 tr = Some (st, full) ->
    accepts_opt_h cs g c d0 (events_of tr) = Some (st, full).
Proof. exact (fun cs g c d0 tr => prun_opt_events cs g c tr _). Qed.
Print Assumptions C04_permit_readings_run.

(* the protocol model says the same about the semaphore: in every reachable state the free permits and
   the tasks standing at a counter where they must hold one fit into K *)
Theorem C04_free_permits_cover_must_hold :
  forall succ K ext roots s, CopyImplBase.Reachable succ K ext roots s ->
    CopyImpl.free s + must_holders s <= K.
Proof. exact free_permits_cover_must_hold. Qed.
Print Assumptions C04_free_permits_cover_must_hold.

(* transport: a reading travels as the token of dst.Tag; that token is free in CopyGraph runs -- no
   trace of mode MGraph accepted by the transition system contains a TagB event -- what the runner
   evaluates is the decoded run, and outside CopyGraph nothing is decoded *)
Theorem C04_no_tag_in_copygraph :
  forall (cs : cbset) (g : graph) (c : cfg) (d0 : list node) (tr : list event) (st : state)
         (full : list event) (n : node),
    accepts_opt cs g c d0 tr = Some (st, full) -> c_mode c = MGraph -> ~ In (TagB n) tr.
Proof.
  intros cs g c d0 tr st full n Ha Hm Hin.
  apply (no_tag_in_copygraph g c d0 full st n (run_opt_sound cs g c tr _ _ _ Ha) Hm).
  exact (recorded_in_full cs g c d0 tr st full _ Ha Hin).
Qed.
Print Assumptions C04_no_tag_in_copygraph.

Theorem C04_runner_decodes_readings :
  forall (cs : cbset) (g : graph) (c : cfg) (tr : list event) (st : state),
    run_opt_p cs g c st tr = prun_opt cs g c st (map (decode c) tr).
Proof. exact run_opt_p_prun_opt. Qed.
Print Assumptions C04_runner_decodes_readings.

Theorem C04_runner_other_modes_unchanged :
  forall (cs : cbset) (g : graph) (c : cfg) (s : CopyCancel.cstate) (ce : CopyCancel.cevent),
    c_mode c <> MGraph -> cstep_opt_p cs g c s ce = cstep_opt_h cs g c s ce.
Proof. exact cstep_opt_p_other_modes. Qed.
Print Assumptions C04_runner_other_modes_unchanged.

(* satisfiable and sharp: K = 2, both blobs of a manifest in their copy -- a reading of 0 free permits
   is accepted, a reading of 1 is rejected although the events alone are a run of the overlay; the complete
   run with 2 free permits after the return is accepted, with 1 (a leaked permit) rejected *)
Example C04_permit_readings_example :
  (exists r, paccepts_opt all_set g_leaf c_perm [] ptr_ok = Some r) /\
  paccepts_opt all_set g_leaf c_perm [] ptr_bad = None /\
  (exists r, accepts_opt_h all_set g_leaf c_perm [] (events_of ptr_bad) = Some r) /\
  paccepts_opt all_set g_leaf c_perm [] ptr_leak = None.
Proof.
  split; [eexists; vm_compute; reflexivity|].
  split; [vm_compute; reflexivity|].
  split; [eexists; vm_compute; reflexivity|].
  vm_compute; reflexivity.
Qed.
