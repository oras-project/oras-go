(* C10 -- A process crash never leaves an OCI layout unreadable, corrupt or half-updated.
   Only statements; the lemmas live in Proofs/OciCrash*.v, stated for inplace =
   unlink_first = false and carried over by [src_inplace_false] and
   [src_unlink_first_false]; the model is in
   Model/OciCrash.v (operations compiled to file-system micro-steps; a crash is a cut of
   the interrupted operation's step list at any position) and the meaning of
   "recoverable" in Model/OciCrashSpec.v.

   The model is configured by two facts re-read from the Go source on every run
   (Generated/GC10.v): [src_inplace] (does writeIndexFile write index.json in place, or a
   temporary sibling that is renamed) and [src_unlink_first] (does Store.delete remove the
   blob before or after it rewrites index.json).  The theorems are stated for the model
   of the CURRENT source; they stop checking when the source order changes. *)
From Oras Require Import Base.Prelude Generated.GC10 Model.OciCrash Model.OciCrashSpec Proofs.OciCrash.
From Oras Require Model.OciGC Proofs.OciGC.
From Oras Require Import Proofs.OciCrashGC.
From Oras Require Import Model.OciCrashConc Proofs.OciCrashConc.
From Oras Require Import Proofs.OciCrashOff Proofs.OciCrashSync Proofs.OciCrashGo.

(* For every digest/size verification function H, every iteration order of saveIndex,
   every history h of completed Push/Tag/Untag/Delete/SaveIndex operations on a freshly
   initialised store, every interrupted operation o and every cut k of its micro-steps:
   the directory found afterwards has a valid oci-layout, every file under blobs/ is
   complete and matches its name, index.json parses and each entry names an existing
   blob, index.json is the one before or the one after o, every blob that was there
   before and would be there after is there, and no other blob appeared. *)
Theorem C10_crash_safe :
  forall (H : list N -> N) (shuffle : nat -> list entry -> list entry),
    (forall c l e, In e (shuffle c l) <-> In e l) ->
    forall (h : list op) (o : op) (k : nat),
      let s := run H shuffle src_inplace src_unlink_first true h init in
      Recoverable H (sfs s) (crash_fs H shuffle src_inplace src_unlink_first true s o k)
        (sfs (run_op H shuffle src_inplace src_unlink_first true s o)).
Proof. rewrite src_inplace_false, src_unlink_first_false. exact crash_safe. Qed.
Print Assumptions C10_crash_safe.

(* The same after ANY earlier crashes: histories in which every operation either completed
   ([Done o]) or was interrupted at an arbitrary cut ([Crashed o k]) and the store was
   reopened with oci.New on whatever was left (the tag resolver is reloaded from
   index.json, leftover temporaries stay).  In particular the reopened store can always
   be read (take k = 0), and a crash during recovery work is again harmless. *)
Theorem C10_crash_safe_after_recoveries :
  forall (H : list N -> N) (shuffle : nat -> list entry -> list entry),
    (forall c l e, In e (shuffle c l) <-> In e l) ->
    forall (h : list hop) (o : op) (k : nat),
      let s := runc H shuffle src_inplace src_unlink_first true h init in
      Recoverable H (sfs s) (crash_fs H shuffle src_inplace src_unlink_first true s o k)
        (sfs (run_op H shuffle src_inplace src_unlink_first true s o)).
Proof. rewrite src_inplace_false, src_unlink_first_false. exact crash_safe_recovered. Qed.
Print Assumptions C10_crash_safe_after_recoveries.

(* Delete with AutoGC and GC: one API call that performs several primitive operations in a
   row ([steps_seq]): the plain deletes of the target, of its untagged referrers and of the
   content left dangling (queue order), resp. [Forget live] (drop the digest references
   of unreachable content, save the index) followed by the plain delete of every blob
   file outside the live set (directory order).  For EVERY list of primitives (whatever
   the cascade or the sweep visits, in whatever order), after any history with earlier
   crashes and for every cut k: the directory found is a crash state of ONE primitive o
   of the call -- recoverable between the quiescent states before and after o, which are
   reached from the start of the call by completed primitives -- or the final state.
   In particular index.json is rewritten before each unlink of the cascade and before
   the sweep. *)
Theorem C10_crash_safe_composite :
  forall (H : list N -> N) (shuffle : nat -> list entry -> list entry),
    (forall c l e, In e (shuffle c l) <-> In e l) ->
    forall (h : list hop) (os : list op) (k : nat),
      let s := runc H shuffle src_inplace src_unlink_first true h init in
      let fsk := crash_seq H shuffle src_inplace src_unlink_first true s os k in
      (exists pre o post,
         os = pre ++ o :: post /\
         let sj := run H shuffle src_inplace src_unlink_first true pre s in
         Recoverable H (sfs sj) fsk (sfs (run_op H shuffle src_inplace src_unlink_first true sj o))) \/
      (fsk = sfs (run H shuffle src_inplace src_unlink_first true os s) /\
       layout_ok fsk /\ blob_ok H fsk /\ index_ok fsk).
Proof. rewrite src_inplace_false, src_unlink_first_false. exact crash_safe_composite. Qed.
Print Assumptions C10_crash_safe_composite.

(* ... and relative to the whole call: a Delete-with-AutoGC cascade or a GC (any list of plain
   deletes, Forget and SaveIndex) only ever removes: whatever the cut, every blob that was
   there before the call and is there after it is there, and nothing is there that was
   not there before the call. *)
Theorem C10_cascade_blobs_between :
  forall (H : list N -> N) (shuffle : nat -> list entry -> list entry),
    (forall c l e, In e (shuffle c l) <-> In e l) ->
    forall (h : list hop) (os : list op) (k : nat),
      (forall o, In o os -> match o with Delete _ | Forget _ | SaveIndex => True | _ => False end) ->
      let s := runc H shuffle src_inplace src_unlink_first true h init in
      let fsk := crash_seq H shuffle src_inplace src_unlink_first true s os k in
      let fs1 := sfs (run H shuffle src_inplace src_unlink_first true os s) in
      (forall d, has (sfs s) (FBlob d) -> has fs1 (FBlob d) -> has fsk (FBlob d)) /\
      (forall d, has fsk (FBlob d) -> has (sfs s) (FBlob d)).
Proof. rewrite src_inplace_false, src_unlink_first_false. exact crash_shrinking_between. Qed.
Print Assumptions C10_cascade_blobs_between.

(* Delete with AutoGC, tag mapping: the cascade deletes the target d and then nodes xs that
   carry no reference name (the code skips tagged referrers and tagged dangling content).
   Whatever the cut, after any earlier crashes: the tag mapping read from index.json is
   the one before the call or the one after it -- although index.json itself is rewritten
   several times during the cascade. *)
Theorem C10_cascade_tags_before_or_after :
  forall (H : list N -> N) (shuffle : nat -> list entry -> list entry),
    (forall c l e, In e (shuffle c l) <-> In e l) ->
    forall (h : list hop) (d : N) (xs : list N) (k : nat),
      let s := runc H shuffle src_inplace src_unlink_first true h init in
      (forall l, read_index (sfs s) = Some l -> forall x r, In x xs -> ~ tag_of l r x) ->
      let os := Delete d :: map Delete xs in
      let fsk := crash_seq H shuffle src_inplace src_unlink_first true s os k in
      same_tags fsk (sfs s) \/ same_tags fsk (sfs (run H shuffle src_inplace src_unlink_first true os s)).
Proof. rewrite src_inplace_false, src_unlink_first_false. exact cascade_tags. Qed.
Print Assumptions C10_cascade_tags_before_or_after.

(* GC as the code does it: Forget (rebuild the maps, save index.json), then BARE removals of
   blob files (os.Remove, no Store.delete).  Under the fact the sweep relies on -- no swept
   blob is in the live set or carries a reference name (checked by the harness on every
   recorded GC) -- each removal of the call is exactly one unlink (the model's plain Delete
   degenerates to it), the tag mapping read from index.json is unchanged at every cut, and
   index.json is the one before the call or the one Forget saved.  Together with
   C10_crash_safe_composite and C10_cascade_blobs_between (gc_ops is such a list) this is
   the property for GC. *)
Theorem C10_gc_crash_safe :
  forall (H : list N -> N) (shuffle : nat -> list entry -> list entry),
    (forall c l e, In e (shuffle c l) <-> In e l) ->
    forall (h : list hop) (live xs : list N) (k : nat),
      let s := runc H shuffle src_inplace src_unlink_first true h init in
      (forall l, read_index (sfs s) = Some l ->
         forall x, In x xs -> ~ In x live /\ forall r, ~ tag_of l r x) ->
      let os := gc_ops live xs in
      let fsk := crash_seq H shuffle src_inplace src_unlink_first true s os k in
      (forall pre x post, map Delete xs = pre ++ Delete x :: post ->
         let sj := run H shuffle src_inplace src_unlink_first true pre
                     (run_op H shuffle src_inplace src_unlink_first true s (Forget live)) in
         op_steps H shuffle src_inplace src_unlink_first true sj (Delete x)
           = if exists_file (sfs sj) (FBlob x) then [Unlink (FBlob x)] else []) /\
      same_tags fsk (sfs s) /\
      (read_index fsk = read_index (sfs s) \/
       read_index fsk = read_index (sfs (run_op H shuffle src_inplace src_unlink_first true s (Forget live)))).
Proof. rewrite src_inplace_false, src_unlink_first_false. exact gc_crash_safe. Qed.
Print Assumptions C10_gc_crash_safe.

(* Bridge to C09 (Model/OciGC.v: WHAT Delete-with-AutoGC and GC remove, proved exact there).  The
   hypotheses of the two theorems above are derived from C09's characterisation of the removed
   sets, for every enumeration of them, given only that the two models agree on which nodes
   carry a reference name (node n of the C09 model = blob N.of_nat n here):
   the nodes C09's Delete removes besides its target ([Gone]) ... *)
Theorem C10_cascade_of_gc_model :
  forall (H : list N -> N) (shuffle : nat -> list entry -> list entry),
    (forall c l e, In e (shuffle c l) <-> In e l) ->
    forall succ subject manifest (g : Oras.Model.OciGC.state) (x : nat) (h : list hop) (xs : list nat) (k : nat),
      let s := runc H shuffle src_inplace src_unlink_first true h init in
      names_agree g s ->
      (forall y, In y xs -> Oras.Proofs.OciGC.Gone succ subject manifest g x y /\ y <> x) ->
      let os := Delete (N.of_nat x) :: map Delete (map N.of_nat xs) in
      let fsk := crash_seq H shuffle src_inplace src_unlink_first true s os k in
      same_tags fsk (sfs s) \/ same_tags fsk (sfs (run H shuffle src_inplace src_unlink_first true os s)).
Proof. rewrite src_inplace_false, src_unlink_first_false. exact cascade_of_gc_model. Qed.
Print Assumptions C10_cascade_of_gc_model.

(* ... and the stored nodes outside C09's live set ([Live]) that GC sweeps. *)
Theorem C10_gc_of_gc_model :
  forall (H : list N -> N) (shuffle : nat -> list entry -> list entry),
    (forall c l e, In e (shuffle c l) <-> In e l) ->
    forall succ subject manifest (g : Oras.Model.OciGC.state) (h : list hop) (live : list N) (xs : list nat) (k : nat),
      let s := runc H shuffle src_inplace src_unlink_first true h init in
      names_agree g s ->
      (forall z, In z live -> exists n, z = N.of_nat n /\ Oras.Proofs.OciGC.Live succ subject manifest g n) ->
      (forall y, In y xs -> In y (Oras.Model.OciGC.blobs g) /\ ~ Oras.Proofs.OciGC.Live succ subject manifest g y) ->
      let os := gc_ops live (map N.of_nat xs) in
      let fsk := crash_seq H shuffle src_inplace src_unlink_first true s os k in
      same_tags fsk (sfs s) /\
      (read_index fsk = read_index (sfs s) \/
       read_index fsk = read_index (sfs (run_op H shuffle src_inplace src_unlink_first true s (Forget live)))).
Proof. rewrite src_inplace_false, src_unlink_first_false. exact gc_of_gc_model. Qed.
Print Assumptions C10_gc_of_gc_model.

(* the agreement hypothesis is satisfiable (a layer and a tagged manifest in both models) *)
Example C10_names_agree_example :
  let Hf := fun c : list N => match c with [7] => 1 | [9] => 2 | _ => 0 end in
  let s := runc Hf (fun _ l => l) src_inplace src_unlink_first true
             [Done (Push 1 [7] false); Done (Push 2 [9] true); Done (Tag 2 5)] init in
  let g := {| Oras.Model.OciGC.blobs := [1; 2]%nat;
              Oras.Model.OciGC.idx := [(Oras.Model.OciGC.RDig 2, 2%nat); (Oras.Model.OciGC.RTag 5, 2%nat)];
              Oras.Model.OciGC.gnodes := [1; 2]%nat; Oras.Model.OciGC.strays := [];
              Oras.Model.OciGC.autogc := true |} in
  names_agree g s /\ read_index (sfs s) = Some [(2, Some 5)].
Proof. exact names_agree_example. Qed.

(* the tag mapping a reader derives from index.json is the one before or the one after *)
Theorem C10_tag_mapping_before_or_after :
  forall (H : list N -> N) (shuffle : nat -> list entry -> list entry),
    (forall c l e, In e (shuffle c l) <-> In e l) ->
    forall (h : list op) (o : op) (k : nat),
      let s := run H shuffle src_inplace src_unlink_first true h init in
      let fsk := crash_fs H shuffle src_inplace src_unlink_first true s o k in
      same_tags fsk (sfs s) \/
      same_tags fsk (sfs (run_op H shuffle src_inplace src_unlink_first true s o)).
Proof. rewrite src_inplace_false, src_unlink_first_false. exact crash_tags_before_or_after. Qed.
Print Assumptions C10_tag_mapping_before_or_after.

(* Effects of operations that returned are all present: after any history of completed
   operations the blobs under blobs/ and the tag mapping read from index.json are exactly
   those of the sequential specification of the API (spec_run: Push adds a verified blob,
   Delete removes it and its tags, Tag/Untag update the map). *)
Theorem C10_completed_effects :
  forall (H : list N -> N) (shuffle : nat -> list entry -> list entry),
    (forall c l e, In e (shuffle c l) <-> In e l) ->
    forall (h : list op),
      let s := run H shuffle src_inplace src_unlink_first true h init in
      let bs := fst (spec_run H h (fun _ => false) (fun _ => None)) in
      let tg := snd (spec_run H h (fun _ => false) (fun _ => None)) in
      (forall d, exists_file (sfs s) (FBlob d) = bs d) /\
      exists l, read_index (sfs s) = Some l /\ forall r n, tag_of l r n <-> tg r = Some n.
Proof. rewrite src_inplace_false, src_unlink_first_false. exact completed_effects. Qed.
Print Assumptions C10_completed_effects.

(* "Effects of operations that had returned before the crash are all present", across any
   number of crashes: a blob stored by a Push that returned is there as long as no later
   operation -- completed or interrupted at any cut -- is a Delete of it (cascades and
   sweeps are sequences of such deletes) ... *)
Theorem C10_completed_push_survives_crashes :
  forall (H : list N -> N) (shuffle : nat -> list entry -> list entry),
    (forall c l e, In e (shuffle c l) <-> In e l) ->
    forall (h : list hop) (d : N),
      stored_since H d h = true ->
      exists_file (sfs (runc H shuffle src_inplace src_unlink_first true h init)) (FBlob d) = true.
Proof. rewrite src_inplace_false, src_unlink_first_false. exact completed_push_survives. Qed.
Print Assumptions C10_completed_push_survives_crashes.

(* ... and a reference set by a Tag that returned (on a stored blob) is in index.json as long as
   no later operation -- completed or interrupted -- is a Tag or Untag of that name or a
   Delete of that blob. *)
Theorem C10_completed_tag_survives_crashes :
  forall (H : list N -> N) (shuffle : nat -> list entry -> list entry),
    (forall c l e, In e (shuffle c l) <-> In e l) ->
    forall (h : list hop) (d r : N),
      tagged_since H d r h = true ->
      exists l, read_index (sfs (runc H shuffle src_inplace src_unlink_first true h init)) = Some l /\
                tag_of l r d.
Proof. rewrite src_inplace_false, src_unlink_first_false. exact completed_tag_survives. Qed.
Print Assumptions C10_completed_tag_survives_crashes.

(* The converse, across any number of crashes: nothing is invented.  Every blob file under
   blobs/ was pushed (with content that verifies) by some operation of the history, completed or
   interrupted; every reference name in index.json was set by some Tag of the history. *)
Theorem C10_nothing_invented :
  forall (H : list N -> N) (shuffle : nat -> list entry -> list entry),
    (forall c l e, In e (shuffle c l) <-> In e l) ->
    forall (h : list hop),
      let s := runc H shuffle src_inplace src_unlink_first true h init in
      (forall d, exists_file (sfs s) (FBlob d) = true -> pushed_in H d h) /\
      (forall l d r, read_index (sfs s) = Some l -> tag_of l r d -> tagged_in d r h).
Proof. rewrite src_inplace_false, src_unlink_first_false. exact nothing_invented_disk. Qed.
Print Assumptions C10_nothing_invented.

Example C10_survives_example :
  let H := fun c : list N => match c with [7] => 1 | [9] => 2 | _ => 0 end in
  let h := [Done (Push 2 [9] true); Done (Tag 2 5); Crashed (Push 1 [7] false) 3;
            Crashed (Tag 2 6) 2; Done (Push 1 [7] false); Crashed (Delete 1) 0] in
  stored_since H 2 h = true /\ tagged_since H 2 5 h = true /\
  stored_since H 1 h = false /\ tagged_since H 2 6 h = false.
Proof. vm_compute. repeat split; reflexivity. Qed.

(* The API layer (Model expand / runa): a call of the Store is a list of primitives that depends
   on the media type and on the decodability of the content -- a manifest-typed blob whose
   bytes do not decode is stored, found unindexable and removed again by Push, and refused
   by Tag.  "The directory can be opened again" in full: after ANY history of completed and
   interrupted calls and ANY cut of ANY call, loadIndex succeeds -- index.json parses, every
   entry names a blob file, and every manifest-typed entry decodes. *)
Theorem C10_api_reopen_loads :
  forall (H : list N -> N) (shuffle : nat -> list entry -> list entry),
    (forall c l e, In e (shuffle c l) <-> In e l) ->
    forall (mt dec : N -> bool) (h : list acall) (a : api) (k : nat),
      let s := runa H shuffle src_inplace src_unlink_first true mt dec h init in
      load_okb mt dec (crash_seq H shuffle src_inplace src_unlink_first true s (expand H mt dec s a) k) = true.
Proof. rewrite src_inplace_false, src_unlink_first_false. exact api_crash_load_ok. Qed.
Print Assumptions C10_api_reopen_loads.

(* ... and the cut is a crash state of one primitive of the call's expansion, recoverable between
   the quiescent states around it (all earlier theorems apply to histories of calls). *)
Theorem C10_api_crash_safe :
  forall (H : list N -> N) (shuffle : nat -> list entry -> list entry),
    (forall c l e, In e (shuffle c l) <-> In e l) ->
    forall (mt dec : N -> bool) (h : list acall) (a : api) (k : nat),
      let s := runa H shuffle src_inplace src_unlink_first true mt dec h init in
      let os := expand H mt dec s a in
      let fsk := crash_seq H shuffle src_inplace src_unlink_first true s os k in
      (exists pre o post,
         os = pre ++ o :: post /\
         let sj := run H shuffle src_inplace src_unlink_first true pre s in
         Recoverable H (sfs sj) fsk (sfs (run_op H shuffle src_inplace src_unlink_first true sj o))) \/
      (fsk = sfs (run H shuffle src_inplace src_unlink_first true os s) /\
       layout_ok fsk /\ blob_ok H fsk /\ index_ok fsk).
Proof. rewrite src_inplace_false, src_unlink_first_false. exact api_crash_safe. Qed.
Print Assumptions C10_api_crash_safe.

(* A history of calls IS a history of primitives with crashes, so the theorems about [runc]
   (completed effects survive, nothing is invented, cascades, GC) speak about API histories. *)
Theorem C10_api_history_is_primitive_history :
  forall (H : list N -> N) (shuffle : nat -> list entry -> list entry),
    (forall c l e, In e (shuffle c l) <-> In e l) ->
    forall (mt dec : N -> bool) (h : list acall),
    exists hs, runa H shuffle src_inplace src_unlink_first true mt dec h init
               = runc H shuffle src_inplace src_unlink_first true hs init.
Proof. rewrite src_inplace_false, src_unlink_first_false. intros H shuffle _ mt dec h. apply runa_is_runc. Qed.
Print Assumptions C10_api_history_is_primitive_history.

(* Before the repairs of audit F2 (Push kept the undecodable manifest, Tag accepted it):
   refuted -- loadIndex fails on the resulting index. *)
Theorem C10_api_reopen_refuted_undecodable :
  exists (mt dec : N -> bool) (H : list N -> N) (os : list op),
    load_okb mt dec (sfs (run H (fun _ l => l) false false true os init)) = false.
Proof. exact reopen_refuted_undecodable. Qed.
Print Assumptions C10_api_reopen_refuted_undecodable.

(* Concurrent callers (Model/OciCrashConc.v).  Push, Tag, Untag and SaveIndex hold the Store's
   RWMutex for reading and run concurrently (Delete and GC run alone: the sequential model).
   Threads execute atomic actions -- append to the own ingest file, publish it (rename to
   blobs/<d>) once verified, update the resolver, and saveIndex as the critical section of
   indexLock (snapshot of the resolver when the lock is taken, published by one rename).
   For every history with earlier crashes, every set of concurrent calls and EVERY schedule
   (list of thread ids; a crash is the configuration after any prefix): oci-layout valid,
   every blob complete and matching its name, index.json parses and names only existing
   blobs, and every blob that was there when the calls started is there. *)
Theorem C10_conc_crash_safe :
  forall (H : list N -> N) (shuffle : nat -> list entry -> list entry),
    (forall c l e, In e (shuffle c l) <-> In e l) ->
    forall (h : list hop) (calls : list ccall) (is : list nat),
      let s := runc H shuffle src_inplace src_unlink_first true h init in
      let c := sched shuffle (start H s calls) is in
      layout_ok (cfs c) /\ blob_ok H (cfs c) /\ index_ok (cfs c) /\
      (forall d, has (sfs s) (FBlob d) -> has (cfs c) (FBlob d)).
Proof. rewrite src_inplace_false, src_unlink_first_false. exact conc_crash_safe. Qed.
Print Assumptions C10_conc_crash_safe.

(* ... and the tag mapping under concurrency: at every point of every schedule, a reference name in
   index.json was there when the calls started or is set by one of the concurrent Tag calls. *)
Theorem C10_conc_tags_origin :
  forall (H : list N -> N) (shuffle : nat -> list entry -> list entry),
    (forall c l e, In e (shuffle c l) <-> In e l) ->
    forall (h : list hop) (calls : list ccall) (is : list nat),
      let s := runc H shuffle src_inplace src_unlink_first true h init in
      let c := sched shuffle (start H s calls) is in
      forall l r n, read_index (cfs c) = Some l -> tag_of l r n ->
        (exists l0, read_index (sfs s) = Some l0 /\ tag_of l0 r n) \/ In (CTag n r) calls.
Proof. rewrite src_inplace_false, src_unlink_first_false. exact conc_tags_origin. Qed.
Print Assumptions C10_conc_tags_origin.

(* The concurrent model refines the sequential one: a call that runs ALONE (one thread, scheduled to
   completion) leaves exactly the shared directory (all non-temporary paths) and the resolver
   of the sequential model's operation -- the model that the kill-at-k correspondence ties to
   the code. *)
Theorem C10_conc_alone_refines :
  forall (H : list N -> N) (shuffle : nat -> list entry -> list entry),
    (forall c l e, In e (shuffle c l) <-> In e l) ->
    forall (h : list hop) (x : ccall),
      let s := runc H shuffle src_inplace src_unlink_first true h init in
      exists n,
        let c := sched shuffle (start H s [x]) (repeat 0%nat n) in
        let s1 := run_op H shuffle src_inplace src_unlink_first true s (op_of_call x) in
        ctags c = stags s1 /\ cdigs c = sdigs s1 /\
        (forall p, is_temp p = false -> files (cfs c) p = files (sfs s1) p) /\ clock c = false.
Proof.
  rewrite src_inplace_false, src_unlink_first_false. intros H shuffle Hs h x.
  apply conc_alone_refines, inv_runc, inv_init; exact Hs.
Qed.
Print Assumptions C10_conc_alone_refines.

(* the order "publish the blob, then enter it into the resolver" is needed: a thread that tags
   first lets saveIndex write an entry for a blob that is not there yet *)
Theorem C10_conc_refuted_tag_before_publish :
  exists (H : list N -> N) (t : thread) (is : list nat),
    let c := sched (fun _ l => l) (mkConf init_fs [] [] false 0 [t]) is in
    ~ index_ok (cfs c).
Proof. exact conc_unsafe_tag_before_publish. Qed.
Print Assumptions C10_conc_refuted_tag_before_publish.

Example C10_conc_example :
  let H := fun c : list N => match c with [7] => 1 | [8] => 2 | [9] => 3 | _ => 0 end in
  let id := fun (_ : nat) (l : list entry) => l in
  let s := runc H id src_inplace src_unlink_first true [Done (Push 3 [9] true)] init in
  let c := sched id (start H s [CPush 1 [7] true; CPush 2 [8] true; CTag 3 5]) [0; 2; 0; 2; 2; 0; 2; 0; 1; 2]%nat in
  read_index (cfs c) = Some [(3, Some 5)] /\
  exists_file (cfs c) (FBlob 1) = true /\ exists_file (cfs c) (FBlob 2) = false /\
  cdigs c = [1; 3] /\ clock c = false.
Proof. vm_compute. repeat split; reflexivity. Qed.

(* What indexLock is for.  A history alternates sequential phases (any operations, Delete and GC
   included, completed or interrupted with the store reopened: PSeq), batches of concurrent
   Push / Tag / Untag / SaveIndex calls under any schedule that lets all calls of the batch
   return (PConc, [phases_quiet]) and batches killed after any prefix of any schedule, the
   store reopened (PConcCrash).  Then index.json is exactly what
   saveIndex would write from the resolver now: no completed Tag, Untag or manifest Push is
   missing from it, whatever the interleaving of the resolver updates, snapshots and renames
   was (the last publisher took its snapshot after every other call's resolver update). *)
Theorem C10_conc_quiescent_synced :
  forall (H : list N -> N) (shuffle : nat -> list entry -> list entry),
    (forall c l e, In e (shuffle c l) <-> In e l) ->
    forall ps : list phase,
      phases_quiet H shuffle src_inplace src_unlink_first init ps = true ->
      let s := run_phases H shuffle src_inplace src_unlink_first init ps in
      exists l, read_index (sfs s) = Some l /\ forall e, In e l <-> In e (save (stags s) (sdigs s)).
Proof. rewrite src_inplace_false, src_unlink_first_false. intros H shuffle Hs ps Q. exact (proj2 (phases_synced H shuffle Hs ps Q)). Qed.
Print Assumptions C10_conc_quiescent_synced.

(* ... and the sequential model's invariant is back at that point: after any such history, and
   any further operations some of which were interrupted (and the store reopened), a crash at any
   cut of any operation is Recoverable, and so is every configuration of every schedule of a
   further batch of concurrent calls. *)
Theorem C10_conc_phases_crash_safe :
  forall (H : list N -> N) (shuffle : nat -> list entry -> list entry),
    (forall c l e, In e (shuffle c l) <-> In e l) ->
    forall (ps : list phase) (h : list hop),
      phases_quiet H shuffle src_inplace src_unlink_first init ps = true ->
      let s := runc H shuffle src_inplace src_unlink_first true h
                    (run_phases H shuffle src_inplace src_unlink_first init ps) in
      (forall o k, Recoverable H (sfs s) (crash_fs H shuffle src_inplace src_unlink_first true s o k)
                               (sfs (run_op H shuffle src_inplace src_unlink_first true s o))) /\
      (forall calls is,
         let c := sched shuffle (start H s calls) is in
         layout_ok (cfs c) /\ blob_ok H (cfs c) /\ index_ok (cfs c) /\
         (forall d, has (sfs s) (FBlob d) -> has (cfs c) (FBlob d))).
Proof.
  rewrite src_inplace_false, src_unlink_first_false. intros H shuffle Hs ps h Q s.
  destruct (phases_runc H shuffle Hs ps h Q) as [I _].
  split; [intros o k; now apply op_safe|intros calls is; now apply conc_safe_from].
Qed.
Print Assumptions C10_conc_phases_crash_safe.

(* Completed effects under concurrency: after any such history, a Push that has returned (its
   batch ran until all calls had returned) has stored its blob, and a manifest that was not there
   before has its entry in index.json -- whatever ran at the same time. *)
Theorem C10_conc_completed_push :
  forall (H : list N -> N) (shuffle : nat -> list entry -> list entry),
    (forall c l e, In e (shuffle c l) <-> In e l) ->
    forall (ps : list phase) (calls : list ccall) (is : list nat) (i : nat) (d : N) (cont : list N) (man : bool),
      phases_quiet H shuffle src_inplace src_unlink_first init ps = true ->
      let s := run_phases H shuffle src_inplace src_unlink_first init ps in
      let c := sched shuffle (start H s calls) is in
      nth_error calls i = Some (CPush d cont man) -> H cont = d -> quietb c = true ->
      has (cfs c) (FBlob d) /\
      (exists_file (sfs s) (FBlob d) = false -> man = true ->
       exists l r, read_index (cfs c) = Some l /\ In (d, r) l).
Proof.
  rewrite src_inplace_false, src_unlink_first_false. intros H shuffle Hs ps calls is i d cont man Q s c Ei Hc Qc.
  destruct (phases_synced H shuffle Hs ps Q) as [I A].
  exact (conc_completed_push H shuffle Hs s calls is i d cont man I A Ei Hc (quietb_quiet c Qc)).
Qed.
Print Assumptions C10_conc_completed_push.

(* ... a Tag that has returned, of a blob that was stored, no other call of its batch naming the
   same reference: index.json has the reference, whatever else ran at the same time ... *)
Theorem C10_conc_completed_tag :
  forall (H : list N -> N) (shuffle : nat -> list entry -> list entry),
    (forall c l e, In e (shuffle c l) <-> In e l) ->
    forall (ps : list phase) (calls : list ccall) (is : list nat) (i : nat) (d r : N),
      phases_quiet H shuffle src_inplace src_unlink_first init ps = true ->
      let s := run_phases H shuffle src_inplace src_unlink_first init ps in
      let c := sched shuffle (start H s calls) is in
      nth_error calls i = Some (CTag d r) -> exists_file (sfs s) (FBlob d) = true ->
      (forall j x, nth_error calls j = Some x -> j <> i -> (forall d', x <> CTag d' r) /\ x <> CUntag r) ->
      quietb c = true ->
      exists l, read_index (cfs c) = Some l /\ In (d, Some r) l.
Proof.
  rewrite src_inplace_false, src_unlink_first_false. intros H shuffle Hs ps calls is i d r Q s c Ei Ex Ho Qc.
  destruct (phases_synced H shuffle Hs ps Q) as [I A].
  exact (conc_completed_tag H shuffle Hs s calls is i d r I A Ei Ex Ho (quietb_quiet c Qc)).
Qed.
Print Assumptions C10_conc_completed_tag.

(* ... and an Untag that has returned: index.json does not have the reference. *)
Theorem C10_conc_completed_untag :
  forall (H : list N -> N) (shuffle : nat -> list entry -> list entry),
    (forall c l e, In e (shuffle c l) <-> In e l) ->
    forall (ps : list phase) (calls : list ccall) (is : list nat) (i : nat) (r : N),
      phases_quiet H shuffle src_inplace src_unlink_first init ps = true ->
      let s := run_phases H shuffle src_inplace src_unlink_first init ps in
      let c := sched shuffle (start H s calls) is in
      nth_error calls i = Some (CUntag r) ->
      (forall j x, nth_error calls j = Some x -> j <> i -> (forall d', x <> CTag d' r) /\ x <> CUntag r) ->
      quietb c = true ->
      exists l, read_index (cfs c) = Some l /\ forall n, ~ In (n, Some r) l.
Proof.
  rewrite src_inplace_false, src_unlink_first_false. intros H shuffle Hs ps calls is i r Q s c Ei Ho Qc.
  destruct (phases_synced H shuffle Hs ps Q) as [I A].
  exact (conc_completed_untag H shuffle Hs s calls is i r I A Ei Ho (quietb_quiet c Qc)).
Qed.
Print Assumptions C10_conc_completed_untag.

(* The hypothesis "no other call names the reference" is needed: two Tag calls of one reference,
   both returned, the reference names the other blob. *)
Theorem C10_conc_completed_tag_refuted_shared_reference :
  exists (H : list N -> N) (s : st) (calls : list ccall) (is : list nat),
    let c := sched (fun _ l => l) (start H s calls) is in
    nth_error calls 0 = Some (CTag 1 10) /\ quietb c = true /\ read_index (cfs c) = Some [(2, Some 10); (1, None)].
Proof. exact conc_completed_tag_needs_alone. Qed.

(* The callers as they really are: goroutines that each make a QUEUE of calls one after the other,
   the program of each call decided when that call starts (on the state the other goroutines have
   produced by then).  After any history (phases, then operations with crashes), for every set of
   queues and every schedule, at every prefix: the directory is one the property accepts; and when
   every goroutine has made all its calls and the last has returned, index.json is exactly the
   index of the resolver. *)
Theorem C10_goroutines_crash_safe :
  forall (H : list N -> N) (shuffle : nat -> list entry -> list entry),
    (forall c l e, In e (shuffle c l) <-> In e l) ->
    forall (ps : list phase) (h : list hop) (qs : list (list ccall)) (is : list nat),
      phases_quiet H shuffle src_inplace src_unlink_first init ps = true ->
      let s := runc H shuffle src_inplace src_unlink_first true h
                    (run_phases H shuffle src_inplace src_unlink_first init ps) in
      let g := gsched H shuffle (gstart s qs) is in
      layout_ok (cfs (gc g)) /\ blob_ok H (cfs (gc g)) /\ index_ok (cfs (gc g)) /\
      (forall d, has (sfs s) (FBlob d) -> has (cfs (gc g)) (FBlob d)) /\
      (gquietb g = true ->
       exists l, read_index (cfs (gc g)) = Some l /\
                 forall e, In e l <-> In e (save (ctags (gc g)) (cdigs (gc g)))).
Proof.
  rewrite src_inplace_false, src_unlink_first_false. intros H shuffle Hs ps h qs is Q.
  destruct (phases_runc H shuffle Hs ps h Q) as [I A]. exact (go_crash_safe H shuffle Hs _ qs is I A).
Qed.
Print Assumptions C10_goroutines_crash_safe.

(* satisfiable; and "decided when it starts" matters: a Tag of a blob that another goroutine pushes
   in the same batch takes effect iff it starts after the blob was published *)
Theorem C10_goroutines_example :
  let H := fun _ : list N => 1 in
  let id := fun (_ : nat) (l : list entry) => l in
  let g1 := gsched H id (gstart init [[CPush 1 [5] true; CTag 1 10]; [CUntag 10]]) [1; 0; 0; 0; 0; 0; 0; 0; 0; 0; 0; 0; 0; 0]%nat in
  let g2 := gsched H id (gstart init [[CPush 1 [5] true]; [CTag 1 10]]) [1; 0; 0; 0; 0; 0; 0; 0; 1]%nat in
  gquietb g1 = true /\ read_index (cfs (gc g1)) = Some [(1, Some 10)] /\
  gquietb g2 = true /\ read_index (cfs (gc g2)) = Some [(1, None)].
Proof. exact go_example. Qed.

(* Without indexLock (the same threads, the lock ignored) the first statement is false: two Tag
   calls, the earlier snapshot published last; both have returned, the resolver has both
   references, index.json has one. *)
Theorem C10_conc_refuted_without_indexlock :
  exists (H : list N -> N) (s : st) (calls : list ccall) (is : list nat),
    let c := sched_nolock (fun _ l => l) (start H s calls) is in
    quietb c = true /\ In (11, 1) (ctags c) /\ read_index (cfs c) = Some [(1, Some 10)].
Proof. exact conc_unsynced_without_indexlock. Qed.
Print Assumptions C10_conc_refuted_without_indexlock.

(* the hypothesis is satisfiable *)
Theorem C10_conc_phases_example :
  let ps := [PSeq [Done (Push 1 [5] true)];
             PConc [CTag 1 10; CTag 1 11] [0; 1; 0; 1; 0; 0; 0; 1; 1; 1]%nat;
             PSeq [Crashed (Untag 10) 1; Done (Untag 10)];
             PConcCrash [CTag 1 12; CSaveIndex] [0; 1; 0]%nat;
             PConc [CPush 1 [6] false; CSaveIndex] [1; 0; 1; 0; 1; 0]%nat] in
  phases_quiet (fun _ => 1) (fun _ l => l) src_inplace src_unlink_first init ps = true /\
  read_index (sfs (run_phases (fun _ => 1) (fun _ l => l) src_inplace src_unlink_first init ps)) = Some [(1, Some 11)].
Proof. exact phases_example. Qed.

(* Nothing that a reader looks at is ever written in place: every create / truncate /
   write / chmod micro-step of every operation targets a temporary (ingest/<d>_<rnd> or
   index.json.tmp<rnd>); oci-layout, index.json and blobs/ change by rename and unlink
   only.  Hence the granularity of write(2) (partial or torn writes) is irrelevant. *)
Theorem C10_no_in_place_write :
  forall (H : list N -> N) (shuffle : nat -> list entry -> list entry) (s : st) (o : op) (m : mstep),
    In m (op_steps H shuffle src_inplace src_unlink_first true s o) ->
    match m with
    | Create p | OpenTrunc p | Write p _ | Chmod p => is_temp p = true
    | _ => True
    end.
Proof. rewrite src_inplace_false, src_unlink_first_false. exact no_in_place_write. Qed.
Print Assumptions C10_no_in_place_write.

(* Initialisation (beyond the property's "initialised store"): the first oci.New on an empty
   directory is cut anywhere; the directory it leaves never makes a later oci.New fail, and
   that New completes the layout: valid oci-layout, index.json without manifests, blobs/. *)
Theorem C10_init_restartable :
  forall (shuffle : nat -> list entry -> list entry),
    (forall c l e, In e (shuffle c l) <-> In e l) ->
    forall k,
      let fsk := apply (firstn k (new_steps shuffle src_inplace src_layout_inplace empty_fs 0)) empty_fs in
      let fs2 := apply (new_steps shuffle src_inplace src_layout_inplace fsk 1) fsk in
      new_okb fsk = true /\
      layout_okb fs2 = true /\ read_index fs2 = Some [] /\ dirs fs2 DBlobs = true /\
      forall d, files fs2 (FBlob d) = None.
Proof. rewrite src_inplace_false, src_layout_inplace_false. exact init_restartable. Qed.
Print Assumptions C10_init_restartable.

(* ... and for ANY number of interrupted attempts (each oci.New cut at an arbitrary point, the next
   one started on whatever was left, leftover temporaries included): the directory never makes
   oci.New fail, and the first attempt that runs to completion leaves a valid oci-layout, an
   index.json without manifests, blobs/ and no blob. *)
Theorem C10_init_restartable_many :
  forall (shuffle : nat -> list entry -> list entry),
    (forall c l e, In e (shuffle c l) <-> In e l) ->
    forall (ks : list nat),
      let fs := fst (init_attempts shuffle src_inplace src_layout_inplace ks empty_fs 0) in
      let c := snd (init_attempts shuffle src_inplace src_layout_inplace ks empty_fs 0) in
      let fs' := apply (new_steps shuffle src_inplace src_layout_inplace fs c) fs in
      new_okb fs = true /\
      files fs' FLayout = Some (mkFile [ALayout] false) /\
      files fs' FIndex = Some (mkFile [AIndex []] false) /\
      (forall d, files fs' (FBlob d) = None) /\ dirs fs' DBlobs = true.
Proof. rewrite src_inplace_false, src_layout_inplace_false. exact init_restartable_many. Qed.
Print Assumptions C10_init_restartable_many.

(* oci-layout written in place (the code before the repair): refuted, cut after open(O_TRUNC) *)
Theorem C10_init_refuted_layout_inplace :
  forall (shuffle : nat -> list entry -> list entry),
  exists k, new_okb (apply (firstn k (new_steps shuffle false true empty_fs 0)) empty_fs) = false.
Proof. exact init_unrestartable_inplace. Qed.
Print Assumptions C10_init_refuted_layout_inplace.

(* the source orders the proof relies on: temp+rename index write, index before unlink,
   blob stored before it is tagged, ingest = create temp / copy+verify / chmod, then rename,
   GC = rebuild, save index, then sweep *)
Theorem C10_source_order :
  src_inplace = false /\ src_unlink_first = false /\ src_push_order_ok = true /\ src_gc_order_ok = true /\
  src_layout_inplace = false /\ src_guards_ok = true.
Proof.
  exact (conj src_inplace_false (conj src_unlink_first_false (conj src_push_order
          (conj src_gc_order (conj src_layout_inplace_false src_guards))))).
Qed.
Print Assumptions C10_source_order.

(* The lock discipline the two models rest on, read off the source: Push / Tag / Untag / SaveIndex
   hold the read lock for the whole call (the concurrent model's threads), Delete and GC the write
   lock (sequential operations), saveIndex holds indexLock from before its resolver snapshot until
   index.json is renamed into place (the concurrent model's critical section). *)
Theorem C10_source_locks : src_locks_ok = true.
Proof. exact src_locks. Qed.
Print Assumptions C10_source_locks.

(* Initialisation and loading as the model has them (new_steps, reopen, load, load_okb), read off
   the source: NewWithContext creates storage, blobs/, oci-layout, index.json in this order; each
   file is written (atomically) only when opening it failed and validated / loaded otherwise;
   loadIndex enters every index entry by digest, by name iff it has a reference name, and indexes it. *)
Theorem C10_source_init : src_init_ok = true.
Proof. exact src_init. Qed.
Print Assumptions C10_source_init.

(* The code before the repair (os.WriteFile on index.json itself, [inplace = true]):
   the theorem is false.  Witness: SaveIndex on the fresh store cut after open(O_TRUNC). *)
Theorem C10_crash_safe_refuted_inplace :
  forall (H : list N -> N),
  exists h o k,
    let s := run H (fun _ l => l) true false true h init in
    ~ Recoverable H (sfs s) (crash_fs H (fun _ l => l) true false true s o k)
        (sfs (run_op H (fun _ l => l) true false true s o)).
Proof. exact crash_unsafe_inplace. Qed.
Print Assumptions C10_crash_safe_refuted_inplace.

(* Store.delete with its two effects swapped (unlink, then index): false as well.
   Witness: push a manifest, delete it, cut after the unlink. *)
Theorem C10_crash_safe_refuted_unlink_first :
  exists H h o k,
    let s := run H (fun _ l => l) false true true h init in
    ~ Recoverable H (sfs s) (crash_fs H (fun _ l => l) false true true s o k)
        (sfs (run_op H (fun _ l => l) false true true s o)).
Proof. exact crash_unsafe_unlink_first. Qed.
Print Assumptions C10_crash_safe_refuted_unlink_first.

(* AutoSaveIndex = false (the last argument of run/crash_fs; every theorem above is stated
   for the default true): the property does NOT hold.  Witness: push a manifest, tag it,
   SaveIndex, Delete it -- the blob is unlinked while the saved index.json still names it
   (no crash needed; known finding autosave-off-index-dangling). *)
Theorem C10_crash_safe_refuted_autosave_off :
  exists H h o k,
    let s := run H (fun _ l => l) false false false h init in
    ~ Recoverable H (sfs s) (crash_fs H (fun _ l => l) false false false s o k)
        (sfs (run_op H (fun _ l => l) false false false s o)).
Proof. exact crash_unsafe_autosave_off. Qed.
Print Assumptions C10_crash_safe_refuted_autosave_off.

(* the hypotheses of the cascade / GC theorems are satisfiable on a non-trivial instance:
   a layer (1), an untagged manifest (3) and a tagged manifest (2); GC with live = [2]
   sweeps 1 and 3; the cut after Forget and one removal *)
Example C10_gc_example_instance :
  let H := fun c : list N => match c with [7] => 1 | [9] => 2 | [8] => 3 | _ => 0 end in
  let id := fun (_ : nat) (l : list entry) => l in
  let h := [Done (Push 1 [7] false); Done (Push 2 [9] true); Done (Push 3 [8] true); Done (Tag 2 5)] in
  let s := runc H id src_inplace src_unlink_first true h init in
  let fsk := crash_seq H id src_inplace src_unlink_first true s (gc_ops [2] [1; 3]) 5 in
  read_index (sfs s) = Some [(2, Some 5); (3, None)] /\
  read_index fsk = Some [(2, Some 5)] /\
  exists_file fsk (FBlob 1) = false /\ exists_file fsk (FBlob 3) = true /\ exists_file fsk (FBlob 2) = true.
Proof. vm_compute. repeat split; reflexivity. Qed.

(* ... and what DOES hold with AutoSaveIndex = false (everything but "every index entry names an
   existing blob"): at every cut of every operation after every history the layout is valid,
   every blob file is complete and matches its name, index.json parses and is the one before
   or the one after, and the blobs lie between before and after.  (No hypothesis on the map
   order is needed.) *)
Theorem C10_autosave_off_partial :
  forall (H : list N -> N) (shuffle : nat -> list entry -> list entry) (h : list op) (o : op) (k : nat),
    let s := run H shuffle src_inplace src_unlink_first false h init in
    let fsk := crash_fs H shuffle src_inplace src_unlink_first false s o k in
    let fs1 := sfs (run_op H shuffle src_inplace src_unlink_first false s o) in
    layout_ok fsk /\ blob_ok H fsk /\ (exists l, read_index fsk = Some l) /\
    (read_index fsk = read_index (sfs s) \/ read_index fsk = read_index fs1) /\
    (forall d, has (sfs s) (FBlob d) -> has fs1 (FBlob d) -> has fsk (FBlob d)) /\
    (forall d, has fsk (FBlob d) -> has (sfs s) (FBlob d) \/ has fs1 (FBlob d)).
Proof. rewrite src_inplace_false, src_unlink_first_false. exact autosave_off_partial. Qed.
Print Assumptions C10_autosave_off_partial.

(* The hypotheses are satisfiable and the statement is not vacuous: a concrete history
   (push a layer, push a manifest, tag it, delete it cut after the index rename). *)
Example C10_example_instance :
  let H := fun c : list N => match c with [7; 8] => 1 | [9] => 2 | _ => 0 end in
  let id := fun (_ : nat) (l : list entry) => l in
  let h := [Push 1 [7; 8] false; Push 2 [9] true; Tag 2 5] in
  let s := run H id src_inplace src_unlink_first true h init in
  let fsk := crash_fs H id src_inplace src_unlink_first true s (Delete 2) 4 in
  let fs1 := sfs (run_op H id src_inplace src_unlink_first true s (Delete 2)) in
  (forall c l e, In e (id c l) <-> In e l) /\
  recoverableb H [1; 2] (sfs s) fsk fs1 = true /\
  read_index (sfs s) = Some [(2, Some 5)] /\
  read_index fsk = Some [] /\
  exists_file fsk (FBlob 2) = true /\
  exists_file fs1 (FBlob 2) = false.
Proof. split; [intros; reflexivity|]. vm_compute. repeat split; reflexivity. Qed.
