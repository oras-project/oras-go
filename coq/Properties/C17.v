(* C17 -- Re-sent requests carry the whole body; retries are bounded and paced. The theorems are
   closed by [exact] of a lemma or by a line or two from a more general one, the examples by
   evaluation; the lemmas live in Proofs/Retry.v and Proofs/RetryParse.v. The model
   (Model/Retry.v) is tied to registry/remote/retry and registry/remote/auth by the translator
   (Generated/GC17.v: DefaultPolicy numbers, DefaultPredicate status branch, whether the jitter
   draw is guarded) and by the correspondence run. *)
From Coq Require Import QArith.
From Oras Require Import Base.Prelude Base.RetryTypes Generated.GC17 Model.Retry Proofs.Retry Proofs.RetryParse.
Open Scope Z_scope.

(* --- pacing ---------------------------------------------------------- *)

(* every pause GenericPolicy.Retry computes lies within [MinWait, MaxWait]: any
   predicate, any backoff function, any attempt number, any answer *)
Theorem C17_pause_bounds :
  forall (p : policy) (attempt : Z) (o : outcome) (d : Z),
    p_min p <= p_max p -> generic_retry p attempt o = DWait d -> p_min p <= d <= p_max p.
Proof. exact generic_retry_bounds. Qed.
Print Assumptions C17_pause_bounds.

(* GenericPolicy.Retry as translated statement by statement from policy.go
   (Generated.GC17.generated_retry) is the decision with the clamp in closed form *)
Theorem C17_retry_decision_closed_form :
  forall p attempt o,
    generic_retry p attempt o =
    if attempt >=? p_max_retry p then DStop
    else match p_pred p o with
         | PFail => DFail
         | PStop => DStop
         | PRetry => match p_backoff p attempt o with
                     | BPanic => DPanic
                     | BRet x => DWait (clamp (p_min p) (p_max p) x)
                     end
         end.
Proof. exact generic_retry_eq. Qed.
Print Assumptions C17_retry_decision_closed_form.

(* the bounds are meant for MinWait <= MaxWait; for an ill-formed policy (MinWait > MaxWait)
   the code as written yields MaxWait for every pause *)
Theorem C17_pause_min_gt_max :
  forall (p : policy) (attempt : Z) (o : outcome) (d : Z),
    p_max p < p_min p -> generic_retry p attempt o = DWait d -> d = p_max p.
Proof. exact generic_retry_min_gt_max. Qed.
Print Assumptions C17_pause_min_gt_max.

(* ... hence every pause the transport actually makes, for every script, body,
   cancellation and policy *)
Theorem C17_trace_pauses :
  forall p cn bd st sc t,
    p_min p <= p_max p ->
    Forall (fun td => p_min p <= snd td <= p_max p /\ 0 <= snd td)
           (pauses (o_trace (round_trip p cn bd st sc t))).
Proof. exact round_trip_pauses. Qed.
Print Assumptions C17_trace_pauses.

(* a usable Retry-After on 429 is honoured within the bounds (ExponentialBackoff,
   original or repaired; any float conversion, any random source) *)
Theorem C17_retry_after :
  forall guarded oob rnd e maxretry minw maxw pred attempt h ch n,
    h <> [] -> parse_int64 h = n -> 0 < n -> n * 1000000000 < two63 ->
    attempt < maxretry -> pred (OStatus 429 h ch) = PRetry ->
    generic_retry (mkPolicy maxretry minw maxw pred (exp_backoff_gen guarded oob rnd e)) attempt (OStatus 429 h ch)
    = DWait (clamp minw maxw (n * 1000000000)).
Proof. exact retry_after_honoured. Qed.
Print Assumptions C17_retry_after.

(* --- bounded attempts -------------------------------------------------- *)

(* at least one and at most MaxRetry+1 attempts per send *)
Theorem C17_attempts :
  forall p cn bd st sc t,
    let n := Z.of_nat (length (attempts (o_trace (round_trip p cn bd st sc t)))) in
    1 <= n <= Z.max 0 (p_max_retry p) + 1.
Proof. exact round_trip_attempts. Qed.
Print Assumptions C17_attempts.

(* the auth client sends at most three times (twice with an empty token cache),
   each send bounded the same way *)
Theorem C17_auth_attempts :
  forall warm p cn bd sc,
    let a := auth_do warm p cn bd sc in
    1 <= Z.of_nat (length (attempts (a_first a))) <= Z.max 0 (p_max_retry p) + 1 /\
    Z.of_nat (length (attempts (a_second a))) <= Z.max 0 (p_max_retry p) + 1 /\
    Z.of_nat (length (attempts (a_third a))) <= Z.max 0 (p_max_retry p) + 1.
Proof. exact (fun warm p cn bd sc => auth_do_at_attempts warm p cn bd sc 0). Qed.
Print Assumptions C17_auth_attempts.

(* a non-retryable answer is returned at once: one attempt, that answer (or, when the
   predicate itself failed, its error) *)
Theorem C17_nonretryable_at_once :
  forall p cn bd st sc t bh sc' got st1 o t1,
    next_beh sc = (bh, sc') -> serve cn bd st bh t = (got, st1, o, t1) ->
    p_pred p o <> PRetry ->
    exists r, (r = result_of_outcome o \/ r = fail_result o) /\
              round_trip p cn bd st sc t = mkOut r st1 sc' t1 [EAttempt t got].
Proof. exact round_trip_nonretryable. Qed.
Print Assumptions C17_nonretryable_at_once.

(* ... on the whole trace (no cancellation): every answer but the last was retryable for the
   policy's predicate, and the call returns the last answer (or the predicate's error for it,
   or the backoff's panic) *)
Theorem C17_stops_at_first_nonretryable :
  forall p bd st sc t,
    let out := round_trip p None bd st sc t in
    let n := length (attempts (o_trace out)) in
    (forall i, (S i < n)%nat -> p_pred p (b_out (nth i sc default_beh)) = PRetry) /\
    (1 <= n)%nat /\
    (o_res out = result_of_outcome (last_answer sc n) \/ o_res out = fail_result (last_answer sc n) \/
     o_res out = RPanic).
Proof. exact round_trip_stops_at_first_nonretryable. Qed.
Print Assumptions C17_stops_at_first_nonretryable.

(* --- refinement to a stateless specification ------------------------------------------ *)

(* For a body that can always be replayed and a context that never ends, Transport.RoundTrip --
   request state, GetBody counter, script threading, trace -- computes exactly spec_send: result,
   end instant and the list (instant, bytes received) of all attempts, where attempt i receives
   the prefix server i reads of the whole body and the pauses are the policy's decisions *)
Theorem C17_round_trip_refines_spec :
  forall p bd sc t,
    wf_body bd -> replayable bd ->
    let out := round_trip p None bd (init_state bd) sc t in
    (o_res out, o_time out, attempts (o_trace out)) = spec_send p bd sc t.
Proof. exact round_trip_refines_spec. Qed.
Print Assumptions C17_round_trip_refines_spec.

(* ... and so does the whole auth stack (first send, token request through the same transport,
   re-send): result, end instant and the attempts of all three sends are those of spec_auth,
   built from three uses of spec_send *)
Theorem C17_auth_refines_spec :
  forall p bd sc tb tsc,
    wf_body bd -> replayable bd -> wf_body tb -> replayable tb ->
    let a := auth_do_tok p None bd sc tb tsc in
    (ak_res a, ak_time a, attempts (ak_first a), attempts (ak_token a), attempts (ak_second a))
    = spec_auth p bd sc tb tsc.
Proof. exact (fun p bd sc tb tsc => auth_do_tok_at_refines_spec_c p None bd sc tb tsc 0). Qed.
Print Assumptions C17_auth_refines_spec.

(* ... and the whole blob push (POST, its token request, PUT, its token request) refines the
   stateless spec_push built from spec_send *)
Theorem C17_blob_push_refines_spec :
  forall authc p bd sc tb tsc,
    wf_body bd -> replayable bd -> wf_body tb -> replayable tb ->
    let u := blob_push_tok authc p None bd sc tb tsc in
    (uk_res u, uk_time u, show_authk (uk_post u), option_map show_authk (uk_put u))
    = spec_push authc p bd sc tb tsc.
Proof. exact (fun authc p => blob_push_tok_refines_spec_c authc p None). Qed.
Print Assumptions C17_blob_push_refines_spec.

(* --- the same refinements under cancellation ----------------------------------------------- *)

(* for EVERY context (never ending, ending at any instant, over before the call): the transport
   computes spec_send_c, whose attempts are cut short by the context and whose pauses end the
   call with the context's error exactly as the specification says *)
Theorem C17_round_trip_refines_spec_c :
  forall p cn bd sc t,
    wf_body bd -> replayable bd ->
    let out := round_trip p cn bd (init_state bd) sc t in
    (o_res out, o_time out, attempts (o_trace out)) = spec_send_c p cn bd sc t.
Proof. exact round_trip_refines_spec_c. Qed.
Print Assumptions C17_round_trip_refines_spec_c.

Theorem C17_auth_refines_spec_c :
  forall p cn bd sc tb tsc t0,
    wf_body bd -> replayable bd -> wf_body tb -> replayable tb ->
    let a := auth_do_tok_at p cn bd sc tb tsc t0 in
    (ak_res a, ak_time a, attempts (ak_first a), attempts (ak_token a), attempts (ak_second a))
    = spec_auth_at_c p cn bd sc tb tsc t0.
Proof. exact auth_do_tok_at_refines_spec_c. Qed.
Print Assumptions C17_auth_refines_spec_c.

Theorem C17_auth_warm_refines_spec_c :
  forall p cn bd sc tb tsc t0,
    wf_body bd -> replayable bd -> wf_body tb -> replayable tb ->
    let a := auth_do_tokw_at p cn bd sc tb tsc t0 in
    (aw_res a, aw_time a, attempts (aw_first a), attempts (aw_second a), attempts (aw_token a), attempts (aw_third a))
    = spec_authw_at_c p cn bd sc tb tsc t0.
Proof. exact auth_do_tokw_at_refines_spec_c. Qed.
Print Assumptions C17_auth_warm_refines_spec_c.

Theorem C17_blob_push_refines_spec_c :
  forall authc p cn bd sc tb tsc,
    wf_body bd -> replayable bd -> wf_body tb -> replayable tb ->
    let u := blob_push_tok authc p cn bd sc tb tsc in
    (uk_res u, uk_time u, show_authk (uk_post u), option_map show_authk (uk_put u))
    = spec_push_c authc p cn bd sc tb tsc.
Proof. exact blob_push_tok_refines_spec_c. Qed.
Print Assumptions C17_blob_push_refines_spec_c.

(* --- bodies ---------------------------------------------------------------- *)

(* on attempt i the registry receives exactly what it reads of the complete original
   body: [received bd bh] is a prefix of the body, the whole body when the server
   reads to the end *)
Theorem C17_body_complete :
  forall p cn bd sc st t,
    wf_body bd -> s_rest st = bdata bd ->
    forall i t' got, nth_error (attempts (o_trace (round_trip p cn bd st sc t))) i = Some (t', got) ->
      got = received bd (nth i sc default_beh).
Proof. exact round_trip_bodies. Qed.
Print Assumptions C17_body_complete.

Theorem C17_received_whole :
  forall bd bh, b_read bh = None -> received bd bh = bdata bd.
Proof. exact received_all. Qed.
Print Assumptions C17_received_whole.

Theorem C17_received_prefix :
  forall bd bh, exists rest, bdata bd = received bd bh ++ rest.
Proof. exact received_prefix. Qed.
Print Assumptions C17_received_prefix.

(* the same through the auth client: first send and every re-send after a challenge
   (cached token, fresh token) *)
Theorem C17_body_complete_auth :
  forall warm p cn bd sc,
    wf_body bd ->
    let a := auth_do warm p cn bd sc in
    forall i t got,
      nth_error (attempts (a_first a) ++ attempts (a_second a) ++ attempts (a_third a)) i = Some (t, got) ->
      got = received bd (nth (0 + i) sc default_beh).
Proof. exact (fun warm p cn bd sc => auth_do_at_bodies_gen warm p cn bd sc 0%nat 0). Qed.
Print Assumptions C17_body_complete_auth.

(* the statuses on which the re-send logic branches, as read from the sources (StatusCode
   comparisons of auth.Client.Do, fetch*Token, blobStore.Push / completePushAfterInitialPost /
   Mount, manifestStore.push, in source order): challenge 401, token 200, upload session 202,
   created 201 *)
Theorem C17_status_constants :
  challenge_status = 401 /\ challenge_status_2 = 401 /\ token_ok_status = 200 /\ accepted_status = 202 /\
  fetch_oauth2_status_cmps = fetch_distribution_status_cmps /\
  blob_put_status_cmps = [(1, 201)] /\ manifest_push_status_cmps = [(1, 201)] /\
  blob_mount_status_cmps = [(0, 201); (1, 202)].
Proof. exact status_constants. Qed.
Print Assumptions C17_status_constants.

(* --- the token request of a Bearer challenge, inside the model ------------------------- *)

(* auth.Client.Do with the token request spelled out (fetchDistributionToken: GET without body;
   fetchOAuth2Token: POST with a replayable form; both through the same retrying transport):
   every request to the registry (first send, re-send) carries the whole body, and every
   attempt of the token request carries the whole form, as far as each is read *)
Theorem C17_token_bodies :
  forall p cn bd sc tb tsc,
    wf_body bd -> wf_body tb ->
    let a := auth_do_tok p cn bd sc tb tsc in
    (forall i t got, nth_error (attempts (ak_first a) ++ attempts (ak_second a)) i = Some (t, got) ->
       got = received bd (nth (0 + i) sc default_beh)) /\
    (forall i t got, nth_error (attempts (ak_token a)) i = Some (t, got) ->
       got = received tb (nth (0 + i) tsc default_beh)).
Proof. exact (fun p cn bd sc tb tsc => auth_do_tok_at_bodies_gen p cn bd sc 0%nat tb tsc 0%nat 0). Qed.
Print Assumptions C17_token_bodies.

(* each of the three sends (registry, token service, registry again) is bounded *)
Theorem C17_token_attempts :
  forall p cn bd sc tb tsc,
    let a := auth_do_tok p cn bd sc tb tsc in
    1 <= Z.of_nat (length (attempts (ak_first a))) <= Z.max 0 (p_max_retry p) + 1 /\
    Z.of_nat (length (attempts (ak_token a))) <= Z.max 0 (p_max_retry p) + 1 /\
    Z.of_nat (length (attempts (ak_second a))) <= Z.max 0 (p_max_retry p) + 1.
Proof. exact (fun p cn bd sc tb tsc => auth_do_tok_at_attempts p cn bd sc tb tsc 0). Qed.
Print Assumptions C17_token_attempts.

(* a body that cannot be replayed reaches the registry once, whatever the token service does *)
Theorem C17_token_not_replayable :
  forall p cn bd sc tb tsc,
    (forall st', rewind bd st' = RwNoGetBody \/ rewind bd st' = RwGetBodyErr) ->
    let a := auth_do_tok p cn bd sc tb tsc in
    length (attempts (ak_first a)) = 1%nat /\ ak_second a = [].
Proof. exact (fun p cn bd sc tb tsc => auth_do_tok_at_not_replayable p cn bd sc tb tsc 0). Qed.
Print Assumptions C17_token_not_replayable.

(* cancellation over the registry sends and the token request *)
Theorem C17_token_cancel :
  forall p bd sc tb tsc tc dl,
    let a := auth_do_tok p (Some (tc, dl)) bd sc tb tsc in
    Forall (fun x => fst x < tc) (tl (attempts (ak_first a))) /\
    Forall (fun x => fst x < tc) (tl (attempts (ak_token a))) /\
    Forall (fun x => fst x < tc) (tl (attempts (ak_second a))) /\
    ak_time a <= Z.max 0 tc /\
    Forall (fun pd => fst pd + snd pd < tc \/ (ak_res a = RCtx /\ ak_time a = Z.max (fst pd) tc))
           (pauses (ak_first a) ++ pauses (ak_token a) ++ pauses (ak_second a)).
Proof. exact auth_do_tok_cancel. Qed.
Print Assumptions C17_token_cancel.

(* the same with a warm Bearer cache (cached token tried first, fresh token fetched when it is
   refused): bodies of all three sends and of the token request, bounds, one-shot, cancellation *)
Theorem C17_token_warm_bodies :
  forall p cn bd sc tb tsc t0,
    wf_body bd -> wf_body tb ->
    let a := auth_do_tokw_at p cn bd sc tb tsc t0 in
    bodies_ok bd sc 0 (attempts (aw_first a) ++ attempts (aw_second a) ++ attempts (aw_third a)) /\
    bodies_ok tb tsc 0 (attempts (aw_token a)).
Proof. exact auth_do_tokw_at_bodies. Qed.
Print Assumptions C17_token_warm_bodies.

Theorem C17_token_warm_attempts :
  forall p cn bd sc tb tsc t0,
    let a := auth_do_tokw_at p cn bd sc tb tsc t0 in
    1 <= Z.of_nat (length (attempts (aw_first a))) <= Z.max 0 (p_max_retry p) + 1 /\
    Z.of_nat (length (attempts (aw_second a))) <= Z.max 0 (p_max_retry p) + 1 /\
    Z.of_nat (length (attempts (aw_token a))) <= Z.max 0 (p_max_retry p) + 1 /\
    Z.of_nat (length (attempts (aw_third a))) <= Z.max 0 (p_max_retry p) + 1.
Proof. exact auth_do_tokw_at_attempts. Qed.
Print Assumptions C17_token_warm_attempts.

Theorem C17_token_warm_not_replayable :
  forall p cn bd sc tb tsc t0,
    (forall st', rewind bd st' = RwNoGetBody \/ rewind bd st' = RwGetBodyErr) ->
    let a := auth_do_tokw_at p cn bd sc tb tsc t0 in
    length (attempts (aw_first a)) = 1%nat /\ aw_second a = [] /\ aw_token a = [] /\ aw_third a = [].
Proof. exact auth_do_tokw_at_not_replayable. Qed.
Print Assumptions C17_token_warm_not_replayable.

Theorem C17_token_warm_cancel :
  forall p bd sc tb tsc t0 tc dl,
    authw_cancel_post tc t0 (auth_do_tokw_at p (Some (tc, dl)) bd sc tb tsc t0).
Proof. exact auth_do_tokw_at_cancel. Qed.
Print Assumptions C17_token_warm_cancel.

(* the coarser model auth_do (token served at once) is auth_do_tok with a token service that
   answers 200 immediately *)
Theorem C17_token_instant_refines :
  forall p bd sc tb,
    p_pred p (OStatus 200 [] 0%N) = PStop ->
    let a := auth_do false p None bd sc in
    let k := auth_do_tok p None bd sc tb [] in
    ak_res k = a_res a /\ ak_first k = a_first a /\ ak_second k = a_second a /\ ak_time k = a_time a.
Proof. exact auth_do_tok_instant. Qed.
Print Assumptions C17_token_instant_refines.

(* the two rewind decisions as translated from auth.rewindRequestBody and from the rewind block
   of Transport.RoundTrip (Generated.GC17.generated_auth_rewind / generated_rt_rewind), by body
   kind: they differ exactly on http.NoBody without GetBody *)
Theorem C17_rewind_closed_form :
  forall bd st, rewind bd st = rewind_closed bd st /\ rt_rewind bd st = rt_rewind_closed bd st.
Proof. exact (fun bd st => conj (rewind_eq bd st) (rt_rewind_eq bd st)). Qed.
Print Assumptions C17_rewind_closed_form.

(* a body that cannot be replayed (no GetBody, or GetBody failing) is sent once; the
   transport ends with that answer (or the policy's panic) *)
Theorem C17_not_replayable_once :
  forall p cn bd st sc t,
    (forall st', rewind bd st' = RwNoGetBody \/ rewind bd st' = RwGetBodyErr) ->
    exists bh sc' got st1 o t1,
      next_beh sc = (bh, sc') /\ serve cn bd st bh t = (got, st1, o, t1) /\
      o_trace (round_trip p cn bd st sc t) = [EAttempt t got] /\
      (o_res (round_trip p cn bd st sc t) = result_of_outcome o \/
       o_res (round_trip p cn bd st sc t) = fail_result o \/
       o_res (round_trip p cn bd st sc t) = RPanic).
Proof. exact round_trip_not_replayable. Qed.
Print Assumptions C17_not_replayable_once.

Theorem C17_oneshot_is_not_replayable :
  forall bd, bk bd = KOneShot ->
    forall st', rewind bd st' = RwNoGetBody \/ rewind bd st' = RwGetBodyErr.
Proof. exact oneshot_not_replayable. Qed.
Print Assumptions C17_oneshot_is_not_replayable.

(* ... and the auth client answers a challenge with the rewind error, never a re-send *)
Theorem C17_not_replayable_auth :
  forall warm p cn bd sc,
    (forall st', rewind bd st' = RwNoGetBody \/ rewind bd st' = RwGetBodyErr) ->
    let a := auth_do warm p cn bd sc in
    length (attempts (a_first a)) = 1%nat /\ a_second a = [] /\ a_third a = [] /\
    (a_res a = RNotRewindable \/ a_res a = RGetBodyFailed \/
     a_res a = o_res (round_trip p cn bd (init_state bd) sc 0)) /\
    (challenged (o_res (round_trip p cn bd (init_state bd) sc 0)) = true ->
     a_res a = RNotRewindable \/ a_res a = RGetBodyFailed).
Proof. exact (fun warm p cn bd sc => auth_do_at_not_replayable warm p cn bd sc 0). Qed.
Print Assumptions C17_not_replayable_auth.

(* manifest push through an auth client: a one-shot body is buffered and becomes replayable *)
Theorem C17_manifest_push_buffered :
  forall bd, bk (manifest_push_body true bd) <> KOneShot /\ bdata (manifest_push_body true bd) = bdata bd.
Proof. exact manifest_push_replayable. Qed.
Print Assumptions C17_manifest_push_buffered.

(* blob push (POST, then PUT with the blob; the PUT re-uses the POST's Authorization or is
   an ordinary request of the auth client): every request of the PUT carries the blob as far
   as the registry reads it, at the script position after the POST's requests *)
Theorem C17_blob_push_bodies :
  forall authc warm0 p cn bd sc,
    wf_body bd ->
    match u_put (blob_push_gen authc warm0 p cn bd sc) with
    | Some put => forall i t got, nth_error (auth_attempts put) i = Some (t, got) ->
        got = received bd (nth (length (auth_attempts (u_post (blob_push_gen authc warm0 p cn bd sc))) + i) sc default_beh)
    | None => True
    end.
Proof. exact blob_push_bodies. Qed.
Print Assumptions C17_blob_push_bodies.

(* a one-shot blob reaches the registry in exactly one request of the PUT *)
Theorem C17_blob_push_oneshot_once :
  forall authc warm0 p cn bd sc,
    (forall st', rewind bd st' = RwNoGetBody \/ rewind bd st' = RwGetBodyErr) ->
    match u_put (blob_push_gen authc warm0 p cn bd sc) with
    | Some put => length (auth_attempts put) = 1%nat
    | None => True
    end.
Proof. exact blob_push_not_replayable. Qed.
Print Assumptions C17_blob_push_oneshot_once.

(* blob push / mount fallback with the token requests spelled out (the POST may fetch a token,
   and so may the PUT when it does not inherit the POST's credentials): every PUT request
   carries the blob as far as it is read; every token request of the push carries its form *)
Theorem C17_blob_push_tok_bodies :
  forall authc p cn bd sc tb tsc,
    wf_body bd -> wf_body tb ->
    let u := blob_push_tok authc p cn bd sc tb tsc in
    bodies_ok tb tsc 0 (attempts (ak_token (uk_post u))) /\
    match uk_put u with
    | Some put =>
      bodies_ok bd sc (length (authk_attempts (uk_post u))) (authk_attempts put) /\
      bodies_ok tb tsc (length (attempts (ak_token (uk_post u)))) (attempts (ak_token put))
    | None => True
    end.
Proof. exact blob_push_tok_bodies. Qed.
Print Assumptions C17_blob_push_tok_bodies.

Theorem C17_blob_push_tok_oneshot_once :
  forall authc p cn bd sc tb tsc,
    (forall st', rewind bd st' = RwNoGetBody \/ rewind bd st' = RwGetBodyErr) ->
    match uk_put (blob_push_tok authc p cn bd sc tb tsc) with
    | Some put => length (authk_attempts put) = 1%nat
    | None => True
    end.
Proof. exact blob_push_tok_not_replayable. Qed.
Print Assumptions C17_blob_push_tok_oneshot_once.

Theorem C17_blob_push_tok_cancel :
  forall authc p bd sc tb tsc tc dl,
    let u := blob_push_tok authc p (Some (tc, dl)) bd sc tb tsc in
    authk_cancel_post_at tc 0 (uk_res u) (uk_time u) (uk_post u) /\
    uk_time u <= Z.max 0 tc /\
    match uk_put u with
    | Some put => exists t1, t1 <= Z.max 0 tc /\ authk_cancel_post_at tc t1 (uk_res u) (uk_time u) put
    | None => True
    end.
Proof. exact blob_push_tok_cancel. Qed.
Print Assumptions C17_blob_push_tok_cancel.

(* a cross-repository mount the registry declines (202) falls back to the same POST/PUT
   protocol with a body read from an io.ReadCloser: the PUT is exactly one request *)
Theorem C17_mount_fallback_once :
  forall authc warm0 p cn data sc,
    match u_put (blob_push_gen authc warm0 p cn (mkBody KOneShot data) sc) with
    | Some put => length (auth_attempts put) = 1%nat
    | None => True
    end.
Proof. exact mount_fallback_once. Qed.
Print Assumptions C17_mount_fallback_once.

(* --- cancellation -------------------------------------------------------------- *)

(* context ending at tc, call started at t -- no hypothesis on the policy (MinWait = 0 and zero
   backoff included), on t (the context may be over from the start) or on the script:
   every attempt but the first starts strictly before tc; the call is over at max(t, tc); a
   pause that the context ends in, or that begins after it ended, ends the call with the
   context's error at that instant; a context that is over at the start allows one attempt *)
Theorem C17_cancel :
  forall p bd st sc t tc dl,
    let out := round_trip p (Some (tc, dl)) bd st sc t in
    Forall (fun a => fst a < tc) (tl (attempts (o_trace out))) /\
    o_time out <= Z.max t tc /\
    Forall (fun pd => fst pd + snd pd < tc \/ (o_res out = RCtx /\ o_time out = Z.max (fst pd) tc))
           (pauses (o_trace out)) /\
    (tc <= t -> length (attempts (o_trace out)) = 1%nat).
Proof. exact round_trip_cancel. Qed.
Print Assumptions C17_cancel.

(* the select of the source as it was (defect, fixed): a pause ending at an instant at which
   the context had ended could let the loop go on *)
Theorem C17_cancel_zero_pause_prefix_refuted :
  exists cn x, ended_at cn x = true /\ pause_cancelled_gen false cn x = false.
Proof. exact pause_cancelled_prefix_refuted. Qed.
Print Assumptions C17_cancel_zero_pause_prefix_refuted.

(* the same through the auth client, over all of its sends: the call ends with the context's
   error at the instant the context ends in a pause of any send *)
Theorem C17_cancel_auth :
  forall warm p bd sc tc dl,
    let a := auth_do warm p (Some (tc, dl)) bd sc in
    Forall (fun x => fst x < tc) (tl (attempts (a_first a))) /\
    Forall (fun x => fst x < tc) (tl (attempts (a_second a))) /\
    Forall (fun x => fst x < tc) (tl (attempts (a_third a))) /\
    a_time a <= Z.max 0 tc /\
    Forall (fun pd => fst pd + snd pd < tc \/ (a_res a = RCtx /\ a_time a = Z.max (fst pd) tc))
           (all_pauses a).
Proof. exact auth_do_cancel. Qed.
Print Assumptions C17_cancel_auth.

(* ... and through a blob push (POST, then PUT) *)
Theorem C17_cancel_blob_push :
  forall authc warm0 p bd sc tc dl,
    let u := blob_push_gen authc warm0 p (Some (tc, dl)) bd sc in
    sends_cancel_post tc 0 (u_res u) (u_time u) (u_post u) /\
    u_time u <= Z.max 0 tc /\
    match u_put u with
    | Some put => exists t1, t1 <= Z.max 0 tc /\ sends_cancel_post tc t1 (u_res u) (u_time u) put
    | None => True
    end.
Proof. exact blob_push_cancel. Qed.
Print Assumptions C17_cancel_blob_push.

(* --- totality of the backoff (F7) ------------------------------------------------- *)

(* the arithmetic and the Retry-After constants of ExponentialBackoff as translated from the
   source (the Generated.GC17.generated_backoff definitions): temp = backoff x factor^attempt, base interval
   temp x (1-jitter), jitter bound 2 x jitter x temp; Retry-After on 429, positive, in seconds *)
Theorem C17_backoff_arith_closed_form :
  forall e attempt,
    exp_temp e attempt = (inject_Z (e_base e) * Qpower (e_factor e) attempt)%Q /\
    exp_a e attempt = (exp_temp e attempt * (1 - e_jitter e))%Q /\
    exp_n e attempt = ((2 # 1) * e_jitter e * exp_temp e attempt)%Q /\
    generated_backoff_retry_after_status = 429 /\ generated_backoff_retry_after_unit = 1000000000 /\
    (forall ra, generated_backoff_retry_after_ok ra = (ra >? 0)).
Proof. exact exp_arith_eq. Qed.
Print Assumptions C17_backoff_arith_closed_form.

(* the source as it is now (guard flag re-read from policy.go): ExponentialBackoff
   returns for every parameter choice, attempt and answer *)
Theorem C17_backoff_total :
  forall oob rnd e attempt o, exists d, exp_backoff oob rnd e attempt o = BRet d.
Proof. exact exp_backoff_total. Qed.
Print Assumptions C17_backoff_total.

(* the original source did not: zero jitter panics in rand.Int64N *)
Theorem C17_backoff_total_prefix_refuted :
  exists e attempt o, forall oob rnd, exp_backoff_prefix oob rnd e attempt o = BPanic.
Proof. exact exp_backoff_prefix_refuted. Qed.
Print Assumptions C17_backoff_total_prefix_refuted.

(* a transport whose backoff cannot panic never panics, and the loop of the model
   never runs out of fuel *)
Theorem C17_no_panic :
  forall p cn bd st sc t,
    (forall a o, p_backoff p a o <> BPanic) ->
    o_res (round_trip p cn bd st sc t) <> RPanic /\ o_res (round_trip p cn bd st sc t) <> RFuel.
Proof. exact (fun p cn bd st sc t H => let (F, P) := round_trip_result p cn bd st sc t in conj (P H) F). Qed.
Print Assumptions C17_no_panic.

(* the loop of the model terminates by itself: the fuel artefact is unreachable for every
   policy (so the attempt bound of C17_attempts is not an effect of the fuel) *)
Theorem C17_no_fuel :
  forall p cn bd st sc t, o_res (round_trip p cn bd st sc t) <> RFuel.
Proof. exact round_trip_no_fuel. Qed.
Print Assumptions C17_no_fuel.

Theorem C17_default_policy_never_panics :
  forall oob rnd a o, p_backoff (default_policy oob rnd) a o <> BPanic.
Proof. exact default_policy_never_panics. Qed.
Print Assumptions C17_default_policy_never_panics.

(* --- the documented defaults (generated from policy.go) ------------------------------ *)

Theorem C17_default_predicate_status :
  forall c, default_predicate_status c = true <-> (c = 408 \/ c = 429 \/ c = 0 \/ 500 <= c).
Proof. exact default_predicate_status_spec. Qed.
Print Assumptions C17_default_predicate_status.

(* transport errors: only a net.Error value reporting Timeout() is retried -- Temporary()
   alone (EMFILE, temporary DNS failures ...) is not; generated from the error branch *)
Theorem C17_default_predicate_error :
  forall ne to tmp, default_predicate (OErr ne to tmp) = PRetry <-> (ne = true /\ to = true).
Proof. exact default_predicate_error_outcome. Qed.
Print Assumptions C17_default_predicate_error.

Theorem C17_default_policy_wellformed :
  0 < default_min_wait /\ default_min_wait <= default_max_wait /\ 0 <= default_max_retry.
Proof. exact default_policy_wellformed. Qed.
Print Assumptions C17_default_policy_wellformed.

(* --- the acceptor of the correspondence run ------------------------------------------- *)

(* the jitter is random and float64 rounds, so the run compares an observed decision of
   GenericPolicy{DefaultPredicate, ExponentialBackoff} through [accept_decision]; it never
   rejects what the model can produce (random draw within its range; a float below -2^63
   does not convert to a positive integer) *)
Theorem C17_acceptor_complete :
  forall guarded oob rnd e maxretry minw maxw attempt o,
    (forall n, 0 < n -> 0 <= rnd n < n) ->
    (forall q, qtrunc q < - two63 -> oob q <= 0) ->
    accept_decision guarded maxretry minw maxw e attempt o
      (project_decision
         (generic_retry (mkPolicy maxretry minw maxw default_predicate (exp_backoff_gen guarded oob rnd e))
                        attempt o)) <> VNo.
Proof. exact accept_decision_complete. Qed.
Print Assumptions C17_acceptor_complete.

(* ... and it is sound up to its allowances: a pause it accepts (for MinWait <= MaxWait) is the
   clamp of a value that is the Retry-After delay exactly, or lies within the float64 rounding
   allowances tol_a, tol_n of the model's exact range [a, a + max(n, 0)] (a = trunc(temp*(1-jitter)),
   n = trunc(2*jitter*temp)) -- so a pause farther than that from everything the model can produce
   is rejected *)
Theorem C17_acceptor_sound :
  forall guarded maxretry minw maxw e attempt o d,
    minw <= maxw ->
    accept_decision guarded maxretry minw maxw e attempt o (ODWait d) = VYes ->
    attempt < maxretry /\ default_predicate o = PRetry /\
    exists x, d = clamp minw maxw x /\
      ((generated_backoff_retry_after_ok (retry_after_secs o) = true /\
        x = wrap64 (retry_after_secs o * generated_backoff_retry_after_unit)) \/
       (generated_backoff_retry_after_ok (retry_after_secs o) = false /\
        qtrunc (exp_a e attempt) - tol_a e attempt <= x <=
        qtrunc (exp_a e attempt) + Z.max 0 (qtrunc (exp_n e attempt)) + tol_a e attempt + tol_n e attempt)).
Proof. exact accept_decision_sound. Qed.
Print Assumptions C17_acceptor_sound.

(* --- the hypotheses are satisfiable: concrete runs ---------------------------------- *)

Definition ex_policy := table_policy default_predicate 3 100 1000 [50; 5000] 7.
Definition ex_body := mkBody KReplay (b "manifest").
Definition ex_script :=
  [mkBeh (OStatus 503 [] 0%N) None 10; mkBeh (OErr true true false) (Some 3%nat) 20; mkBeh (OStatus 200 [] 0%N) None 4].

Example ex_wf : wf_body ex_body.
Proof. intros [H|H]; discriminate. Qed.

(* two retries, pauses clamped to 100 and 1000, the whole body on attempts 1 and 3,
   the three bytes the server read on attempt 2 *)
Example ex_run :
  let out := round_trip ex_policy None ex_body (init_state ex_body) ex_script 0 in
  o_res out = RResp 200 0%N /\
  o_trace out = [EAttempt 0 (b "manifest"); EPause 10 100; EAttempt 110 (b "man"); EPause 130 1000;
                 EAttempt 1130 (b "manifest")].
Proof. vm_compute. split; reflexivity. Qed.

(* zero-length pauses and a deadline that passes while the server is busy: the call ends with
   the context's error after that attempt *)
Example ex_cancel_zero_pause :
  let p := table_policy default_predicate 5 0 1000 [] 0 in
  let out := round_trip p (Some (5, true)) ex_body (init_state ex_body)
                        [mkBeh (OStatus 503 [] 0%N) None 10; mkBeh (OStatus 503 [] 0%N) None 10] 0 in
  o_res out = RCtx /\ o_time out = 5 /\ length (attempts (o_trace out)) = 1%nat.
Proof. vm_compute. repeat split; reflexivity. Qed.

Example ex_spec :
  spec_send ex_policy ex_body ex_script 0
  = (RResp 200 0%N, 1134, [(0, b "manifest"); (110, b "man"); (1130, b "manifest")]).
Proof. vm_compute. reflexivity. Qed.

(* the specification under a context ending at 151: cut in the second pause *)
Example ex_spec_cancel :
  spec_send_c ex_policy (Some (151, false)) ex_body ex_script 0
  = (RCtx, 151, [(0, b "manifest"); (110, b "man")]).
Proof. vm_compute. reflexivity. Qed.

(* cancelled in the second pause *)
Example ex_cancel :
  let out := round_trip ex_policy (Some (151, false)) ex_body (init_state ex_body) ex_script 0 in
  o_res out = RCtx /\ o_time out = 151 /\ length (attempts (o_trace out)) = 2%nat.
Proof. vm_compute. repeat split; reflexivity. Qed.

(* a one-shot body and a Basic challenge: the rewind error, one request *)
Example ex_oneshot_auth :
  let a := auth_do false ex_policy None (mkBody KOneShot (b "blob")) [mkBeh (OStatus 401 [] 1%N) None 0] in
  a_res a = RNotRewindable /\ a_second a = [] /\ length (attempts (a_first a)) = 1%nat.
Proof. vm_compute. repeat split; reflexivity. Qed.

(* a replayable body and a Bearer challenge after a retry: four complete bodies *)
Example ex_auth :
  let a := auth_do false ex_policy None ex_body
                   [mkBeh (OStatus 503 [] 0%N) None 0; mkBeh (OStatus 401 [] 2%N) None 0;
                    mkBeh (OStatus 502 [] 0%N) None 0; mkBeh (OStatus 201 [] 0%N) None 0] in
  a_res a = RResp 201 0%N /\
  map snd (attempts (a_first a) ++ attempts (a_second a)) = [b "manifest"; b "manifest"; b "manifest"; b "manifest"].
Proof. vm_compute. split; reflexivity. Qed.

(* warm token cache: cached token refused, fresh token accepted: three sends, whole bodies *)
Example ex_auth_warm :
  let a := auth_do true ex_policy None ex_body
                   [mkBeh (OStatus 401 [] 2%N) None 0; mkBeh (OStatus 401 [] 2%N) None 0;
                    mkBeh (OStatus 201 [] 0%N) None 0] in
  a_res a = RResp 201 0%N /\
  map snd (attempts (a_first a) ++ attempts (a_second a) ++ attempts (a_third a))
  = [b "manifest"; b "manifest"; b "manifest"].
Proof. vm_compute. split; reflexivity. Qed.

(* "too many open files" (Temporary, not Timeout) is returned at once; a custom predicate
   failing on a response gives its error *)
Example ex_temporary_not_retried :
  let out := round_trip ex_policy None ex_body (init_state ex_body) [mkBeh (OErr true false true) None 0] 0 in
  o_res out = RErr true false true /\ length (attempts (o_trace out)) = 1%nat.
Proof. vm_compute. split; reflexivity. Qed.

Example ex_custom_predicate :
  let p := table_policy (custom_predicate [(404, PRetry); (503, PFail)] PStop PRetry) 3 100 1000 [] 100 in
  let out := round_trip p None ex_body (init_state ex_body)
                        [mkBeh (OStatus 404 [] 0%N) None 0; mkBeh (OErr false false false) None 0;
                         mkBeh (OStatus 503 [] 0%N) None 0] 0 in
  o_res out = RPredErr /\ length (attempts (o_trace out)) = 3%nat.
Proof. vm_compute. split; reflexivity. Qed.

(* blob push: challenged POST (retried once), then the PUT with the POST's credentials,
   retried once: both PUT requests carry the whole blob *)
Example ex_blob_push :
  let u := blob_push true ex_policy None ex_body
             [mkBeh (OStatus 401 [] 2%N) None 0; mkBeh (OStatus 503 [] 0%N) None 0; mkBeh (OStatus 202 [] 0%N) None 0;
              mkBeh (OStatus 502 [] 0%N) None 0; mkBeh (OStatus 201 [] 0%N) None 0] in
  u_res u = RResp 201 0%N /\
  match u_put u with Some put => map snd (auth_attempts put) = [b "manifest"; b "manifest"] | None => False end.
Proof. vm_compute. split; reflexivity. Qed.

(* http.NoBody without GetBody: the transport does not retry it (one attempt, the 503 comes
   back), the auth client does re-send it after a challenge *)
Example ex_nobody :
  let bd := mkBody KNoBody [] in
  length (attempts (o_trace (round_trip ex_policy None bd (init_state bd)
                                        [mkBeh (OStatus 503 [] 0%N) None 0] 0))) = 1%nat /\
  let a := auth_do false ex_policy None bd [mkBeh (OStatus 401 [] 1%N) None 0; mkBeh (OStatus 200 [] 0%N) None 0] in
  a_res a = RResp 200 0%N /\ length (attempts (a_second a)) = 1%nat.
Proof. vm_compute. repeat split; reflexivity. Qed.

(* Bearer challenge, the token service fails once (503) and then answers: the OAuth2 form
   goes out whole twice, the body goes to the registry whole twice *)
Example ex_token :
  let a := auth_do_tok ex_policy None ex_body
             [mkBeh (OStatus 401 [] 2%N) None 0; mkBeh (OStatus 201 [] 0%N) None 0]
             (mkBody KReplay (b "grant_type=password")) [mkBeh (OStatus 503 [] 0%N) None 4; mkBeh (OStatus 200 [] 0%N) None 4] in
  ak_res a = RResp 201 0%N /\
  map snd (attempts (ak_token a)) = [b "grant_type=password"; b "grant_type=password"] /\
  attempts (ak_second a) = [(108, b "manifest")].
Proof. vm_compute. repeat split; reflexivity. Qed.

(* the token service refuses: Do ends with that error, nothing is sent again *)
Example ex_token_refused :
  let a := auth_do_tok ex_policy None ex_body [mkBeh (OStatus 401 [] 2%N) None 0]
                       (mkBody KNone []) [mkBeh (OStatus 403 [] 0%N) None 0] in
  ak_res a = RTokenResp 403 /\ ak_second a = [].
Proof. vm_compute. split; reflexivity. Qed.

(* blob push: the POST is challenged and its token request fails once; the PUT inherits the
   credentials and is retried once *)
Example ex_blob_push_tok :
  let u := blob_push_tok true ex_policy None ex_body
             [mkBeh (OStatus 401 [] 2%N) None 0; mkBeh (OStatus 202 [] 0%N) None 0;
              mkBeh (OStatus 502 [] 0%N) None 0; mkBeh (OStatus 201 [] 0%N) None 0]
             (mkBody KNone []) [mkBeh (OStatus 503 [] 0%N) None 0; mkBeh (OStatus 200 [] 0%N) None 0] in
  uk_res u = RResp 201 0%N /\ length (attempts (ak_token (uk_post u))) = 2%nat /\
  match uk_put u with Some put => map snd (authk_attempts put) = [b "manifest"; b "manifest"] | None => False end.
Proof. vm_compute. repeat split; reflexivity. Qed.

(* the acceptor: default backoff at attempt 2 (temp = 1 s): 950 ms is accepted, 2 s is not *)
Example ex_acceptor :
  accept_decision true 5 0 100000000000 default_eparams 2 (OStatus 503 [] 0%N) (ODWait 950000000) = VYes /\
  accept_decision true 5 0 100000000000 default_eparams 2 (OStatus 503 [] 0%N) (ODWait 2000000000) = VNo.
Proof. vm_compute. split; reflexivity. Qed.

(* Retry-After: 2 within [100ns, 3s]: honoured *)
Example ex_retry_after :
  generic_retry (mkPolicy 5 100 3000000000 default_predicate
                          (exp_backoff (fun _ => 0) (fun _ => 0) default_eparams))
                0 (OStatus 429 (b "2") 0%N) = DWait 2000000000.
Proof. vm_compute. reflexivity. Qed.

(* --- the Retry-After parser in closed form (Proofs/RetryParse.v) ---------------------- *)

(* whatever bytes the header holds, the parsed value is an int64: saturation, never a wrapped value *)
Theorem C17_retry_after_parse_range :
  forall h : str, - two63 <= parse_int64 h <= two63 - 1.
Proof. exact parse_int64_range. Qed.
Print Assumptions C17_retry_after_parse_range.

(* an unsigned decimal numeral below 2^63 is read exactly; from 2^63 on it saturates at MaxInt64 *)
Theorem C17_retry_after_parse_decimal :
  forall h : str, h <> [] -> forallb is_digit h = true ->
    (dec_val h 0 < two63 -> parse_int64 h = dec_val h 0) /\
    (two63 <= dec_val h 0 -> parse_int64 h = two63 - 1).
Proof. exact parse_int64_decimal. Qed.
Print Assumptions C17_retry_after_parse_decimal.

(* a header that starts with no sign and holds a non-digit byte reads as 0 = "not usable", as long
   as its digit-wise value [dec_val] (a non-digit byte counts as byte - 48 cut at 0) is within
   uint64, i.e. for strings of up to about 19 bytes.  Every 29-byte HTTP-date fails that premise:
   the date form is covered only by the one instance evaluated in ex_retry_after_parse below *)
Theorem C17_retry_after_parse_non_numeral :
  forall (c : N) (t : str), c <> 43%N -> c <> 45%N ->
    forallb is_digit (c :: t) = false -> dec_val (c :: t) 0 <= max_u64 ->
    parse_int64 (c :: t) = 0.
Proof. exact parse_int64_non_numeral. Qed.
Print Assumptions C17_retry_after_parse_non_numeral.

(* C17_retry_after with its parser hypothesis discharged: every decimal Retry-After of n seconds
   whose nanosecond value fits int64 is honoured within [MinWait, MaxWait], for every policy shape *)
Theorem C17_retry_after_decimal :
  forall guarded oob rnd e maxretry minw maxw pred attempt (h : str) ch,
    h <> [] -> forallb is_digit h = true -> 0 < dec_val h 0 -> dec_val h 0 * 1000000000 < two63 ->
    attempt < maxretry -> pred (OStatus 429 h ch) = PRetry ->
    generic_retry (mkPolicy maxretry minw maxw pred (exp_backoff_gen guarded oob rnd e)) attempt (OStatus 429 h ch)
    = DWait (clamp minw maxw (dec_val h 0 * 1000000000)).
Proof. exact retry_after_decimal. Qed.
Print Assumptions C17_retry_after_decimal.

(* a Retry-After that parses to a value <= 0 ("0", a negative numeral, whatever reads as 0) is
   ignored: the backoff is exactly the one of the same answer without the header; and the header
   is only ever looked at on the status the source names (429) *)
Theorem C17_retry_after_unusable_ignored :
  forall guarded oob rnd e attempt c (h : str) ch,
    (parse_int64 h <= 0 \/ c <> generated_backoff_retry_after_status) ->
    exp_backoff_gen guarded oob rnd e attempt (OStatus c h ch)
    = exp_backoff_gen guarded oob rnd e attempt (OStatus c [] ch).
Proof. exact retry_after_unusable_ignored. Qed.
Print Assumptions C17_retry_after_unusable_ignored.

(* the premises are met: "120" is a decimal numeral of value 120; an HTTP-date reads as 0;
   a 25-digit numeral saturates *)
Example ex_retry_after_parse :
  forallb is_digit (b "120") = true /\ dec_val (b "120") 0 = 120 /\ parse_int64 (b "120") = 120 /\
  parse_int64 (b "Wed, 21 Oct 2015 07:28:00 GMT") = 0 /\
  parse_int64 (b "9999999999999999999999999") = two63 - 1.
Proof. vm_compute. repeat split; reflexivity. Qed.
