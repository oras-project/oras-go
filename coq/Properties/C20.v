(* C20 -- References parse exactly per grammar, round-trip, and stay in their URL slot.
   Only statements closed by [exact]; the lemmas live in Proofs/Ref*.v and Proofs/NetURL.v.
   The regular expressions are in Generated/GC20.v (re-translated from
   registry/reference.go on every run). *)
From Oras Require Import Base.Prelude Base.Regex Generated.GC20 Model.Reference Model.RefOps Proofs.Reference Proofs.RefOps Proofs.RefURL Proofs.RefGrammar Model.NetURL Proofs.NetURL Proofs.RefDescOps Model.RefURLGen Proofs.RefURLGen.

(* ParseReference accepts exactly the grammar (any registry predicate). *)
Theorem C20_parse_iff_grammar :
  forall (avail valid_registry : str -> bool) s r,
    parse avail valid_registry s = Some r <-> RefGrammar avail valid_registry s r.
Proof. exact parse_iff_grammar. Qed.
Print Assumptions C20_parse_iff_grammar.

(* format then parse gives the same reference *)
Theorem C20_roundtrip :
  forall (avail valid_registry : str -> bool) s r,
    parse avail valid_registry s = Some r -> parse avail valid_registry (format avail r) = Some r.
Proof. exact parse_roundtrip. Qed.
Print Assumptions C20_roundtrip.

(* the tag regular expression is exactly the documented rule *)
Theorem C20_tag_grammar :
  forall s, valid_tag s = true <->
    exists c t, s = c :: t /\ word_char c = true /\ (length t <= 127)%nat /\
                Forall (fun x => tag_char x = true) t.
Proof. exact tag_grammar. Qed.
Print Assumptions C20_tag_grammar.

(* the repository regular expression is exactly the documented repository-name rule (inductive
   grammar RepoName of Proofs/RefGrammar.v: components of [a-z0-9]+ runs joined by '.', '_', '__'
   or dashes, components joined by '/'), and the digest check is exactly: a table algorithm that
   is linked, ':' and lower-case hex of the algorithm's length *)
Theorem C20_repository_grammar :
  forall s, valid_repository s = true <-> RepoName s.
Proof. exact repository_grammar. Qed.
Print Assumptions C20_repository_grammar.

Theorem C20_digest_grammar :
  forall (avail : str -> bool) s,
    valid_digest avail s = true <->
    exists alg n enc, In (alg, n) alg_table /\ avail alg = true /\ s = alg ++ [c_colon] ++ enc /\
                      length enc = n /\ Forall (fun c => hexlower c = true) enc.
Proof. exact digest_grammar. Qed.
Print Assumptions C20_digest_grammar.

Example C20_repository_grammar_examples :
  RepoName (b "a__b/c--d.e") /\ ~ RepoName (b "a___b") /\ ~ RepoName (b "a-_b") /\ ~ RepoName (b "a//b") /\ ~ RepoName (b "Org/app").
Proof. exact repository_grammar_examples. Qed.

(* a reference whose digest algorithm is not linked is not a digest reference at all: with
   only sha256 linked a sha512 reference is rejected, with everything linked it is accepted *)
Example C20_digest_linking :
  let d := b "sha512:" ++ repeat 97 128 in
  valid_digest (fun a => str_eqb a (b "sha256")) d = false /\ valid_digest (fun _ => true) d = true /\
  parse (fun a => str_eqb a (b "sha256")) (fun _ => true) (b "localhost/a@" ++ d) = None.
Proof. vm_compute. repeat split. Qed.

(* Repository.ParseReference: the six accepted forms give the same reference: tag, B:tag, digest,
   B@digest, <dropped>@digest (the dropped part is anything without '/' and '@') and
   B:<dropped>@digest (anything without '@') *)
Theorem C20_repo_forms_agree :
  forall (avail valid_registry : str -> bool) breg brepo,
    ok_registry valid_registry breg -> valid_repository brepo = true ->
    (forall t, valid_tag t = true ->
       repo_parse avail valid_registry breg brepo t = Some (mkRef breg brepo t) /\
       repo_parse avail valid_registry breg brepo (breg ++ [c_slash] ++ brepo ++ [c_colon] ++ t)
         = Some (mkRef breg brepo t)) /\
    (forall d, valid_digest avail d = true ->
       repo_parse avail valid_registry breg brepo d = Some (mkRef breg brepo d) /\
       repo_parse avail valid_registry breg brepo (breg ++ [c_slash] ++ brepo ++ [c_at] ++ d)
         = Some (mkRef breg brepo d) /\
       (forall junk, contains c_slash junk = false -> contains c_at junk = false ->
         repo_parse avail valid_registry breg brepo (junk ++ [c_at] ++ d) = Some (mkRef breg brepo d)) /\
       (forall junk, contains c_at junk = false ->
         repo_parse avail valid_registry breg brepo (breg ++ [c_slash] ++ brepo ++ [c_colon] ++ junk ++ [c_at] ++ d)
         = Some (mkRef breg brepo d))).
Proof. exact repo_forms_agree. Qed.
Print Assumptions C20_repo_forms_agree.

(* other registries / repositories and empty references are rejected; whatever is
   accepted lies in the base repository and has a valid non-empty reference *)
Theorem C20_repo_rejects_foreign :
  forall (avail valid_registry : str -> bool) breg brepo s r,
    parse avail valid_registry s = Some r ->
    (r_registry r <> breg \/ r_repository r <> brepo) ->
    repo_parse avail valid_registry breg brepo s = None.
Proof. exact repo_parse_other_rejected. Qed.
Print Assumptions C20_repo_rejects_foreign.

(* "rejects other registries or repositories", full strength: a string with a path in it (a '/')
   is accepted ONLY if it is a valid fully qualified reference of the base repository itself, i.e.
   <base registry>/<base repository> followed by ':' or '@'.  Foreign references are rejected
   whether or not they are themselves well formed (a malformed path in front of a valid digest
   used to be re-targeted to the base: C20_repo_rejects_other_paths_prefix_refuted). *)
Theorem C20_repo_rejects_other_paths :
  forall (avail valid_registry : str -> bool) breg brepo s r,
    repo_parse avail valid_registry breg brepo s = Some r -> contains c_slash s = true ->
    (parse avail valid_registry s = Some r /\ r_registry r = breg /\ r_repository r = brepo) /\
    exists c t, s = breg ++ [c_slash] ++ brepo ++ c :: t /\ (c = c_colon \/ c = c_at).
Proof. exact repo_rejects_other_paths. Qed.
Print Assumptions C20_repo_rejects_other_paths.

(* the code before the fix (model repo_parse_prefix) violated it *)
Theorem C20_repo_rejects_other_paths_prefix_refuted :
  exists avail vr breg brepo s r,
    ok_registry vr breg /\ valid_repository brepo = true /\
    repo_parse_prefix avail vr breg brepo s = Some r /\ contains c_slash s = true /\ parse avail vr s = None.
Proof. exact repo_parse_prefix_retargets. Qed.
Print Assumptions C20_repo_rejects_other_paths_prefix_refuted.

(* Repository.ParseReference accepts EXACTLY (inductive RepoRefGrammar, Proofs/Reference.v): a
   tag; a digest; <dropped>@digest with the dropped part free of '/' and '@'; or a fully qualified
   reference of the base repository with a non-empty reference -- for every base, valid or not *)
Theorem C20_repo_parse_iff_grammar :
  forall (avail valid_registry : str -> bool) breg brepo s r,
    repo_parse avail valid_registry breg brepo s = Some r <-> RepoRefGrammar avail valid_registry breg brepo s r.
Proof. exact repo_parse_iff_grammar. Qed.
Print Assumptions C20_repo_parse_iff_grammar.

Theorem C20_repo_result_in_base :
  forall (avail valid_registry : str -> bool) breg brepo s r,
    repo_parse avail valid_registry breg brepo s = Some r ->
    r_registry r = breg /\ r_repository r = brepo /\ r_reference r <> [] /\
    (valid_tag (r_reference r) = true \/ valid_digest avail (r_reference r) = true).
Proof. exact repo_parse_result_in_base. Qed.
Print Assumptions C20_repo_result_in_base.

(* URLs: last path segment is literally the reference; no structural characters *)
Theorem C20_url_slot :
  forall (avail valid_registry : str -> bool) plain r,
    wf_ref avail valid_registry r -> r_reference r <> [] ->
    url_clean (r_repository r) /\ seg_clean (r_reference r) /\
    after_last c_slash (url_manifest plain r) = r_reference r /\
    after_last c_slash (url_blob plain r) = r_reference r /\
    after_last c_slash (url_referrers plain r) = r_reference r.
Proof. exact url_slot. Qed.
Print Assumptions C20_url_slot.

(* URL slot at full strength.  [url_is u plain r seg] (Proofs/RefURL.v) says, under the generic URL
   syntax of RFC 3986 (Model url_split: authority ends at the first '/', '?', '#'; path at the first
   '?', '#'): u splits into scheme, authority = exactly the registry's host (no '@', so no
   user-info; non-empty), path = /v2/<repository>/<seg>/<reference> whose '/'-segments are exactly
   "", "v2", the repository's components, seg, the reference -- and NO query and NO fragment.
   The single fact about net/url used: an accepted registry is non-empty and contains none of
   controls/space # % / ? @ \ DEL ([reg_clean]); the harness checks it on every reference the
   implementation accepts (oracle signature registry-charset). *)
Theorem C20_url_exact :
  forall (avail valid_registry : str -> bool) plain r,
    (forall reg, valid_registry reg = true -> reg_clean reg = true) ->
    wf_ref avail valid_registry r -> r_reference r <> [] ->
    url_is (url_manifest plain r) plain r (b "manifests") /\
    url_is (url_blob plain r) plain r (b "blobs") /\
    url_is (url_referrers plain r) plain r (b "referrers").
Proof. exact url_exact. Qed.
Print Assumptions C20_url_exact.

Theorem C20_url_exact_noref :
  forall (avail valid_registry : str -> bool) plain r,
    (forall reg, valid_registry reg = true -> reg_clean reg = true) -> wf_ref avail valid_registry r ->
    url_split (url_taglist plain r)
    = Some (mkParts (scheme plain) (host_of (r_registry r)) (b "/v2/" ++ r_repository r ++ b "/tags/list") None None) /\
    url_split (url_upload plain r)
    = Some (mkParts (scheme plain) (host_of (r_registry r)) (b "/v2/" ++ r_repository r ++ b "/blobs/uploads/") None None).
Proof. exact url_exact_noref. Qed.
Print Assumptions C20_url_exact_noref.

(* the registry hypothesis is needed: with an unconstrained registry predicate the whole path of
   a "well-formed" reference lands in the query/fragment (this is why C20_url_slot alone, which
   holds for any registry predicate, does not give the slot) *)
Theorem C20_url_exact_unconstrained_registry_refuted :
  exists (avail valid_registry : str -> bool) r,
    wf_ref avail valid_registry r /\ r_reference r <> [] /\
    url_split (url_manifest false r)
    = Some (mkParts (b "https") (b "h") [] (Some (b "x")) (Some (b "y/v2/a/manifests/t"))).
Proof. exact url_exact_unconstrained_registry_refuted. Qed.
Print Assumptions C20_url_exact_unconstrained_registry_refuted.

Example C20_url_exact_nonvacuous :
  (forall reg, reg_clean reg = true -> reg_clean reg = true) /\
  reg_clean (b "localhost:5000") = true /\ reg_clean (b "[::1]:5000") = true /\ reg_clean (b "h?x") = false /\
  url_split (url_manifest true (mkRef (b "localhost:5000") (b "hello/world") (b "v1")))
  = Some (mkParts (b "http") (b "localhost:5000") (b "/v2/hello/world/manifests/v1") None None) /\
  split_on c_slash (b "/v2/hello/world/manifests/v1") = [[]; b "v2"; b "hello"; b "world"; b "manifests"; b "v1"].
Proof. repeat split; auto; vm_compute; reflexivity. Qed.

(* every request of every reference-taking operation: exact path in the base repository, no
   query / fragment / user-info (x is the resolved reference or the digest of the descriptor
   being tagged) *)
Theorem C20_op_requests_exact_paths :
  forall (avail valid_registry : str -> bool) op plain breg brepo s d reqs,
    (forall reg, valid_registry reg = true -> reg_clean reg = true) ->
    ok_registry valid_registry breg -> valid_repository brepo = true -> valid_digest avail d = true ->
    op_requests avail valid_registry op plain breg brepo s d = Some reqs ->
    exists r, repo_parse avail valid_registry breg brepo s = Some r /\
      Forall (fun mu => exists seg x,
                (seg = b "manifests" \/ seg = b "blobs") /\ (x = r_reference r \/ x = d) /\
                url_is (snd mu) plain (mkRef breg brepo x) seg) reqs.
Proof. exact op_requests_exact_paths. Qed.
Print Assumptions C20_op_requests_exact_paths.

(* every reference-taking Repository operation (Resolve, FetchReference, Tag, PushReference on
   manifests; Resolve, FetchReference on blobs) that accepts a reference string builds its
   requests from the *resolved* reference: the reference-carrying request is in the list, its
   last path segment is literally the resolved reference (tag dropped before a digest, base
   stripped from a fully-qualified form), and no request targets anything but the manifest/blob
   URL of the resolved reference or the manifest URL of the descriptor being tagged *)
Theorem C20_op_requests_use_resolved :
  forall (avail valid_registry : str -> bool) op plain breg brepo s d reqs,
    ok_registry valid_registry breg -> valid_repository brepo = true ->
    op_requests avail valid_registry op plain breg brepo s d = Some reqs ->
    exists r, repo_parse avail valid_registry breg brepo s = Some r /\
      r_registry r = breg /\ r_repository r = brepo /\
      In (ref_request op plain r) reqs /\
      Forall (fun mu => snd mu = url_manifest plain r \/ snd mu = url_blob plain r \/
                        snd mu = url_manifest plain (mkRef breg brepo d)) reqs /\
      after_last c_slash (snd (ref_request op plain r)) = r_reference r.
Proof. exact op_requests_use_resolved. Qed.
Print Assumptions C20_op_requests_use_resolved.

(* ... and the equivalent forms of one reference send identical requests *)
Theorem C20_op_requests_forms_agree :
  forall (avail valid_registry : str -> bool) op plain breg brepo d0,
    ok_registry valid_registry breg -> valid_repository brepo = true ->
    (forall t, valid_tag t = true ->
       op_requests avail valid_registry op plain breg brepo (breg ++ [c_slash] ++ brepo ++ [c_colon] ++ t) d0
       = op_requests avail valid_registry op plain breg brepo t d0) /\
    (forall d, valid_digest avail d = true ->
       op_requests avail valid_registry op plain breg brepo (breg ++ [c_slash] ++ brepo ++ [c_at] ++ d) d0
       = op_requests avail valid_registry op plain breg brepo d d0 /\
       (forall junk, contains c_slash junk = false -> contains c_at junk = false ->
         op_requests avail valid_registry op plain breg brepo (junk ++ [c_at] ++ d) d0
         = op_requests avail valid_registry op plain breg brepo d d0) /\
       (forall junk, contains c_at junk = false ->
         op_requests avail valid_registry op plain breg brepo (breg ++ [c_slash] ++ brepo ++ [c_colon] ++ junk ++ [c_at] ++ d) d0
         = op_requests avail valid_registry op plain breg brepo d d0)).
Proof. exact op_requests_forms_agree. Qed.
Print Assumptions C20_op_requests_forms_agree.

Example C20_op_nonvacuous :
  op_requests (fun _ => true) (fun _ => true) OpTag false (b "localhost:5000") (b "hello/world") (b "v1@sha256:e3b0c44298fc1c149afbf4c8996fb92427ae41e4649b934ca495991b7852b855")
              (b "sha256:e3b0c44298fc1c149afbf4c8996fb92427ae41e4649b934ca495991b7852b855")
  = Some [(b "GET", b "https://localhost:5000/v2/hello/world/manifests/sha256:e3b0c44298fc1c149afbf4c8996fb92427ae41e4649b934ca495991b7852b855");
          (b "PUT", b "https://localhost:5000/v2/hello/world/manifests/sha256:e3b0c44298fc1c149afbf4c8996fb92427ae41e4649b934ca495991b7852b855")].
Proof. vm_compute. reflexivity. Qed.

(* non-vacuity: a concrete reference meets the hypotheses *)
Example C20_nonvacuous :
  parse (fun _ => true) (fun _ => true) (b "localhost:5000/hello/world:v1.0")
  = Some (mkRef (b "localhost:5000") (b "hello/world") (b "v1.0")).
Proof. vm_compute. reflexivity. Qed.

(* the registry check itself (Model/NetURL.v: net/url of go1.26.8) *)
(* whatever ValidateRegistry accepts is a clean URL authority: non-empty, no control character,
   space, '#', '%', '/', '?', '@' (no user-info), backslash -- for every behaviour of
   netip.ParseAddr.  This discharges the hypothesis of C20_url_exact for the modelled validator. *)
Theorem C20_registry_clean :
  forall (ip6_ok : str -> bool) reg,
    go_valid_registry ip6_ok reg = true -> reg_clean reg = true /\ contains c_slash reg = false.
Proof. exact go_valid_registry_clean. Qed.
Print Assumptions C20_registry_clean.

(* registries without brackets (reg-name [":" port]) are characterised exactly *)
Theorem C20_registry_regname_iff :
  forall (ip6_ok : str -> bool) reg,
    contains 91 reg = false ->
    (go_valid_registry ip6_ok reg = true <->
     reg <> [] /\ forallb hostcb reg = true /\
     (forall i, last_index_of 58 reg = Some i -> forallb is_digit_c (skipn (S i) reg) = true)).
Proof. exact registry_regname_iff. Qed.
Print Assumptions C20_registry_regname_iff.

(* ... and so are the bracketed IP literals: '[' host ']' [':' digits] with host bytes inside the
   brackets, no further bracket, and an inside that netip.ParseAddr accepts as a non-IPv4 address.
   Together with C20_registry_regname_iff this is the complete grammar of accepted registries. *)
Theorem C20_registry_bracket_iff :
  forall (ip6_ok : str -> bool) reg,
    contains 91 reg = true ->
    (go_valid_registry ip6_ok reg = true <->
     exists h port,
       reg = 91 :: h ++ 93 :: port /\ contains 91 h = false /\ contains 91 port = false /\ contains 93 port = false /\
       forallb hostcb h = true /\ ip6_ok h = true /\ valid_optional_port port = true).
Proof. exact registry_bracket_iff. Qed.
Print Assumptions C20_registry_bracket_iff.

(* go_valid_registry answers "rejected" at once when the registry contains '?', '/' or '@'; that is
   sound: it equals the step-by-step rendering of url.ParseRequestURI (query cut at the first '?',
   authority up to the first '/', user-info before the last '@', Host compared with the registry),
   whatever the user-info and path checks it leaves abstract answer *)
Theorem C20_registry_shortcuts_sound :
  forall (ip6_ok : str -> bool) (other_ok : str -> option str -> bool) reg,
    (forall a, contains 64 a = false -> other_ok a None = true) ->
    go_valid_registry_faithful ip6_ok other_ok reg = go_valid_registry ip6_ok reg.
Proof. exact go_valid_registry_faithful_eq. Qed.
Print Assumptions C20_registry_shortcuts_sound.

(* the URL clauses with the modelled validator: no hypothesis about the registry left *)
Theorem C20_url_exact_go :
  forall (avail ip6_ok : str -> bool) plain s r,
    parse avail (go_valid_registry ip6_ok) s = Some r -> r_reference r <> [] ->
    url_is (url_manifest plain r) plain r (b "manifests") /\
    url_is (url_blob plain r) plain r (b "blobs") /\
    url_is (url_referrers plain r) plain r (b "referrers").
Proof. exact url_exact_go. Qed.
Print Assumptions C20_url_exact_go.

Theorem C20_url_exact_noref_go :
  forall (avail ip6_ok : str -> bool) plain s r,
    parse avail (go_valid_registry ip6_ok) s = Some r ->
    url_split (url_taglist plain r)
    = Some (mkParts (scheme plain) (host_of (r_registry r)) (b "/v2/" ++ r_repository r ++ b "/tags/list") None None) /\
    url_split (url_upload plain r)
    = Some (mkParts (scheme plain) (host_of (r_registry r)) (b "/v2/" ++ r_repository r ++ b "/blobs/uploads/") None None).
Proof. exact url_exact_noref_go. Qed.
Print Assumptions C20_url_exact_noref_go.

Theorem C20_op_requests_exact_paths_go :
  forall (avail ip6_ok : str -> bool) op plain breg brepo s d reqs,
    go_valid_registry ip6_ok breg = true -> valid_repository brepo = true -> valid_digest avail d = true ->
    op_requests avail (go_valid_registry ip6_ok) op plain breg brepo s d = Some reqs ->
    exists r, repo_parse avail (go_valid_registry ip6_ok) breg brepo s = Some r /\
      Forall (fun mu => exists seg x,
                (seg = b "manifests" \/ seg = b "blobs") /\ (x = r_reference r \/ x = d) /\
                url_is (snd mu) plain (mkRef breg brepo x) seg) reqs.
Proof. exact op_requests_exact_paths_go. Qed.
Print Assumptions C20_op_requests_exact_paths_go.

(* ... and with the complete model of the validator (netip.ParseAddr modelled too: go_registry):
   the property's URL clause with no parameter and no hypothesis left *)
Theorem C20_url_exact_full :
  forall (avail : str -> bool) plain s r,
    parse avail go_registry s = Some r -> r_reference r <> [] ->
    url_is (url_manifest plain r) plain r (b "manifests") /\
    url_is (url_blob plain r) plain r (b "blobs") /\
    url_is (url_referrers plain r) plain r (b "referrers").
Proof. exact (fun avail => url_exact_go avail go_ip6_ok). Qed.
Print Assumptions C20_url_exact_full.

Example C20_registry_ip6_examples :
  go_registry (b "[::1]:5000") = true /\ go_registry (b "[1.2.3.4]") = false /\
  go_registry (b "[::ffff:1.2.3.4]") = true /\ go_registry (b "[fe80::1%25en0]") = false /\
  go_registry (b "[1:2:3:4:5:6:7:8]") = true /\ go_registry (b "[1:2:3:4:5:6:7:8:9]") = false /\
  go_registry (b "[::1::]") = false /\ go_registry (b "[1:2:3:4:5:6:1.2.3.4]") = true /\
  go_registry (b "[1:2:3:4:5:1.2.3.4]") = false /\ go_registry (b "[12345::]") = false /\
  go_registry (b "[::01.2.3.4]") = false /\ go_registry (b "[]") = false /\ go_registry (b "a[::1]") = false.
Proof. vm_compute. repeat split. Qed.

Example C20_registry_examples :
  go_valid_registry (fun _ => true) (b "localhost:5000") = true /\
  go_valid_registry (fun _ => true) (b "[::1]:5000") = true /\
  go_valid_registry (fun _ => false) (b "[::1]:5000") = false /\
  go_valid_registry (fun _ => true) (b "reg:") = true /\
  go_valid_registry (fun _ => true) (b "u@h") = false /\ go_valid_registry (fun _ => true) (b "h?x") = false /\
  go_valid_registry (fun _ => true) (b "a%41") = false /\ go_valid_registry (fun _ => true) (b "h:80:90") = true /\
  go_valid_registry (fun _ => true) (b "[fe80::1%25en0]") = false /\ go_valid_registry (fun _ => true) (b "h:5a") = false /\
  parse (fun _ => true) (go_valid_registry (fun _ => true)) (b "localhost:5000/hello/world:v1")
  = Some (mkRef (b "localhost:5000") (b "hello/world") (b "v1")).
Proof. vm_compute. repeat split. Qed.

(* url.QueryEscape is inverted by url.QueryUnescape (all byte strings) *)
Theorem C20_query_escape_roundtrip :
  forall s, Forall (fun c => (c < 256)%N) s -> query_unescape (query_escape s) = Some s.
Proof. exact query_escape_roundtrip. Qed.
Print Assumptions C20_query_escape_roundtrip.

(* referrers URL with an artifactType filter: exact path; the query is exactly
   artifactType=<escaped value>; the escaped value has no '&', '=', '#', '?' and decodes to the
   requested artifact type; no fragment -- for EVERY artifact type string *)
Theorem C20_url_referrers_at_exact :
  forall (avail vr : str -> bool) plain r at_,
    (forall reg, vr reg = true -> reg_clean reg = true) ->
    wf_ref avail vr r -> r_reference r <> [] -> at_ <> [] -> Forall (fun c => (c < 256)%N) at_ ->
    url_split (url_referrers_at plain r at_)
    = Some (mkParts (scheme plain) (host_of (r_registry r))
              (b "/v2/" ++ r_repository r ++ b "/referrers/" ++ r_reference r)
              (Some (b "artifactType=" ++ query_escape at_)) None) /\
    query_unescape (query_escape at_) = Some at_ /\
    contains 38 (query_escape at_) = false /\ contains 61 (query_escape at_) = false /\
    contains c_hash (query_escape at_) = false /\ contains c_qm (query_escape at_) = false.
Proof. exact (fun avail vr plain r at_ H => url_referrers_at_exact avail vr H plain r at_). Qed.
Print Assumptions C20_url_referrers_at_exact.

(* blob mount URL (valid digest, valid source repository): exact path, query exactly
   mount=<digest>&from=<repository>, and neither value needs escaping *)
Theorem C20_url_mount_exact :
  forall (avail vr : str -> bool) plain r d from,
    (forall reg, vr reg = true -> reg_clean reg = true) ->
    wf_ref avail vr r -> valid_digest avail d = true -> valid_repository from = true ->
    url_split (url_mount plain r d from)
    = Some (mkParts (scheme plain) (host_of (r_registry r)) (b "/v2/" ++ r_repository r ++ b "/blobs/uploads/")
              (Some (b "mount=" ++ d ++ b "&from=" ++ from)) None) /\
    Forall (fun x => contains x d = false /\ contains x from = false) [38; 61; c_hash; c_pct; 43; c_qm].
Proof. exact (fun avail vr plain r d from H => url_mount_exact avail vr H plain r d from). Qed.
Print Assumptions C20_url_mount_exact.

Example C20_query_examples :
  query_escape (b "a b&c=d/e#f?") = b "a+b%26c%3Dd%2Fe%23f%3F" /\
  url_referrers_at false (mkRef (b "h") (b "a") (b "t")) (b "x/y z") = b "https://h/v2/a/referrers/t?artifactType=x%2Fy+z" /\
  url_referrers_at false (mkRef (b "h") (b "a") (b "t")) [] = b "https://h/v2/a/referrers/t".
Proof. vm_compute. repeat split. Qed.

(* setQueryParams / url.Values.Encode output is decoded by url.ParseQuery to exactly the
   parameters that were put in, for all byte strings as keys and values *)
Theorem C20_parse_query_encode :
  forall ps, ps <> [] -> params_bytes ps -> parse_query (encode_params ps) = Some ps.
Proof. exact parse_query_encode. Qed.
Print Assumptions C20_parse_query_encode.

(* every such operation sends one request, of the documented method, to exactly the operation's
   slot /v2/<base repository>/<slot> of the base registry (authority = host, no user-info, no
   fragment, exact segments); no query where none is documented, otherwise a query that decodes
   to exactly the documented parameters (referrers: artifactType, n; tags: n, last; mount: mount,
   from) -- for every artifact type / last tag byte string, every page size string, every valid
   digest, every valid base *)
Theorem C20_desc_op_requests_exact :
  forall (avail vr : str -> bool) op plain breg brepo d a1 num,
    (forall reg, vr reg = true -> reg_clean reg = true) ->
    vr breg = true -> valid_repository brepo = true -> valid_digest avail d = true ->
    bytes a1 -> bytes num -> (op = DMount -> valid_repository a1 = true) ->
    exists u q,
      desc_op_requests op plain (mkRef breg brepo []) d a1 num = [(desc_op_method op, u)] /\
      url_split u = Some (mkParts (scheme plain) (host_of breg) (path_of brepo (desc_op_slot op d)) q None) /\
      split_on c_slash (path_of brepo (desc_op_slot op d)) = [[]; b "v2"] ++ split_on c_slash brepo ++ desc_op_slot op d /\
      contains c_at (host_of breg) = false /\
      match desc_op_params op d a1 num with
      | [] => q = None
      | ps => exists qs, q = Some qs /\ parse_query qs = Some ps
      end.
Proof. exact (fun avail vr op plain breg brepo d a1 num H => desc_op_requests_exact avail vr H op plain breg brepo d a1 num). Qed.
Print Assumptions C20_desc_op_requests_exact.

Example C20_desc_op_examples :
  desc_op_requests DTags true (mkRef (b "localhost:5000") (b "a/b") []) [] (b "x y&z") (b "50")
  = [(b "GET", b "http://localhost:5000/v2/a/b/tags/list?n=50&last=x+y%26z")] /\
  desc_op_requests DReferrers false (mkRef (b "docker.io") (b "library/x") []) (b "sha256:ab") (b "a/b") []
  = [(b "GET", b "https://registry-1.docker.io/v2/library/x/referrers/sha256:ab?artifactType=a%2Fb")] /\
  parse_query (b "n=50&last=x+y%26z") = Some [(b "n", b "50"); (b "last", b "x y&z")].
Proof. vm_compute. repeat split. Qed.

(* the URL builders assembled (Sprintf / Join model) from the string literals the translator reads
   off registry/remote/url.go and Reference.Host on every run are the closed forms the theorems
   above are stated about; the correspondence check runs the assembled ones *)
Theorem C20_generated_builders_agree :
  forall plain r d from at_,
    gen_url_base plain r = url_base plain r /\ gen_url_catalog plain r = url_catalog plain r /\
    gen_url_repo_base plain r = url_repo_base plain r /\ gen_url_taglist plain r = url_taglist plain r /\
    gen_url_manifest plain r = url_manifest plain r /\ gen_url_blob plain r = url_blob plain r /\
    gen_url_upload plain r = url_upload plain r /\ gen_url_referrers plain r = url_referrers plain r /\
    gen_url_mount plain r d from = url_mount plain r d from /\
    gen_url_referrers_at plain r at_ = url_referrers_at plain r at_ /\
    nth 0 ValidateRegistry_lits [] = b "dummy://".
Proof.
  exact (fun plain r d from at_ =>
    conj (gen_url_base_eq plain r) (conj (gen_url_catalog_eq plain r) (conj (gen_url_repo_base_eq plain r)
    (conj (gen_url_taglist_eq plain r) (conj (gen_url_manifest_eq plain r) (conj (gen_url_blob_eq plain r)
    (conj (gen_url_upload_eq plain r) (conj (gen_url_referrers_eq plain r) (conj (gen_url_mount_eq plain r d from)
    (conj (gen_url_referrers_at_eq plain r at_) validate_registry_dummy_scheme)))))))))).
Qed.
Print Assumptions C20_generated_builders_agree.

(* every reference ParseReference returns passes Reference.Validate *)
Theorem C20_parse_validate :
  forall (avail ip6_ok : str -> bool) s r,
    parse avail (go_valid_registry ip6_ok) s = Some r -> validate avail (go_valid_registry ip6_ok) r = true.
Proof. exact parse_validate. Qed.
Print Assumptions C20_parse_validate.

(* the round trip holds for every Reference VALUE that passes Validate, not only for parsed ones *)
Theorem C20_validate_roundtrip :
  forall (avail ip6_ok : str -> bool) r,
    validate avail (go_valid_registry ip6_ok) r = true ->
    parse avail (go_valid_registry ip6_ok) (format avail r) = Some r.
Proof. exact validate_roundtrip. Qed.
Print Assumptions C20_validate_roundtrip.

(* whatever sequence of reference-taking and descriptor-driven operations is called on a Repository
   with a valid base (reference strings arbitrary; descriptors with valid digests), every request
   ever sent goes to the base registry's host (no user-info), under /v2/<base repository>/, with
   exactly the segments listed, and has no fragment *)
Theorem C20_session_in_base :
  forall (avail vr : str -> bool) plain breg brepo cs,
    (forall reg, vr reg = true -> reg_clean reg = true) ->
    vr breg = true -> valid_repository brepo = true ->
    Forall (call_ok avail) cs ->
    Forall (fun mu => in_base_slot plain breg brepo (snd mu)) (session_requests avail vr plain breg brepo cs).
Proof. exact (fun avail vr plain breg brepo cs H Hb Hp => session_in_base avail vr H plain breg brepo Hb Hp cs). Qed.
Print Assumptions C20_session_in_base.

Example C20_session_example :
  session_requests (fun _ => true) go_registry false (b "localhost:5000") (b "a/b")
    [CRef OpMResolve (b "ghcr.io/Org/app@sha256:e3b0c44298fc1c149afbf4c8996fb92427ae41e4649b934ca495991b7852b855") [];
     CRef OpMResolve (b "v1") []; CDesc DTags [] (b "v 1") []]
  = [(b "HEAD", b "https://localhost:5000/v2/a/b/manifests/v1");
     (b "GET", b "https://localhost:5000/v2/a/b/tags/list?last=v+1")].
Proof. vm_compute. reflexivity. Qed.

(* remote.NewRepository(s) succeeds exactly like ParseReference(s) (same model function) and the
   base of the value it returns satisfies the hypotheses of all Repository theorems above: the
   "valid base" of C20_repo_*, C20_op_*, C20_desc_op_requests_exact and C20_session_in_base is
   what the constructors guarantee, not an assumption about callers *)
Theorem C20_new_repository_base_ok :
  forall (avail vr : str -> bool) s base,
    new_repository avail vr s = Some base ->
    vr (r_registry base) = true /\ valid_repository (r_repository base) = true.
Proof. exact new_repository_base_ok. Qed.
Print Assumptions C20_new_repository_base_ok.

Theorem C20_registry_repository_base_ok :
  forall (vr : str -> bool) name sub reg base,
    new_registry vr name = Some reg -> registry_repository reg sub = Some base ->
    base = mkRef name sub [] /\ vr name = true /\ valid_repository sub = true.
Proof. exact registry_repository_base_ok. Qed.
Print Assumptions C20_registry_repository_base_ok.

(* Registry.Ping / Registry.Repositories: one GET to exactly /v2/ resp. /v2/_catalog *)
Theorem C20_reg_op_requests_exact :
  forall (vr : str -> bool) op plain reg a1 num,
    (forall r, vr r = true -> reg_clean r = true) -> vr reg = true -> bytes a1 -> bytes num ->
    exists u q,
      reg_op_requests op plain reg a1 num = [(m_get, u)] /\
      url_split u = Some (mkParts (scheme plain) (host_of reg) (reg_op_path op) q None) /\
      contains c_at (host_of reg) = false /\
      match reg_op_params op a1 num with
      | [] => q = None
      | ps => exists qs, q = Some qs /\ parse_query qs = Some ps
      end.
Proof. exact reg_op_requests_exact. Qed.
Print Assumptions C20_reg_op_requests_exact.

(* the hand model of Digest.Validate is of exactly this source: go.sum pins go-digest's content *)
Example C20_go_digest_pinned :
  go_digest_pin = (b "v1.0.0", b "h1:apOUWs51W5PlhuyGyz9FCeeBIOUDA/6nW8Oi/yOhh5U=").
Proof. vm_compute. reflexivity. Qed.

(* the characters at which ParseReference / Repository.ParseReference / ValidateReference split are
   the ones of the model: the one-character string literals of those functions, read off the Go
   source on every run *)
Example C20_separators_pinned :
  filter (fun l => Nat.eqb (length l) 1) ParseReference_lits = [[c_slash]; [c_at]; [c_colon]; [c_colon]] /\
  filter (fun l => Nat.eqb (length l) 1) String_lits = [[c_slash]; [c_at]; [c_colon]] /\
  filter (fun l => Nat.eqb (length l) 1) setQueryParams_lits = [[38]; [61]; [61]; [38]].
Proof. vm_compute. repeat split. Qed.

(* whatever source / destination strings are passed and whatever the registry serves, every request
   of oras.Tag / oras.TagN on a Repository with a valid base stays in the base repository *)
Theorem C20_oras_tag_in_base :
  forall (avail vr : str -> bool) plain breg brepo src dsts served,
    (forall reg, vr reg = true -> reg_clean reg = true) ->
    vr breg = true -> valid_repository brepo = true ->
    Forall (fun mu => in_base_slot plain breg brepo (snd mu))
           (oras_tag_requests avail vr plain breg brepo src dsts served).
Proof. exact (fun avail vr plain breg brepo src dsts served H Hb Hp => oras_tag_in_base avail vr H plain breg brepo Hb Hp src dsts served). Qed.
Print Assumptions C20_oras_tag_in_base.

(* tag@digest as source and a fully qualified destination send exactly the requests of the bare
   digest and the bare tag *)
Theorem C20_oras_tag_forms_agree :
  forall (avail vr : str -> bool) plain breg brepo t dg d2 served,
    (forall reg, vr reg = true -> reg_clean reg = true) ->
    vr breg = true -> valid_repository brepo = true ->
    valid_tag t = true -> valid_digest avail dg = true -> valid_tag d2 = true ->
    oras_tag_requests avail vr plain breg brepo (t ++ [c_at] ++ dg) [breg ++ [c_slash] ++ brepo ++ [c_colon] ++ d2] served
    = oras_tag_requests avail vr plain breg brepo dg [d2] served.
Proof. exact (fun avail vr plain breg brepo t dg d2 served H Hb Hp => oras_tag_forms_agree avail vr H plain breg brepo Hb Hp t dg d2 served). Qed.
Print Assumptions C20_oras_tag_forms_agree.

(* the hypotheses of the operation theorems are satisfiable together (with the complete validator) *)
Example C20_operation_hypotheses_satisfiable :
  go_registry (b "localhost:5000") = true /\ valid_repository (b "hello/world") = true /\
  valid_digest (fun _ => true) (b "sha256:e3b0c44298fc1c149afbf4c8996fb92427ae41e4649b934ca495991b7852b855") = true /\
  bytes (b "x y&z") /\ valid_repository (b "library/x") = true /\
  new_repository (fun _ => true) go_registry (b "localhost:5000/hello/world:v1")
  = Some (mkRef (b "localhost:5000") (b "hello/world") (b "v1")) /\
  oras_tag_requests (fun _ => true) go_registry false (b "localhost:5000") (b "hello/world") (b "v1")
    [b "localhost:5000/hello/world:v2"; b "ghcr.io/Org/app@sha256:00"; b "v3"] (b "sha256:00")
  = [(b "GET", b "https://localhost:5000/v2/hello/world/manifests/v1");
     (b "PUT", b "https://localhost:5000/v2/hello/world/manifests/v2")].
Proof. repeat split; try (vm_compute; reflexivity). repeat constructor. Qed.

(* the digest check assembled from go-digest's own algorithm table (names, hash sizes, anchored
   regexes of the encoded part, read off the pinned module's algorithm.go on every run; this is
   what the correspondence runs) is the closed form valid_digest all theorems are stated about *)
Theorem C20_digest_from_source :
  forall (avail : str -> bool) s, valid_digest_gen avail s = valid_digest avail s.
Proof. exact valid_digest_gen_eq. Qed.
Print Assumptions C20_digest_from_source.

Example C20_go_digest_table :
  map (fun p => (fst (fst p), snd (fst p))) go_digest_algorithms
  = [(b "sha256", 64%nat); (b "sha384", 96%nat); (b "sha512", 128%nat)].
Proof. vm_compute. reflexivity. Qed.

(* the operation theorems with the modelled validator: no premise about the registry *)
Theorem C20_desc_op_requests_exact_go :
  forall (avail ip6_ok : str -> bool) op plain breg brepo d a1 num,
    go_valid_registry ip6_ok breg = true -> valid_repository brepo = true -> valid_digest avail d = true ->
    bytes a1 -> bytes num -> (op = DMount -> valid_repository a1 = true) ->
    exists u q,
      desc_op_requests op plain (mkRef breg brepo []) d a1 num = [(desc_op_method op, u)] /\
      url_split u = Some (mkParts (scheme plain) (host_of breg) (path_of brepo (desc_op_slot op d)) q None) /\
      split_on c_slash (path_of brepo (desc_op_slot op d)) = [[]; b "v2"] ++ split_on c_slash brepo ++ desc_op_slot op d /\
      contains c_at (host_of breg) = false /\
      match desc_op_params op d a1 num with
      | [] => q = None
      | ps => exists qs, q = Some qs /\ parse_query qs = Some ps
      end.
Proof. exact (fun avail ip6_ok => desc_op_requests_exact avail _ (vr_clean ip6_ok)). Qed.
Print Assumptions C20_desc_op_requests_exact_go.

Theorem C20_reg_op_requests_exact_go :
  forall (ip6_ok : str -> bool) op plain reg a1 num,
    go_valid_registry ip6_ok reg = true -> bytes a1 -> bytes num ->
    exists u q,
      reg_op_requests op plain reg a1 num = [(m_get, u)] /\
      url_split u = Some (mkParts (scheme plain) (host_of reg) (reg_op_path op) q None) /\
      contains c_at (host_of reg) = false /\
      match reg_op_params op a1 num with
      | [] => q = None
      | ps => exists qs, q = Some qs /\ parse_query qs = Some ps
      end.
Proof. exact (fun ip6_ok op plain reg a1 num => reg_op_requests_exact _ op plain reg a1 num (vr_clean ip6_ok)). Qed.
Print Assumptions C20_reg_op_requests_exact_go.

(* end to end: a Repository made by remote.NewRepository(s0) for ANY string s0 that it accepts,
   then ANY history of calls (reference strings arbitrary, descriptors with valid digests), resp.
   oras.Tag / oras.TagN with arbitrary arguments: every request stays in that repository.  No
   premise about the registry or the base is left. *)
Theorem C20_new_repository_session_in_base :
  forall (avail ip6_ok : str -> bool) s0 base plain cs,
    new_repository avail (go_valid_registry ip6_ok) s0 = Some base -> Forall (call_ok avail) cs ->
    Forall (fun mu => in_base_slot plain (r_registry base) (r_repository base) (snd mu))
           (session_requests avail (go_valid_registry ip6_ok) plain (r_registry base) (r_repository base) cs).
Proof.
  exact (fun avail ip6_ok s0 base plain cs H Hc =>
           match new_repository_base_ok avail _ s0 base H with
           | conj Hr Hp => session_in_base avail _ (vr_clean ip6_ok) plain _ _ Hr Hp cs Hc
           end).
Qed.
Print Assumptions C20_new_repository_session_in_base.

Theorem C20_new_repository_oras_tag_in_base :
  forall (avail ip6_ok : str -> bool) s0 base plain src dsts served,
    new_repository avail (go_valid_registry ip6_ok) s0 = Some base ->
    Forall (fun mu => in_base_slot plain (r_registry base) (r_repository base) (snd mu))
           (oras_tag_requests avail (go_valid_registry ip6_ok) plain (r_registry base) (r_repository base) src dsts served).
Proof.
  exact (fun avail ip6_ok s0 base plain src dsts served H =>
           match new_repository_base_ok avail _ s0 base H with
           | conj Hr Hp => oras_tag_in_base avail _ (vr_clean ip6_ok) plain _ _ Hr Hp src dsts served
           end).
Qed.
Print Assumptions C20_new_repository_oras_tag_in_base.

Theorem C20_url_referrers_at_exact_go :
  forall (avail ip6_ok : str -> bool) plain s r at_,
    parse avail (go_valid_registry ip6_ok) s = Some r -> r_reference r <> [] -> at_ <> [] -> bytes at_ ->
    url_split (url_referrers_at plain r at_)
    = Some (mkParts (scheme plain) (host_of (r_registry r))
              (b "/v2/" ++ r_repository r ++ b "/referrers/" ++ r_reference r)
              (Some (b "artifactType=" ++ query_escape at_)) None) /\
    query_unescape (query_escape at_) = Some at_.
Proof.
  exact (fun avail ip6_ok plain s r at_ H Hne Ha Hb =>
           match url_referrers_at_exact avail _ (vr_clean ip6_ok) plain r at_ (parse_wf avail _ s r H) Hne Ha Hb with
           | conj A (conj B _) => conj A B
           end).
Qed.
Print Assumptions C20_url_referrers_at_exact_go.

(* net/url's escaping table tied to the toolchain source *)
Theorem C20_neturl_classes_from_source :
  forall c, (c < 256)%N ->
    host_plain c = mem_c c neturl_encodeHost /\ host_plain c = mem_c c neturl_encodeZone /\
    query_plain c = mem_c c neturl_encodeQueryComponent /\ is_hex_c c = mem_c c neturl_hexChar.
Proof. exact neturl_classes_from_source. Qed.
Print Assumptions C20_neturl_classes_from_source.
