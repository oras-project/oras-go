(* C12 -- Files and directories added to a file store come back identical.
   The general statements are closed by [exact] (lemmas: Proofs/Tar*.v), the concrete
   witnesses by evaluation; the executable model (tarDirectory, descriptorFromDir, pushDir/extractTarGzip/
   extractTarDirectory, restoreDuplicates) in Model/TarRoundTrip.v.
   A directory tree is [tree]; [tar_entries] is what Store.Add writes (filepath.Walk order,
   normalised headers), [extract] is extractTarDirectory started in the directory that
   pushDir pre-creates, [expected umask preserve T] is the source tree seen as a file
   system with the modes the property allows. *)
From Coq Require Import Permutation.
From Oras Require Import Base.Prelude Generated.GC12 Model.TarRoundTrip Model.FileAnnotations
  Proofs.TarRoundTrip Proofs.TarWalkOrder Proofs.TarListingOrder Proofs.TarModeSweep Proofs.TarRootMode Proofs.TarUnprivileged Proofs.TarSourceFacts Proofs.TarSetgid Proofs.TarRestoreOrder.

(* Round trip at full strength: every path of the restored directory -- the directory itself
   included -- is the path of the source tree: same kind, bytes, link target, and mode (minus
   the umask unless PreservePermissions); nothing else exists, and extraction does not fail.
   For every tree with distinct names per directory, modes within 07777 (files AND directories),
   and relative symlinks that stay inside and do not pass through other symlinks
   ([benign_tree], see C12_link_through_link_refuted); any child order; any umask with
   PreservePermissions, any umask within 0777 without (the kernel keeps no other bits).
   [extract] = extractTarDirectory with restoreDirModes: directories are created with
   mode | 0700 and get their recorded mode after the last entry. *)
Theorem C12_roundtrip :
  forall pre umask preserve repro T,
    (preserve = false -> umask <= 511) ->
    is_dir T = true -> wf_treeb T = true -> modes_okb T = true -> benign_tree pre T = true ->
    exists f', extract pre umask preserve (entries pre repro [] T) = Ok f' /\
      forall p, fs_lookup f' p = expected umask preserve T p.
Proof. exact roundtrip_full. Qed.
Print Assumptions C12_roundtrip.

(* The same for what Store.Add really writes: filepath.Walk sorts every directory; the
   hypotheses and the result are stated on the tree as given (sorting changes neither). *)
Theorem C12_roundtrip_walk :
  forall pre umask preserve repro T,
    (preserve = false -> umask <= 511) ->
    is_dir T = true -> wf_treeb T = true -> modes_okb T = true -> benign_tree pre T = true ->
    exists f', extract pre umask preserve (tar_entries pre repro T) = Ok f' /\
      forall p, fs_lookup f' p = expected umask preserve T p.
Proof. exact roundtrip_walk_full. Qed.
Print Assumptions C12_roundtrip_walk.

(* With PreservePermissions the modes are exact and no bound on the umask is needed. *)
Theorem C12_roundtrip_preserve :
  forall pre umask repro T,
    is_dir T = true -> wf_treeb T = true -> modes_okb T = true -> benign_tree pre T = true ->
    exists f', extract pre umask true (entries pre repro [] T) = Ok f' /\
      forall p, fs_lookup f' p = expected umask true T p.
Proof. exact roundtrip_preserve_full. Qed.
Print Assumptions C12_roundtrip_preserve.

(* An unprivileged user unpacks exactly what root unpacks -- for EVERY archive (any entry list,
   not only those written by Add): [extract_p false] adds the kernel's check that the owner has
   write+search permission on the directory in which an entry is created, replaced or removed;
   with restoreDirModes every directory has mode | 0700 while entries are created, so under a
   umask without owner write/search bits the check never fails. *)
Theorem C12_unprivileged_same_as_root :
  forall priv pre umask preserve es,
    N.land umask 192 = 0 ->
    extract_p priv pre umask preserve es = extract pre umask preserve es.
Proof. exact unprivileged_same_as_root. Qed.
Print Assumptions C12_unprivileged_same_as_root.

Theorem C12_roundtrip_unprivileged :
  forall pre umask preserve repro T,
    N.land umask 192 = 0 -> (preserve = false -> umask <= 511) ->
    is_dir T = true -> wf_treeb T = true -> modes_okb T = true -> benign_tree pre T = true ->
    exists f', extract_p false pre umask preserve (tar_entries pre repro T) = Ok f' /\
      forall p, fs_lookup f' p = expected umask preserve T p.
Proof. exact roundtrip_unprivileged. Qed.
Print Assumptions C12_roundtrip_unprivileged.

(* Finding "link-through-file-rejected", fixed in the repository: a dangling relative link whose
   target passes through a regular file of the tree (or through a component longer than
   NAME_MAX: "link-target-name-too-long") was refused when that file had been extracted before
   it, because resolveRelToBase returned the ENOTDIR / ENAMETOOLONG of its Lstat walk
   ([check_dirs_prefix]); such a directory cannot exist, so nothing there can be a symbolic
   link: it is now treated like a missing one and the tree restores in either order. *)
Theorem C12_link_through_file_prefix_refuted :
  (let f := [([b "a"], NFile (b "x") 420)] in
   check_dirs_prefix f [] [b "a"; b "x"; b "y"] = false /\ check_dirs f [] [b "a"; b "x"; b "y"] = true) /\
  benign_tree [b "d"] (through_file_tree "a") = true /\
  (exists f', extract [b "d"] 18 false (tar_entries [b "d"] true (through_file_tree "a")) = Ok f' /\
     fs_lookup f' [b "l"] = Some (NLink (b "a/x/y")) /\ fs_lookup f' [b "a"] = Some (NFile (b "x") 420)) /\
  exists f', extract [b "d"] 18 false (tar_entries [b "d"] true (through_file_tree "z")) = Ok f' /\
    fs_lookup f' [b "l"] = Some (NLink (b "z/x/y")) /\ fs_lookup f' [b "z"] = Some (NFile (b "x") 420).
Proof.
  split; [vm_compute; split; reflexivity|]. split; [vm_compute; reflexivity|].
  split; eexists; (split; [vm_compute; reflexivity|]); split; vm_compute; reflexivity.
Qed.
Print Assumptions C12_link_through_file_prefix_refuted.

(* The state of the directory when the extraction stops ([extract_partial]: the entries before
   the failing one, directories still with their creation mode) belongs to the same run as the
   verdict: same error, and on success the same file system. *)
Theorem C12_extract_partial_spec :
  forall priv pre umask preserve es,
    extract_p priv pre umask preserve es =
    match extract_partial priv pre umask preserve es with
    | (f, None) => Ok f
    | (_, Some x) => Err x
    end.
Proof. exact extract_partial_spec. Qed.
Print Assumptions C12_extract_partial_spec.

(* When the extraction stops with an error, what is on disk is exactly the result of the entries
   before the failing one (the failing entry has no effect of its own, restoreDirModes has not run). *)
Theorem C12_partial_is_prefix_run :
  forall priv pre umask preserve es f x f',
    extract_list_partial priv pre umask preserve f es = (f', Some x) ->
    exists done rest e, es = done ++ e :: rest /\
      extract_list_p priv pre umask preserve f done = Ok f' /\
      extract_entry_p priv pre umask preserve f' e = Err x.
Proof. exact partial_is_prefix_run. Qed.
Print Assumptions C12_partial_is_prefix_run.

(* The code before restoreDirModes (directories created with their recorded mode): the owner
   cannot fill a 0555 directory (EACCES), with and without PreservePermissions; root can; the
   current code can.  Finding "nonroot-permission-denied", fixed in the repository. *)
Theorem C12_readonly_dir_prefix_refuted :
  extract_prefix_p false [b "d"] 18 false (tar_entries [b "d"] true readonly_dir_witness) = Err XPerm /\
  extract_prefix_p false [b "d"] 18 true (tar_entries [b "d"] true readonly_dir_witness) = Err XPerm /\
  (exists f, extract_prefix_p true [b "d"] 18 false (tar_entries [b "d"] true readonly_dir_witness) = Ok f) /\
  exists f', extract_p false [b "d"] 18 false (tar_entries [b "d"] true readonly_dir_witness) = Ok f' /\
    fs_lookup f' [b "ro"] = Some (NDir 365) /\ fs_lookup f' [b "ro"; b "f"] = Some (NFile (b "x") 292).
Proof. exact readonly_dir_prefix_refuted. Qed.
Print Assumptions C12_readonly_dir_prefix_refuted.

(* [benign_tree] is needed, and what it excludes is rejected by the code depending on the
   extraction order: d/{b/f, a -> b, c -> a/f} (relative links, all inside) is refused
   ("no symbolic link allowed between ..."), the same tree with the first link called z is
   restored.  Known finding "link-through-link-rejected" (resolveRelToBase's check is a
   deliberate confinement measure; not a small repair). *)
Theorem C12_link_through_link_refuted :
  let T := through_link_tree "a" in
  is_dir T = true /\ wf_treeb T = true /\ modes_okb T = true /\ benign_tree [b "d"] T = false /\
  extract [b "d"] 18 false (tar_entries [b "d"] true T) = Err XSymlinkDir /\
  (let T' := through_link_tree "z" in
   benign_tree [b "d"] T' = false /\
   exists f', extract [b "d"] 18 false (tar_entries [b "d"] true T') = Ok f' /\
     forall p, In p [[]; [b "b"]; [b "b"; b "f"]; [b "z"]; [b "c"]; [b "nothing"]] ->
       fs_lookup f' p = expected 18 false T' p).
Proof.
  vm_compute. repeat split; try reflexivity.
  eexists. split; [reflexivity|]. intros p Hp.
  repeat (destruct Hp as [<-|Hp]; [reflexivity|]). destruct Hp.
Qed.
Print Assumptions C12_link_through_link_refuted.

(* The code before the fixes of the directory modes ([extract_prefix]: recorded modes applied
   when the entry is processed, nothing after the last entry): a 0700 directory under umask
   022 came back 0755.  Finding "root-mode", fixed in the repository; superseded by
   restoreDirModes, which also makes read-only directories restorable by an unprivileged user
   ("nonroot-readonly-dir") and keeps setuid/setgid directories ("dir-special-bits"). *)
Theorem C12_root_mode_prefix_refuted :
  exists T umask,
    is_dir T = true /\ wf_treeb T = true /\ modes_okb T = true /\ benign_tree [b "d"] T = true /\
    exists f', extract_prefix [b "d"] umask false (tar_entries [b "d"] true T) = Ok f' /\
      fs_lookup f' [] <> expected umask false T [].
Proof.
  exists root_mode_witness, 18. repeat (split; [reflexivity|]).
  eexists. split; [vm_compute; reflexivity|]. vm_compute. discriminate.
Qed.
Print Assumptions C12_root_mode_prefix_refuted.

(* Before the fix of tarDirectory, Add of a path that is a symbolic link to a directory
   archived the link itself (filepath.Walk does not follow a link root): the single entry
   [entries pre repro [] (Link tg mt)], which can never be unpacked.
   Finding "added-symlink-archived-as-link", fixed in the repository (the root is resolved). *)
Theorem C12_symlinked_root_prefix_refuted :
  forall pre umask preserve repro tg mt f,
    extract pre umask preserve (entries pre repro [] (Link tg mt)) <> Ok f.
Proof. exact symlinked_root_prefix_refuted. Qed.
Print Assumptions C12_symlinked_root_prefix_refuted.

(* Before the fix, PreservePermissions lost setuid/setgid/sticky (a 01777 directory came back
   0777): os.Chmod(path, os.FileMode(header.Mode)) passes only the permission bits.
   Finding "preserve-special-bits", fixed in the repository; [modes_okb] admits 07777 for files
   and directories. *)
Theorem C12_preserve_special_bits_prefix_refuted :
  exists m, (m <=? 4095) = true /\ chmod_mode_prefix m <> m /\ chmod_mode m = m.
Proof. exists 1023. vm_compute. repeat split; discriminate. Qed.
Print Assumptions C12_preserve_special_bits_prefix_refuted.

(* Descriptor and unpack; the tar and gzip byte codecs and the digest are parameters with
   their round-trip laws as hypotheses. *)
Section Codec.
  Variable digest : Type.
  Variable H : str -> digest.
  Variable digest_eqb : digest -> digest -> bool.
  Variable enc : list entry -> str.
  Variable dec : str -> option (list entry).
  Variable gz : str -> str.
  Variable gunz : str -> option str.
  Hypothesis digest_eqb_spec : forall a b, digest_eqb a b = true <-> a = b.
  Hypothesis dec_enc : forall es, dec (enc es) = Some es.
  Hypothesis gunz_gz : forall s, gunz (gz s) = Some s.

  (* digest and size are those of the stored bytes, the recorded uncompressed digest is
     that of the tar stream inside *)
  Theorem C12_descriptor :
    forall pre repro T,
      let d := dir_descriptor digest H enc gz pre repro T in
      let blob := dir_blob enc gz pre repro T in
      d_digest digest d = H blob /\ d_size digest d = N.of_nat (length blob) /\
      d_title digest d = pre /\ d_unpack digest d = true /\
      (forall tarb, gunz blob = Some tarb -> d_checksum digest d = Some (H tarb)).
  Proof. exact (descriptor_of_stored_bytes digest H enc gz gunz gunz_gz). Qed.

  (* Add -> Push of the very blob and descriptor restores the tree *)
  Theorem C12_unpack_roundtrip :
    forall pre umask preserve repro T,
      (preserve = false -> umask <= 511) ->
      is_dir T = true -> wf_treeb T = true -> modes_okb T = true -> benign_tree pre T = true ->
      exists f', unpack digest H digest_eqb dec gunz umask preserve
                   (dir_descriptor digest H enc gz pre repro T) (dir_blob enc gz pre repro T) = Ok f' /\
        forall p, fs_lookup f' p = expected umask preserve T p.
  Proof. exact (unpack_roundtrip_full digest H digest_eqb enc dec gz gunz digest_eqb_spec dec_enc gunz_gz). Qed.

  (* SkipUnpack: the directory is not restored as a tree; its blob comes back as a file under
     the name, byte for byte (that is what the option means; the tree clause does not apply) *)
  Theorem C12_skipunpack_stores_blob :
    forall pre umask preserve repro T checksum nm,
      let d := dir_descriptor digest H enc gz pre repro T in
      let blob := dir_blob enc gz pre repro T in
      push_named digest H digest_eqb dec gunz true umask preserve (dir_annotations checksum nm) d blob
      = Ok (inr (NFile blob (N.ldiff 438 umask))).
  Proof. exact (skipunpack_stores_blob digest H digest_eqb enc dec gz gunz digest_eqb_spec). Qed.

  (* the recorded uncompressed digest is verified on unpack *)
  Theorem C12_wrong_checksum_rejected :
    forall umask preserve d blob tarb c,
      gunz blob = Some tarb -> d_checksum digest d = Some c -> H tarb <> c ->
      forall f, unpack digest H digest_eqb dec gunz umask preserve d blob <> Ok f.
  Proof. exact (wrong_checksum_rejected digest H digest_eqb dec gunz digest_eqb_spec). Qed.

  (* ... and so are digest and size of the blob itself *)
  Theorem C12_wrong_blob_rejected :
    forall umask preserve d blob,
      H blob <> d_digest digest d \/ N.of_nat (length blob) <> d_size digest d ->
      unpack digest H digest_eqb dec gunz umask preserve d blob = Err XDigest.
  Proof. exact (wrong_blob_rejected digest H digest_eqb dec gunz digest_eqb_spec). Qed.

  (* What Push leaves in the directory.  A successful Push leaves what it returns; with a wrong
     recorded tar digest Push fails -- and the complete tree of the archive is on disk
     nevertheless (the digest is compared after the extraction): "verified on unpack" does not
     protect the working directory; a blob that is not the descriptor's is not extracted at all. *)
  Theorem C12_residue_of_success :
    forall umask preserve d blob f,
      unpack digest H digest_eqb dec gunz umask preserve d blob = Ok f ->
      unpack_residue digest H digest_eqb dec gunz umask preserve d blob = f.
  Proof. exact (residue_of_success digest H digest_eqb dec gunz). Qed.

  Theorem C12_wrong_checksum_residue :
    forall pre umask preserve repro T c,
      (preserve = false -> umask <= 511) ->
      is_dir T = true -> wf_treeb T = true -> modes_okb T = true -> benign_tree pre T = true ->
      c <> H (enc (tar_entries pre repro T)) ->
      let d0 := dir_descriptor digest H enc gz pre repro T in
      let d := mkDesc digest (d_digest digest d0) (d_size digest d0) pre true (Some c) in
      let blob := dir_blob enc gz pre repro T in
      unpack digest H digest_eqb dec gunz umask preserve d blob = Err XDigest /\
      forall p, fs_lookup (unpack_residue digest H digest_eqb dec gunz umask preserve d blob) p
                = expected umask preserve T p.
  Proof. exact (wrong_checksum_residue digest H digest_eqb enc dec gz gunz digest_eqb_spec dec_enc gunz_gz). Qed.

  Theorem C12_wrong_blob_residue :
    forall umask preserve d blob,
      H blob <> d_digest digest d \/ N.of_nat (length blob) <> d_size digest d ->
      unpack_residue digest H digest_eqb dec gunz umask preserve d blob = fs_init umask.
  Proof. exact (wrong_blob_residue digest H digest_eqb dec gunz digest_eqb_spec). Qed.

  (* a plain file: Add -> Push writes exactly the bytes (mode 0666 minus umask: a blob
     descriptor carries no mode); whatever Push accepts has the descriptor's digest and size *)
  Theorem C12_file_roundtrip :
    forall umask nm content,
      push_file digest H digest_eqb umask (file_descriptor digest H nm content) content
      = Ok (NFile content (N.ldiff 438 umask)).
  Proof. exact (file_roundtrip digest H digest_eqb digest_eqb_spec). Qed.

  (* ... and that is the known finding "plain-file-mode-not-carried": *)
  Theorem C12_plain_file_mode_refuted :
    forall nm content,
      exists m m', m <= 511 /\
        push_file digest H digest_eqb 18 (file_descriptor digest H nm content) content = Ok (NFile content m') /\
        m' <> N.ldiff m 18.
  Proof. exact (plain_file_mode_refuted digest H digest_eqb digest_eqb_spec). Qed.

  Theorem C12_file_push_verified :
    forall umask d blob n,
      push_file digest H digest_eqb umask d blob = Ok n ->
      H blob = d_digest digest d /\ N.of_nat (length blob) = d_size digest d /\
      exists m, n = NFile blob m.
  Proof. exact (file_push_verified digest H digest_eqb digest_eqb_spec). Qed.

  (* reproducible tars: equal up to timestamps => equal descriptor *)
  Theorem C12_reproducible :
    forall pre t1 t2,
      strip_times t1 = strip_times t2 ->
      tar_entries pre true t1 = tar_entries pre true t2 /\
      dir_descriptor digest H enc gz pre true t1 = dir_descriptor digest H enc gz pre true t2.
  Proof.
    intros pre t1 t2 E. split;
      [exact (reproducible_entries pre t1 t2 E) | exact (reproducible_descriptor digest H enc gz pre t1 t2 E)].
  Qed.
End Codec.
Print Assumptions C12_descriptor.
Print Assumptions C12_unpack_roundtrip.
Print Assumptions C12_residue_of_success.
Print Assumptions C12_wrong_checksum_residue.
Print Assumptions C12_wrong_blob_residue.
Print Assumptions C12_skipunpack_stores_blob.
Print Assumptions C12_wrong_checksum_rejected.
Print Assumptions C12_wrong_blob_rejected.
Print Assumptions C12_reproducible.
Print Assumptions C12_file_roundtrip.
Print Assumptions C12_file_push_verified.
Print Assumptions C12_plain_file_mode_refuted.

(* ... and regardless of the order in which any directory lists its entries:
   [same_tree] relates two listings of the same tree (children permuted at every level). *)
Theorem C12_reproducible_any_listing :
  forall pre t1 t2,
    same_tree (strip_times t1) (strip_times t2) -> wf_treeb (strip_times t1) = true ->
    tar_entries pre true t1 = tar_entries pre true t2.
Proof. exact reproducible_any_listing. Qed.
Print Assumptions C12_reproducible_any_listing.

Theorem C12_listing_order_irrelevant :
  forall pre repro t t',
    same_tree t t' -> wf_treeb t = true -> tar_entries pre repro t = tar_entries pre repro t'.
Proof. exact listing_order_irrelevant. Qed.
Print Assumptions C12_listing_order_irrelevant.

(* The statements of content/file that the hand-written model mirrors have the shape it was
   written against (translator kinds c12_bodyhas / c12_intlit, regenerated on every run): the
   mask arithmetic, last-entry-wins and directories-only of restoreDirModes, its call at io.EOF
   only, mode|0700 at creation, the chmod of regular files only, the header normalisation and
   the root resolution of tarDirectory, the digest comparison after the extraction, the
   ForceCAS test before restoring a skipped manifest's successors, the unpack test. *)
Theorem C12_source_facts :
  c12_fact_narrow && c12_fact_exact && c12_fact_special && c12_fact_lastwins && c12_fact_onlydirs &&
  c12_fact_at_eof && c12_fact_chmod_files && c12_fact_mkdir && c12_fact_baselink &&
  c12_fact_ids && c12_fact_times && c12_fact_rootlink && c12_fact_name &&
  c12_fact_verify_after && c12_fact_skip_restore && c12_fact_unpack_test &&
  c12_fact_deepest_first && c12_fact_lstat_walk && c12_fact_outside = true.
Proof. exact source_facts. Qed.
Print Assumptions C12_source_facts.

Theorem C12_source_literals :
  N.land c12_dir_owner_bits owner_wx = owner_wx /\ c12_dir_owner_bits <= 511 /\ c12_ensure_dir_perm = 511.
Proof. exact source_literals. Qed.
Print Assumptions C12_source_literals.

(* restoreDirModes step by step, in its real order (directory entries sorted by depth, walked
   backwards, every path once, the last entry's mode) and with the kernel's check on every
   chmod (search permission on every directory above): [extract_po].  Because directories are
   handled deepest first, everything above the one being changed still has mode | 0700, so no
   chmod is refused and the result is the one of [extract] -- for root and for an unprivileged
   owner, for EVERY archive.  The order is needed: see C12_shallow_first_refuted. *)
Theorem C12_extract_po_ok :
  forall priv pre umask preserve es,
    N.land umask 192 = 0 ->
    match extract pre umask preserve es with
    | Ok f => exists f', extract_po priv pre umask preserve es = Ok f' /\
                         forall q, fs_lookup f' q = fs_lookup f q
    | Err x => extract_po priv pre umask preserve es = Err x
    end.
Proof. exact extract_po_ok. Qed.
Print Assumptions C12_extract_po_ok.

Theorem C12_roundtrip_unprivileged_ordered :
  forall pre umask preserve repro T,
    N.land umask 192 = 0 -> (preserve = false -> umask <= 511) ->
    is_dir T = true -> wf_treeb T = true -> modes_okb T = true -> benign_tree pre T = true ->
    exists f', extract_po false pre umask preserve (tar_entries pre repro T) = Ok f' /\
      forall p, fs_lookup f' p = expected umask preserve T p.
Proof. exact roundtrip_unprivileged_ordered. Qed.
Print Assumptions C12_roundtrip_unprivileged_ordered.

Theorem C12_restore_order_ok :
  forall priv pre preserve es f0,
    (forall p m, fs_lookup f0 p = Some (NDir m) -> has_x m = true) ->
    exists f', restore_in_order priv pre preserve es f0 (restore_order pre es) = Ok f' /\
      forall q, fs_lookup f' q = fs_lookup (finish_dirs pre preserve es f0) q.
Proof. exact restore_order_ok. Qed.
Print Assumptions C12_restore_order_ok.

(* a directory with recorded mode 0600 and a directory below it: deepest first works for the
   owner, the directory first does not (EACCES on the chmod below it) *)
Theorem C12_shallow_first_refuted :
  restore_order [b "d"] order_witness = [[b "p"; b "c"]; [b "p"]; []] /\
  (exists f, extract_po false [b "d"] 18 false order_witness = Ok f /\
             fs_lookup f [b "p"] = Some (NDir 384) /\ fs_lookup f [b "p"; b "c"] = Some (NDir 493)) /\
  match extract_list_p false [b "d"] 18 false (fs_init 18) order_witness with
  | Ok f => restore_in_order false [b "d"] false order_witness f [[]; [b "p"]; [b "p"; b "c"]] = Err XPerm
  | Err _ => False
  end.
Proof.
  split; [vm_compute; reflexivity|]. split.
  - eexists. split; [vm_compute; reflexivity|]. split; vm_compute; reflexivity.
  - vm_compute. reflexivity.
Qed.
Print Assumptions C12_shallow_first_refuted.

(* Unpacking into a set-group-ID working directory (a shared project directory): mkdir(2) makes
   every new directory set-group-ID.  For EVERY archive the extraction is the ordinary run with
   the bit added to every directory (simulation [Fsg]); for the archives Add writes, the round
   trip holds with the inherited bit on every directory without PreservePermissions and with the
   recorded modes exactly with it. *)
Theorem C12_extract_list_setgid :
  forall pre umask preserve es,
    extract_list pre umask preserve (fs_init_sg umask sgid) es
    = map_res (extract_list pre umask preserve (fs_init umask) es).
Proof. exact extract_list_setgid. Qed.
Print Assumptions C12_extract_list_setgid.

Theorem C12_roundtrip_setgid :
  forall pre umask preserve repro T,
    (preserve = false -> umask <= 511) ->
    is_dir T = true -> wf_treeb T = true -> modes_okb T = true -> benign_tree pre T = true ->
    exists f', extract_sg sgid pre umask preserve (tar_entries pre repro T) = Ok f' /\
      forall p, fs_lookup f' p = expected_sg sgid umask preserve T p.
Proof. exact roundtrip_setgid. Qed.
Print Assumptions C12_roundtrip_setgid.

(* restoreDirModes without PreservePermissions: the special bits of the result are those the
   directory already had (e.g. the set-group-ID bit inherited from a setgid working directory)
   and those recorded; the permission bits are never wider than what the directory had.
   For all numbers, by bit-level reasoning. *)
Theorem C12_narrow_special :
  forall cur m, N.land (narrow_mode cur m) 3584 = N.lor (N.land cur 3584) (N.land m 3584).
Proof. exact narrow_special. Qed.
Print Assumptions C12_narrow_special.

Theorem C12_narrow_never_widens :
  forall cur m, N.land (narrow_mode cur m) 511 = N.land (N.land cur 511) (N.land m 511).
Proof. exact narrow_never_widens. Qed.
Print Assumptions C12_narrow_never_widens.

(* the user's own umask can take the owner's permissions away (umask 0300): EACCES for the owner,
   fine for root -- the permission check of the model is not vacuous on the current code *)
Example C12_owner_bit_umask_refuses :
  extract_p false [b "d"] 192 false (tar_entries [b "d"] true readonly_dir_witness) = Err XPerm /\
  exists f, extract_p true [b "d"] 192 false (tar_entries [b "d"] true readonly_dir_witness) = Ok f.
Proof. exact owner_bit_umask_refuses. Qed.

(* The three annotations Add writes do not clobber each other (keys regenerated from
   content/file/file.go) and make Store.push unpack unless SkipUnpack. *)
Theorem C12_annotations :
  forall checksum name skip,
    annot_get (dir_annotations checksum name) AnnotationDigest = checksum /\
    annot_get (dir_annotations checksum name) AnnotationUnpack = b "true" /\
    annot_get (dir_annotations checksum name) title_key = name /\
    need_unpack (dir_annotations checksum name) skip = negb skip.
Proof. repeat split. Qed.
Print Assumptions C12_annotations.

(* Two blobs with the same bytes but different names both materialise: whatever subset of
   the layers oras.Copy pushed (at least one per content, any order), after the manifest is
   pushed every layer name exists with its content -- ForceCAS off, IgnoreNoName on or off. *)
Theorem C12_same_bytes_two_names :
  forall inn pushed layers,
    NoDup (map fst layers) -> (forall n d, In (n, d) layers -> n <> []) ->
    incl pushed layers -> NoDup (map fst pushed) ->
    (forall n d, In (n, d) layers -> In d (map snd pushed)) ->
    forall n d, In (n, d) layers ->
      name_lookup (s_names (copy_into false inn pushed layers)) n = Some d.
Proof. exact same_bytes_two_names. Qed.
Print Assumptions C12_same_bytes_two_names.

(* ForceCAS: nothing is restored, only what was pushed exists (documented) *)
Theorem C12_forcecas_no_restore :
  forall inn pushed layers, copy_into true inn pushed layers = fpush_layers fstore_empty pushed.
Proof. reflexivity. Qed.
Print Assumptions C12_forcecas_no_restore.

(* IgnoreNoName before the fix (model copy_into_prefix): Store.Push returned on errSkipUnnamed
   before restoreDuplicates, the second name stayed missing.
   Finding "duplicate-not-restored-ignorenoname", fixed in the repository. *)
Theorem C12_same_bytes_ignorenoname_refuted :
  exists pushed layers,
    NoDup (map fst layers) /\ (forall n d, In (n, d) layers -> n <> []) /\
    incl pushed layers /\ NoDup (map fst pushed) /\
    (forall n d, In (n, d) layers -> In d (map snd pushed)) /\
    exists n d, In (n, d) layers /\
      name_lookup (s_names (copy_into_prefix false true pushed layers)) n = None.
Proof. exact ignorenoname_refuted. Qed.
Print Assumptions C12_same_bytes_ignorenoname_refuted.

(* non-vacuity: a tree with nesting, an empty directory, an empty file, a long-ish name and
   relative links (one dangling, one to the parent directory) meets the hypotheses *)
Definition C12_example_tree : tree :=
  Dir 493 7 [ (b "z", File (b "zz") 2541 1);
              (b "sub", Dir 1472 2 [ (b "empty", Dir 1023 3 []);
                                    (b "e", File [] 256 4);
                                    (b "up", Link (b "../z") 5);
                                    (b "self", Link (b "..") 6) ]);
              (b "a-rather-long-name.with.dots", Link (b "sub/missing") 8) ].

Example C12_nonvacuous :
  is_dir C12_example_tree = true /\ wf_treeb C12_example_tree = true /\
  modes_okb C12_example_tree = true /\ benign_tree [b "d"] C12_example_tree = true /\
  map e_name (tar_entries [b "d"] true C12_example_tree) =
    [ [b "d"]; [b "d"; b "a-rather-long-name.with.dots"]; [b "d"; b "sub"]; [b "d"; b "sub"; b "e"];
      [b "d"; b "sub"; b "empty"]; [b "d"; b "sub"; b "self"]; [b "d"; b "sub"; b "up"]; [b "d"; b "z"] ].
Proof. vm_compute. repeat split; reflexivity. Qed.

Example C12_nonvacuous_roundtrip :
  exists f', extract [b "d"] 18 false (tar_entries [b "d"] true C12_example_tree) = Ok f' /\
    fs_lookup f' [] = Some (NDir 493) /\ fs_lookup f' [b "sub"] = Some (NDir 1472) /\
    fs_lookup f' [b "sub"; b "empty"] = Some (NDir 1005) /\ fs_lookup f' [b "z"] = Some (NFile (b "zz") 2541) /\
    fs_lookup f' [b "sub"; b "up"] = Some (NLink (b "../z")) /\ fs_lookup f' [b "nothing"] = None.
Proof. eexists. vm_compute. repeat split; reflexivity. Qed.

(* a target that leaves the base and comes back through its own name is inside (for that name) *)
Example C12_out_and_back_in :
  let T := Dir 493 0 [(b "f", File (b "x") 420 0); (b "l", Link (b "../d/f") 0)] in
  benign_tree [b "d"] T = true /\ benign_tree [b "e"] T = false.
Proof. exact out_and_back_in_accepted. Qed.

Example C12_nonvacuous_listing :
  same_tree (Dir 493 0 [(b "b", File [] 420 0); (b "a", Link (b "b") 0)])
            (Dir 493 0 [(b "a", Link (b "b") 0); (b "b", File [] 420 0)]).
Proof.
  eapply st_dir; [|apply perm_swap].
  repeat constructor.
Qed.

Example C12_nonvacuous_machine :
  name_lookup (s_names (copy_into false true [(b "a", 1%nat)] [(b "a", 1%nat); (b "b", 1%nat)])) (b "b") = Some 1%nat.
Proof. vm_compute. reflexivity. Qed.
