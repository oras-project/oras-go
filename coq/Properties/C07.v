(* C07 -- Predecessors is exact for every push order, after deletes, GC and reopen.
   Statements; the lemmas are in Proofs/GraphMem.v and the Proofs files of the store layers
   (witnesses and examples are evaluated here), the executable model of
   internal/graph/memory.go in Model/GraphMem.v.

   Reading guide.  [node] is a descriptor key (media type, digest, size).
   [content n] is what content.Successors returns for n (config, layers, blobs,
   manifests, subject; ordered, duplicates kept) -- a function of the key because
   the bytes are addressed by the digest and parsed according to the media type.
   [sok n] says whether content.Successors succeeds for n (non-manifests: always;
   manifests: iff the storage holds the bytes).  Both are universally quantified
   parameters of the theorems (Section variables in the proofs): nothing is assumed
   about SHA-256 or JSON. *)
From Coq Require Import List NArith Bool Permutation.
Import ListNotations.
From Oras Require Import Base.Prelude Generated.GC07 Model.GraphMem Model.GraphStore Model.IndexLTS Model.StoreLTS Model.IndexAllLTS Model.GraphMemSrc Model.Links Proofs.GraphMem Proofs.StoreLTS Proofs.IndexAllLTS Proofs.Links Proofs.GraphStore Proofs.IndexLTS.

(* The invariants written in the comments of graph.Memory hold after every history of
   Index / Remove / IndexAll / fresh-graph operations, with content appearing in and
   disappearing from the fetcher at any time, re-index after remove included. *)
Theorem C07_inv :
  forall (ct : amap) (fuel : nat) (ops : list op),
    Inv (ctab ct) (s_g (fst (run ct fuel init_state ops))).
Proof. exact history_inv. Qed.
Print Assumptions C07_inv.

(* the statement order of graph.Memory.index / Remove / Predecessors that Model/GraphMem.v
   mirrors (Successors before the lock, the whole update under the lock, entry deleted when it
   becomes empty, ...) is the one in internal/graph/memory.go as re-read on this run *)
Theorem C07_graphmem_source_shape_src : graphmem_source_shape = true.
Proof. vm_compute. reflexivity. Qed.
Print Assumptions C07_graphmem_source_shape_src.

(* Under the invariant, Predecessors(n) is exactly -- no omission, no extra, no
   duplicate -- the set of nodes in the memory whose successors contain n, whether or
   not n itself is in the memory; and no returned descriptor is a zero descriptor. *)
Theorem C07_exact :
  forall (content : node -> list node) (g : graph), Inv content g ->
  forall n,
    NoDup (predecessors g n) /\
    (forall p, In p (predecessors g n) <-> In p (g_nodes g) /\ In n (content p)) /\
    predecessors_raw g n = map Some (predecessors g n).
Proof. exact exact_full. Qed.
Print Assumptions C07_exact.

(* "... whose config, layers, blobs, manifests or subject reference n": with [content] the
   model of content.Successors on a document ([successors_of], run against the real function
   on every run), Predecessors(n) is exactly the nodes in memory that reference n as subject,
   config, layer, listed manifest or blob -- as their media type makes the code read them
   (a Docker manifest's subject, an index's layers ... are not references). *)
Theorem C07_links_exact :
  forall (doc : node -> mdoc) (g : graph),
    Inv (fun p => successors_of (doc p)) g ->
    forall n, NoDup (predecessors g n) /\
              forall p, In p (predecessors g n) <-> In p (g_nodes g) /\ link (doc p) n.
Proof. exact links_exact. Qed.
Print Assumptions C07_links_exact.

(* C07_inv and C07_exact together, for the machine that is extracted and run against the Go
   code: after any history every query is exact. *)
Theorem C07_history_query :
  forall ct fuel ops n,
    let g := s_g (fst (run ct fuel init_state ops)) in
    predecessors_raw g n = map Some (predecessors g n) /\
    NoDup (predecessors g n) /\
    forall p, In p (predecessors g n) <-> In p (g_nodes g) /\ In n (ctab ct p).
Proof. exact history_query. Qed.
Print Assumptions C07_history_query.

(* Store level: Push = storage push + index, Delete = Remove + storage delete.  After
   any sequence of pushes and deletes (any order, parents before children, repeated,
   deleted and pushed again) Predecessors(n) = the stored nodes referencing n, where
   "stored" is the obvious set semantics of the history ([stored_after_snoc]). *)
Theorem C07_push_delete_exact :
  forall (content : node -> list node) (ops : list sop) (n : node),
    let g := fold_left (sop_apply content) ops empty_graph in
    NoDup (predecessors g n) /\
    forall p, In p (predecessors g n) <-> In p (stored_after ops) /\ In n (content p).
Proof. exact push_delete_exact. Qed.
Print Assumptions C07_push_delete_exact.

Theorem C07_stored_after_spec :
  forall ops o x,
    In x (stored_after (ops ++ [o])) <->
    match o with
    | SPush n => x = n \/ In x (stored_after ops)
    | SDelete n => x <> n /\ In x (stored_after ops)
    end.
Proof. exact stored_after_snoc. Qed.
Print Assumptions C07_stored_after_spec.

(* Any permutation of a push list (children first, parents first, any interleaving of
   concurrent pushes: index() runs under the graph lock) gives the same node set and
   the same predecessor sets. *)
Theorem C07_order_independent :
  forall (content : node -> list node) (l1 l2 : list node),
    Permutation l1 l2 ->
    (forall x, In x (g_nodes (pushes content l1)) <-> In x (g_nodes (pushes content l2))) /\
    forall n, Permutation (predecessors (pushes content l1) n) (predecessors (pushes content l2) n).
Proof. exact push_order_independent. Qed.
Print Assumptions C07_order_independent.

(* Remove keeps the invariant and returns as danglings exactly the nodes in the memory
   that lost their last predecessor, each once -- for every order in which Go iterates
   over the successor set. *)
Theorem C07_remove_danglings :
  forall (content : node -> list node) (g : graph) (n : node) (order : list node),
    Inv content g -> Permutation order (getd (g_succs g) n) ->
    Inv content (fst (remove_ord g n order)) /\
    NoDup (snd (remove_ord g n order)) /\
    forall d, In d (snd (remove_ord g n order)) <->
              (In n (g_nodes g) /\ In d (content n) /\ In d (g_nodes g) /\
               forall p, In p (g_nodes g) -> In d (content p) -> p = n).
Proof. exact remove_danglings_full. Qed.
Print Assumptions C07_remove_danglings.

Theorem C07_remove_order_irrelevant :
  forall (content : node -> list node) (g : graph) (n : node) (o1 o2 : list node),
    Inv content g ->
    Permutation o1 (getd (g_succs g) n) -> Permutation o2 (getd (g_succs g) n) ->
    (forall x, In x (g_nodes (fst (remove_ord g n o1))) <-> In x (g_nodes (fst (remove_ord g n o2)))) /\
    (forall m, Permutation (predecessors (fst (remove_ord g n o1)) m)
                           (predecessors (fst (remove_ord g n o2)) m)) /\
    Permutation (snd (remove_ord g n o1)) (snd (remove_ord g n o2)).
Proof. exact remove_order_irrelevant. Qed.
Print Assumptions C07_remove_order_irrelevant.

(* ... and over whole histories: attach to EVERY Remove of a history an arbitrary iteration
   order of Go's map (any duplicate-free list with the members of the successor set).  The
   invariant holds, the final node set and every Predecessors answer are those of the model's
   own order, and every output along the way (danglings, query answers) is the same up to the
   order inside the set.  (The history-level form of C07_remove_order_irrelevant.) *)
Theorem C07_history_any_map_order :
  forall (ct : amap) (fuel : nat) (ops : list (op * list node)),
    let r1 := run_orders ct fuel init_state ops in
    let r2 := run ct fuel init_state (map fst ops) in
    Inv (ctab ct) (s_g (fst r1)) /\
    (forall x, In x (g_nodes (s_g (fst r1))) <-> In x (g_nodes (s_g (fst r2)))) /\
    (forall n, Permutation (predecessors (s_g (fst r1)) n) (predecessors (s_g (fst r2)) n)) /\
    Forall2 out_equiv (snd r1) (snd r2).
Proof. exact history_any_map_order. Qed.
Print Assumptions C07_history_any_map_order.

(* loadIndex (reopen from a directory, an fs.FS, a tar archive) and gcIndex build a
   fresh graph by IndexAll over a root list.  The result holds exactly the nodes
   reachable from the roots through nodes whose Successors succeed, and its
   Predecessors are exact with respect to that set. *)
Theorem C07_reload_exact :
  forall (content : node -> list node) (sok : node -> bool) fuel roots g',
    load content sok fuel roots = (g', true) ->
    (forall x, In x (g_nodes g') <-> exists r, In r roots /\ areach content sok r x) /\
    forall n, NoDup (predecessors g' n) /\
              forall p, In p (predecessors g' n) <->
                        (exists r, In r roots /\ areach content sok r p) /\ In n (content p).
Proof. exact load_exact. Qed.
Print Assumptions C07_reload_exact.

(* IndexAll as it really runs (Model/IndexAllLTS.v): one task per descriptor, started
   concurrently, each doing "commit in the tracker" and "index + start a task per successor"
   as two atomic actions.  EVERY schedule that runs to completion indexes exactly the nodes
   reachable from the root through fetchable nodes and keeps the invariant ... *)
Theorem C07_indexall_every_schedule :
  forall (content : node -> list node) (sok : node -> bool) g r trace st',
    Inv content g ->
    ia_run content sok (ia_init g r) trace = Some st' -> ia_done st' = true ->
    Inv content (ia_g st') /\
    forall x, In x (g_nodes (ia_g st')) <-> In x (g_nodes g) \/ areach content sok r x.
Proof. exact ia_complete. Qed.
Print Assumptions C07_indexall_every_schedule.

(* ... so it answers every Predecessors query like the sequential work-list [index_all] that
   the reload theorems are stated about *)
Theorem C07_indexall_schedule_irrelevant :
  forall (content : node -> list node) (sok : node -> bool) g r trace st' fuel g',
    Inv content g ->
    ia_run content sok (ia_init g r) trace = Some st' -> ia_done st' = true ->
    index_all_root content sok fuel g r = (g', true) ->
    (forall x, In x (g_nodes (ia_g st')) <-> In x (g_nodes g')) /\
    forall n, Permutation (predecessors (ia_g st') n) (predecessors g' n).
Proof. exact ia_same_as_sequential. Qed.
Print Assumptions C07_indexall_schedule_irrelevant.

(* the two actions of a task and their order are those of graph.Memory.IndexAll as re-read on this run *)
Theorem C07_indexall_task_order_src : indexall_task_order = true.
Proof. vm_compute. reflexivity. Qed.
Print Assumptions C07_indexall_task_order_src.

Example C07_indexall_schedule_example :
  exists st', ia_run (ctab ia_ct) (fun _ => true) (ia_init empty_graph 3%N)
                [EvCommit 0; EvIndex 0; EvCommit 1; EvCommit 0; EvIndex 1; EvIndex 0;
                 EvCommit 1; EvCommit 0; EvIndex 0] = Some st' /\
              ia_done st' = true /\ predecessors (ia_g st') 1%N = [2; 3]%N.
Proof. eexists. vm_compute. repeat split. Qed.

(* Reopen: if the storage holds exactly the live graph's nodes and every live node
   with successors is listed as a root (OCI: every stored manifest is tagged by its
   digest and therefore in index.json -- the store invariant of C08), the reloaded
   graph answers every Predecessors query like the live one. *)
Theorem C07_reload_equiv :
  forall (content : node -> list node) (sok : node -> bool) fuel roots g g',
    Inv content g ->
    (forall p, In p (g_nodes g) -> sok p = true) ->
    (forall p, sok p = true -> content p <> [] -> In p (g_nodes g)) ->
    (forall p, In p (g_nodes g) -> content p <> [] -> In p roots) ->
    load content sok fuel roots = (g', true) ->
    forall n, Permutation (predecessors g' n) (predecessors g n).
Proof. exact reload_equiv. Qed.
Print Assumptions C07_reload_equiv.

(* The root hypothesis cannot be dropped: a stored manifest that is not a root of
   index.json is lost by a reload.  This is the witness of the finding
   "gc-drops-nested-manifest" (known_findings.d/C07.json, corpus/C07): before the fix
   gcIndex removed the by-digest entry of manifests nested under a tagged root. *)
Theorem C07_reload_equiv_without_roots_refuted :
  exists content sok fuel roots g g' n,
    Inv content g /\
    (forall p, In p (g_nodes g) -> sok p = true) /\
    (forall p, sok p = true -> content p <> [] -> In p (g_nodes g)) /\
    load content sok fuel roots = (g', true) /\
    ~ Permutation (predecessors g' n) (predecessors g n).
Proof. exact reload_without_root_refuted. Qed.
Print Assumptions C07_reload_equiv_without_roots_refuted.

(* ---- file store (content/file.Store.Push = store the bytes, index, restore duplicated
   names; the first and the last step can fail or refuse, as the environment decides) ----
   After every history of pushes with any outcomes, Predecessors(n) is exactly the stored
   nodes referencing n -- for the order "index before restore" as re-read from file.go
   ([file_index_first] from Generated.GC07.calls_filePush). *)
Theorem C07_file_history_exact_src :
  forall (content : node -> list node) (ops : list fop) (n : node),
    let s := frun file_index_first content ops in
    NoDup (predecessors (f_graph s) n) /\
    forall p, In p (predecessors (f_graph s) n) <-> In p (f_blobs s) /\ In n (content p).
Proof. exact file_history_exact_src. Qed.
Print Assumptions C07_file_history_exact_src.

(* with the restore step before the index step (the code before the fix) a manifest whose
   duplicate cannot be restored is stored and never indexed (audit finding F1) *)
Theorem C07_file_restore_first_refuted :
  exists content ops n p,
    let s := frun false content ops in
    In p (f_blobs s) /\ In n (content p) /\ ~ In p (predecessors (f_graph s) n).
Proof. exact file_restore_first_refuted. Qed.
Print Assumptions C07_file_restore_first_refuted.

(* ---- OCI store level (Model/GraphStore.v: blobs on disk, the root list of
   index.json, graph.Memory) ----
   After every history of Push / Tag / Delete (a Delete with AutoGC is a sequence of
   such deletes) / GC (whatever referrers the subject walk and Go's map order keep) /
   reopen, Predecessors(n) is exactly the set of stored nodes whose successors contain
   n -- for the repaired gcIndex.  [isman] marks the five manifest media types; only
   they have successors. *)
Theorem C07_store_history_exact :
  forall (content : node -> list node) (isman : node -> bool) (rank : node -> nat),
    (forall p, content p <> [] -> isman p = true) ->
    (forall p c, In c (content p) -> (rank c < rank p)%nat) ->
    forall fuel ops n,
      let s := fst (orun true true true content isman fuel empty_store ops) in
      NoDup (predecessors (o_graph s) n) /\
      forall p, In p (predecessors (o_graph s) n) <-> In p (o_blobs s) /\ In n (content p).
Proof. exact store_history_exact. Qed.
Print Assumptions C07_store_history_exact.

(* the same for the position of saveIndex in Store.GC as re-read from content/oci/oci.go on
   this run ([gc_save_after_restore] is computed from Generated.GC07.calls_GC): this
   statement stops compiling when index.json is written before the digest references of
   the reachable manifests are restored *)
Theorem C07_store_history_exact_src :
  forall (content : node -> list node) (isman : node -> bool) (rank : node -> nat),
    (forall p, content p <> [] -> isman p = true) ->
    (forall p c, In c (content p) -> (rank c < rank p)%nat) ->
    forall fuel ops n,
      let s := fst (orun true gc_save_after_restore delete_reroots content isman fuel empty_store ops) in
      NoDup (predecessors (o_graph s) n) /\
      forall p, In p (predecessors (o_graph s) n) <-> In p (o_blobs s) /\ In n (content p).
Proof. exact store_history_exact_src. Qed.
Print Assumptions C07_store_history_exact_src.

(* Store.GC saving index.json BEFORE restoring those references ([orun true false false], i.e.
   without the re-rooting of dangling manifests in delete, which masks it): push 0,
   2 = manifest{0}, 3 = index{2}; tag 3; GC; reopen; delete 3; reopen: 2 is stored, references
   0, and Predecessors(0) omits it.  Without the reopen between GC and Delete the defect is
   masked ([C07_store_gc_save_early_masked]). *)
Theorem C07_store_gc_save_early_refuted :
  exists content isman fuel ops n p,
    (forall q, content q <> [] -> isman q = true) /\
    let r := orun true false false content isman fuel empty_store ops in
    snd r = true /\ In p (o_blobs (fst r)) /\ In n (content p) /\
    ~ In p (predecessors (o_graph (fst r)) n).
Proof. exact store_gc_save_early_refuted. Qed.
Print Assumptions C07_store_gc_save_early_refuted.

Example C07_store_gc_save_early_masked :
  let r := orun true false false (ctab pf_ct) pf_isman 50 empty_store pf_ops in
  snd r = true /\ predecessors (o_graph (fst r)) 0%N = [2%N].
Proof. exact store_gc_save_early_masked. Qed.

Example C07_store_history_fixed_example2 :
  let r := orun true true true (ctab pf_ct) pf_isman 50 empty_store pf_ops2 in
  snd r = true /\ o_blobs (fst r) = [2; 0]%N /\ predecessors (o_graph (fst r)) 0%N = [2%N].
Proof. exact store_history_fixed_example2. Qed.

(* [ops] may contain PForeign: the layout's index.json replaced from outside by one that lists
   only the tagged and top-level manifests (what other tools write), then reopened.
   C07_store_history_exact covers those histories because Store.delete gives a by-digest entry to every
   manifest that loses its last predecessor ([reroot = true], re-read from the source as
   [delete_reroots]).  Without it ([orun true true false]): push 0, 2 = manifest{0},
   3 = index{2}; tag 3; foreign index listing 3 only + reopen; delete 3; reopen: 2 is stored,
   references 0, Predecessors(0) omits it (audit finding F2; fixed by repo commit
   "fix: oci Delete keeps a dangling manifest listed in the index"). *)
Theorem C07_store_foreign_noreroot_refuted :
  exists content isman fuel ops n p,
    (forall q, content q <> [] -> isman q = true) /\
    let r := orun true true false content isman fuel empty_store ops in
    snd r = true /\ In p (o_blobs (fst r)) /\ In n (content p) /\
    ~ In p (predecessors (o_graph (fst r)) n).
Proof. exact store_foreign_noreroot_refuted. Qed.
Print Assumptions C07_store_foreign_noreroot_refuted.

Example C07_store_foreign_fixed_example :
  let r := orun true true true (ctab pf_ct) pf_isman 50 empty_store pf_ops3 in
  snd r = true /\ o_blobs (fst r) = [2; 0]%N /\ predecessors (o_graph (fst r)) 0%N = [2%N].
Proof. exact store_foreign_fixed_example. Qed.

(* the hypotheses of the store theorems hold for the example universe *)
Example C07_store_hyps_example :
  (forall q, ctab pf_ct q <> [] -> pf_isman q = true) /\
  (forall p c, In c (ctab pf_ct p) -> (N.to_nat c < N.to_nat p)%nat).
Proof. exact (conj pf_content_isman pf_rank_dec). Qed.

(* The store theorems take [fst] of [orun]: a GC / reopen that ran out of fuel is a no-op in
   the model.  That never hides a real step: with fuel above the size of any finite universe
   closed under [content] that contains the tagged entries of the resolver, the entries of
   index.json and the kept list of a GC, every step reports success (per step; audit F8).
   PForeign is left out by the premise: its guard may refuse. *)
Theorem C07_store_step_terminates :
  forall content isman U fuel fixed save_late reroot s o,
    (forall u, In u U -> forall c, In c (content u) -> In c U) ->
    (1 + pot content U [] < fuel)%nat ->
    (forall x, In x (o_tagged s) \/ In x (o_dtagged s) \/ In x (o_dbydigest s) -> In x U) ->
    match o with PGC kept => forall x, In x kept -> In x U | PForeign _ => False | _ => True end ->
    snd (ostep fixed save_late reroot content isman fuel s o) = true.
Proof. exact store_step_terminates. Qed.
Print Assumptions C07_store_step_terminates.

(* ---- AutoSaveIndex = false and SaveIndex ([arun]: the store model wrapped with the flag) ----
   Whatever the flag and wherever SaveIndex is called, Predecessors is exact after every
   history in which no layout is (re)opened from an index.json that was not saved
   ([snd r = true]: also no fuel exhaustion). *)
Theorem C07_store_autosave_exact :
  forall (content : node -> list node) (isman : node -> bool) (rank : node -> nat),
    (forall p, content p <> [] -> isman p = true) ->
    (forall p c, In c (content p) -> (rank c < rank p)%nat) ->
    forall fuel ops n,
      let r := arun content isman fuel empty_astore ops in
      snd r = true ->
      NoDup (predecessors (o_graph (a_s (fst r))) n) /\
      forall p, In p (predecessors (o_graph (a_s (fst r))) n) <->
                In p (o_blobs (a_s (fst r))) /\ In n (content p).
Proof. exact autosave_history_exact. Qed.
Print Assumptions C07_store_autosave_exact.

(* [arun]'s operation language includes the Push of a manifest whose bytes do not decode
   (ABadPush: storage.Push, graph.Index fails, the blob is removed again): C07_store_autosave_exact
   and C07_store_refines_spec cover histories containing it; it leaves no trace: *)
Example C07_store_bad_push_example :
  let ops1 := [AOp (PPush 0%N); AOp (PPush 2%N); ABadPush 9%N; AOp (PPush 3%N); AOp PReopen] in
  let ops2 := [AOp (PPush 0%N); AOp (PPush 2%N); AOp (PPush 3%N); AOp PReopen] in
  arun (ctab pf_ct) pf_isman 50 empty_astore ops1 = arun (ctab pf_ct) pf_isman 50 empty_astore ops2.
Proof. vm_compute. reflexivity. Qed.

(* the side condition is needed (and is the documented duty of the caller): AutoSaveIndex off,
   push, reopen without SaveIndex: the pushed manifest is on disk and not indexed *)
Theorem C07_store_unsaved_reopen_refuted :
  exists content isman fuel ops n p,
    (forall q, content q <> [] -> isman q = true) /\
    let r := arun content isman fuel empty_astore ops in
    snd r = false /\ In p (o_blobs (a_s (fst r))) /\ In n (content p) /\
    ~ In p (predecessors (o_graph (a_s (fst r))) n).
Proof.
  exists (ctab pf_ct), pf_isman, 50%nat, [ASetAuto false; AOp (PPush 0%N); AOp (PPush 2%N); AOp PReopen], 0%N, 2%N.
  split; [exact pf_content_isman|].
  vm_compute. repeat split; auto.
Qed.
Print Assumptions C07_store_unsaved_reopen_refuted.

Example C07_store_saved_reopen_example :
  let r := arun (ctab pf_ct) pf_isman 50 empty_astore
             [ASetAuto false; AOp (PPush 0%N); AOp (PPush 2%N); ASaveIndex; AOp PReopen] in
  snd r = true /\ predecessors (o_graph (a_s (fst r))) 0%N = [2%N].
Proof. vm_compute. repeat split. Qed.

(* ... and whole histories: with fuel above the size of a finite universe closed under
   [content] that contains every node the operations mention, no step of any history
   (without PForeign, whose guard may refuse) runs out of fuel. *)
Theorem C07_store_history_terminates :
  forall content isman U,
    (forall u, In u U -> forall c, In c (content u) -> In c U) ->
    forall fuel ops,
      (1 + pot content U [] < fuel)%nat -> Forall (op_in U) ops ->
      snd (orun true true true content isman fuel empty_store ops) = true.
Proof. exact store_history_terminates. Qed.
Print Assumptions C07_store_history_terminates.

(* ---- refinement of the specification, with tag names ----
   [spec_preds content blobs n] computes the answer from the stored set alone (the stored
   nodes whose successors contain n).  After every history of the full operation language --
   Push, Tag / Untag BY NAME (the model keeps the reference -> node map; a name that moves is
   taken from the node that had it), Delete, GC, reopen, foreign index, AutoSaveIndex on/off,
   SaveIndex -- the store's Predecessors is a permutation of it. *)
Theorem C07_store_refines_spec :
  forall (content : node -> list node) (isman : node -> bool) (rank : node -> nat),
    (forall p, content p <> [] -> isman p = true) ->
    (forall p c, In c (content p) -> (rank c < rank p)%nat) ->
    forall fuel ops n,
      let r := nrun content isman fuel ops in
      snd r = true ->
      Permutation (predecessors (o_graph (a_s (fst r))) n)
                  (spec_preds content (o_blobs (a_s (fst r))) n).
Proof.
  exact (fun content isman rank Hc Hr fuel ops =>
           autosave_refines_spec content isman rank Hc Hr fuel (translate [] ops)).
Qed.
Print Assumptions C07_store_refines_spec.

Example C07_store_names_example :
  let r := nrun (ctab pf_ct) pf_isman 50
             [NOp (AOp (PPush 0%N)); NOp (AOp (PPush 2%N)); NOp (AOp (PPush 3%N));
              NTag 2%N 7%N; NTag 3%N 7%N; NOp (AOp (PGC []))] in
  snd r = true /\ o_tagged (a_s (fst r)) = [3%N] /\ predecessors (o_graph (a_s (fst r))) 0%N = [2%N].
Proof. vm_compute. repeat split. Qed.

(* Scope: [ops] are operations that COMPLETE.  An operation aborted by the environment
   half-way is not covered, and the statement is false there: a Delete whose unlink fails
   after Untag / graph.Remove / saveIndex (EPERM, open handle on NTFS) leaves the blob stored
   and un-indexed.  Declared out of scope (assumptions in bin/props.d/C07.py; audit F3). *)
Theorem C07_store_delete_error_refuted :
  exists content isman ops n p,
    (forall q, content q <> [] -> isman q = true) /\
    let s := delete_unlink_fails content isman
               (fst (orun true true true content isman 50 empty_store ops)) p in
    In p (o_blobs s) /\ In n (content p) /\ ~ In p (predecessors (o_graph s) n).
Proof.
  exists (ctab pf_ct), pf_isman, [PPush 0%N; PPush 2%N], 0%N, 2%N.
  split; [exact pf_content_isman|].
  vm_compute. repeat split; auto.
Qed.
Print Assumptions C07_store_delete_error_refuted.

(* closing the layout and opening it again (directory, fs.FS, tar: the same loadIndex)
   changes neither the stored set nor any Predecessors answer *)
Theorem C07_store_reopen_same :
  forall (content : node -> list node) (isman : node -> bool) (rank : node -> nat),
    (forall p, content p <> [] -> isman p = true) ->
    (forall p c, In c (content p) -> (rank c < rank p)%nat) ->
    forall fuel ops s',
      let s := fst (orun true true true content isman fuel empty_store ops) in
      ostep true true true content isman fuel s PReopen = (s', true) ->
      o_blobs s' = o_blobs s /\
      forall n, Permutation (predecessors (o_graph s') n) (predecessors (o_graph s) n).
Proof. exact store_reopen_same. Qed.
Print Assumptions C07_store_reopen_same.

(* C07_store_history_exact is false for gcIndex as it was before the repair
   ([orun false true false], likewise without the re-rooting in delete): push 0,
   2 = manifest{0}, 3 = index{2}; tag 3; GC; delete 3; reopen: 2 is stored and references 0,
   Predecessors(0) omits it.  Replayed on the real store: corpus/C07/gc-drops-nested-manifest.json. *)
Theorem C07_store_history_exact_prefix_refuted :
  exists content isman fuel ops n p,
    (forall q, content q <> [] -> isman q = true) /\
    let r := orun false true false content isman fuel empty_store ops in
    snd r = true /\ In p (o_blobs (fst r)) /\ In n (content p) /\
    ~ In p (predecessors (o_graph (fst r)) n).
Proof.
  exists (ctab pf_ct), pf_isman, 50%nat, pf_ops, 0%N, 2%N.
  split; [exact pf_content_isman|].
  vm_compute. repeat split; auto.
Qed.
Print Assumptions C07_store_history_exact_prefix_refuted.

Example C07_store_history_fixed_example :
  let r := orun true true true (ctab pf_ct) pf_isman 50 empty_store pf_ops in
  snd r = true /\ o_blobs (fst r) = [2; 0]%N /\ predecessors (o_graph (fst r)) 0%N = [2%N].
Proof. vm_compute. repeat split. Qed.

(* ---- persistence of the index under concurrency (Model/IndexLTS.v) ----
   Concurrent Push / Tag / Untag each do: storage+graph step, resolver update, saveIndex.
   With saveIndex atomic w.r.t. its snapshot of the resolver map (snapshot and write under
   indexLock, the code as it is), for EVERY interleaving that runs all operations to
   completion the index.json on disk is the final resolver map. *)
Theorem C07_save_index_atomic_quiescent :
  forall res acts trace s',
    lrun true (linit res acts) trace = Some s' -> all_done s' = true ->
    l_disk s' = l_res s'.
Proof. exact save_index_atomic_quiescent. Qed.
Print Assumptions C07_save_index_atomic_quiescent.

(* the same for the critical section of Store.saveIndex as re-read from content/oci/oci.go on
   this run ([save_index_atomic] is computed from Generated.GC07.calls_saveIndex): this is the
   statement that stops compiling when the snapshot moves out of the lock *)
Theorem C07_save_index_quiescent_src :
  forall res acts trace s',
    lrun save_index_atomic (linit res acts) trace = Some s' -> all_done s' = true ->
    l_disk s' = l_res s'.
Proof. exact save_index_quiescent_src. Qed.
Print Assumptions C07_save_index_quiescent_src.

(* hence a store reopened from that index.json answers every Predecessors query like the
   live graph *)
Theorem C07_concurrent_save_then_reload :
  forall content sok fuel res acts trace s' g g',
    lrun true (linit res acts) trace = Some s' -> all_done s' = true ->
    Inv content g ->
    (forall p, In p (g_nodes g) -> sok p = true) ->
    (forall p, sok p = true -> content p <> [] -> In p (g_nodes g)) ->
    (forall p, In p (g_nodes g) -> content p <> [] -> In p (l_res s')) ->
    load content sok fuel (l_disk s') = (g', true) ->
    forall n, Permutation (predecessors g' n) (predecessors g n).
Proof. exact concurrent_save_then_reload. Qed.
Print Assumptions C07_concurrent_save_then_reload.

(* With the critical section narrowed to the write (snapshot outside indexLock) two
   concurrent pushes can leave a resolver entry out of index.json: the older snapshot is
   written last.  (The harness's "burst" stream looks for exactly this on the real store.) *)
Theorem C07_save_index_split_refuted :
  exists res acts trace s',
    lrun false (linit res acts) trace = Some s' /\ all_done s' = true /\
    exists e, In e (l_res s') /\ ~ In e (l_disk s').
Proof.
  exists [], [ActAdd 1%N; ActAdd 2%N], [0; 0; 0; 1; 1; 1; 1; 0]%nat.
  eexists. split; [vm_compute; reflexivity|]. split; [reflexivity|].
  exists 2%N. simpl. split; [auto|]. intros [H|[]]. discriminate.
Qed.
Print Assumptions C07_save_index_split_refuted.

Example C07_save_index_atomic_example :
  exists s', lrun true (linit [] [ActAdd 1%N; ActAdd 2%N]) [0; 0; 1; 1; 1; 0]%nat = Some s' /\
             all_done s' = true /\ l_disk s' = [2; 1]%N.
Proof. eexists. vm_compute. repeat split. Qed.

(* ---- the whole store under concurrency (Model/StoreLTS.v) ----
   Push = storage.Push, graph.Index, tag by digest, saveIndex; Tag = Exists, tag by digest, tag
   by name, saveIndex; Untag = untag, saveIndex: each an atomic step; Delete / GC / reopen /
   foreign index run exclusively (Store.sync.Lock).  For EVERY interleaving of these steps
   (any number of operations, after any earlier history [ops0]), once every operation has
   returned, Predecessors(n) is exactly the stored nodes referencing n ... *)
Theorem C07_concurrent_quiescent_exact :
  forall (content : node -> list node) (isman : node -> bool) (rank : node -> nat),
    (forall p, content p <> [] -> isman p = true) ->
    (forall p c, In c (content p) -> (rank c < rank p)%nat) ->
    forall fuel ops0 cops trace st' n,
      let s0 := fst (orun true true true content isman fuel empty_store ops0) in
      crun content isman fuel (cinit s0 cops) trace = Some st' -> call_done st' = true ->
      NoDup (predecessors (o_graph (c_s st')) n) /\
      forall p, In p (predecessors (o_graph (c_s st')) n) <->
                In p (o_blobs (c_s st')) /\ In n (content p).
Proof. exact concurrent_quiescent_exact. Qed.
Print Assumptions C07_concurrent_quiescent_exact.

(* ... and a reopen of the layout at that point changes no answer.  (This discharges, for
   Push/Tag/Untag, the hypothesis "every live manifest has its resolver entry" that
   C07_concurrent_save_then_reload assumes.) *)
Theorem C07_concurrent_quiescent_reopen :
  forall (content : node -> list node) (isman : node -> bool) (rank : node -> nat),
    (forall p, content p <> [] -> isman p = true) ->
    (forall p c, In c (content p) -> (rank c < rank p)%nat) ->
    forall fuel ops0 cops trace st' s'',
      let s0 := fst (orun true true true content isman fuel empty_store ops0) in
      crun content isman fuel (cinit s0 cops) trace = Some st' -> call_done st' = true ->
      ostep true true true content isman fuel (c_s st') PReopen = (s'', true) ->
      o_blobs s'' = o_blobs (c_s st') /\
      forall n, Permutation (predecessors (o_graph s'') n) (predecessors (o_graph (c_s st')) n).
Proof. exact concurrent_quiescent_reopen. Qed.
Print Assumptions C07_concurrent_quiescent_reopen.

(* At EVERY reachable state of every interleaving (operations still in flight): no extra and
   no duplicate answer; a stored node referencing n can be missing only while its own Push is
   between storage.Push and graph.Index ("does not necessarily correspond to any consistent
   snapshot" in the doc comment is exactly this window and nothing more). *)
Theorem C07_concurrent_anytime :
  forall (content : node -> list node) (isman : node -> bool) (rank : node -> nat),
    (forall p, content p <> [] -> isman p = true) ->
    (forall p c, In c (content p) -> (rank c < rank p)%nat) ->
    forall fuel ops0 cops trace st' n,
      let s0 := fst (orun true true true content isman fuel empty_store ops0) in
      crun content isman fuel (cinit s0 cops) trace = Some st' ->
      NoDup (predecessors (o_graph (c_s st')) n) /\
      (forall p, In p (predecessors (o_graph (c_s st')) n) ->
                 In p (o_blobs (c_s st')) /\ In n (content p)) /\
      (forall p, In p (o_blobs (c_s st')) -> In n (content p) ->
                 In p (predecessors (o_graph (c_s st')) n) \/
                 existsb (p_push1 p) (c_threads st') = true).
Proof. exact concurrent_anytime. Qed.
Print Assumptions C07_concurrent_anytime.

(* the step order of Model/StoreLTS.v is the call order of Store.Push / tag / Tag / Untag in
   content/oci/oci.go as re-read on this run *)
Theorem C07_oci_step_order_src : oci_step_order = true.
Proof. vm_compute. reflexivity. Qed.
Print Assumptions C07_oci_step_order_src.

Example C07_concurrent_example :
  exists st', crun (ctab lts_ct) lts_isman 50 (cinit empty_store lts_ops) lts_trace = Some st' /\
              call_done st' = true /\ o_blobs (c_s st') = [2; 0]%N /\
              predecessors (o_graph (c_s st')) 0%N = [2%N].
Proof. eexists. vm_compute. repeat split. Qed.

(* IndexAll / loadIndex / gcIndex terminate: for every finite universe closed under
   [content] and containing the roots (any shape, cycles included) some fuel completes
   the traversal, so [ok = true] above excludes no reachable situation. *)
Theorem C07_reload_terminates :
  forall (content : node -> list node) (sok : node -> bool) (U roots : list node),
    (forall u, In u U -> forall c, In c (content u) -> In c U) ->
    (forall r, In r roots -> In r U) ->
    exists fuel g', load content sok fuel roots = (g', true).
Proof. exact load_terminates. Qed.
Print Assumptions C07_reload_terminates.

(* ---- the hypotheses are satisfiable: a concrete instance ----
   0,1 blobs; 2 = manifest{config 0, layers 1,1}; 3 = index{2}; 4 = referrer{subject 2, blob 1} *)
Definition ex_ct : amap := [(2, [0;1;1]); (3, [2]); (4, [2;1])]%N.
Definition ex_ops : list op :=
  [OSok 0 true; OSok 1 true; OSok 2 true; OSok 3 true; OSok 4 true;
   OIndex 3; OIndex 4; OIndex 2; OIndex 1; OIndex 0; ORemove 3; OQuery 2; OQuery 1]%N.

(* an order other than the model's is really taken: the danglings come out reversed *)
Example C07_map_order_example :
  snd (run_orders ex_ct 100 init_state
         [(OSok 0 true, []); (OSok 1 true, []); (OSok 2 true, []);
          (OIndex 0, []); (OIndex 1, []); (OIndex 2, []); (ORemove 2, [0; 1])]%N) =
    [RNone; RNone; RNone; ROk; ROk; ROk; RDang [0; 1]%N] /\
  snd (run ex_ct 100 init_state
         [OSok 0 true; OSok 1 true; OSok 2 true; OIndex 0; OIndex 1; OIndex 2; ORemove 2]%N) =
    [RNone; RNone; RNone; ROk; ROk; ROk; RDang [1; 0]%N].
Proof. vm_compute. split; reflexivity. Qed.

Example C07_example_history :
  snd (run ex_ct 100 init_state ex_ops) =
  [RNone; RNone; RNone; RNone; RNone; ROk; ROk; ROk; ROk; ROk; RDang [];
   RPreds [Some 4%N]; RPreds [Some 2%N; Some 4%N]].
Proof. vm_compute. reflexivity. Qed.

Example C07_example_danglings :
  snd (remove (pushes (ctab ex_ct) [0;1;2;3]%N) 3%N) = [2%N].
Proof. vm_compute. reflexivity. Qed.

Definition ex_live : graph := pushes (ctab ex_ct) [3; 0; 4; 2; 1]%N.
Definition ex_sok (x : node) : bool := N.leb x 4.

Example C07_example_reload :
  exists g', load (ctab ex_ct) ex_sok 100 [4; 2; 3]%N = (g', true) /\
             predecessors g' 2%N = [3; 4]%N /\ predecessors ex_live 2%N = [4; 3]%N.
Proof. eexists. vm_compute. repeat split. Qed.

Example C07_example_reload_hyps :
  Inv (ctab ex_ct) ex_live /\
  (forall p, In p (g_nodes ex_live) -> ex_sok p = true) /\
  (forall p, In p (g_nodes ex_live) -> ctab ex_ct p <> [] -> In p [4; 2; 3]%N).
Proof.
  split; [apply pushes_Inv, Inv_empty|]. split.
  - vm_compute. intros p H. repeat (destruct H as [<-|H]; [reflexivity|]). destruct H.
  - intros p _ Hne. apply ctab_nonempty in Hne. vm_compute in *. tauto.
Qed.

(* ... and the remaining hypothesis of C07_reload_equiv: every fetchable manifest is live *)
Example C07_example_reload_hyp_storage :
  forall p, ex_sok p = true -> ctab ex_ct p <> [] -> In p (g_nodes ex_live).
Proof.
  intros p _ Hne. apply ctab_nonempty in Hne. vm_compute in *. tauto.
Qed.
