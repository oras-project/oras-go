(* C06 -- the built-in Targets behave as a content map plus a reference -> descriptor map. The
   theorems are closed by [exact] of a lemma or by a line or two from a more general one, the
   examples by evaluation; the lemmas live in Proofs/Stores*.v, the executable models (memory,
   OCI layout and file store, abstract specifications) in Model/Stores*.v. *)
From Oras Require Import Base.Prelude Generated.GC06 Model.Stores Model.StoresFileSpec Model.StoresFileLimit Model.StoresConc Model.StoresConcOci Model.StoresConcFile
     Proofs.Stores Proofs.StoresConc Proofs.StoresConcOci Proofs.StoresConcOci2 Proofs.StoresConcFile Proofs.StoresFile Proofs.StoresConcFileGraph Proofs.StoresConcReads Proofs.StoresFileSpec Proofs.StoresFileLimit.
From Coq Require Import Permutation.

(* For every history, the memory store (cas.Memory + resolver.Memory + graph.Memory)
   answers exactly like the content map + tag map, and its content/tag maps are the
   specification's (predecessor lists compared as sets). *)
Theorem C06_refines_memory : forall h : list op,
  mem_abs (fst (run mem_step mem_init h)) = fst (run mspec_step mspec_init h) /\
  Forall2 out_equiv (snd (run mem_step mem_init h)) (snd (run mspec_step mspec_init h)).
Proof. exact refines_memory. Qed.
Print Assumptions C06_refines_memory.

(* The same for the OCI layout store (blob files by digest + resolver with the implicit
   tag-by-digest + graph, Untag, Delete without AutoGC, Tags), for every history over a
   universe U in which content is pushed and deleted under the universe's descriptor of
   its digest, and a Tag whose descriptor has a manifest media type uses that descriptor too
   ([canon_op]); Fetch, Exists, Predecessors and a Tag with any other media type may use any
   descriptor of the digest, e.g. the application/octet-stream one Resolve(<digest>) hands out. *)
Theorem C06_refines_oci : forall U : N -> gkey,
  (forall g, k_dig (U g) = g) ->
  forall h : list op, Forall (canon_op U) h ->
  oci_abs (fst (run oci_step oci_init h)) = fst (run (ospec_step U) ospec_init h) /\
  Forall2 out_equiv (snd (run oci_step oci_init h)) (snd (run (ospec_step U) ospec_init h)).
Proof. exact refines_oci. Qed.
Print Assumptions C06_refines_oci.

(* A refused or failed operation leaves the whole concrete state (content, tags,
   resolver tag sets, graph) literally unchanged, after any history. *)
Theorem C06_failed_noop_memory : forall (h : list op) (o : op),
  let s := fst (run mem_step mem_init h) in
  is_err (snd (mem_step s o)) = true -> fst (mem_step s o) = s.
Proof. exact failed_noop_memory. Qed.
Print Assumptions C06_failed_noop_memory.

Theorem C06_failed_noop_oci : forall U : N -> gkey,
  (forall g, k_dig (U g) = g) ->
  forall (h : list op) (o : op), Forall (canon_op U) h ->
  let s := fst (run oci_step oci_init h) in
  is_err (snd (oci_step s o)) = true -> fst (oci_step s o) = s.
Proof. exact failed_noop_oci. Qed.
Print Assumptions C06_failed_noop_oci.

(* ---- the clauses of the property, for every history ---- *)

(* memory: after a successful Push, whatever happens next, Fetch of that descriptor
   returns exactly the pushed bytes (whose hash and length are the descriptor's), and
   pushing it again is refused with already-exists and changes nothing *)
Theorem C06_fetch_returns_pushed_memory : forall s d c h2 d',
  snd (mem_step s (Push d c)) = OOk -> gk d' = gk d ->
  let s2 := fst (run mem_step (fst (mem_step s (Push d c))) h2) in
  snd (mem_step s2 (Fetch d')) = OBytes (b_hash c) (b_len c) /\
  b_hash c = d_dig d /\ b_len c = d_size d /\
  forall c', mem_step s2 (Push d' c') = (s2, OErr EAlreadyExists).
Proof. exact mem_fetch_returns_pushed. Qed.
Print Assumptions C06_fetch_returns_pushed_memory.

(* memory: Resolve returns the descriptor most recently tagged *)
Theorem C06_resolve_latest_memory : forall s d r h2,
  snd (mem_step s (Tag d r)) = OOk -> forallb (fun o => negb (tags_ref r o)) h2 = true ->
  snd (mem_step (fst (run mem_step (fst (mem_step s (Tag d r))) h2)) (Resolve r)) = ODesc d.
Proof. exact mem_resolve_latest. Qed.
Print Assumptions C06_resolve_latest_memory.

(* memory: a key under which the history has no Push at all, successful or refused, is absent;
   fetching or tagging it is not-found *)
Theorem C06_absent_notfound_memory : forall h k,
  (forall d c, In (Push d c) h -> gk d <> k) ->
  let s := fst (run mem_step mem_init h) in
  get gkey_eqb k (m_cas s) = None /\
  forall d r, gk d = k -> snd (mem_step s (Fetch d)) = OErr ENotFound /\
                          snd (mem_step s (Tag d r)) = OErr ENotFound /\
                          snd (mem_step s (Exists d)) = OBool false.
Proof. exact mem_never_pushed_absent. Qed.
Print Assumptions C06_absent_notfound_memory.

(* OCI: the same until the content is deleted *)
Theorem C06_fetch_returns_pushed_oci : forall s d c h2 d',
  snd (oci_step s (Push d c)) = OOk -> d_dig d' = d_dig d ->
  forallb (fun o => negb (deletes_dig (d_dig d) o)) h2 = true ->
  let s2 := fst (run oci_step (fst (oci_step s (Push d c))) h2) in
  snd (oci_step s2 (Fetch d')) = OBytes (b_hash c) (b_len c) /\
  b_hash c = d_dig d /\ b_len c = d_size d /\
  forall c', oci_step s2 (Push d' c') = (s2, OErr EAlreadyExists).
Proof. exact oci_fetch_returns_pushed. Qed.
Print Assumptions C06_fetch_returns_pushed_oci.

(* OCI: a name resolves to the descriptor most recently tagged (full descriptor,
   annotations included) until it is re-tagged, untagged, or its content deleted *)
Theorem C06_resolve_latest_oci : forall h1 d n h2,
  let s := fst (run oci_step oci_init h1) in
  snd (oci_step s (Tag d (RName n))) = OOk ->
  forallb (fun o => negb (touches_name n (gk d) o)) h2 = true ->
  snd (oci_step (fst (run oci_step (fst (oci_step s (Tag d (RName n)))) h2)) (Resolve (RName n))) = ODesc d.
Proof. exact oci_resolve_latest. Qed.
Print Assumptions C06_resolve_latest_oci.

(* OCI: Delete removes the content and every name that pointed to that digest, whatever
   media type or size it was tagged with (after the audit-F3 repair of Store.delete) *)
Theorem C06_delete_clears_oci : forall h1 d,
  let s := fst (run oci_step oci_init h1) in
  snd (oci_step s (Delete d)) = OOk ->
  let s' := fst (oci_step s (Delete d)) in
  snd (oci_step s' (Fetch d)) = OErr ENotFound /\
  snd (oci_step s' (Exists d)) = OBool false /\
  forall n d', get ref_eqb (RName n) (r_index (o_res s)) = Some d' -> d_dig d' = d_dig d ->
               snd (oci_step s' (Resolve (RName n))) = OErr ENotFound.
Proof. exact oci_delete_clears. Qed.
Print Assumptions C06_delete_clears_oci.

(* OCI: a digest of which the history has no Push at all, successful or refused, is absent;
   fetching, tagging or deleting it is not-found *)
Theorem C06_absent_notfound_oci : forall h g,
  (forall d c, In (Push d c) h -> d_dig d <> g) ->
  let s := fst (run oci_step oci_init h) in
  get N.eqb g (o_blobs s) = None /\
  forall d r, d_dig d = g -> snd (oci_step s (Fetch d)) = OErr ENotFound /\
                             (r <> REmpty -> foreign_digest_ref d r = false ->
                              snd (oci_step s (Tag d r)) = OErr ENotFound) /\
                             snd (oci_step s (Exists d)) = OBool false /\
                             snd (oci_step s (Delete d)) = OErr ENotFound.
Proof. exact oci_never_pushed_absent. Qed.
Print Assumptions C06_absent_notfound_oci.

(* OCI: Store.delete walks a Go map; for every iteration order of the snapshot the
   surviving references are exactly those not content.Equal to the target *)
Theorem C06_delete_order_free : forall k snap t r,
  NoDup (map fst t) -> (forall e, In e snap <-> In e t) ->
  get ref_eqb r (untag_fold k snap t) = get ref_eqb r (spec_untag_equal k t).
Proof. exact untag_fold_order_free. Qed.
Print Assumptions C06_delete_order_free.

(* ---- "no operation ever returned bytes that do not match its descriptor" ---- *)

(* memory: for every history, what Fetch returns has the digest AND the size of the request *)
Theorem C06_fetch_matches_memory : forall h d hash len,
  snd (mem_step (fst (run mem_step mem_init h)) (Fetch d)) = OBytes hash len ->
  hash = d_dig d /\ len = d_size d.
Proof. exact mem_fetch_matches. Qed.
Print Assumptions C06_fetch_matches_memory.

(* OCI: content is found by digest (the size field of the request is not consulted, as in
   the code): for every history, canonical or not, the returned bytes hash to the requested digest *)
Theorem C06_fetch_matches_oci : forall h d hash len,
  snd (oci_step (fst (run oci_step oci_init h)) (Fetch d)) = OBytes hash len -> hash = d_dig d.
Proof. exact oci_fetch_matches. Qed.
Print Assumptions C06_fetch_matches_oci.

(* under concurrency: at EVERY configuration reachable by any schedule of atomic steps (not
   only at quiescence) a Fetch returns matching bytes *)
Theorem C06_conc_fetch_matches_memory : forall (progs : list (list op)) (sched : list nat) d hash len,
  snd (mem_step (c_store (mconf_run (mconf_init progs) sched)) (Fetch d)) = OBytes hash len ->
  hash = d_dig d /\ len = d_size d.
Proof. exact conc_fetch_matches_memory. Qed.
Print Assumptions C06_conc_fetch_matches_memory.

Theorem C06_conc_fetch_matches_oci :
  forall (U : N -> gkey) (B : N -> blob) (progs : list (list op)) (sched : list nat) d hash len,
  (forall g, k_dig (U g) = g) -> Forall (wf_op U B) (concat progs) ->
  snd (oci_step (oc_store (oconf_run (oconf_init progs) sched)) (Fetch d)) = OBytes hash len ->
  hash = d_dig d.
Proof. exact conc_fetch_matches_oci. Qed.
Print Assumptions C06_conc_fetch_matches_oci.

Theorem C06_conc_fetch_matches_file :
  forall (ig ov : bool) (progs : list (list op)) (sched : list nat) d hash len,
  Forall untitled (concat progs) -> Forall no_alias (concat progs) ->
  snd (file_step true ig ov (fc_store (fconf_run true ig ov (fconf_init progs) sched)) (Fetch d)) = FO (OBytes hash len) ->
  hash = d_dig d.
Proof. exact conc_fetch_matches_file. Qed.
Print Assumptions C06_conc_fetch_matches_file.

(* ---- concurrency: reads at every reachable configuration ----
   Not only at quiescence: after EVERY prefix of EVERY schedule the content map and the tag map
   are those of the sequential execution of the commit log (whose projection to a goroutine
   is a prefix of its program), so a Fetch / Exists / Resolve taken at that moment answers what
   that sequential execution answers -- content-map reads are linearisable.  (OCI: Resolve by
   name; a digest reference during a manifest Push may see the blob before its digest tag.) *)
Theorem C06_reads_linearisable_memory : forall (progs : list (list op)) (sched : list nat),
  let cf := mconf_run (mconf_init progs) sched in
  let q := fst (run mem_step mem_init (map snd (c_log cf))) in
  (forall i, exists rest, log_of i (c_log cf) ++ rest = nth i progs []) /\
  forall d r, snd (mem_step (c_store cf) (Fetch d)) = snd (mem_step q (Fetch d)) /\
              snd (mem_step (c_store cf) (Exists d)) = snd (mem_step q (Exists d)) /\
              snd (mem_step (c_store cf) (Resolve r)) = snd (mem_step q (Resolve r)).
Proof. exact reads_linearisable_memory. Qed.
Print Assumptions C06_reads_linearisable_memory.

Theorem C06_reads_linearisable_oci :
  forall (U : N -> gkey) (B : N -> blob) (progs : list (list op)) (sched : list nat),
  (forall g, k_dig (U g) = g) -> Forall (wf_op U B) (concat progs) ->
  let cf := oconf_run (oconf_init progs) sched in
  let q := fst (run oci_step oci_init (map snd (oc_log cf))) in
  (forall i, exists rest, log_of i (oc_log cf) ++ rest = nth i progs []) /\
  forall d n, snd (oci_step (oc_store cf) (Fetch d)) = snd (oci_step q (Fetch d)) /\
              snd (oci_step (oc_store cf) (Exists d)) = snd (oci_step q (Exists d)) /\
              snd (oci_step (oc_store cf) (Resolve (RName n))) = snd (oci_step q (Resolve (RName n))).
Proof. exact reads_linearisable_oci. Qed.
Print Assumptions C06_reads_linearisable_oci.

(* the decision of a Push is taken in one atomic step reading the content map: at every
   reachable configuration it is the one the sequential execution of the commit log takes
   (memory store, file store; false for the OCI store: C06_repush_refused_oci_racing_refuted) *)
Theorem C06_push_decision_linearisable_memory : forall (progs : list (list op)) (sched : list nat),
  let cf := mconf_run (mconf_init progs) sched in
  let q := fst (run mem_step mem_init (map snd (c_log cf))) in
  forall d c, snd (mem_step (c_store cf) (Push d c)) = snd (mem_step q (Push d c)).
Proof. exact push_decision_linearisable_memory. Qed.
Print Assumptions C06_push_decision_linearisable_memory.

Theorem C06_push_decision_linearisable_file :
  forall (fx ig ov : bool) (progs : list (list op)) (sched : list nat),
  Forall untitled (concat progs) ->
  let cf := fconf_run fx ig ov (fconf_init progs) sched in
  let q := fst (runf (file_step fx ig ov) file_init (map snd (fc_log cf))) in
  forall d c, snd (file_push_store fx ig ov (fc_store cf) d c) = snd (file_push_store fx ig ov q d c).
Proof. exact push_decision_linearisable_file. Qed.
Print Assumptions C06_push_decision_linearisable_file.

(* OCI Tags: at every reachable configuration the set of names listed is the one the sequential
   execution of the commit log lists *)
Theorem C06_tags_linearisable_oci :
  forall (U : N -> gkey) (B : N -> blob) (progs : list (list op)) (sched : list nat),
  (forall g, k_dig (U g) = g) -> Forall (wf_op U B) (concat progs) ->
  let cf := oconf_run (oconf_init progs) sched in
  let q := fst (run oci_step oci_init (map snd (oc_log cf))) in
  forall n l l', snd (oci_step (oc_store cf) Tags) = OTags l -> snd (oci_step q Tags) = OTags l' ->
                 (In (RName n) l <-> In (RName n) l').
Proof. exact tags_linearisable_oci. Qed.
Print Assumptions C06_tags_linearisable_oci.

Theorem C06_reads_linearisable_file :
  forall (fx ig ov : bool) (progs : list (list op)) (sched : list nat),
  Forall untitled (concat progs) ->
  let cf := fconf_run fx ig ov (fconf_init progs) sched in
  let q := fst (runf (file_step fx ig ov) file_init (map snd (fc_log cf))) in
  (forall i, exists rest, log_of i (fc_log cf) ++ rest = nth i progs []) /\
  forall d r, snd (file_step fx ig ov (fc_store cf) (Fetch d)) = snd (file_step fx ig ov q (Fetch d)) /\
              snd (file_step fx ig ov (fc_store cf) (Exists d)) = snd (file_step fx ig ov q (Exists d)) /\
              snd (file_step fx ig ov (fc_store cf) (Resolve r)) = snd (file_step fx ig ov q (Resolve r)).
Proof. exact reads_linearisable_file. Qed.
Print Assumptions C06_reads_linearisable_file.

(* ---- concurrency: memory store ---- *)

(* Goroutines run programs of operations; each operation is split into its atomic steps
   (Load check, LoadOrStore, graph.index under the graph lock, Exists, resolver.Tag under
   the resolver lock).  For EVERY schedule of those steps that runs all programs to
   completion, the final content map and resolver are literally those of a sequential
   execution of the same operations (in the order of their commit steps, which keeps
   every goroutine's program order), and every Predecessors query gets the same answer
   (as a set). *)
Theorem C06_quiescent_serialisable_memory : forall (progs : list (list op)) (sched : list nat),
  let cf := mconf_run (mconf_init progs) sched in
  quiescent cf = true ->
  exists order : list (nat * op),          (* (goroutine, operation) in commit order *)
    Permutation (map snd order) (concat progs) /\
    (forall i, log_of i order = nth i progs []) /\     (* every goroutine's program order is kept *)
    let q := fst (run mem_step mem_init (map snd order)) in
    m_cas (c_store cf) = m_cas q /\ m_res (c_store cf) = m_res q /\
    forall n k, In k (map gk (g_predecessors n (m_graph (c_store cf)))) <->
                In k (map gk (g_predecessors n (m_graph q))).
Proof. exact quiescent_serialisable_memory. Qed.
Print Assumptions C06_quiescent_serialisable_memory.

Example C06_ex_quiescent : quiescent (mconf_run (mconf_init cx_progs) cx_sched) = true.
Proof. exact cx_quiescent. Qed.

(* ---- concurrency: OCI layout store ---- *)

(* Atomic steps: stat, rename (replaces an existing blob), graph.index, the two
   tagResolver.Tag calls of Store.tag, tagResolver.Resolve / Untag; Delete runs only while
   no other operation is in flight (Store.sync).  Universe: every digest has one
   descriptor (U) and one byte string (B).  For EVERY schedule that runs all programs to
   completion there is a sequential order of the same operations, keeping every
   goroutine's program order, with literally the same content map, the same descriptor
   under every name, and the same Predecessors answers.  Partial: the resolver's
   digest-string entries (visible only as media type of Resolve(<digest>) for non-manifest
   blobs) are not compared. *)
Theorem C06_quiescent_serialisable_oci_partial :
  forall (U : N -> gkey), (forall g, k_dig (U g) = g) ->
  forall (B : N -> blob) (progs : list (list op)) (sched : list nat),
  Forall (wf_op U B) (concat progs) ->
  let cf := oconf_run (oconf_init progs) sched in
  oquiescent cf = true ->
  exists order : list (nat * op),
    Permutation (map snd order) (concat progs) /\
    (forall i, log_of i order = nth i progs []) /\
    let q := fst (run oci_step oci_init (map snd order)) in
    o_blobs (oc_store cf) = o_blobs q /\
    (forall n, get ref_eqb (RName n) (r_index (o_res (oc_store cf))) =
               get ref_eqb (RName n) (r_index (o_res q))) /\
    forall n k, In k (map gk (g_predecessors n (o_graph (oc_store cf)))) <->
                In k (map gk (g_predecessors n (o_graph q))).
Proof. exact quiescent_serialisable_oci. Qed.
Print Assumptions C06_quiescent_serialisable_oci_partial.

(* The complete statement: EVERY Resolve answer -- names, digest strings (resolver entry or
   blob fallback), the empty reference -- at quiescence is the one of the sequential order.
   (wf2_op is wf_op: Store.Tag itself refuses another content's digest string as reference,
   and its graph.Index step on manifest descriptors is one of the atomic steps.) *)
Theorem C06_quiescent_serialisable_oci :
  forall (U : N -> gkey), (forall g, k_dig (U g) = g) ->
  forall (B : N -> blob) (progs : list (list op)) (sched : list nat),
  Forall (wf2_op U B) (concat progs) ->
  let cf := oconf_run (oconf_init progs) sched in
  oquiescent cf = true ->
  exists order : list (nat * op),
    Permutation (map snd order) (concat progs) /\
    (forall i, log_of i order = nth i progs []) /\
    let q := fst (run oci_step oci_init (map snd order)) in
    o_blobs (oc_store cf) = o_blobs q /\
    (forall r, snd (oci_step (oc_store cf) (Resolve r)) = snd (oci_step q (Resolve r))) /\
    forall n k, In k (map gk (g_predecessors n (o_graph (oc_store cf)))) <->
                In k (map gk (g_predecessors n (o_graph q))).
Proof. exact quiescent_serialisable_oci_full. Qed.
Print Assumptions C06_quiescent_serialisable_oci.

Example C06_ex_oci_wf2 : Forall (wf2_op ex_U ox_B) (concat ox_progs).
Proof. exact ox_wf2. Qed.

Example C06_ex_oci_wf : Forall (wf_op ex_U ox_B) (concat ox_progs).
Proof. exact ox_wf. Qed.

Example C06_ex_oci_quiescent : oquiescent (oconf_run (oconf_init ox_progs) ox_sched) = true.
Proof. exact ox_quiescent. Qed.

(* ---- concurrency: file store ---- *)

(* Atomic steps: a named Push under its per-name lock (check, write, digestToPath, exists),
   an unnamed Push's fallback LoadOrStore, the later restoreDuplicates/graph.Index read-back,
   Exists, resolver.Tag.  For every option setting (repaired or original pushFile,
   IgnoreNoName, DisableOverwrite) and EVERY schedule run to completion, names,
   digestToPath, files, fallback storage and resolver are literally those of a sequential
   order of the same operations in program order, so every Fetch, Exists and Resolve
   answers alike.  Partial: the graph (Predecessors) is in the next theorem; programs use neither
   the aliasing name (two names, two locks, one file) nor titled successors (with those the
   restore step falls behind the store and executions are not serialisable in general). *)
Theorem C06_quiescent_serialisable_file_partial :
  forall (fx ig ov : bool) (progs : list (list op)) (sched : list nat),
  Forall untitled (concat progs) -> Forall no_alias (concat progs) ->
  let cf := fconf_run fx ig ov (fconf_init progs) sched in
  fquiescent cf = true ->
  exists order : list (nat * op),
    Permutation (map snd order) (concat progs) /\
    (forall i, log_of i order = nth i progs []) /\
    let q := fst (runf (file_step fx ig ov) file_init (map snd order)) in
    fcore (fc_store cf) = fcore q /\
    forall d r, snd (file_step fx ig ov (fc_store cf) (Fetch d)) = snd (file_step fx ig ov q (Fetch d)) /\
                snd (file_step fx ig ov (fc_store cf) (Exists d)) = snd (file_step fx ig ov q (Exists d)) /\
                snd (file_step fx ig ov (fc_store cf) (Resolve r)) = snd (file_step fx ig ov q (Resolve r)).
Proof. exact quiescent_serialisable_file. Qed.
Print Assumptions C06_quiescent_serialisable_file_partial.

(* ... and the graph: with the repaired pushFile, store and graph.Index as separate atomic
   steps, collision-free bytes B, EVERY schedule run to completion ends with the core state
   and the Predecessors answers (as sets) of the sequential execution in commit order.
   Programs use neither the aliasing name nor titled successors (see above). *)
Theorem C06_quiescent_serialisable_file_graph :
  forall (B : N -> blob) (ig ov : bool) (progs : list (list op)) (sched : list nat),
  Forall (good_op B) (concat progs) ->
  let cf := fconf_run true ig ov (fconf_init progs) sched in
  fquiescent cf = true ->
  exists order : list (nat * op),
    Permutation (map snd order) (concat progs) /\
    (forall i, log_of i order = nth i progs []) /\
    let q := fst (runf (file_step true ig ov) file_init (map snd order)) in
    fcore (fc_store cf) = fcore q /\
    forall n k, In k (map gk (g_predecessors n (f_graph (fc_store cf)))) <->
                In k (map gk (g_predecessors n (f_graph q))).
Proof. exact quiescent_serialisable_file_graph. Qed.
Print Assumptions C06_quiescent_serialisable_file_graph.

Example C06_ex_file_graph_conc_good : Forall (good_op fgx_B) (concat fgc_progs).
Proof. exact fgc_good. Qed.
Example C06_ex_file_graph_conc_run :
  let cf := fconf_run true false false (fconf_init fgc_progs) fgc_sched in
  fquiescent cf = true /\ map gk (g_predecessors w_layer (f_graph (fc_store cf))) = [(1, 9, 20)].
Proof. exact fgc_quiescent. Qed.

(* known finding file-conc-titled-restore-not-serialisable: WITH a titled successor the
   statement is refuted -- the schedule [0;1;1;1;0] of ft_progs (push manifest M under name 2 ||
   push M again under name 2, then push M's layer) ends quiescent with the layer's title
   (name 1) restored, and none of the three sequential orders that keep program order does *)
Theorem C06_quiescent_serialisable_file_titled_refuted :
  let cf := fconf_run true false false (fconf_init ft_progs) ft_sched in
  fquiescent cf = true /\
  f_names (fc_store cf) = [1; 2] /\
  map (fun h => f_names (fst (runf (file_step true false false) file_init h))) ft_orders = [[2]; [2]; [2]].
Proof. exact file_titled_not_serialisable. Qed.
Print Assumptions C06_quiescent_serialisable_file_titled_refuted.

Example C06_ex_file_hyps : Forall untitled (concat fx_progs) /\ Forall no_alias (concat fx_progs).
Proof. exact fx_hyps. Qed.
Example C06_ex_file_quiescent : fquiescent (fconf_run true false false (fconf_init fx_progs) fx_sched) = true.
Proof. exact fx_quiescent. Qed.

(* ---- file store (names, duplicate-name, fallback CAS; options IgnoreNoName, DisableOverwrite) ---- *)

(* Refinement: for EVERY history that does not use a second name for one path, the file store
   (repaired pushFile, any IgnoreNoName / DisableOverwrite setting, restoreDuplicates with
   titled successors included) returns step by step exactly what the abstract specification
   Model/StoresFileSpec.v returns -- a set of names, one content map by digest for named
   content, the fallback content map, the tag map and the graph -- and its
   digestToPath -> path -> file indirection is that content map. *)
Theorem C06_refines_file : forall (ig ov : bool) (h : list op),
  Forall no_alias h ->
  snd (runf (file_step true ig ov) file_init h) = snd (runf (fspec_step ig) fspec_init h) /\
  frel (fst (runf (file_step true ig ov) file_init h)) (fst (runf (fspec_step ig) fspec_init h)).
Proof. exact refines_file. Qed.
Print Assumptions C06_refines_file.

(* ... so DisableOverwrite cannot be observed on such histories *)
Theorem C06_disable_overwrite_unobservable_file : forall (ig : bool) (h : list op),
  Forall no_alias h ->
  snd (runf (file_step true ig true) file_init h) = snd (runf (file_step true ig false) file_init h).
Proof. exact file_disable_overwrite_unobservable. Qed.
Print Assumptions C06_disable_overwrite_unobservable_file.

(* ---- file store created with NewWithFallbackLimit: content.LimitedStorage.Push refuses an
   unnamed descriptor whose Size exceeds the limit before anything is read (Model/StoresFileLimit.v) ---- *)

(* exactly the oversized unnamed pushes (IgnoreNoName off) are refused, and the refusal changes nothing *)
Theorem C06_limit_refusal_iff_file : forall lim fx ig ov s o,
  snd (file_step_lim lim fx ig ov s o) = LLimit <->
  exists d c, o = Push d c /\ d_name d = 0 /\ ig = false /\ lim < d_size d.
Proof. exact file_limit_refusal_iff. Qed.
Print Assumptions C06_limit_refusal_iff_file.

Theorem C06_limit_refusal_noop_file : forall lim fx ig ov s o,
  snd (file_step_lim lim fx ig ov s o) = LLimit -> fst (file_step_lim lim fx ig ov s o) = s.
Proof. exact file_limit_refusal_noop. Qed.
Print Assumptions C06_limit_refusal_noop_file.

(* for EVERY history, option setting and limit -- aliasing names, titled successors, code as found
   or repaired -- nothing larger than the limit is ever in the fallback storage *)
Theorem C06_limit_bounds_fallback_file : forall lim fx ig ov h k c,
  get gkey_eqb k (f_cas (fst (runl (file_step_lim lim fx ig ov) file_init h))) = Some c -> k_size k <= lim.
Proof. exact file_limit_cas_bounded_init. Qed.
Print Assumptions C06_limit_bounds_fallback_file.

(* the limited store refines the abstract specification with the same limit on every history
   without an aliasing name (equal outputs, content map related, invariant kept) *)
Theorem C06_refines_file_limit : forall lim ig ov h s a,
  Forall no_alias h -> file_inv s -> frel s a ->
  snd (runl (file_step_lim lim true ig ov) s h) = snd (runl (fspec_step_lim lim ig) a h) /\
  frel (fst (runl (file_step_lim lim true ig ov) s h)) (fst (runl (fspec_step_lim lim ig) a h)) /\
  file_inv (fst (runl (file_step_lim lim true ig ov) s h)).
Proof. exact refines_file_limit. Qed.
Print Assumptions C06_refines_file_limit.

Theorem C06_fetch_matches_digest_file_limit : forall lim ig ov h d hash len,
  Forall no_alias h ->
  let s := fst (runl (file_step_lim lim true ig ov) file_init h) in
  snd (file_step_lim lim true ig ov s (Fetch d)) = LOut (FO (OBytes hash len)) -> hash = d_dig d.
Proof. exact file_limit_fetch_matches. Qed.
Print Assumptions C06_fetch_matches_digest_file_limit.

(* a history whose unnamed pushes stay below the limit cannot observe it: all theorems about
   file_step carry over *)
Theorem C06_limit_unobservable_below_file : forall lim fx ig ov h s,
  Forall (below_limit lim ig) h ->
  snd (runl (file_step_lim lim fx ig ov) s h) = map LOut (snd (runf (file_step fx ig ov) s h)) /\
  fst (runl (file_step_lim lim fx ig ov) s h) = fst (runf (file_step fx ig ov) s h).
Proof. exact file_limit_unobservable. Qed.
Print Assumptions C06_limit_unobservable_below_file.

(* for EVERY history (also above the limit) the limited store ends in the state of the unlimited
   store run on the history without its oversized unnamed pushes and answers the remaining
   operations alike: every theorem about file_step applies to the filtered history *)
Theorem C06_limit_is_filter_file : forall lim fx ig ov h s,
  fst (runl (file_step_lim lim fx ig ov) s h) =
  fst (runf (file_step fx ig ov) s (filter (fun o => negb (over_limit lim ig o)) h)) /\
  filter (fun x => match x with LLimit => false | LOut _ => true end) (snd (runl (file_step_lim lim fx ig ov) s h)) =
  map LOut (snd (runf (file_step fx ig ov) s (filter (fun o => negb (over_limit lim ig o)) h))).
Proof. exact file_limit_is_filter. Qed.
Print Assumptions C06_limit_is_filter_file.

(* the conditions of [over_limit] are the guards in the Go source, regenerated on every run *)
Theorem C06_limit_guards_from_source :
  limited_Push_guards = [(b "fmt.Errorf"%string, [b "expected.Size > ls.PushLimit"%string]);
                         (b "ls.Storage.Push"%string, [])] /\
  file_push_guards = [(b "s.fallbackStorage.Push"%string, [b "name == ''"%string])].
Proof. exact limit_guards_from_source. Qed.
Print Assumptions C06_limit_guards_from_source.

Example C06_ex_file_limit :
  snd (runl (file_step_lim 10 true false false) file_init
            [Push (mkDesc 1 9 20 0) (mkBlob 9 20 [(6, 1, 5)] 9 [(6, 1, 5)]); Push w_unnamed w_good;
             Exists (mkDesc 1 9 20 0); Fetch w_unnamed])
  = [LLimit; LOut (FO OOk); LOut (FO (OBool false)); LOut (FO (OBytes 1 5))].
Proof. exact file_limit_example. Qed.

(* the file store has no Delete: for every option setting and EVERY history (aliasing names
   and titled successors included) what Exists once answered true for stays present *)
Theorem C06_presence_monotone_file : forall (fx ig ov : bool) (h : list op) (s : file_store) (d : desc),
  file_exists d s = true -> file_exists d (fst (runf (file_step fx ig ov) s h)) = true.
Proof. exact file_run_fle. Qed.
Print Assumptions C06_presence_monotone_file.

(* whatever the options, in a history whose pushes do not use two names for one path
   ([no_alias]), a Fetch never returns bytes whose hash is not the requested digest
   (digestToPath -> file indirection included).  Partial: without [no_alias] the
   statement is refuted below (known finding file-name-alias-overwrite). *)
Theorem C06_fetch_matches_digest_file_partial : forall ig ov h d hash len,
  Forall no_alias h ->
  let s := fst (runf (file_step true ig ov) file_init h) in
  snd (file_step true ig ov s (Fetch d)) = FO (OBytes hash len) -> hash = d_dig d.
Proof. exact file_fetch_matches. Qed.
Print Assumptions C06_fetch_matches_digest_file_partial.

(* Fetch returns the pushed content for ever: after a successful Push (named, or unnamed
   without IgnoreNoName, which discards the content), whatever follows -- titled successors
   and restoreDuplicates included, the aliasing name excluded -- Fetch of that descriptor
   succeeds and returns bytes that hash to its digest *)
Theorem C06_fetch_returns_pushed_file_partial : forall ig ov h1 d c h2,
  Forall no_alias h1 -> no_alias (Push d c) -> Forall no_alias h2 -> (ig = false \/ d_name d <> 0) ->
  let s := fst (runf (file_step true ig ov) file_init h1) in
  snd (file_step true ig ov s (Push d c)) = FO OOk ->
  let s2 := fst (runf (file_step true ig ov) (fst (file_step true ig ov s (Push d c))) h2) in
  exists len, snd (file_step true ig ov s2 (Fetch d)) = FO (OBytes (d_dig d) len).
Proof. exact file_fetch_returns_pushed. Qed.
Print Assumptions C06_fetch_returns_pushed_file_partial.

(* the fallback content map is immutable: an unnamed re-push is already-exists and a no-op *)
Theorem C06_unnamed_repush_refused_file : forall fx ov d c h2 s c',
  d_name d = 0 ->
  snd (file_step fx false ov s (Push d c)) = FO OOk ->
  let s2 := fst (runf (file_step fx false ov) (fst (file_step fx false ov s (Push d c))) h2) in
  file_step fx false ov s2 (Push d c') = (s2, FO (OErr EAlreadyExists)).
Proof. exact file_unnamed_repush_refused. Qed.
Print Assumptions C06_unnamed_repush_refused_file.

(* a digest of which the history has no Push at all, successful or refused, is absent: fetching
   or tagging it is not-found -- for every history and option setting, titled successors and the
   aliasing name included *)
Theorem C06_absent_notfound_file : forall fx ig ov h g,
  (forall d c, In (Push d c) h -> d_dig d <> g) ->
  let s := fst (runf (file_step fx ig ov) file_init h) in
  forall d r, d_dig d = g ->
    snd (file_step fx ig ov s (Fetch d)) = FO (OErr ENotFound) /\
    snd (file_step fx ig ov s (Exists d)) = FO (OBool false) /\
    (r <> REmpty -> snd (file_step fx ig ov s (Tag d r)) = FO (OErr ENotFound)).
Proof. exact file_absent_notfound. Qed.
Print Assumptions C06_absent_notfound_file.

(* Predecessors of the file store, for every history (titled successors / restoreDuplicates,
   IgnoreNoName, DisableOverwrite included; the aliasing name excluded; B = the bytes a digest
   stands for): exactly the indexed nodes whose bytes list the node as a successor ... *)
Theorem C06_predecessors_exact_file : forall (B : N -> blob) ig ov h n k,
  Forall no_alias h -> Forall (wfB_op B) h ->
  let s := fst (runf (file_step true ig ov) file_init h) in
  In k (map gk (g_predecessors n (f_graph s))) <->
  In k (map fst (g_nodes (f_graph s))) /\ In (gk n) (succ_of k (B (k_dig k))).
Proof. exact file_preds_exact. Qed.
Print Assumptions C06_predecessors_exact_file.

(* ... and every Push that succeeded (not discarded by IgnoreNoName) is indexed for ever *)
Theorem C06_push_ok_indexed_file : forall fx ig ov s d c h2,
  (ig = false \/ d_name d <> 0) ->
  snd (file_step fx ig ov s (Push d c)) = FO OOk ->
  indexed (gk d) (fst (runf (file_step fx ig ov) (fst (file_step fx ig ov s (Push d c))) h2)).
Proof. exact file_push_ok_indexed. Qed.
Print Assumptions C06_push_ok_indexed_file.

Example C06_ex_file_graph_wf : Forall (wfB_op fgx_B) fgx_hist /\ Forall no_alias fgx_hist.
Proof. exact fgx_wf. Qed.
Example C06_ex_file_graph_run :
  snd (runf (file_step true false false) file_init fgx_hist) = [FO OOk; FO OOk; FO (OPreds [(1, 9, 20)])].
Proof. exact fgx_run. Qed.

(* Resolve returns the descriptor most recently tagged *)
Theorem C06_resolve_latest_file : forall fx ig ov s d r h2,
  r <> REmpty ->
  snd (file_step fx ig ov s (Tag d r)) = FO OOk -> forallb (fun o => negb (tags_ref r o)) h2 = true ->
  snd (file_step fx ig ov (fst (runf (file_step fx ig ov) (fst (file_step fx ig ov s (Tag d r))) h2)) (Resolve r))
  = FO (ODesc d).
Proof. exact file_resolve_latest. Qed.
Print Assumptions C06_resolve_latest_file.

(* repaired code: a refused or failed operation leaves the whole state (names,
   digestToPath, files, fallback, tags, graph) unchanged -- in histories without the
   aliasing name and without titled successors ([untitled]: restoreDuplicates has nothing
   to restore).  With titled successors the statement is refuted below (audit F1). *)
Theorem C06_failed_noop_file_partial : forall ig ov h o,
  Forall no_alias h -> Forall untitled h -> no_alias o -> untitled o ->
  let s := fst (runf (file_step true ig ov) file_init h) in
  fout_is_err (snd (file_step true ig ov s o)) = true -> fst (file_step true ig ov s o) = s.
Proof. exact file_failed_noop. Qed.
Print Assumptions C06_failed_noop_file_partial.

(* code as found (fixed = false): refuted -- the witness is the finding failed-push-left-file *)
Theorem C06_failed_noop_file_prefix_refuted :
  snd (runf (file_step false false true) file_init [Push w_named w_bad; Push w_named w_good])
    = [FO (OErr EMismatch); FE FOverwrite] /\
  snd (runf (file_step false false true) file_init [Push w_named w_good]) = [FO OOk] /\
  snd (runf (file_step true false true) file_init [Push w_named w_bad; Push w_named w_good])
    = [FO (OErr EMismatch); FO OOk].
Proof. exact file_failed_noop_prefix_witness. Qed.
Print Assumptions C06_failed_noop_file_prefix_refuted.

(* a name is written once *)
Theorem C06_duplicate_name_file : forall fx ig ov s d c,
  d_name d <> 0 -> In (d_name d) (f_names s) ->
  file_step fx ig ov s (Push d c) = (s, FE FDuplicateName).
Proof. exact file_duplicate_name. Qed.
Print Assumptions C06_duplicate_name_file.

(* known findings, as witnesses on the model of the current code *)
Theorem C06_push_present_refused_file_refuted :
  let s := fst (runf (file_step true false false) file_init [Push w_named w_good]) in
  file_exists w_unnamed s = true /\
  snd (file_step true false false s (Push w_unnamed w_good)) = FO OOk.
Proof. exact file_push_present_witness. Qed.
Print Assumptions C06_push_present_refused_file_refuted.

Theorem C06_fetch_returns_pushed_file_refuted :
  snd (runf (file_step true false false) file_init [Push w_unnamed w_trailing; Fetch w_unnamed])
    = [FO OOk; FO (OBytes 1 5)] /\ b_len w_trailing = 6.
Proof. exact file_trailing_witness. Qed.
Print Assumptions C06_fetch_returns_pushed_file_refuted.

(* known finding file-restore-failed-after-store: restoreDuplicates runs after the content is
   stored; when it fails (here: a layer titled with a name outside the working directory)
   Push returns the error, yet the manifest exists, a re-push is already-exists, and (since
   the content is indexed before the restore) Predecessors lists it *)
Theorem C06_failed_noop_file_titled_refuted :
  snd (runf (file_step true false false) file_init
            [Push w_layer w_good; Push w_manifest w_manifest_blob; Exists w_manifest;
             Push w_manifest w_manifest_blob; Preds w_layer])
    = [FO OOk; FE FTraversal; FO (OBool true); FO (OErr EAlreadyExists); FO (OPreds [(1, 9, 20)])].
Proof. exact file_restore_fails_witness. Qed.
Print Assumptions C06_failed_noop_file_titled_refuted.

Theorem C06_fetch_matches_digest_file_alias_refuted :
  snd (runf (file_step true false false) file_init
            [Push w_named w_good; Push w_alias (mkBlob 2 5 [] 2 []); Fetch w_named])
    = [FO OOk; FO OOk; FO (OBytes 2 5)] /\ d_dig w_named = 1.
Proof. exact file_alias_witness. Qed.
Print Assumptions C06_fetch_matches_digest_file_alias_refuted.

(* known finding oci-racing-pushes-all-succeed: under the schedule [0;1;0;1] two goroutines
   pushing the same blob both pass the stat check and both rename their temp file onto the
   blob path (both Push calls return nil); every sequential order refuses the second *)
Theorem C06_repush_refused_oci_racing_refuted :
  map ot_pc (oc_threads (oconf_run (oconf_init orace_progs) [0; 1; 0; 1]%nat)) = [OPush3 ex_layer; OPush3 ex_layer] /\
  snd (run oci_step oci_init (concat orace_progs)) = [OOk; OErr EAlreadyExists].
Proof. exact orace_both_renamed. Qed.
Print Assumptions C06_repush_refused_oci_racing_refuted.

(* ---- tie to the source ---- *)
(* the media types descriptor.IsManifest accepts are exactly those content.Successors
   decodes, and there are five of them (the model's media type ids 1..5) *)
Theorem C06_manifest_types_from_source :
  ((forall x, In x isManifest_cases <-> In x successors_cases) /\
   (length isManifest_cases = 5%nat) /\ NoDup isManifest_cases)%type.
Proof. exact manifest_types_from_source. Qed.
Print Assumptions C06_manifest_types_from_source.

(* the order of effects the hand-written step functions mirror (store before index before
   restore, stat before rename before index before tag, untag before graph.Remove before
   storage.Delete, Load before ReadAll before LoadOrStore and no plain Store, ...) is the
   order of the calls in the Go sources as re-read on every run *)
Theorem C06_call_order_from_source : forallb (fun x => x) call_order_checks = true.
Proof. exact call_order_from_source. Qed.
Print Assumptions C06_call_order_from_source.

(* ---- the hypotheses are satisfiable: a concrete universe and history (Proofs/Stores.v) ---- *)
Example C06_ex_U_dig : forall g, k_dig (ex_U g) = g.
Proof. exact ex_U_dig. Qed.

Example C06_ex_canon : Forall (canon_op ex_U) ex_hist.
Proof. exact ex_canon. Qed.

Example C06_ex_run :
  snd (run oci_step oci_init ex_hist) =
  [ OOk; OOk; OErr EAlreadyExists; OOk; ODesc ex_man; ODesc (mkDesc 0 2 5 0);
    OPreds [(1, 1, 10)]; OOk; OErr ENotFound; OPreds []; OErr ENotFound ].
Proof. exact ex_run. Qed.
