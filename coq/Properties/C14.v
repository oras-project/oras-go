(* C14 — Client-maintained referrers indexes lose no update under concurrency. *)
From Oras Require Import Base.Prelude Generated.GC14 Model.Referrers Proofs.Referrers Model.Merge
  Proofs.Merge Proofs.MergeLin Proofs.MergeThm Model.Delivery Proofs.Delivery Model.Live Proofs.Live
  Model.MergeFine Proofs.MergeFine Proofs.MergeFine3 Proofs.MergeFineProg.

(* applyReferrerChanges (position map, tombstones, hint) = set semantics on the
   de-duplicated, non-empty old list; survivors keep their order, additions are
   appended with the descriptor (artifact type, annotations) given by the caller *)
Theorem C14_apply_set_semantics : forall old cs l,
  changes_nonempty cs -> apply_changes old cs = Updated l ->
  l = spec_apply old cs /\
  (NoDup (keys l) /\ Forall (fun d => nonempty d = true) l) /\
  (forall k, In k (keys l) <-> member_after k (negb (k =? 0) && has_key k old) cs = true).
Proof. exact apply_set_semantics. Qed.
Print Assumptions C14_apply_set_semantics.

(* errNoReferrerUpdate iff nothing changes; duplicates / empty entries force an update *)
Theorem C14_apply_noupdate_iff : forall old cs,
  changes_nonempty cs ->
  (apply_changes old cs = NoUpdate <->
   (NoDup (keys old) /\ Forall (fun d => nonempty d = true) old) /\
   forall k, In k (keys old) <-> In k (keys (spec_apply old cs))).
Proof. exact apply_noupdate_iff. Qed.
Print Assumptions C14_apply_noupdate_iff.

Theorem C14_apply_order : forall l c k1 k2,
  (forall d, c = Remove d -> dkey d <> k1 /\ dkey d <> k2) ->
  forall l1 l2 l3 a b, l = l1 ++ a :: l2 ++ b :: l3 -> dkey a = k1 -> dkey b = k2 ->
  exists m1 m2 m3, spec_step l c = m1 ++ a :: m2 ++ b :: m3.
Proof. exact spec_step_survivors. Qed.
Print Assumptions C14_apply_order.

Theorem C14_remove_empty : forall l hint,
  (length (filter nonempty l) <= hint)%nat -> remove_empty l hint = filter nonempty l.
Proof. exact remove_empty_spec. Qed.
Print Assumptions C14_remove_empty.

Theorem C14_filter_exact : forall refs art d,
  In d (filter_referrers refs art) <-> In d refs /\ (art = 0 \/ dart d = art).
Proof. exact filter_referrers_spec. Qed.
Print Assumptions C14_filter_exact.

(* the entries of the updated index are old entries or the descriptors handed in by
   push, unchanged; the artifact type indexReferrersForPush puts into such a
   descriptor is the one a registry with the Referrers API lists *)
Theorem C14_entries_origin : forall d old cs,
  In d (spec_apply old cs) -> In d old \/ In (Add d) cs.
Proof. exact spec_apply_origin. Qed.
Print Assumptions C14_entries_origin.
Theorem C14_equals_api : forall k art cfg, referrer_art k art cfg = api_art k art cfg.
Proof. exact referrer_art_api. Qed.
Print Assumptions C14_equals_api.

(* every interleaving of any number of callers on one tag: at most one caller is
   between prepare and complete, it holds the main status exclusively, the Pool
   entry's reference count is the number of callers inside updateReferrersIndex
   and the entry (the Merge object) is dropped only when nobody is inside *)
Theorem C14_single_main : forall sg r0 st0 tr s,
  run sg (init r0 st0) tr = Some s ->
  (forall t1 t2, is_main (pcs s t1) = true -> is_main (pcs s t2) = true -> t1 = t2) /\
  (forall t, is_main (pcs s t) = true -> token s = false) /\
  (exists hs, NoDup hs /\ (forall t, In t hs <-> holding (pcs s t) = true) /\
     match pool s with None => hs = [] | Some rc => rc = length hs /\ hs <> [] end) /\
  (pool s = None -> (forall t, holding (pcs s t) = false) /\ items s = [] /\ pending s = []).
Proof. exact single_main. Qed.
Print Assumptions C14_single_main.

(* "exactly the live manifests", concurrent: for EVERY interleaving of pushes and deletes of
   referrers of one subject through one Repository (any number of callers, any batching, any
   pre-existing index consistent with the live set, injected failures of the index
   exchanges) in which operations on the SAME manifest do not overlap (Model/Live.v: the
   manifest PUT precedes, the manifest DELETE follows the index update), at every instant:
   a manifest that no operation is working on, and that no failed operation has touched, is
   listed iff it is in the registry.  Without the no-overlap guard: C14_listing_is_live_refuted. *)
Theorem C14_listing_is_live : forall sg r0 st0 live0 tr m,
  tracks (r0, live0) -> lrun sg (linit r0 st0 live0) tr = Some m ->
  forall k, ~ In k (map ent_key (l_inflight m)) -> ~ In k (l_taint m) -> consistent m k.
Proof. exact listing_is_live. Qed.
Print Assumptions C14_listing_is_live.

(* KNOWN FINDING same-manifest-race: the clause "exactly the live manifests" does not hold
   when a push and a delete of the SAME manifest overlap: both calls return nil, the
   manifest is gone, the index still lists it (C14_no_lost_update still holds: the index is
   the fold of the accepted changes - it is the order of the manifest PUT / DELETE
   exchanges relative to the index updates that is not controlled) *)
Theorem C14_listing_is_live_refuted :
  exists m, mrun false (init (Some [race_A]) [], [1]) race_trace = Some m /\
    quiescent (fst m) /\
    pcs (fst m) 0%nat = Done ROk /\ pcs (fst m) 1%nat = Done ROk /\
    memb (reg (fst m)) 1 = true /\ is_live 1 m = false.
Proof. exact listing_is_live_refuted. Qed.
Print Assumptions C14_listing_is_live_refuted.

(* ... whereas for SEQUENTIAL histories (one push / delete at a time, no failure) the index
   lists exactly the live referrers, whatever the pre-existing duplicates / empty entries
   (function-level statement about applyReferrerChanges between the manifest PUT / DELETE;
   for concurrent operations on DIFFERENT manifests the clause is judged by the oracle) *)
Theorem C14_sequential_listing_is_live_partial : forall cs st,
  changes_nonempty cs -> tracks st -> tracks (fold_left seq_op cs st).
Proof. exact sequential_listing_is_live. Qed.
Print Assumptions C14_sequential_listing_is_live_partial.

(* the protocol never blocks by itself: in every reachable state in which some caller
   is inside updateReferrersIndex some event other than a new call is enabled (a caller can assign, a waiting
   member can take the main status, the main caller's next lock region / exchange can
   happen with either outcome, a returned caller can release the Pool entry) *)
Theorem C14_no_deadlock : forall sg r0 st0 tr s,
  run sg (init r0 st0) tr = Some s -> (exists t, holding (pcs s t) = true) ->
  exists e s', is_env e = false /\ step sg s e = Some s'.
Proof. exact no_deadlock. Qed.
Print Assumptions C14_no_deadlock.

(* ... and it cannot run for ever: from every reachable state there is a bound on the
   length of every continuation without new calls (each lock region / exchange /
   delivery strictly decreases a weight summed over the callers inside).  With
   C14_no_deadlock: once the registry has answered every exchange, every caller returns. *)
Theorem C14_bounded_completion : forall sg r0 st0 tr s,
  run sg (init r0 st0) tr = Some s ->
  exists bound, forall tr' s',
    forallb (fun e => negb (is_env e)) tr' = true -> run sg s tr' = Some s' ->
    (length tr' <= bound)%nat.
Proof. exact bounded_completion. Qed.
Print Assumptions C14_bounded_completion.

(* batches linearise: for every trace (interleaving, pre-existing index r0 with
   duplicates / empty entries, injected failures) ending in a quiescent state, the
   calls that returned nil or a referrers-index-delete error, and the calls whose batch's
   PUT took effect but was answered with an error (RLost: they see the plain error; see
   C14_lost_response / C14_plain_error_no_effect) — and only those — took effect, each
   once, in the order [lin], and the index under the tag is, as a set, the fold of their
   changes over the initial index *)
Theorem C14_no_lost_update : forall sg r0 st0 tr s,
  run sg (init r0 st0) tr = Some s -> quiescent s ->
  NoDup (lin s) /\
  (forall t, In t (lin s) <-> exists r, pcs s t = Done r /\ r <> RErr) /\
  (forall k, memb (reg s) k = member_after k (memb r0 k) (map (arg s) (lin s))).
Proof. exact no_lost_update. Qed.
Print Assumptions C14_no_lost_update.

(* what Referrers() / Predecessors() return through the tag schema (referrersByTagSchema =
   clean the fetched index with applyReferrerChanges(_, nil), then filter), in every
   reachable state: every key once, no empty descriptor, as a set the fold of the changes of
   the calls that took effect (C14_no_lost_update says which ones those are at quiescence);
   a filtered listing only has entries of the requested artifact type *)
Theorem C14_listing : forall sg r0 st0 tr s,
  run sg (init r0 st0) tr = Some s ->
  NoDup (keys (list_referrers (reg s) 0)) /\
  Forall (fun d => nonempty d = true) (list_referrers (reg s) 0) /\
  (forall k, In k (keys (list_referrers (reg s) 0)) <->
             member_after k (memb r0 k) (map (arg s) (lin s)) = true) /\
  (forall art d, In d (list_referrers (reg s) art) -> art = 0 \/ dart d = art).
Proof. exact listing_is_fold. Qed.
Print Assumptions C14_listing.

(* at every instant, for a caller that has returned: its change is part of the
   index iff it did not get a plain error; in particular a failed deletion of the
   superseded index (RIdxDel) is reported after the update took effect *)
Theorem C14_idxdel_after_effect : forall sg r0 st0 tr s t r,
  run sg (init r0 st0) tr = Some s -> (pcs s t = Ret r \/ pcs s t = Done r) ->
  (In t (lin s) <-> r <> RErr) /\
  (forall k, memb (reg s) k = member_after k (memb r0 k) (map (arg s) (lin s))).
Proof. exact returned_effect. Qed.
Print Assumptions C14_idxdel_after_effect.

Theorem C14_arg_is_call : forall sg s t c s',
  step sg s (EGet t c) = Some s' -> arg s' t = c /\ pcs s' t = Got c.
Proof. exact arg_set. Qed.
Print Assumptions C14_arg_is_call.
Theorem C14_arg_stable : forall sg s e s' t,
  step sg s e = Some s' -> pcs s t <> Idle -> arg s' t = arg s t.
Proof. exact arg_stable. Qed.
Print Assumptions C14_arg_stable.

(* superseded index manifests: when nobody is updating, every index manifest in
   the registry is the current one or is [junk] (dangling before the run, or left by a
   failed / skipped deletion); C14_gc_clean: the superseded INITIAL index is deleted too *)
Theorem C14_gc : forall sg r0 st0 tr s,
  run sg (init r0 st0) tr = Some s -> (forall t, is_main (pcs s t) = false) ->
  forall x, In x (store s) -> reg s = Some x \/ In x (junk s).
Proof. exact gc_store. Qed.
Print Assumptions C14_gc.

Theorem C14_gc_clean : forall r0 st0 tr s,
  run false (init r0 st0) tr = Some s ->
  forallb gc_ok tr = true ->
  (forall t, is_main (pcs s t) = false) ->
  forall x, In x (store s) -> reg s = Some x \/ (In x st0 /\ r0 <> Some x).
Proof. exact gc_clean. Qed.
Print Assumptions C14_gc_clean.

(* ... and with failed deletions: exactly one more dangling index per failed deletion
   (a lost PUT response leaves the old index behind as well: excluded here, see C14_gc) *)
Theorem C14_gc_count : forall tr s s',
  run false s tr = Some s' -> forallb (fun e => negb (put_lost e)) tr = true ->
  length (junk s') = (length (junk s) + length (filter del_failed tr))%nat.
Proof. exact junk_count. Qed.
Print Assumptions C14_gc_count.

(* ... and with lost PUT responses as well (the update stops before deleting the old index): at
   most one more dangling index per failed deletion or lost PUT, for every trace *)
Theorem C14_gc_bound : forall tr s s',
  run false s tr = Some s' ->
  (length (junk s') <= length (junk s) + length (filter (fun e => del_failed e || put_lost e) tr))%nat.
Proof. exact junk_bound. Qed.
Print Assumptions C14_gc_bound.
(* LOST RESPONSE of the index PUT / DELETE (EPutLost: the registry stores the new index, the
   client sees an error; EDelLost: the registry deletes the old index, the client sees an error
   - the index-delete error after a PUT, a plain error when the deletion WAS the update; ghost
   result RLost, seen by the caller as the plain error RErr).
   C14_plain_error_no_effect: with a registry that answers truthfully, a call took effect iff
   it did NOT return a plain error.  C14_lost_response: in general, nil / index-delete error
   => took effect (no lost update, even with lost responses); a plain error => took effect iff
   the response of its batch's PUT was lost ("may or may not be included"). *)
Theorem C14_plain_error_no_effect : forall sg r0 st0 tr s t r,
  run sg (init r0 st0) tr = Some s -> forallb (fun e => negb (resp_lost e)) tr = true ->
  (pcs s t = Ret r \/ pcs s t = Done r) ->
  (In t (lin s) <-> seen r <> RErr).
Proof. exact plain_error_no_effect. Qed.
Print Assumptions C14_plain_error_no_effect.

Theorem C14_lost_response : forall sg r0 st0 tr s t r,
  run sg (init r0 st0) tr = Some s -> (pcs s t = Ret r \/ pcs s t = Done r) ->
  (seen r <> RErr -> In t (lin s)) /\ (seen r = RErr -> (In t (lin s) <-> r = RLost)).
Proof. exact seen_effect. Qed.
Print Assumptions C14_lost_response.



(* SetReferrersCapability: the state leaves Unknown with the first call and never
   changes afterwards; later calls fail iff they ask for the other value *)
Theorem C14_capability_monotone : forall b l,
  let r := set_cap CapUnknown b in
  fst r = cap_of b /\ snd r = false /\ Forall (fun x => fst x = cap_of b) (set_caps (fst r) l).
Proof. exact capability_monotone. Qed.
Print Assumptions C14_capability_monotone.
Theorem C14_capability_error : forall s b,
  snd (set_cap s b) = true <-> s <> CapUnknown /\ s <> cap_of b.
Proof. exact set_cap_error. Qed.
Print Assumptions C14_capability_error.
Print Assumptions C14_capability_monotone.

(* the field Repository.referrersState has no writer other than that compare-and-swap
   (regenerated from the Go sources on every run), so every detection path - ping, Referrers()
   fallback, OCI-Subject header, push without Referrers API - obeys the theorem above *)
Theorem C14_capability_all_paths :
  GC14.referrersState_other = 0%Z /\
  forall (requests : list bool),
    match set_caps CapUnknown requests with
    | [] => requests = []
    | (s0, e0) :: rest => e0 = false /\ s0 <> CapUnknown /\ Forall (fun x => fst x = s0) rest
    end.
Proof. exact capability_all_paths. Qed.
Print Assumptions C14_capability_all_paths.

(* several referrers tags (subjects): every component of a run of the product
   system is a run of the one-tag system, so all theorems above hold per tag *)
Theorem C14_tags_independent : forall sg tr S S',
  grun sg S tr = Some S' -> forall g, exists trg, run sg (S g) trg = Some (S' g).
Proof. exact grun_project. Qed.
Print Assumptions C14_tags_independent.

(* two subject descriptors with the same digest (whatever their media type and size)
   map to the same referrers tag, and the calls of their referrers act on the same
   component (same Pool key, same Merge object, same registry tag) *)
Theorem C14_tag_by_digest : forall a b,
  s_digest a = s_digest b ->
  tag_of a = tag_of b /\ forall sg S e, sstep sg S (a, e) = sstep sg S (b, e).
Proof. exact tag_by_digest. Qed.
Print Assumptions C14_tag_by_digest.

(* ---- the delivery step at channel granularity (Model/Delivery.v): close of the
   buffered-1 status channel / len(items)-1 blocking sends by the main caller, one
   receive per waiter, in every interleaving ---- *)

(* every member receives the batch result, nothing else, at most once; when nothing can
   happen any more every member has received it *)
Theorem C14_delivery_exactly_once : forall r ws tr d,
  NoDup ws -> drun r (dinit ws) tr = Some d ->
  (forall t x, In (t, x) (d_received d) -> In t ws /\ x = r) /\
  NoDup (map fst (d_received d)) /\
  (dstuck r d -> forall t, In t ws -> In (t, r) (d_received d)).
Proof. exact delivery_exactly_once. Qed.
Print Assumptions C14_delivery_exactly_once.

(* late receivers: once the main caller has gone on to the swap on the error path, at most
   one member has not received yet and its value sits in the buffer *)
Theorem C14_delivery_late_receiver : forall r ws tr d,
  NoDup ws -> drun r (dinit ws) tr = Some d -> d_main_done d = true -> is_ok r = false ->
  (length (d_waiting d) <= 1)%nat /\ (d_waiting d <> [] -> d_buf d = Some r).
Proof. exact late_receiver. Qed.
Print Assumptions C14_delivery_late_receiver.

Theorem C14_delivery_bounded : forall r ws tr d d',
  DInv r ws d -> drun r d tr = Some d' -> (length tr + dmu d' <= dmu d)%nat.
Proof. exact delivery_bounded. Qed.
Print Assumptions C14_delivery_bounded.

(* refinement of the delivery step: every maximal channel-level run hands out exactly what
   the atomic EComplete of the Merge system writes into the members' program counters *)
Theorem C14_delivery_refines_complete : forall s t r tr d,
  InvS s -> pcs s t = Completing r ->
  drun r (dinit (waiters s t)) tr = Some d -> dstuck r d ->
  forall x, x <> t -> In x (batch s) ->
    (forall rr, In (x, rr) (d_received d) <-> complete_pcs s t r x = Ret rr).
Proof. exact delivery_refines_complete. Qed.
Print Assumptions C14_delivery_refines_complete.

(* ---- the whole protocol at CHANNEL granularity (Model/MergeFine.v): buffered-1 status channels
   per generation, main status in the buffer, close / blocking sends in complete(), late
   receivers, the swap as a separate lock region - interleaved with everything else ---- *)

(* in every reachable state: one main caller; the main status only in the current status
   channel and only while nobody is main; every buffered status / closed channel carries
   the verdict of its batch; the main caller in complete() knows that verdict; Pool refcount *)
Theorem C14_fine_structure : forall sg r0 st0 ftr f,
  frun sg (finit r0 st0) ftr = Some f ->
  (forall t1 t2, fmain (f_pcs f t1) = true -> fmain (f_pcs f t2) = true -> t1 = t2) /\
  (forall g, fbuf (f_chans f g) = Some FMain -> g = f_gen f /\ forall t, fmain (f_pcs f t) = false) /\
  (forall g r, fbuf (f_chans f g) = Some (FRes r) -> f_verdict f g = Some r) /\
  (forall g, fclosed (f_chans f g) = true -> f_verdict f g = Some ROk) /\
  (forall t r, fres (f_pcs f t) = Some r -> f_verdict f (f_gen f) = Some r) /\
  (exists hs, NoDup hs /\ (forall t, In t hs <-> fholding (f_pcs f t) = true) /\
     match f_pool f with None => hs = [] | Some rc => rc = length hs /\ hs <> [] end).
Proof. exact fine_structure. Qed.
Print Assumptions C14_fine_structure.

(* refinement: every run of the channel-level system is simulated by a run of the system of
   Model/Merge.v (EComplete = the moment the main caller enters complete(); channel operations
   and the swap stutter; a caller blocked on a channel whose batch has its verdict corresponds
   to a caller that has returned): same Pool entry, registry cell and index manifests *)
Theorem C14_fine_simulated : forall sg r0 st0 ftr f,
  frun sg (finit r0 st0) ftr = Some f ->
  exists tr c, run sg (init r0 st0) tr = Some c /\ Sim f c.
Proof. exact fine_simulated. Qed.
Print Assumptions C14_fine_simulated.

(* hence no lost update and the listing theorem at channel granularity *)
Theorem C14_fine_no_lost_update : forall sg r0 st0 ftr f,
  frun sg (finit r0 st0) ftr = Some f -> fquiescent f ->
  exists tr c, run sg (init r0 st0) tr = Some c /\ quiescent c /\
    (forall t r, f_pcs f t = FDone r <-> pcs c t = Done r) /\
    NoDup (lin c) /\
    (forall t, In t (lin c) <-> exists r, f_pcs f t = FDone r /\ r <> RErr) /\
    (forall k, memb (f_reg f) k = member_after k (memb r0 k) (map (arg c) (lin c))) /\
    NoDup (keys (list_referrers (f_reg f) 0)) /\
    (forall k, In k (keys (list_referrers (f_reg f) 0)) <-> member_after k (memb r0 k) (map (arg c) (lin c)) = true).
Proof. exact fine_no_lost_update. Qed.
Print Assumptions C14_fine_no_lost_update.

(* Pool.Get / release: the [pool] field of the transition system is a reference count moved by
   pool_get / pool_put (the functions the P lines replay against syncutil.Pool: identity of the
   pooled Merge across Get / release in lock order, including a release that waits for the
   pool lock while a Get overtakes it); a fresh entry is a zero Merge; and in every reachable
   state, while some caller holds the entry, Get never creates a second one *)
Theorem C14_pool_is_refcount : forall sg s e s',
  step sg s e = Some s' ->
  match e with
  | EGet _ _ => pool s' = fst (pool_get (pool s)) /\
                (snd (pool_get (pool s)) = true ->
                 items s' = [] /\ pending s' = [] /\ committed s' = false /\ token s' = false)
  | EDone _ => pool s' = pool_put (pool s)
  | _ => pool s' = pool s
  end.
Proof. exact pool_is_refcount. Qed.
Print Assumptions C14_pool_is_refcount.

Theorem C14_pool_shared : forall sg r0 st0 tr s t c s',
  run sg (init r0 st0) tr = Some s -> (exists x, holding (pcs s x) = true) ->
  step sg s (EGet t c) = Some s' -> snd (pool_get (pool s)) = false.
Proof. exact pool_shared. Qed.
Print Assumptions C14_pool_shared.

(* channel-level DEADLOCK FREEDOM: in every reachable state of the channel-level system in which
   some caller is inside Do or has not yet called its release function, a step other than a new
   call / an external tag drop is enabled: a send of complete() that blocks on the full buffer
   always has a member of the batch ready to receive (counting invariant InvP: members that
   have not received = sends left + buffered status), and a caller still blocked on the status
   channel of an earlier batch finds its status there or the channel closed *)
Theorem C14_fine_no_deadlock : forall sg r0 st0 tr f,
  frun sg (finit r0 st0) tr = Some f -> (exists t, fholding (f_pcs f t) = true) ->
  exists e f', fis_env e = false /\ fstep sg f e = Some f'.
Proof. exact fine_no_deadlock. Qed.
Print Assumptions C14_fine_no_deadlock.

(* ... and termination: from every reachable state, without new calls, only a bounded number
   of steps (lock regions, channel operations, HTTP exchanges) can still happen; together with
   C14_fine_no_deadlock: every call returns and releases its Pool entry *)
Theorem C14_fine_bounded_completion : forall sg r0 st0 tr f,
  frun sg (finit r0 st0) tr = Some f ->
  exists bound, forall tr' f',
    forallb (fun e => negb (fis_env e)) tr' = true -> frun sg f tr' = Some f' ->
    (length tr' <= bound)%nat.
Proof. exact fine_bounded_completion. Qed.
Print Assumptions C14_fine_bounded_completion.

(* ... hence: from every reachable state of the channel-level system there IS a run without
   new calls to a quiescent state (every caller inside Do has returned and released) *)
Theorem C14_fine_terminates : forall sg r0 st0 tr f,
  frun sg (finit r0 st0) tr = Some f ->
  exists tr' f', forallb (fun e => negb (fis_env e)) tr' = true /\ frun sg f tr' = Some f' /\ fquiescent f'.
Proof. exact fine_terminates. Qed.
Print Assumptions C14_fine_terminates.

Theorem C14_fine_counting : forall sg r0 st0 tr f,
  frun sg (finit r0 st0) tr = Some f -> InvF f /\ InvP f.
Proof. exact fine_reachable_inv. Qed.
Print Assumptions C14_fine_counting.

(* ---- the hypotheses are satisfiable: concrete instances ---- *)
Definition dA := mkDesc 1 7 0. Definition dB := mkDesc 2 0 3. Definition dC := mkDesc 3 0 0.

Example apply_ex :
  apply_changes [dA; empty_desc; dA; dB] [Remove dA; Add dC; Add dA] = Updated [dB; dC; dA] /\
  apply_changes [dA; dB] [Remove dA; Add dA] = NoUpdate /\
  changes_nonempty [Remove dA; Add dC; Add dA].
Proof. repeat split; try (vm_compute; reflexivity). repeat constructor; discriminate. Qed.

(* three callers, two batches, a failed deletion of the superseded index *)
Definition ex_trace : list event :=
  [EGet 0 (Add dA); EAssign 0; ERecvMain 0; EGet 1 (Add dB); EAssign 1; EPrepare 0 false; ECommit 0;
   EGet 2 (Remove dA); EAssign 2; EPut 0 false; EComplete 0; EDone 0; EDone 1;
   ERecvMain 2; EPrepare 2 false; ECommit 2; EPut 2 false; EDel 2 true; EComplete 2; EDone 2]%nat.

Example run_ex :
  match run false (init None []) ex_trace with
  | Some s => lin s = [0; 1; 2]%nat /\ reg s = Some [dB] /\ pool s = None /\
              map (pcs s) [0; 1; 2; 3]%nat = [Done ROk; Done ROk; Done RIdxDel; Idle] /\
              junk s = [[dA; dB]]
  | None => False
  end.
Proof. vm_compute. repeat split. Qed.

(* two callers in one batch, the response of the PUT is lost: both get the error, the index
   contains both changes, the old index is left behind *)
Example lost_ex :
  match run false (init (Some [dC]) [[dC]])
          [EGet 0 (Add dA); EAssign 0; EGet 1 (Add dB); EAssign 1; ERecvMain 0; EPrepare 0 false; ECommit 0;
           EPutLost 0; EComplete 0; EDone 0; EDone 1]%nat with
  | Some s => lin s = [0; 1]%nat /\ reg s = Some [dC; dA; dB] /\
              map (pcs s) [0; 1]%nat = [Done RLost; Done RLost] /\ map seen [RLost; RLost] = [RErr; RErr] /\
              junk s = [[dC]] /\ dangling s = 1%nat
  | None => False
  end.
Proof. vm_compute. repeat split. Qed.

(* the last referrer is removed: the update is the DELETE of the index; its response is lost *)
Example lost_del_ex :
  match run false (init (Some [dA]) [[dA]])
          [EGet 0 (Remove dA); EAssign 0; ERecvMain 0; EPrepare 0 false; ECommit 0; EDelLost 0; EComplete 0; EDone 0]%nat with
  | Some s => lin s = [0]%nat /\ reg s = None /\ store s = [] /\ map (pcs s) [0]%nat = [Done RLost]
  | None => False
  end.
Proof. vm_compute. repeat split. Qed.

(* three callers in one batch, the PUT fails: the second error send of complete() blocks on the
   full buffer until a member receives *)
Example fine_block_ex :
  match frun false (finit None [])
          [FEGet 0 (Add dA); FEAssign 0; FEGet 1 (Add dB); FEAssign 1; FEGet 2 (Add dC); FEAssign 2;
           FERecv 0; FEPrepare 0 false; FECommit 0; FEPut 0 true; FENotify 0]%nat with
  | Some f => fstep false f (FENotify 0%nat) = None /\ f_pcs f 0%nat = FNotify RErr 1 /\
              nwait f = 2%nat /\ fbuf (cur f) = Some (FRes RErr) /\
              (exists f', frun false f [FERecv 1; FENotify 0; FERecv 2; FENotify 0; FESwap 0; FEDone 0; FEDone 1; FEDone 2]%nat = Some f' /\
                          f_pool f' = None)
  | None => False
  end.
Proof. vm_compute. repeat split. eexists. split; reflexivity. Qed.

(* Get, Get (shared), release, Get (still shared), release, release, Get (fresh again) *)
Example pool_ex : pool_trace None [true; true; false; true; false; false; true] = [true; false; false; true].
Proof. reflexivity. Qed.

Example quiescent_ex : forall s, run false (init None []) ex_trace = Some s -> quiescent s.
Proof.
  intros s H. vm_compute in H. injection H as <-. intro t.
  do 3 (destruct t as [|t]; [right; eexists; reflexivity|]). left. reflexivity.
Qed.

(* two waiters, error path: the second one receives after the main caller has left *)
Example delivery_ex :
  match drun RErr (dinit [1; 2]%nat) [DSend; DRecv 2; DSend; DFinish; DRecv 1]%nat with
  | Some d => d_received d = [(1, RErr); (2, RErr)]%nat /\ d_waiting d = [] /\ d_main_done d = true
  | None => False
  end /\
  match drun ROk (dinit [1; 2]%nat) [DClose; DFinish; DRecv 1; DRecv 2]%nat with
  | Some d => d_received d = [(2, ROk); (1, ROk)]%nat
  | None => False
  end.
Proof. vm_compute. repeat split. Qed.

Example tracks_ex : tracks (None, []) /\
  fold_left seq_op [Add dA; Add dB; Remove dA; Add dC] (None, []) = (Some [dB; dC], [3; 2]) /\
  forallb (fun k => Bool.eqb (memb (Some [dB; dC]) k) (negb (k =? 0) && existsb (N.eqb k) [3; 2])) [0; 1; 2; 3; 4] = true.
Proof. split; [intro k; reflexivity|split; vm_compute; reflexivity]. Qed.

(* two pushes and a delete on three different manifests, interleaved, one batch of two *)
Example live_ex :
  match lrun false (linit (Some [dA]) [] [1])
    [LPut 0 dB; LIdx (EGet 1 (Remove dA)); LIdx (EAssign 1); LIdx (EGet 0 (Add dB)); LIdx (EAssign 0);
     LPut 2 dC; LIdx (ERecvMain 1); LIdx (EPrepare 1 false); LIdx (ECommit 1); LIdx (EGet 2 (Add dC)); LIdx (EAssign 2);
     LIdx (EPut 1 false); LIdx (EDel 1 false); LIdx (EComplete 1); LIdx (EDone 1); LIdx (EDone 0); LDel 1; LEnd 0;
     LIdx (ERecvMain 2); LIdx (EPrepare 2 false); LIdx (ECommit 2); LIdx (EPut 2 false); LIdx (EDel 2 false);
     LIdx (EComplete 2); LIdx (EDone 2); LEnd 2]%nat with
  | Some m => l_inflight m = [] /\ l_taint m = [] /\ l_live m = [3; 2] /\ reg (l_s m) = Some [dB; dC]
  | None => False
  end.
Proof. vm_compute. repeat split. Qed.

(* lost responses of the manifest exchanges: the PUT of dB takes effect but the push sees an error
   (live, unlisted, tainted); the delete's manifest DELETE takes effect (LDel) *)
Example live_lost_ex :
  match lrun false (linit (Some [dA]) [] [1])
    [LPutLost dB; LIdx (EGet 1 (Remove dA)); LIdx (EAssign 1); LIdx (ERecvMain 1); LIdx (EPrepare 1 false);
     LIdx (ECommit 1); LIdx (EDel 1 false); LIdx (EComplete 1); LIdx (EDone 1); LDel 1]%nat with
  | Some m => l_inflight m = [] /\ l_taint m = [2] /\ l_live m = [2] /\ reg (l_s m) = None /\
              consistent m 1 /\ ~ consistent m 2
  | None => False
  end.
Proof. vm_compute. repeat split; try discriminate. Qed.

(* channel level, error path with a late receiver: caller 1 receives its status after the main
   caller 0 has swapped and caller 2 has become the main caller of the next batch *)
Example fine_ex :
  match frun false (finit None [])
    [FEGet 0 (Add dA); FEAssign 0; FERecv 0; FEGet 1 (Add dB); FEAssign 1; FEPrepare 0 false; FECommit 0;
     FEGet 2 (Add dC); FEAssign 2; FEPut 0 true; FENotify 0; FENotify 0; FESwap 0; FERecv 2; FERecv 1;
     FEDone 0; FEDone 1; FEPrepare 2 false; FECommit 2; FEPut 2 false; FENotify 2; FESwap 2; FEDone 2]%nat with
  | Some f => map (f_pcs f) [0; 1; 2]%nat = [FDone RErr; FDone RErr; FDone ROk] /\ f_reg f = Some [dC] /\
              f_pool f = None /\ f_gen f = 2%nat
  | None => False
  end.
Proof. vm_compute. repeat split. Qed.
