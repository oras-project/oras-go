(* C15 -- Listings return every item exactly once and never over-read metadata.
   Statements closed by [exact] or by instantiating a general lemma; the lemmas live in
   Proofs/Paging.v, Proofs/PagingUrl.v and Proofs/PagingJson.v.
   Constants (defaultMaxMetadataBytes, filter names) are Generated/GC15.v,
   re-translated from registry/remote on every run. *)
From Oras Require Import Base.Prelude Generated.GC15 Model.Paging Model.PagingUrl Model.PagingJson Proofs.Paging Proofs.PagingUrl Proofs.PagingFacts Proofs.PagingJson.
From Coq Require Import Permutation Sorted.

(* parseLink returns exactly the text between '<' and the first '>' whatever follows *)
Theorem C15_parse_link :
  forall t rest, contains c_gt t = false ->
    parse_link (c_lt :: t ++ c_gt :: rest) = LTarget t.
Proof. exact parse_link_wellformed. Qed.
Print Assumptions C15_parse_link.

(* Tags / Repositories against any registry (any item list without duplicates, any split
   oracle [ds], any cap, any page size, any [last], any Link rendering that net/url
   resolves to the intended target): the loop ends without error, the concatenation of
   the callback arguments is exactly the registry's suffix after [last] -- each item
   once, in the registry's order -- within |suffix|+1 requests. *)
Theorem C15_exactly_once :
  forall (L : list item) (cap : nat) (ds : nat -> decision)
         (render : nat -> url -> url -> str) (trailer : nat -> str)
         (resolve : url -> str -> option url) (c : cfg) (cu : cursor) (npath : nat -> str -> str) (vis : item -> bool)
         (path last0 : str) (fuel : nat),
    cursor_ok cu ->
    c_kind c <> KReferrers ->
    NoDup (map fst L) -> (forall it, In it L -> fst it <> []) ->
    (forall i base x, In x (map fst L) ->
       contains c_gt (render i base (link_target ds cu npath i base x)) = false) ->
    (forall i base x, In x (map fst L) ->
       resolve base (render i base (link_target ds cu npath i base x)) = Some (link_target ds cu npath i base x)) ->
    (forall i, (Z.of_N (d_doc_len (ds i)) <= eff_limit (c_limit c))%Z) ->
    (length (after last0 L) < fuel)%nat ->
    let t := loop (reg_serve (c_kind c) cu npath vis L cap ds render trailer) resolve (fun _ => false) c
                  fuel 0 0 (mkUrl path []) last0 in
    t_out t = Done /\
    concat (t_pages t) = filter vis (after last0 L) /\
    NoDup (map fst (concat (t_pages t))) /\
    (length (t_reqs t) <= S (length (after last0 L)))%nat.
Proof.
  intros until fuel. intros Hcu K Hnd Hne Hgt Hres Hfit Hfuel.
  destruct (listing_exactly_once_inv L cap ds render trailer resolve c cu npath vis (fun _ => True))
    with (path := path) (last0 := last0) (fuel := fuel) as (O & P & R); auto; try congruence.
  cbv zeta. rewrite P. auto using shown_after_NoDup.
Qed.
Print Assumptions C15_exactly_once.

(* Referrers: the delivered referrers are exactly those of the requested artifact type
   (all of them when none is requested), once, in order, whether each page was filtered
   by the registry (announced by header, by annotation, or not announced) or not. *)
Theorem C15_filter :
  forall (L : list item) (cap : nat) (ds : nat -> decision)
         (render : nat -> url -> url -> str) (trailer : nat -> str)
         (resolve : url -> str -> option url) (c : cfg) (cu : cursor) (npath : nat -> str -> str) (vis : item -> bool)
         (path : str) (fuel : nat),
    cursor_ok cu ->
    c_kind c = KReferrers ->
    NoDup (map fst L) -> (forall it, In it L -> fst it <> []) ->
    (forall i base x, In x (map fst L) ->
       contains c_gt (render i base (link_target ds cu npath i base x)) = false) ->
    (forall i base x, In x (map fst L) ->
       resolve base (render i base (link_target ds cu npath i base x)) = Some (link_target ds cu npath i base x)) ->
    (forall i, (Z.of_N (d_doc_len (ds i)) <= eff_limit (c_limit c))%Z) ->
    (forall i, qget k_at (d_extra (ds i)) = None) ->
    (length L < fuel)%nat ->
    let t := loop (reg_serve KReferrers cu npath vis L cap ds render trailer) resolve (fun _ => false) c
                  fuel 0 0 (mkUrl path (referrers_query (c_at c))) [] in
    t_out t = Done /\
    concat (t_pages t) = filter_referrers (filter vis L) (c_at c) /\
    (length (t_reqs t) <= S (length L))%nat.
Proof. exact referrers_exactly_once. Qed.
Print Assumptions C15_filter.

(* ---------- the hypotheses are satisfiable: a concrete registry and a toy net/url ---------- *)

Example C15_example_tags :
  let t := loop (reg_serve KTags CLast (fun _ p => p) (fun _ => true) ex_L 2 ex_ds ex_render (fun _ => b "; rel=""next""")) ex_resolve
                (fun _ => false) (ex_cfg KTags) 5 0 0 (mkUrl (b "/v2/r/tags/list") []) (b "a") in
  t_out t = Done /\ map fst (concat (t_pages t)) = [b "b"; b "c"; b "d"] /\ length (t_reqs t) = 2%nat.
Proof. vm_compute. repeat split. Qed.

Example C15_example_hypotheses :
  NoDup (map fst ex_L) /\ (forall it, In it ex_L -> fst it <> []) /\
  (forall i base x, In x (map fst ex_L) ->
     contains c_gt (ex_render i base (link_target ex_ds CLast (fun _ p => p) i base x)) = false) /\
  (forall i base x, In x (map fst ex_L) ->
     ex_resolve base (ex_render i base (link_target ex_ds CLast (fun _ p => p) i base x)) = Some (link_target ex_ds CLast (fun _ p => p) i base x)) /\
  (forall i, (Z.of_N (d_doc_len (ex_ds i)) <= eff_limit (c_limit (ex_cfg KTags)))%Z) /\
  (forall i, qget k_at (d_extra (ex_ds i)) = None).
Proof. exact example_hypotheses. Qed.

(* the same registry paging one item per page with an opaque cursor "token=p;<name>" under
   another path, not showing entry "c": its page is empty, the listing goes on *)
Example C15_example_token_cursor :
  let t := loop (reg_serve KTags ex_cu ex_npath ex_vis ex_L 1 ex_ds ex_render_tok (fun _ => [])) ex_resolve_tok
                (fun _ => false) (ex_cfg KTags) 5 0 0 (mkUrl (b "/v2/r/tags/list") []) (b "a") in
  t_out t = Done /\ map (map fst) (t_pages t) = [[b "b"]; []; [b "d"]] /\
  map u_path (t_reqs t) = [b "/v2/r/tags/list"; b "/v2/r/tags/list/~p"; b "/v2/r/tags/list/~p"].
Proof. vm_compute. repeat split. Qed.

Example C15_example_token_hypotheses :
  cursor_ok ex_cu /\
  (forall i base x, In x (map fst ex_L) ->
     contains c_gt (ex_render_tok i base (link_target ex_ds ex_cu ex_npath i base x)) = false) /\
  (forall i base x, In x (map fst ex_L) ->
     ex_resolve_tok base (ex_render_tok i base (link_target ex_ds ex_cu ex_npath i base x)) = Some (link_target ex_ds ex_cu ex_npath i base x)).
Proof. exact example_token_hypotheses. Qed.

Example C15_example_referrers :
  let t := loop (reg_serve KReferrers CLast (fun _ p => p) (fun _ => true) ex_L 2 ex_ds ex_render (fun _ => [])) ex_resolve
                (fun _ => false) (ex_cfg KReferrers) 6 0 0
                (mkUrl (b "/v2/r/referrers/d") (referrers_query (b "t1"))) [] in
  t_out t = Done /\ map fst (concat (t_pages t)) = [b "a"; b "c"; b "d"].
Proof. vm_compute. repeat split. Qed.

(* ---------- callback failure (any server, any resolver) ---------- *)

(* With a failing callback the listing is the truncation of the undisturbed one: either no
   invoked callback fails and nothing changes, or the first failing invocation m ends the
   loop with the callback's error, exactly the first m+1 pages were delivered and the
   requests sent are a prefix of the undisturbed requests. *)
Theorem C15_stops_on_error :
  forall (serve : nat -> url -> response) (resolve : url -> str -> option url) (c : cfg)
         (cb_fail : nat -> bool) fuel i k u last,
    let t0 := loop serve resolve (fun _ => false) c fuel i k u last in
    let t1 := loop serve resolve cb_fail c fuel i k u last in
    (t1 = t0 /\ forall j, (j < length (t_pages t0))%nat -> cb_fail (k + j)%nat = false) \/
    (exists n m, t_out t1 = ErrCallback /\
                 t_reqs t1 = firstn (S n) (t_reqs t0) /\
                 t_pages t1 = firstn (S m) (t_pages t0) /\
                 (m < length (t_pages t0))%nat /\
                 cb_fail (k + m)%nat = true /\
                 forall j, (j < m)%nat -> cb_fail (k + j)%nat = false).
Proof. exact loop_fail_prefix. Qed.
Print Assumptions C15_stops_on_error.

(* Tags / Repositories with ANY callback behaviour: the listing ends Done having delivered
   the whole suffix, or with the callback's error having delivered a prefix of it *)
Theorem C15_exactly_once_any_callback :
  forall (L : list item) (cap : nat) (ds : nat -> decision)
         (render : nat -> url -> url -> str) (trailer : nat -> str)
         (resolve : url -> str -> option url) (c : cfg) (cu : cursor) (npath : nat -> str -> str) (vis : item -> bool)
         (cb_fail : nat -> bool) (path last0 : str) (fuel : nat),
    cursor_ok cu ->
    c_kind c <> KReferrers ->
    NoDup (map fst L) -> (forall it, In it L -> fst it <> []) ->
    (forall i base x, In x (map fst L) ->
       contains c_gt (render i base (link_target ds cu npath i base x)) = false) ->
    (forall i base x, In x (map fst L) ->
       resolve base (render i base (link_target ds cu npath i base x)) = Some (link_target ds cu npath i base x)) ->
    (forall i, (Z.of_N (d_doc_len (ds i)) <= eff_limit (c_limit c))%Z) ->
    (length (after last0 L) < fuel)%nat ->
    let t := loop (reg_serve (c_kind c) cu npath vis L cap ds render trailer) resolve cb_fail c
                  fuel 0 0 (mkUrl path []) last0 in
    (t_out t = Done /\ concat (t_pages t) = filter vis (after last0 L)) \/
    (t_out t = ErrCallback /\ exists rest', filter vis (after last0 L) = concat (t_pages t) ++ rest').
Proof. intros; eapply loop_any_callback, C15_exactly_once; eauto. Qed.
Print Assumptions C15_exactly_once_any_callback.

(* the error is ErrCallback exactly when the last invoked callback failed; no callback is
   invoked after a failing one *)
Theorem C15_callback_discipline :
  forall (serve : nat -> url -> response) (resolve : url -> str -> option url) (c : cfg)
         (cb_fail : nat -> bool) fuel i k u last,
    let t := loop serve resolve cb_fail c fuel i k u last in
    ok_calls cb_fail k (t_pages t) (t_out t).
Proof. exact loop_calls. Qed.
Print Assumptions C15_callback_discipline.

(* Referrers never hands an empty page to the callback *)
Theorem C15_no_empty_referrers_page :
  forall (serve : nat -> url -> response) (resolve : url -> str -> option url) (c : cfg)
         (cb_fail : nat -> bool),
    c_kind c = KReferrers ->
    forall fuel i k u last,
      Forall (fun p => p <> []) (t_pages (loop serve resolve cb_fail c fuel i k u last)).
Proof. exact loop_no_empty_page. Qed.
Print Assumptions C15_no_empty_referrers_page.

(* ---------- the limit ---------- *)

(* MaxMetadataBytes <= 0 means the (generated) default; what passes limitReader ([seen]) is a prefix of the body
   of at most that many bytes; a page is produced only from a well-formed document that fits, a larger document
   is an error; a successful listing decoded only fitting documents. *)
Theorem C15_limit :
  (forall n, (n <= 0)%Z -> eff_limit n = defaultMaxMetadataBytes) /\
  (forall n, (0 < n)%Z -> eff_limit n = n) /\
  (forall limit body,
     (Z.of_nat (length (seen limit body)) <= eff_limit limit)%Z /\
     (exists rest, body = seen limit body ++ rest) /\
     ((Z.of_nat (length body) <= eff_limit limit)%Z -> seen limit body = body)) /\
  (forall c rs p, handle c rs = inr p ->
     rs_json_ok rs = true /\ (Z.of_N (rs_doc_len rs) <= eff_limit (c_limit c))%Z) /\
  (forall c rs, (eff_limit (c_limit c) < Z.of_N (rs_doc_len rs))%Z -> exists e, handle c rs = inl e) /\
  (forall serve resolve cb_fail c fuel i k u last,
     let t := loop serve resolve cb_fail c fuel i k u last in
     t_out t = Done ->
     forall j rq, nth_error (t_reqs t) j = Some rq ->
       rs_json_ok (serve (i + j)%nat rq) = true /\
       (Z.of_N (rs_doc_len (serve (i + j)%nat rq)) <= eff_limit (c_limit c))%Z).
Proof.
  exact (conj eff_limit_default (conj eff_limit_set (conj seen_spec (conj handle_ok_fits (conj handle_oversize
         loop_done_all_fit))))).
Qed.
Print Assumptions C15_limit.

(* Every kind of listing against any registry, documents of any size: either the listing
   completes with exactly the expected items and every document it read fitted, or it
   fails with a decode error at the first request j whose document does not fit, having
   delivered only whole pages (the view of a prefix of the items) -- never items of a
   truncated document, and no request after j. *)
Theorem C15_limit_listing :
  forall (L : list item) (cap : nat) (ds : nat -> decision)
         (render : nat -> url -> url -> str) (trailer : nat -> str)
         (resolve : url -> str -> option url) (c : cfg) (cu : cursor) (npath : nat -> str -> str) (vis : item -> bool)
         (path last0 : str) (fuel : nat),
    cursor_ok cu ->
    NoDup (map fst L) -> (forall it, In it L -> fst it <> []) ->
    (forall i base x, In x (map fst L) ->
       contains c_gt (render i base (link_target ds cu npath i base x)) = false) ->
    (forall i base x, In x (map fst L) ->
       resolve base (render i base (link_target ds cu npath i base x)) = Some (link_target ds cu npath i base x)) ->
    (c_kind c = KReferrers -> forall i, qget k_at (d_extra (ds i)) = None) ->
    (length (start_rest c last0 L) < fuel)%nat ->
    let t := loop (reg_serve (c_kind c) cu npath vis L cap ds render trailer) resolve (fun _ => false) c
                  fuel 0 0 (mkUrl path (start_query c)) last0 in
    let fit := fun i => (Z.of_N (d_doc_len (ds i)) <= eff_limit (c_limit c))%Z in
    (t_out t = Done /\ concat (t_pages t) = view c vis (start_rest c last0 L) /\
     forall j, (j < length (t_reqs t))%nat -> fit j) \/
    (t_out t = ErrDecode /\
     exists n j, concat (t_pages t) = view c vis (firstn n (start_rest c last0 L)) /\
                 length (t_reqs t) = S j /\ ~ fit j /\ forall j', (j' < j)%nat -> fit j').
Proof.
  intros until fuel. intros Hcu Hnd Hne Hgt Hres Hex Hfuel.
  eapply proj2, (listing_run L cap ds render trailer resolve c cu npath vis (fun _ => True)); auto.
Qed.
Print Assumptions C15_limit_listing.

(* bytes: behind io.LimitReader a stream decoder sees at most the limit, and for a
   self-delimiting document d (value v) followed by anything it yields v when d fits and
   fails otherwise -- never a value decoded from a truncated document *)
Theorem C15_limit_bytes :
  forall (A : Type) (decode_stream : str -> option A) (d : str) (v : A) (pad : str) (limit : Z),
    is_document A decode_stream d v ->
    (Z.of_nat (length (seen limit (d ++ pad))) <= eff_limit limit)%Z /\
    decode_stream (seen limit (d ++ pad)) =
      if (Z.of_nat (length d) <=? eff_limit limit)%Z then Some v else None.
Proof. exact limit_bytes. Qed.
Print Assumptions C15_limit_bytes.

(* The digest probe of FetchReference (manifest GET without Docker-Content-Digest, e.g. the index
   of the referrers tag schema; code after 4290d32): never more than MaxMetadataBytes is read, a
   body over the limit is refused with nothing read, a body that is not refused is read completely *)
Theorem C15_digest_probe :
  forall limit clen body,
    (Z.of_nat (length (fst (digest_probe limit clen body))) <= eff_limit limit)%Z /\
    (clen = Z.of_nat (length body) ->
       (snd (digest_probe limit clen body) = true <-> (eff_limit limit < Z.of_nat (length body))%Z) /\
       (snd (digest_probe limit clen body) = true -> fst (digest_probe limit clen body) = []) /\
       (snd (digest_probe limit clen body) = false -> fst (digest_probe limit clen body) = body)).
Proof. exact digest_probe_spec. Qed.
Print Assumptions C15_digest_probe.

(* the first version of that fix (digest_probe_v1: a reader of limit+1 bytes) over-read by one *)
Theorem C15_digest_probe_v1_over_read_refuted :
  exists limit body, (eff_limit limit < Z.of_nat (length (fst (digest_probe_v1 limit body))))%Z.
Proof. exact digest_probe_v1_refuted. Qed.
Print Assumptions C15_digest_probe_v1_over_read_refuted.

(* limitSize (referrers tag schema path) rejects exactly the descriptors larger than the limit *)
Theorem C15_limit_size :
  forall limit size, limit_size_rejects limit size = true <-> (eff_limit limit < size)%Z.
Proof. exact limit_size_spec. Qed.
Print Assumptions C15_limit_size.

(* Referrers through the tag schema (registries without referrers API): an index larger
   than the limit is an error with nothing delivered; otherwise the callback gets, in one
   non-empty page, the referrers of the requested artifact type among the cleaned index
   (empty entries skipped, a repeated descriptor only once), no referrer twice; a failing
   callback is the listing's error *)
Theorem C15_tag_schema :
  forall limit size items a cb_fail,
    let r := tag_schema limit true size items a cb_fail in
    ((eff_limit limit < size)%Z -> r = ([], ErrSize)) /\
    ((size <= eff_limit limit)%Z ->
       Forall (fun p => p <> []) (fst r) /\
       concat (fst r) = filter_referrers (clean_index items) a /\
       NoDup (map fst (concat (fst r))) /\
       (snd r = Done \/ (snd r = ErrCallback /\ cb_fail 0%nat = true /\ fst r <> [])) /\
       (cb_fail 0%nat = false -> snd r = Done)).
Proof. exact tag_schema_spec. Qed.
Print Assumptions C15_tag_schema.

(* the cleaned index: every non-empty name of the index exactly once, entries of the index
   only; an index without repeated or empty entries is left as it is *)
Theorem C15_tag_schema_clean_index :
  forall items,
    NoDup (map fst (clean_index items)) /\
    (forall x, In x (clean_index items) -> In x items /\ fst x <> []) /\
    (forall x, In x items -> fst x <> [] -> In (fst x) (map fst (clean_index items))) /\
    (NoDup (map fst items) -> (forall x, In x items -> fst x <> []) -> clean_index items = items).
Proof. exact clean_index_spec. Qed.
Print Assumptions C15_tag_schema_clean_index.

(* ---------- Repository.Referrers: capability detection around the two paths ---------- *)

(* api = the run of referrersByAPI, ts = the run of referrersByTagSchema.  The callback
   arguments come from exactly one of the two paths (the tag schema is run from the unknown
   state only when the API answered "unsupported" before anything was delivered); the
   capability never changes once set; from unknown it becomes supported exactly on a
   successful API listing and unsupported exactly when the tag schema was used. *)
Theorem C15_referrers_capability :
  forall st cbu (api : trace) ts,
    let w := referrers_wrap st cbu api ts in
    ((w_fell_back w = false /\ w_pages w = t_pages api /\ w_out w = t_out api) \/
     (w_fell_back w = true /\ w_pages w = fst (ts 0%nat) /\ w_out w = snd (ts 0%nat) /\
      (st = RUnknown -> t_pages api = [] /\ unsupported_class cbu (t_out api) = true))) /\
    (st <> RUnknown -> w_state w = st) /\
    (st = RUnknown ->
       (w_state w = RSupported <-> t_out api = Done) /\
       (w_state w = RUnsupported <-> w_fell_back w = true) /\
       (w_state w = RUnknown <-> (t_out api <> Done /\ w_fell_back w = false))) /\
    (st = RUnsupported -> w_fell_back w = true) /\
    (st = RSupported -> w_fell_back w = false).
Proof. exact wrap_spec. Qed.
Print Assumptions C15_referrers_capability.

(* whatever the callback's error is (also one of the class errdef.ErrUnsupported), it is
   what Referrers returns, and no callback is invoked afterwards *)
Theorem C15_referrers_callback_error :
  forall serve resolve cb_fail c fuel u st cbu ts,
    st <> RUnsupported ->
    let api := loop serve resolve cb_fail c fuel 0 0 u [] in
    t_out api = ErrCallback ->
    let w := referrers_wrap st cbu api ts in
    w_out w = ErrCallback /\ w_pages w = t_pages api /\ w_fell_back w = false.
Proof. exact wrap_callback_error. Qed.
Print Assumptions C15_referrers_callback_error.

(* end to end, unknown capability, registry with the referrers API (hypotheses of C15_filter):
   exactly the requested referrers, capability becomes supported, no tag schema *)
Theorem C15_referrers_unknown_with_api :
  forall (L : list item) (cap : nat) (ds : nat -> decision)
         (render : nat -> url -> url -> str) (trailer : nat -> str)
         (resolve : url -> str -> option url) (c : cfg) (cu : cursor) (npath : nat -> str -> str) (vis : item -> bool)
         (path : str) (fuel : nat) cbu ts,
    cursor_ok cu ->
    c_kind c = KReferrers ->
    NoDup (map fst L) -> (forall it, In it L -> fst it <> []) ->
    (forall i base x, In x (map fst L) ->
       contains c_gt (render i base (link_target ds cu npath i base x)) = false) ->
    (forall i base x, In x (map fst L) ->
       resolve base (render i base (link_target ds cu npath i base x)) = Some (link_target ds cu npath i base x)) ->
    (forall i, (Z.of_N (d_doc_len (ds i)) <= eff_limit (c_limit c))%Z) ->
    (forall i, qget k_at (d_extra (ds i)) = None) ->
    (length L < fuel)%nat ->
    let api := loop (reg_serve KReferrers cu npath vis L cap ds render trailer) resolve (fun _ => false) c
                    fuel 0 0 (mkUrl path (referrers_query (c_at c))) [] in
    let w := referrers_wrap RUnknown cbu api ts in
    w_out w = Done /\ concat (w_pages w) = filter_referrers (filter vis L) (c_at c) /\
    w_state w = RSupported /\ w_fell_back w = false.
Proof. exact referrers_unknown_with_api. Qed.
Print Assumptions C15_referrers_unknown_with_api.

(* unknown capability, registry answering the referrers endpoint with a plain 404: one API
   request, then exactly the tag-schema result (C15_tag_schema), capability unsupported *)
Theorem C15_referrers_unknown_without_api :
  forall (serve : nat -> url -> response) (resolve : url -> str -> option url) (c : cfg)
         (cb_fail : nat -> bool) (u : url) (fuel : nat) cbu found size items,
    c_kind c = KReferrers -> (0 < fuel)%nat ->
    (forall i rq, rs_status (serve i rq) = 404 /\ rs_name_unknown (serve i rq) = false) ->
    let api := loop serve resolve cb_fail c fuel 0 0 u [] in
    let ts := fun k => tag_schema (c_limit c) found size items (c_at c) (fun j => cb_fail (k + j)%nat) in
    let w := referrers_wrap RUnknown cbu api ts in
    length (w_reqs w) = 1%nat /\ w_fell_back w = true /\ w_state w = RUnsupported /\
    w_pages w = fst (ts 0%nat) /\ w_out w = snd (ts 0%nat).
Proof. exact referrers_unknown_without_api. Qed.
Print Assumptions C15_referrers_unknown_without_api.

(* the code before the fix (model referrers_wrap_prefix): a callback error of the unsupported
   class was swallowed, the tag schema run, a referrer delivered twice, success returned *)
Theorem C15_referrers_fallback_refuted :
  exists (cb_fail : nat -> bool),
    let api := loop (reg_serve KReferrers CLast (fun _ p => p) (fun _ => true) wit_L 5 wit_ds wit_render (fun _ => [])) wit_resolve
                    cb_fail wit_cfg 9 0 0 wit_u [] in
    let w := referrers_wrap_prefix RUnknown true api (wit_ts cb_fail) in
    t_out api = ErrCallback /\ w_out w = Done /\ w_state w = RUnsupported /\
    ~ NoDup (map fst (concat (w_pages w))).
Proof. exact wrap_prefix_refuted. Qed.
Print Assumptions C15_referrers_fallback_refuted.

(* the referrers response must carry exactly the index media type (no parameters, no other
   spelling); a 404 means "no referrers API" unless it says NAME_UNKNOWN *)
Theorem C15_content_type_exact :
  forall c rs, c_kind c = KReferrers -> rs_status rs = 200 ->
    (rs_ctype rs <> mediaTypeImageIndex -> handle c rs = inl ErrCType) /\
    (forall p, handle c rs = inr p -> rs_ctype rs = mediaTypeImageIndex).
Proof. exact handle_ctype. Qed.
Print Assumptions C15_content_type_exact.

Theorem C15_referrers_404 :
  forall c rs, c_kind c = KReferrers -> rs_status rs = 404 ->
    handle c rs = inl (if rs_name_unknown rs then ErrStatus else ErrUnsupported).
Proof. exact handle_404. Qed.
Print Assumptions C15_referrers_404.

(* pingReferrers agrees with Referrers: a known capability is returned without change; from
   the unknown state "unsupported" is answered exactly for the responses that the referrers
   listing reads as "no referrers API", "supported" exactly for 200 + index media type, and
   the capability is set accordingly (errors leave it unknown) *)
Theorem C15_ping_agrees :
  forall st rs c,
    c_kind c = KReferrers ->
    (st = RSupported -> ping st rs = (st, Some true)) /\
    (st = RUnsupported -> ping st rs = (st, Some false)) /\
    (st = RUnknown ->
       (snd (ping st rs) = Some false <->
          (handle c rs = inl ErrUnsupported \/ handle c rs = inl ErrCType)) /\
       (snd (ping st rs) = Some true <-> (rs_status rs = 200 /\ rs_ctype rs = mediaTypeImageIndex)) /\
       (fst (ping st rs) = RUnsupported <-> snd (ping st rs) = Some false) /\
       (fst (ping st rs) = RSupported <-> snd (ping st rs) = Some true) /\
       (fst (ping st rs) = RUnknown <-> snd (ping st rs) = None)).
Proof. exact ping_spec. Qed.
Print Assumptions C15_ping_agrees.

(* the code before fix 635f618 (mk_request_prefix): with a page size configured, a link
   parameter that url.ParseQuery rejects -- here the registry's cursor token=p;b -- is lost *)
Theorem C15_lossy_query_refuted :
  let link := mkUrl (b "/v2/r/tags/list") [(b "token", VS (b "p;b")); (b "x", VS (b "1"))] in
  let cu := CToken (b "token") (b "p;") in
  cursor_read cu (u_query (mk_request_prefix wit_parses (mkCfg KTags 2 0 []) link [])) = [] /\
  cursor_read cu (u_query (mk_request (mkCfg KTags 2 0 []) link [])) = b "b" /\
  mk_request_prefix wit_parses (mkCfg KTags 0 0 []) link [] = link.
Proof. exact lossy_query_refuted. Qed.
Print Assumptions C15_lossy_query_refuted.

(* ---------- several link-values / Link lines ---------- *)

(* Only the first Link line is read (rs_link = hd), and of it the first "<...>"
   (C15_parse_link): whatever follows the next link -- further link-values, further lines --
   does not matter (C15_exactly_once quantifies over the trailer).  A link-value of another
   relation type BEFORE the next link is followed instead of it (known finding
   link-rel-ignored): the listing re-reads the first page and does not end. *)
Theorem C15_link_rel_first_refuted :
  exists fuel,
    let t := loop relfirst_serve wit_resolve (fun _ => false) (mkCfg KTags 0 0 []) fuel 0 0
                  (mkUrl (b "/v2/r/tags/list") []) [] in
    t_out t = OutOfFuel /\ ~ NoDup (map fst (concat (t_pages t))) /\
    (forall rq, In rq (t_reqs t) -> exists pre, rs_link (relfirst_serve 0 rq) =
         pre ++ c_lt :: b "a" ++ c_gt :: b "; rel=""next""").
Proof. exact link_rel_first_refuted. Qed.
Print Assumptions C15_link_rel_first_refuted.

(* ---------- content/oci ---------- *)

(* listTags: ascending; each non-digest reference greater than last exactly as often as the
   resolver map holds it; nothing else *)
Theorem C15_oci_tags :
  forall entries last,
    Sorted sle (list_tags entries last) /\
    Permutation (list_tags entries last) (map fst (filter (tag_listed last) entries)) /\
    (forall t, In t (list_tags entries last) <->
               exists d, In (t, d) entries /\ t <> d /\ (last = [] \/ str_ltb last t = true)).
Proof. exact list_tags_spec. Qed.
Print Assumptions C15_oci_tags.

(* the iteration order of the Go map does not matter *)
Theorem C15_oci_tags_order_independent :
  forall entries entries' last,
    Permutation entries entries' -> list_tags entries last = list_tags entries' last.
Proof. exact list_tags_order_independent. Qed.
Print Assumptions C15_oci_tags_order_independent.

(* on a sorted registry an unknown [last] selects the greater items: the registry model
   and listTags read [last] the same way *)
Theorem C15_last_on_sorted_registry :
  forall x L,
    StronglySorted (fun a b0 => str_ltb (fst a) (fst b0) = true) L ->
    x <> [] -> ~ In x (map fst L) ->
    after x L = filter (fun it => str_ltb x (fst it)) L.
Proof. exact after_sorted_unknown. Qed.
Print Assumptions C15_last_on_sorted_registry.

(* ---------- further examples ---------- *)

Example C15_example_document : is_document str ex_decode (b "{ab}") (b "{ab}").
Proof. exact example_document. Qed.

Example C15_example_limit_bytes :
  ex_decode (seen 4 (b "{ab}" ++ b "  ")) = Some (b "{ab}") /\ ex_decode (seen 3 (b "{ab}" ++ b "  ")) = None.
Proof. split; reflexivity. Qed.

Example C15_example_oci_tags :
  list_tags [(b "v2", b "sha256:x"); (b "sha256:x", b "sha256:x"); (b "latest", b "sha256:y");
             (b "a", b "sha256:x"); (b "v10", b "sha256:y")] (b "latest")
  = [b "v10"; b "v2"].
Proof. reflexivity. Qed.

Example C15_example_stops :
  let t := loop (reg_serve KTags CLast (fun _ p => p) (fun _ => true) ex_L 1 ex_ds ex_render (fun _ => [])) ex_resolve
                (fun k => (k =? 1)%nat) (ex_cfg KTags) 9 0 0 (mkUrl (b "/v2/r/tags/list") []) [] in
  t_out t = ErrCallback /\ map (map fst) (t_pages t) = [[b "a"]; [b "b"]] /\ length (t_reqs t) = 2%nat.
Proof. vm_compute. repeat split. Qed.

(* a document over the limit on the second page: one whole page delivered, then ErrDecode *)
Example C15_example_limit_listing :
  let ds := fun i => mkDec 1 [] false [] [] (if (i =? 1)%nat then 101 else 100) 0 in
  let t := loop (reg_serve KTags CLast (fun _ p => p) (fun _ => true) ex_L 1 ds ex_render (fun _ => [])) ex_resolve
                (fun _ => false) (ex_cfg KTags) 9 0 0 (mkUrl (b "/v2/r/tags/list") []) [] in
  t_out t = ErrDecode /\ map (map fst) (t_pages t) = [[b "a"]] /\ length (t_reqs t) = 2%nat.
Proof. vm_compute. repeat split. Qed.

(* ---------- the string level: net/url, setQueryParams, escaping (Model/PagingUrl.v) ---------- *)

(* url.QueryUnescape undoes url.QueryEscape on every byte string *)
Theorem C15_escape_roundtrip :
  forall s, Forall byte_ok s -> query_unescape (query_escape s) = Some s.
Proof. exact escape_roundtrip. Qed.
Print Assumptions C15_escape_roundtrip.

(* setQueryParams: every parameter that is not set is forwarded byte for byte and in order
   (also one that url.ParseQuery would reject), the set ones follow *)
Theorem C15_set_query_params_verbatim :
  forall raw kvs, Forall kv_ok kvs ->
    raw_params (set_query_params raw kvs) =
    filter (fun p => not_set kvs (param_key p)) (raw_params raw) ++ map new_param kvs.
Proof. exact set_query_params_verbatim. Qed.
Print Assumptions C15_set_query_params_verbatim.

(* ... and a registry reading the result finds the other parameters as before and the new values *)
Theorem C15_set_query_params_read :
  forall raw kvs, Forall kv_ok kvs ->
    parse_query_lenient (set_query_params raw kvs) =
    filter (fun kv' => not_set kvs (fst kv')) (parse_query_lenient raw) ++ kvs.
Proof. exact set_query_params_spec. Qed.
Print Assumptions C15_set_query_params_read.

(* the raw request the client sends refines the association-list request of Model/Paging.v:
   whatever key a registry looks up, it reads what [mk_request] says *)
Theorem C15_request_query_refines :
  forall c p raw q last, Forall byte_ok last -> repr raw q ->
    repr (request_query c raw last) (u_query (mk_request c (mkUrl p q) last)).
Proof. exact request_query_refines. Qed.
Print Assumptions C15_request_query_refines.

(* net/url reference resolution (URL.Parse + ResolveReference as modelled) sends each of the
   link forms </path?q>, <?q>, <http://host/path?q>, <//host/path?q> -- followed by anything
   after '>' -- to the intended path and raw query; the next request is that path with n set *)
Theorem C15_next_request_link_forms :
  forall c base P segs Q t trailer hc ht,
    link_form base P Q t ->
    clean_path P segs -> forallb path_char P = true -> forallb query_char Q = true ->
    s_host base = hc :: ht -> forallb host_char (s_host base) = true -> host_ok (s_host base) = true ->
    link_ok t -> contains c_gt t = false ->
    next_request c base (c_lt :: t ++ c_gt :: trailer) = NNext P (request_query c Q []).
Proof. intros; eapply next_request_link_forms; eauto. Qed.
Print Assumptions C15_next_request_link_forms.

(* a clean path is a fixed point of net/url's dot-segment removal *)
Theorem C15_resolve_path_clean :
  forall P segs, clean_path P segs -> resolve_path P [] = P.
Proof. exact resolve_path_clean. Qed.
Print Assumptions C15_resolve_path_clean.

Example C15_example_string_step :
  let base := mkS (b "http") (b "reg.test") (b "/v2/repo/tags/list") (b "n=2&last=a") in
  next_request (mkCfg KTags 2 0 []) base (b "<?last=b&tok=x;y>; rel=""next""")
    = NNext (b "/v2/repo/tags/list") (b "last=b&tok=x;y&n=2") /\
  next_request (mkCfg KTags 0 0 []) base (b "<./list/~p?token=p%3Bb>")
    = NNext (b "/v2/repo/tags/list/~p") (b "token=p%3Bb") /\
  first_query (mkCfg KTags 3 0 []) [] (b "a b/c") = b "n=3&last=a+b%2Fc".
Proof. vm_compute. repeat split. Qed.

(* the syntactic facts about the Go sources the models assume (translator kind c15_srcfact) *)
Theorem C15_source_facts :
  c15_fact_link_header && c15_fact_link_resolve && c15_fact_setq_split && c15_fact_setq_cut &&
  c15_fact_tags_clear_last && c15_fact_repos_clear_last && c15_fact_refs_nonempty &&
  c15_fact_wrap_delivered && c15_fact_tagschema_clean && c15_fact_probe_contentlength &&
  c15_fact_oci_last && c15_fact_oci_sort = true.
Proof. exact (eq_refl true). Qed.

(* a registry that writes its link query by escaping is read back exactly *)
Theorem C15_parse_enc_pairs :
  forall l, Forall kv_ok l -> parse_query_lenient (enc_pairs l) = l.
Proof. exact parse_enc_pairs. Qed.
Print Assumptions C15_parse_enc_pairs.

(* one step end to end: a link in one of the four forms to (P, escaped q') makes the string
   level send a request to P whose raw query represents the model's request for (P, q') *)
Theorem C15_step_simulation :
  forall c base P segs q' t trailer hc ht,
    let Q := enc_pairs (shown q') in
    link_form base P Q t -> query_ok q' ->
    clean_path P segs -> forallb path_char P = true ->
    s_host base = hc :: ht -> forallb host_char (s_host base) = true -> host_ok (s_host base) = true ->
    link_ok t -> contains c_gt t = false ->
    exists raw, next_request c base (c_lt :: t ++ c_gt :: trailer) = NNext P raw /\
                repr raw (u_query (mk_request c (mkUrl P q') [])).
Proof. intros; eapply step_simulation; eauto. Qed.
Print Assumptions C15_step_simulation.

(* all histories: the page loop on strings (raw queries, setQueryParams, net/url as modelled)
   refines the page loop on association lists -- same pages, same outcome, pairwise
   indistinguishable requests -- for any server answering indistinguishable requests alike and
   any links that net/url resolves like the abstract resolver *)
Theorem C15_string_loop_refines :
  forall (sch host : str) (serve_s : nat -> sreq -> response) (serve : nat -> url -> response)
         (resolve : url -> str -> option url) (cb_fail : nat -> bool) (c : cfg),
    (forall i rs rq, same_request rs rq -> serve_s i rs = serve i rq) ->
    (forall i rs rq t, same_request rs rq -> parse_link (rs_link (serve i rq)) = LTarget t ->
       match resolve_ref (mkS sch host (sr_path rs) (sr_query rs)) t, resolve rq t with
       | ROk u, Some u' => s_path u <> [] /\ s_path u = u_path u' /\ repr (s_query u) (u_query u')
       | RErr, None => True
       | _, _ => False
       end) ->
    forall fuel i k p raw q last,
      repr raw q -> Forall byte_ok last ->
      exists ts, loop_s sch host serve_s cb_fail c fuel i k p raw last = Some ts /\
                 let t := loop serve resolve cb_fail c fuel i k (mkUrl p q) last in
                 st_pages ts = t_pages t /\ st_out ts = t_out t /\
                 Forall2 same_request (st_reqs ts) (t_reqs t).
Proof.
  intros sch host serve_s serve resolve cb_fail c Hs Hk fuel i k p raw q last.
  apply (loop_s_refines_inv sch host serve_s serve resolve cb_fail c (fun _ => True)); auto.
  intros i0 rs rq t _ SR PL. specialize (Hk i0 rs rq t SR PL).
  destruct (resolve_ref _ t), (resolve rq t); tauto.
Qed.
Print Assumptions C15_string_loop_refines.

(* exactly once for the loop on strings *)
Theorem C15_exactly_once_string_loop :
  forall (sch host : str) (serve_s : nat -> sreq -> response)
         (L : list item) (cap : nat) (ds : nat -> decision)
         (render : nat -> url -> url -> str) (trailer : nat -> str)
         (resolve : url -> str -> option url) (c : cfg) (cu : cursor) (npath : nat -> str -> str) (vis : item -> bool)
         (path last0 : str) (fuel : nat),
    cursor_ok cu ->
    c_kind c <> KReferrers ->
    NoDup (map fst L) -> (forall it, In it L -> fst it <> []) ->
    (forall i base x, In x (map fst L) ->
       contains c_gt (render i base (link_target ds cu npath i base x)) = false) ->
    (forall i base x, In x (map fst L) ->
       resolve base (render i base (link_target ds cu npath i base x)) = Some (link_target ds cu npath i base x)) ->
    (forall i, (Z.of_N (d_doc_len (ds i)) <= eff_limit (c_limit c))%Z) ->
    (length (after last0 L) < fuel)%nat ->
    Forall byte_ok last0 ->
    let serve := reg_serve (c_kind c) cu npath vis L cap ds render trailer in
    (forall i rs rq, same_request rs rq -> serve_s i rs = serve i rq) ->
    (forall i rs rq t, same_request rs rq -> parse_link (rs_link (serve i rq)) = LTarget t ->
       match resolve_ref (mkS sch host (sr_path rs) (sr_query rs)) t, resolve rq t with
       | ROk u, Some u' => s_path u <> [] /\ s_path u = u_path u' /\ repr (s_query u) (u_query u')
       | RErr, None => True
       | _, _ => False
       end) ->
    exists ts, loop_s sch host serve_s (fun _ => false) c fuel 0 0 path [] last0 = Some ts /\
               st_out ts = Done /\ concat (st_pages ts) = filter vis (after last0 L) /\
               (length (st_reqs ts) <= S (length (after last0 L)))%nat.
Proof.
  intros until fuel. intros Hcu K Hnd Hne Hgt Hres Hfit Hfuel Hl serve Hs Hk.
  eapply refined_done; [eapply C15_string_loop_refines; eauto using repr_nil|eapply C15_exactly_once; eauto].
Qed.
Print Assumptions C15_exactly_once_string_loop.

(* the fifth link form, <./seg?q>: relative to the directory of the request path *)
Theorem C15_next_request_dot_relative :
  forall c base dirs lastB seg Q trailer,
    s_path base = c_sl :: join [c_sl] (dirs ++ [lastB]) ->
    Forall seg_ok dirs -> seg_ok lastB -> seg_ok seg ->
    forallb path_char seg = true -> forallb query_char Q = true ->
    link_ok (c_dot :: c_sl :: seg ++ c_qm :: Q) -> contains c_gt (c_dot :: c_sl :: seg ++ c_qm :: Q) = false ->
    next_request c base (c_lt :: (c_dot :: c_sl :: seg ++ c_qm :: Q) ++ c_gt :: trailer) =
    NNext (c_sl :: join [c_sl] (dirs ++ [seg])) (request_query c Q []).
Proof. intros; now apply next_request_dot_relative with (lastB := lastB). Qed.
Print Assumptions C15_next_request_dot_relative.

(* ---------- encoding/json: the first value of a stream (Model/PagingJson.v) ---------- *)

(* a complete bracketed value is self-delimiting: the stream decoder stops at its end whatever
   follows, and no proper prefix of it is complete *)
Theorem C15_json_self_delimiting :
  forall d, scan d = Some (length d) ->
    (forall tail, first_value (d ++ tail) = Some d) /\
    (forall k, (k < length d)%nat -> first_value (firstn k d) = None).
Proof. exact first_value_self_delimiting. Qed.
Print Assumptions C15_json_self_delimiting.

(* so behind limitReader a document is decoded completely when it fits and not at all when it
   does not: C15_limit_bytes without its hypothesis, for the bracket scanner *)
Theorem C15_limit_bytes_scan :
  forall d pad limit, scan d = Some (length d) ->
    (Z.of_nat (length (seen limit (d ++ pad))) <= eff_limit limit)%Z /\
    first_value (seen limit (d ++ pad)) =
      if (Z.of_nat (length d) <=? eff_limit limit)%Z then Some d else None.
Proof. intros d pad limit H. exact (limit_bytes str first_value d d pad limit (first_value_self_delimiting d H)). Qed.
Print Assumptions C15_limit_bytes_scan.

Example C15_example_scan :
  scan (b " {""tags"":[""a}"",""b\""]""]} x") = Some 23%nat /\
  scan (b " {""tags"":[""a}"",""b\""]""]") = None.
Proof. vm_compute. split; reflexivity. Qed.

(* the bytes of a metadata answer the client consumes (limitReader, then json.Decoder's buffer
   refills, as modelled and compared with a counting body on every decoded answer): never more
   than MaxMetadataBytes, never more than the body, at least the document when it fits *)
Theorem C15_bytes_consumed :
  forall limit docend total,
    (Z.of_N (consumed_of limit docend total) <= eff_limit limit)%Z /\
    consumed_of limit docend total <= total /\
    (docend <= total -> (Z.of_N docend <= eff_limit limit)%Z -> docend <= consumed_of limit docend total).
Proof. exact consumed_of_spec. Qed.
Print Assumptions C15_bytes_consumed.

(* the index of the referrers tag schema: refused unread when over the limit, else read whole *)
Theorem C15_bytes_consumed_index :
  forall limit size,
    (Z.of_N (consumed_index limit size) <= eff_limit limit)%Z /\ consumed_index limit size <= size.
Proof. exact consumed_index_spec. Qed.
Print Assumptions C15_bytes_consumed_index.

(* the refinement with an invariant of the request paths (weaker hypotheses: only requests whose
   path satisfies InvP need to be answered alike / resolved alike) *)
Theorem C15_string_loop_refines_inv :
  forall (sch host : str) (serve_s : nat -> sreq -> response) (serve : nat -> url -> response)
         (resolve : url -> str -> option url) (cb_fail : nat -> bool) (c : cfg) (InvP : str -> Prop),
    (forall i rs rq, InvP (sr_path rs) -> same_request rs rq -> serve_s i rs = serve i rq) ->
    (forall i rs rq t,
       InvP (sr_path rs) -> same_request rs rq -> parse_link (rs_link (serve i rq)) = LTarget t ->
       match resolve_ref (mkS sch host (sr_path rs) (sr_query rs)) t, resolve rq t with
       | ROk u, Some u' => s_path u <> [] /\ s_path u = u_path u' /\ repr (s_query u) (u_query u') /\ InvP (s_path u)
       | RErr, None => True
       | _, _ => False
       end) ->
    forall fuel i k p raw q last,
      InvP p -> repr raw q -> Forall byte_ok last ->
      exists ts, loop_s sch host serve_s cb_fail c fuel i k p raw last = Some ts /\
                 let t := loop serve resolve cb_fail c fuel i k (mkUrl p q) last in
                 st_pages ts = t_pages t /\ st_out ts = t_out t /\
                 Forall2 same_request (st_reqs ts) (t_reqs t).
Proof. exact loop_s_refines_inv. Qed.
Print Assumptions C15_string_loop_refines_inv.

(* its hypotheses are satisfiable: a two-page registry with a query-only link *)
Example C15_example_refinement_hypotheses :
  (forall i rs rq, exs_inv (sr_path rs) -> same_request rs rq -> exs_serve_s i rs = exs_serve i rq) /\
  (forall i rs rq t,
     exs_inv (sr_path rs) -> same_request rs rq -> parse_link (rs_link (exs_serve i rq)) = LTarget t ->
     match resolve_ref (mkS (b "http") (b "reg.test") (sr_path rs) (sr_query rs)) t, exs_resolve rq t with
     | ROk u, Some u' => s_path u <> [] /\ s_path u = u_path u' /\ repr (s_query u) (u_query u') /\ exs_inv (s_path u)
     | RErr, None => True
     | _, _ => False
     end).
Proof. exact example_refinement_hypotheses. Qed.

Example C15_example_string_loop :
  loop_s (b "http") (b "reg.test") exs_serve_s (fun _ => false) (mkCfg KTags 2 0 []) 5 0 0 exs_path [] []
  = Some (mkST [mkSR exs_path (b "n=2"); mkSR exs_path (b "last=a&n=2")] [[(b "a", [])]; [(b "b", [])]] Done).
Proof. vm_compute. reflexivity. Qed.

(* registry.Tags / registry.Repositories: the whole list the registry shows, once, in order *)
Theorem C15_collect_all :
  forall (L : list item) (cap : nat) (ds : nat -> decision)
         (render : nat -> url -> url -> str) (trailer : nat -> str)
         (resolve : url -> str -> option url) (c : cfg) (cu : cursor) (npath : nat -> str -> str) (vis : item -> bool)
         (path : str) (fuel : nat),
    cursor_ok cu ->
    c_kind c <> KReferrers ->
    NoDup (map fst L) -> (forall it, In it L -> fst it <> []) ->
    (forall i base x, In x (map fst L) ->
       contains c_gt (render i base (link_target ds cu npath i base x)) = false) ->
    (forall i base x, In x (map fst L) ->
       resolve base (render i base (link_target ds cu npath i base x)) = Some (link_target ds cu npath i base x)) ->
    (forall i, (Z.of_N (d_doc_len (ds i)) <= eff_limit (c_limit c))%Z) ->
    (length L < fuel)%nat ->
    collect_all (loop (reg_serve (c_kind c) cu npath vis L cap ds render trailer) resolve (fun _ => false) c
                      fuel 0 0 (mkUrl path []) []) = (Done, filter vis L).
Proof. intros; eapply collect_all_done, C15_exactly_once; eauto. Qed.
Print Assumptions C15_collect_all.

(* registry.Referrers / Repository.Predecessors *)
Theorem C15_collect_all_referrers :
  forall (L : list item) (cap : nat) (ds : nat -> decision)
         (render : nat -> url -> url -> str) (trailer : nat -> str)
         (resolve : url -> str -> option url) (c : cfg) (cu : cursor) (npath : nat -> str -> str) (vis : item -> bool)
         (path : str) (fuel : nat),
    cursor_ok cu ->
    c_kind c = KReferrers ->
    NoDup (map fst L) -> (forall it, In it L -> fst it <> []) ->
    (forall i base x, In x (map fst L) ->
       contains c_gt (render i base (link_target ds cu npath i base x)) = false) ->
    (forall i base x, In x (map fst L) ->
       resolve base (render i base (link_target ds cu npath i base x)) = Some (link_target ds cu npath i base x)) ->
    (forall i, (Z.of_N (d_doc_len (ds i)) <= eff_limit (c_limit c))%Z) ->
    (forall i, qget k_at (d_extra (ds i)) = None) ->
    (length L < fuel)%nat ->
    collect_all (loop (reg_serve KReferrers cu npath vis L cap ds render trailer) resolve (fun _ => false) c
                      fuel 0 0 (mkUrl path (referrers_query (c_at c))) []) =
    (Done, filter_referrers (filter vis L) (c_at c)).
Proof. intros; eapply collect_all_done, referrers_exactly_once; eauto. Qed.
Print Assumptions C15_collect_all_referrers.

(* the decoder behind limitReader succeeds exactly when the first value of the body ends within
   the limit, and then yields the whole value: body_fits (document length <= limit) of the
   listing model is what the scanner-decoder does on the bytes *)
Theorem C15_decoder_behind_limit :
  forall body limit,
    first_value (seen limit body) =
    match scan body with
    | Some m => if (Z.of_nat m <=? eff_limit limit)%Z then Some (firstn m body) else None
    | None => None
    end.
Proof. exact scan_behind_limit. Qed.
Print Assumptions C15_decoder_behind_limit.

(* known finding link-rel-ignored, on the string level *)
Theorem C15_link_rel_first_string_refuted :
  exists header,
    let base := mkS (b "http") (b "reg.test") (b "/v2/r/tags/list") (b "last=a") in
    (exists pre, header = pre ++ b "<?last=b>; rel=""next""") /\
    next_request (mkCfg KTags 0 0 []) base header = NNext (b "/v2/r/tags/list") [] /\
    next_request (mkCfg KTags 0 0 []) base (b "<?last=b>; rel=""next""") = NNext (b "/v2/r/tags/list") (b "last=b").
Proof. exact link_rel_first_string_refuted. Qed.
Print Assumptions C15_link_rel_first_string_refuted.

(* exactly once with the link hypotheses only for requests satisfying an invariant *)
Theorem C15_exactly_once_inv :
  forall (L : list item) (cap : nat) (ds : nat -> decision)
         (render : nat -> url -> url -> str) (trailer : nat -> str)
         (resolve : url -> str -> option url) (c : cfg) (cu : cursor) (npath : nat -> str -> str) (vis : item -> bool)
         (InvQ : url -> Prop) (path last0 : str) (fuel : nat),
    cursor_ok cu ->
    c_kind c <> KReferrers ->
    NoDup (map fst L) -> (forall it, In it L -> fst it <> []) ->
    (forall i base x, InvQ base -> In x (map fst L) ->
       contains c_gt (render i base (link_target ds cu npath i base x)) = false) ->
    (forall i base x, InvQ base -> In x (map fst L) ->
       resolve base (render i base (link_target ds cu npath i base x)) = Some (link_target ds cu npath i base x)) ->
    (forall i base x, InvQ base -> In x (map fst L) ->
       InvQ (mk_request c (link_target ds cu npath i base x) [])) ->
    InvQ (mk_request c (mkUrl path []) last0) ->
    (forall i, (Z.of_N (d_doc_len (ds i)) <= eff_limit (c_limit c))%Z) ->
    (length (after last0 L) < fuel)%nat ->
    let t := loop (reg_serve (c_kind c) cu npath vis L cap ds render trailer) resolve (fun _ => false) c
                  fuel 0 0 (mkUrl path []) last0 in
    t_out t = Done /\
    concat (t_pages t) = filter vis (after last0 L) /\
    (length (t_reqs t) <= S (length (after last0 L)))%nat.
Proof.
  intros until fuel. intros.
  apply (listing_exactly_once_inv L cap ds render trailer resolve c cu npath vis InvQ); auto; congruence.
Qed.
Print Assumptions C15_exactly_once_inv.

(* EXACTLY ONCE WITHOUT ABSTRACT net/url: a registry that writes its next links as
   </path?escaped query> (render_c), the client resolving them with net/url as modelled in
   Model/PagingUrl.v (resolve_c = resolve_ref + lenient query reading, n read as a number), any page size:
   Tags / Repositories deliver exactly what the registry shows after `last`, once, in order --
   for every list, split oracle, cap, cursor kind (last or opaque token), shown subset, extra
   link parameters and start value.  No hypothesis about rendering or resolution is left. *)
Theorem C15_exactly_once_concrete :
  forall (sch host P0 : str) (segs0 : list str),
    clean_path P0 segs0 ->
    forallb path_char P0 = true ->
    forallb printable P0 = true ->
    forall (L : list item) (cap : nat) (ds : nat -> decision)
           (trailer : nat -> str) (vis : item -> bool) (cu : cursor) (c : cfg),
    cursor_ok cu ->
    match cu with
    | CLast => True
    | CToken k s => Forall byte_ok k /\ Forall byte_ok s
    end ->
    (forall x : str, In x (map fst L) -> Forall byte_ok x) ->
    (forall i : nat, all_vs (d_extra (ds i)) /\ query_ok (d_extra (ds i))) ->
    (c_n c < 10 ^ 40)%Z ->
    forall (last0 : list N) (fuel : nat),
    c_kind c <> KReferrers ->
    NoDup (map fst L) ->
    (forall it : item, In it L -> fst it <> []) ->
    Forall byte_ok last0 ->
    (forall i : nat, (Z.of_N (d_doc_len (ds i)) <= eff_limit (c_limit c))%Z) ->
    (length (after last0 L) < fuel)%nat ->
    let t := loop (reg_serve (c_kind c) cu (fun _ p => p) vis L cap ds render_c trailer) (resolve_c sch host)
                  (fun _ => false) c fuel 0 0 (mkUrl P0 []) last0 in
    t_out t = Done /\
    concat (t_pages t) = filter vis (after last0 L) /\
    (length (t_reqs t) <= S (length (after last0 L)))%nat.
Proof. intros; apply concrete_exactly_once; eauto using render_c_reads_back. Qed.
Print Assumptions C15_exactly_once_concrete.

Example C15_example_concrete :
  let t := loop (reg_serve KTags (CToken (b "token") (b "p;")) (fun _ p => p) ex_vis ex_L 1 ex_ds render_c (fun _ => b "; rel=""next"""))
                (resolve_c (b "http") (b "reg.test")) (fun _ => false) (mkCfg KTags 7 0 []) 6 0 0 (mkUrl exs_path []) (b "a") in
  t_out t = Done /\ map (map fst) (t_pages t) = [[b "b"]; []; [b "d"]] /\
  map (fun u => qget (b "token") (u_query u)) (t_reqs t) = [None; Some (VS (b "p;b")); Some (VS (b "p;c"))] /\
  map (fun u => qget k_n (u_query u)) (t_reqs t) = [Some (VN 7); Some (VN 7); Some (VN 7)].
Proof. vm_compute. repeat split. Qed.

(* strconv.Itoa / Atoi as modelled: reading back what was written *)
Theorem C15_atoi_itoa : forall n, n < 10 ^ 40 -> atoi (itoa n) = Some n.
Proof. exact atoi_itoa. Qed.
Print Assumptions C15_atoi_itoa.

(* the same for Referrers (C15_filter with net/url as modelled): the referrers of the requested
   artifact type, once, in order, whether or not the registry filters *)
Theorem C15_filter_concrete :
  forall (sch host P0 : str) (segs0 : list str),
    clean_path P0 segs0 ->
    forallb path_char P0 = true ->
    forallb printable P0 = true ->
    forall (L : list item) (cap : nat) (ds : nat -> decision)
           (trailer : nat -> str) (vis : item -> bool) (cu : cursor) (c : cfg),
    cursor_ok cu ->
    match cu with
    | CLast => True
    | CToken k s => Forall byte_ok k /\ Forall byte_ok s
    end ->
    (forall x : str, In x (map fst L) -> Forall byte_ok x) ->
    (forall i : nat, all_vs (d_extra (ds i)) /\ query_ok (d_extra (ds i))) ->
    (c_n c < 10 ^ 40)%Z ->
    forall fuel : nat,
    c_kind c = KReferrers ->
    NoDup (map fst L) ->
    (forall it : item, In it L -> fst it <> []) ->
    Forall byte_ok (c_at c) ->
    (forall i : nat, (Z.of_N (d_doc_len (ds i)) <= eff_limit (c_limit c))%Z) ->
    (forall i : nat, qget k_at (d_extra (ds i)) = None) ->
    (length L < fuel)%nat ->
    let t := loop (reg_serve KReferrers cu (fun _ p => p) vis L cap ds render_c trailer) (resolve_c sch host)
                  (fun _ => false) c fuel 0 0 (mkUrl P0 (referrers_query (c_at c))) [] in
    t_out t = Done /\
    concat (t_pages t) = filter_referrers (filter vis L) (c_at c) /\
    (length (t_reqs t) <= S (length L))%nat.
Proof. intros; apply concrete_referrers; eauto using render_c_reads_back. Qed.
Print Assumptions C15_filter_concrete.

(* ---------- every link form, without abstract net/url ---------- *)

(* C15_exactly_once_concrete for a registry that chooses, per answer, any of the forms
   </path?q> (0), <?q> (1), <http://host/path?q> (2), <//host/path?q> (3), <./last?q> (4..) -- fm i is the form of
   the i-th answer -- read by net/url as modelled (resolve_c): no hypothesis about rendering or
   resolution is left for any of them *)
Theorem C15_exactly_once_concrete_forms :
  forall (sch host : str) (hc : N) (ht : str),
       host = hc :: ht ->
       forallb host_char host = true ->
       host_ok host = true ->
       forall (P0 : str) (segs0 : list str),
       clean_path P0 segs0 ->
       forallb path_char P0 = true ->
       forallb printable P0 = true ->
       forall (L : list item) (cap : nat) (ds : nat -> decision) (trailer : nat -> str) 
         (vis : item -> bool) (cu : cursor) (c : cfg),
       cursor_ok cu ->
       match cu with
       | CLast => True
       | CToken k s => Forall byte_ok k /\ Forall byte_ok s
       end ->
       (forall x : str, In x (map fst L) -> Forall byte_ok x) ->
       (forall i : nat, all_vs (d_extra (ds i)) /\ query_ok (d_extra (ds i))) ->
       (c_n c < 10 ^ 40)%Z ->
       forallb printable host = true ->
       forall (fm : nat -> nat) (dirs0 : list str) (lastB0 : str),
       segs0 = dirs0 ++ [lastB0] ->
       forallb path_char lastB0 = true ->
       forall (last0 : list N) (fuel : nat),
       c_kind c <> KReferrers ->
       NoDup (map fst L) ->
       (forall it : item, In it L -> fst it <> []) ->
       Forall byte_ok last0 ->
       (forall i : nat, (Z.of_N (d_doc_len (ds i)) <= eff_limit (c_limit c))%Z) ->
       (length (after last0 L) < fuel)%nat ->
       let t :=
         loop
           (reg_serve (c_kind c) cu (fun (_ : nat) (p : str) => p) vis L cap ds (render_f host fm lastB0)
              trailer) (resolve_c sch host) (fun _ : nat => false) c fuel 0 0
           {| u_path := P0; u_query := [] |} last0 in
       t_out t = Done /\
       concat (t_pages t) = filter vis (after last0 L) /\
       (length (t_reqs t) <= S (length (after last0 L)))%nat.
Proof. intros; apply concrete_exactly_once; eauto using render_f_reads_back. Qed.
Print Assumptions C15_exactly_once_concrete_forms.

Theorem C15_filter_concrete_forms :
  forall (sch host : str) (hc : N) (ht : str),
       host = hc :: ht ->
       forallb host_char host = true ->
       host_ok host = true ->
       forall (P0 : str) (segs0 : list str),
       clean_path P0 segs0 ->
       forallb path_char P0 = true ->
       forallb printable P0 = true ->
       forall (L : list item) (cap : nat) (ds : nat -> decision) (trailer : nat -> str) 
         (vis : item -> bool) (cu : cursor) (c : cfg),
       cursor_ok cu ->
       match cu with
       | CLast => True
       | CToken k s => Forall byte_ok k /\ Forall byte_ok s
       end ->
       (forall x : str, In x (map fst L) -> Forall byte_ok x) ->
       (forall i : nat, all_vs (d_extra (ds i)) /\ query_ok (d_extra (ds i))) ->
       (c_n c < 10 ^ 40)%Z ->
       forallb printable host = true ->
       forall (fm : nat -> nat) (dirs0 : list str) (lastB0 : str),
       segs0 = dirs0 ++ [lastB0] ->
       forallb path_char lastB0 = true ->
       forall fuel : nat,
       c_kind c = KReferrers ->
       NoDup (map fst L) ->
       (forall it : item, In it L -> fst it <> []) ->
       Forall byte_ok (c_at c) ->
       (forall i : nat, (Z.of_N (d_doc_len (ds i)) <= eff_limit (c_limit c))%Z) ->
       (forall i : nat, qget k_at (d_extra (ds i)) = None) ->
       (length L < fuel)%nat ->
       let t :=
         loop
           (reg_serve KReferrers cu (fun (_ : nat) (p : str) => p) vis L cap ds (render_f host fm lastB0)
              trailer) (resolve_c sch host) (fun _ : nat => false) c fuel 0 0
           {| u_path := P0; u_query := referrers_query (c_at c) |} [] in
       t_out t = Done /\
       concat (t_pages t) = filter_referrers (filter vis L) (c_at c) /\
       (length (t_reqs t) <= S (length L))%nat.
Proof. intros; apply concrete_referrers; eauto using render_f_reads_back. Qed.
Print Assumptions C15_filter_concrete_forms.

(* forms 1, 2, 3, 4 in turn, opaque cursor, a hidden entry, page size 7 *)
Example C15_example_concrete_forms :
  let t := loop (reg_serve KTags (CToken (b "token") (b "p;")) (fun _ p => p) ex_vis ex_L 1 ex_ds
                           (render_f (b "reg.test") (fun i => S i) (b "list")) (fun _ => b "; rel=""next"""))
                (resolve_c (b "http") (b "reg.test")) (fun _ => false) (mkCfg KTags 7 0 []) 6 0 0 (mkUrl exs_path []) [] in
  t_out t = Done /\ map (map fst) (t_pages t) = [[b "a"]; [b "b"]; []; [b "d"]] /\
  map u_path (t_reqs t) = [exs_path; exs_path; exs_path; exs_path].
Proof. vm_compute. repeat split. Qed.

(* the typed reading (n as a number) of the raw request the client sends IS the request of the
   association-list model -- the same list, not only the same lookups *)
Theorem C15_request_query_exact :
  forall c p raw last, Forall byte_ok last -> (c_n c < 10 ^ 40)%Z ->
    typed_query (request_query c raw last) = u_query (mk_request c (mkUrl p (typed_query raw)) last).
Proof. exact request_query_exact. Qed.
Print Assumptions C15_request_query_exact.

(* all histories, for ANY registry on association lists that is fed the typed reading of the raw
   requests (serve_typed; it may echo every parameter of a request into its links): the page loop
   on strings and the page loop on association lists deliver the same pages with the same outcome,
   and the raw requests read exactly as the model's requests.  No hypothesis that the server
   answers indistinguishable requests alike is needed. *)
Theorem C15_string_loop_exact :
  forall (sch host : str) (serve : nat -> url -> response) (resolve : url -> str -> option url)
         (cb_fail : nat -> bool) (c : cfg) (Inv : sreq -> Prop),
    (c_n c < 10 ^ 40)%Z ->
    (forall i rs t,
       Inv rs -> parse_link (rs_link (serve i (typed_req rs))) = LTarget t ->
       match resolve_ref (mkS sch host (sr_path rs) (sr_query rs)) t, resolve (typed_req rs) t with
       | ROk u, Some u' => s_path u <> [] /\ u' = mkUrl (s_path u) (typed_query (s_query u)) /\
                           Inv (mkSR (s_path u) (request_query c (s_query u) []))
       | RErr, None => True
       | _, _ => False
       end) ->
    forall fuel i k p raw last,
      Inv (mkSR p (request_query c raw last)) -> Forall byte_ok last ->
      exists ts, loop_s sch host (serve_typed serve) cb_fail c fuel i k p raw last = Some ts /\
                 let t := loop serve resolve cb_fail c fuel i k (mkUrl p (typed_query raw)) last in
                 st_pages ts = t_pages t /\ st_out ts = t_out t /\ map typed_req (st_reqs ts) = t_reqs t.
Proof. exact loop_s_exact. Qed.
Print Assumptions C15_string_loop_exact.
