(* C09 -- OCI Delete / auto-GC / GC remove exactly the garbage, keep live data, terminate.
   Definitions in Model/OciGC.v, lemmas in Proofs/OciGC.v; witnesses are evaluated here.

   Universe (parameters of every theorem): [succ] = content.Successors, [subject] =
   manifestutil.Subject, [manifest] = descriptor.IsManifest of the stored bytes, with
     acyclic succ          : successors have smaller numbers (content addressing)
     subject_listed        : the subject is one of the successors
   Go's map iteration orders are the [ords]/[ord] arguments; the theorems hold for all of
   them ([same_elements]/[reorders] only say that an iteration visits the keys of the map). *)
From Coq Require Import List Arith Bool NArith.
Import ListNotations.
From Oras Require Import Model.OciGC Proofs.OciGC.
From Oras Require Model.GraphMem Proofs.GraphMem Proofs.OciGCGraph.

(* On the source before the repair (F1) the subject walk of gcIndex has no exit: the model of
   the original loop returns "out of fuel" for every fuel, and GC hangs on
   push blob; push image; push referrer-of-image; GC. *)
Theorem C09_gc_terminates_refuted :
  (forall fuel, walk_orig subject_w [2; 1; 0] [] fuel 2 = None) /\
  snd (step succ_w subject_w manifest_w cfg_orig false (run_w cfg_orig [OPush 0; OPush 1; OPush 2]) OGC) = EHang.
Proof. split; [exact walk_orig_diverges|vm_compute; reflexivity]. Qed.
Print Assumptions C09_gc_terminates_refuted.

(* GC of the repaired code returns Ok (never the fuel/hang result) in every state, for every
   iteration order of every pass. *)
Theorem C09_gc_terminates :
  forall succ subject manifest, acyclic succ -> subject_listed succ subject ->
  forall kl ords st, same_elements ords (candidates (idx st)) ->
  snd (gc succ subject manifest cfg_fixed kl ords st) = Ok.
Proof.
  intros succ subject manifest H1 H2 kl ords st Ho.
  destruct (gc_exact succ subject manifest H1 H2 kl ords st Ho) as (st' & Hg & _). now rewrite Hg.
Qed.
Print Assumptions C09_gc_terminates.

(* GC keeps exactly the live set [Live]: the least set containing everything reachable
   (through stored content) from a tagged descriptor and, for every digest-indexed descriptor
   whose subject chain meets a live manifest, everything reachable from it (a blob named as
   subject keeps nothing alive).  Blob files and graph
   nodes afterwards = exactly Live; every tag is untouched; a live node's predecessors are
   exactly its live predecessors; stray files are removed iff they have a valid digest name in
   a known algorithm directory.  Independent of all iteration orders. *)
Theorem C09_gc_exact :
  forall succ subject manifest, acyclic succ -> subject_listed succ subject ->
  forall kl ords st, same_elements ords (candidates (idx st)) ->
  exists st',
    gc succ subject manifest cfg_fixed kl ords st = (st', Ok) /\
    (forall x, In x (blobs st') <-> In x (blobs st) /\ Live succ subject manifest st x) /\
    (forall x, In x (gnodes st') <-> Live succ subject manifest st x) /\
    (forall t n, In (RTag t, n) (idx st') <-> In (RTag t, n) (idx st)) /\
    (forall x p, In p (preds succ (gnodes st') x) <-> Live succ subject manifest st p /\ In x (succ p)) /\
    (forall s, In s (strays st') <-> In s (strays st) /\ (s_known s && s_valid s = false)) /\
    autogc st' = autogc st.
Proof.
  intros succ subject manifest H1 H2 kl ords st Ho.
  destruct (gc_exact succ subject manifest H1 H2 kl ords st Ho) as (st' & Hg & A & B & C & D & E).
  exists st'. do 4 (split; [assumption|]). split; [|now split].
  intros x p. rewrite preds_In, A. reflexivity.
Qed.
Print Assumptions C09_gc_exact.

(* ... and the by-digest references after GC (the code as it is, kl = true): a descriptor is
   resolvable by digest afterwards iff it carries a tag, or it was resolvable by digest
   before and is live (swept content is never left listed; live content is never unlisted),
   or -- the one exception, found by the long-history stream -- it was resolvable by digest
   before, is a layer/config whose content is NOT stored and a live manifest lists it
   (graph.Exists is true for such leaves: IndexAll records them by reference; reachable only
   from an index.json that already named missing content, i.e. after AutoSaveIndex was off) *)
Theorem C09_gc_digest_refs :
  forall succ subject manifest, acyclic succ -> subject_listed succ subject ->
  forall ords st, same_elements ords (candidates (idx st)) ->
  let st' := fst (gc succ subject manifest cfg_fixed true ords st) in
  forall d r, In (RDig d, r) (idx st') <->
    d = r /\ ((exists t, In (RTag t, r) (idx st)) \/
              ((exists d', In (RDig d', r) (idx st)) /\
               (Live succ subject manifest st r \/
                (~ In r (blobs st) /\ manifest r = false /\
                 exists p, Live succ subject manifest st p /\ In r (succ p))))).
Proof. exact gc_digest_refs. Qed.
Print Assumptions C09_gc_digest_refs.

(* Before the repair (F13) one referrer pass made the result depend on the map order. *)
Theorem C09_gc_order_refuted :
  let st := run_w cfg_fixed [OPush 0; OPush 1; OPush 5; OPush 6; OPush 7; OTag 1 0] in
  In 7 (blobs (fst (gc succ_w subject_w manifest_w cfg_noF13 false (fun _ => [6; 7; 5]) st))) /\
  ~ In 7 (blobs (fst (gc succ_w subject_w manifest_w cfg_noF13 false (fun _ => [7; 6; 5]) st))) /\
  (forall n, In n [6; 7; 5] <-> In n (candidates (idx st))).
Proof.
  vm_compute. split; [|split].
  - tauto.
  - intuition discriminate.
  - intro n. tauto.
Qed.
Print Assumptions C09_gc_order_refuted.

(* Reopening the store right after GC (index.json holds the rebuilt index) gives the same
   storage, the same references and the same graph, hence the same predecessors *)
Theorem C09_gc_reopen :
  forall succ subject manifest, acyclic succ -> subject_listed succ subject ->
  forall kl ords st st', same_elements ords (candidates (idx st)) ->
  gc succ subject manifest cfg_fixed kl ords st = (st', Ok) ->
  let st2 := fst (step succ subject manifest cfg_fixed kl st' OReopen) in
  blobs st2 = blobs st' /\ idx st2 = idx st' /\ strays st2 = strays st' /\
  (forall x, In x (gnodes st2) <-> In x (gnodes st')).
Proof. exact gc_reopen. Qed.
Print Assumptions C09_gc_reopen.

(* GC whose context is found done in the sweep, after [k] entries of the directory order
   [order] (the sweep tests the context before every entry; the index is rebuilt and saved
   before the sweep): the references and the graph are those of a complete GC, no live blob is
   removed, exactly the garbage among the handled entries is removed, the live set is the one
   before.  For every order of the directory, every k, every iteration order. *)
Theorem C09_gc_cancel_safe :
  forall succ subject manifest, acyclic succ -> subject_listed succ subject ->
  forall kl ords order k st, same_elements ords (candidates (idx st)) ->
  exists st',
    gc_cancel succ subject manifest cfg_fixed kl ords order k st = (st', ECanceled) /\
    idx st' = idx (fst (gc succ subject manifest cfg_fixed kl ords st)) /\
    gnodes st' = gnodes (fst (gc succ subject manifest cfg_fixed kl ords st)) /\
    (forall x, In x (gnodes st') <-> Live succ subject manifest st x) /\
    (forall x, In x (blobs st') <->
               In x (blobs st) /\ (Live succ subject manifest st x \/ swept_blob x (firstn k order) = false)) /\
    (forall s, In s (strays st') <->
               In s (strays st) /\ (s_known s && s_valid s = false \/
                                    swept_stray (s_id s) (firstn k order) = false)) /\
    autogc st' = autogc st /\
    (forall x, Live succ subject manifest st' x <-> Live succ subject manifest st x).
Proof. exact gc_cancel_spec. Qed.
Print Assumptions C09_gc_cancel_safe.

(* a GC after a cancelled GC ends where the complete GC would have ended *)
Theorem C09_gc_resume :
  forall succ subject manifest, acyclic succ -> subject_listed succ subject ->
  forall kl ords order k st ords2,
  same_elements ords (candidates (idx st)) ->
  let sc := fst (gc_cancel succ subject manifest cfg_fixed kl ords order k st) in
  same_elements ords2 (candidates (idx sc)) ->
  let s1 := fst (gc succ subject manifest cfg_fixed kl ords st) in
  let s2 := fst (gc succ subject manifest cfg_fixed kl ords2 sc) in
  snd (gc succ subject manifest cfg_fixed kl ords2 sc) = Ok /\
  (forall x, In x (blobs s2) <-> In x (blobs s1)) /\
  (forall x, In x (gnodes s2) <-> In x (gnodes s1)) /\
  (forall t n, In (RTag t, n) (idx s2) <-> In (RTag t, n) (idx s1)).
Proof. exact gc_resume. Qed.
Print Assumptions C09_gc_resume.

(* GC is idempotent: a second GC removes nothing and keeps graph, tags and stray files *)
Theorem C09_gc_idempotent :
  forall succ subject manifest, acyclic succ -> subject_listed succ subject ->
  forall kl ords st ords2,
  same_elements ords (candidates (idx st)) ->
  let s1 := fst (gc succ subject manifest cfg_fixed kl ords st) in
  same_elements ords2 (candidates (idx s1)) ->
  let s2 := fst (gc succ subject manifest cfg_fixed kl ords2 s1) in
  (forall x, In x (blobs s2) <-> In x (blobs s1)) /\
  (forall x, In x (gnodes s2) <-> In x (gnodes s1)) /\
  (forall t n, In (RTag t, n) (idx s2) <-> In (RTag t, n) (idx s1)) /\
  (forall s, In s (strays s2) <-> In s (strays s1)).
Proof. exact gc_idempotent. Qed.
Print Assumptions C09_gc_idempotent.

(* Delete x with AutoGC on, x stored, in a state with [wfm] (graph nodes that are manifests or
   have a subject are stored; every state the store can reach: C09_persist_histories): for
   every iteration order it returns Ok and removes
   exactly [Gone]: the least set containing x, closed under "untagged manifest of the store
   whose subject (a manifest) was removed and all of whose holders were removed" and
   "untagged node of the store that had predecessors, all of which were removed" -- from the
   storage, from the graph and from the reference index: no reference to a removed node
   remains, every reference to a surviving node stays, the tags afterwards are exactly the
   tags of the nodes other than x, and the only new references are by-digest references of
   manifests (delete() lists a manifest that lost its last predecessor by its digest).  A holder of r is a
   predecessor that has r among its entries (manifests, layers, config, blobs): a referrer
   does not keep its subject alive through the subject field, every other link does. *)
Theorem C09_delete_exact :
  forall succ subject manifest, acyclic succ -> subject_listed succ subject ->
  forall st x, wfm subject manifest st -> autogc st = true -> In x (blobs st) ->
  forall ord, reorders ord ->
  exists st',
    delete succ subject manifest cfg_fixed ord st x = (st', Ok) /\
    (forall y, In y (blobs st') <-> In y (blobs st) /\ ~ Gone succ subject manifest st x y) /\
    (forall y, In y (gnodes st') <-> In y (gnodes st) /\ ~ Gone succ subject manifest st x y) /\
    (forall r n, In (r, n) (idx st') ->
       ~ Gone succ subject manifest st x n /\ (In (r, n) (idx st) \/ (r = RDig n /\ manifest n = true))) /\
    (forall r n, In (r, n) (idx st) -> ~ Gone succ subject manifest st x n -> In (r, n) (idx st')) /\
    (forall t n, In (RTag t, n) (idx st') <-> In (RTag t, n) (idx st) /\ n <> x) /\
    (forall r, ~ In (r, x) (idx st')) /\
    strays st' = strays st /\ autogc st' = autogc st /\
    (* exactly which by-digest references are new (when they name their own content, as in every
       reachable state): those of the surviving manifests of the graph that had predecessors,
       lost all of them to the cascade and had no by-digest reference *)
    ((forall d n, In (RDig d, n) (idx st) -> d = n) ->
     forall d, ~ In (RDig d, d) (idx st) ->
       (In (RDig d, d) (idx st') <->
        manifest d = true /\ In d (gnodes st) /\ ~ Gone succ subject manifest st x d /\
        (exists p, In p (gnodes st) /\ In d (succ p)) /\
        (forall p, In p (gnodes st) -> In d (succ p) -> Gone succ subject manifest st x p) /\
        (forall m, ~ In (RDig d, m) (idx st)))).
Proof. exact delete_exact. Qed.
Print Assumptions C09_delete_exact.

(* the work queue is exhausted within its fuel: Delete terminates *)
Theorem C09_delete_queue_terminates :
  forall succ subject manifest, acyclic succ -> subject_listed succ subject ->
  forall st x, wfm subject manifest st -> autogc st = true -> In x (blobs st) ->
  forall ord, reorders ord ->
  snd (delete succ subject manifest cfg_fixed ord st x) <> EHang.
Proof.
  intros succ subject manifest H1 H2 st x Hw Ha Hx ord Ho.
  destruct (delete_exact succ subject manifest H1 H2 st x Hw Ha Hx ord Ho) as (st' & Hd & _).
  rewrite Hd. discriminate.
Qed.
Print Assumptions C09_delete_queue_terminates.

(* What the cascade never takes: a tagged node; a node outside the store's graph; a node
   that a surviving node still lists: every predecessor that has the removed node among its
   entries (manifests, layers, config, blobs -- [entries] = content.Successors minus the
   subject field; a node that is both subject and entry counts) is removed as well. *)
Theorem C09_delete_never :
  forall succ subject manifest st x y,
  Gone succ subject manifest st x y -> y <> x ->
  is_tagged st y = false /\ In y (gnodes st) /\
  (forall p, In p (gnodes st) -> In y (entries succ subject p) ->
             Gone succ subject manifest st x p).
Proof. exact delete_never_final. Qed.
Print Assumptions C09_delete_never.

(* Before the repair of the referrer rule: the referrer 2 of the deleted manifest 1 is removed
   although the surviving tagged index 4 lists it (repaired: 2 and 4 stay) *)
Theorem C09_delete_surviving_pred_refuted :
  let st := run_w cfg_fixed [OPush 0; OPush 1; OPush 2; OPush 4; OTag 4 0] in
  let st' := fst (delete succ_w subject_w manifest_w cfg_noHold ord_id st 1) in
  let fx' := fst (delete succ_w subject_w manifest_w cfg_fixed ord_id st 1) in
  snd (delete succ_w subject_w manifest_w cfg_noHold ord_id st 1) = Ok /\
  ~ In 2 (blobs st') /\ In 4 (gnodes st') /\ In 2 (succ_w 4) /\ subject_w 4 = None /\
  blobs fx' = [4; 2; 0].
Proof. vm_compute. intuition discriminate. Qed.
Print Assumptions C09_delete_surviving_pred_refuted.

(* AutoGC off: exactly the target (content, graph node, every reference to it); [del_idx] =
   the references not to x, plus a by-digest reference for every manifest that lost its last
   predecessor and had none *)
Theorem C09_delete_plain :
  forall succ subject manifest st x ord,
  reorders ord -> autogc st = false -> In x (blobs st) ->
  exists st',
    delete succ subject manifest cfg_fixed ord st x = (st', Ok) /\
    blobs st' = removeb x (blobs st) /\ gnodes st' = removeb x (gnodes st) /\
    idx st' = del_idx succ manifest st x /\
    strays st' = strays st /\ autogc st' = autogc st.
Proof. exact delete_plain. Qed.
Print Assumptions C09_delete_plain.

(* a target that is not stored: not found; the storage is untouched, but (as in Go's delete(),
   which runs before storage.Delete fails) the references to x and its graph node are gone *)
Theorem C09_delete_absent :
  forall succ subject manifest st x ord c,
  ~ In x (blobs st) ->
  snd (delete succ subject manifest c ord st x) = ENotFound /\
  blobs (fst (delete succ subject manifest c ord st x)) = blobs st /\
  gnodes (fst (delete succ subject manifest c ord st x)) = removeb x (gnodes st) /\
  idx (fst (delete succ subject manifest c ord st x)) = del_idx succ manifest st x.
Proof.
  intros succ subject manifest st x ord c Hx. rewrite delete_absent_run by exact Hx.
  cbn [fst snd blobs gnodes idx]. now rewrite removeb_absent.
Qed.
Print Assumptions C09_delete_absent.

(* Every state the repaired code can reach with ANY iteration orders of Delete and GC
   ([Hist]; [any] = true also allows reopening the store at arbitrary points, also on an
   index.json that names only the tagged descriptors: OReopen / OForeign, and a GC
   cancelled in the sweep for every directory order and every k) is well-formed
   (the hypothesis of C09_delete_exact) and free of stale tag-set entries; unless the store
   is reopened at an arbitrary point every stored blob is a graph node, so [Gone] and
   C09_delete_exact speak about the storage.  After an arbitrary reopen blobs that
   index.json does not reach are unknown to the graph: Delete ignores them (they wait for
   GC) -- outside the property's quantifier, run by the correspondence, not judged. *)
Theorem C09_histories :
  forall succ subject manifest, acyclic succ -> subject_listed succ subject ->
  forall kl any st, Hist succ subject manifest kl any st ->
  wf st /\ (forall n, is_tagged st n = true <-> exists t, In (RTag t, n) (idx st)) /\
  (any = false -> forall y, In y (blobs st) -> In y (gnodes st)).
Proof.
  exact (fun succ subject manifest H1 H2 kl any st H =>
           conj (hist_wf succ subject manifest H1 H2 kl any st H)
             (conj (fun n => no_stale_tagged st n (hist_no_stale succ subject manifest kl any st H))
                   (hist_full succ subject manifest H1 H2 kl any st H))).
Qed.
Print Assumptions C09_histories.

(* the well-formedness hypothesis of C09_delete_exact holds after every history *)
Theorem C09_store_wf :
  forall succ subject manifest, acyclic succ -> subject_listed succ subject ->
  forall kl ops, wf (fold_left (fun st o => fst (step succ subject manifest cfg_fixed kl st o)) ops init).
Proof. exact run_wf. Qed.
Print Assumptions C09_store_wf.

(* Before the repairs: F3 (a tagged referrer and its tag are deleted) and F4 (the outcome of
   Delete depends on the iteration order: not found in the middle of the cascade) *)
Theorem C09_delete_tagged_refuted :
  let st := run_w cfg_fixed [OPush 0; OPush 1; OPush 2; OTag 2 0] in
  let st' := fst (delete succ_w subject_w manifest_w cfg_noF3 ord_id st 1) in
  is_tagged st 2 = true /\ In 2 (blobs st) /\ ~ In 2 (blobs st') /\ lookup (RTag 0) (idx st') = None.
Proof. vm_compute. intuition (try discriminate). Qed.
Print Assumptions C09_delete_tagged_refuted.

Theorem C09_delete_order_refuted :
  let st := run_w cfg_fixed [OPush 0; OPush 1; OPush 2; OPush 3] in
  snd (delete succ_w subject_w manifest_w cfg_noF4 ord_id st 1) = ENotFound /\
  snd (delete succ_w subject_w manifest_w cfg_noF4 ord_rev st 1) = Ok.
Proof. vm_compute. split; reflexivity. Qed.
Print Assumptions C09_delete_order_refuted.

(* [is_tagged] (Store.isTagged) means "carries a tag" in every state the repaired code can
   reach: no stale tag-set entries exist *)
Theorem C09_is_tagged_exact :
  forall succ subject manifest kl ops,
  let st := fold_left (fun st o => fst (step succ subject manifest cfg_fixed kl st o)) ops init in
  forall n, is_tagged st n = true <-> exists t, In (RTag t, n) (idx st).
Proof. exact run_tagged. Qed.
Print Assumptions C09_is_tagged_exact.

(* Before the repair of resolver.Memory.Tag: after tag 0 moved from 5 to 1, deleting the index
   6 that lists 5 leaves the untagged, no longer referenced 5 behind (repaired: removed) *)
Theorem C09_delete_stale_tag_refuted :
  let st := run_w cfg_noStale stale_ops in
  let st' := fst (delete succ_w subject_w manifest_w cfg_noStale ord_id st 6) in
  let fx := run_w cfg_fixed stale_ops in
  let fx' := fst (delete succ_w subject_w manifest_w cfg_fixed ord_id fx 6) in
  lookup (RTag 0) (idx st) = Some 1 /\ (forall t, ~ In (RTag t, 5) (idx st)) /\
  In 5 (blobs st') /\ (forall p, In p (gnodes st') -> ~ In 5 (succ_w p)) /\
  ~ In 5 (blobs fx') /\ blobs fx' = [1; 0].
Proof.
  vm_compute. repeat split; try discriminate; try tauto.
  - intros t H. intuition discriminate.
  - intros p H. intuition (subst; simpl in *; intuition discriminate).
  - intuition discriminate.
Qed.
Print Assumptions C09_delete_stale_tag_refuted.

(* Before the repair of the dangling-leaf abort: push image 1 without its config 0, tag, GC;
   Delete 1 returns not found (repaired: Ok) *)
Theorem C09_delete_absent_leaf_refuted :
  let st := run_w cfg_noLeaf leaf_ops in
  In 1 (blobs st) /\ In 0 (gnodes st) /\ ~ In 0 (blobs st) /\
  snd (delete succ_w subject_w manifest_w cfg_noLeaf ord_id st 1) = ENotFound /\
  snd (delete succ_w subject_w manifest_w cfg_fixed ord_id (run_w cfg_fixed leaf_ops) 1) = Ok.
Proof. vm_compute. intuition discriminate. Qed.
Print Assumptions C09_delete_absent_leaf_refuted.

(* Why the repair distinguishes holders from referrers: the naive variant -- queue a referrer
   only when every predecessor of it is already queued -- leaves the referrer chain
   1 <- 2 <- 8 behind (2 is "held" by its own referrer 8), although nothing else links to them *)
Theorem C09_delete_skip_linked_refuted :
  let st := run_w cfg_fixed [OPush 0; OPush 1; OPush 2; OPush 8] in
  blobs (fst (delete succ_w subject_w manifest_w cfg_skipLinked ord_id st 1)) = [8; 2; 0] /\
  blobs (fst (delete succ_w subject_w manifest_w cfg_fixed ord_id st 1)) = [] /\
  is_tagged st 2 = false /\ is_tagged st 8 = false.
Proof. vm_compute. repeat split. Qed.
Print Assumptions C09_delete_skip_linked_refuted.

(* audit F-A: before the repair gcIndex kept a manifest whose subject is a (never stored)
   layer that the rebuilt graph knows by reference *)
Theorem C09_gc_blob_subject_refuted :
  blobs (fst (step succ_w subject_w manifest_w cfg_noSubjM false (run_w cfg_noSubjM subjm_ops) OGC)) = [11; 10; 0] /\
  blobs (fst (step succ_w subject_w manifest_w cfg_fixed false (run_w cfg_fixed subjm_ops) OGC)) = [10; 0] /\
  manifest_w 9 = false /\ subject_w 11 = Some 9.
Proof. vm_compute. repeat split. Qed.
Print Assumptions C09_gc_blob_subject_refuted.

(* audit F-C: before the repair a surviving index that lists a referrer and also names it as
   its subject did not hold it *)
Theorem C09_delete_subject_and_entry_refuted :
  let st := run_w cfg_fixed [OPush 0; OPush 1; OPush 2; OPush 12; OTag 12 0] in
  blobs (fst (delete succ_w subject_w manifest_w cfg_noEntry ord_id st 1)) = [12] /\
  blobs (fst (delete succ_w subject_w manifest_w cfg_fixed ord_id st 1)) = [12; 2; 0] /\
  In 2 (entries succ_w subject_w 12).
Proof. vm_compute. repeat split. now left. Qed.
Print Assumptions C09_delete_subject_and_entry_refuted.

(* the outcome of Delete (AutoGC) and of GC does not depend on Go's map iteration orders *)
Theorem C09_order_independent :
  forall succ subject manifest, acyclic succ -> subject_listed succ subject ->
  (forall st x, wfm subject manifest st -> autogc st = true -> In x (blobs st) ->
     forall o1 o2, reorders o1 -> reorders o2 ->
     let a := fst (delete succ subject manifest cfg_fixed o1 st x) in
     let b := fst (delete succ subject manifest cfg_fixed o2 st x) in
     (forall y, In y (blobs a) <-> In y (blobs b)) /\ (forall y, In y (gnodes a) <-> In y (gnodes b)) /\
     (forall t n, In (RTag t, n) (idx a) <-> In (RTag t, n) (idx b))) /\
  (forall kl st o1 o2, same_elements o1 (candidates (idx st)) -> same_elements o2 (candidates (idx st)) ->
     let a := fst (gc succ subject manifest cfg_fixed kl o1 st) in
     let b := fst (gc succ subject manifest cfg_fixed kl o2 st) in
     (forall y, In y (blobs a) <-> In y (blobs b)) /\ (forall y, In y (gnodes a) <-> In y (gnodes b)) /\
     (forall t n, In (RTag t, n) (idx a) <-> In (RTag t, n) (idx b))).
Proof. exact order_independent. Qed.
Print Assumptions C09_order_independent.

(* "keep live data": a stored descriptor that carries a tag survives, with its tag, every
   Delete of another descriptor (AutoGC on or off, target stored or not, every iteration
   order) and, with everything reachable from it, every GC -- complete or cancelled *)
Theorem C09_tagged_kept :
  forall succ subject manifest, acyclic succ -> subject_listed succ subject ->
  forall st n t, wfm subject manifest st -> In (RTag t, n) (idx st) -> In n (blobs st) ->
  (forall x ord, reorders ord -> x <> n ->
     let st' := fst (delete succ subject manifest cfg_fixed ord st x) in
     In n (blobs st') /\ In (RTag t, n) (idx st')) /\
  (forall kl ords order k, same_elements ords (candidates (idx st)) ->
     let s1 := fst (gc succ subject manifest cfg_fixed kl ords st) in
     let s2 := fst (gc_cancel succ subject manifest cfg_fixed kl ords order k st) in
     forall y, Reach succ (blobs st) n y ->
       In y (blobs s1) /\ In y (blobs s2) /\ In (RTag t, n) (idx s1) /\ In (RTag t, n) (idx s2)).
Proof. exact tagged_kept. Qed.
Print Assumptions C09_tagged_kept.

(* The order of effects the persistence model relies on, read off the call sequences that the
   translator regenerates from Store.GC and Store.delete on every run (Generated/GC09.v):
   GC writes index.json before it removes the first blob and tests the context before every
   removal; delete() writes index.json before it unlinks the blob.  The model's [pstep] is
   configured by these three booleans, the theorems below use them as lemmas: a reordering of
   the Go source changes the model and breaks the proofs. *)
Theorem C09_effect_order :
  gc_saves_before_sweep = true /\ gc_tests_ctx_before_remove = true /\ delete_saves_before_unlink = true.
Proof. exact (conj gc_saves_before_sweep_ok (conj gc_tests_ctx_before_remove_ok delete_saves_before_unlink_ok)). Qed.
Print Assumptions C09_effect_order.

(* loadIndex after saveIndex gives back the reference map (minus stale tag-set entries) *)
Theorem C09_index_load_save :
  forall ix e, refs_ok ix ->
  (In e (load_form (save_form ix)) <-> In e ix /\ nonstale e = true).
Proof. exact load_save. Qed.
Print Assumptions C09_index_load_save.

(* As long as AutoSaveIndex is never switched off, after every history of Push / Tag / Untag /
   Delete / GC (complete or cancelled) / AutoGC / stray files / SaveIndex / reopen / foreign
   index, index.json holds exactly what saveIndex writes for the current reference map: Delete
   and GC never leave index.json behind the memory *)
Theorem C09_index_json_current :
  forall succ subject manifest, acyclic succ -> subject_listed succ subject ->
  forall kl ops, Forall (fun o => o <> PAutoSave false) ops ->
  let p := fold_left (fun p o => fst (pstep succ subject manifest cfg_fixed kl p o)) ops pinit in
  (forall e, In e (disk p) <-> In e (save_form (idx (mem p)))) /\
  refs_ok (idx (mem p)) /\ autosave p = true.
Proof.
  exact (fun succ subject manifest _ _ kl ops Hf =>
           match prun_ok succ subject manifest kl ops Hf with conj Hr (conj Hs Ha) => conj Hs (conj Hr Ha) end).
Qed.
Print Assumptions C09_index_json_current.

(* every state of every history of the persistence layer -- complete and cancelled GCs,
   SaveIndex, AutoSaveIndex on or off, reloads from whatever index.json holds, failed pushes,
   and Deletes of plain layers/configs by the blob descriptor Resolve(<digest>) returns
   (PDeleteAlt; [plain_alt]: the deleted node is no manifest and has no subject) -- satisfies
   [wfm], the hypothesis of C09_delete_exact / C09_tagged_kept / C09_order_independent: the
   graph nodes that are manifests or have a subject are stored (a layer may be a stale graph
   node without content: C09_delete_alt_stale_node); and [is_tagged] means "carries a tag" *)
Theorem C09_persist_histories :
  forall succ subject manifest, acyclic succ -> subject_listed succ subject ->
  forall kl ops, Forall (plain_alt subject manifest) ops ->
  let p := fold_left (fun p o => fst (pstep succ subject manifest cfg_fixed kl p o)) ops pinit in
  wfm subject manifest (mem p) /\
  (forall n, is_tagged (mem p) n = true <-> exists t, In (RTag t, n) (idx (mem p))).
Proof. exact persist_histories. Qed.
Print Assumptions C09_persist_histories.

(* [wfm] is weaker than [wf] (C09_histories, C09_store_wf give [wf]) *)
Theorem C09_wf_wfm : forall subject manifest st, wf st -> wfm subject manifest st.
Proof. exact wf_wfm. Qed.
Print Assumptions C09_wf_wfm.

(* The Delete theorems without a premise on the state: in EVERY state of every history of the
   persistence layer (pushes, tags, deletes, complete/cancelled/blocked GCs, saves, reloads,
   failed pushes, Deletes of plain leaves by the blob descriptor), Delete x of a stored x with
   AutoGC on returns Ok and removes exactly [Gone] from storage and graph and x's tags from
   the index, for every iteration order, with order-independent outcome; and a stored tagged
   descriptor survives every Delete of another descriptor (AutoGC on or off) *)
Theorem C09_delete_in_histories :
  forall succ subject manifest,
  acyclic succ -> subject_listed succ subject ->
  forall kl ops, Forall (plain_alt subject manifest) ops ->
  let st := mem (fold_left (fun p o => fst (pstep succ subject manifest cfg_fixed kl p o)) ops pinit) in
  (forall x ord, autogc st = true -> In x (blobs st) -> reorders ord ->
     exists st',
       delete succ subject manifest cfg_fixed ord st x = (st', Ok) /\
       (forall y, In y (blobs st') <-> In y (blobs st) /\ ~ Gone succ subject manifest st x y) /\
       (forall y, In y (gnodes st') <-> In y (gnodes st) /\ ~ Gone succ subject manifest st x y) /\
       (forall t n, In (RTag t, n) (idx st') <-> In (RTag t, n) (idx st) /\ n <> x) /\
       (forall r, ~ In (r, x) (idx st'))) /\
  (forall n t x ord, In (RTag t, n) (idx st) -> In n (blobs st) -> reorders ord -> x <> n ->
     let st' := fst (delete succ subject manifest cfg_fixed ord st x) in
     In n (blobs st') /\ In (RTag t, n) (idx st')) /\
  (forall x o1 o2, autogc st = true -> In x (blobs st) -> reorders o1 -> reorders o2 ->
     let a := fst (delete succ subject manifest cfg_fixed o1 st x) in
     let b := fst (delete succ subject manifest cfg_fixed o2 st x) in
     (forall y, In y (blobs a) <-> In y (blobs b)) /\ (forall y, In y (gnodes a) <-> In y (gnodes b)) /\
     (forall t n, In (RTag t, n) (idx a) <-> In (RTag t, n) (idx b))).
Proof. exact delete_in_histories. Qed.
Print Assumptions C09_delete_in_histories.

(* Delete of the layer 0 with the blob descriptor leaves the graph node 0 without content
   (the state is not [wf], it is [wfm]); GC removes the stale node; a second such Delete is
   ErrNotFound.  C09_delete_after_alt: in that state Delete of the image 1 (AutoGC on)
   removes 1 and its referrer 2, as C09_delete_exact says -- the stale node is no storage *)
Example C09_delete_after_alt :
  let p := prun_w [PO (OAuto true); PO (OPush 0); PO (OPush 1); PO (OPush 2); PDeleteAlt 0] in
  let r := pstep succ_w subject_w manifest_w cfg_fixed true p (PO (ODelete 1)) in
  blobs (mem p) = [2; 1] /\ gnodes (mem p) = [2; 1; 0] /\
  snd r = Ok /\ blobs (mem (fst r)) = [] /\ gnodes (mem (fst r)) = [0].
Proof. vm_compute. repeat split. Qed.
Print Assumptions C09_delete_after_alt.

Theorem C09_delete_alt_stale_node :
  let p := prun_w [PO (OPush 0); PO (OPush 1); PDeleteAlt 0] in
  blobs (mem p) = [1] /\ In 0 (gnodes (mem p)) /\ ~ In 0 (blobs (mem p)) /\
  gnodes (mem (prun_w [PO (OPush 0); PO (OPush 1); PO (OTag 1 0); PDeleteAlt 0; PO OGC])) = [1] /\
  snd (pstep succ_w subject_w manifest_w cfg_fixed true (prun_w [PO (OPush 0); PO (OPush 1)]) (PDeleteAlt 0)) = Ok /\
  snd (pstep succ_w subject_w manifest_w cfg_fixed true p (PDeleteAlt 0)) = ENotFound.
Proof. exact delete_alt_stale_node. Qed.
Print Assumptions C09_delete_alt_stale_node.

(* C09_index_json_current as an invariant of one step (any state with a current index.json) *)
Theorem C09_index_json_step :
  forall succ subject manifest, acyclic succ -> subject_listed succ subject ->
  forall kl p o, pstate_ok p -> o <> PAutoSave false ->
  pstate_ok (fst (pstep succ subject manifest cfg_fixed kl p o)).
Proof. exact (fun succ subject manifest _ _ => pstep_ok succ subject manifest). Qed.
Print Assumptions C09_index_json_step.

(* with a current index.json a new Store on the directory is the OReopen of the theorems
   (C09_gc_reopen, C09_histories): same storage, references, graph *)
Theorem C09_reload_is_reopen :
  forall succ subject manifest, acyclic succ -> subject_listed succ subject ->
  forall kl p, pstate_ok p ->
  let a := mem (fst (pstep succ subject manifest cfg_fixed kl p (PO OReopen))) in
  let b := fst (step succ subject manifest cfg_fixed kl (mem p) OReopen) in
  blobs a = blobs b /\ (forall e, In e (idx a) <-> In e (idx b)) /\
  (forall x, In x (gnodes a) <-> In x (gnodes b)) /\
  strays a = strays b /\ autogc a = autogc b.
Proof. exact (fun succ subject manifest _ _ => reload_is_reopen succ subject manifest). Qed.
Print Assumptions C09_reload_is_reopen.

(* the hypothesis is needed: with AutoSaveIndex off and no SaveIndex a restart forgets the tag,
   and the next GC sweeps the manifest (documented: "unsaved index will be lost"); SaveIndex
   before the restart keeps both *)
Theorem C09_unsaved_index_refuted :
  let ops := [PO (OPush 0); PO (OPush 1); PO (OTag 1 0); PO OReopen; PO OGC] in
  blobs (mem (prun_w (PAutoSave false :: ops))) = [] /\
  lookup (RTag 0) (idx (mem (prun_w (PAutoSave false :: ops)))) = None /\
  blobs (mem (prun_w ops)) = [1; 0] /\
  lookup (RTag 0) (idx (mem (prun_w ops))) = Some 1 /\
  blobs (mem (prun_w (PAutoSave false :: [PO (OPush 0); PO (OPush 1); PO (OTag 1 0); PSave; PO OReopen; PO OGC]))) = [1; 0].
Proof. vm_compute. repeat split. Qed.
Print Assumptions C09_unsaved_index_refuted.

(* The case lists of the media-type switches of manifestutil.Subject, registry.Referrers and
   content.Successors and of descriptor.IsManifest (Generated/GC09.v) are what the model
   assumes: Subject and Referrers accept the same media types (the model has one subject
   function for both), exactly the manifest media types have successors, every media type
   with a subject is a manifest; kinds 0..5 = blob, image, docker manifest, index, docker
   manifest list, artifact manifest.  The driver masks the subject of a node by
   [kind_has_subject], so the model follows the switch. *)
Theorem C09_media_type_tables :
  subject_tables_agree = true /\
  map kind_has_subject [0; 1; 2; 3; 4; 5] = [false; true; false; true; false; true] /\
  map is_manifest_kind [0; 1; 2; 3; 4; 5] = [false; true; true; true; true; true].
Proof. vm_compute. repeat split. Qed.
Print Assumptions C09_media_type_tables.

(* Delete and GC hold the store's write lock for their whole body, every other operation the
   read lock (regenerated call sequences): the justification of "sequential histories" --
   under sync.RWMutex no other operation of the store overlaps a Delete or a GC *)
Theorem C09_lock_discipline : lock_discipline = true.
Proof. vm_compute. reflexivity. Qed.
Print Assumptions C09_lock_discipline.

(* The C09 model represents graph.Memory by its node set and derives predecessors and
   danglings from it.  This is sound for the concrete model of internal/graph/memory.go
   (Model/GraphMem.v, property C07: nodes, predecessors map, successors map, Index and Remove
   statement by statement): on every concrete state with C07's representation invariant
   (proved there for all histories) Predecessors, the danglings Remove reports -- for every
   iteration order of the successor set -- and the node sets after Remove and index are
   exactly what the C09 model computes ([absn] = the node set, keys N there, nat here). *)
Theorem C09_graph_abstraction :
  forall (succ : nat -> list nat) (g : GraphMem.graph),
  Proofs.GraphMem.Inv (OciGCGraph.contentN succ) g ->
  (forall n p, In p (GraphMem.predecessors g n) <->
               In (N.to_nat p) (preds succ (OciGCGraph.absn g) (N.to_nat n))) /\
  (forall n order, Permutation.Permutation order (GraphMem.getd (GraphMem.g_succs g) n) ->
     Proofs.GraphMem.Inv (OciGCGraph.contentN succ) (fst (GraphMem.remove_ord g n order)) /\
     (forall d, In d (snd (GraphMem.remove_ord g n order)) <->
                In (N.to_nat d) (danglings succ (OciGCGraph.absn g) (N.to_nat n))) /\
     (forall x, In x (OciGCGraph.absn (fst (GraphMem.remove_ord g n order))) <->
                In x (removeb (N.to_nat n) (OciGCGraph.absn g)))) /\
  (forall n x, In x (OciGCGraph.absn (GraphMem.index g n (OciGCGraph.contentN succ n))) <->
               x = N.to_nat n \/ In x (OciGCGraph.absn g)).
Proof.
  exact (fun succ g HI => conj (OciGCGraph.bridge_preds succ g HI)
           (conj (fun n order P => OciGCGraph.bridge_remove succ g n order HI P) (OciGCGraph.bridge_index succ g))).
Qed.
Print Assumptions C09_graph_abstraction.

(* the hypotheses are satisfiable on non-trivial instances *)
Example C09_hyps_satisfiable : acyclic succ_w /\ subject_listed succ_w subject_w.
Proof. exact (conj succ_w_lt subj_w_succ). Qed.

Example C09_example_gc :
  let st := run_w cfg_fixed [OPush 0; OPush 1; OPush 2; OPush 3; OPush 5; OPush 6; OPush 7; OTag 1 0; ODelete 3] in
  let st' := fst (step succ_w subject_w manifest_w cfg_fixed false st OGC) in
  blobs st' = [7; 6; 5; 1; 0] /\ snd (step succ_w subject_w manifest_w cfg_fixed false st OGC) = Ok.
Proof. vm_compute. split; reflexivity. Qed.

Example C09_example_delete :
  let st := run_w cfg_fixed [OPush 0; OPush 1; OPush 2; OPush 3; OPush 5; OPush 6; OPush 7; OTag 5 0] in
  autogc st = true /\ In 1 (blobs st) /\
  blobs (fst (step succ_w subject_w manifest_w cfg_fixed false st (ODelete 1))) = [7; 5; 0] /\
  snd (step succ_w subject_w manifest_w cfg_fixed false st (ODelete 1)) = Ok.
Proof. vm_compute. intuition. Qed.

Example C09_example_cancel_resume :
  blobs (mem (prun_w (cancel_pre ++ [PGCCancel false cancel_order 1]))) = [7; 2; 1; 0] /\
  snd (pstep succ_w subject_w manifest_w cfg_fixed true (prun_w cancel_pre) (PGCCancel false cancel_order 1)) = ECanceled /\
  blobs (mem (prun_w (cancel_pre ++ [PGCCancel false cancel_order 3]))) = [2; 1; 0] /\
  blobs (mem (prun_w (cancel_pre ++ [PGCCancel false cancel_order 1; PO OGC]))) = [2; 1; 0] /\
  blobs (mem (prun_w (cancel_pre ++ [PO OGC]))) = [2; 1; 0] /\
  disk (prun_w (cancel_pre ++ [PGCCancel false cancel_order 1])) = disk (prun_w (cancel_pre ++ [PO OGC])).
Proof. vm_compute. repeat split. Qed.

Example C09_example_pstate_ok : pstate_ok (prun_w (cancel_pre ++ [PGCCancel false cancel_order 1])).
Proof.
  apply (prun_ok succ_w subject_w manifest_w true).
  repeat constructor; discriminate.
Qed.
