(* Protocol part of C02 / C04: theorems about the LTS of Model/CopyImpl.v (syncutil.Go, LimitedRegion,
   status.Tracker, copyGraph.fn, the outer fan-out of ExtendedCopyGraph).  `Reachable succ K ext roots s`:
   s is reachable from `init K ext roots` by any sequence of labels (any interleaving, any fault
   choice, cancellation of the caller's context at any point). *)
From Coq Require Import List Arith Bool Lia.
From Oras Require Import Model.CopyImpl Model.CopyImplDst Model.CopyAbs Proofs.CopyImplBase Proofs.CopyImplInv
  Proofs.CopyImplDeadlock Proofs.CopyImplFault Proofs.CopyImplTerm Proofs.CopyImplSucc
  Proofs.CopyImplOrder Proofs.CopyImplNoFault Proofs.CopyImplDst Proofs.CopyAbsProto.
Import ListNotations.

Theorem C04_permits_conserved : forall succ K ext roots s, Reachable succ K ext roots s ->
  free s + holders s = K /\ holders s <= K /\
  (forall t, is_fin (t_pc (tasks s t)) = true -> t_holds (tasks s t) = false).
Proof. exact permits_conserved. Qed.
Print Assumptions C04_permits_conserved.

Theorem C04_end_idempotent : forall succ s t s', step succ s (LEnd t) = Some s' ->
  t_holds (tasks s' t) = false /\ free s' = (if t_holds (tasks s t) then S (free s) else free s).
Proof. exact end_idempotent. Qed.
Print Assumptions C04_end_idempotent.

Theorem C04_finish_releases_once : forall s t e m,
  free (finish s t e m) = (if t_holds (tasks s t) then S (free s) else free s) /\
  t_holds (tasks (finish s t e m) t) = false.
Proof. exact finish_releases_once. Qed.
Print Assumptions C04_finish_releases_once.

Theorem C04_start_idempotent : forall succ s t s', step succ s (LStart t) = Some s' ->
  t_holds (tasks s t) = true -> t_kind (tasks s t) = KFn -> free s' = free s /\ t_holds (tasks s' t) = true.
Proof. exact start_idempotent. Qed.
Print Assumptions C04_start_idempotent.

Theorem C04_inflight_bounded : forall succ K ext roots s, Reachable succ K ext roots s ->
  inflight s <= holders s /\ inflight s <= K.
Proof. exact inflight_bounded. Qed.
Print Assumptions C04_inflight_bounded.

(* Deadlock freedom.  succ is strictly rank-decreasing (content addressing: node ids are assigned
   bottom-up, rank = id).  In every reachable state in which the top-level syncutil.Go has not returned,
   some step of the protocol itself is enabled - a label that is not a fault / cancellation choice
   (progress_label).  The proof: a permit holder is never blocked (region.End() precedes dispatch and
   waiting); with a free permit, waits go strictly down in rank (done channels) or to a nested frame;
   after a failure some cancelled frame has not returned and everything below a cancelled frame can move. *)
Theorem C02_no_deadlock : forall succ K ext roots,
  (forall n m, In m (succ n) -> m < n) ->
  forall s, 1 <= K -> Reachable succ K ext roots s -> is_final s = false ->
  exists l s', progress_label l = true /\ step succ s l = Some s' /\ In l (enabled succ s).
Proof. exact no_deadlock. Qed.
Print Assumptions C02_no_deadlock.

(* Termination.  Nodes are 0 .. N-1, the roots are nodes.  `measure` (Proofs/CopyImplTerm.v: remaining
   program-counter steps of every task + remaining dispatch work of every frame + the cost of committing
   every still untracked node + 1 for the pending cancellation) strictly decreases on EVERY step,
   fault and cancellation choices included; hence every execution has at most
     bound = (#roots * (1 + spawn cost) + 2) + sum_{n<N} (7 + |succ n| + 4 |succ n| + 2) + 1
   steps: a bound that depends only on the graph (not even on K), and no infinite execution exists. *)
Theorem C02_terminates_measure : forall succ K ext roots N,
  (forall n m, In m (succ n) -> m < n) -> (forall r, In r roots -> r < N) ->
  forall s l s', Reachable succ K ext roots s -> step succ s l = Some s' -> measure succ N s' < measure succ N s.
Proof. exact terminates_step. Qed.
Print Assumptions C02_terminates_measure.

Theorem C02_terminates : forall succ K ext roots N,
  (forall n m, In m (succ n) -> m < n) -> (forall r, In r roots -> r < N) ->
  forall ls s, run succ (init K ext roots) ls = Some s -> length ls <= bound succ ext roots N.
Proof. exact terminates. Qed.
Print Assumptions C02_terminates.

Theorem C02_no_infinite_run : forall succ K ext roots N,
  (forall n m, In m (succ n) -> m < n) -> (forall r, In r roots -> r < N) ->
  forall (st : nat -> state) (lb : nat -> label),
  st 0 = init K ext roots -> (forall i, step succ (st i) (lb i) = Some (st (S i))) -> False.
Proof. exact no_infinite_run. Qed.
Print Assumptions C02_no_infinite_run.

(* Faults surface.  If in an execution from the initial state some storage step / callback of a task
   fails (LExists _ ExFail, LFind _ false, LPush _ false) or the caller's context is cancelled
   (LCancelTop, only enabled before the top-level call has returned), then the top-level syncutil.Go, once
   it has returned, has returned an error - never success. *)
Theorem C02_fault_surfaces_protocol : forall succ K ext roots,
  (forall n m, In m (succ n) -> m < n) ->
  forall ls s, run succ (init K ext roots) ls = Some s ->
  existsb is_fault ls = true -> is_final s = true -> result s = Some true.
Proof. exact fault_surfaces. Qed.
Print Assumptions C02_fault_surfaces_protocol.

(* Success.  If the top-level syncutil.Go has returned nil then: no fault or cancellation happened
   (failed = false: contrapositive of the theorem above), every goroutine has finished and holds no
   permit, every root is Done in the tracker (its done channel is closed), every node that was copied
   (DoneCopied: pushed by this run, as opposed to DoneSkipped: found present by Exists) has all its
   successors Done, and no node is left InProgress.  Hence every node reachable from a root through
   copied nodes is Done. *)
Theorem C02_success_protocol : forall succ K ext roots,
  (forall n m, In m (succ n) -> m < n) ->
  forall s, Reachable succ K ext roots s -> result s = Some false ->
  failed s = false /\
  (forall t, is_fin (t_pc (tasks s t)) = true /\ t_holds (tasks s t) = false) /\
  (forall r, In r roots -> is_done (tracker s r) = true) /\
  (forall n, tracker s n = DoneCopied -> forall m, In m (succ n) -> is_done (tracker s m) = true) /\
  (forall n, tracker s n <> InProgress).
Proof. exact success_tracker. Qed.
Print Assumptions C02_success_protocol.

(* Push ordering in the protocol, at EVERY reachable state (failed, cancelled and unfinished executions
   included; this is the invariant behind C02_success_protocol):
   whenever the push step of a task of copyGraph.fn is enabled -- whatever its outcome -- every successor
   of its node is Done in the tracker (its done channel is closed, which happens only after Exists=true
   or a successful copyNode); the same for a task that is past its wait loop; and every node marked
   "copied" has all successors Done.  A failed / cancelled wait never leads to TStart/TPush: LWaitCancel,
   LStartFail and the "successor not committed" arm finish the task with an error. *)
Theorem C02_push_after_done_protocol : forall succ K ext roots,
  (forall n m, In m (succ n) -> m < n) ->
  forall s t ok s', Reachable succ K ext roots s -> step succ s (LPush t ok) = Some s' ->
  forall m, In m (succ (t_node (tasks s t))) -> is_done (tracker s m) = true.
Proof. exact push_after_done. Qed.
Print Assumptions C02_push_after_done_protocol.

Theorem C02_past_wait_successors_done_protocol : forall succ K ext roots,
  (forall n m, In m (succ n) -> m < n) ->
  forall s t, Reachable succ K ext roots s ->
  t_kind (tasks s t) = KFn -> (t_pc (tasks s t) = TStart \/ t_pc (tasks s t) = TPush) ->
  forall m, In m (succ (t_node (tasks s t))) -> is_done (tracker s m) = true.
Proof. exact past_wait_successors_done. Qed.
Print Assumptions C02_past_wait_successors_done_protocol.

Theorem C02_copied_successors_done_protocol : forall succ K ext roots,
  (forall n m, In m (succ n) -> m < n) ->
  forall s, Reachable succ K ext roots s ->
  forall n, tracker s n = DoneCopied -> forall m, In m (succ n) -> is_done (tracker s m) = true.
Proof. exact copied_successors_done. Qed.
Print Assumptions C02_copied_successors_done_protocol.

(* No fault => nil.  The converse of C02_fault_surfaces_protocol: in an execution from the initial state
   in which no storage step / callback fails and the caller's context is not cancelled, nothing ever
   records a failure -- in particular the "successor not committed" arm of copyGraph.fn is unreachable
   (every node a parent waits for was tracked by a task of its own Go frame) and no wait / region.Start /
   dispatch sees a cancelled context -- so once the execution has ended (C02_no_deadlock + C02_terminates:
   it does end) the top-level syncutil.Go has returned nil; C02_success_protocol then gives "every root
   Done, copied nodes have Done successors, nothing InProgress".  This is the middle step of "re-running
   it without faults completes the graph". *)
Theorem C02_nofault_returns_nil_protocol : forall succ K ext roots,
  (forall n m, In m (succ n) -> m < n) ->
  forall ls s, run succ (init K ext roots) ls = Some s ->
  existsb is_fault ls = false -> is_final s = true -> failed s = false /\ result s = Some false.
Proof. exact nofault_returns_nil. Qed.
Print Assumptions C02_nofault_returns_nil_protocol.

(* ---- The protocol WITH A DESTINATION (Model/CopyImplDst.v): a state is a protocol state plus the set of
   nodes the destination holds; dst.Exists answers by that set, a successful copyNode stores its node, a
   failing one may have stored it (DPushFailStored).  `DReachable succ K ext roots d0 x`: x is reachable from
   the initial protocol state with destination content d0 by any sequence of labels -- every interleaving
   of tasks / permits / done channels / cancel-cause contexts, every fault and cancellation choice.
   This is the property C02 itself at the granularity of the protocol. ---- *)

(* the destination is link-closed at every reachable state: successful, failed, cancelled, unfinished *)
Theorem C02_closed_always_protocol : forall succ K ext roots d0,
  (forall n m, In m (succ n) -> m < n) ->
  forall x, dclosed succ d0 -> DReachable succ K ext roots d0 x -> dclosed succ (dd x).
Proof. exact dclosed_always. Qed.
Print Assumptions C02_closed_always_protocol.

(* no push step -- successful, failing, or failing after having stored the content -- is enabled before
   every successor of its node is in the destination *)
Theorem C02_push_after_successors_protocol : forall succ K ext roots d0,
  (forall n m, In m (succ n) -> m < n) ->
  forall x dl x' t, DReachable succ K ext roots d0 x -> dstep succ x dl = Some x' ->
  (exists ok, dl = DL (LPush t ok)) \/ dl = DPushFailStored t ->
  forall m, In m (succ (t_node (tasks (ds x) t))) -> In m (dd x).
Proof. exact dpush_after_successors. Qed.
Print Assumptions C02_push_after_successors_protocol.

(* success: everything reachable from every root is in the destination *)
Theorem C02_success_complete_protocol : forall succ K ext roots d0,
  (forall n m, In m (succ n) -> m < n) ->
  forall x, dclosed succ d0 -> DReachable succ K ext roots d0 x -> result (ds x) = Some false ->
  forall r n, In r roots -> dreach succ r n -> In n (dd x).
Proof. exact dsuccess_complete. Qed.
Print Assumptions C02_success_complete_protocol.

(* retry: after ANY reachable state of a first call (failed, cancelled, abandoned), a second call -- any K,
   CopyGraph or ExtendedCopyGraph, any roots -- in which nothing fails and which has ended (it does end:
   C02_no_deadlock + C02_terminates) returned nil, left the destination link-closed, and the destination holds
   everything reachable from its roots.  All three clauses of "re-running it without faults completes the
   graph" in one statement about the operational model. *)
Theorem C02_rerun_completes_protocol : forall succ K1 ext1 roots1 K2 ext2 roots2 d0,
  (forall n m, In m (succ n) -> m < n) -> dclosed succ d0 ->
  forall x1, DReachable succ K1 ext1 roots1 d0 x1 ->
  forall ls x2, drun succ (dinit K2 ext2 roots2 (dd x1)) ls = Some x2 ->
  existsb is_fault (map dlab ls) = false -> is_final (ds x2) = true ->
  result (ds x2) = Some false /\
  dclosed succ (dd x2) /\
  forall r n, In r roots2 -> dreach succ r n -> In n (dd x2).
Proof. exact drerun_completes. Qed.
Print Assumptions C02_rerun_completes_protocol.

(* Refinement to the abstract specification Model/CopyAbs.v (shared with the spec-level part): every step of the
   protocol system with a destination taken before the top-level call has returned is an abstract step -- a
   push (successful, or failing after it stored) is a store whose guard "all successors held" holds, the return
   of the top-level syncutil.Go is the abstract return (nil only when the closure of the roots is held), every
   other protocol step is a stutter. *)
Theorem C02_protocol_refines_abstract : forall succ K ext roots d0,
  (forall n m, In m (succ n) -> m < n) ->
  forall x dl x', dclosed succ d0 -> DReachable succ K ext roots d0 x ->
  result (ds x) = None -> dstep succ x dl = Some x' ->
  exists l, astep succ (proot roots) pheld (pabs x) l (pabs x').
Proof. exact dstep_refines. Qed.
Print Assumptions C02_protocol_refines_abstract.

(* ---- the hypotheses are satisfiable: a concrete DAG (4 -> 3,2 ; 3 -> 1,2 ; 2 -> 0,1), complete runs *)
Definition ex_succ (n : nat) : list nat :=
  match n with 4 => [3; 2] | 3 => [1; 2] | 2 => [0; 1] | _ => [] end.
Example ex_succ_dec : forall n m, In m (ex_succ n) -> m < n.
Proof. intros n m. do 5 (destruct n as [|n]; [cbn; intuition lia|]). cbn. tauto. Qed.

(* K = 1, CopyGraph from root 4, no fault: the labels chosen by the scheduler form a run of the LTS
   that ends, returns nil, leaves every node Done and all permits free *)
Example ex_run_ok :
  let ls := snd (sched ex_succ pick_progress 400 (init 1 false [4]) []) in
  existsb is_fault ls = false /\ length ls = 59 /\
  match run ex_succ (init 1 false [4]) ls with
  | Some s => result s = Some false /\ forallb (fun n => is_done (tracker s n)) [0; 1; 2; 3; 4] = true /\ free s = 1
  | None => False
  end.
Proof. vm_compute. repeat split; reflexivity. Qed.

(* K = 2, ExtendedCopyGraph with roots 4 and 3, the first push fails: the call returns an error *)
Example ex_run_fault :
  let ls := snd (sched ex_succ pick_push_fault 400 (init 2 true [4; 3]) []) in
  existsb is_fault ls = true /\
  match run ex_succ (init 2 true [4; 3]) ls with
  | Some s => is_final s = true /\ result s = Some true /\ free s = 2
  | None => False
  end.
Proof. vm_compute. repeat split; reflexivity. Qed.

(* a reachable non-final state (the hypothesis of C02_no_deadlock) *)
Example ex_nonfinal : Reachable ex_succ 1 false [4] (init 1 false [4]) /\ is_final (init 1 false [4]) = false.
Proof. split. apply R_init. reflexivity. Qed.

(* with the destination: K = 2, CopyGraph from root 4 into a destination that already holds the closed set
   {0, 1}; the first enabled push fails; the call returns an error and the destination is closed; a fault-free
   second run (K = 1) from what is left returns nil and holds all five nodes *)
Definition is_push_fail (l : label) : bool := match l with LPush _ false => true | _ => false end.
Example ex_run_dst :
  let r1 := dsched ex_succ is_push_fail 120 (dinit 2 false [4] [0; 1]) [] in
  let x1 := fst r1 in
  existsb is_fault (map dlab (snd r1)) = true /\
  is_final (ds x1) = true /\ result (ds x1) = Some true /\ dclosedb ex_succ (dd x1) = true /\
  let r2 := dsched ex_succ (fun _ => false) 120 (dinit 1 false [4] (dd x1)) [] in
  let x2 := fst r2 in
  drun ex_succ (dinit 1 false [4] (dd x1)) (snd r2) = Some x2 /\
  existsb is_fault (map dlab (snd r2)) = false /\ is_final (ds x2) = true /\
  result (ds x2) = Some false /\ forallb (fun n => dmem n (dd x2)) [0; 1; 2; 3; 4] = true.
Proof. vm_compute. repeat split; reflexivity. Qed.

From Oras Require Import Generated.GC02 Model.CopyImplSrc Proofs.CopyImplSrc Proofs.CopyImplDstLive.

(* with dst.Exists answered by the destination (no longer a free choice) the system still never
   deadlocks: every reachable state in which the top-level syncutil.Go has not returned has an enabled
   step that is not a fault / cancellation choice *)
Theorem C02_no_deadlock_dst_protocol : forall succ K ext roots d0,
  (forall n m, In m (succ n) -> m < n) ->
  forall x, 1 <= K -> DReachable succ K ext roots d0 x -> is_final (ds x) = false ->
  exists dl x', progress_label (dlab dl) = true /\ dstep succ x dl = Some x'.
Proof. exact dno_deadlock. Qed.
Print Assumptions C02_no_deadlock_dst_protocol.

(* ... and every execution has at most bound(graph) steps *)
Theorem C02_terminates_dst_protocol : forall succ K ext roots d0,
  (forall n m, In m (succ n) -> m < n) -> forall N, (forall r, In r roots -> r < N) ->
  forall ls x, drun succ (dinit K ext roots d0) ls = Some x -> length ls <= bound succ ext roots N.
Proof. exact dterminates. Qed.
Print Assumptions C02_terminates_dst_protocol.

(* content enters the destination only through a push of the call (one that returns nil, or one that
   stored and then failed) *)
Theorem C02_dst_written_only_by_push_protocol : forall succ x dl x' n, dstep succ x dl = Some x' -> In n (dd x') ->
  In n (dd x) \/
  (exists t, (dl = DL (LPush t true) \/ dl = DPushFailStored t) /\ n = t_node (tasks (ds x) t)).
Proof. exact dst_written_only_by_push. Qed.
Print Assumptions C02_dst_written_only_by_push_protocol.

(* one call on a closed destination, end to end: closed throughout, nothing lost; once the call has
   returned: a fault or cancellation anywhere => error; no fault => nil and the closure of the roots stored *)
Theorem C02_call_summary_protocol : forall succ K ext roots d0,
  (forall n m, In m (succ n) -> m < n) ->
  forall ls x, dclosed succ d0 -> drun succ (dinit K ext roots d0) ls = Some x ->
  dclosed succ (dd x) /\
  (forall n, In n d0 -> In n (dd x)) /\
  (is_final (ds x) = true ->
     (existsb is_fault (map dlab ls) = true -> result (ds x) = Some true) /\
     (existsb is_fault (map dlab ls) = false -> result (ds x) = Some false /\
        forall r n, In r roots -> dreach succ r n -> In n (dd x))).
Proof. exact call_summary. Qed.
Print Assumptions C02_call_summary_protocol.

(* TIE TO THE SOURCE.  The program-counter order of the model (Model/CopyImplSrc.v: which Go calls each
   pc stands for) equals the call sequences that the translator (kind callseq) re-reads from copy.go
   (copyGraph incl. fn), internal/syncutil/limit.go (Go, LimitedRegion.Start / End) and extendedcopy.go
   on every run: TryCommit, [defer close], Exists, FindSuccessors, region.End BEFORE the nested
   syncutil.Go, the wait loop's TryCommit, region.Start, then the copy; Go = dispatch (LimitRegion,
   Start, eg.Go), child (deferred End, fn), Wait, Cause; the outer closure = End, copyGraph, Start;
   Start only acquires, End only releases. *)
Theorem C02_source_order_protocol :
  c02proto_calls_fn = fn_calls /\ c02proto_calls_go = go_calls /\ c02proto_calls_ext = ext_calls /\
  c02proto_calls_start = start_calls /\ c02proto_calls_end = end_calls.
Proof. exact source_order. Qed.
Print Assumptions C02_source_order_protocol.

(* THE LIMITER.  Model/CopyImplSem.v models golang.org/x/sync/semaphore.Weighted (v0.13.0) with unit
   weights - FIFO waiter list, notifyWaiters, cancellation of a queued waiter, the give-back of a
   waiter granted after its context was done - and is compared on every run with the real semaphore
   driven by scripted Acquire / Release / cancel sequences (harness sem.go).  In every reachable state:
   tokens out = held + handed to granted waiters, held + granted + free = size, never more than size
   held, and NO WAITER IS QUEUED WHILE A PERMIT IS FREE (no lost wake-up) - the liveness assumption behind
   "LStart / LDispatchAcq are enabled whenever free > 0" of the protocol model. *)
From Oras Require Import Model.CopyImplSem Proofs.CopyImplSem.
Theorem C04_semaphore_sound_protocol : forall n s, SReach n s ->
  s_cur s = s_held s + length (s_granted s) /\ s_held s + length (s_granted s) + sfree s = n /\
  s_held s <= n /\ (s_wait s <> [] -> sfree s = 0).
Proof. exact sem_sound. Qed.
Print Assumptions C04_semaphore_sound_protocol.

(* the semaphore refines the counter abstraction of the protocol model: an Acquire is granted at once
   only when a permit is free and takes exactly one; a blocked / failed Acquire and a cancelled waiter
   change nothing; a Release (and the give-back of a cancelled granted waiter) frees one permit, which is
   either free afterwards or already handed to the first waiter *)
Theorem C04_semaphore_refines_counter_protocol : forall n s o s' r, SReach n s -> sstep s o = Some (s', r) ->
  match o, r with
  | SAcquire _ _, RGranted => 0 < sfree s /\ sfree s' = sfree s - 1
  | SAcquire _ _, _ => sfree s' = sfree s
  | SRelease, RDone woken => sfree s' + length woken = S (sfree s)
  | SWake _ false, _ => sfree s' = sfree s
  | SWake _ true, RDone woken => sfree s' + length woken = S (sfree s)
  | SCancel _, RDone woken => woken = [] /\ sfree s' = sfree s
  | _, _ => True
  end.
Proof. exact sem_refines_counter. Qed.
Print Assumptions C04_semaphore_refines_counter_protocol.

(* a concrete script (size 1): acquire, two blocked acquires, cancel the second, release wakes the first *)
Example ex_sem :
  match srun (ssize_init 1) [SAcquire 0 false; SAcquire 1 false; SAcquire 2 false; SCancel 2; SRelease; SWake 1 false] with
  | Some s => s_held s = 1 /\ s_wait s = [] /\ s_cur s = 1 /\ sfree s = 0
  | None => False
  end.
Proof. vm_compute. repeat split; reflexivity. Qed.

(* FIFO hand-over: with waiters queued, a Release wakes exactly the first one; the semaphore stays full *)
Theorem C04_semaphore_release_wakes_head_protocol : forall n s w rest s' r, SReach n s -> s_wait s = w :: rest ->
  sstep s SRelease = Some (s', r) ->
  r = RDone [w] /\ s_wait s' = rest /\ s_granted s' = s_granted s ++ [w] /\ sfree s' = 0.
Proof. exact sem_release_wakes_head. Qed.
Print Assumptions C04_semaphore_release_wakes_head_protocol.

(* LimitedRegion (internal/syncutil/limit.go: the `ended` flag, Start = Acquire unless started, End =
   Release unless ended) over the semaphore model (Model/CopyImplRegion.v).  `RReach n x`: x is reachable
   from n free permits and all regions ended by any sequence of Start / End calls of any regions
   (idempotent repetitions included), wake-ups of blocked Starts and cancellations. *)
From Oras Require Import Model.CopyImplRegion Proofs.CopyImplRegion.
(* End() of a started region always succeeds: the semaphore never panics "released more than held" *)
Theorem C04_region_end_never_panics_protocol : forall n x w, RReach n x -> r_reg x w = RStarted ->
  exists x', rstep x (REnd w) = Some x' /\ r_reg x' w = REnded.
Proof. exact region_end_never_panics. Qed.
Print Assumptions C04_region_end_never_panics_protocol.

(* End on an ended region and Start on a started region do nothing *)
Theorem C04_region_idempotent_protocol : forall x w,
  (r_reg x w = REnded -> rstep x (REnd w) = Some x) /\
  (forall d, r_reg x w = RStarted -> rstep x (RStart w d) = Some x).
Proof. exact region_idempotent. Qed.
Print Assumptions C04_region_idempotent_protocol.

(* the permits held are exactly the started regions, and at most n regions are started at any time *)
Theorem C04_region_permits_protocol : forall n x, RReach n x ->
  exists l, NoDup l /\ (forall w, In w l <-> r_reg x w = RStarted) /\ length l = s_held (r_sem x) /\ length l <= n.
Proof. exact region_permits. Qed.
Print Assumptions C04_region_permits_protocol.

(* K = 1: region 0 starts, region 1 blocks, End of 0 (twice: idempotent) wakes 1, which starts *)
Example ex_region :
  match rstep (rinit 1) (RStart 0 false) with
  | Some x1 => match rstep x1 (RStart 1 false) with
    | Some x2 => r_reg x2 1 = RPending /\ match rstep x2 (REnd 0) with
      | Some x3 => rstep x3 (REnd 0) = Some x3 /\ match rstep x3 (RWake 1 false) with
        | Some x4 => r_reg x4 1 = RStarted /\ r_reg x4 0 = REnded /\ s_held (r_sem x4) = 1
        | None => False end
      | None => False end
    | None => False end
  | None => False end.
Proof. vm_compute. repeat split; reflexivity. Qed.
