(* C08 -- An OCI layout on disk is always valid and reopens to the same observable state.
   Statements closed by [exact] of a lemma of Proofs/OciIndex.v (OciFuel, OciConc, OciLocks, TarFS
   for the later parts); the witnesses and what is read off the generated call sequences are
   evaluated where they stand.  The executable model (extracted and run against content/oci on
   every check) and the vocabulary (wf_history, no_reopen, obs_equiv, disk_valid) are in
   Model/OciIndex.v.

   Universe parameters (any values): N bound for the Predecessors enumeration and the
   IndexAll fuel, [mf] IsManifest, [succs] content.Successors, [subj] manifestutil.Subject,
   [sk] "Subject fetches this media type", [dflt] "media type is application/octet-stream".
   The model instance is the repaired code ([true true true true] = fixF2 fixA fixF1 fixHold); the code
   as found is refuted below ([false] instances).
   Histories carry, with every operation, the iteration orders of the Go maps it ranges
   over ([orders]); the theorems hold for all of them. *)
From Coq Require Import List.
Import ListNotations.
From Oras Require Import Base.Prelude Generated.GC08 Model.OciIndex Proofs.OciIndex Model.TarFS Proofs.TarFS Model.OciConc Proofs.OciConc Proofs.OciFuel Model.OciLocks Proofs.OciLocks.
Local Open Scope nat_scope.

(* AutoSaveIndex on: after EVERY history of Push/Tag/Untag/Delete/GC/SaveIndex/read-write
   reopen (any AutoGC setting, any map orders), the store reopened from the directory
   answers like the running one (tag list, tag -> descriptor up to the ref-name
   annotation, Resolve by digest, Exists/Fetch, Predecessors), and every index.json
   entry points to an existing blob. *)
Theorem C08_reopen_equiv_autosave :
  forall (N : nat) (mf : nat -> bool) (succs : nat -> list nat) (subj : nat -> option nat)
         (sk bad dflt : nat -> bool),
    (forall k, mf k = false -> succs k = []) ->
    forall (T : nat) (cfg : config) (h : list (op * orders)),
      autosave cfg = true -> wf_history mf h ->
      let s := run N mf succs subj sk bad true true true true true cfg h store_empty in
      obs_equiv N succs dflt T (reopen N mf succs s) s /\ disk_valid s = true.
Proof. exact reopen_equiv_autosave. Qed.
Print Assumptions C08_reopen_equiv_autosave.

(* AutoSaveIndex off (or on): any history without a reopen in the middle, followed by SaveIndex. *)
Theorem C08_reopen_equiv_saveindex :
  forall (N : nat) (mf : nat -> bool) (succs : nat -> list nat) (subj : nat -> option nat)
         (sk bad dflt : nat -> bool),
    (forall k, mf k = false -> succs k = []) ->
    forall (T : nat) (cfg : config) (h : list (op * orders)) (o : orders),
      wf_history mf h -> no_reopen h ->
      let s := run N mf succs subj sk bad true true true true true cfg (h ++ [(OSave, o)]) store_empty in
      obs_equiv N succs dflt T (reopen N mf succs s) s /\ disk_valid s = true.
Proof. exact reopen_equiv_saveindex. Qed.
Print Assumptions C08_reopen_equiv_saveindex.

(* The same with read-write reopens allowed in the middle, each right after a SaveIndex
   (any AutoSaveIndex setting). *)
Theorem C08_reopen_equiv_saveindex_reopen :
  forall (N : nat) (mf : nat -> bool) (succs : nat -> list nat) (subj : nat -> option nat)
         (sk bad dflt : nat -> bool),
    (forall k, mf k = false -> succs k = []) ->
    forall (T : nat) (cfg : config) (h : list (op * orders)) (o : orders),
      wf_history mf h -> reopen_after_save true h ->
      let s := run N mf succs subj sk bad true true true true true cfg (h ++ [(OSave, o)]) store_empty in
      obs_equiv N succs dflt T (reopen N mf succs s) s /\ disk_valid s = true.
Proof. exact reopen_equiv_saveindex_general. Qed.
Print Assumptions C08_reopen_equiv_saveindex_reopen.

(* the representation invariant behind it (used by C07: the graph rebuilt by loadIndex is the
   live graph): every stored manifest is referenced by digest and indexed in the graph, every
   indexed manifest is stored, every reference points to stored content *)
Theorem C08_store_invariant :
  forall (N : nat) (mf : nat -> bool) (succs : nat -> list nat) (subj : nat -> option nat)
         (sk bad : nat -> bool) (cfg : config) (h : list (op * orders)),
    wf_history mf h -> (autosave cfg = true \/ no_reopen h) ->
    let s := run N mf succs subj sk bad true true true true true cfg h store_empty in
    (forall k, mf k = true -> In k (blobs s) -> lookup (RDig k) (r_index (res s)) <> None /\ In k (gr s)) /\
    (forall k, mf k = true -> In k (gr s) -> In k (blobs s)) /\
    (forall r d, lookup r (r_index (res s)) = Some d -> In (d_node d) (blobs s)).
Proof. exact (fun N mf succs subj sk bad => store_invariant N mf succs subj sk bad (fun _ => false)). Qed.
Print Assumptions C08_store_invariant.

(* GC after any history, as one operation: exactly the blob files of the rebuilt graph stay, every
   reference that is left names a node of that graph and comes from an old reference (same name,
   same node), no tag is lost and no digest reference of a node that stays in the graph is lost - the abstract "keep the nodes of the graph" GC step of
   Model/OciLocks.v (KRegGC / KSweep with keep = the rebuilt graph) is what gcIndex + sweep do *)
Theorem C08_gc_effect :
  forall (N : nat) (mf : nat -> bool) (succs : nat -> list nat) (subj : nat -> option nat)
         (sk bad : nat -> bool) (cfg : config) (h : list (op * orders)) (o : orders),
    wf_history mf h -> (autosave cfg = true \/ no_reopen h) ->
    let s := run N mf succs subj sk bad true true true true true cfg h store_empty in
    snd (st_gc N mf succs subj sk true true true cfg o s) = ROk ->
    let s' := fst (st_gc N mf succs subj sk true true true cfg o s) in
    blobs s' = filter (fun k => mem k (gr s')) (blobs s) /\
    (forall r d, lookup r (r_index (res s')) = Some d -> In (d_node d) (gr s')) /\
    (forall t d, lookup (RTag t) (r_index (res s)) = Some d -> lookup (RTag t) (r_index (res s')) <> None) /\
    (forall k, lookup (RDig k) (r_index (res s)) <> None -> In k (gr s') -> lookup (RDig k) (r_index (res s')) <> None) /\
    (forall r d, lookup r (r_index (res s')) = Some d ->
       exists d0, lookup r (r_index (res s)) = Some d0 /\ d_node d0 = d_node d).
Proof.
  exact (fun N mf succs subj sk bad cfg h o W R =>
           gc_effect N mf succs subj sk bad (fun _ => false) cfg o _
             (proj1 (run_good N mf succs subj sk bad (fun _ => false) cfg h W R))).
Qed.
Print Assumptions C08_gc_effect.

(* index.json written by saveIndex is, for every pair of iteration orders, a projection of
   the resolver map from which loadIndex rebuilds it *)
Theorem C08_save_is_projection :
  forall (c1 c2 : list nat) (ix : rmap), IxInv ix -> DiskOK (save_index c1 c2 ix) ix.
Proof. exact save_diskok. Qed.
Print Assumptions C08_save_is_projection.

(* The code as found (F2): GC rebuilds the maps and sweeps blobs without writing index.json. *)
Theorem C08_reopen_equiv_refuted_gc :
  exists (N : nat) (mf : nat -> bool) (succs : nat -> list nat) (subj : nat -> option nat)
         (sk dflt : nat -> bool) (cfg : config) (h : list (op * orders)),
    autosave cfg = true /\ wf_history mf h /\
    let s := run N mf succs subj sk (fun _ => false) false true true true true cfg h store_empty in
    obs_resolve_dig dflt (reopen N mf succs s) 0 <> obs_resolve_dig dflt s 0 /\ disk_valid s = false.
Proof.
  (* one manifest, pushed, never tagged, collected *)
  exists 1, (fun _ => true), (fun _ => []), (fun _ => None), (fun _ => false), (fun _ => false),
    ex_cfg, (ex_plain_hist [OPush 0; OGC]).
  split; [reflexivity|]. split; [repeat constructor|].
  vm_compute. split; [discriminate|reflexivity].
Qed.
Print Assumptions C08_reopen_equiv_refuted_gc.

(* gcIndex as found (fixA = false) drops the digest reference of kept child manifests: Resolve
   by digest degrades across GC.  Its former consequence for reopening (Delete of the parent
   orphaned the child for a reloaded store) is gone on the final tree because Delete now gives a
   manifest that loses its last predecessor a digest reference; the main theorems are about
   fixA = true, which is the code. *)
Theorem C08_gc_digest_ref_effect :
  let h := ex_plain_hist [OPush 1; OPush 2; OTag (plain 2) (RTag 0); OGC] in
  let run' := fun fixA => run 3 ex_mf ex_succs (fun _ => None) (fun _ => true) (fun _ => false)
                              true fixA true true true ex_cfg h store_empty in
  obs_resolve_dig (fun _ => false) (run' false) 1 = DBlob 1 /\
  obs_resolve_dig (fun _ => false) (run' true) 1 = DPlain 1.
Proof. exact gc_digest_ref_effect. Qed.
Print Assumptions C08_gc_digest_ref_effect.

(* The referrer pass of gcIndex as found (F1, owned by C09) never returns on an untagged
   manifest whose subject is not in the rebuilt graph; the repaired pass collects it. *)
Theorem C08_gc_hang_prefix :
  let mf := fun k => Nat.eqb k 1 in
  let succs := fun k : nat => if Nat.eqb k 1 then [0] else [] in
  let subj := fun k : nat => if Nat.eqb k 1 then Some 0 else None in
  let s1 := run 2 mf succs subj mf (fun _ => false) true true false true true ex_cfg (ex_plain_hist [OPush 1]) store_empty in
  snd (step 2 mf succs subj mf (fun _ => false) true true false true true ex_cfg s1 (OGC, ord0)) = RHang /\
  let r := step 2 mf succs subj mf (fun _ => false) true true true true true ex_cfg s1 (OGC, ord0) in
  snd r = ROk /\ obs_exists (fst r) 1 = false.
Proof. vm_compute. repeat split. Qed.
Print Assumptions C08_gc_hang_prefix.

(* NewFromTar reads through internal/fs/tarfs, NewFromFS(os.DirFS) through the directory:
   for an archive of the directory (any mix of "./"-style / unclean names, directory and
   link entries, stale earlier copies: the last entry of a cleaned name is the file) both
   open every file of the directory and every name that is in neither alike; this is
   why the model has one [reopen] (loadIndex over an fs.FS) for the three ways. *)
Theorem C08_tar_view :
  forall (clean : nat -> nat) (tar : list tentry) (d : dirfs),
    archives clean tar d ->
    forall p,
      (dlookup p d <> None \/ (forall e, In e tar -> clean (te_raw e) <> p) ->
       tar_open clean true tar p = dir_open d p) /\
      (dlookup p d = None -> (exists e, In e tar /\ clean (te_raw e) = p) ->
       tar_open clean true tar p = FUnsupported).
Proof. exact tar_view. Qed.
Print Assumptions C08_tar_view.

(* internal/fs/tarfs as found (audit F1): members stored sparse by GNU tar -S / bsdtar do not
   open to their content; the repaired Open ([true]) decodes them. *)
Theorem C08_tar_view_refuted_sparse :
  exists (clean : nat -> nat) (tar : list tentry) (d : dirfs) (p : nat),
    archives clean tar d /\ dlookup p d <> None /\
    tar_open clean false tar p <> dir_open d p /\ tar_open clean true tar p = dir_open d p.
Proof. exact tar_view_refuted_sparse. Qed.
Print Assumptions C08_tar_view_refuted_sparse.

(* The code as found accepts the digest string of other stored content as a tag name and the
   reopened store then differs (Predecessors); the repaired Tag answers ErrInvalidReference,
   which is why the main theorems need no hypothesis on reference names any more. *)
Theorem C08_reopen_equiv_refuted_foreign_digest_reference :
  let h := ex_plain_hist [OPush 1; OPush 2; OTag (plain 1) (RDig 2)] in
  let run' := fun fixRef => run 3 ex2_mf ex2_succs (fun _ => None) (fun _ => true) (fun _ => false)
                                true true true true fixRef ex_cfg in
  (let s := run' false h store_empty in
   obs_preds 3 ex2_succs s 0 = [2] /\ obs_preds 3 ex2_succs (reopen 3 ex2_mf ex2_succs s) 0 = []) /\
  (let s := run' true (ex_plain_hist [OPush 1; OPush 2]) store_empty in
   snd (step 3 ex2_mf ex2_succs (fun _ => None) (fun _ => true) (fun _ => false) true true true true true
             ex_cfg s (OTag (plain 1) (RDig 2), ord0)) = RInvalidReference).
Proof. vm_compute. repeat split. Qed.
Print Assumptions C08_reopen_equiv_refuted_foreign_digest_reference.

(* the hypotheses are satisfiable: a concrete history with re-tags, annotations, a tagged
   blob, Untag, GC, Delete, read-write reopen and non-trivial map orders *)
Example C08_hypotheses_satisfiable :
  wf_history ex_mf ex_hist /\ (forall k, ex_mf k = false -> ex_succs k = []) /\
  let s := run 3 ex_mf ex_succs (fun _ => None) (fun _ => true) (fun _ => false) true true true true true ex_cfg ex_hist store_empty in
  obs_tags 3 s = [0] /\ obs_resolve_tag s 0 = Some (mkDesc 1 2 (Some (RTag 0))) /\
  obs_preds 3 ex_succs s 1 = [2] /\ obs_preds 3 ex_succs s 0 = [1] /\
  obs_preds 3 ex_succs (reopen 3 ex_mf ex_succs s) 0 = [1] /\ disk_valid s = true.
Proof.
  split; [repeat constructor|]. split.
  - intros [|[|[|k]]]; simpl; intro; try discriminate; reflexivity.
  - vm_compute. repeat split.
Qed.


(* ================= concurrent operations (Model/OciConc.v) =================
   The sequential theorems above speak of whole operations; the store runs them under a
   RWMutex (Push/Tag/Untag/SaveIndex shared, Delete/GC exclusive) with saveIndex serialised by
   indexLock.  The two transition systems of Model/OciConc.v interleave the atomic steps; the
   ORDER of the steps inside saveIndex / Tag / Delete / Push is read from the Go sources by
   the translator (Generated/GC08.v, kind callseq). *)

(* the programs read from the sources are the well-locked ones, and every public operation
   takes the store lock first *)
Theorem C08_locks_as_in_the_sources :
  save_prog = [SLock; SSnap; SWrite; SUnlock] /\ tag_prog = [GRLock; GExists; GReg; GRUnlock] /\
  del_prog = [DWLock; DUntag; DRemove; DWUnlock] /\ push_prog = [PRLock; PCreate; PRUnlock] /\
  hd [] c08_calls_Untag = b "s.sync.RLock" /\ hd [] c08_calls_SaveIndex = b "s.sync.RLock" /\
  hd [] c08_calls_Push = b "s.sync.RLock" /\ hd [] c08_calls_Tag = b "s.sync.RLock" /\
  hd [] c08_calls_Delete = b "s.sync.Lock" /\ hd [] c08_calls_GC = b "s.sync.Lock".
Proof. repeat split; reflexivity. Qed.
Print Assumptions C08_locks_as_in_the_sources.

(* more that the model reads off the sources: GC's sweep checks and the known algorithms (the kind-level model
   of stray files agrees with them), the order of loadIndex, Store.tag, delete and GC *)
Theorem C08_sweep_and_orders_as_in_the_sources :
  (c08_calls_GC_sweep = [b "isKnownAlgorithm"; b "blobDigest.Validate"; b "reachableNodes.Contains"; b "os.Remove"] /\
   c08_known_algorithms = ["digest.SHA256"; "digest.SHA512"; "digest.SHA384"]%string /\
   forall k, stray_swept (fst (stray_of_kind k)) (snd (stray_of_kind k)) = gc_sweeps_stray k) /\
  (c08_calls_loadIndex = [b "tagger.Tag"; b "deleteAnnotationRefName"; b "tagger.Tag"; b "graph.IndexAll"] /\
   c08_calls_tag = [b "s.tagResolver.Tag"; b "s.tagResolver.Tag"; b "s.saveIndex"] /\
   c08_calls_delete = [b "s.tagResolver.Untag"; b "s.graph.Remove"; b "s.saveIndex"; b "s.storage.Delete"] /\
   c08_calls_GC = [b "s.sync.Lock"; b "s.gcIndex"; b "s.saveIndex"; b "os.Remove"]).
Proof.
  split; [split; [reflexivity|split; [reflexivity|intros []; reflexivity]]|].
  (* loadIndex: digest entry (ref name stripped), then the tag, then IndexAll - the order of
     [load_entry]; Store.tag: both registrations before the save; delete(): references and graph
     before the save, the blob last *)
  repeat split; reflexivity.
Qed.
Print Assumptions C08_sweep_and_orders_as_in_the_sources.

(* the control flow around the effects (kind callguards): Store.tag registers the digest entry first
   iff the reference is not the digest ([is_digest_ref] in st_tag) and saves iff AutoSaveIndex
   ([maybe_save]); delete() drops the references of the target's DIGEST and saves iff something
   changed and AutoSaveIndex ([changed] in delete1); GC saves iff AutoSaveIndex; Push tags manifests
   only and removes content it cannot index; Tag indexes manifests only; loadIndex registers the tag
   iff the ref name is not empty ([load_entry]) *)
Theorem C08_guards_as_in_the_sources :
  c08_guards_tag =
    [(b "s.tagResolver.Tag"%string, [b "reference != dgst"%string]); (b "s.tagResolver.Tag"%string, []); (b "s.saveIndex"%string, [b "s.AutoSaveIndex"%string])] /\
  c08_guards_Untag =
    [(b "s.tagResolver.Untag"%string, []); (b "s.saveIndex"%string, [b "s.AutoSaveIndex"%string])] /\
  c08_guards_delete =
    [(b "s.tagResolver.Untag"%string, [b "desc.Digest == target.Digest"%string]); (b "s.tagResolver.Tag"%string, []); (b "s.saveIndex"%string, [b "indexChanged && s.AutoSaveIndex"%string]); (b "s.storage.Delete"%string, [])] /\
  c08_guards_GC =
    [(b "s.gcIndex"%string, []); (b "s.tagResolver.Tag"%string, []); (b "s.saveIndex"%string, [b "s.AutoSaveIndex"%string])] /\
  c08_guards_Push =
    [(b "s.storage.Push"%string, []); (b "s.graph.Index"%string, []); (b "s.storage.Delete"%string, [b "err != nil"%string]); (b "s.tag"%string, [b "descriptor.IsManifest(expected)"%string])] /\
  c08_guards_Tag =
    [(b "s.storage.Exists"%string, []); (b "s.graph.Index"%string, [b "descriptor.IsManifest(desc)"%string]); (b "s.tag"%string, [])] /\
  c08_guards_loadIndex =
    [(b "tagger.Tag"%string, []); (b "tagger.Tag"%string, [b "ref != ''"%string]); (b "graph.IndexAll"%string, [])].
Proof. exact guards_as_in_the_sources. Qed.
Print Assumptions C08_guards_as_in_the_sources.

(* any number of threads, each running any list of index-saving operations (registrations in
   the resolver followed by saveIndex as in the sources), under EVERY schedule: once all have
   returned, index.json is saveIndex of the live resolver map, i.e. its projection *)
Theorem C08_concurrent_saves_index_current :
  forall (s0 : sstate rmap (list desc)) (sched : list (nat * (list nat * list nat))),
    let proj := fun (c : list nat * list nat) (v : rmap) => save_index (fst c) (snd c) v in
    s_init rmap (list desc) (list nat * list nat) proj save_prog s0 ->
    let s := run_sched rmap (list desc) (list nat * list nat) proj sched s0 in
    quiescent rmap (list desc) s ->
    (exists c1 c2, disk _ _ s = save_index c1 c2 (live _ _ s)) /\
    (IxInv (live _ _ s) -> DiskOK (disk _ _ s) (live _ _ s)).
Proof. exact concurrent_saves_index_current. Qed.
Print Assumptions C08_concurrent_saves_index_current.

(* the same without a hypothesis on the reached state: threads running any lists of Tag (digest
   entry first, then the tag: two registrations), Tag-by-digest / manifest Push, Untag and
   SaveIndex from a store at rest: the store invariant of the resolver map holds at every moment
   of every schedule, and at quiescence index.json is its order-independent projection, from
   which loadIndex rebuilds it (C08_save_is_projection / reopen theorems above) *)
Theorem C08_concurrent_store_index_current :
  forall (s0 : sstate rmap (list desc)) (sched : list (nat * (list nat * list nat))),
    let proj := fun (c : list nat * list nat) (v : rmap) => save_index (fst c) (snd c) v in
    IxInv (live _ _ s0) -> (exists c, disk _ _ s0 = proj c (live _ _ s0)) -> ilock _ _ s0 = None ->
    (forall i, exists ops, ths _ _ s0 i = mkTh rmap [] [] None (map cop_thread_op ops)) ->
    let s := run_sched rmap (list desc) (list nat * list nat) proj sched s0 in
    IxInv (live _ _ s) /\ (quiescent rmap (list desc) s -> DiskOK (disk _ _ s) (live _ _ s)).
Proof. exact concurrent_store_index_current. Qed.
Print Assumptions C08_concurrent_store_index_current.

(* any number of Tag / Delete / Push calls on the same content under every schedule: once all
   have returned, a registered reference points to content that exists *)
Theorem C08_concurrent_tag_delete_valid :
  forall (s0 : gstate) (sched : list nat),
    g_init tag_prog del_prog push_prog s0 ->
    let s := g_run sched s0 in g_quiescent s -> g_valid s.
Proof. exact concurrent_tag_delete_valid. Qed.
Print Assumptions C08_concurrent_tag_delete_valid.

(* the snapshot taken before indexLock (call order Map, Lock, write): a schedule of two
   operations after which index.json lacks a live reference *)
Theorem C08_concurrent_refuted_snapshot_before_lock :
  save_prog_of [b "s.tagResolver.Map"; b "s.indexLock.Lock"; b "s.writeIndexFile"] = bad_save /\
  s_init (list nat) (list nat) (list nat) (fun _ v => v) bad_save ex_s0 /\
  (let s := run_sched (list nat) (list nat) (list nat) (fun _ v => v) ex_sched ex_s0 in
   quiescent (list nat) (list nat) s /\ live _ _ s = [2; 1] /\ disk _ _ s = [1])%nat.
Proof.
  split; [reflexivity|]. split.
  - split; [exists []; reflexivity|]. split; [reflexivity|].
    intros [|[|i]]; repeat split; repeat constructor.
  - split; [|split; reflexivity].
    intros [|[|i]]; vm_compute; repeat split.
Qed.
Print Assumptions C08_concurrent_refuted_snapshot_before_lock.

(* Exists checked before the read lock (call order validate, Exists, RLock, tag): a Tag racing a
   Delete leaves a reference to content that is gone *)
Theorem C08_concurrent_refuted_exists_before_lock :
  tag_prog_of [b "validateReference"; b "s.storage.Exists"; b "s.sync.RLock"; b "s.graph.Index"; b "s.tag"] = bad_tag /\
  g_init bad_tag good_del good_push exg_s0 /\
  (let s := g_run [0; 1; 1; 1; 1; 0; 0; 0]%nat exg_s0 in
   g_quiescent s /\ refs s = 1%nat /\ blob s = false).
Proof.
  split; [reflexivity|]. split.
  - split; [intros _; reflexivity|]. intros [|[|i]] Hi; simpl; repeat split; auto; simpl in Hi; Lia.lia.
  - split; [|split; reflexivity]. intros [|[|i]] Hi; [reflexivity|reflexivity|]. exfalso. vm_compute in Hi. Lia.lia.
Qed.
Print Assumptions C08_concurrent_refuted_exists_before_lock.

Example C08_concurrent_hypotheses_satisfiable :
  let proj := fun (c : list nat * list nat) (v : rmap) => save_index (fst c) (snd c) v in
  s_init rmap (list desc) (list nat * list nat) proj save_prog exc_s0 /\
  (let s := run_sched rmap (list desc) _ proj
              (map (fun i => (i, ([1], [0])%nat)) [0; 1; 2; 0; 2; 1; 1; 0; 2; 2; 2; 1; 0; 0; 1; 0; 0; 1; 1]%nat) exc_s0 in
   live _ _ s = [(RTag 0, plain 1); (RDig 1, plain 1)] /\
   disk _ _ s = [mkDesc 1 0 (Some (RTag 0))] /\ ilock _ _ s = None).
Proof.
  split.
  - split; [exists ([], []); reflexivity|]. split; [reflexivity|].
    intros [|[|[|i]]]; repeat split; repeat constructor.
  - vm_compute. repeat split.
Qed.


(* ================= all operations under both locks (Model/OciLocks.v) =================
   Tag, Untag, SaveIndex, Push (shared store lock), Delete and GC (exclusive) as programs of atomic
   steps on the resolver map, index.json, the blob files, the RWMutex and indexLock. *)

(* safety of EVERY program that respects the lock discipline ([check]: store lock held around
   every access, Exists/Push seen under the lock before a reference to that content is
   registered, snapshot and write under indexLock, references dropped and saved before a blob
   is removed under the exclusive lock): under every schedule, at quiescence index.json is
   saveIndex of the live map, every live reference points to a blob file, no lock is held *)
Theorem C08_lock_discipline_sufficient :
  forall (s0 : lstate) (sched : list (nat * (list nat * list nat))),
    l_init s0 -> IxInv (ll_live s0) -> let s := l_run sched s0 in
    IxInv (ll_live s) /\
    (l_quiescent s ->
     (exists c, ll_disk s = save_index (fst c) (snd c) (ll_live s)) /\ DiskOK (ll_disk s) (ll_live s) /\
     refs_valid s /\ ll_ilock s = None).
Proof. exact locks_quiescent. Qed.
Print Assumptions C08_lock_discipline_sufficient.

(* the programs of the real operations, assembled from the call sequences the translator reads
   from content/oci/oci.go, and that they respect the discipline *)
Theorem C08_programs_respect_lock_discipline :
  ((forall d t, prog_tag d t = [KRLock; KExists (d_node d); KReg (RegDig d); KReg (RegTag t d);
                                KSave SLock; KSave SSnap; KSave SWrite; KSave SUnlock; KRUnlock]) /\
   (forall t, prog_untag t = [KRLock; KReg (RegUntag t); KSave SLock; KSave SSnap; KSave SWrite; KSave SUnlock; KRUnlock]) /\
   prog_saveindex = [KRLock; KSave SLock; KSave SSnap; KSave SWrite; KSave SUnlock; KRUnlock] /\
   (forall k, prog_push k true = [KRLock; KCreate k; KReg (RegDig (plain k));
                                  KSave SLock; KSave SSnap; KSave SWrite; KSave SUnlock; KRUnlock]) /\
   (forall k, prog_push k false = [KRLock; KCreate k; KRUnlock]) /\
   (forall k, prog_delete k = [KWLock; KRegDelete k; KSave SLock; KSave SSnap; KSave SWrite; KSave SUnlock;
                               KRemove k; KWUnlock]) /\
   (forall g, prog_gc g = [KWLock; KRegGC g; KSave SLock; KSave SSnap; KSave SWrite; KSave SUnlock;
                           KSweep g; KWUnlock])) /\
  forall ops, check ts0 (prog_of_lops ops) = true.
Proof. exact (conj programs_explicit lops_checked). Qed.
Print Assumptions C08_programs_respect_lock_discipline.

(* hence: any number of threads running any lists of Tag / Untag / SaveIndex / Push / Delete / GC
   calls on a store at rest (GC call g keeps the references and blobs of the nodes [ll_keep s g],
   any family of sets), every schedule *)
Theorem C08_store_operations_quiescent :
  forall (s0 : lstate) (sched : list (nat * (list nat * list nat))),
    IxInv (ll_live s0) ->
    (exists c, ll_disk s0 = save_index (fst c) (snd c) (ll_live s0)) -> refs_valid s0 -> ll_ilock s0 = None ->
    (forall i, i < ll_n s0 -> exists ops, ll_ths s0 i = mkLT (prog_of_lops ops) ts0 None true) ->
    let s := l_run sched s0 in
    IxInv (ll_live s) /\
    (l_quiescent s ->
     (exists c, ll_disk s = save_index (fst c) (snd c) (ll_live s)) /\ DiskOK (ll_disk s) (ll_live s) /\
     refs_valid s /\ ll_ilock s = None).
Proof. exact store_operations_quiescent. Qed.
Print Assumptions C08_store_operations_quiescent.

(* ... and the store reopened from that index.json resolves every tag to its live descriptor
   (ref-name annotation set) and has a digest entry exactly where the live store has one *)
Theorem C08_store_operations_reload :
  forall (s0 : lstate) (sched : list (nat * (list nat * list nat))),
    IxInv (ll_live s0) ->
    (exists c, ll_disk s0 = save_index (fst c) (snd c) (ll_live s0)) -> refs_valid s0 -> ll_ilock s0 = None ->
    (forall i, i < ll_n s0 -> exists ops, ll_ths s0 i = mkLT (prog_of_lops ops) ts0 None true) ->
    let s := l_run sched s0 in
    l_quiescent s ->
    let ix' := r_index (fold_left load_res (ll_disk s) res_empty) in
    (forall t, lookup (RTag t) ix' = option_map (fun d => with_ref d (RTag t)) (lookup (RTag t) (ll_live s))) /\
    (forall k, lookup (RDig k) ix' <> None <-> lookup (RDig k) (ll_live s) <> None).
Proof. exact store_operations_reload. Qed.
Print Assumptions C08_store_operations_reload.

(* Delete with AutoGC: the cascade of delete() calls under ONE exclusive lock (target, referrers,
   danglings; a manifest that loses its last predecessor gets a digest reference), assembled from the
   generated call sequences of Store.Delete / delete, respects the lock discipline for EVERY queue in
   which no node gets a digest reference after it was deleted - so C08_lock_discipline_sufficient
   covers threads that run it next to any other operations *)
Theorem C08_delete_cascade_respects_lock_discipline :
  (forall k ds, prog_delete_item k ds =
     [KRegDelete k] ++ flat_map (fun d => [KExists d; KReg (RegDig (plain d))]) ds ++
     [KSave SLock; KSave SSnap; KSave SWrite; KSave SUnlock; KRemove k]) /\
  forall items, cascade_wf [] items = true -> check ts0 (prog_delete_auto items) = true.
Proof. exact (conj delete_item_explicit delete_auto_checked). Qed.
Print Assumptions C08_delete_cascade_respects_lock_discipline.

Example C08_delete_cascade_example :
  cascade_wf [] [(2, [3]); (1, [])] = true /\
  (let s := l_run (map (fun i => (i, ([], []))) ([1; 1; 1] ++ repeat 0 5 ++ repeat 1 12 ++ repeat 0 30)) exa_s0 in
   l_quiescent s /\ ll_blobs s = [3] /\ ll_live s = [(RDig 3, plain 3)] /\ ll_disk s = [plain 3]).
Proof.
  split; [reflexivity|]. split; [|vm_compute; repeat split].
  intros [|[|i]] Hi; [vm_compute; reflexivity|vm_compute; reflexivity|]. exfalso. vm_compute in Hi. Lia.lia.
Qed.

(* the lock placements of the two seeded changes are rejected by the checker, and the second one
   (Exists before RLock) run against a Delete ends with a tag, in memory and in index.json, on
   content whose blob file is gone *)
Theorem C08_seeded_lock_orders_rejected :
  (check ts0 (KRLock :: map KSave [SSnap; SLock; SWrite; SUnlock] ++ [KRUnlock]) = false /\
   check ts0 [KExists 0; KRLock; KReg (RegDig (plain 0)); KSave SLock; KSave SSnap; KSave SWrite; KSave SUnlock; KRUnlock] = false) /\
  (let s := l_run (map (fun i => (i, ([], []))) [0; 1; 1; 1; 1; 1; 1; 1; 1; 0; 0; 0; 0; 0; 0; 0; 0]) exl_s0 in
   l_quiescent s /\ ll_blobs s = [] /\ lookup (RTag 5) (ll_live s) = Some (plain 0) /\
   ll_disk s = [mkDesc 0 0 (Some (RTag 5))]).
Proof.
  split; [split; vm_compute; reflexivity|]. split; [|vm_compute; repeat split].
  intros [|[|i]] Hi; [vm_compute; reflexivity|vm_compute; reflexivity|]. exfalso. vm_compute in Hi. Lia.lia.
Qed.
Print Assumptions C08_seeded_lock_orders_rejected.

(* ================= the fuel of the model is sufficient (audit F7) =================
   On a universe whose successor and subject links point to smaller node ids (content
   addressing; the harness builds its DAGs bottom-up) IndexAll and the subject-chain walk of GC
   do not depend on their fuel above N, and after any history on nodes below N Delete's queue
   loop never stops for lack of fuel: on such universes the fuelled model is the loop of the Go
   code.  (The rounds of GC's referrer pass: every continued round keeps one more entry, so S |refMap| rounds suffice
   for every order: C08_fuel_gc_rounds_sufficient.) *)
Theorem C08_fuel_index_all_sufficient :
  forall (N : nat) (mf : nat -> bool) (succs : nat -> list nat),
    (forall k c, In c (succs k) -> c < k) ->
    forall bl root g fuel, root < N -> N < fuel ->
      index_all N mf succs bl root g = visit mf succs fuel (fun k => mem k bl) root g.
Proof. intros N mf succs D bl root g fuel H1 H2. apply (visit_fuel mf succs D); Lia.lia. Qed.
Print Assumptions C08_fuel_index_all_sufficient.

Theorem C08_fuel_subject_chain_sufficient :
  forall (N : nat) (mf : nat -> bool) (subj : nat -> option nat) (sk : nat -> bool),
    (forall k c, subj k = Some c -> c < k) ->
    forall bl g cur fuel, cur < N -> N < fuel ->
      chain_hits mf subj sk (S N) bl g cur = chain_hits mf subj sk fuel bl g cur.
Proof. intros N mf subj sk D bl g cur fuel H1 H2. apply (chain_fuel mf subj sk D); Lia.lia. Qed.
Print Assumptions C08_fuel_subject_chain_sufficient.

Theorem C08_fuel_delete_sufficient :
  forall (N : nat) (mf : nat -> bool) (succs : nat -> list nat) (subj : nat -> option nat)
         (sk bad : nat -> bool) (fF2 fA fF1 fH fR : bool) (cfg : config) (h : list (op * orders))
         (o : orders) (k : nat),
    Forall (fun oo => op_below N (fst oo)) h ->
    let s := run N mf succs subj sk bad fF2 fA fF1 fH fR cfg h store_empty in
    snd (st_delete N mf succs subj fH cfg o k s) <> ROutOfFuel.
Proof. exact delete_fuel_sufficient. Qed.
Print Assumptions C08_fuel_delete_sufficient.

Theorem C08_fuel_gc_rounds_sufficient :
  forall (N : nat) (mf : nat -> bool) (succs : nat -> list nat) (subj : nat -> option nat) (sk : nat -> bool)
         bl m os a fuel,
    length m < fuel ->
    gc_rounds N mf succs subj sk (S (length m)) bl m os a = gc_rounds N mf succs subj sk fuel bl m os a.
Proof. exact gc_rounds_fuel_sufficient. Qed.
Print Assumptions C08_fuel_gc_rounds_sufficient.

Example C08_fuel_hypotheses_satisfiable :
  (forall k c, In c (ex_succs k) -> c < k) /\ Forall (fun oo => op_below 3 (fst oo)) ex_hist.
Proof.
  split.
  - intros [|[|[|k]]] c; simpl; intros H; try tauto; destruct H as [<-|[]]; auto.
  - repeat constructor.
Qed.
