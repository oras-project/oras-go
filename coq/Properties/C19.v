(* C19 -- PackManifest / Pack produce a valid, self-consistent, pushable manifest.
   Only statements closed by [exact] (the ties to the generated constants: by computation);
   the lemmas live in Proofs/Pack*.v, the model in Model/Pack.v.  mediaTypeRegexp and the
   oras constants are Generated/GC19.v (re-translated from pack.go on every run).

   Parameters of the statements (external behaviour, not modelled):
     marshal : manifest -> str     json.Marshal of the manifest document
     H       : str -> str          digest.FromBytes(..).String()
     H empty_json = empty_json_digest   (the digest of "{}" is the constant of image-spec)
   Where a statement needs the digest to be collision-free this is an explicit
   premise of that clause. *)
From Coq Require Import Sorting.Permutation.
From Oras Require Import Base.Prelude Base.Regex Base.StrCheck Generated.GC19 Model.Pack Proofs.Pack Proofs.PackTime Proofs.PackJson Model.PackEnc Model.PackSha Proofs.PackEnc Proofs.PackNum.

(* The media-type check accepts exactly RFC 6838 section 4.2:
   restricted-name "/" restricted-name, each 1..127 characters. *)
Theorem C19_media_type_grammar :
  forall s, valid_media_type s = true <-> RFC6838 s.
Proof. exact media_type_grammar. Qed.
Print Assumptions C19_media_type_grammar.

(* The order of validations, storage operations and the created step in every function of pack.go,
   re-read from the source on every run (gosrc2v kind "callseq"), is the order the model executes: a
   reordering in the source (a validation moved behind a push, ensureAnnotationCreated before the
   config push, ...) changes the generated lists and breaks this theorem. *)
Theorem C19_call_order_as_in_source :
  calls_PackManifest = [b "packManifestV1_0"; b "packManifestV1_1"] /\
  calls_Pack = [b "packManifestV1_1_RC2"; b "packArtifact"] /\
  calls_packArtifact = [b "ensureAnnotationCreated"; b "pushManifest"] /\
  calls_packManifestV1_0 =
    [b "validateMediaType"; b "validateMediaType"; b "pushCustomEmptyConfig"; b "ensureAnnotationCreated"; b "pushManifest"] /\
  calls_packManifestV1_1_RC2 = [b "pushCustomEmptyConfig"; b "ensureAnnotationCreated"; b "pushManifest"] /\
  calls_packManifestV1_1 =
    [b "validateMediaType"; b "validateMediaType"; b "pushIfNotExist"; b "ensureAnnotationCreated"; b "pushIfNotExist"; b "pushManifest"] /\
  calls_pushIfNotExist = [b "ros.Exists"; b "pusher.Push"] /\
  calls_pushManifest = [b "json.Marshal"; b "content.NewDescriptorFromBytes"; b "pusher.Push"] /\
  calls_pushCustomEmptyConfig = [b "content.NewDescriptorFromBytes"; b "pushIfNotExist"] /\
  calls_ensureAnnotationCreated = [b "validateRFC3339"; b "maps.Copy"; b "time.Now"] /\
  calls_validateRFC3339 = [b "time.Parse"] /\
  calls_validateMediaType = [b "mediaTypeRegexp.MatchString"].
Proof. repeat split; reflexivity. Qed.
Print Assumptions C19_call_order_as_in_source.

(* The JSON names, their order and omitempty flags of the structs json.Marshal works from, re-read on
   every run (gosrc2v kind "jsontags": spec.Artifact from the repository, the image-spec structs from
   the module cache at the version of go.mod), are the ones the modelled encoder writes (Model/PackEnc.v
   json_manifest, json_desc, json_platform).  A bumped image-spec or an edited Artifact struct breaks
   this theorem. *)
Theorem C19_json_struct_tags_as_in_source :
  Artifact_json_tags =
    [(b "mediaType", false); (b "artifactType", false); (b "blobs", true); (b "subject", true); (b "annotations", true)] /\
  Manifest_json_tags =
    [(b "<embedded specs.Versioned>", false); (b "mediaType", true); (b "artifactType", true); (b "config", false);
     (b "layers", false); (b "subject", true); (b "annotations", true)] /\
  Versioned_json_tags = [(b "schemaVersion", false)] /\
  Descriptor_json_tags =
    [(b "mediaType", false); (b "digest", false); (b "size", false); (b "urls", true); (b "annotations", true);
     (b "data", true); (b "platform", true); (b "artifactType", true)] /\
  Platform_json_tags =
    [(b "architecture", false); (b "os", false); (b "os.version", true); (b "os.features", true); (b "variant", true)].
Proof. repeat split; reflexivity. Qed.
Print Assumptions C19_json_struct_tags_as_in_source.

(* Every decision (if condition with its init statement, switch case) of the modelled functions of
   pack.go, as source text in source order, re-read on every run (gosrc2v kind "ifconds").  The model's
   branches are these conditions: subject for v1.0, the two-step artifactType check of v1.1, comma-ok
   lookup of the created key, ErrAlreadyExists swallowed at both pushes, len(Layers) == 0 and
   !emptyBlobExists for the placeholder, nil layers made an empty array. *)
Theorem C19_decisions_as_in_source :
  conds_PackManifest =
    [b "case PackManifestVersion1_0";
     b "case PackManifestVersion1_1";
     b "default"] /\
  conds_Pack =
    [b "opts.PackImageManifest"] /\
  conds_packArtifact =
    [b "artifactType == """"";
     b "err != nil"] /\
  conds_packManifestV1_0 =
    [b "opts.Subject != nil";
     b "opts.ConfigDescriptor != nil";
     b "err := validateMediaType(opts.ConfigDescriptor.MediaType); err != nil";
     b "artifactType == """"";
     b "err := validateMediaType(artifactType); err != nil";
     b "err != nil";
     b "err != nil";
     b "opts.Layers == nil"] /\
  conds_packManifestV1_1_RC2 =
    [b "configMediaType == """"";
     b "opts.ConfigDescriptor != nil";
     b "err != nil";
     b "err != nil";
     b "layers == nil"] /\
  conds_packManifestV1_1 =
    [b "artifactType == """" && (opts.ConfigDescriptor == nil || opts.ConfigDescriptor.MediaType == ocispec.MediaTypeEmptyJSON)";
     b "artifactType != """"";
     b "err := validateMediaType(artifactType); err != nil";
     b "opts.ConfigDescriptor != nil";
     b "err := validateMediaType(opts.ConfigDescriptor.MediaType); err != nil";
     b "err := pushIfNotExist(ctx, pusher, configDesc, configBytes); err != nil";
     b "err != nil";
     b "len(opts.Layers) == 0";
     b "!emptyBlobExists";
     b "err := pushIfNotExist(ctx, pusher, layerDesc, layerData); err != nil"] /\
  conds_pushIfNotExist =
    [b "ros, ok := pusher.(content.ReadOnlyStorage); ok";
     b "err != nil";
     b "exists";
     b "err := pusher.Push(ctx, desc, bytes.NewReader(data)); err != nil && !errors.Is(err, errdef.ErrAlreadyExists)"] /\
  conds_pushManifest =
    [b "err != nil";
     b "err := pusher.Push(ctx, manifestDesc, bytes.NewReader(manifestJSON)); err != nil && !errors.Is(err, errdef.ErrAlreadyExists)"] /\
  conds_pushCustomEmptyConfig =
    [b "err := pushIfNotExist(ctx, pusher, configDesc, configBytes); err != nil"] /\
  conds_ensureAnnotationCreated =
    [b "createdTime, ok := annotations[annotationCreatedKey]; ok";
     b "err := validateRFC3339(createdTime); err != nil"] /\
  conds_validateMediaType =
    [b "!mediaTypeRegexp.MatchString(mediaType)"].
Proof. repeat split; reflexivity. Qed.
Print Assumptions C19_decisions_as_in_source.

(* Every call of PackManifest / Pack ends in exactly one of five ways (rejected before any
   storage operation / malformed created / storage fault while handling "{}" / storage
   fault on the manifest push / success); this is the invariant the other theorems unfold. *)
Theorem C19_outcome :
  forall (marshal : manifest -> str) (H : str -> str), H empty_json = empty_json_digest ->
  forall f tc fa s at_ o now s' r,
    pack marshal H f tc fa s at_ o now = (s', r) -> outcome marshal H f tc fa s at_ o now s' r.
Proof. exact pack_outcome. Qed.
Print Assumptions C19_outcome.

(* Media types violating RFC 6838, a subject for version 1.0, a missing artifact type and
   an unknown version are rejected with the state untouched: no Exists, no Push, same store. *)
Theorem C19_reject_before_push :
  forall (marshal : manifest -> str) (H : str -> str), H empty_json = empty_json_digest ->
  forall f tc fa s at_ o now,
    must_reject f at_ o = true ->
    exists e, pack marshal H f tc fa s at_ o now = (s, Err e) /\ validation_err e.
Proof. exact reject_before_push. Qed.
Print Assumptions C19_reject_before_push.

(* ... with exactly the error the order of the checks in the source gives. *)
Theorem C19_reject_exact_error :
  forall (marshal : manifest -> str) (H : str -> str),
  forall f tc fa s at_ o now,
    must_reject f at_ o = true ->
    pack marshal H f tc fa s at_ o now = (s, Err (reject_err f at_ o)).
Proof. exact reject_exact. Qed.
Print Assumptions C19_reject_exact_error.

(* Progress: on a target that does not fail (no injected fault; not a file store, which may refuse a
   taken name) the input alone decides: rejected / malformed created / success.  A valid input succeeds. *)
Theorem C19_healthy_target_classification :
  forall (marshal : manifest -> str) (H : str -> str), H empty_json = empty_json_digest ->
  forall f tc s at_ o now s' r,
    t_key tc <> KFile ->
    pack marshal H f tc None s at_ o now = (s', r) ->
    (must_reject f at_ o = true /\ exists e, r = Err e /\ validation_err e /\ s' = s) \/
    (must_reject f at_ o = false /\ ensure_created (o_ann o) (created_key f) now = None /\ r = Err EInvalidDateTime) \/
    (must_reject f at_ o = false /\
     exists ann, ensure_created (o_ann o) (created_key f) now = Some ann /\
                 r = Ok (result_desc marshal H f (requested_manifest H f at_ o ann)) (requested_manifest H f at_ o ann)).
Proof. exact healthy_target_classification. Qed.
Print Assumptions C19_healthy_target_classification.

Theorem C19_valid_input_succeeds :
  forall (marshal : manifest -> str) (H : str -> str), H empty_json = empty_json_digest ->
  forall f tc s at_ o now ann s' r,
    t_key tc <> KFile ->
    must_reject f at_ o = false ->
    ensure_created (o_ann o) (created_key f) now = Some ann ->
    pack marshal H f tc None s at_ o now = (s', r) ->
    r = Ok (result_desc marshal H f (requested_manifest H f at_ o ann)) (requested_manifest H f at_ o ann).
Proof. exact valid_input_succeeds. Qed.
Print Assumptions C19_valid_input_succeeds.

(* ... and those errors never occur after a storage operation; a success implies that
   nothing had to be rejected. *)
Theorem C19_validation_error_only_before_push :
  forall (marshal : manifest -> str) (H : str -> str), H empty_json = empty_json_digest ->
  forall f tc fa s at_ o now s' e,
    pack marshal H f tc fa s at_ o now = (s', Err e) -> validation_err e ->
    s' = s /\ must_reject f at_ o = true.
Proof. exact validation_error_only_before_push. Qed.
Print Assumptions C19_validation_error_only_before_push.

Theorem C19_ok_not_rejected :
  forall (marshal : manifest -> str) (H : str -> str), H empty_json = empty_json_digest ->
  forall f tc fa s at_ o now s' d m,
    pack marshal H f tc fa s at_ o now = (s', Ok d m) -> must_reject f at_ o = false.
Proof. exact ok_not_rejected. Qed.
Print Assumptions C19_ok_not_rejected.

(* A created annotation that time.Parse(RFC3339) refuses: the call fails (with
   ErrInvalidDateTimeFormat unless it was rejected earlier, a storage fault was injected or the target is a
   file store, which may refuse a titled config first),
   every storage operation concerned the blob "{}" (no manifest push), and the store gained
   at most entries whose content is "{}". *)
Theorem C19_bad_created_no_manifest :
  forall (marshal : manifest -> str) (H : str -> str), H empty_json = empty_json_digest ->
  forall f tc fa s at_ o now s' r v,
    ann_get (created_key f) (o_ann o) = Some v -> rfc3339_ok v = false ->
    pack marshal H f tc fa s at_ o now = (s', r) ->
    (exists e, r = Err e /\ (must_reject f at_ o = false -> fa = None -> t_key tc <> KFile -> e = EInvalidDateTime)) /\
    (exists evs, steps s s' evs /\ Forall (blob_ev H) evs) /\
    only_empty_blob_added H (s_store s) (s_store s').
Proof. exact bad_created_no_manifest. Qed.
Print Assumptions C19_bad_created_no_manifest.

(* The created validation accepts exactly the RFC 3339 section 5.6 date-times written with
   upper-case "T"/"Z" and without leap second (field ranges and month lengths included) ... *)
Theorem C19_created_grammar :
  forall s, rfc3339_ok s = true <-> RFC3339_go s.
Proof. exact rfc3339_ok_spec. Qed.
Print Assumptions C19_created_grammar.

(* The model of validateRFC3339 is literally the code: time.Parse(time.RFC3339, v) (lenient
   recogniser) followed by the explicit checks translated from pack.go on every run; those checks
   are the three expected ones, and the combination equals the strict structural recogniser. *)
Theorem C19_created_validation_as_in_source :
  validateRFC3339_checks = expected_strict_checks /\ validateRFC3339_checks_layout = b "time.RFC3339".
Proof. split; reflexivity. Qed.
Print Assumptions C19_created_validation_as_in_source.

Theorem C19_created_validation_is_strict :
  forall s, rfc3339_ok s = rfc3339_gen true s.
Proof. exact rfc3339_ok_is_strict. Qed.
Print Assumptions C19_created_validation_is_strict.

(* Go panics on an index out of range; the model's [nth] would answer 0.  On every string time.Parse
   accepts, every index the three checks evaluate (in Go's order, short-circuits included) is in range. *)
Theorem C19_strict_checks_in_range :
  forall s, rfc3339_gen false s = true -> switch_safe s expected_strict_checks = true.
Proof. exact strict_checks_in_range. Qed.
Print Assumptions C19_strict_checks_in_range.

(* The calendar that recogniser and grammar share, read independently: the month table, the
   Gregorian leap rule, 365/366 days a year. *)
Theorem C19_calendar :
  (forall m y, 1 <= m <= 12 ->
     days_in m y = nth (N.to_nat m - 1) month_table 0 + (if (m =? 2) && is_leap y then 1 else 0)) /\
  (forall y, is_leap y = true <-> (y mod 4 = 0 /\ (y mod 100 <> 0 \/ y mod 400 = 0))) /\
  (forall y, days_in 1 y + days_in 2 y + days_in 3 y + days_in 4 y + days_in 5 y + days_in 6 y + days_in 7 y +
             days_in 8 y + days_in 9 y + days_in 10 y + days_in 11 y + days_in 12 y = if is_leap y then 366 else 365).
Proof. exact (conj days_in_table (conj is_leap_gregorian year_length)). Qed.
Print Assumptions C19_calendar.

(* ... hence refuses everything that is not an RFC 3339 date-time ... *)
Theorem C19_malformed_created_refused :
  forall s, ~ RFC3339 s -> rfc3339_ok s = false.
Proof. exact malformed_refused. Qed.
Print Assumptions C19_malformed_created_refused.

(* ... so a created annotation that is not RFC 3339 gives an error and no manifest push. *)
Theorem C19_malformed_created_no_manifest :
  forall (marshal : manifest -> str) (H : str -> str), H empty_json = empty_json_digest ->
  forall f tc fa s at_ o now s' r v,
    ann_get (created_key f) (o_ann o) = Some v -> ~ RFC3339 v ->
    pack marshal H f tc fa s at_ o now = (s', r) ->
    (exists e, r = Err e /\ (must_reject f at_ o = false -> fa = None -> t_key tc <> KFile -> e = EInvalidDateTime)) /\
    (exists evs, steps s s' evs /\ Forall (blob_ev H) evs) /\
    only_empty_blob_added H (s_store s) (s_store s').
Proof. exact malformed_created_no_manifest. Qed.
Print Assumptions C19_malformed_created_no_manifest.

(* History: before the fix recorded in known_findings.d/C19.json the validation was
   time.Parse(time.RFC3339, _) alone (rfc3339_ok_prefix), which takes strings that are not
   RFC 3339 -- the witness has a one-digit hour; replayed on the pre-fix tree it is accepted
   and ends up in the pushed manifest (corpus/C19/created-lenient.json). *)
Theorem C19_created_prefix_refuted :
  exists s, rfc3339_ok_prefix s = true /\ ~ RFC3339 s.
Proof. exact prefix_refuted. Qed.
Print Assumptions C19_created_prefix_refuted.

(* Success: the manifest is exactly the requested one (placeholders included), the
   descriptor is that of its bytes, the storage operations were operations on "{}" followed
   by the push of the manifest, the descriptor and every invented blob are in the target. *)
Theorem C19_consistent :
  forall (marshal : manifest -> str) (H : str -> str), H empty_json = empty_json_digest ->
  forall f tc fa s at_ o now s' d m,
    pack marshal H f tc fa s at_ o now = (s', Ok d m) ->
    exists ann evs,
      ensure_created (o_ann o) (created_key f) now = Some ann /\
      m = requested_manifest H f at_ o ann /\
      d = result_desc marshal H f m /\
      steps s s' (evs ++ [EvPush RManifest d (marshal m)]) /\ Forall (blob_ev H) evs /\
      stored (t_key tc) (s_store s') d = true /\
      Forall (fun x => stored (t_key tc) (s_store s') x = true) (invented H f at_ o).
Proof. exact ok_consistent. Qed.
Print Assumptions C19_consistent.

(* What can be read back.  json_roundtrip is the named premise about encoding/json: decoding the
   marshalled document gives it back with every string coerced to valid UTF-8 (utf8_san, executable,
   compared with encoding/json on every run).  The bytes stored under the returned descriptor decode
   to san_manifest of the requested manifest -- to the requested manifest itself exactly when its
   strings are valid UTF-8 (clean_manifest). *)
Theorem C19_stored_parses :
  forall (marshal : manifest -> str) (H : str -> str) (unmarshal : str -> option manifest),
    H empty_json = empty_json_digest -> (forall x y, H x = H y -> x = y) ->
    (forall m, unmarshal (marshal m) = Some (san_manifest m)) ->
  forall f tc fa s at_ o now s' d m,
    wf_store H (s_store s) ->
    pack marshal H f tc fa s at_ o now = (s', Ok d m) ->
    exists e, In e (s_store s') /\ same_key (t_key tc) d e = true /\
              unmarshal (e_bytes e) = Some (san_manifest m) /\
              (clean_manifest m -> unmarshal (e_bytes e) = Some m) /\
              (forall m', unmarshal (e_bytes e) = Some m' -> kind_mt (m_kind m') = d_mt d).
Proof. exact stored_parses. Qed.
Print Assumptions C19_stored_parses.

(* the media types PackManifest validated survive json.Marshal unchanged (they are ASCII) *)
Theorem C19_packmanifest_media_types_clean :
  forall (marshal : manifest -> str) (H : str -> str), H empty_json = empty_json_digest ->
  forall f tc fa s at_ o now s' d m,
    f = FV10 \/ f = FV11 ->
    pack marshal H f tc fa s at_ o now = (s', Ok d m) ->
    utf8_clean (m_at m) /\ forall c, m_config m = Some c -> utf8_clean (d_mt c).
Proof. exact pack_manifest_media_types_clean. Qed.
Print Assumptions C19_packmanifest_media_types_clean.

(* Known finding non-utf8-lossy: with a string that is not valid UTF-8 the clauses "exactly the
   requested ones" and "can be copied" fail.  Witness: Pack (rc2) with config media type a\xff/b on
   a memory target succeeds, the pushed config blob is keyed by the raw media type, the config
   descriptor of the manifest that is read back is not in the target. *)
Theorem C19_lossy_json_refuted :
  exists at_ o s' d m c,
    pack lossy_marshal lossy_H FRC2 (mkTcfg true KFull) None (init_state []) at_ o [50] = (s', Ok d m) /\
    m_config (san_manifest m) = Some c /\
    stored KFull (s_store s') c = false /\
    (exists c0, m_config m = Some c0 /\ stored KFull (s_store s') c0 = true).
Proof. exact lossy_json_refuted. Qed.
Print Assumptions C19_lossy_json_refuted.

(* Deviation from the property text: the rejection clauses hold for PackManifest only.  Pack
   (deprecated) validates nothing -- C19_reject_before_push is vacuous for it -- and succeeds with a
   media type that violates RFC 6838. *)
Theorem C19_pack_rejects_nothing_deviation :
  forall at_ o, must_reject FRC2 at_ o = false /\ must_reject FArtifact at_ o = false.
Proof. split; reflexivity. Qed.
Print Assumptions C19_pack_rejects_nothing_deviation.

Theorem C19_pack_accepts_invalid_media_type_deviation :
  exists at_ o s' d m c,
    ~ RFC6838 at_ /\
    pack lossy_marshal lossy_H FRC2 (mkTcfg true KFull) None (init_state []) at_ o [50] = (s', Ok d m) /\
    m_config m = Some c /\ d_mt c = at_ /\ d_at d = at_ /\
    In (EvPush RBlob c empty_json) (s_events s').
Proof. exact pack_accepts_invalid_media_type. Qed.
Print Assumptions C19_pack_accepts_invalid_media_type_deviation.

(* The created annotation of the result exists and parses (the caller's value, or the clock's
   when the caller gave none); all other annotations are the caller's; the descriptor carries
   the manifest's annotations. *)
Theorem C19_created_filled :
  forall (marshal : manifest -> str) (H : str -> str), H empty_json = empty_json_digest ->
  forall f tc fa s at_ o now s' d m,
    rfc3339_ok now = true ->
    pack marshal H f tc fa s at_ o now = (s', Ok d m) ->
    (exists v, ann_get (created_key f) (m_ann m) = Some v /\ rfc3339_ok v = true /\
               (ann_get (created_key f) (o_ann o) = Some v \/
                ann_get (created_key f) (o_ann o) = None /\ v = now)) /\
    (forall k, k <> created_key f -> ann_get k (m_ann m) = ann_get k (o_ann o)) /\
    d_ann d = m_ann m.
Proof. exact ok_created. Qed.
Print Assumptions C19_created_filled.

(* The value Pack writes itself -- time.Now().UTC().Format(time.RFC3339), modelled on the broken-down
   UTC time (format_rfc3339_utc, compared with time.Format on every run) -- always passes Pack's own
   validation and is RFC 3339, for every valid civil time before the year 10000 ... *)
Theorem C19_clock_value_accepted :
  forall y mo d h mi s, civil_ok y mo d h mi s = true -> rfc3339_ok (format_rfc3339_utc y mo d h mi s) = true.
Proof. exact format_accepted. Qed.
Print Assumptions C19_clock_value_accepted.

(* ... so "a created timestamp filled in" needs no premise about the timestamp. *)
Theorem C19_created_filled_by_clock :
  forall (marshal : manifest -> str) (H : str -> str), H empty_json = empty_json_digest ->
  forall f tc fa s at_ o y mo d h mi sec s' dd m,
    civil_ok y mo d h mi sec = true ->
    pack marshal H f tc fa s at_ o (format_rfc3339_utc y mo d h mi sec) = (s', Ok dd m) ->
    (exists v, ann_get (created_key f) (m_ann m) = Some v /\ rfc3339_ok v = true /\ RFC3339 v /\
               (ann_get (created_key f) (o_ann o) = Some v \/
                ann_get (created_key f) (o_ann o) = None /\ v = format_rfc3339_utc y mo d h mi sec)) /\
    (forall k, k <> created_key f -> ann_get k (m_ann m) = ann_get k (o_ann o)) /\
    d_ann dd = m_ann m.
Proof. exact ok_created_clock. Qed.
Print Assumptions C19_created_filled_by_clock.

(* Digest, size and media type of the returned descriptor are those of the marshalled
   manifest, and the target holds under that descriptor content with that digest; for a
   collision-free digest, exactly those bytes and that size -- also when the manifest or a
   same-digest blob was already there (ErrAlreadyExists is swallowed). *)
Theorem C19_descriptor_describes_stored :
  forall (marshal : manifest -> str) (H : str -> str), H empty_json = empty_json_digest ->
  forall f tc fa s at_ o now s' d m,
    wf_store H (s_store s) ->
    pack marshal H f tc fa s at_ o now = (s', Ok d m) ->
    d_dg d = H (marshal m) /\ d_sz d = Z.of_nat (length (marshal m)) /\ d_mt d = kind_mt (m_kind m) /\
    exists e, In e (s_store s') /\ same_key (t_key tc) d e = true /\
              H (e_bytes e) = d_dg d /\
              ((forall x y, H x = H y -> x = y) -> e_bytes e = marshal m /\ e_sz e = d_sz d).
Proof. exact ok_descriptor_describes_stored. Qed.
Print Assumptions C19_descriptor_describes_stored.

(* Every blob Pack invented (empty config, placeholder layer) describes "{}" and is in the
   target with that content, whether pushed now or found there. *)
Theorem C19_invented_present :
  forall (marshal : manifest -> str) (H : str -> str), H empty_json = empty_json_digest ->
  forall f tc fa s at_ o now s' d m,
    wf_store H (s_store s) ->
    pack marshal H f tc fa s at_ o now = (s', Ok d m) ->
    forall x, In x (invented H f at_ o) ->
      d_dg x = H empty_json /\ d_sz x = 2%Z /\
      exists e, In e (s_store s') /\ same_key (t_key tc) x e = true /\ H (e_bytes e) = H empty_json /\
                ((forall a c, H a = H c -> a = c) -> e_bytes e = empty_json).
Proof. exact ok_invented_present. Qed.
Print Assumptions C19_invented_present.

(* Closure: every successor of the packed manifest is a descriptor the caller supplied or is
   present in the target -- the result can be copied as soon as the caller's own blobs are there. *)
Theorem C19_closed :
  forall (marshal : manifest -> str) (H : str -> str), H empty_json = empty_json_digest ->
  forall f tc fa s at_ o now s' d m,
    pack marshal H f tc fa s at_ o now = (s', Ok d m) ->
    forall x, In x (successors m) ->
      In x (supplied o) \/ stored (t_key tc) (s_store s') x = true.
Proof. exact ok_closed. Qed.
Print Assumptions C19_closed.

(* Schedules: on a healthy target (no fault, not a file store) the result of every call of a history is a
   function of that call's input alone (pure_result: the exact rejection error, ErrInvalidDateTimeFormat, or
   the descriptor and manifest) -- not of the target's content, of earlier calls or of the order; so the
   same calls made in any other order on any other healthy target return the same results, call for call. *)
Theorem C19_history_results_are_functions_of_the_calls :
  forall (marshal : manifest -> str) (H : str -> str), H empty_json = empty_json_digest ->
  forall tc cs s s' rs,
    t_key tc <> KFile ->
    run_calls marshal H tc None s cs = (s', rs) -> rs = map (pure_result marshal H) cs.
Proof. exact history_results_pure. Qed.
Print Assumptions C19_history_results_are_functions_of_the_calls.

Theorem C19_history_order_irrelevant :
  forall (marshal : manifest -> str) (H : str -> str), H empty_json = empty_json_digest ->
  forall tc1 tc2 cs cs' s1 s2 s1' s2' rs rs',
    t_key tc1 <> KFile -> t_key tc2 <> KFile ->
    Permutation cs cs' ->
    run_calls marshal H tc1 None s1 cs = (s1', rs) ->
    run_calls marshal H tc2 None s2 cs' = (s2', rs') ->
    Permutation rs rs' /\ (forall c r, In (c, r) (combine cs rs) -> In (c, r) (combine cs' rs')).
Proof. exact history_order_irrelevant. Qed.
Print Assumptions C19_history_order_irrelevant.

(* "so the result can be copied": with the caller's own descriptors present in the target, the new
   manifest and every successor of it answer Exists afterwards (source closed one level down from the
   new root; deeper levels are the caller's graph).  CopyGraph itself stays the harness oracle. *)
Theorem C19_closed_when_supplied_present :
  forall (marshal : manifest -> str) (H : str -> str), H empty_json = empty_json_digest ->
  forall f tc fa s at_ o now s' d m,
    Forall (fun x => stored (t_key tc) (s_store s) x = true) (supplied o) ->
    pack marshal H f tc fa s at_ o now = (s', Ok d m) ->
    stored (t_key tc) (s_store s') d = true /\
    Forall (fun x => stored (t_key tc) (s_store s') x = true) (successors m).
Proof. exact ok_closed_when_supplied_present. Qed.
Print Assumptions C19_closed_when_supplied_present.

(* Histories: any sequence of Pack / PackManifest calls on one target (any mix of packers, inputs,
   failures, one fault somewhere).  Content-addressed stores stay so, and whatever an earlier call
   returned is still there after all later calls. *)
Theorem C19_history_store_stays_content_addressed :
  forall (marshal : manifest -> str) (H : str -> str), H empty_json = empty_json_digest ->
  forall tc fa cs s s' rs,
    run_calls marshal H tc fa s cs = (s', rs) -> wf_store H (s_store s) -> wf_store H (s_store s').
Proof. exact history_preserves_wf. Qed.
Print Assumptions C19_history_store_stays_content_addressed.

Theorem C19_history_results_stay :
  forall (marshal : manifest -> str) (H : str -> str), H empty_json = empty_json_digest ->
  forall tc fa cs s s' rs d m,
    wf_store H (s_store s) ->
    run_calls marshal H tc fa s cs = (s', rs) ->
    In (Ok d m) rs ->
    stored (t_key tc) (s_store s') d = true /\
    d_dg d = H (marshal m) /\
    exists e, In e (s_store s') /\ same_key (t_key tc) d e = true /\ H (e_bytes e) = H (marshal m) /\
              ((forall x y, H x = H y -> x = y) -> e_bytes e = marshal m).
Proof. exact history_results_stay. Qed.
Print Assumptions C19_history_results_stay.

(* Whatever Pack pushes describes its own content, so content-addressed stores stay so. *)
Theorem C19_store_stays_content_addressed :
  forall (marshal : manifest -> str) (H : str -> str), H empty_json = empty_json_digest ->
  forall f tc fa s at_ o now s' r,
    pack marshal H f tc fa s at_ o now = (s', r) -> wf_store H (s_store s) -> wf_store H (s_store s').
Proof. exact pack_preserves_wf. Qed.
Print Assumptions C19_store_stays_content_addressed.

(* Which storage operations a call issues: Exists / Push of "{}" for descriptors Pack invented --
   nothing else -- and then, at most, the push of the manifest. *)
Theorem C19_operations_of_a_successful_call :
  forall (marshal : manifest -> str) (H : str -> str), H empty_json = empty_json_digest ->
  forall f tc fa s at_ o now s' d m,
    pack marshal H f tc fa s at_ o now = (s', Ok d m) ->
    exists evs, s_events s' = s_events s ++ evs ++ [EvPush RManifest d (marshal m)] /\
                Forall (inv_ev H f at_ o) evs.
Proof. exact ok_operations. Qed.
Print Assumptions C19_operations_of_a_successful_call.

Theorem C19_operations_of_a_failed_call :
  forall (marshal : manifest -> str) (H : str -> str), H empty_json = empty_json_digest ->
  forall f tc fa s at_ o now s' e,
    pack marshal H f tc fa s at_ o now = (s', Err e) ->
    exists evs, Forall (inv_ev H f at_ o) evs /\
                (s_events s' = s_events s ++ evs \/
                 exists d m, s_events s' = s_events s ++ evs ++ [EvPush RManifest d (marshal m)]).
Proof. exact err_operations. Qed.
Print Assumptions C19_operations_of_a_failed_call.

(* Idempotence ("targets that already hold the blobs"): on a memory store, an OCI layout or a registry,
   with or without Exists and whatever they held before, repeating a successful call with a fixed created
   annotation returns the same descriptor and manifest and leaves the store exactly as it was. *)
Theorem C19_repeat_call_changes_nothing :
  forall (marshal : manifest -> str) (H : str -> str), H empty_json = empty_json_digest ->
  forall f tc fa1 s at_ o now1 now2 s1 d m v s2 r2,
    t_key tc <> KFile ->
    ann_get (created_key f) (o_ann o) = Some v ->
    pack marshal H f tc fa1 s at_ o now1 = (s1, Ok d m) ->
    pack marshal H f tc None s1 at_ o now2 = (s2, r2) ->
    r2 = Ok d m /\ s_store s2 = s_store s1.
Proof.
  exact (fun marshal H HE f tc fa1 s at_ o now1 now2 s1 d m v s2 r2 NF G P1 P2 =>
           history_repeat_changes_nothing marshal H HE tc (mkCall f at_ o now1) [] fa1 s s1 d m v s1 [] now2 s2 r2
                                          NF G P1 eq_refl P2).
Qed.
Print Assumptions C19_repeat_call_changes_nothing.

(* ... also after any number of other calls in between (a history): the repeat returns what the call
   returned the first time and stores nothing. *)
Theorem C19_history_repeat_changes_nothing :
  forall (marshal : manifest -> str) (H : str -> str), H empty_json = empty_json_digest ->
  forall tc c cs fa1 s s1 d m v sB rsB now' sC r,
    t_key tc <> KFile ->
    ann_get (created_key (c_fn c)) (o_ann (c_opts c)) = Some v ->
    pack marshal H (c_fn c) tc fa1 s (c_at c) (c_opts c) (c_now c) = (s1, Ok d m) ->
    run_calls marshal H tc None s1 cs = (sB, rsB) ->
    pack marshal H (c_fn c) tc None sB (c_at c) (c_opts c) now' = (sC, r) ->
    r = Ok d m /\ s_store sC = s_store sB.
Proof. exact history_repeat_changes_nothing. Qed.
Print Assumptions C19_history_repeat_changes_nothing.

(* ... and the premise is needed: a file store refuses to write a named manifest twice. *)
Theorem C19_repeat_call_file_store_refuted :
  exists o s1 d m s2,
    ann_get (created_key FArtifact) (o_ann o) = Some (b "2021-07-01T12:00:00Z") /\
    pack lossy_marshal lossy_H FArtifact (mkTcfg true KFile) None (init_state []) [] o [50] = (s1, Ok d m) /\
    pack lossy_marshal lossy_H FArtifact (mkTcfg true KFile) None s1 [] o [50] = (s2, Err EInjected).
Proof. exact repeat_call_file_store_refuted. Qed.
Print Assumptions C19_repeat_call_file_store_refuted.

(* Identical inputs with a fixed created annotation give the identical descriptor and
   manifest on any two targets, contents, clocks and fault plans. *)
Theorem C19_deterministic :
  forall (marshal : manifest -> str) (H : str -> str), H empty_json = empty_json_digest ->
  forall f at_ o v tc1 fa1 s1 now1 s1' d1 m1 tc2 fa2 s2 now2 s2' d2 m2,
    ann_get (created_key f) (o_ann o) = Some v ->
    pack marshal H f tc1 fa1 s1 at_ o now1 = (s1', Ok d1 m1) ->
    pack marshal H f tc2 fa2 s2 at_ o now2 = (s2', Ok d2 m2) ->
    d1 = d2 /\ m1 = m2.
Proof. exact deterministic. Qed.
Print Assumptions C19_deterministic.

(* Go maps carry no order and json.Marshal writes map keys sorted (hypothesis marshal_perm): listing
   the same manifest annotations in another order gives the same digest, size and media type, and
   the same descriptor up to the order of its annotations. *)
Theorem C19_annotation_order_independent :
  forall (marshal : manifest -> str) (H : str -> str), H empty_json = empty_json_digest ->
  (forall k c l sj a ann ann',
      NoDup (map fst ann) -> Permutation ann ann' ->
      marshal (mkManifest k c l sj a ann) = marshal (mkManifest k c l sj a ann')) ->
  forall f at_ o o' v tc1 fa1 s1 now1 s1' d1 m1 tc2 fa2 s2 now2 s2' d2 m2,
    NoDup (map fst (o_ann o)) -> Permutation (o_ann o) (o_ann o') -> same_but_ann o o' ->
    ann_get (created_key f) (o_ann o) = Some v ->
    pack marshal H f tc1 fa1 s1 at_ o now1 = (s1', Ok d1 m1) ->
    pack marshal H f tc2 fa2 s2 at_ o' now2 = (s2', Ok d2 m2) ->
    d_dg d1 = d_dg d2 /\ d_sz d1 = d_sz d2 /\ d_mt d1 = d_mt d2 /\ d_at d1 = d_at d2 /\
    d_extra d1 = d_extra d2 /\ Permutation (d_ann d1) (d_ann d2) /\
    m_config m1 = m_config m2 /\ m_layers m1 = m_layers m2 /\ m_subject m1 = m_subject m2 /\ m_at m1 = m_at m2.
Proof. exact deterministic_perm. Qed.
Print Assumptions C19_annotation_order_independent.

(* json.Marshal itself is modelled (Model/PackEnc.v json_manifest: struct field order, omitempty,
   string escaping, sorted map keys, base64; compared byte for byte with the stored manifest on every
   run).  For it the order independence is a theorem, not a premise: the marshalled bytes, hence digest
   and size, do not depend on the order in which a map's entries are listed ... *)
Theorem C19_json_marshal_order_independent :
  forall k c l sj a ann ann',
    NoDup (map fst ann) -> Permutation ann ann' ->
    json_manifest (mkManifest k c l sj a ann) = json_manifest (mkManifest k c l sj a ann').
Proof. exact json_manifest_perm. Qed.
Print Assumptions C19_json_marshal_order_independent.

(* For strings the json round trip is a theorem about the modelled encoder: reading back (json_unesc,
   the inverse escapes of encoding/json) what json.Marshal wrote gives exactly the UTF-8 coercion of
   the string -- the string itself when it is valid UTF-8 -- and clean strings never collide. *)
Theorem C19_json_string_roundtrip :
  forall s, json_unesc (json_esc s) = Some (utf8_san s).
Proof. exact json_string_roundtrip. Qed.
Print Assumptions C19_json_string_roundtrip.

Theorem C19_json_string_injective_on_valid_utf8 :
  forall s t, utf8_san s = s -> utf8_san t = t -> json_esc s = json_esc t -> s = t.
Proof. exact json_esc_injective_clean. Qed.
Print Assumptions C19_json_string_injective_on_valid_utf8.

(* The annotations object of a manifest (json_ann: sorted keys, escaped strings) reads back -- read_obj,
   encoding/json's object syntax on what the encoder produces -- as the requested annotations, coerced to
   UTF-8, in key order, whatever follows it in the document: for the part of the manifest the caller
   controls freely the premise json_roundtrip is a theorem. *)
Theorem C19_json_annotations_roundtrip :
  forall l rest, read_obj (json_ann l ++ rest) = Some (san_ann (kv_sort l), rest).
Proof. exact json_ann_roundtrip. Qed.
Print Assumptions C19_json_annotations_roundtrip.

(* "those bytes parse as a manifest of the returned media type", for the modelled json.Marshal and
   without the premise json_roundtrip: reading the head of the document (doc_media_type / doc_artifact_type:
   the mediaType field, after "schemaVersion":2 when present, and the artifactType field next to it) ... *)
Theorem C19_document_declares_media_type :
  forall m, doc_media_type (json_manifest m) = Some (kind_mt (m_kind m)).
Proof. exact doc_media_type_json. Qed.
Print Assumptions C19_document_declares_media_type.

Theorem C19_document_declares_artifact_type :
  forall m, doc_artifact_type (json_manifest m) =
            match m_kind m, m_at m with KImage, [] => None | _, a => Some (utf8_san a) end.
Proof. exact doc_artifact_type_json. Qed.
Print Assumptions C19_document_declares_artifact_type.

(* Numbers: the decimal json.Marshal writes for a natural number reads back as that number ... *)
Theorem C19_json_number_roundtrip :
  forall n rest,
    n < pow10 40 ->
    match rest with c :: _ => is_digit c = false | [] => True end ->
    read_digits (json_nat n ++ rest) 0 = (n, rest).
Proof. exact read_json_nat. Qed.
Print Assumptions C19_json_number_roundtrip.

(* ... and an image manifest document declares the requested config descriptor: its media type and digest
   (coerced to UTF-8) and its size, read from the head of "config":{...} *)
Theorem C19_document_declares_config :
  forall m c n,
    m_kind m = KImage -> m_config m = Some c -> d_sz c = Z.of_N n -> n < pow10 40 ->
    doc_config_head (json_manifest m) = Some (utf8_san (d_mt c), utf8_san (d_dg c), n).
Proof. exact doc_config_head_json. Qed.
Print Assumptions C19_document_declares_config.

(* ... so the document stored under the returned descriptor declares that descriptor's media type and
   the requested artifact type (for a collision-free digest). *)
Theorem C19_stored_document_declares :
  forall (H : str -> str), H empty_json = empty_json_digest -> (forall x y, H x = H y -> x = y) ->
  forall f tc fa s at_ o now s' d m,
    wf_store H (s_store s) ->
    pack json_manifest H f tc fa s at_ o now = (s', Ok d m) ->
    exists e, In e (s_store s') /\ same_key (t_key tc) d e = true /\
              doc_media_type (e_bytes e) = Some (d_mt d) /\
              doc_artifact_type (e_bytes e) =
                match m_kind m, m_at m with KImage, [] => None | _, a => Some (utf8_san a) end.
Proof. exact stored_document_declares. Qed.
Print Assumptions C19_stored_document_declares.

(* ... so Pack with the real marshalling is independent of the order of the manifest annotations. *)
Theorem C19_annotation_order_independent_json :
  forall (H : str -> str), H empty_json = empty_json_digest ->
  forall f at_ o o' v tc1 fa1 s1 now1 s1' d1 m1 tc2 fa2 s2 now2 s2' d2 m2,
    NoDup (map fst (o_ann o)) -> Permutation (o_ann o) (o_ann o') -> same_but_ann o o' ->
    ann_get (created_key f) (o_ann o) = Some v ->
    pack json_manifest H f tc1 fa1 s1 at_ o now1 = (s1', Ok d1 m1) ->
    pack json_manifest H f tc2 fa2 s2 at_ o' now2 = (s2', Ok d2 m2) ->
    d_dg d1 = d_dg d2 /\ d_sz d1 = d_sz d2 /\ d_mt d1 = d_mt d2 /\ d_at d1 = d_at d2 /\
    d_extra d1 = d_extra d2 /\ Permutation (d_ann d1) (d_ann d2) /\
    json_manifest m1 = json_manifest m2.
Proof. exact deterministic_perm_json. Qed.
Print Assumptions C19_annotation_order_independent_json.

(* The executable instance: json.Marshal (Model/PackEnc.v) and digest.FromBytes (SHA-256, Model/PackSha.v)
   are both modelled and compared with the implementation (stored bytes, descriptor size and, on a sample,
   the descriptor digest).  The one hypothesis about the digest holds for it by computation, so every
   theorem above applies to it; in particular the returned descriptor is computed by the model. *)
Theorem C19_sha256_of_empty_json :
  digest_of empty_json = empty_json_digest.
Proof. exact digest_of_empty_json. Qed.
Print Assumptions C19_sha256_of_empty_json.

Theorem C19_executable_instance_consistent :
  forall f tc fa s at_ o now s' d m,
    pack json_manifest digest_of f tc fa s at_ o now = (s', Ok d m) ->
    exists ann,
      ensure_created (o_ann o) (created_key f) now = Some ann /\
      m = requested_manifest digest_of f at_ o ann /\
      d_dg d = digest_of (json_manifest m) /\
      d_sz d = Z.of_nat (length (json_manifest m)) /\
      d_mt d = kind_mt (m_kind m) /\ d_ann d = m_ann m /\
      stored (t_key tc) (s_store s') d = true.
Proof. exact executable_instance_consistent. Qed.
Print Assumptions C19_executable_instance_consistent.

(* the hypotheses are satisfiable, the statements are not vacuous *)
(* a digest function with H "{}" = the image-spec constant, and collision-free *)
Definition toyH : str -> str := lossy_H.
Definition toy_marshal (m : manifest) : str :=
  b "manifest:" ++ m_at m ++ concat (map (fun kv => fst kv ++ snd kv) (m_ann m)).

Example toyH_empty : toyH empty_json = empty_json_digest.
Proof. reflexivity. Qed.

Example toyH_injective : forall x y, toyH x = toyH y -> x = y.
Proof. exact lossy_H_injective. Qed.

(* a marshal that satisfies marshal_perm (it ignores the annotations' order: it drops them) *)
Example toy_marshal_perm_satisfiable :
  let mar := fun m : manifest => b "manifest:" ++ m_at m in
  forall k c l sj a ann ann', NoDup (map fst ann) -> Permutation ann ann' ->
    mar (mkManifest k c l sj a ann) = mar (mkManifest k c l sj a ann').
Proof. reflexivity. Qed.

Definition ex_layer : desc := mkDesc (b "application/octet-stream") (b "sha256:aa") 5 [] [] no_extra.

(* v1.1, no config, no layers, target with Exists keyed by digest: Exists, push "{}", push manifest *)
Example ex_ok :
  exists s' d m,
    pack toy_marshal toyH FV11 (mkTcfg true KDigest) None (init_state []) (b "application/vnd.example")
         (mkOpts None None [] None []) (b "2024-02-29T12:00:00Z") = (s', Ok d m) /\
    length (s_events s') = 3%nat /\ length (s_store s') = 2%nat /\
    m_layers m = Some [DescriptorEmptyJSON] /\ wf_store toyH (s_store s').
Proof.
  eexists _, _, _. split; [vm_compute; reflexivity|]. repeat split; try reflexivity.
  repeat constructor.
Qed.

(* v1.0 with a subject, or an artifact type with a space, must be rejected *)
Example ex_reject :
  must_reject FV10 [] (mkOpts (Some ex_layer) None [] None []) = true /\
  must_reject FV11 (b "application/x y") (mkOpts None None [] None []) = true /\
  must_reject FV11 [] (mkOpts None (Some [ex_layer]) [] None []) = true /\
  must_reject FV11 (b "application/vnd.example") (mkOpts None None [] None []) = false.
Proof. vm_compute. repeat split; reflexivity. Qed.

(* a malformed created annotation (not a leap year) after a config push *)
Example ex_bad_created :
  let o := mkOpts None None [(AnnotationCreated, b "2023-02-29T12:00:00Z")] None [] in
  ann_get (created_key FV10) (o_ann o) = Some (b "2023-02-29T12:00:00Z") /\
  rfc3339_ok (b "2023-02-29T12:00:00Z") = false /\
  exists s', pack toy_marshal toyH FV10 (mkTcfg false KFull) None (init_state []) [] o (b "2024-02-29T12:00:00Z")
             = (s', Err EInvalidDateTime) /\ length (s_events s') = 1%nat.
Proof. vm_compute. repeat split; try reflexivity. eexists; split; reflexivity. Qed.

(* what the created validation takes and refuses, as the recogniser sees it *)
Example ex_times :
  rfc3339_ok (b "2006-01-02T15:04:05Z") = true /\
  rfc3339_ok (b "2024-02-29T23:59:59.5+07:30") = true /\
  rfc3339_ok (b "2006-01-02T1:04:05Z") = false /\        (* taken by time.Parse, not RFC 3339 *)
  rfc3339_ok (b "2006-01-02T15:04:05,5+24:60") = false /\ (* idem *)
  rfc3339_ok (b "2006-01-02t15:04:05z") = false /\
  rfc3339_ok (b "2006-01-02T15:04:60Z") = false /\
  rfc3339_ok (b "1900-02-29T00:00:00Z") = false /\
  rfc3339_ok (b "2006-01-02T15:04:05") = false.
Proof. vm_compute. repeat split; reflexivity. Qed.

Example ex_rfc3339 :
  RFC3339 (b "2024-02-29T23:59:59.5+07:30") /\ ~ RFC3339 (b "2006-01-02T1:04:05Z") /\
  RFC3339_go (b "2006-01-02T15:04:05Z").
Proof.
  split; [apply accepted_is_rfc3339; vm_compute; reflexivity|].
  split; [intro R; apply RFC3339_shape in R; vm_compute in R; discriminate|].
  apply rfc3339_ok_spec. vm_compute. reflexivity.
Qed.

(* other target kinds and a fault plan.  File store: the config is written as the named file cfg.json;
   when that name is already taken by other content the store refuses (ErrDuplicateName) and Pack
   fails; when it is taken by "{}" itself Exists answers true and nothing is pushed but the manifest *)
Example ex_file_store_named_config :
  (exists s' d m, pack lossy_marshal lossy_H FV10 (mkTcfg true KFile) None (init_state []) []
                       (mkOpts None None [] None ex_titled_ann) [50] = (s', Ok d m) /\
                  map e_name (s_store s') = [b "cfg.json"; []]) /\
  (exists s', pack lossy_marshal lossy_H FV10 (mkTcfg true KFile) None (init_state [ex_named_entry (b "sha256:other")]) []
                   (mkOpts None None [] None ex_titled_ann) [50] = (s', Err EInjected) /\ length (s_events s') = 2%nat) /\
  (exists s' d m, pack lossy_marshal lossy_H FV10 (mkTcfg true KFile) None (init_state [ex_named_entry empty_json_digest]) []
                       (mkOpts None None [] None ex_titled_ann) [50] = (s', Ok d m) /\ length (s_events s') = 2%nat).
Proof.
  split; [eexists _, _, _; split; vm_compute; reflexivity|].
  split; [eexists; split; vm_compute; reflexivity|].
  eexists _, _, _; split; vm_compute; reflexivity.
Qed.

(* registry: "{}" held as a blob does not answer for a config typed as a manifest (other namespace) *)
Example ex_registry_namespaces :
  stored KNamespace [mkEntry MediaTypeEmptyJSON empty_json_digest 2 empty_json []]
         (mkDesc MediaTypeImageManifest empty_json_digest 2 [] [] no_extra) = false /\
  stored KDigest [mkEntry MediaTypeEmptyJSON empty_json_digest 2 empty_json []]
         (mkDesc MediaTypeImageManifest empty_json_digest 2 [] [] no_extra) = true.
Proof. vm_compute. split; reflexivity. Qed.

(* a fault plan: the third storage operation (the manifest push) fails after the config was stored *)
Example ex_fault :
  exists s', pack lossy_marshal lossy_H FV11 (mkTcfg true KDigest) (Some 2%nat) (init_state []) (b "application/vnd.example")
                  (mkOpts None None [] None []) (b "2024-02-29T12:00:00Z") = (s', Err EInjected) /\
             length (s_events s') = 3%nat /\ length (s_store s') = 1%nat.
Proof. eexists. vm_compute. repeat split; reflexivity. Qed.

Example ex_media_types :
  RFC6838 (b "application/vnd.oci.image.manifest.v1+json") /\ ~ RFC6838 (b "application/x y") /\
  ~ RFC6838 (b "application") /\ ~ RFC6838 (b "a/b/c").
Proof.
  repeat split; [apply media_type_grammar; vm_compute; reflexivity | | | ];
    intro HR; apply media_type_grammar in HR; vm_compute in HR; discriminate.
Qed.
