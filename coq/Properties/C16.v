(* C16 -- The auth client keeps each registry's secrets and tokens to that registry.
   The theorems are closed by [exact] (the examples by computation); the lemmas live
   in the Proofs/ files imported below.  The models are Model/Scopes.v
   (CleanScopes, cleanActions), Model/Challenge.v (parseChallenge),
   Model/AuthClient.v and Model/AuthConc.v (Client.Do, token fetchers, the three
   caches; sequential and with concurrent calls), Model/Once.v and Model/OnceSlot.v
   (syncutil.Once), Model/CacheSet.v (concurrentCache.Set) and Model/Redirect.v,
   tied to the Go code by the correspondence run. *)
From Coq Require Import Sorting.Sorted Sorting.Permutation.
From Oras Require Import Base.Prelude Generated.GC16
  Model.Scopes Model.Challenge Model.AuthClient Model.Once Model.CacheSet Model.OnceSlot Model.AuthConc Model.Redirect
  Proofs.Scopes Proofs.ScopesIdem Proofs.AuthClient Proofs.AuthHistory Proofs.Once Proofs.CacheSet Proofs.OnceSlot Proofs.AuthConc Proofs.Redirect Proofs.AuthOrder.

(* ================= scope sets: the canonical cache key ================= *)

(* sorted strictly ascending: sorted and duplicate-free, for every input *)
Theorem C16_scopes_sorted_nodup :
  forall l, StronglySorted slt (clean_scopes l) /\ NoDup (clean_scopes l).
Proof. exact (fun l => conj (clean_scopes_ssorted l) (ssorted_nodup _ (clean_scopes_ssorted l))). Qed.
Print Assumptions C16_scopes_sorted_nodup.

(* CleanScopes(CleanScopes(l)) = CleanScopes(l), for every input *)
Theorem C16_scopes_idempotent :
  forall l, clean_scopes (clean_scopes l) = clean_scopes l.
Proof. exact clean_scopes_idempotent. Qed.
Print Assumptions C16_scopes_idempotent.

(* order-insensitive *)
Theorem C16_scopes_order_insensitive :
  forall l l', Permutation l l' -> clean_scopes l = clean_scopes l'.
Proof. exact clean_scopes_perm. Qed.
Print Assumptions C16_scopes_order_insensitive.

(* the result depends only on the SET of scopes: order and repetitions of the
   input are irrelevant, whatever path (fast or general) the lists take *)
Theorem C16_scopes_set_insensitive :
  forall l l', (forall x, In x l <-> In x l') -> clean_scopes l = clean_scopes l'.
Proof. exact clean_scopes_same. Qed.
Print Assumptions C16_scopes_set_insensitive.

(* the iteration order of the Go maps (any permutation of the list handed to the
   final sort, any order of an action set) is unobservable *)
Theorem C16_scopes_map_order_irrelevant :
  (forall l p, Permutation p (presort l) -> compact (isort p) = clean_scopes_slow l) /\
  (forall a q, Permutation q a -> merge_actions q = merge_actions a).
Proof. exact (conj slow_any_map_order merge_any_set_order). Qed.
Print Assumptions C16_scopes_map_order_irrelevant.

(* wildcard: "*" among the actions of (type, name) absorbs the other actions, and
   every member of the result is an unparsable input scope or THE rebuilt scope
   of one (type, name) *)
Theorem C16_scopes_wildcard :
  forall l,
    (forall s t n a, In s l -> classify s = Keyed t n a -> In [c_star] a ->
       In (t ++ [c_colon] ++ n ++ [c_colon] ++ [c_star]) (clean_scopes l)) /\
    (forall y, In y (clean_scopes l) <->
       (In y l /\ classify y = Pass y) \/
       exists k, In k (keys_of (map classify l) []) /\ rebuild (map classify l) k = [y]).
Proof. exact (fun l => conj (star_absorbs_all l) (clean_scopes_members_all l)). Qed.
Print Assumptions C16_scopes_wildcard.

Example C16_scopes_example :
  clean_scopes [b "repository:foo:push"; b "unknown"; b "repository:foo:pull,*"; b "unknown";
                b "repository:bar:pull"; b "repository:bar:delete,pull"]
  = [b "repository:bar:delete,pull"; b "repository:foo:*"; b "unknown"]
  /\ clean_scopes [ScopeRegistryCatalog] = [ScopeRegistryCatalog].
Proof. split; vm_compute; reflexivity. Qed.

(* the code before the two fix: commits violated the statement (F8 and the
   fast-path inconsistency) *)
Theorem C16_scopes_prefix_refuted :
  (exists l, ~ NoDup (clean_scopes_prefix l)) /\
  (exists l, clean_scopes_prefix (clean_scopes_prefix l) <> clean_scopes_prefix l).
Proof. exact prefix_refuted. Qed.
Print Assumptions C16_scopes_prefix_refuted.

(* ================= no secret crosses hosts ================= *)

(* Over every history of requests to any hosts sharing any cache flavour, with any
   credential table and any server behaviour (the answer scripts), every send of
   the request addressed to h satisfies [send_ok h]: it goes to h or to a realm
   that h advertised in this very request, and carries only h's secrets. *)
Theorem C16_no_cross_host :
  forall clean parse cf hist,
    Forall2 (fun rs out => trace_ok parse (rq_host (fst rs)) (fst out))
            hist (fst (run_history clean parse cf [] hist)).
Proof. exact (fun clean parse cf hist => proj2 (run_history_ok parse clean cf hist [] cache_ok_nil)). Qed.
Print Assumptions C16_no_cross_host.

(* [send_ok] in the words of the property: every secret attached to a send made
   for host h is tainted h; a registry send goes to h and a password travels in
   it only as h's Basic token (freshly: only after a Basic challenge of h in this
   request); token requests go to a realm advertised by h in a Bearer challenge
   and carry only h's password or refresh token *)
Theorem C16_send_ok_reading :
  forall parse h pre s, send_ok parse h pre s ->
    (forall t, In t (send_secrets s) -> taint t = h) /\
    match s with
    | SReg h' a fresh =>
      h' = h /\
      (forall t, In t (send_secrets s) -> long_lived t = true ->
                 t = SBasicTok h /\ (fresh = true -> basic_challenged parse h pre))
    | SDist _ realm _ _ _ | SOAuth _ realm _ _ _ =>
      advertised parse h realm pre /\ (forall t, In t (send_secrets s) -> t = SUserPass h \/ t = SRefresh h)
    end.
Proof. exact send_ok_reading. Qed.
Print Assumptions C16_send_ok_reading.

(* over a whole history: a Basic header (the password) reaches registry h only if
   h sent a Basic challenge earlier in the history *)
Theorem C16_password_only_after_basic_challenge :
  forall parse clean cf hist pre h t fr ans post,
    concat (map fst (fst (run_history clean parse cf [] hist))) = pre ++ (SReg h (ABasic t) fr, ans) :: post ->
    basic_challenged parse h pre.
Proof. exact history_basic_only_after_challenge. Qed.
Print Assumptions C16_password_only_after_basic_challenge.

(* the cache holds, under host h, only tokens of h -- at every point of every history *)
Theorem C16_cache_tainted :
  forall clean parse cf hist h s k t,
    cc_get_token (snd (run_history clean parse cf [] hist)) h s k = Some t -> taint t = h.
Proof.
  exact (fun clean parse cf hist h s k t H =>
    tok_fits_taint h s t (proj1 (run_history_ok parse clean cf hist [] cache_ok_nil) h s k t H)).
Qed.
Print Assumptions C16_cache_tainted.

Example C16_history_example :
  let creds := [(0, mkCred true true false false); (1, mkCred true true true false)] in
  let ch0 := b "Bearer realm=""https://auth.example/token"",service=""svc0"",scope=""repository:a:pull""" in
  let ch1 := b "Basic realm=""r""" in
  map (fun o => (map fst (fst o), snd o))
    (run_model FShared false creds [] []
       [ (mkReq 0 [] [] BNone, [A401 ch0; ATok 7; AOk]);
         (mkReq 1 [] [] BNone, [A401 ch1; AOk]);
         (mkReq 0 [] [b "repository:a:pull"] BNone, [AOk]);
         (mkReq 1 [] [] BNone, [AOk]) ])
  = [ ([SReg 0 NoAuth false;
        SDist 0 (b "https://auth.example/token") (b "svc0") [b "repository:a:pull"] (Some (SUserPass 0));
        SReg 0 (ABearer (SIssued 0 7)) true], RResp false);
      ([SReg 1 NoAuth false; SReg 1 (ABasic (SBasicTok 1)) true], RResp false);
      ([SReg 0 (ABearer (SIssued 0 7)) false], RResp false);
      ([SReg 1 (ABasic (SBasicTok 1)) false], RResp false) ].
Proof. vm_compute. reflexivity. Qed.

(* ================= budget and outcome ================= *)

(* at most three sends to the registry and one token fetch, for every server
   behaviour including sends that fail (transport error, cancelled context: AErr);
   every outcome has one of the listed causes; a failed send is the last one *)
Theorem C16_budget :
  forall parse clean cf c rq script,
    let '(evs, c', r) := do_request clean parse cf c rq script in
    (reg_sends evs <= 3)%nat /\ (fetches evs <= 1)%nat /\ outcome_ok parse cf rq evs r.
Proof. exact do_request_budget. Qed.
Print Assumptions C16_budget.

(* with valid credentials (present and complete for the challenged flow, accepted
   by the token endpoint and by the registry), known schemes and a rewindable
   body, the request ends with the registry's non-401 answer within the budget *)
Theorem C16_valid_credentials_succeed :
  forall parse clean cf c rq script,
    let '(evs, c', r) := do_request clean parse cf c rq script in
    r <> RBad ->
    rewind_ok (rq_body rq) = true ->
    r <> RErr ENoCred -> r <> RErr EMissing -> r <> RErr ECred -> r <> RErr EShared ->
    (forall s, ~ In (s, AFail) evs) ->
    (forall s, ~ In (s, AErr) evs) ->
    (forall h a hdr, ~ In (SReg h a true, A401 hdr) evs) ->
    (forall s hdr ps, In (s, A401 hdr) evs -> parse hdr <> (SchUnknown, ps)) ->
    r = RResp false /\ (reg_sends evs <= 3)%nat /\ (fetches evs <= 1)%nat /\
    exists h a fresh, last evs no_event = (SReg h a fresh, AOk).
Proof. exact valid_credentials_succeed. Qed.
Print Assumptions C16_valid_credentials_succeed.

(* ================= cache key ================= *)

(* shared cache: a hit after a store is the stored token under exactly the same
   host, scheme and key, or an older hit; other hosts are untouched; a scheme
   change drops the host's older tokens; different keys do not alias *)
Theorem C16_cache_key :
  (forall c h s k v, cc_get_token (cc_store c h s k v) h s k = Some v) /\
  (forall c h s k v h' s' k' t,
     cc_get_token (cc_store c h s k v) h' s' k' = Some t ->
     (h' = h /\ s' = s /\ k' = k /\ t = v) \/ cc_get_token c h' s' k' = Some t) /\
  (forall c h s k v h' s' k', h' <> h ->
     cc_get_token (cc_store c h s k v) h' s' k' = cc_get_token c h' s' k') /\
  (forall c h s0 s k v s' k' t, cc_get_scheme c h = Some s0 -> s0 <> s ->
     cc_get_token (cc_store c h s k v) h s' k' = Some t -> s' = s /\ k' = k /\ t = v) /\
  (forall h s k v k', k' <> k ->
     cache_get_token FShared (cache_store FShared [] h s k v) h s k' = None).
Proof.
  exact (conj get_store_same (conj get_store_hit (conj get_store_other_host
          (conj scheme_change_drops shared_key_sensitive)))).
Qed.
Print Assumptions C16_cache_key.

(* the key is canonical: requests whose hint + challenge scopes are the same set
   use the same key ... *)
Theorem C16_cache_key_canonical :
  forall l l', (forall x, In x l <-> In x l') ->
    join [c_space] (clean_scopes l) = join [c_space] (clean_scopes l').
Proof. exact (fun l l' H => f_equal (join [c_space]) (clean_scopes_same l l' H)). Qed.
Print Assumptions C16_cache_key_canonical.

(* ... and ONLY then, provided no scope is empty or contains a space (the scopes of
   a challenge satisfy this: they are the pieces of a split on spaces, and
   CleanScopes preserves it): equal keys give equal canonical scope sets *)
Theorem C16_cache_key_injective :
  forall l l',
    (forall s, In s l -> key_safe s) -> (forall s, In s l' -> key_safe s) ->
    join [c_space] (clean_scopes l) = join [c_space] (clean_scopes l') ->
    clean_scopes l = clean_scopes l'.
Proof. exact key_determines_scopes. Qed.
Print Assumptions C16_cache_key_injective.

(* the side condition is needed: a scope HINT containing a space (caller input the
   protocol cannot express; outside the property's quantifier, see assumptions)
   aliases the key of a two-element scope set *)
Theorem C16_cache_key_space_refuted :
  let l := [b "repository:a:pull repository:b:pull"] in
  let l' := [b "repository:a:pull"; b "repository:b:pull"] in
  join [c_space] (clean_scopes l) = join [c_space] (clean_scopes l') /\ clean_scopes l <> clean_scopes l'.
Proof. exact key_alias_with_space. Qed.
Print Assumptions C16_cache_key_space_refuted.

(* Client.Do re-uses a token (a send that is not fresh) only if it is in the cache,
   as it was when the call started, under the request's host, the scheme of the
   header, and one of the request's own keys (hinted scopes, or CleanScopes of
   hinted + challenge scopes).  With C16_cache_key (a hit is a token stored under
   exactly that host, scheme and key) and C16_cache_key_injective this is the
   clause "a cached token is reused only for the same host, scheme and canonical
   scope set" for the shared cache; the single-context cache ignores the key by
   design (C16_single_context_cache). *)
Theorem C16_reuse_only_own_key :
  forall parse clean cf c rq script,
    let '(evs, c', r) := do_request clean parse cf c rq script in
    Forall (cached_send_ok clean (cf_flavour cf) c rq) evs.
Proof. exact do_request_cached_sends. Qed.
Print Assumptions C16_reuse_only_own_key.

(* the single-context cache is documented to ignore scopes (host + scheme only):
   it always hits for the same host and scheme, and never for another host *)
Theorem C16_single_context_cache :
  (forall c h s k v k', exists t,
     cache_get_token FSingle (cache_store FSingle c h s k v) h s k' = Some t) /\
  (forall c h s k v h' s' k', h' <> h ->
     cache_get_token FSingle (cache_store FSingle c h s k v) h' s' k'
     = cache_get_token FSingle c h' s' k').
Proof. exact (conj single_ignores_scopes single_other_host). Qed.
Print Assumptions C16_single_context_cache.

(* ================= Once: sharing an in-flight fetch ================= *)

(* for every accepted trace (any callers, any interleaving, any cancellations):
   the function completes at most once; every caller that receives a result
   receives that one; a second caller enters the function only after the first
   one was cancelled (one fetch in flight); nobody receives a result before one
   is published.  (That a cancelled fetcher puts the value back into the channel is the
   definition of the step OCancelF in Model/Once.v, tied to once.go by the accepted
   traces with hand-over; it is not a theorem.) *)
Theorem C16_once :
  (forall tr s, orun OTok tr = Some s ->
     (done_count tr <= 1)%nat /\
     (forall g v, In (OReadClosed g v) tr -> exists g', In (ODone g' v) tr) /\
     (forall g1 v1 g2 v2, In (ODone g1 v1) tr -> In (ODone g2 v2) tr -> v1 = v2) /\
     (forall g1 v1 g2 v2, In (OReadClosed g1 v1) tr -> In (OReadClosed g2 v2) tr -> v1 = v2)) /\
  (forall p g1 m g2 q s,
     orun OTok (p ++ OAcquire g1 :: m ++ OAcquire g2 :: q) = Some s -> In (OCancelF g1) m) /\
  (forall tr s, orun OTok tr = Some s -> (forall v, s <> OClosed v) ->
     forall g w, ~ In (OReadClosed g w) tr).
Proof.
  exact (conj once_shared_result (conj one_in_flight no_result_before_publication)).
Qed.
Print Assumptions C16_once.

Example C16_once_example :
  once_accepts [OAcquire 1; OCtxDone 2; OCancelF 1; OAcquire 3; ODone 3 42; OReadClosed 4 42; OReadClosed 1 42] = true
  /\ once_accepts [OAcquire 1; OAcquire 2] = false
  /\ once_accepts [OAcquire 1; ODone 1 5; OReadClosed 2 6] = false.
Proof. vm_compute. auto. Qed.

(* ================= concurrentCache.Set: sharing across calls ================= *)

(* shared cache, any number of concurrent Set calls, any interleaving of
   LoadOrStore / Once steps / Delete: the token a call returns was fetched by a
   call with the same (registry, scheme, scope key) *)
Theorem C16_set_shared_result :
  forall calls, (forall g, csrc (calls g) = None) ->
    forall tr st g v, crun calls cinit tr = Some st ->
      nget (results st) g = Some v -> ck (calls v) = ck (calls g).
Proof. exact shared_set_result_same_key. Qed.
Print Assumptions C16_set_shared_result.

(* Since fix b278d84 the host-only follow-up of the single-context cache is a plain
   store, so every Set call is a real fetch and C16_set_shared_result covers the
   single-context cache too.  Before it, the follow-up was a Set call with a
   constant function; then the statement holds for every key on which only real
   fetches run -- every key but the empty scope key *)
Theorem C16_set_shared_result_partial :
  forall calls K, (forall g, ck (calls g) = K -> csrc (calls g) = None) ->
    forall tr st g v, crun calls cinit tr = Some st ->
      nget (results st) g = Some v -> ck (calls g) = K -> ck (calls v) = K.
Proof. exact set_result_same_key. Qed.
Print Assumptions C16_set_shared_result_partial.

(* before fix 2f4b15f fallbackCache.Set returned the result of its follow-up call:
   a token fetched for another scope key *)
Theorem C16_single_cache_set_prefix_refuted :
  let calls := table_calls [(1, mkCall kx None); (2, mkCall k0 (Some 1));
                            (3, mkCall ky None); (4, mkCall k0 (Some 3))] in
  exists tr st, crun calls cinit tr = Some st /\
    nget (results st) 4 = Some 1 /\ ck (calls 3) = ky /\ ck (calls 1) = kx /\ kx <> ky.
Proof. exact fallback_prefix_refuted. Qed.
Print Assumptions C16_single_cache_set_prefix_refuted.

(* before fix b278d84: with the EMPTY scope key the first call of the
   single-context cache shared its status key with follow-up calls *)
Theorem C16_single_cache_empty_key_refuted :
  let calls := table_calls [(1, mkCall kx None); (2, mkCall k0 (Some 1)); (3, mkCall k0 None)] in
  exists tr st, crun calls cinit tr = Some st /\
    nget (results st) 3 = Some 1 /\ ck (calls 3) = k0 /\ ck (calls 1) = kx /\ kx <> k0.
Proof. exact fallback_empty_key_refuted. Qed.
Print Assumptions C16_single_cache_empty_key_refuted.

Example C16_set_share_example :
  let calls := table_calls [(1, mkCall kx None); (2, mkCall kx None)] in
  exists st, crun calls cinit
    [CLoad 1; COnce 1 (OAcquire 1); CLoad 2; COnce 1 (ODone 1 1); COnce 2 (OReadClosed 2 1); CDelete 1] = Some st /\
    nget (results st) 1 = Some 1 /\ nget (results st) 2 = Some 1.
Proof. exact set_share_example. Qed.

(* a recorded concurrent execution that the extracted acceptor accepts (with the
   observed in-flight entries) is a run of the system; with real fetches only,
   every delivered token was fetched for the same (registry, scheme, scope key) *)
Theorem C16_set_accepted_trace :
  forall tbl tr, set_accepts tbl tr = true ->
    (forall g, csrc (table_calls tbl g) = None) ->
    exists st, crun (table_calls tbl) cinit (map fst tr) = Some st /\
      forall g v, nget (results st) g = Some v -> ck (table_calls tbl v) = ck (table_calls tbl g).
Proof. exact accepted_trace_same_key. Qed.
Print Assumptions C16_set_accepted_trace.

(* ================= failed sends: transport errors, cancellation ================= *)

(* for every server behaviour in which sends may get no response (AErr): nothing is
   sent after such a send (so no secret leaves after a cancellation), and a token
   fetch that failed or was cancelled leaves the cache exactly as it was *)
Theorem C16_failed_sends :
  forall parse clean cf c rq script,
    let '(evs, c', r) := do_request clean parse cf c rq script in
    stops_after_failure evs /\
    ((exists s, last evs no_event = (s, AErr) /\ is_reg (s, AErr) = false) -> c' = c) /\
    ((exists s, last evs no_event = (s, AFail) /\ is_reg (s, AFail) = false) -> c' = c).
Proof. exact do_request_failures. Qed.
Print Assumptions C16_failed_sends.

Example C16_failed_send_example :
  let creds := [(0, mkCred true true false false)] in
  let ch0 := b "Bearer realm=""https://auth.example/token"",service=""svc0"",scope=""repository:a:pull""" in
  map (fun o => (map fst (fst o), snd o))
    (run_model FShared false creds [] []
       [ (mkReq 0 [] [] BNone, [A401 ch0; AErr; AOk]);          (* the token request is cancelled *)
         (mkReq 0 [] [] BNone, [A401 ch0; ATok 9; AOk]) ])      (* nothing was cached: full flow again *)
  = [ ([SReg 0 NoAuth false;
        SDist 0 (b "https://auth.example/token") (b "svc0") [b "repository:a:pull"] (Some (SUserPass 0))],
       RErr ETransport);
      ([SReg 0 NoAuth false;
        SDist 0 (b "https://auth.example/token") (b "svc0") [b "repository:a:pull"] (Some (SUserPass 0));
        SReg 0 (ABearer (SIssued 0 9)) true], RResp false) ].
Proof. vm_compute. reflexivity. Qed.

(* ================= Once: the run slot is never lost ================= *)

(* The per-caller program is the list of control paths the translator extracts from
   once.go (Generated.GC16: once_paths_taken, once_paths_closed); by computation every path that holds
   the slot hands it back or publishes before it leaves Do. *)
Theorem C16_once_paths_release :
  forallb releases paths_taken = true /\ forallb untouched paths_closed = true /\
  forallb releases paths_panic = true /\ negb (Nat.eqb (length paths_panic) 0) = true /\
  negb (Nat.eqb (length paths_taken) 0) = true /\ negb (Nat.eqb (length paths_closed) 0) = true.
Proof. exact generated_paths_ok. Qed.
Print Assumptions C16_once_paths_release.

(* For every interleaving of any number of Do calls (callers whose context is
   already cancelled, or is cancelled while they wait, and callers whose function
   argument PANICS -- the deferred recover path generated from once.go -- included): a taken slot is
   owned by a caller that is inside Do on a path that releases it; at every
   quiescent point the slot is free or a result is published; and the owner's own
   steps alone release it (nobody can be made to wait forever by a caller that
   has left). *)
Theorem C16_once_slot_never_lost :
  (forall tr st g, once_run sinit tr = Some st -> s_slot st = STaken g ->
     exists rest, pc_get (s_pcs st) g = PIn rest /\ releases rest = true) /\
  (forall tr st, once_run sinit tr = Some st ->
     (forall g rest, pc_get (s_pcs st) g <> PIn rest) ->
     s_slot st = SFree \/ s_slot st = SClosed) /\
  (forall tr st g, once_run sinit tr = Some st -> s_slot st = STaken g ->
     exists n st', once_run st (repeat (SAct g) n) = Some st' /\
       (s_slot st' = SFree \/ s_slot st' = SClosed)).
Proof.
  exact (conj (slot_owned paths_taken paths_closed paths_panic generated_taken_release generated_panic_release)
        (conj (quiescent_slot_free paths_taken paths_closed paths_panic generated_taken_release generated_panic_release)
              (never_wedged paths_taken paths_closed paths_panic generated_taken_release generated_panic_release))).
Qed.
Print Assumptions C16_once_slot_never_lost.

(* the statement is about the program, not the machine: with one more return path
   that keeps the slot (a context check after the receive) the slot is lost *)
Theorem C16_once_leaky_program_refuted :
  let taken := [ARet] :: paths_taken in
  exists tr st, srun taken paths_closed paths_panic sinit tr = Some st /\
    (forall g rest, pc_get (s_pcs st) g <> PIn rest) /\ s_slot st = STaken 1.
Proof. exact leaky_program_wedges. Qed.
Print Assumptions C16_once_leaky_program_refuted.

Example C16_once_slot_example :
  once_slot_final [SEnter 1; SEnter 2; SCtxDone 2; STake 1 0; SAct 1; SEnter 3; SAct 1; SAct 1;
                   STake 3 1; SAct 3; SAct 3; SAct 3; SAct 3; SEnter 4; SReadClosed 4 0; SAct 4] = Some SClosed
  /\ once_slot_final [SEnter 1; STake 1 0; SEnter 2; STake 2 0] = None.
Proof. vm_compute. auto. Qed.

(* ================= Client.Do under concurrency ================= *)

(* one call, whatever the cache tells it (its three reads are oracles that answer
   like SOME host-tainted cache): it sends only what it may, and what it writes
   into the cache is a token of its own host *)
Theorem C16_call_guarantee :
  forall parse clean cf rq osch otok1 otok2 script,
    (forall t, otok1 = Some t -> match osch with Some s => tok_fits (rq_host rq) s t | None => True end) ->
    (forall k t, otok2 k = Some t -> tok_fits (rq_host rq) SchBearer t) ->
    let '(evs, op, r) := do_request_rd clean parse cf rq osch otok1 otok2 script in
    trace_ok_from parse (rq_host rq) [] evs /\ op_fits (rq_host rq) op.
Proof. exact do_request_rd_ok. Qed.
Print Assumptions C16_call_guarantee.

(* the sequential model is the special case: all reads see one cache and the write
   is applied at once *)
Theorem C16_sequential_is_special_case :
  forall parse clean cf c rq script,
    do_request clean parse cf c rq script =
    let osch := rd_scheme (cf_flavour cf) c rq in
    let '(evs, op, r) :=
      do_request_rd clean parse cf rq osch (rd_tok1 clean (cf_flavour cf) c rq osch)
                    (rd_tok2 (cf_flavour cf) c rq) script in
    (evs, apply_op (cf_flavour cf) c (rq_host rq) op, r).
Proof. exact (fun parse clean cf c rq script => do_request_rd_eq parse clean cf rq c script). Qed.
Print Assumptions C16_sequential_is_special_case.

(* any number of concurrent calls over one shared cache, every interleaving of
   their cache reads (each sees the cache of its own moment) and of their
   completions: every call's sends are [trace_ok] for the host it addressed, and
   the cache stays host-tainted *)
Theorem C16_concurrent_no_cross_host :
  forall parse clean cf tr y,
    yrun clean parse cf yinit tr = Some y ->
    (forall j h evs r, In (j, (h, evs, r)) (y_out y) -> trace_ok parse h evs) /\
    (forall h s k t, cc_get_token (y_cache y) h s k = Some t -> taint t = h).
Proof. exact concurrent_no_cross_host. Qed.
Print Assumptions C16_concurrent_no_cross_host.

Example C16_concurrent_example :
  let cf := mkConfig FShared false (lookup_cred [(0, mkCred true true false false); (1, mkCred true true false false)]) (err_hosts []) in
  let ch := b "Bearer realm=""https://auth.example/token"",service=""s"",scope=""repository:a:pull""" in
  match yrun clean_scopes parse_total cf yinit
          [YStart 1 (mkReq 0 [] [] BNone) [A401 ch; ATok 5; AOk];
           YStart 2 (mkReq 0 [] [] BNone) [A401 ch; AOk];   (* finds call 1's token at its second look *)
           YStart 3 (mkReq 1 [] [] BNone) [AOk];
           YLook 1 1; YLook 2 1; YLook 2 2; YFinish 1; YLook 2 3; YFinish 2; YFinish 3] with
  | Some y => map (fun o => (fst o, snd (snd o))) (y_out y) = [(3, RResp false); (2, RResp false); (1, RResp false)]
              /\ cc_get_token (y_cache y) 0 SchBearer (b "repository:a:pull") = Some (SIssued 0 5)
  | None => False
  end.
Proof. vm_compute. auto. Qed.

(* ================= every call of every history ================= *)
Theorem C16_history_budget_and_reuse :
  forall parse clean cf hist c,
    Forall2 (fun rs out => exists c0,
               (reg_sends (fst out) <= 3)%nat /\ (fetches (fst out) <= 1)%nat /\
               outcome_ok parse cf (fst rs) (fst out) (snd out) /\
               stops_after_failure (fst out) /\
               Forall (cached_send_ok clean (cf_flavour cf) c0 (fst rs)) (fst out))
            hist (fst (run_history clean parse cf c hist)).
Proof. exact history_budget_and_reuse. Qed.
Print Assumptions C16_history_budget_and_reuse.

(* ================= known findings: net/http's redirect policy ================= *)

(* redirect-other-port-keeps-authorization, as a statement about the policy model
   (Model/Redirect.v, compared with net/http on every followed redirect): hosts that
   the auth client keeps apart are one host for the policy *)
Theorem C16_redirect_other_port_refuted :
  let a := b "reg0.test" in let c := b "reg0.test:443" in
  a <> c /\ keeps_authorization a c = true /\ keeps_authorization c a = true /\
  keeps_authorization a (b "reg1.test:5000") = false /\ keeps_authorization a (b "blobs.reg0.test") = true.
Proof. exact other_port_keeps_authorization. Qed.
Print Assumptions C16_redirect_other_port_refuted.

(* redirect-token-request-resent: 307/308 keep the body of the token POST *)
Theorem C16_redirect_token_post_refuted :
  keeps_body 307 = true /\ keeps_body 308 = true /\ keeps_body 302 = false /\ keeps_body 303 = false.
Proof. exact token_post_resent. Qed.
Print Assumptions C16_redirect_token_post_refuted.

(* budget, outcome classification and "nothing after a failed send" for a call in ANY
   concurrent execution: they do not depend on what the cache answers *)
Theorem C16_concurrent_budget :
  forall parse clean cf rq osch otok1 otok2 script,
    let '(evs, op, r) := do_request_rd clean parse cf rq osch otok1 otok2 script in
    (reg_sends evs <= 3)%nat /\ (fetches evs <= 1)%nat /\ outcome_ok parse cf rq evs r /\ stops_after_failure evs.
Proof. exact do_request_rd_budget. Qed.
Print Assumptions C16_concurrent_budget.

(* ================= order of effects in the source ================= *)

(* the order of the observable effects (in-flight map, Once, cache operations, sends) inside
   concurrentCache.Set / store, the single-context cache's Set and Client.Do, re-read from
   the Go source on every run, is the order the models assume *)
Theorem C16_source_call_order :
  (all_after (b "fetchOnce.Do") (b "cc.status.LoadOrStore") calls_cc_set = true /\
   all_after (b "fetch") (b "fetchOnce.Do") calls_cc_set = true /\
   all_after (b "cc.status.Delete") (b "fetchOnce.Do") calls_cc_set = true) /\
  (all_after (b "entry.tokens.Store") (b "cc.cache.LoadOrStore") calls_cc_store = true /\
   none_after (b "entry.tokens.Store") (b "cc.cache.Store") calls_cc_store = true) /\
  (all_after (b "fc.secondary.Set") (b "fc.primary.Set") calls_fallback_set = true /\
   none_after (b "fc.secondary.Set") (b "fc.primary.Set") calls_fallback_set = true /\
   all_after (b "cc.store") (b "fetch") calls_host_set = true) /\
  (all_after (b "cache.GetToken") (b "cache.GetScheme") calls_do = true /\
   all_after (b "cache.Set") (b "cache.GetToken") calls_do = true /\
   eventually (b "cache.Set") (b "rewindRequestBody") calls_do = true /\
   next_is (b "rewindRequestBody") (b "c.send") calls_do = true).
Proof. exact (conj cc_set_order (conj cc_store_order (conj fallback_set_order do_order))). Qed.
Print Assumptions C16_source_call_order.

(* valid credentials => the registry's non-401 answer, for a call in any concurrent execution *)
Theorem C16_concurrent_valid_credentials_succeed :
  forall parse clean cf rq osch otok1 otok2 script,
    let '(evs, op, r) := do_request_rd clean parse cf rq osch otok1 otok2 script in
    r <> RBad ->
    rewind_ok (rq_body rq) = true ->
    r <> RErr ENoCred -> r <> RErr EMissing -> r <> RErr ECred -> r <> RErr EShared ->
    (forall s, ~ In (s, AFail) evs) ->
    (forall s, ~ In (s, AErr) evs) ->
    (forall h a hdr, ~ In (SReg h a true, A401 hdr) evs) ->
    (forall s hdr ps, In (s, A401 hdr) evs -> parse hdr <> (SchUnknown, ps)) ->
    r = RResp false /\ exists h a fresh, last evs no_event = (SReg h a fresh, AOk).
Proof.
  intros parse clean cf rq osch otok1 otok2 script.
  pose proof (do_request_rd_budget parse clean cf rq osch otok1 otok2 script) as B.
  destruct (do_request_rd clean parse cf rq osch otok1 otok2 script) as [[evs op] r].
  exact (valid_outcome parse cf rq evs r (proj1 (proj2 (proj2 B)))).
Qed.
Print Assumptions C16_concurrent_valid_credentials_succeed.

(* the state between the two map operations of concurrentCache.store is a host-tainted
   cache as well (discharges the atomic-write assumption of the concurrent system) *)
Theorem C16_store_intermediate_state :
  forall c h s, cache_ok c ->
    cache_ok (match cc_entry c h with
              | Some (s', t) => if scheme_eqb s s' then c else cc_put c h (s, [])
              | None => cc_put c h (s, [])
              end).
Proof. exact store_intermediate_ok. Qed.
Print Assumptions C16_store_intermediate_state.

(* the deferred recover of Once.Do matters: a program that does not hand the slot back
   when the function argument panics loses the slot *)
Theorem C16_once_panic_without_handback_refuted :
  exists tr st, srun paths_taken paths_closed [[ARet]] sinit tr = Some st /\
    (forall g rest, pc_get (s_pcs st) g <> PIn rest) /\ s_slot st = STaken 1.
Proof. exact panic_without_handback_wedges. Qed.
Print Assumptions C16_once_panic_without_handback_refuted.

Example C16_once_panic_example :
  once_slot_final [SEnter 1; STake 1 1; SEnter 2; SPanicF 1 0; SAct 1; SAct 1;
                   STake 2 1; SAct 2; SAct 2; SAct 2; SAct 2] = Some SClosed.
Proof. vm_compute. reflexivity. Qed.
