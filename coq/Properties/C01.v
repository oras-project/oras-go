(* C01 -- Copy replicates the whole rooted DAG and tags the root. The theorems are closed by
   [exact] of a lemma or by a line or two from a more general one, the examples by evaluation;
   the lemmas live in Proofs/CopySpec.v. The transition system is Model/CopySpec.v (trace
   acceptor of copy.go's visible events); [accepts g c d0 tr = Some st] says: tr is a run of
   Copy/CopyGraph on the content universe g, configuration c (concurrency, mode, root, initial
   proxy cache), started with the destination holding the nodes d0. Quantifying over tr
   quantifies over every interleaving of the visible events of every schedule. *)
From Oras Require Import Base.Prelude Generated.GC01 Model.CopySpec Model.CopyTop Model.CopyOpt
  Model.CopyCancel Model.CopyLinks Proofs.CopySpec Proofs.CopyAcct Proofs.CopyOpt Proofs.CopyCancel
  Proofs.CopyLinks Proofs.CopyCode Model.CopyBytes Proofs.CopyBytes Model.CopyExt Proofs.CopyExt.
Local Open Scope nat_scope.

(* Success => every node reachable from the root (foreign layers cut) is in the
   destination -- for every graph, root, link-closed initial destination, concurrency,
   mode and accepted trace.  [mt_consistent] is needed for digest-keyed destinations
   only (it holds trivially when g_dkey is injective, e.g. the memory store). *)
Theorem C01_closure :
  forall (g : graph) (c : cfg) (d0 : list node) (tr : list event) (st : state),
    closed_nodes g d0 -> mt_consistent g ->
    accepts g c d0 tr = Some st -> returned st = Some true ->
    forall n, reach g (c_root c) n -> has g (dst st) n = true.
Proof. exact closure_lemma. Qed.
Print Assumptions C01_closure.

(* ... and the final destination is exactly the deterministic copy_result (content
   addressing makes the graph well-founded: rank). *)
Theorem C01_copy_result :
  forall (g : graph) (c : cfg) (d0 : list node) (rank : node -> nat),
    (forall n x, In x (succ' g n) -> rank x < rank n) ->
    forall (tr : list event) (st : state) (fuel : nat),
    c_xroots c = [] ->   (* Copy / CopyGraph: one root *)
    closed_nodes g d0 -> mt_consistent g -> rank (c_root c) < fuel ->
    accepts g c d0 tr = Some st -> returned st = Some true ->
    forall n, has g (dst st) n = has g (copy_result g d0 fuel (c_root c)) n.
Proof. exact copy_result_lemma. Qed.
Print Assumptions C01_copy_result.

(* Copy: after a successful return the destination reference is the root, for Tagger
   and ReferencePusher destinations, root copied, already present or mounted.  [tag_ok]
   holds for the current code: c_tagmounted = true since the fix of finding
   mounted-root-untagged (before it, only when the root cannot be mounted). *)
Theorem C01_tagged :
  forall (g : graph) (c : cfg) (d0 : list node) (tr : list event) (st : state),
    accepts g c d0 tr = Some st -> returned st = Some true -> c_mode c <> MGraph ->
    tag_ok g c = true ->
    tag st = Some (c_root c).
Proof. exact tagged_lemma. Qed.
Print Assumptions C01_tagged.

(* the same at the level of Copy's arguments (the configuration copy_cfg is that of the
   current code, c_tagmounted = true): the effective reference (the source reference
   when the destination reference is blank) resolves to the (mapped) root that Copy
   returns, for every destination kind including Mounter destinations; the concurrency
   default is the constant regenerated from copy.go *)
Theorem C01_tagged_top :
  forall (g : graph) (opt : Z) (refpusher mount : bool) (root : node)
         (cached0 d0 : list node) (tags0 : str -> option node) (srcRef dstRef : str) tr st,
    accepts g (copy_cfg defaultConcurrency opt refpusher mount root cached0) d0 tr = Some st ->
    returned st = Some true ->
    tags_after tags0 (eff_ref srcRef dstRef) st (eff_ref srcRef dstRef) = Some root.
Proof. exact (fun g => copy_tagged_lemma g defaultConcurrency). Qed.
Print Assumptions C01_tagged_top.

Theorem C01_blank_reference : forall srcRef, eff_ref srcRef [] = srcRef.
Proof. exact eff_ref_blank. Qed.
Print Assumptions C01_blank_reference.

(* F12: without mt_consistent the closure statement is false for the model of the
   current code (digest-keyed destination pre-populated with a manifest's bytes under
   another media type). *)
Theorem C01_closure_refuted_without_mt_consistency :
  exists g c d0 tr st,
    closed_nodes g d0 /\ accepts g c d0 tr = Some st /\ returned st = Some true /\
    exists n, reach g (c_root c) n /\ has g (dst st) n = false.
Proof. exact closure_refuted_without_mt_consistency. Qed.
Print Assumptions C01_closure_refuted_without_mt_consistency.

(* the code before the fix (c_tagmounted = false): a blob root that gets mounted
   triggers OnMounted, which prepareCopy did not wrap, so Copy returned success without
   tagging -- the finding mounted-root-untagged, repaired by a `fix:` commit *)
Theorem C01_tagged_refuted_for_mounted_blob_root_prefix :
  exists g c d0 tr st,
    c_tagmounted c = false /\
    closed_nodes g d0 /\ accepts g c d0 tr = Some st /\ returned st = Some true /\
    c_mode c <> MGraph /\ tag st <> Some (c_root c).
Proof.
  exists g_blob, c_mountroot, [], tr_mountroot. eexists.
  split; [reflexivity|].
  split; [intros m x []|]. split; [vm_compute; reflexivity|].
  split; [reflexivity|]. split; simpl; discriminate.
Qed.
Print Assumptions C01_tagged_refuted_for_mounted_blob_root_prefix.

(* F12 does not need a pre-populated destination: EMPTY digest-keyed destination, source
   graph in which a manifest's bytes also occur as a (reachable) blob; the blob is pushed
   first, Exists(manifest) then answers true.  So [mt_consistent] is a restriction of the
   property's quantifier over SOURCE graphs ("same bytes under two media types" is covered
   only when both descriptors have the same successors, e.g. both are blobs) for digest-keyed
   destinations -- known finding twin-digest-exists. *)
Theorem C01_closure_refuted_in_call :
  exists g c tr st,
    closed_nodes g [] /\ accepts g c [] tr = Some st /\ returned st = Some true /\
    tag st = Some (c_root c) /\
    exists n, reach g (c_root c) n /\ has g (dst st) n = false.
Proof. exact closure_refuted_in_call. Qed.
Print Assumptions C01_closure_refuted_in_call.

(* hypotheses are satisfiable: a concrete 4-node run (shared blob, duplicate successor,
   one node already present, Tagger destination) *)
Example C01_example :
  closed_nodes g_ex [1] /\ mt_consistent g_ex /\
  (forall n x, In x (succ' g_ex n) -> x < n) /\
  exists st, accepts g_ex c_ex [1] tr_ex = Some st /\ returned st = Some true /\
             tag st = Some 3 /\ present_nodes g_ex (dst st) = [0; 1; 2; 3].
Proof.
  split; [|split; [|split]].
  - intros m x [<-|[]] Hx. simpl in Hx. contradiction.
  - apply mt_consistent_inj. auto.
  - intros n x. destruct n as [|[|[|[|n]]]]; simpl; intuition lia.
  - eexists. split; [vm_compute; reflexivity|]. repeat split; reflexivity.
Qed.

(* ---- optional callbacks (Model/CopyOpt.v) ----
   [cs : cbset] says which of PreCopy / PostCopy / OnCopySkipped / OnMounted are set
   (cs = fun _ => false: the default options).  [accepts_opt cs g c d0 tr = Some (st, full)]:
   the recorded trace tr, which contains no event of a nil callback, is a run of
   Copy/CopyGraph; full is its elaboration (the nil callbacks' invocation points made
   explicit), accepted by the transition system.  The three C01 statements hold for every
   choice of cs. *)
Theorem C01_closure_any_callbacks :
  forall (cs : cbset) (g : graph) (c : cfg) (d0 : list node) (tr : list event) (st : state)
         (full : list event),
    closed_nodes g d0 -> mt_consistent g ->
    accepts_opt cs g c d0 tr = Some (st, full) -> returned st = Some true ->
    forall n, reach g (c_root c) n -> has g (dst st) n = true.
Proof.
  exact (fun cs g c d0 tr st full Hc Hm Ha => closure_lemma g c d0 full st Hc Hm (run_opt_sound cs g c tr _ _ _ Ha)).
Qed.
Print Assumptions C01_closure_any_callbacks.

Theorem C01_copy_result_any_callbacks :
  forall (cs : cbset) (g : graph) (c : cfg) (d0 : list node) (rank : node -> nat),
    (forall n x, In x (succ' g n) -> rank x < rank n) ->
    forall (tr : list event) (st : state) (full : list event) (fuel : nat),
    c_xroots c = [] ->
    closed_nodes g d0 -> mt_consistent g -> rank (c_root c) < fuel ->
    accepts_opt cs g c d0 tr = Some (st, full) -> returned st = Some true ->
    forall n, has g (dst st) n = has g (copy_result g d0 fuel (c_root c)) n.
Proof.
  exact (fun cs g c d0 rank Hr tr st full fuel Hx Hc Hm Hf Ha =>
           copy_result_lemma g c d0 rank Hr full st fuel Hx Hc Hm Hf (run_opt_sound cs g c tr _ _ _ Ha)).
Qed.
Print Assumptions C01_copy_result_any_callbacks.

(* the tag: root copied, already present or mounted, Tagger or ReferencePusher, and the
   user's PostCopy / OnCopySkipped / OnMounted hook nil or set *)
Theorem C01_tagged_any_callbacks :
  forall (cs : cbset) (g : graph) (c : cfg) (d0 : list node) (tr : list event) (st : state)
         (full : list event),
    accepts_opt cs g c d0 tr = Some (st, full) -> returned st = Some true ->
    c_mode c <> MGraph -> tag_ok g c = true -> tag st = Some (c_root c).
Proof. exact (fun cs g c d0 tr st full Ha => tagged_lemma g c d0 full st (run_opt_sound cs g c tr _ _ _ Ha)). Qed.
Print Assumptions C01_tagged_any_callbacks.

(* the recorded trace is the elaborated one minus the nil callbacks' events *)
Theorem C01_elaboration :
  forall (cs : cbset) (g : graph) (c : cfg) (d0 : list node) (tr : list event) (st : state)
         (full : list event),
    accepts_opt cs g c d0 tr = Some (st, full) ->
    accepts g c d0 full = Some st /\ erase cs full = tr.
Proof. exact elaboration_lemma. Qed.
Print Assumptions C01_elaboration.

(* satisfiable with the default options: the root is already present in a Tagger destination,
   no hook is set, and the only events are Exists and Tag *)
Example C01_example_default_options :
  exists st full,
    accepts_opt (fun _ => false) g_ex c_ex [0; 1; 2; 3] [ExB 3; ExE 3 true; TagB 3; TagE 3; Ret true]
      = Some (st, full) /\
    returned st = Some true /\ tag st = Some 3 /\ In (Cb CSkip 3) full.
Proof. exact example_default_options. Qed.

(* WithTargetPlatform on a manifest list (platform.SelectManifest / Match, modelled in
   Model/CopyTop.v and compared with the implementation on every generated platform case):
   the mapped root is exactly the first entry whose platform matches; no entry matches =>
   Copy fails before copying (prologue) *)
Theorem C01_platform_selection :
  forall (entries : list (node * option plat)) (want : plat) (n : node),
    select_manifest entries want = Some n <->
    exists l1 p l2, entries = l1 ++ (n, p) :: l2 /\ plat_match p want = true /\
                    forall m q, In (m, q) l1 -> plat_match q want = false.
Proof. exact select_manifest_spec. Qed.
Print Assumptions C01_platform_selection.

Theorem C01_platform_no_match :
  forall (entries : list (node * option plat)) (want : plat),
    select_manifest entries want = None <->
    forall m q, In (m, q) entries -> plat_match q want = false.
Proof. exact select_manifest_none. Qed.
Print Assumptions C01_platform_no_match.

(* satisfiable also for: ReferencePusher with the root already present (re-push with the reference),
   a Mounter destination that mounts the (blob) root and tags it, and two roots (ExtendedCopyGraph) *)
Example C01_examples_refpusher_mount_tworoots :
  (exists st, accepts g_ex (mkCfg 2 MRefPush 3 false true [] []) [0; 1; 2; 3]
                [ExB 3; ExE 3 true; SFB 3; SFE 3; PuB 3 true; PuE 3 true PExists; SFC 3; Ret true] = Some st /\
              returned st = Some true /\ tag st = Some 3) /\
  (exists st, accepts g_blob (mkCfg 3 MTagger 0 true true [] []) []
                [ExB 0; ExE 0 false; Cb CMountFrom 0; MtB 0; MtE 0 MMounted; Cb CMounted 0;
                 TagB 0; TagE 0; Ret true] = Some st /\
              returned st = Some true /\ tag st = Some 0 /\ present_nodes g_blob (dst st) = [0]) /\
  (exists st, accepts g_ex (mkCfg 2 MGraph 3 false true [] [2]) [0; 1; 2; 3]
                [ExB 3; ExE 3 true; Cb CSkip 3; ExB 2; ExE 2 true; Cb CSkip 2; Ret true] = Some st /\
              returned st = Some true).
Proof. repeat split; eexists; (split; [vm_compute; reflexivity|]); repeat split; reflexivity. Qed.

(* ---- the caller's context ends during (or before) the call (Model/CopyCancel.v) ----
   [caccepts_opt cs g c d0 tr = Some (s, full)]: tr is a recorded run with [Cancel] marks where
   the harness ended the context; after a Cancel an error return is accepted in any state
   (abandoned tasks), a SUCCESSFUL return still needs the root Done and nothing in progress --
   the content of syncutil.Go's final "return context.Cause(ctx)".  So success means closure
   and tag whatever cancellation did, and success without any event on the root is impossible
   (the run "context ended before the root task started, yet nil" is not a run). *)
Theorem C01_closure_under_cancellation :
  forall (cs : cbset) (g : graph) (c : cfg) (d0 : list node) (tr : list cevent) (s : cstate)
         (full : list event),
    closed_nodes g d0 -> mt_consistent g ->
    caccepts_opt cs g c d0 tr = Some (s, full) -> returned (cs_st s) = Some true ->
    forall n, reach g (c_root c) n -> has g (dst (cs_st s)) n = true.
Proof. exact closure_under_cancellation. Qed.
Print Assumptions C01_closure_under_cancellation.

Theorem C01_tagged_under_cancellation :
  forall (cs : cbset) (g : graph) (c : cfg) (d0 : list node) (tr : list cevent) (s : cstate)
         (full : list event),
    caccepts_opt cs g c d0 tr = Some (s, full) -> returned (cs_st s) = Some true ->
    c_mode c <> MGraph -> tag_ok g c = true -> tag (cs_st s) = Some (c_root c).
Proof. exact tagged_under_cancellation. Qed.
Print Assumptions C01_tagged_under_cancellation.

Theorem C01_no_success_without_work :
  forall (cs : cbset) (g : graph) (c : cfg) (d0 : list node) (tr : list cevent) (s : cstate)
         (full : list event),
    caccepts_opt cs g c d0 tr = Some (s, full) -> returned (cs_st s) = Some true ->
    exists e, In (Ev e) tr /\ ev_node e = Some (c_root c).
Proof. exact no_success_without_work. Qed.
Print Assumptions C01_no_success_without_work.

(* satisfiable: an already-ended context gives an error return with no event at all; a context
   that ends after the work is done does not prevent success *)
Example C01_examples_cancellation :
  (exists s, caccepts_opt all_set g_ex c_ex [1] [Cancel; Ev (Ret false)] = Some (s, []) /\
             returned (cs_st s) = Some false) /\
  (exists s full, caccepts_opt (fun _ => false) g_ex c_ex [0; 1; 2; 3]
                    [Ev (ExB 3); Ev (ExE 3 true); Ev (TagB 3); Cancel; Ev (TagE 3); Ev (Ret true)] = Some (s, full) /\
                  returned (cs_st s) = Some true /\ tag (cs_st s) = Some 3).
Proof. exact examples_cancellation. Qed.

(* ---- the links (Model/CopyLinks.v) ----
   The successor function is not only a parameter: [successors] applies the link schema
   that tools/gosrc2v regenerates from the five cases of content.Successors (successors_schema)
   to a manifest's decoded fields; [linked] is the property's own link relation ("config,
   layer, blob, manifest-list and subject links", per media type as the OCI / Docker
   specifications define them).  The two coincide, for every media type and every field
   contents; an edit to content.Successors that drops, adds or conditions a link breaks the
   translation or this theorem. *)
Theorem C01_link_schema_is_spec :
  forall (f : mfields) (x : node), linked f x <-> In x (successors f).
Proof. exact schema_is_spec. Qed.
Print Assumptions C01_link_schema_is_spec.

(* descriptor.IsManifest (what copyGraph reads through the caching proxy) names exactly the media
   types that content.Successors decodes; none of them is a foreign layer type *)
Theorem C01_manifest_types_have_schema :
  forall mt, is_manifest_mt mt = true <-> lookup_schema successors_schema mt <> None.
Proof. exact schema_labels_are_manifests. Qed.
Print Assumptions C01_manifest_types_have_schema.

Theorem C01_manifest_not_foreign :
  forall mt, is_manifest_mt mt = true -> is_foreign_mt mt = false.
Proof. exact manifest_not_foreign. Qed.
Print Assumptions C01_manifest_not_foreign.

(* closure stated over the property's links, with the content universe built from the nodes'
   fields by the generated tables (successors, IsManifest, IsForeignLayer): success => every node
   reachable through config / layer / blob / manifest-list / subject links, foreign layers cut, is
   in the destination *)
Theorem C01_closure_over_links :
  forall (n : nat) (flds : node -> mfields) (dkey : node -> nat) (c : cfg) (d0 : list node)
         (tr : list event) (st : state),
    closed_nodes (graph_of n flds dkey) d0 -> mt_consistent (graph_of n flds dkey) ->
    accepts (graph_of n flds dkey) c d0 tr = Some st -> returned st = Some true ->
    forall x, lreach flds (c_root c) x -> has (graph_of n flds dkey) (dst st) x = true.
Proof.
  exact (fun n flds dkey c d0 tr st Hc Hm Ha Hr x Hx =>
           closure_lemma _ c d0 tr st Hc Hm Ha Hr x (lreach_reach n flds dkey _ _ Hx)).
Qed.
Print Assumptions C01_closure_over_links.

(* Copy end to end in the model: the root is what the prologue computes (resolve, MapRoot, platform
   selection = first matching entry); a successful run replicates that root's graph and the
   effective destination reference resolves to it *)
Theorem C01_copy_top :
  forall (g : graph) (opt : Z) (refpusher mount : bool) (cached0 d0 : list node)
         (tags0 : str -> option node) (srcRef dstRef : str)
         (resolved : option node) (user_map : option (node -> option node)) (platform : option plat)
         (entries_of : node -> option (list (node * option plat))) (root : node) tr st,
    copy_root resolved user_map platform entries_of = Some root ->
    closed_nodes g d0 -> mt_consistent g ->
    accepts g (copy_cfg defaultConcurrency opt refpusher mount root cached0) d0 tr = Some st ->
    returned st = Some true ->
    tags_after tags0 (eff_ref srcRef dstRef) st (eff_ref srcRef dstRef) = Some root /\
    (forall n, reach g root n -> has g (dst st) n = true).
Proof.
  exact (fun g opt refpusher mount cached0 d0 tags0 srcRef dstRef _ _ _ _ root tr st _ Hc Hm Ha Hr =>
           conj (copy_tagged_lemma g defaultConcurrency opt refpusher mount root cached0 d0 tags0 srcRef dstRef tr st Ha Hr)
                (closure_lemma g _ d0 tr st Hc Hm Ha Hr)).
Qed.
Print Assumptions C01_copy_top.

Theorem C01_copy_root_is_platform_selection :
  forall resolved platform_want entries_of r es root,
    resolved = Some r -> entries_of r = Some es ->
    copy_root resolved None (Some platform_want) entries_of = Some root ->
    select_manifest es platform_want = Some root.
Proof. exact copy_root_platform. Qed.
Print Assumptions C01_copy_root_is_platform_selection.

(* the order of effects the model assumes, as facts about the call sequences regenerated from
   copy.go / syncutil (layer T): in particular syncutil.Go ends with `return context.Cause(ctx)` *)
Theorem C01_code_order_syncutil_go :
  calls_syncutilGo =
  [b "cancel"; b "region.Start"; b "cancel"; b "eg.Go"; b "lr.End"; b "fn"; b "cancel"; b "eg.Wait";
   b "cancel"; b "context.Cause"] /\
  go_final_return = ["context.Cause(ctx)"%string].
Proof. exact order_syncutilGo. Qed.
Print Assumptions C01_code_order_syncutil_go.

Theorem C01_code_order_copy :
  calls_Copy = [b "resolveRoot"; b "opts.MapRoot"; b "prepareCopy"; b "copyGraph"] /\
  calls_copyNode = [b "opts.PreCopy"; b "doCopyNode"; b "opts.PostCopy"] /\
  calls_doCopyNode = [b "src.Fetch"; b "rc.Close"; b "dst.Push"].
Proof. exact (conj order_Copy (conj order_copyNode order_doCopyNode)). Qed.
Print Assumptions C01_code_order_copy.

(* Copy's prologue in the model (CopyTop.prologue_fetches / cache_after_resolve, compared with the
   wrappers' prologue observations on every Copy case): it reads only the resolved root, the mapped
   root and -- for a target platform on an image manifest -- that manifest's config blob *)
Theorem C01_prologue_reads :
  forall reffetch root0 mapped pt cache x,
    In x (prologue_fetches reffetch root0 mapped pt cache) ->
    x = root0 \/ x = mapped \/ (exists ok, pt = PTImage x ok).
Proof. exact prologue_fetches_nodes. Qed.
Print Assumptions C01_prologue_reads.

(* ExtendedCopyGraph's walk from several roots (c_root :: c_xroots share tracker, proxy, limiter):
   success => the graph of EVERY root is in the destination *)
Theorem C01_closure_all_roots :
  forall (g : graph) (c : cfg) (d0 : list node) (tr : list event) (st : state),
    closed_nodes g d0 -> mt_consistent g ->
    accepts g c d0 tr = Some st -> returned st = Some true ->
    forall r n, In r (c_root c :: c_xroots c) -> reach g r n -> has g (dst st) n = true.
Proof. exact closure_all_roots. Qed.
Print Assumptions C01_closure_all_roots.

(* removeForeignLayers, modelled as the code writes it (in-place compaction with a read and a write
   index; run against the real function on every generated successor list), is the filter that the
   transition system's [succ'] uses -- so "foreign layers excepted" is exactly IsForeignLayer's table *)
Theorem C01_remove_foreign_layers :
  forall (foreign : node -> bool) (descs : list node),
    remove_foreign_inplace foreign descs = filter (fun x => negb (foreign x)) descs.
Proof. exact remove_foreign_inplace_is_filter. Qed.
Print Assumptions C01_remove_foreign_layers.

Theorem C01_succ_is_remove_foreign :
  forall (g : graph) (n : node), succ' g n = remove_foreign_inplace (g_foreign g) (g_succ g n).
Proof. exact succ'_is_remove_foreign. Qed.
Print Assumptions C01_succ_is_remove_foreign.

(* "every goroutine interleaving": for mt_consistent graphs the content of the destination after a
   successful Copy / CopyGraph does not depend on the interleaving at all ... *)
Theorem C01_outcome_schedule_independent :
  forall (g : graph) (c : cfg) (d0 : list node) (rank : node -> nat) (tr1 tr2 : list event)
         (st1 st2 : state),
    (forall n x, In x (succ' g n) -> rank x < rank n) ->
    c_xroots c = [] -> closed_nodes g d0 -> mt_consistent g ->
    accepts g c d0 tr1 = Some st1 -> returned st1 = Some true ->
    accepts g c d0 tr2 = Some st2 -> returned st2 = Some true ->
    forall n, has g (dst st1) n = has g (dst st2) n.
Proof.
  intros g c d0 rank tr1 tr2 st1 st2 Hr Hx Hc Hm A1 R1 A2 R2 n.
  rewrite (copy_result_lemma g c d0 rank Hr tr1 st1 (S (rank (c_root c))) Hx Hc Hm (Nat.lt_succ_diag_r _) A1 R1 n).
  now rewrite (copy_result_lemma g c d0 rank Hr tr2 st2 (S (rank (c_root c))) Hx Hc Hm (Nat.lt_succ_diag_r _) A2 R2 n).
Qed.
Print Assumptions C01_outcome_schedule_independent.

(* ... whereas for the graph of the known finding twin-digest-exists two schedules of the same copy
   into the same EMPTY digest-keyed destination both succeed and end differently *)
Theorem C01_outcome_schedule_dependent_refuted_without_mt_consistency :
  exists g c (rank : node -> nat) tr1 tr2 st1 st2 n,
    (forall m x, In x (succ' g m) -> rank x < rank m) /\ c_xroots c = [] /\ closed_nodes g [] /\
    accepts g c [] tr1 = Some st1 /\ returned st1 = Some true /\
    accepts g c [] tr2 = Some st2 /\ returned st2 = Some true /\
    has g (dst st1) n <> has g (dst st2) n.
Proof.
  exists g_twin2, c_twin2, (fun n => n), tr_twin2, tr_twin2_ok. eexists. eexists. exists 1.
  split.
  { intros m x. destruct m as [|[|[|[|[|[|m]]]]]]; simpl; intuition lia. }
  split; [reflexivity|]. split; [intros m x []|].
  split; [vm_compute; reflexivity|]. split; [reflexivity|].
  split; [vm_compute; reflexivity|]. split; [reflexivity|].
  vm_compute. discriminate.
Qed.
Print Assumptions C01_outcome_schedule_dependent_refuted_without_mt_consistency.

Theorem C01_code_blank_reference_and_proxy :
  copy_blank_dstref_rule = ["dstRef == ''"%string; "dstRef = srcRef"%string] /\
  calls_proxyFetch = [b "p.FetchCached"; b "p.Cache.Fetch"; b "p.ReadOnlyStorage.Fetch"; b "p.Cache.Push"] /\
  calls_proxyFetchCached = [b "p.Cache.Exists"; b "p.Cache.Fetch"; b "p.ReadOnlyStorage.Fetch"].
Proof. exact (conj rule_blank_dstref order_proxy). Qed.
Print Assumptions C01_code_blank_reference_and_proxy.

(* WithTargetPlatform on an image-manifest root (compared with the implementation on every such case):
   the root is kept iff its config has the image-config media type and the platform decoded from the
   config blob matches; anything that is neither a manifest list nor an image manifest is refused *)
Theorem C01_platform_on_image :
  forall r ok p want x,
    select_target r (PVImage ok p) want = Some x <-> x = r /\ ok = true /\ plat_match p want = true.
Proof. exact select_target_image. Qed.
Print Assumptions C01_platform_on_image.

(* ---- "with bytes identical to the source" (Model/CopyBytes.v) ----
   Along the accepted trace every storing event (successful Push / PushReference, Mount that mounted
   or uploaded) receives ARBITRARY bytes ([served]: the copy is not trusted to hand over the right
   reader) and the destination keeps them only if they pass its verification against the node's
   descriptor (digest + size; what the stores' Push really checks is property C05).  Then, for a
   digest without collisions on the universe and a destination key that is a function of the content
   or of the node: after a successful Copy / CopyGraph every node reachable from the root is held by
   the destination with exactly the source's bytes.  Premises named in the statement:
   [collision_free] (SHA-2 is abstract), [key_respects_bytes], and that the pre-existing content was
   verified content too. *)
Theorem C01_bytes_identical :
  forall (digest : str -> nat) (src_bytes : node -> str)
         (g : graph) (c : cfg) (d0 : list node) (tr : list event) (st : state)
         (served : list str) (bs0 bs : bstore),
    closed_nodes g d0 -> mt_consistent g ->
    collision_free digest src_bytes -> key_respects_bytes src_bytes g ->
    (forall n b, In (n, b) bs0 -> verify digest src_bytes n b = true) -> map fst bs0 = d0 ->
    accepts g c d0 tr = Some st -> returned st = Some true ->
    brun digest src_bytes tr served bs0 = Some bs ->
    forall n, reach g (c_root c) n ->
      exists m b, In (m, b) bs /\ g_dkey g m = g_dkey g n /\ b = src_bytes n.
Proof.
  exact (fun digest src_bytes g c d0 tr st served bs0 bs Hc Hm Hcf Hk Hv Hd Ha Hr Hb n =>
           bytes_identical_all_roots digest src_bytes g c d0 tr st served bs0 bs Hc Hm Hcf Hk Hv Hd Ha Hr Hb
             (c_root c) n (in_eq _ _)).
Qed.
Print Assumptions C01_bytes_identical.

(* bytes that do not match the descriptor never become visible: the storing event cannot happen *)
Theorem C01_wrong_bytes_rejected :
  forall (digest : str -> nat) (src_bytes : node -> str) n ref r served b bs,
    verify digest src_bytes n b = false ->
    brun digest src_bytes (PuE n ref POk :: r) (b :: served) bs = None.
Proof. exact wrong_bytes_rejected. Qed.
Print Assumptions C01_wrong_bytes_rejected.

(* the destination's node set and its byte-level content move together *)
Theorem C01_dst_is_what_was_stored :
  forall (g : graph) (c : cfg) (tr : list event) (st st' : state),
    run g c st tr = Some st' -> dst st' = stored_nodes tr (dst st).
Proof. exact run_dst_stores. Qed.
Print Assumptions C01_dst_is_what_was_stored.

Example C01_example_bytes :
  let digest := fun s : str => match s with [x] => N.to_nat x | _ => 0 end in
  let src := fun n : node => [N.of_nat (S n)] in
  collision_free digest src /\
  exists bs, brun digest src [PuE 0 false POk; PuE 1 false POk] [[1%N]; [2%N]] [] = Some bs /\
             bs = [(1, [2%N]); (0, [1%N])].
Proof.
  split.
  - intros n b V. unfold verify in V. apply andb_true_iff in V as [V1 V2].
    apply Nat.eqb_eq in V1, V2. cbv beta in V1, V2.
    destruct b as [|x [|y r]]; cbn [length] in V2; try discriminate V2.
    apply N2Nat.inj in V1. now subst x.
  - eexists. split; [vm_compute; reflexivity|reflexivity].
Qed.

(* ---- ExtendedCopy end to end (Model/CopyExt.v): the walk from every root above the node, then dst.Tag(node, dstRef) ---- *)

(* success => the reference is on the node and everything reachable from every root is in the destination *)
Theorem C01_extended_copy :
  forall (g : graph) (c : cfg) (tgt : node) (d0 : list node) (tr : list event) (st : state),
    closed_nodes g d0 -> mt_consistent g ->
    xaccepts g c tgt d0 tr = Some st -> returned st = Some true ->
    tag st = Some tgt /\
    forall r n, In r (c_root c :: c_xroots c) -> reach g r n -> has g (dst st) n = true.
Proof. exact extended_copy_lemma. Qed.
Print Assumptions C01_extended_copy.

(* in particular the node's own graph, whenever some root reaches the node *)
Theorem C01_extended_copy_node_graph :
  forall (g : graph) (c : cfg) (tgt : node) (d0 : list node) (tr : list event) (st : state) (r : node),
    closed_nodes g d0 -> mt_consistent g ->
    xaccepts g c tgt d0 tr = Some st -> returned st = Some true ->
    In r (c_root c :: c_xroots c) -> reach g r tgt ->
    forall n, reach g tgt n -> has g (dst st) n = true.
Proof.
  intros g c tgt d0 tr st r Hc Hm Ha Hr Hin Hrt n Hn.
  exact (proj2 (extended_copy_lemma g c tgt d0 tr st Hc Hm Ha Hr) r n Hin (reach_trans g r tgt n Hrt Hn)).
Qed.
Print Assumptions C01_extended_copy_node_graph.

(* the reference is written once, last, after the walk of all roots returned success *)
Theorem C01_extended_copy_tag_last :
  forall (g : graph) (c : cfg) (tgt : node) (d0 : list node) (tr : list event) (st : state),
    xaccepts g c tgt d0 tr = Some st -> returned st = Some true ->
    exists walk st1, accepts g c d0 (walk ++ [Ret true]) = Some st1 /\ returned st1 = Some true /\
                     dst st = dst st1 /\ tr = walk ++ [TagB tgt; TagE tgt; Ret true].
Proof. exact extended_copy_tag_last. Qed.
Print Assumptions C01_extended_copy_tag_last.

(* a run that does not return success leaves the reference untouched *)
Theorem C01_extended_copy_failure_untagged :
  forall (g : graph) (c : cfg) (tgt : node) (d0 : list node) (tr : list event) (st : state),
    c_mode c = MGraph ->
    xaccepts g c tgt d0 tr = Some st -> returned st <> Some true -> tag st = None.
Proof. exact (fun g c tgt d0 tr st Hm => xrun_failure_untagged g c tgt tr (init c d0) st Hm eq_refl). Qed.
Print Assumptions C01_extended_copy_failure_untagged.

(* byte identity from every root (ExtendedCopyGraph) *)
Theorem C01_bytes_identical_all_roots :
  forall (digest : str -> nat) (src_bytes : node -> str)
         (g : graph) (c : cfg) (d0 : list node) (tr : list event) (st : state) served bs0 bs,
    closed_nodes g d0 -> mt_consistent g ->
    collision_free digest src_bytes -> key_respects_bytes src_bytes g ->
    (forall n b, In (n, b) bs0 -> verify digest src_bytes n b = true) -> map fst bs0 = d0 ->
    accepts g c d0 tr = Some st -> returned st = Some true ->
    brun digest src_bytes tr served bs0 = Some bs ->
    forall r n, In r (c_root c :: c_xroots c) -> reach g r n ->
      exists m b, In (m, b) bs /\ g_dkey g m = g_dkey g n /\ b = src_bytes n.
Proof. exact bytes_identical_all_roots. Qed.
Print Assumptions C01_bytes_identical_all_roots.

(* ExtendedCopy, complete statement: reference on the node + every node under every root present with the source's bytes *)
Theorem C01_extended_copy_bytes :
  forall (digest : str -> nat) (src_bytes : node -> str)
         (g : graph) (c : cfg) (tgt : node) (d0 : list node) (tr : list event) (st : state) served bs0 bs,
    closed_nodes g d0 -> mt_consistent g ->
    collision_free digest src_bytes -> key_respects_bytes src_bytes g ->
    (forall n b, In (n, b) bs0 -> verify digest src_bytes n b = true) -> map fst bs0 = d0 ->
    xaccepts g c tgt d0 tr = Some st -> returned st = Some true ->
    brun digest src_bytes tr served bs0 = Some bs ->
    tag st = Some tgt /\
    forall r n, In r (c_root c :: c_xroots c) -> reach g r n ->
      exists m b, In (m, b) bs /\ g_dkey g m = g_dkey g n /\ b = src_bytes n.
Proof. exact extended_copy_bytes. Qed.
Print Assumptions C01_extended_copy_bytes.

(* ExtendedCopy under every option set (nil callbacks) and with cancellation: the recorded trace is judged by
   xcaccepts_opt; it is sound for the plain acceptor, so success => reference on the node + all roots' graphs *)
Theorem C01_extended_copy_any_options :
  forall (cs : cbset) (g : graph) (c : cfg) (tgt : node) (d0 : list node) (tr : list cevent) (s : cstate) (full : list event),
    closed_nodes g d0 -> mt_consistent g -> c_mode c = MGraph ->
    xcaccepts_opt cs g c tgt d0 tr = Some (s, full) -> returned (cs_st s) = Some true ->
    tag (cs_st s) = Some tgt /\
    forall r n, In r (c_root c :: c_xroots c) -> reach g r n -> has g (dst (cs_st s)) n = true.
Proof.
  intros cs g c tgt d0 tr s full Hc Hmt Hm H Hr. destruct (xcaccepts_sound cs g c tgt d0 tr s full Hm H Hr) as [w [_ X]].
  exact (extended_copy_lemma g c tgt d0 _ (cs_st s) Hc Hmt X Hr).
Qed.
Print Assumptions C01_extended_copy_any_options.

Theorem C01_extended_copy_elaboration :
  forall (cs : cbset) (g : graph) (c : cfg) (tgt : node) (d0 : list node) (tr : list cevent) (s : cstate) (full : list event),
    c_mode c = MGraph ->
    xcaccepts_opt cs g c tgt d0 tr = Some (s, full) -> returned (cs_st s) = Some true ->
    exists w, full = w ++ [Ret true] /\
              xaccepts g c tgt d0 (w ++ [TagB tgt; TagE tgt; Ret true]) = Some (cs_st s).
Proof. exact xcaccepts_sound. Qed.
Print Assumptions C01_extended_copy_elaboration.

(* no success without the tag: a recorded ExtendedCopy trace that returns success ends TagB node, TagE node, Ret true *)
Theorem C01_extended_copy_success_is_tagged :
  forall (cs : cbset) (g : graph) (c : cfg) (tgt : node) (d0 : list node) (tr : list cevent) (s : cstate) (full : list event),
    xcaccepts_opt cs g c tgt d0 tr = Some (s, full) -> returned (cs_st s) = Some true ->
    exists w, tr = w ++ [Ev (TagB tgt); Ev (TagE tgt); Ev (Ret true)].
Proof. exact extended_copy_success_is_tagged. Qed.
Print Assumptions C01_extended_copy_success_is_tagged.
