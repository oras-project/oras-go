(* C13 -- A remote Repository is a faithful, spec-conforming view of the registry.
   Statements only: each is closed by [exact] of a lemma of Proofs/Remote*.v or Proofs/Location.v,
   the examples by evaluation.
   Models: Model/Registry.v (distribution-spec registry + request grammar),
   Model/RemoteClient.v (registry/remote client + readSeekCloser),
   Model/RemoteSpec.v (the specifications). *)
From Oras Require Import Base.Prelude Base.Regex Generated.GC20 Generated.GC13 Model.Reference
  Model.Registry Model.RemoteClient Model.RemoteSpec
  Model.Location Proofs.Reference Proofs.RemoteClient Proofs.RemoteSeek Proofs.RemoteRefine Proofs.Location Proofs.RemotePaged
  Model.RefOps Proofs.RefURL Proofs.RemoteURL.

(* ------------------------------------------------------------------ *)
(* Refinement: the client run against the registry model behaves as the content store
   with tags [spec_run] (Model/RemoteSpec.v): for EVERY history of Push / Fetch / Exists /
   Delete / Resolve / FetchReference / Tag / PushReference / Mount / Predecessors /
   blob Resolve / blob FetchReference, EVERY capability profile [p] (digest headers, range support,
   Content-Length on GET, mounting, Referrers API), every ManifestMediaTypes option,
   every initial referrers state and any hash function producing well-formed digests:
   the results are those of the store and the registry's final content is the store's.

   Predecessors returns the stored manifests whose subject is the given descriptor.

   [_partial]: hypotheses [wf_hist], [rst_ok] (Model/RemoteSpec.v) -- descriptors are
   accurate for what the store holds, manifests are decodable and a subject is pushed only
   to a registry with the Referrers API (client-side referrers tag schema: C14), the
   referrers state is "unsupported" only against a registry without the API, and the
   excluded mechanism of the known finding
   head-tag-no-digest-header: a tag is resolved by HEAD only against a registry that
   sends Docker-Content-Digest.  [C13_refines_store_refuted] is the witness that the
   statement is false without that last hypothesis. *)
Theorem C13_refines_store_partial :
  forall (H : str -> str) (parse_mt : str -> option str) (subject_of : str -> option (option desc))
         (main other : str) (user_mts : list str) (limit : N) (skip_gc : bool)
         (index_of : str -> option (list desc)) (p : profile),
    str_eqb main other = false ->
    parse_mt ct_octet = Some ct_octet ->
    (forall c, valid_digest (H c) = true) ->
    forall other_blobs rst os g out,
      (forall d c, lookup d other_blobs = Some c -> d = H c) ->
      rst_ok p rst ->
      wf_hist H parse_mt subject_of main user_mts limit p (mkStore [] [] [] other_blobs) os ->
      run_history H parse_mt subject_of main other user_mts limit skip_gc index_of p None other_blobs rst os = (g, out) ->
      map snd out = snd (spec_run H subject_of main user_mts (mkStore [] [] [] other_blobs) os) /\
      store_of g = fst (spec_run H subject_of main user_mts (mkStore [] [] [] other_blobs) os).
Proof. exact run_history_refines. Qed.
Print Assumptions C13_refines_store_partial.

(* without the digest-header hypothesis the full statement is false (finding
   head-tag-no-digest-header): PushReference under a tag succeeds, Resolve of the tag fails *)
Theorem C13_refines_store_refuted :
  map snd (snd (run_history w_H (fun s => Some s) (fun _ => Some None) (b "app") (b "src") [] w_limit false w_index_of
                            w_profile None [] RSUnknown w_ops))
  = [ROk; RErr EOther] /\
  snd (spec_run w_H (fun _ => Some None) (b "app") [] (mkStore [] [] [] []) w_ops) = [ROk; RDesc w_desc].
Proof. exact resolve_tag_without_digest_header_refuted. Qed.
Print Assumptions C13_refines_store_refuted.

(* The excluded hypothesis is exactly the failing mechanism, in EVERY registry state: a tag
   that exists, resolved by HEAD (Resolve; FetchReference when the GET has no
   Content-Length) against a registry that sends no Docker-Content-Digest, fails although
   the store resolves it.  The other conditions [wf_op] puts on the profile concern the Referrers
   API only (Predecessors, and Push of a manifest with a subject, ask for it): registries without
   it are the subject of the tag-schema theorems below. *)
Theorem C13_resolve_tag_needs_header :
  forall (H : str -> str) (parse_mt : str -> option str) (subject_of : str -> option (option desc))
         (main other : str) (user_mts : list str) (limit : N) (skip_gc : bool)
         (index_of : str -> option (list desc)) (p : profile) g n rst rs rf d mt c,
    resolve_ref main rs = Some rf -> valid_digest rf = false ->
    man_lookup (store_of g) rf = Some (d, (mt, c)) -> p_dighdr p = false ->
    snd (run_op H parse_mt subject_of main other user_mts limit skip_gc index_of (reg * N)
                (cexch H subject_of main other p None) (g, n) rst (OResolve rs)) = RErr EOther /\
    snd (spec_op H subject_of main user_mts (store_of g) (OResolve rs)) = RDesc (mkDesc mt d (len c)).
Proof. exact resolve_tag_needs_header. Qed.
Print Assumptions C13_resolve_tag_needs_header.

Theorem C13_fetchref_tag_needs_header :
  forall (H : str -> str) (parse_mt : str -> option str) (subject_of : str -> option (option desc))
         (main other : str) (user_mts : list str) (limit : N) (skip_gc : bool)
         (index_of : str -> option (list desc)) (p : profile) g n rst rs rf d mt c,
    resolve_ref main rs = Some rf -> valid_digest rf = false ->
    man_lookup (store_of g) rf = Some (d, (mt, c)) -> p_dighdr p = false -> p_clen p = false ->
    snd (run_op H parse_mt subject_of main other user_mts limit skip_gc index_of (reg * N)
                (cexch H subject_of main other p None) (g, n) rst (OFetchRef rs)) = RErr EOther /\
    snd (spec_op H subject_of main user_mts (store_of g) (OFetchRef rs)) = RDescBytes (mkDesc mt d (len c)) c.
Proof. exact fetchref_tag_needs_header. Qed.
Print Assumptions C13_fetchref_tag_needs_header.

(* every one of the 32 capability profiles, with the referrers state unknown, supported and
   (registries without the Referrers API) unsupported: a history with every operation --
   a tag resolved by HEAD wherever the hypothesis admits it, by digest otherwise; Predecessors
   and a manifest with a subject where the registry has the API -- gives the store's results
   (computation inside Coq) *)
Example C13_all_profiles_covered :
  length all_profiles = 32%nat /\
  forallb (fun p => covered p RSUnknown && covered p RSSupported
                    && (p_referrers p || covered p RSUnsupported)) all_profiles = true.
Proof. exact all_profiles_covered. Qed.

(* Predecessors over the Referrers API returns exactly the stored manifests whose
   subject is the given descriptor (any registry state, no hypothesis on the history) *)
Theorem C13_predecessors_reflect :
  forall (H : str -> str) (parse_mt : str -> option str) (subject_of : str -> option (option desc))
         (main other : str) (user_mts : list str) (limit : N) (index_of : str -> option (list desc)) (p : profile)
         g n rst d,
    p_referrers p = true -> rst <> RSUnsupported ->
    predecessors H parse_mt main user_mts limit index_of (reg * N) (cexch H subject_of main other p None) (g, n) rst d
    = ((g, n + 1), RSSupported,
       [(req GET main (EReferrers (d_dg d)),
         mkResp 200 (Some mt_index) None None None false None
                (referrers_of (subj_of subject_of) g (d_dg d)) [])],
       RDescs (referrers_of (subj_of subject_of) g (d_dg d))).
Proof. exact predecessors_reflect. Qed.
Print Assumptions C13_predecessors_reflect.

(* Registries WITHOUT the Referrers API (referrers tag schema): what updateReferrersIndex writes
   when a manifest with a subject is pushed is what Predecessors reads back.  In every registry
   state of the invariant, whether the referrers tag of the subject is absent or points to an
   index written before: adding referrer r succeeds, keeps the invariant, and Predecessors over
   the tag schema then lists exactly the old referrers, deduplicated, then r.  (Where the tag
   points afterwards, and that the old index is deleted unless SkipReferrersGC, is said by
   C13_tag_schema_changes; tags have one binding each, as the registry model keeps them:
   C13_registry_tags_unique.)  For every profile that answers a tag with a digest header or a
   Content-Length (the known finding otherwise). *)
Theorem C13_tag_schema_add_then_listed :
  forall (H : str -> str) (parse_mt : str -> option str) (subject_of : str -> option (option desc))
         (main other : str) (user_mts : list str) (limit : N) (skip_gc : bool)
         (index_of : str -> option (list desc)) (p : profile),
    (forall c, valid_digest (H c) = true) ->
    (forall l, subject_of (gen_index l) = Some None) ->
    parse_mt mt_index = Some mt_index ->
    forall g n rst subj old r,
      inv H parse_mt subject_of limit p g ->
      rst_ok p rst ->
      valid_digest (d_dg subj) = true ->
      let tag := ref_tag (d_dg subj) in
      resolve_ref main tag = Some tag -> valid_digest tag = false ->
      p_clen p = true \/ p_dighdr p = true ->
      index_state g tag old -> (match old with Some (_, l0) => index_of (gen_index l0) = Some l0 | None => True end) ->
      NoDup (map fst (g_tags g)) ->
      let l := match old with Some (_, l) => l | None => [] end in
      let upd := clean_refs [] l ++ [r] in
      existsb (RemoteClient.desc_eqb r) (clean_refs [] l) = false ->
      len (gen_index upd) <= limit -> index_of (gen_index upd) = Some upd ->
      skip_gc = true \/ (forall od l0, old = Some (od, l0) -> od <> H (gen_index upd)) ->
      exists g' n' t,
        update_referrers_index H parse_mt main user_mts limit skip_gc index_of (reg * N)
                               (cexch H subject_of main other p None) (g, n) rst subj (RAdd r)
        = ((g', n'), rst, t, ROk) /\
        inv H parse_mt subject_of limit p g' /\
        exists n'' t',
          tag_schema_referrers H parse_mt main user_mts limit index_of (reg * N)
                               (cexch H subject_of main other p None) (g', n') subj
          = ((g', n''), t', RDescs (clean_refs [] upd)).
Proof. exact tag_schema_add_then_listed. Qed.
Print Assumptions C13_tag_schema_add_then_listed.

(* ... and what Delete of a manifest with a subject does: the referrer disappears from the
   listing (when it was the last one the index and its tag are removed or, with SkipReferrersGC,
   an empty index stays: the index_state conjunct of C13_delete_subject_then_predecessors) *)
Theorem C13_tag_schema_remove_then_absent :
  forall (H : str -> str) (parse_mt : str -> option str) (subject_of : str -> option (option desc))
         (main other : str) (user_mts : list str) (limit : N) (skip_gc : bool)
         (index_of : str -> option (list desc)) (p : profile),
    (forall c, valid_digest (H c) = true) ->
    (forall l, subject_of (gen_index l) = Some None) ->
    parse_mt mt_index = Some mt_index ->
    forall g n rst subj od l r,
      inv H parse_mt subject_of limit p g ->
      rst_ok p rst ->
      valid_digest (d_dg subj) = true ->
      let tag := ref_tag (d_dg subj) in
      resolve_ref main tag = Some tag -> valid_digest tag = false ->
      p_clen p = true \/ p_dighdr p = true ->
      index_state g tag (Some (od, l)) -> index_of (gen_index l) = Some l ->
      NoDup (map fst (g_tags g)) ->
      let upd := filter (fun x => negb (RemoteClient.desc_eqb r x)) (clean_refs [] l) in
      existsb (RemoteClient.desc_eqb r) (clean_refs [] l) = true ->
      len (gen_index upd) <= limit -> index_of (gen_index upd) = Some upd ->
      skip_gc = true \/ od <> H (gen_index upd) ->
      exists g' n' t,
        update_referrers_index H parse_mt main user_mts limit skip_gc index_of (reg * N)
                               (cexch H subject_of main other p None) (g, n) rst subj (RRemove r)
        = ((g', n'), rst, t, ROk) /\
        inv H parse_mt subject_of limit p g' /\
        exists n'' t',
          tag_schema_referrers H parse_mt main user_mts limit index_of (reg * N)
                               (cexch H subject_of main other p None) (g', n') subj
          = ((g', n''), t', RDescs (clean_refs [] upd)).
Proof. exact tag_schema_remove_then_absent. Qed.
Print Assumptions C13_tag_schema_remove_then_absent.

(* ... lifted to EVERY SEQUENCE of referrer changes of one subject (the index updates of pushes and
   deletes of manifests with that subject, in any order; [run_changes] = updateReferrersIndex once
   per change): every update succeeds, the referrers tag afterwards points to what
   applyReferrerChanges yields step by step ([spec_changes]), and Predecessors lists it.
   [changes_ok] are the per-step side conditions: the change is effective, the index read
   decodes, the new index fits MaxMetadataBytes and its digest differs from the old one's
   (or SkipReferrersGC); satisfiable: C13_tag_schema_changes_satisfiable. *)
Theorem C13_tag_schema_changes :
  forall (H : str -> str) (parse_mt : str -> option str) (subject_of : str -> option (option desc))
         (main other : str) (user_mts : list str) (limit : N) (skip_gc : bool)
         (index_of : str -> option (list desc)) (p : profile),
    (forall c, valid_digest (H c) = true) ->
    (forall l, subject_of (gen_index l) = Some None) ->
    parse_mt mt_index = Some mt_index ->
    forall rst subj chs g n st,
      minv H parse_mt limit g -> rst_ok p rst ->
      valid_digest (d_dg subj) = true ->
      let tag := ref_tag (d_dg subj) in
      resolve_ref main tag = Some tag -> valid_digest tag = false ->
      p_clen p = true \/ p_dighdr p = true ->
      index_state g tag st -> NoDup (map fst (g_tags g)) ->
      changes_ok H limit skip_gc index_of st chs ->
      exists g' n',
        run_changes H parse_mt subject_of main other user_mts limit skip_gc index_of p (g, n) rst subj chs
        = ((g', n'), map (fun _ => ROk) chs) /\
        minv H parse_mt limit g' /\
        index_state g' tag (spec_changes H skip_gc st chs) /\
        NoDup (map fst (g_tags g')) /\
        (json_ok_st index_of (spec_changes H skip_gc st chs) ->
         exists n'' t',
           tag_schema_referrers H parse_mt main user_mts limit index_of (reg * N)
                                (cexch H subject_of main other p None) (g', n') subj
           = ((g', n''), t', RDescs (clean_refs [] (ix_list (spec_changes H skip_gc st chs))))).
Proof. exact tag_schema_changes. Qed.
Print Assumptions C13_tag_schema_changes.

Example C13_tag_schema_changes_satisfiable :
  changes_ok w_H w_limit true sat_index_of2 None sat_changes /\
  spec_changes w_H true None sat_changes = Some (w_H (gen_index [sat_b]), [sat_b]) /\
  json_ok_st sat_index_of2 (spec_changes w_H true None sat_changes).
Proof. exact tag_schema_changes_satisfiable. Qed.

(* ... and at the level of the OPERATIONS, in any registry state of a registry WITHOUT the
   Referrers API (manifests with subjects may already be stored: [minv] is [inv] without the
   condition on who indexes subjects): Push of an accurate, indexable manifest whose subject is
   sj succeeds, leaves the client in referrers state "unsupported", the referrers tag points to
   the regenerated index, the manifest is stored (unless its digest is that of the new index),
   and Predecessors(sj) then lists the old referrers followed by the pushed descriptor. *)
Theorem C13_push_subject_then_predecessors :
  forall (H : str -> str) (parse_mt : str -> option str) (subject_of : str -> option (option desc))
         (main other : str) (user_mts : list str) (limit : N) (skip_gc : bool)
         (index_of : str -> option (list desc)) (p : profile),
    (forall c, valid_digest (H c) = true) ->
    (forall l, subject_of (gen_index l) = Some None) ->
    parse_mt mt_index = Some mt_index ->
    forall g n rst d c sj old,
      minv H parse_mt limit g -> p_referrers p = false -> rst <> RSSupported ->
      is_manifest user_mts d = true -> indexable (d_mt d) = true ->
      len c = d_sz d -> H c = d_dg d -> valid_digest (d_dg d) = true ->
      parse_mt (d_mt d) = Some (d_mt d) -> len c <= limit ->
      subject_of c = Some (Some sj) -> valid_digest (d_dg sj) = true ->
      let tag := ref_tag (d_dg sj) in
      resolve_ref main tag = Some tag -> valid_digest tag = false ->
      p_clen p = true \/ p_dighdr p = true ->
      index_state g tag old -> (match old with Some (_, l0) => index_of (gen_index l0) = Some l0 | None => True end) ->
      NoDup (map fst (g_tags g)) ->
      (forall od l0, old = Some (od, l0) -> od <> d_dg d) ->
      let l := match old with Some (_, l) => l | None => [] end in
      let upd := clean_refs [] l ++ [d] in
      existsb (RemoteClient.desc_eqb d) (clean_refs [] l) = false ->
      len (gen_index upd) <= limit -> index_of (gen_index upd) = Some upd ->
      skip_gc = true \/ (forall od l0, old = Some (od, l0) -> od <> H (gen_index upd)) ->
      exists g' n' t,
        run_op H parse_mt subject_of main other user_mts limit skip_gc index_of (reg * N)
               (cexch H subject_of main other p None) (g, n) rst (OPush d c)
        = ((g', n'), RSUnsupported, t, ROk) /\
        minv H parse_mt limit g' /\
        index_state g' tag (Some (H (gen_index upd), upd)) /\ NoDup (map fst (g_tags g')) /\
        (d_dg d <> H (gen_index upd) -> lookup (d_dg d) (g_mans g') = Some (d_mt d, c)) /\
        exists n'' t',
          run_op H parse_mt subject_of main other user_mts limit skip_gc index_of (reg * N)
                 (cexch H subject_of main other p None) (g', n') RSUnsupported (OPreds sj)
          = ((g', n''), RSUnsupported, t', RDescs (clean_refs [] upd)).
Proof. exact push_subject_then_predecessors. Qed.
Print Assumptions C13_push_subject_then_predecessors.

(* ... and Delete of a stored manifest with subject sj (referrers state unknown -- the client then
   pings the API first -- or "unsupported"): the referrer is taken out of the index, the manifest is deleted,
   Predecessors(sj) lists the remaining referrers. *)
Theorem C13_delete_subject_then_predecessors :
  forall (H : str -> str) (parse_mt : str -> option str) (subject_of : str -> option (option desc))
         (main other : str) (user_mts : list str) (limit : N) (skip_gc : bool)
         (index_of : str -> option (list desc)) (p : profile),
    (forall c, valid_digest (H c) = true) ->
    (forall l, subject_of (gen_index l) = Some None) ->
    parse_mt mt_index = Some mt_index ->
    forall g n rst d c sj od l,
      minv H parse_mt limit g -> p_referrers p = false -> rst <> RSSupported ->
      is_manifest user_mts d = true -> indexable_del (d_mt d) = true ->
      lookup (d_dg d) (g_mans g) = Some (d_mt d, c) -> len c = d_sz d -> valid_digest (d_dg d) = true ->
      subject_of c = Some (Some sj) -> valid_digest (d_dg sj) = true ->
      let tag := ref_tag (d_dg sj) in
      resolve_ref main tag = Some tag -> valid_digest tag = false ->
      p_clen p = true \/ p_dighdr p = true ->
      index_state g tag (Some (od, l)) -> index_of (gen_index l) = Some l ->
      NoDup (map fst (g_tags g)) ->
      od <> d_dg d ->
      let upd := filter (fun x => negb (RemoteClient.desc_eqb d x)) (clean_refs [] l) in
      existsb (RemoteClient.desc_eqb d) (clean_refs [] l) = true ->
      len (gen_index upd) <= limit -> index_of (gen_index upd) = Some upd ->
      H (gen_index upd) <> d_dg d ->
      skip_gc = true \/ od <> H (gen_index upd) ->
      exists g' n' t,
        run_op H parse_mt subject_of main other user_mts limit skip_gc index_of (reg * N)
               (cexch H subject_of main other p None) (g, n) rst (ODelete d)
        = ((g', n'), RSUnsupported, t, ROk) /\
        minv H parse_mt limit g' /\ lookup (d_dg d) (g_mans g') = None /\
        index_state g' tag (if is_nil upd && negb skip_gc then None else Some (H (gen_index upd), upd)) /\
        NoDup (map fst (g_tags g')) /\
        exists n'' t',
          run_op H parse_mt subject_of main other user_mts limit skip_gc index_of (reg * N)
                 (cexch H subject_of main other p None) (g', n') RSUnsupported (OPreds sj)
          = ((g', n''), RSUnsupported, t', RDescs (clean_refs [] upd)).
Proof. exact delete_subject_then_predecessors. Qed.
Print Assumptions C13_delete_subject_then_predecessors.

(* the hypotheses of C13_push_subject_then_predecessors are satisfiable: instantiated on the empty
   registry without the API (every hypothesis discharged by computation) *)
Example C13_push_subject_satisfiable :
  exists g' n' t,
    run_op w_H (fun s => Some s) sat_subject (b "app") (b "src") [] w_limit false sat_index_of (reg * N)
           (cexch w_H sat_subject (b "app") (b "src") ts_profile None) (reg0 [], 0) RSUnknown (OPush sat_d sat_c)
    = ((g', n'), RSUnsupported, t, ROk) /\
    minv w_H (fun s => Some s) w_limit g' /\
    index_state g' (ref_tag zero_digest) (Some (w_H (gen_index [sat_d]), [sat_d])) /\
    exists n'' t',
      run_op w_H (fun s => Some s) sat_subject (b "app") (b "src") [] w_limit false sat_index_of (reg * N)
             (cexch w_H sat_subject (b "app") (b "src") ts_profile None) (g', n') RSUnsupported (OPreds sat_sj)
      = ((g', n''), RSUnsupported, t', RDescs [sat_d]).
Proof. exact push_subject_satisfiable. Qed.

(* ... lifted to HISTORIES of operations: every sequence of Push / Delete of manifests with ONE subject
   sj and Predecessors(sj) (in any order, any length) run by the client ([run_ops]) against a
   registry without the Referrers API, from any registry state: every Push/Delete succeeds, every
   Predecessors in between lists exactly the index of that moment ([ts_results]), the client never
   believes the API is there, the referrers tag ends at what applyReferrerChanges yields step by step ([ts_final])
   and Predecessors(sj) lists exactly that.  [ts_hist_ok] (Proofs/RemoteRefine.v) checks the LOCAL side
   conditions of each operation in the state it meets, as wf_hist does for the store: accurate,
   indexable manifest with subject sj that is new to / listed in the index (for Delete: stored); the
   indexes read and written decode and fit MaxMetadataBytes; no digest collision between manifest,
   old index and new index.  Satisfiable: C13_tag_schema_history_satisfiable. *)
Theorem C13_tag_schema_history :
  forall (H : str -> str) (parse_mt : str -> option str) (subject_of : str -> option (option desc))
         (main other : str) (user_mts : list str) (limit : N) (skip_gc : bool)
         (index_of : str -> option (list desc)) (p : profile),
    (forall c, valid_digest (H c) = true) ->
    (forall l, subject_of (gen_index l) = Some None) ->
    parse_mt mt_index = Some mt_index ->
    forall sj os g n rst st,
      minv H parse_mt limit g -> p_referrers p = false -> rst <> RSSupported ->
      valid_digest (d_dg sj) = true ->
      let tag := ref_tag (d_dg sj) in
      resolve_ref main tag = Some tag -> valid_digest tag = false ->
      p_clen p = true \/ p_dighdr p = true ->
      index_state g tag st -> NoDup (map fst (g_tags g)) ->
      ts_hist_ok H parse_mt subject_of main other user_mts limit skip_gc index_of p sj (g, n) rst st os ->
      exists g' n' rst' out,
        run_ops H parse_mt subject_of main other user_mts limit skip_gc index_of (reg * N)
                (cexch H subject_of main other p None) (g, n) rst (map (ts_op sj) os) = ((g', n'), rst', out) /\
        map snd out = ts_results H skip_gc st os /\ rst' <> RSSupported /\
        minv H parse_mt limit g' /\ index_state g' tag (ts_final H skip_gc st os) /\
        NoDup (map fst (g_tags g')) /\
        (json_ok_st index_of (ts_final H skip_gc st os) ->
         exists n'' t',
           tag_schema_referrers H parse_mt main user_mts limit index_of (reg * N)
                                (cexch H subject_of main other p None) (g', n') sj
           = ((g', n''), t', RDescs (clean_refs [] (ix_list (ts_final H skip_gc st os))))).
Proof. exact tag_schema_history. Qed.
Print Assumptions C13_tag_schema_history.

Example C13_tag_schema_history_satisfiable :
  (forall c, valid_digest (sat3_H c) = true) /\
  ts_hist_ok sat3_H (fun s => Some s) sat_subject (b "app") (b "src") [] w_limit false sat3_index_of ts_profile
             sat_sj (reg0 [], 0) RSUnknown None sat3_ops /\
  ts_final sat3_H false None sat3_ops = None /\
  ts_results sat3_H false None sat3_ops = [ROk; RDescs [sat3_d]; ROk].
Proof. exact tag_schema_history_satisfiable. Qed.

(* (JSON decoding is the parameter index_of: the theorems above ask it to invert gen_index on the two
   indexes involved -- the one read and the one written --, not on all lists: gen_index does not
   escape, a hypothesis for ALL descriptor lists would be unsatisfiable.  The Example below
   instantiates it.) *)
(* ... end to end on a concrete registry without the API: Push of a manifest with a subject makes
   Predecessors list it and the referrers tag resolve to the generated index (the JSON the
   client writes is the last conjunct); Delete removes both again *)
Example C13_tag_schema_example :
  map snd (snd (run_history toy_H (fun s => Some s) ts_subject (b "app") (b "src") [] w_limit false ts_index_of
                            ts_profile None [] RSUnknown ts_ops))
  = [ROk; RDescs []; ROk; RDescs [ts_d1];
     RDesc (mkDesc mt_index (toy_H (gen_index [ts_d1])) (len (gen_index [ts_d1])));
     ROk; RDescs []; RErr ENotFound] /\
  ts_index_of (gen_index [ts_d1]) = Some [ts_d1] /\ ts_subject (gen_index [ts_d1]) = Some None /\
  gen_index [ts_d1] = b "{""schemaVersion"":2,""mediaType"":""application/vnd.oci.image.index.v1+json"",""manifests"":[{""mediaType"":""application/vnd.oci.image.manifest.v1+json"",""digest"":""sha256:7d317b0000000000000000000000000000000000000000000000000000000000"",""size"":3}]}".
Proof. exact tag_schema_example. Qed.

(* Composition with C15 (Model/Paging.v): in every state the registry model reaches from
   the empty registry by any request sequence the manifest digests are distinct and
   non-empty, hence against a registry that PAGINATES the Referrers API in any legal way
   (C15: any page split below the cap, last= or opaque-token cursors, any Link rendering that
   resolves, filtering announced or not, entries held back by the registry's visibility
   filter) the client's page loop delivers, concatenated, exactly the stored manifests with
   the given subject (of the requested artifact type): Predecessors = concat of the pages. *)
Theorem C13_registry_digests_distinct :
  forall (H : str -> str) (sj : str -> option desc) (main other : str) (p : profile),
    (forall c, H c <> []) ->
    forall ob qs, keys_ok (fold_left (fun g q => fst (handle H sj main other p g q)) qs (reg0 ob)).
Proof. exact reachable_keys_ok. Qed.
Print Assumptions C13_registry_digests_distinct.

Theorem C13_registry_tags_unique :
  forall (H : str -> str) (sj : str -> option desc) (main other : str) (p : profile) ob qs,
    NoDup (map fst (g_tags (fold_left (fun g q => fst (handle H sj main other p g q)) qs (reg0 ob)))).
Proof. exact reachable_tags_unique. Qed.
Print Assumptions C13_registry_tags_unique.

Theorem C13_referrers_paged :
  forall (sj : str -> option desc) (atype : str -> str) g dg (cap : nat) (ds : nat -> P.decision)
         (render : nat -> P.url -> P.url -> str) (trailer : nat -> str)
         (resolve : P.url -> str -> option P.url) (c : P.cfg)
         (cu : P.cursor) (npath : nat -> str -> str) (vis : P.item -> bool) (path : str) (fuel : nat),
    keys_ok g ->
    PP.cursor_ok cu ->
    P.c_kind c = P.KReferrers ->
    (forall i base x, In x (map fst (ref_items sj atype g dg)) ->
       contains P.c_gt (render i base (PP.link_target ds cu npath i base x)) = false) ->
    (forall i base x, In x (map fst (ref_items sj atype g dg)) ->
       resolve base (render i base (PP.link_target ds cu npath i base x)) = Some (PP.link_target ds cu npath i base x)) ->
    (forall i, (Z.of_N (P.d_doc_len (ds i)) <= P.eff_limit (P.c_limit c))%Z) ->
    (forall i, P.qget P.k_at (P.d_extra (ds i)) = None) ->
    (length (ref_items sj atype g dg) < fuel)%nat ->
    let t := P.loop (P.reg_serve P.KReferrers cu npath vis (ref_items sj atype g dg) cap ds render trailer) resolve
                    (fun _ => false) c fuel 0 0 (P.mkUrl path (PP.referrers_query (P.c_at c))) [] in
    P.t_out t = P.Done /\
    concat (P.t_pages t) = P.filter_referrers (filter vis (ref_items sj atype g dg)) (P.c_at c) /\
    (length (P.t_reqs t) <= S (length (ref_items sj atype g dg)))%nat.
Proof. exact referrers_paged. Qed.
Print Assumptions C13_referrers_paged.

Theorem C13_predecessors_paged :
  forall (sj : str -> option desc) (atype : str -> str) g dg cap ds render trailer resolve c cu npath vis path fuel,
    keys_ok g -> PP.cursor_ok cu -> P.c_kind c = P.KReferrers -> P.c_at c = [] ->
    (forall it, vis it = true) ->
    (forall i base x, In x (map fst (ref_items sj atype g dg)) ->
       contains P.c_gt (render i base (PP.link_target ds cu npath i base x)) = false) ->
    (forall i base x, In x (map fst (ref_items sj atype g dg)) ->
       resolve base (render i base (PP.link_target ds cu npath i base x)) = Some (PP.link_target ds cu npath i base x)) ->
    (forall i, (Z.of_N (P.d_doc_len (ds i)) <= P.eff_limit (P.c_limit c))%Z) ->
    (forall i, P.qget P.k_at (P.d_extra (ds i)) = None) ->
    (length (ref_items sj atype g dg) < fuel)%nat ->
    let t := P.loop (P.reg_serve P.KReferrers cu npath vis (ref_items sj atype g dg) cap ds render trailer) resolve
                    (fun _ => false) c fuel 0 0 (P.mkUrl path []) [] in
    P.t_out t = P.Done /\
    map fst (concat (P.t_pages t)) = map d_dg (referrers_of sj g dg).
Proof. exact predecessors_paged. Qed.
Print Assumptions C13_predecessors_paged.

(* non-vacuity of the refinement hypotheses: a manifest pushed under a tag, resolved,
   fetched, re-tagged; a second manifest whose subject is the first one, found by
   Predecessors; a blob mounted from the sibling repository; deletions *)
Example C13_refines_store_nonvacuous :
  wf_hist w_H (fun s => Some s) ex_subject (b "app") [] w_limit ex_profile
          (mkStore [] [] [] [(zero_digest, ex_blob)]) ex_ops /\
  rst_ok ex_profile RSUnknown /\
  snd (spec_run w_H ex_subject (b "app") [] (mkStore [] [] [] [(zero_digest, ex_blob)]) ex_ops)
  = [ROk; RDesc w_desc; RDescBytes w_desc w_content; RBytes w_content; ROk; RBool true; ROk;
     RBytes ex_blob; RDescs []; ROk; RErr ENotFound; ROk; RDescs [ex_rdesc]].
Proof. exact refines_store_nonvacuous. Qed.

(* ------------------------------------------------------------------ *)
(* Every request the client emits is one the specification allows -- against ANY
   server (arbitrary, also corrupted, responses), any referrers state, any
   history of operations whose descriptors carry a valid digest and a media type
   (reference strings are arbitrary).  The only thing asked of the server is that
   the Location of a POST answer, when present, is an upload session. *)
Theorem C13_requests_allowed :
  forall (H : str -> str) (parse_mt : str -> option str) (subject_of : str -> option (option desc))
         (main other : str) (user_mts : list str) (limit : N) (skip_gc : bool)
         (index_of : str -> option (list desc))
         (srv : Type) (exch : srv -> request -> srv * response),
    valid_repository main = true -> valid_repository other = true ->
    loc_ok srv exch ->
    (forall c, valid_digest (H c) = true) ->
    forall os s rst s' rst' out,
      Forall op_ok os ->
      run_ops H parse_mt subject_of main other user_mts limit skip_gc index_of srv exch s rst os = (s', rst', out) ->
      Forall (fun tr => Forall (fun qr => allowed (fst qr) = true) (fst tr)) out.
Proof. exact run_ops_allowed. Qed.
Print Assumptions C13_requests_allowed.

(* the registry model itself meets [loc_ok], also with one response corrupted in any
   field except the status: every request of every history is allowed *)
Theorem C13_requests_allowed_registry :
  forall (H : str -> str) (parse_mt : str -> option str) (subject_of : str -> option (option desc))
         (main other : str) (user_mts : list str) (limit : N) (skip_gc : bool)
         (index_of : str -> option (list desc)) (p : profile) (kor : option (N * corruption))
         other_blobs rst os g out,
    valid_repository main = true -> valid_repository other = true ->
    (forall c, valid_digest (H c) = true) ->
    no_status_corruption kor -> Forall op_ok os ->
    run_history H parse_mt subject_of main other user_mts limit skip_gc index_of p kor other_blobs rst os = (g, out) ->
    Forall (fun tr => Forall (fun qr => allowed (fst qr) = true) (fst tr)) out.
Proof. exact run_history_allowed. Qed.
Print Assumptions C13_requests_allowed_registry.

(* ------------------------------------------------------------------ *)
(* Corruption: whatever the server answers, a call succeeds only if the response
   does not contradict what was requested. *)

(* Fetch of a blob: bytes only from a 200 whose Content-Length is absent or the
   descriptor's size and whose digest header is absent or the descriptor's digest *)
Theorem C13_corruption_rejected_blob_fetch :
  forall (srv : Type) (exch : srv -> request -> srv * response) repo s d s' t c,
    blob_fetch srv exch repo s d = (s', t, RBytes c) ->
    exists q r, t = [(q, r)] /\ r_status r = 200 /\ c = r_body r /\
                len_consistent r (d_sz d) /\ dig_consistent r (d_dg d).
Proof. exact blob_fetch_consistent. Qed.
Print Assumptions C13_corruption_rejected_blob_fetch.

(* Fetch of a manifest: additionally the Content-Type parses to the descriptor's media type *)
Theorem C13_corruption_rejected_manifest_fetch :
  forall (parse_mt : str -> option str) (main : str)
         (srv : Type) (exch : srv -> request -> srv * response) s d s' t c,
    man_fetch parse_mt main srv exch s d = (s', t, RBytes c) ->
    exists q r, t = [(q, r)] /\ r_status r = 200 /\ c = r_body r /\
                parse_mt (nstr (r_ctype r)) = Some (d_mt d) /\
                len_consistent r (d_sz d) /\ dig_consistent r (d_dg d).
Proof. exact man_fetch_consistent. Qed.
Print Assumptions C13_corruption_rejected_manifest_fetch.

(* the same in the words of the property: take any response, corrupt one field so that it
   contradicts the descriptor (other digest, unparsable digest, Content-Length + 1, other /
   unparsable / missing Content-Type, a status other than 200) -- Fetch fails. *)
Theorem C13_corruption_rejected_single_field_blob :
  forall (srv : Type) repo (s : srv) k r0 d,
    contradicts_fetch (fun _ => None) false k r0 d ->
    exists e, snd (blob_fetch srv (fun s _ => (s, corrupt k r0)) repo s d) = RErr e.
Proof. exact blob_fetch_corrupted. Qed.
Print Assumptions C13_corruption_rejected_single_field_blob.

Theorem C13_corruption_rejected_single_field_manifest :
  forall (parse_mt : str -> option str) (main : str) (srv : Type) (s : srv) k r0 d,
    contradicts_fetch parse_mt true k r0 d ->
    exists e, snd (man_fetch parse_mt main srv (fun s _ => (s, corrupt k r0)) s d) = RErr e.
Proof. exact man_fetch_corrupted. Qed.
Print Assumptions C13_corruption_rejected_single_field_manifest.

(* non-vacuity: an honest 200 answer to Fetch of a 2-byte manifest is accepted; the same
   answer with Content-Length + 1 is refused *)
Example C13_corruption_example :
  let honest := mkResp 200 (Some mt_oci_manifest) (Some 2) (Some zero_digest) None false None [] (b "{}") in
  snd (man_fetch (fun s => Some s) (b "app") unit (fun s _ => (s, honest)) tt w_desc) = RBytes (b "{}") /\
  snd (man_fetch (fun s => Some s) (b "app") unit (fun s _ => (s, corrupt KLenInc honest)) tt w_desc) = RErr EOther /\
  contradicts_fetch (fun s => Some s) true KLenInc honest w_desc.
Proof. vm_compute. repeat split; reflexivity. Qed.

(* generateDescriptor (Resolve / FetchReference): the descriptor is what the
   response states; it carries the reference's digest when the reference is a
   digest; a digest header must be valid and is the descriptor's digest; without
   one, HEAD works only for digest references and GET hashes what it reads of the body: at
   most MaxMetadataBytes, and only when the Content-Length is within that limit. *)
Theorem C13_corruption_rejected_descriptor :
  forall (H : str -> str) (parse_mt : str -> option str) (limit : N) r rf hd d,
    gen_desc H parse_mt limit r rf hd = Some d ->
    parse_mt (nstr (r_ctype r)) = Some (d_mt d) /\ r_clen r = Some (d_sz d) /\
    (valid_digest rf = true -> d_dg d = rf) /\
    match nstr (r_dig r) with
    | [] => if hd then d_dg d = rf /\ valid_digest rf = true
            else d_dg d = H (hashed_body limit r) /\ (limit <? d_sz d) = false
    | sd => sd = d_dg d /\ valid_digest sd = true
    end.
Proof. exact gen_desc_consistent. Qed.
Print Assumptions C13_corruption_rejected_descriptor.

Theorem C13_corruption_rejected_resolve :
  forall (H : str -> str) (parse_mt : str -> option str) (main : str) (user_mts : list str) (limit : N)
         (srv : Type) (exch : srv -> request -> srv * response) s rs s' t d,
    man_resolve H parse_mt main user_mts limit srv exch s rs = (s', t, RDesc d) ->
    exists rf q r, resolve_ref main rs = Some rf /\ t = [(q, r)] /\ q_ep q = EManifest rf /\
                   r_status r = 200 /\ gen_desc H parse_mt limit r rf true = Some d.
Proof. exact man_resolve_consistent. Qed.
Print Assumptions C13_corruption_rejected_resolve.

Theorem C13_corruption_rejected_fetch_reference :
  forall (H : str -> str) (parse_mt : str -> option str) (main : str) (user_mts : list str) (limit : N)
         (srv : Type) (exch : srv -> request -> srv * response) s rs s' t d c,
    man_fetchref H parse_mt main user_mts limit srv exch s rs = (s', t, RDescBytes d c) ->
    exists rf q r rest, resolve_ref main rs = Some rf /\ t = (q, r) :: rest /\
      r_status r = 200 /\
      ((rest = [] /\ gen_desc H parse_mt limit r rf false = Some d /\
        c = match nstr (r_dig r) with [] => hashed_body limit r | _ => r_body r end) \/
       (r_clen r = None /\ c = r_body r /\ dig_consistent r (d_dg d) /\
        exists q2 r2, rest = [(q2, r2)] /\ r_status r2 = 200 /\
                      gen_desc H parse_mt limit r2 rf true = Some d)).
Proof. exact man_fetchref_consistent. Qed.
Print Assumptions C13_corruption_rejected_fetch_reference.

(* the referrers tag schema (registries without the Referrers API): the referrers index read
   through the referrers tag is used -- by Referrers/Predecessors and by the index update on
   push/delete of a manifest with a subject -- only if the body received is exactly what the
   descriptor derived from the SAME response says (length = Content-Length, digest = the digest
   header or the computed one) and decodes; whatever the server answers *)
Theorem C13_corruption_rejected_referrers_index :
  forall (H : str -> str) (parse_mt : str -> option str) (main : str) (user_mts : list str) (limit : N)
         (index_of : str -> option (list desc))
         (srv : Type) (exch : srv -> request -> srv * response) s tag s' t d l,
    referrers_from_index H parse_mt main user_mts limit index_of srv exch s tag = (s', t, ROk, Some (d, l)) ->
    exists body,
      man_fetchref H parse_mt main user_mts limit srv exch s tag = (s', t, RDescBytes d body) /\
      len body = d_sz d /\ H body = d_dg d /\ d_sz d <= limit /\ index_of body = Some l.
Proof. exact referrers_index_consistent. Qed.
Print Assumptions C13_corruption_rejected_referrers_index.

Theorem C13_corruption_rejected_tag_schema_referrers :
  forall (H : str -> str) (parse_mt : str -> option str) (main : str) (user_mts : list str) (limit : N)
         (index_of : str -> option (list desc))
         (srv : Type) (exch : srv -> request -> srv * response) s d s' t l,
    tag_schema_referrers H parse_mt main user_mts limit index_of srv exch s d = (s', t, RDescs l) ->
    l = [] \/
    exists id body idx,
      man_fetchref H parse_mt main user_mts limit srv exch s (ref_tag (d_dg d)) = (s', t, RDescBytes id body) /\
      len body = d_sz id /\ H body = d_dg id /\ index_of body = Some idx /\ l = clean_refs [] idx.
Proof. exact tag_schema_consistent. Qed.
Print Assumptions C13_corruption_rejected_tag_schema_referrers.

(* blob FetchReference: also when the GET has no Content-Length (descriptor from a HEAD), the
   digest header of the GET, whose body is returned, must not contradict the digest asked for *)
Theorem C13_corruption_rejected_blob_fetch_reference :
  forall (parse_mt : str -> option str) (main : str)
         (srv : Type) (exch : srv -> request -> srv * response) s rs s' t d c,
    blob_fetchref parse_mt main srv exch s rs = (s', t, RDescBytes d c) ->
    exists rf q r rest, resolve_ref main rs = Some rf /\ valid_digest rf = true /\ t = (q, r) :: rest /\
      r_status r = 200 /\ c = r_body r /\ d_dg d = rf /\ dig_consistent r rf.
Proof. exact blob_fetchref_consistent. Qed.
Print Assumptions C13_corruption_rejected_blob_fetch_reference.

(* blob Resolve / Exists *)
Theorem C13_corruption_rejected_blob_resolve :
  forall (parse_mt : str -> option str) (main : str)
         (srv : Type) (exch : srv -> request -> srv * response) s rs s' t d,
    blob_resolve parse_mt main srv exch s rs = (s', t, RDesc d) ->
    exists rf q r, resolve_ref main rs = Some rf /\ valid_digest rf = true /\ t = [(q, r)] /\
                   r_status r = 200 /\ d_dg d = rf /\ r_clen r = Some (d_sz d) /\ dig_consistent r rf.
Proof. exact blob_resolve_consistent. Qed.
Print Assumptions C13_corruption_rejected_blob_resolve.

(* writes: exact status, non-contradicting digest header, Location present *)
Theorem C13_corruption_rejected_delete :
  forall (main : str) (srv : Type) (exch : srv -> request -> srv * response) s d man s' t,
    delete_req main srv exch s d man = (s', t, ROk) ->
    exists q r, t = [(q, r)] /\ r_status r = 202 /\ dig_consistent r (d_dg d).
Proof. exact delete_req_consistent. Qed.
Print Assumptions C13_corruption_rejected_delete.

Theorem C13_corruption_rejected_manifest_put :
  forall (main : str) (srv : Type) (exch : srv -> request -> srv * response)
         s rst d c sized rf s' rst' t,
    man_put main srv exch s rst d c sized rf = (s', rst', t, ROk) ->
    exists q r, t = [(q, r)] /\ r_status r = 201 /\ dig_consistent r (d_dg d) /\
                q_body q = c /\ q_ctype q = Some (d_mt d) /\ (sized = true -> len c = d_sz d).
Proof. exact man_put_consistent. Qed.
Print Assumptions C13_corruption_rejected_manifest_put.

Theorem C13_corruption_rejected_blob_upload :
  forall (srv : Type) (exch : srv -> request -> srv * response) s r1 d c sized s' t,
    complete_push srv exch s r1 d c sized = (s', t, ROk) ->
    exists rp ep q r2, r_loc r1 = Some (rp, ep) /\ t = [(q, r2)] /\ r_status r2 = 201 /\
                       q_repo q = rp /\ q_ep q = ep /\ q_digest q = Some (d_dg d) /\ q_body q = c /\
                       (valid_digest (nstr (r_dig r2)) = true -> nstr (r_dig r2) = d_dg d).
Proof. exact complete_push_consistent. Qed.
Print Assumptions C13_corruption_rejected_blob_upload.

Theorem C13_corruption_rejected_mount :
  forall (main other : str) (srv : Type) (exch : srv -> request -> srv * response) s d g s' t,
    blob_mount main other srv exch s d g = (s', t, ROk) ->
    exists q r rest, t = (q, r) :: rest /\
      ((r_status r = 201 /\ rest = [] /\ dig_consistent r (d_dg d)) \/
       (r_status r = 202 /\ rest <> [] /\ r_loc r <> None)).
Proof. exact blob_mount_consistent. Qed.
Print Assumptions C13_corruption_rejected_mount.

(* ------------------------------------------------------------------ *)
(* URL construction (url.go; [request_url] is compared with the URL of every real request):
   composition of the request grammar with C20_url_exact.  For every request of the grammar
   (C13_requests_allowed: all the client emits), against a registry name net/url accepts
   ([reg_clean], C20's single fact about net/url), the URL is -- under RFC 3986 splitting --
   scheme://host/v2/<repository>/{manifests|blobs|referrers}/<reference> with exactly these path
   segments, no user info, no query, no fragment (the referrers page-size extension ?n= aside);
   the upload POST without mount goes to /v2/<repository>/blobs/uploads/ . *)
Theorem C13_request_url_exact :
  forall (vr : str -> bool) plain host page q,
    (forall reg, vr reg = true -> reg_clean reg = true) ->
    vr host = true -> contains c_slash host = false ->
    allowed q = true ->
    match q_ep q with
    | EManifest r => url_is (request_url plain host page q) plain (mkRef host (q_repo q) r) (b "manifests")
    | EBlob d => url_is (request_url plain host page q) plain (mkRef host (q_repo q) d) (b "blobs")
    | EReferrers d =>
        page = 0 -> url_is (request_url plain host page q) plain (mkRef host (q_repo q) d) (b "referrers")
    | EUploads =>
        q_mount q = None ->
        url_split (request_url plain host page q)
        = Some (mkParts (scheme plain) (host_of host) (b "/v2/" ++ q_repo q ++ b "/blobs/uploads/") None None)
    | ESession _ => True
    end.
Proof. exact request_url_exact. Qed.
Print Assumptions C13_request_url_exact.

(* ------------------------------------------------------------------ *)
(* Step 2 of the two-step upload (Model/Location.v, completePushAfterInitialPost): the PUT
   follows the Location of the 202 -- same scheme, host and path; the POST's authority for
   an absolute-path Location; the port is restored only when the POST went to port 443 of
   the same host and the Location names no port (issue 177); the query is the Location's
   with digest=<descriptor digest> set, nothing else added or dropped. *)
Theorem C13_location_authority :
  forall req l dg,
    let t := resolve req l in
    let u := put_url req l dg in
    u_scheme u = u_scheme t /\ u_host u = u_host t /\ u_path u = u_path t /\
    u_port u = (if needs_repair req t then port443 else u_port t).
Proof. exact put_url_authority. Qed.
Print Assumptions C13_location_authority.

Theorem C13_location_relative :
  forall req p q dg,
    let u := put_url req (LPath p q) dg in
    u_scheme u = u_scheme req /\ u_host u = u_host req /\ u_port u = u_port req /\ u_path u = p.
Proof. exact put_url_relative. Qed.
Print Assumptions C13_location_relative.

Theorem C13_location_port_repaired :
  forall req sch pa q dg,
    u_port req = port443 ->
    let u := put_url req (LAbs (mkUrl sch (u_host req) [] pa q)) dg in
    u_host u = u_host req /\ u_port u = port443 /\ u_path u = pa.
Proof. exact put_url_repaired. Qed.
Print Assumptions C13_location_port_repaired.

Theorem C13_location_followed :
  forall req t dg,
    (u_port req <> port443 \/ u_host t <> u_host req \/ u_port t <> []) ->
    let u := put_url req (LAbs t) dg in
    u_scheme u = u_scheme t /\ u_host u = u_host t /\ u_port u = u_port t /\ u_path u = u_path t.
Proof. exact put_url_followed. Qed.
Print Assumptions C13_location_followed.

Theorem C13_location_query :
  forall req l dg k v,
    In (k, v) (u_query (put_url req l dg)) <->
    (k = k_digest /\ v = dg) \/ (k <> k_digest /\ In (k, v) (u_query (resolve req l))).
Proof. exact put_url_query. Qed.
Print Assumptions C13_location_query.

Example C13_location_example :
  put_url_str (b "https") (b "registry.example") (b "443")
              (b "https://registry.example/v2/app/blobs/uploads/7?_state=s1") (b "sha256:ab")
  = Some (b "https://registry.example:443/v2/app/blobs/uploads/7?_state=s1&digest=sha256%3Aab").
Proof. vm_compute. reflexivity. Qed.

(* ------------------------------------------------------------------ *)
(* Read/Seek on a blob reader, with the registry model (any profile with range support)
   answering the Range requests, = an in-memory reader over the
   blob's bytes, for every script and every behaviour of the response bodies (chunking,
   data together with io.EOF); a Range request "bytes=off-(size-1)" is emitted exactly when
   the position changes to an offset inside the blob. *)
Theorem C13_seek :
  forall (modes : nat -> bmode) (p : profile) (d : str),
    p_range p = true ->
    forall content os,
      rsc_run modes (range_srv p d content None) (rsc_open content (len content)) os
      = ref_run modes content (mkPos 0 false 0) os.
Proof. exact seek_refines. Qed.
Print Assumptions C13_seek.

(* Seek against ANY server (arbitrary, also corrupted, answers to the Range request): at most
   one request, for bytes t..size-1 with t inside the blob, and it is one the specification
   allows; a reconnect is accepted only from a 206 whose Content-Length is absent or the length
   of the requested range, and the reader then serves that response's body.  (The digest header
   of a 206 is not looked at: known finding seek-206-digest-unverified.) *)
Theorem C13_seek_request_shape :
  forall (modes : nat -> bmode) (srv : nat -> N -> N -> response) k o k1 rq out,
    rsc_step modes srv k o = (k1, rq, out) ->
    rq = [] \/ exists t, rq = [(t, k_size k - 1)] /\ t < k_size k /\ k_rq k1 = S (k_rq k).
Proof. exact seek_request_shape. Qed.
Print Assumptions C13_seek_request_shape.

Theorem C13_seek_request_allowed :
  forall (modes : nat -> bmode) (srv : nat -> N -> N -> response) main d k o k1 a bb out,
    valid_repository main = true -> valid_digest d = true ->
    rsc_step modes srv k o = (k1, [(a, bb)], out) ->
    allowed (mkReq GET main (EBlob d) None None None None None (Some (a, bb)) []) = true.
Proof. exact seek_request_allowed. Qed.
Print Assumptions C13_seek_request_allowed.

Theorem C13_corruption_rejected_seek :
  forall (modes : nat -> bmode) (srv : nat -> N -> N -> response) k off w k1 t0 b0 t,
    rsc_step modes srv k (SSeek off w) = (k1, [(t0, b0)], SPos t) ->
    let r := srv (k_rq k) t (k_size k - 1) in
    t0 = t /\ r_status r = 206 /\ len_consistent r (k_size k - t) /\ k_rc k1 = r_body r /\ k_off k1 = t.
Proof. exact seek_accepts_consistent. Qed.
Print Assumptions C13_corruption_rejected_seek.

(* known finding seek-206-digest-unverified: a 206 whose well-formed digest header names other
   content is accepted (witness; the full "digest header contradicts -> fail" is false for Seek) *)
Theorem C13_corruption_rejected_seek_digest_refuted :
  let '(k1, rq, out) := rsc_step (fun _ => mkBm 0 false) w_seek_srv (rsc_open (b "hello world") 11) (SSeek 6 SeekStart) in
  out = SPos 6 /\ rq = [(6, 10)] /\ k_rc k1 = b "world" /\
  r_dig (w_seek_srv 0%nat 6 10) = Some w_seek_other /\ valid_digest w_seek_other = true /\
  str_eqb w_seek_other w_seek_digest = false.
Proof. exact seek_206_digest_unverified_refuted. Qed.
Print Assumptions C13_corruption_rejected_seek_digest_refuted.

(* the readers C13_seek speaks of are the ones the client hands out: in every capability
   profile (also ranges without Content-Length on the GET, where the descriptor comes from a
   HEAD) blob FetchReference and Fetch open the reader with the blob's true size *)
Theorem C13_seek_size_fetch_reference :
  forall (H : str -> str) (parse_mt : str -> option str) (subject_of : str -> option (option desc))
         (main other : str) (p : profile),
    parse_mt ct_octet = Some ct_octet ->
    forall g n rs rf c,
      resolve_ref main rs = Some rf -> valid_digest rf = true -> lookup rf (g_blobs g) = Some c ->
      exists n' t res,
        blob_fetchref parse_mt main (reg * N) (cexch H subject_of main other p None) (g, n) rs
        = ((g, n'), t, res) /\
        seeker_of res 0 = Some (rsc_open c (len c)).
Proof. exact fetchref_seeker. Qed.
Print Assumptions C13_seek_size_fetch_reference.

Theorem C13_seek_size_fetch :
  forall (H : str -> str) (subject_of : str -> option (option desc)) (main other : str) (p : profile)
         g n d c,
    lookup (d_dg d) (g_blobs g) = Some c -> len c = d_sz d -> valid_digest (d_dg d) = true ->
    exists t res,
      blob_fetch (reg * N) (cexch H subject_of main other p None) main (g, n) d = ((g, n + 1), t, res) /\
      seeker_of res (d_sz d) = Some (rsc_open c (len c)).
Proof. exact fetch_seeker. Qed.
Print Assumptions C13_seek_size_fetch.

(* ... and that reader returns, for EVERY body behaviour (short reads of any chunk size, the
   last bytes with or before io.EOF, per body), a prefix of the bytes at the position, no
   longer than the buffer, advances by exactly what it returned, and reports io.EOF only
   at the end of the content *)
Theorem C13_seek_read :
  forall (modes : nat -> bmode) content k n k1 rq c eof,
    s_closed k = false ->
    ref_step modes content k (SRead n) = (k1, rq, SData c eof) ->
    rq = [] /\ c = firstn (length c) (skipn (N.to_nat (s_off k)) content) /\
    (len c <= n) /\ s_off k1 = s_off k + len c /\
    (eof = true -> skipn (N.to_nat (s_off k1)) content = []).
Proof. exact ref_read_spec. Qed.
Print Assumptions C13_seek_read.

(* non-vacuity: a body that delivers 3 bytes per call and the last ones together with EOF;
   read to the very end, ask for the position, step back, re-read, seek to the same place *)
Example C13_seek_example :
  rsc_run (fun _ => mkBm 3 true) (range_srv (mkProfile true true true false false) zero_digest (b "hello world") None)
          (rsc_open (b "hello world") 11)
          [SRead 2; SSeek 6 SeekStart; SRead 100; SRead 100; SSeek 0 SeekCurrent; SRead 1;
           SSeek (-1) SeekCurrent; SRead 5; SSeek 11 SeekStart; SSeek 0 SeekEnd]
  = [([], SData (b "he") false); ([(6, 10)], SPos 6); ([], SData (b "wor") false);
     ([], SData (b "ld") true); ([], SPos 11); ([], SData [] true);
     ([(10, 10)], SPos 10); ([], SData (b "d") true); ([], SPos 11); ([], SPos 11)].
Proof. vm_compute. reflexivity. Qed.
