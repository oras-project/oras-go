(* C11 — The file store never writes outside its working directory by default.

   Model: Model/FileConfine.v (tree file system with symbolic links, hard links and
   kernel path resolution; push / resolveWritePath / pushFile / pushDir /
   ensureDirNoSymlink / removeSymlink / extractTarDirectory / resolveRelToBase /
   ensureLinkPath as repaired on this branch;
   cfg flags select the pre-repair behaviour).  Lemmas: Proofs/FileConfine.v.

   view_at f p is everything an observer sees at physical location p (absent; directory with
   its permission bits and the time last set on it with utimes; file content with its permission
   bits and the time last set; link text): "view_at f' p =
   view_at f p for every p not below wd" says that nothing outside the working directory
   was created, overwritten, truncated, re-moded, re-timed, replaced or deleted.  pres is
   Store.PreservePermissions.  Inv is the invariant of a tree whose working directory (and its
   ancestors) are real directories and whose files below it share no inode with the outside.
   It says nothing about symbolic links: the tree may hold any links with any targets (links
   unpacked by the store keep the raw target of the archive; user-made links are allowed):
   the repaired store never follows a link below the working directory, so every mutation
   happens at the lexical location that was validated.  Inv is preserved by the store. *)
From Oras Require Import Base.Prelude Model.FileConfine Proofs.FileConfine Proofs.FileConfineTaint.

(* THE CONFINEMENT THEOREM, full.  taint f is a ghost field of the tree that no operation reads
   or changes: the inodes that files below the working directory may share with files outside when
   the store is opened (pre-populated hard links: cp -al, ostree-style checkouts).  Inv asks that
   the working directory and its ancestors are real directories and that every inode shared
   between inside and outside is in taint (any tree satisfies this with a suitable taint; with
   taint = [] it says that nothing is shared).  same_outside: for every location outside the
   working directory the entry (existence, type, inode, link text), the attributes of
   directories, and the content / permission bits / times of every file whose inode is not
   tainted are unchanged.  For every history of pushes (named blobs, archives, failing ones,
   unnamed content, manifests; any titles, entries, link targets, PreservePermissions, cwd): *)
Theorem C11_confined :
  forall (wd : path) (pres : bool) (cwd : path) (os : list pushop) (s s' : store) (oks : list bool),
    Inv wd (st_fs s) ->
    pushes cfg_fixed pres wd cwd s os = (s', oks) ->
    Inv wd (st_fs s') /\ same_outside wd (st_fs s) (st_fs s').
Proof. exact pushes_keeps. Qed.
Print Assumptions C11_confined.

(* in terms of the observer's view: it can change only at an outside file whose inode is tainted,
   and that file stays a file of that inode (this is exactly the known finding shared-inode-*:
   the only outside effect the repaired store can have, C11_shared_inode_refuted) *)
Theorem C11_confined_view :
  forall (wd : path) (pres : bool) (cwd : path) (os : list pushop) (s s' : store) (oks : list bool),
    Inv wd (st_fs s) ->
    pushes cfg_fixed pres wd cwd s os = (s', oks) ->
    forall p, inside wd p = false ->
      view_at (st_fs s') p = view_at (st_fs s) p \/
      exists i, lookup (st_fs s) p = Some (NFile i) /\ In i (taint (st_fs s)) /\ lookup (st_fs s') p = Some (NFile i).
Proof.
  intros wd pres cwd os s s' oks I H.
  exact (same_outside_view_tainted wd _ _ (proj2 (pushes_keeps wd pres cwd os s s' oks I H))).
Qed.
Print Assumptions C11_confined_view.

(* with no inode shared between inside and outside (taint = []) nothing at all changes *)
Theorem C11_confined_partial :
  forall (wd : path) (pres : bool) (cwd : path) (os : list pushop) (s s' : store) (oks : list bool),
    Inv wd (st_fs s) -> taint (st_fs s) = [] ->
    pushes cfg_fixed pres wd cwd s os = (s', oks) ->
    Inv wd (st_fs s') /\
    (forall p, inside wd p = false -> view_at (st_fs s') p = view_at (st_fs s) p).
Proof.
  intros wd pres cwd os s s' oks I T H.
  exact (KeepsP_untainted Inv wd _ _ (pushes_keeps wd pres cwd os s s' oks I H) T).
Qed.
Print Assumptions C11_confined_partial.

Example C11_example_inv_shared_inode : Inv wd0 fs2t.
Proof. exact inv_fs2t. Qed.

(* the entry of the working directory in its parent is not deleted or replaced either *)
Theorem C11_working_directory_kept :
  forall (wd : path) (pres : bool) (cwd : path) (os : list pushop) (s s' : store) (oks : list bool),
    wd <> [] -> Inv wd (st_fs s) ->
    pushes cfg_fixed pres wd cwd s os = (s', oks) ->
    lookup (st_fs s') wd = Some NDir.
Proof.
  intros wd pres cwd os s s' oks Hwd I H.
  exact (inv_wd_self _ _ (proj1 (pushes_keeps wd pres cwd os s s' oks I H)) Hwd).
Qed.
Print Assumptions C11_working_directory_kept.

(* a title that lexically resolves outside is rejected with an error and nothing changes
   (for every configuration, repaired or not) *)
Theorem C11_outside_title_rejected :
  forall (g : cfg) (pres : bool) (wd cwd : path) (s : store) (o : pushop),
    inside wd (lex_loc wd (push_title o)) = false -> push_title o <> [] ->
    push g pres wd cwd s o = (s, false).
Proof. exact push_outside_title. Qed.
Print Assumptions C11_outside_title_rejected.

(* an archive with an entry whose name lexically resolves outside is rejected with an error *)
Theorem C11_outside_entry_rejected :
  forall (g : cfg) (pres : bool) (wd cwd : path) (s : store) (title : str) (ts : list N)
         (es1 : list entry) (e : entry) (es2 : list entry),
    title <> [] ->
    inside wd (lex_loc wd (entry_name e)) = false ->
    snd (push g pres wd cwd s (PDir title ts (es1 ++ e :: es2))) = false.
Proof. exact push_outside_entry. Qed.
Print Assumptions C11_outside_entry_rejected.

(* and the entry itself has no effect, whatever the state of the tree *)
Theorem C11_outside_entry_no_effect :
  forall (g : cfg) (pres : bool) (wd cwd : path) (title : str) (f : fsys) (e : entry),
    inside wd (lex_loc wd title) = true ->
    inside wd (lex_loc wd (entry_name e)) = false ->
    forall t, extract_entry g pres cwd (lex_loc wd title) title f e t = None.
Proof. exact entry_outside_rejected. Qed.
Print Assumptions C11_outside_entry_no_effect.

(* the code before the repairs violates the statement; each repair is necessary
   (cfg = hard-link target relative to the link / cleaned write path / no link in place of the
   unpack directory / ensureDirNoSymlink / removeSymlink) *)
Theorem C11_prefix_refuted : escapes cfg_prefix.
Proof. escape_with os_hardlink_cwd [b "c"; b "secret"]. Qed.
Print Assumptions C11_prefix_refuted.

Theorem C11_prefix_refuted_hardlink_cwd : escapes (mkCfg false true true true true true true).
Proof. escape_with os_hardlink_cwd [b "c"; b "secret"]. Qed.
Print Assumptions C11_prefix_refuted_hardlink_cwd.

Theorem C11_prefix_refuted_raw_absolute_title : escapes (mkCfg true false true true true true true).
Proof. escape_with os_abs_title [b "victim"]. Qed.
Print Assumptions C11_prefix_refuted_raw_absolute_title.

Theorem C11_prefix_refuted_link_replaces_working_directory :
  lookup (st_fs (fst (pushes (mkCfg true true false true true true true) false wd0 cwd0 (mkStore fs1 [] []) os_replace_wd))) wd0
  <> Some NDir.
Proof. vm_compute. discriminate. Qed.
Print Assumptions C11_prefix_refuted_link_replaces_working_directory.

(* directories created or entered through a link (named blob below a link) *)
Theorem C11_prefix_refuted_directory_through_link : escapes (mkCfg true true true false true true true).
Proof. escape_with os_hardlink_symlink [b "r"; b "victim"]. Qed.
Print Assumptions C11_prefix_refuted_directory_through_link.

(* regular entry / named blob written through a final link whose raw target leaves the tree *)
Theorem C11_prefix_refuted_write_through_link : escapes (mkCfg true true true true false true true).
Proof. escape_with os_raw_target [b "victim"]. Qed.
Print Assumptions C11_prefix_refuted_write_through_link.

Theorem C11_prefix_refuted_blob_through_link : escapes (mkCfg true true true true false true true).
Proof. escape_with os_raw_target_blob [b "victim"]. Qed.
Print Assumptions C11_prefix_refuted_blob_through_link.

(* unpack directory reached through a link (neither of the last two repairs) *)
Theorem C11_prefix_refuted_unpack_through_link : escapes (mkCfg true true true false false true true).
Proof. escape_with os_title_through_link [b "r"; b "x"; b "victim"]. Qed.
Print Assumptions C11_prefix_refuted_unpack_through_link.

(* a directory entry on top of a link, with PreservePermissions: directory modes are applied after
   the last entry and only to paths that are still directories, never through the link *)
Example C11_example_remode_skips_links :
  snd (fst (pushes cfg_fixed true wd0 cwd0 (mkStore fs0 [] []) os_remode), snd (pushes cfg_fixed true wd0 cwd0 (mkStore fs0 [] []) os_remode)) = [true] /\
  view_at (st_fs (fst (pushes cfg_fixed true wd0 cwd0 (mkStore fs0 [] []) os_remode))) [b "r"] = view_at fs0 [b "r"].
Proof. split; vm_compute; reflexivity. Qed.

(* os.Chtimes through a freshly unpacked link sets the times of a file outside *)
Theorem C11_prefix_refuted_times_through_link : escapes (mkCfg true true true true true false true).
Proof. escape_with os_touch [b "victim"]. Qed.
Print Assumptions C11_prefix_refuted_times_through_link.

(* the hypotheses are satisfiable and the repaired store still accepts ordinary archives *)
Example C11_example_inv : Inv wd0 fs0.
Proof. exact inv_fs0. Qed.

Example C11_example_inv1 : Inv wd0 fs1.
Proof. exact inv_fs1. Qed.

Example C11_example_replace_wd_rejected :
  pushes cfg_fixed false wd0 cwd0 (mkStore fs1 [] []) os_replace_wd = (mkStore fs1 [] [], [false]).
Proof. vm_compute. reflexivity. Qed.

Example C11_example_ordinary :
  snd (run0 cfg_fixed os_ordinary) = [true; true; true] /\
  view_at (fst (run0 cfg_fixed os_ordinary)) [b "r"; b "w"; b "t"; b "a"; b "b"; b "f"] = VFile (enc 8 384) 0%N /\
  view_at (fst (run0 cfg_fixed os_ordinary)) [b "r"; b "w"; b "t"; b "l"] = VFile (enc 9 420) 0%N /\
  view_at (fst (run0 cfg_fixed os_ordinary)) [b "r"; b "w"; b "t"; b "k"] = VSym (b "a/b/s/../x") /\
  view_at (fst (run0 cfg_fixed os_ordinary)) [b "r"; b "w"; b "old"] = VFile (enc 11 104) 0%N.
Proof. vm_compute. repeat split. Qed.

Example C11_example_attacks_confined :
  forall os, In os [os_hardlink_cwd; os_raw_target; os_raw_target_blob; os_title_through_link; os_abs_title; os_hardlink_symlink] ->
  forall p, inside wd0 p = false -> view_at (fst (run0 cfg_fixed os)) p = view_at fs0 p.
Proof. exact attacks_confined_fixed. Qed.

Example C11_example_narrow_unpack_directory :
  snd (run0 cfg_fixed os_narrow) = [true] /\
  view_at (fst (run0 cfg_fixed os_narrow)) [b "r"; b "w"; b "t"] = VDir 448%N 0%N /\
  view_at (fst (run0 cfg_fixed os_narrow)) [b "r"; b "w"; b "t"; b "a"] = VDir 493%N 0%N /\
  view_at (fst (run0 cfg_fixed os_narrow)) [b "r"; b "w"] = VDir 493%N 0%N.
Proof. vm_compute. repeat split. Qed.

Example C11_example_times_not_through_link :
  snd (run0 cfg_fixed os_touch) = [true] /\
  view_at (fst (run0 cfg_fixed os_touch)) [b "victim"] = view_at fs0 [b "victim"] /\
  view_at (fst (run0 cfg_fixed os_touch)) [b "r"; b "w"; b "t"; b "l"] = VSym (b "a/b/s/../../../victim").
Proof. vm_compute. repeat split. Qed.

Example C11_example_times_set :
  view_at (fst (run0 cfg_fixed os_times)) [b "r"; b "w"; b "t"; b "a"] = VDir 493%N 5%N /\
  view_at (fst (run0 cfg_fixed os_times)) [b "r"; b "w"; b "t"; b "a"; b "f"] = VFile (enc 7 420) 6%N.
Proof. vm_compute. repeat split. Qed.

(* audit F5: the other ways a name "would resolve outside" are rejected too *)

(* an entry name that is not below the unpack directory (even when inside the working directory) *)
Theorem C11_entry_outside_unpack_directory_rejected :
  forall (g : cfg) (pres : bool) (wd cwd : path) (title : str) (f : fsys) (e : entry),
    inside (lex_loc wd title) (lex_loc wd (entry_name e)) = false ->
    forall t, extract_entry g pres cwd (lex_loc wd title) title f e t = None.
Proof. exact entry_outside_unpack_dir_rejected. Qed.
Print Assumptions C11_entry_outside_unpack_directory_rejected.

(* a symbolic or hard link whose target, relative to the link's directory, is lexically not below
   the unpack directory *)
Theorem C11_link_target_outside_rejected :
  forall (g : cfg) (pres : bool) (cwd dp : path) (dirName : str) (f : fsys) (nm tgt : str) (rel : list name) (t : N),
    entry_rel dp dirName nm = Some rel ->
    inside dp (link_abs_path (dp ++ rel) tgt) = false ->
    extract_entry g pres cwd dp dirName f (ESym nm tgt) t = None /\
    extract_entry g pres cwd dp dirName f (EHard nm tgt) t = None.
Proof. exact link_target_outside_rejected. Qed.
Print Assumptions C11_link_target_outside_rejected.

(* a name with a symbolic link among its parents below the unpack directory (for every entry type) *)
Theorem C11_entry_through_link_rejected :
  forall (g : cfg) (pres : bool) (cwd dp : path) (dirName : str) (f : fsys) (e : entry) (t : N)
         (q : list name) (c : name) (r : list name) (d : str) (a : bool) (cs : list comp),
    RealD f [] dp -> RealD f dp q ->
    entry_rel dp dirName (entry_name e) = Some (q ++ c :: r) -> r <> [] ->
    lookup f (dp ++ q ++ [c]) = Some (NSym d a cs) ->
    extract_entry g pres cwd dp dirName f e t = None.
Proof. exact entry_through_link_rejected. Qed.
Print Assumptions C11_entry_through_link_rejected.

(* audit F3: without "no inode shared with the outside" the statement fails on the repaired store *)
Theorem C11_shared_inode_refuted :
  inside wd0 [b "victim"] = false /\
  snd (pushes cfg_fixed false wd0 cwd0 (mkStore fs2 [] []) [PBlob (b "old") 7%N]) = [true] /\
  view_at (st_fs (fst (pushes cfg_fixed false wd0 cwd0 (mkStore fs2 [] []) [PBlob (b "old") 7%N]))) [b "victim"]
  <> view_at fs2 [b "victim"].
Proof. split; [reflexivity|]. split; [vm_compute; reflexivity | vm_compute; discriminate]. Qed.
Print Assumptions C11_shared_inode_refuted.

(* manifests: Store.Push of a manifest restores the named layers whose content
   the store holds - each one an ordinary named-blob push in the current tree, so
   C11_confined_partial covers histories with manifests; a hostile layer title ends the push *)
Theorem C11_manifest_outside_layer_rejected :
  forall (g : cfg) (wd : path) (s : store) (t : str) (c c' : N) (r : list (str * N)),
    t <> [] -> existsb (str_eqb t) (st_names s) = false -> fetch s c = FSome c' ->
    inside wd (lex_loc wd t) = false ->
    restore_layers g wd s ((t, c) :: r) = (s, false).
Proof. exact manifest_outside_layer_rejected. Qed.
Print Assumptions C11_manifest_outside_layer_rejected.

Example C11_example_manifest :
  snd (run0 cfg_fixed os_manifest) = [true; true; true; true; false; false] /\
  view_at (fst (run0 cfg_fixed os_manifest)) [b "r"; b "w"; b "second"] = VFile (enc 41 420) 0%N /\
  view_at (fst (run0 cfg_fixed os_manifest)) [b "r"; b "w"; b "m"; b "third"] = VFile (enc 51 420) 0%N /\
  view_at (fst (run0 cfg_fixed os_manifest)) [b "r"; b "w"; b "absent"] = VNone /\
  view_at (fst (run0 cfg_fixed os_manifest)) [b "r"; b "w"; b "x"] = VFile (enc 52 420) 0%N /\
  view_at (fst (run0 cfg_fixed os_manifest)) [b "r"; b "w"; b "never"] = VNone /\
  view_at (fst (run0 cfg_fixed os_manifest)) [b "victim"] = view_at fs0 [b "victim"].
Proof. vm_compute. repeat split. Qed.

Example C11_example_manifest_stale_content :
  snd (run0 cfg_fixed os_manifest_stale) = [true; true; false] /\
  view_at (fst (run0 cfg_fixed os_manifest_stale)) [b "r"; b "w"; b "n1"] = VFile (enc 54 420) 0%N /\
  view_at (fst (run0 cfg_fixed os_manifest_stale)) [b "r"; b "w"; b "copy"] = VNone /\
  view_at (fst (run0 cfg_fixed os_manifest_stale)) [b "r"; b "w"; b "later"] = VNone.
Proof. vm_compute. repeat split. Qed.

(* the process's current directory has no influence on what the repaired store does (in the
   unrepaired code relative hard-link targets were taken from it: C11_prefix_refuted_hardlink_cwd) *)
Theorem C11_cwd_irrelevant :
  forall (pres : bool) (wd cwd1 cwd2 : path) (os : list pushop) (s : store),
    pushes cfg_fixed pres wd cwd1 s os = pushes cfg_fixed pres wd cwd2 s os.
Proof. exact pushes_cwd. Qed.
Print Assumptions C11_cwd_irrelevant.

(* an Lstat (kernel walk, last element not followed) of a path whose proper parents are not links
   sees exactly what the tree holds at that lexical location - the justification for modelling the
   store's Lstat checks as look-ups *)
Theorem C11_lstat_is_lookup :
  forall (f : fsys) (p : path) (fuel nl : nat),
    lexreal f [] p = true ->
    match walk fuel f nl [] (Nms p) false with
    | WFile q i => q = p /\ lookup f p = Some (NFile i)
    | WSym q d a cs => q = p /\ lookup f p = Some (NSym d a cs)
    | WNoEnt q => q = p /\ lookup f p = None
    | WDir q => q = p
    | _ => True
    end.
Proof.
  intros f p fuel nl HL. pose proof (walk_lex f p fuel nl HL) as W.
  destruct (walk fuel f nl [] (Nms p) false); try exact I; try split; apply W.
Qed.
Print Assumptions C11_lstat_is_lookup.

(* archives that fail (gzip verification / broken tar stream / tar digest mismatch) are operations of
   the histories C11_confined_partial quantifies over (PDirF) *)
Example C11_example_failing_archives :
  snd (run0 cfg_fixed os_failing) = [false; false; false] /\
  view_at (fst (run0 cfg_fixed os_failing)) [b "r"; b "w"; b "g"] = VDir 493%N 0%N /\
  view_at (fst (run0 cfg_fixed os_failing)) [b "r"; b "w"; b "g"; b "d"] = VNone /\
  view_at (fst (run0 cfg_fixed os_failing)) [b "r"; b "w"; b "t"; b "d"] = VDir 448%N 0%N /\
  view_at (fst (run0 cfg_fixed os_failing)) [b "r"; b "w"; b "t"; b "d"; b "f"] = VFile (enc 7 420) 0%N /\
  view_at (fst (run0 cfg_fixed os_failing)) [b "r"; b "w"; b "u"; b "d"] = VDir 320%N 0%N.
Proof. vm_compute. repeat split. Qed.

(* a working directory that does not exist yet (audit F2a): PreInv = Inv, or Inv0 (the working
   directory is missing, its ancestors are real directories, nothing below it).  The first push
   that gets that far creates it; everything outside stays untouched throughout.  Partial: titles
   that denote the working directory itself are excluded (such a named blob would create a
   regular file where the working directory should be) *)
Theorem C11_confined_missing_wd_partial :
  forall (wd : path) (pres : bool) (cwd : path) (os : list pushop) (s s' : store) (oks : list bool),
    PreInv wd (st_fs s) -> Forall (op_ok wd) os ->
    pushes cfg_fixed pres wd cwd s os = (s', oks) ->
    PreInv wd (st_fs s') /\ same_outside wd (st_fs s) (st_fs s').
Proof. exact pushes_keeps0. Qed.
Print Assumptions C11_confined_missing_wd_partial.

Example C11_example_inv0 : Inv0 wd0 fs3.
Proof. exact inv0_fs3. Qed.

Example C11_example_first_push_creates_wd :
  snd (pushes cfg_fixed false wd0 cwd0 (mkStore fs3 [] []) os_first_push) = [false; true; true] /\
  lookup (st_fs (fst (pushes cfg_fixed false wd0 cwd0 (mkStore fs3 [] []) os_first_push))) wd0 = Some NDir /\
  view_at (st_fs (fst (pushes cfg_fixed false wd0 cwd0 (mkStore fs3 [] []) os_first_push))) [b "victim"] = view_at fs3 [b "victim"].
Proof. vm_compute. repeat split. Qed.

(* seed C11-r3m2: a per-store memory of checked directories (cfg flag fixK = false) lets a
   three-step history escape; the repaired store walks the path again and refuses *)
Theorem C11_prefix_refuted_cached_checked_directories : escapes (mkCfg true true true true true true false).
Proof. escape_with os_cached_dir [b "r"; b "victim"]. Qed.
Print Assumptions C11_prefix_refuted_cached_checked_directories.

Example C11_example_revisit_history_refused :
  snd (run0 cfg_fixed os_cached_dir) = [true; true; false] /\
  view_at (fst (run0 cfg_fixed os_cached_dir)) [b "r"; b "victim"] = view_at fs0 [b "r"; b "victim"] /\
  view_at (fst (run0 cfg_fixed os_cached_dir)) [b "r"; b "w"; b "a"; b "e"] = VSym (b "q/..").
Proof. vm_compute. repeat split. Qed.

(* ... and without the side condition: PreInv3 adds the third state InvF "a regular file sits where
   the working directory should be" (what a named blob titled like the missing working directory
   leaves behind; pushes below it fail, a failed verification removes it again).  For every
   history, from a tree in any of the three states: everything outside the working directory is
   untouched and the tree stays in one of the three states *)
Theorem C11_confined_missing_wd :
  forall (wd : path) (pres : bool) (cwd : path) (os : list pushop) (s s' : store) (oks : list bool),
    PreInv3 wd (st_fs s) ->
    pushes cfg_fixed pres wd cwd s os = (s', oks) ->
    PreInv3 wd (st_fs s') /\ same_outside wd (st_fs s) (st_fs s').
Proof. exact pushes_keeps3. Qed.
Print Assumptions C11_confined_missing_wd.

(* ... as the observer's view when no inode is shared *)
Theorem C11_confined_missing_wd_view :
  forall (wd : path) (pres : bool) (cwd : path) (os : list pushop) (s s' : store) (oks : list bool),
    PreInv3 wd (st_fs s) -> taint (st_fs s) = [] ->
    pushes cfg_fixed pres wd cwd s os = (s', oks) ->
    PreInv3 wd (st_fs s') /\
    (forall p, inside wd p = false -> view_at (st_fs s') p = view_at (st_fs s) p).
Proof.
  intros wd pres cwd os s s' oks I T H.
  exact (KeepsP_untainted PreInv3 wd _ _ (pushes_keeps3 wd pres cwd os s s' oks I H) T).
Qed.
Print Assumptions C11_confined_missing_wd_view.

Example C11_example_wd_as_file :
  snd (pushes cfg_fixed false wd0 cwd0 (mkStore fs3 [] []) os_wd_as_file) = [true; false; false; false; true] /\
  lookup (st_fs (fst (pushes cfg_fixed false wd0 cwd0 (mkStore fs3 [] []) os_wd_as_file))) wd0 = Some NDir /\
  view_at (st_fs (fst (pushes cfg_fixed false wd0 cwd0 (mkStore fs3 [] []) os_wd_as_file))) [b "victim"] = view_at fs3 [b "victim"].
Proof. vm_compute. repeat split. Qed.

(* the hypothesis of C11_confined is satisfiable by every tree whose working directory is reached
   through real directories (declare all inodes tainted; a smaller taint gives a stronger conclusion) *)
Theorem C11_inv_any_tree :
  forall (wd : path) (f : fsys),
    (forall q r, wd = q ++ r -> q <> [] -> lookup f q = Some NDir) ->
    (forall p i, lookup f p = Some (NFile i) -> i < nexti f) ->
    Inv wd (with_taint (seq 0 (nexti f)) f).
Proof. exact inv_any_tree. Qed.
Print Assumptions C11_inv_any_tree.

(* the ghost field is never read: the run on a tree with any taint set t is the run on the tree
   itself (same results, same tree, same book-keeping) with t put back - for every configuration *)
Theorem C11_taint_never_read :
  forall (t : list nat) (g : cfg) (pres : bool) (wd cwd : path) (s : store) (os : list pushop),
    pushes g pres wd cwd (swt t s) os =
    (swt t (fst (pushes g pres wd cwd s os)), snd (pushes g pres wd cwd s os)).
Proof. exact pushes_t. Qed.
Print Assumptions C11_taint_never_read.

(* the full theorem without any ghost and without the no-shared-inode premise: ANY tree in which
   the working directory is reached through real directories (inode numbers below the counter),
   any number of pushes of any kind, from any process cwd: what an observer sees at a location
   outside the working directory changes only if it is a file one of whose other names lay below
   the working directory when the store was opened - and then it is still that file *)
Theorem C11_confined_any_tree :
  forall (wd : path) (pres : bool) (cwd : path) (os : list pushop) (s s' : store) (oks : list bool),
    (forall q r, wd = q ++ r -> q <> [] -> lookup (st_fs s) q = Some NDir) ->
    (forall p i, lookup (st_fs s) p = Some (NFile i) -> i < nexti (st_fs s)) ->
    pushes cfg_fixed pres wd cwd s os = (s', oks) ->
    forall p, inside wd p = false ->
      view_at (st_fs s') p = view_at (st_fs s) p \/
      exists i q, lookup (st_fs s) p = Some (NFile i) /\ lookup (st_fs s') p = Some (NFile i) /\
                  inside wd q = true /\ lookup (st_fs s) q = Some (NFile i).
Proof. exact pushes_confined_any_tree. Qed.
Print Assumptions C11_confined_any_tree.
