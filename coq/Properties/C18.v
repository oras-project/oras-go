(* C18 -- The credentials file store round-trips secrets and never damages the
   config file.  Each theorem restates, with the codec written out as arguments, a
   lemma (or a conjunction of lemmas) of Proofs/CredFile.v (the store),
   Proofs/CredSave.v (saveFile down to system calls), Proofs/CredConc.v (concurrent
   callers), Proofs/Base64.v, and Proofs/Json.v, CredJson.v, JsonDoc.v, JsonRead.v,
   JsonFile.v (the bytes in the file); the Examples are closed by evaluation and show
   that the hypotheses can be met.
   base64 is a parameter [enc]/[dec] with the two stated hypotheses; both are
   proved for the concrete RFC 4648 codec of Model/Base64.v (C18_base64_roundtrip,
   C18_base64_nonempty), which gives the hypothesis-free C18_roundtrip_concrete. *)
From Coq Require Import Permutation.
From Oras Require Import Base.Prelude Base.FlatFS Generated.GC18
  Model.Utf8 Model.Json Model.Base64 Model.CredFile Model.JsonDoc Model.JsonRead Model.CredSave Model.CredConc
  Proofs.Base64 Proofs.Json Proofs.CredFile Proofs.CredSave Proofs.CredConc Proofs.CredJson Proofs.JsonDoc Proofs.JsonRead Proofs.JsonFile.

(* Put then Get -- after any further history that does not Put/Delete the same
   address -- returns exactly the stored credential, whatever order Go's map
   iteration takes (every candidate answer is the stored credential). *)
Theorem C18_roundtrip :
  forall (enc : str -> str) (dec : str -> option str) (ok : str -> Prop),
    (forall s, ok s -> dec (enc s) = Some s) -> (forall s, enc s = [] -> s = []) ->
    forall st a c h,
      put_accepts a c = true ->
      ok (c_user c ++ colon :: c_pass c) ->
      (forall o, In o h -> ~ writes a o) ->
      snd (step enc dec st (Put a c)) = ROk /\
      get_candidates dec (cache_of (run enc dec (fst (step enc dec st (Put a c))) h)) a = [RCred c] /\
      snd (step enc dec (run enc dec (fst (step enc dec st (Put a c))) h) (Get a)) = RCred c.
Proof. exact roundtrip. Qed.
Print Assumptions C18_roundtrip.

(* the concrete base64 codec satisfies both hypotheses on byte strings *)
Theorem C18_base64_roundtrip :
  forall s, Forall (fun c => c < 256) s -> b64_decode (b64_encode s) = Some s.
Proof. exact b64_roundtrip. Qed.
Print Assumptions C18_base64_roundtrip.

Theorem C18_base64_nonempty : forall s, b64_encode s = [] -> s = [].
Proof. exact b64_encode_nonempty. Qed.
Print Assumptions C18_base64_nonempty.

(* the round trip with the real codec: no hypothesis left but "bytes are bytes" *)
Theorem C18_roundtrip_concrete :
  forall st a c h,
    put_accepts a c = true ->
    Forall (fun x => x < 256) (c_user c ++ colon :: c_pass c) ->
    (forall o, In o h -> ~ writes a o) ->
    snd (step b64_encode b64_decode st (Put a c)) = ROk /\
    get_candidates b64_decode (cache_of (run b64_encode b64_decode (fst (step b64_encode b64_decode st (Put a c))) h)) a = [RCred c] /\
    snd (step b64_encode b64_decode (run b64_encode b64_decode (fst (step b64_encode b64_decode st (Put a c))) h) (Get a)) = RCred c.
Proof. exact (roundtrip b64_encode b64_decode bytes b64_roundtrip b64_encode_nonempty). Qed.
Print Assumptions C18_roundtrip_concrete.

(* Go's map iteration order in GetCredential: the candidate list is exactly the
   set of answers over all orders of the key-unique cache *)
Theorem C18_get_all_orders :
  forall (dec : str -> option str) cache a r,
    NoDup (map fst cache) ->
    (In r (get_candidates dec cache a) <->
     exists cache', Permutation cache cache' /\ get_cache dec cache' a = r).
Proof. exact candidates_all_orders. Qed.
Print Assumptions C18_get_all_orders.

(* a colon in the username is refused and nothing changes *)
Theorem C18_colon_refused :
  forall (enc : str -> str) (dec : str -> option str) st a c,
    contains colon (c_user c) = true -> step enc dec st (Put a c) = (st, RErrBadCred).
Proof. exact colon_refused. Qed.
Print Assumptions C18_colon_refused.

(* exactly the credentials FileStore.Put accepts are stored (C18_roundtrip); every
   other one -- colon in the username, or a server address / refresh token /
   access token that is not valid UTF-8 and could only be written lossily as
   JSON -- is refused with ErrBadCredentialFormat and nothing changes *)
Theorem C18_put_refused :
  forall (enc : str -> str) (dec : str -> option str) st a c,
    put_accepts a c = false -> step enc dec st (Put a c) = (st, RErrBadCred).
Proof. exact put_refused. Qed.
Print Assumptions C18_put_refused.

(* Delete removes exactly the entry keyed by the address, in memory and in the file *)
Theorem C18_delete_local :
  forall (enc : str -> str) (dec : str -> option str) st a,
    let st' := fst (step enc dec st (Delete a)) in
    snd (step enc dec st (Delete a)) = ROk /\
    lookup a (cache_of st') = None /\
    (forall a', a' <> a -> lookup a' (cache_of st') = lookup a' (cache_of st)) /\
    (lookup a (cache_of st) = None -> st' = st) /\
    (lookup a (cache_of st) <> None ->
       file_top configFieldAuths (st_file st') = Some (TAuths (cache_of st')) /\
       file_entry a (st_file st') = None /\
       forall a', a' <> a -> file_entry a' (st_file st') = lookup a' (cache_of st)).
Proof. exact delete_local. Qed.
Print Assumptions C18_delete_local.

(* after Delete, Get answers the empty credential unless a legacy key of the
   same host (https://host/, http://host/v1/ ...) is still in the file *)
Theorem C18_delete_then_get :
  forall (enc : str -> str) (dec : str -> option str) st a,
    (forall k e, In (k, e) (cache_of st) -> k <> a -> to_hostname k <> a) ->
    get_candidates dec (cache_of (fst (step enc dec st (Delete a)))) a = [RCred empty_cred].
Proof. exact delete_then_get. Qed.
Print Assumptions C18_delete_then_get.

(* every pre-existing document NewFileStore opens ([open_file]: the document as it
   is on disk, its keys decoded the way encoding/json does), every history: all
   other top-level keys, a configured credsStore and every auths entry that no
   operation addressed are in the file exactly as they were (values are opaque:
   unknown fields included).  PARTIAL: the top-level keys, the auths keys and
   credsStore of the document must be valid UTF-8 once unescaped ([file_utf8]);
   C18_preserves_rest_refuted shows the hypothesis is needed (known finding
   lone-surrogate: encoding/json reads "k\ud800" as "k" ++ U+FFFD and the first
   save renames the key) *)
Theorem C18_preserves_rest_partial :
  forall (enc : str -> str) (dec : str -> option str) f st0 h,
    file_utf8 f -> open_file f = Some st0 ->
    let stf := run enc dec st0 h in
    (forall k, k <> configFieldAuths -> k <> configFieldCredentialsStore ->
               file_top k (st_file stf) = file_top k f) /\
    ((forall o, In o h -> ~ is_setcs o) ->
     forall s, s <> [] -> file_top configFieldCredentialsStore f = Some (TCs s) ->
               file_top configFieldCredentialsStore (st_file stf) = Some (TCs s)) /\
    (forall a, (forall o, In o h -> ~ writes a o) ->
               file_entry a (st_file stf) = file_entry a f).
Proof. exact preserves_rest_partial. Qed.
Print Assumptions C18_preserves_rest_partial.

(* Config.SetCredentialsStore (the fourth saving operation, used by DynamicStore.Put
   once a native store is detected): the file gets exactly the new credsStore
   (the key is dropped for ""), the auths and every other key stay; it is a
   writer operation of the concurrent model like Put and Delete *)
Theorem C18_set_creds_store :
  forall (enc : str -> str) (dec : str -> option str) st s,
    let st' := fst (step enc dec st (SetCs s)) in
    snd (step enc dec st (SetCs s)) = ROk /\
    cache_of st' = cache_of st /\
    file_top configFieldCredentialsStore (st_file st') = cs_value s /\
    file_top configFieldAuths (st_file st') = Some (TAuths (cache_of st)) /\
    (forall k, k <> configFieldAuths -> k <> configFieldCredentialsStore ->
               file_top k (st_file st') = lookup k (m_content (st_mem st))).
Proof. exact setcs_step. Qed.
Print Assumptions C18_set_creds_store.

Theorem C18_preserves_rest_refuted :
  forall (enc : str -> str) (dec : str -> option str),
    exists f st0 h k,
      open_file f = Some st0 /\
      k <> configFieldAuths /\ k <> configFieldCredentialsStore /\
      file_top k f <> None /\
      file_top k (st_file (run enc dec st0 h)) = None.
Proof. exact preserves_rest_refuted. Qed.
Print Assumptions C18_preserves_rest_refuted.

(* the hypothesis of the partial theorem is satisfiable and then NewFileStore is
   [open_store] on the same document *)
Theorem C18_open_file_utf8 :
  forall f, file_utf8 f -> open_file f = open_store f.
Proof. exact open_file_store. Qed.
Print Assumptions C18_open_file_utf8.

Example C18_example_file_utf8 :
  file_utf8 (Some [(b "auths", TAuths [(b "https://reg.io/", Old (b "{}") VErr)]); (b "credsStore", TCs (b "desktop")); (b "x", TRaw (b "1") KOther)]).
Proof. repeat constructor. Qed.

(* the file left by any history loads again and yields a store with the same
   entries (the secrets really are in the file) *)
Theorem C18_reopen :
  forall (enc : str -> str) (dec : str -> option str) f st0 h,
    open_store f = Some st0 ->
    exists st1, open_store (st_file (run enc dec st0 h)) = Some st1 /\
                cache_of st1 = cache_of (run enc dec st0 h) /\
                m_cs (st_mem st1) = m_cs (st_mem (run enc dec st0 h)).
Proof. exact reopen. Qed.
Print Assumptions C18_reopen.

(* saveFile at every crash point: for every file system, every new content cut
   into arbitrary write chunks and every crash cut (between two system calls or
   inside a write) the config path holds the complete old or the complete new
   file, no other file changes, and the ingest file is absent or a prefix of
   the new content with mode 0600 *)
Theorem C18_atomic :
  forall (dir : list path) (p t : path) (chunks : list str),
    t <> p ->
    forall s pre,
    fget t s = None ->
    crash_cut (save_steps dir p t chunks) pre ->
    let s' := exec_all s pre in
    (fget p s' = fget p s \/
     fget p s' = Some {| f_data := concat chunks; f_mode := mode_file |}) /\
    (forall q, q <> p -> q <> t -> fget q s' = fget q s) /\
    (fget t s' = None \/ exists d, temp_is t d s' /\ is_prefix d (concat chunks)).
Proof. exact save_atomic. Qed.
Print Assumptions C18_atomic.

(* the completed save: new content, owner-only mode, no ingest file left *)
Theorem C18_save_complete :
  forall (dir : list path) (p t : path) (chunks : list str),
    t <> p ->
    forall s,
    fget t s = None ->
    let s' := exec_all s (save_steps dir p t chunks) in
    fget p s' = Some {| f_data := concat chunks; f_mode := mode_file |} /\
    fget t s' = None /\
    (forall q, q <> p -> q <> t -> fget q s' = fget q s).
Proof. exact save_complete. Qed.
Print Assumptions C18_save_complete.

(* one store operation down to the file system: for every state, operation, split
   of the content over write calls and crash cut, a reader of the config path
   finds the complete old document or the complete new one (then with mode
   0600); after the last micro-step it finds the new one; no other file changes.
   "Finds document d" is up to the representation ([eqv]: fdoc is not canonical
   and a JSON writer sorts keys); the only JSON fact assumed is [reads_back]: the
   document THIS operation writes reads back as an equivalent document *)
Theorem C18_atomic_op :
  forall (enc : str -> str) (dec : str -> option str)
         (render : fdoc -> str) (parse : str -> option fdoc) (eqv : fdoc -> fdoc -> Prop)
         (chunking : str -> list str),
    (forall x, concat (chunking x) = x) ->
    forall (dir : list path) (p t : path) st o s pre,
      t <> p -> fget t s = None ->
      reads_back enc dec render parse eqv st o ->
      disk_is parse eqv p s (st_file st) ->
      crash_cut (op_steps enc dec render chunking dir p t st o) pre ->
      let st' := fst (step enc dec st o) in
      let s' := exec_all s pre in
      (disk_is parse eqv p s' (st_file st) \/
       disk_is parse eqv p s' (st_file st') /\
       (saves st o = true -> exists f, fget p s' = Some f /\ f_mode f = mode_file)) /\
      (pre = op_steps enc dec render chunking dir p t st o -> disk_is parse eqv p s' (st_file st')) /\
      (forall q, q <> p -> q <> t -> fget q s' = fget q s).
Proof. exact atomic_op. Qed.
Print Assumptions C18_atomic_op.

(* the hypotheses of C18_atomic_op are satisfiable: a (toy) writer/reader pair that
   sorts the two top-level keys, a Put on an empty store, the cut after the write *)
Example C18_example_atomic_op :
  let c := {| c_user := []; c_pass := []; c_refresh := b "t"; c_access := [] |} in
  let st := {| st_mem := empty_mem; st_file := None |} in
  let o := Put (b "r") c in
  let d := [(configFieldAuths, TAuths [(b "r", Fresh [] (b "t") [])])] in
  let render := fun _ : fdoc => b "{""auths"":{""r"":{""identitytoken"":""t""}}}" in
  let parse := fun s : str => if str_eqb s (render []) then Some d else None in
  let s0 := {| fs_files := []; fs_dirs := [] |} in
  st_file (fst (step b64_encode b64_decode st o)) = Some d /\
  reads_back b64_encode b64_decode render parse eq st o /\
  disk_is parse eq (b "cfg") s0 (st_file st) /\
  disk_is parse eq (b "cfg")
          (exec_all s0 (op_steps b64_encode b64_decode render (fun x => [x]) [b "dir"] (b "cfg") (b "tmp") st o))
          (Some d).
Proof.
  split; [vm_compute; reflexivity|]. split; [|split].
  - intros d0 E. vm_compute in E. injection E as <-. eexists. split; [vm_compute; reflexivity|reflexivity].
  - reflexivity.
  - eexists. eexists. split; [vm_compute; reflexivity|]. split; [vm_compute; reflexivity|reflexivity].
Qed.

(* concurrent callers on one store.  Operations are NOT atomic in the model
   (lock, cache update, file write, unlock are separate steps of a transition
   system; sync.RWMutex is its specification).  Every complete execution from an
   initial state has a sequential order [lin] of all operations such that the
   final store (memory and file) is the sequential result, every operation
   returned what it returns in that order, and the order restricted to a caller
   is that caller's program with the results it received. *)
Theorem C18_serialisable :
  forall (enc : str -> str) (dec : str -> option str) g0 g lin,
    initial g0 -> creach enc dec g0 g lin -> quiescent g ->
    g_store g = run enc dec (g_store g0) (map lab_op lin) /\
    map lab_res lin = seq_results enc dec (g_store g0) (map lab_op lin) /\
    (forall i, of_thread i lin = rev (t_done (g_threads g i)) /\
               map fst (rev (t_done (g_threads g i))) = t_todo (g_threads g0 i)).
Proof. exact serialisable. Qed.
Print Assumptions C18_serialisable.

(* hypotheses are satisfiable / the statements are not vacuous *)
Example C18_example_roundtrip :
  let c := {| c_user := b "user"; c_pass := b "pa:ss"; c_refresh := b "rt"; c_access := [] |} in
  let st := fst (step b64_encode b64_decode {| st_mem := empty_mem; st_file := None |} (Put (b "reg.io") c)) in
  snd (step b64_encode b64_decode st (Get (b "reg.io"))) = RCred c /\
  file_entry (b "reg.io") (st_file st) = Some (Fresh (b "dXNlcjpwYTpzcw==") (b "rt") []).
Proof. vm_compute. split; reflexivity. Qed.

Example C18_example_atomic :
  let s := {| fs_files := [(b "cfg", {| f_data := b "old"; f_mode := 420 |})]; fs_dirs := [] |} in
  let steps := save_steps [b "d"] (b "cfg") (b "tmp") [b "ne"; b "w"] in
  crash_cut steps (cut_at steps 4 1) /\
  fget (b "cfg") (exec_all s (cut_at steps 4 1)) = Some {| f_data := b "old"; f_mode := 420 |} /\
  fget (b "tmp") (exec_all s (cut_at steps 4 1)) = Some {| f_data := b "new"; f_mode := mode_file |} /\
  fget (b "cfg") (exec_all s steps) = Some {| f_data := b "new"; f_mode := mode_file |}.
Proof.
  split; [|vm_compute; repeat split; reflexivity].
  vm_compute. do 4 apply cut_later. apply (cut_partial _ [119] []).
Qed.

(* R : creach e d g G L is extended by one step, which [S] proves; the state reached and the
   log are put in normal form at once, so that no state is written in terms of the one before
   it (seven steps nested that way make a term that takes seconds to check) *)
Ltac step_from R S :=
  eapply cr_step in R; [|S];
  match type of R with
  | creach ?e ?d ?g ?G ?L =>
      let G' := eval cbv in G in let L' := eval cbv in L in change (creach e d g G' L') in R
  end.

(* two callers, a writer and a reader that overlaps the writer's critical
   section attempt: a complete execution exists (the hypotheses of
   C18_serialisable are satisfiable) *)
Example C18_example_concurrent :
  let c := {| c_user := b "u"; c_pass := b "p"; c_refresh := []; c_access := [] |} in
  let g0 := {| g_store := {| st_mem := empty_mem; st_file := None |}; g_writer := None;
               g_threads := fun i => match i with
                                     | O => {| t_pc := Idle; t_todo := [Put (b "r") c]; t_done := [] |}
                                     | 1%nat => {| t_pc := Idle; t_todo := [Get (b "r")]; t_done := [] |}
                                     | _ => {| t_pc := Idle; t_todo := []; t_done := [] |}
                                     end |} in
  initial g0 /\
  exists g lin, creach b64_encode b64_decode g0 g lin /\ quiescent g /\
                map lab_res lin = [ROk; RCred c].
Proof.
  intros c g0. split.
  - split; [reflexivity|]. intros [|[|i]]; split; reflexivity.
  - pose proof (cr_refl b64_encode b64_decode g0) as R.
    step_from R ltac:(apply (c_acq_w _ _ _ 0%nat (Put (b "r") c) []); try reflexivity; intros [|[|j]]; exact (fun x => x)).
    step_from R ltac:(apply (c_wcache _ _ _ 0%nat); reflexivity).
    step_from R ltac:(apply (c_wfile _ _ _ 0%nat); reflexivity).
    step_from R ltac:(apply (c_rel_w _ _ _ 0%nat); reflexivity).
    step_from R ltac:(apply (c_acq_r _ _ _ 1%nat); reflexivity).
    step_from R ltac:(apply (c_read _ _ _ 1%nat); reflexivity).
    step_from R ltac:(apply (c_rel_r _ _ _ 1%nat); reflexivity).
    do 2 eexists. split; [exact R|]. split; [intros [|[|i]]; split; reflexivity|reflexivity].
Qed.

(* crash points x schedules: at EVERY reachable state of a concurrent execution
   (in particular whenever the process is killed) the config document on disk is
   the one a sequential run of a prefix of the linearisation leaves -- never a
   mixture of two callers' updates; C18_atomic_op refines the single save step
   [c_wfile] into system calls *)
Theorem C18_file_always_sequential :
  forall (enc : str -> str) (dec : str -> option str) g0 g lin,
    initial g0 -> creach enc dec g0 g lin ->
    exists n, (n <= length lin)%nat /\
              st_file (g_store g) = st_file (run enc dec (g_store g0) (map lab_op (firstn n lin))).
Proof. exact file_always_sequential. Qed.
Print Assumptions C18_file_always_sequential.

(* Get is pure: a Get -- answered by an exact key, by the legacy-key scan or not
   at all -- leaves memory (auths cache, content, credsStore) and file exactly
   as they were; so does any sequence of Gets *)
Theorem C18_get_pure :
  forall (enc : str -> str) (dec : str -> option str) st,
    (forall a, fst (step enc dec st (Get a)) = st) /\
    (forall h, Forall is_get h -> run enc dec st h = st).
Proof. intros enc dec st. split; [exact (get_pure enc dec st)|intro h; exact (gets_pure enc dec h st)]. Qed.
Print Assumptions C18_get_pure.

(* the saved file is owner-only whatever file (and whatever permission bits) was
   at the config path before: 0600 after the save, and at every crash cut the
   path holds the untouched old file or a file of mode 0600 *)
Theorem C18_mode_owner_only :
  forall (dir : list path) (p t : path) (chunks : list str),
    t <> p -> forall s,
    fget t s = None ->
    (forall f, fget p (exec_all s (save_steps dir p t chunks)) = Some f -> f_mode f = mode_file) /\
    (exists f, fget p (exec_all s (save_steps dir p t chunks)) = Some f) /\
    (forall pre f, crash_cut (save_steps dir p t chunks) pre ->
                   fget p (exec_all s pre) = Some f -> fget p (exec_all s pre) <> fget p s -> f_mode f = mode_file).
Proof. exact mode_owner_only. Qed.
Print Assumptions C18_mode_owner_only.

Example C18_example_mode :
  let s := {| fs_files := [(b "cfg", {| f_data := b "old"; f_mode := 438 |})]; fs_dirs := [] |} in
  fget (b "cfg") (exec_all s (save_steps [b "d"] (b "cfg") (b "tmp") [b "new"]))
  = Some {| f_data := b "new"; f_mode := 384 |}.
Proof. vm_compute. reflexivity. Qed.

(* os.MkdirAll(configDir, 0700) over any chain of ancestors: after the save every
   level exists; a level that was missing has mode 0700, an existing level keeps
   its mode; no other directory changes *)
Theorem C18_mkdir_all :
  forall (chain : list path) (p t : path) (chunks : list str) s d,
    dget d (exec_all s (save_steps chain p t chunks)) =
    if existsb (str_eqb d) chain
    then Some (match dget d s with Some m => m | None => mode_dir end)
    else dget d s.
Proof. exact save_dirs. Qed.
Print Assumptions C18_mkdir_all.

(* a config path that is a symbolic link to q (the name p holds no file; reading
   p reads q until the name is replaced): at every crash cut a reader of the
   path finds the old target or the complete new file with mode 0600; after the
   save the new file; the link target itself is never written (it keeps the
   old document) *)
Theorem C18_symlink_path :
  forall (chain : list path) (p t : path) (chunks : list str),
    t <> p ->
    forall q s pre,
    q <> p -> q <> t -> fget t s = None ->
    crash_cut (save_steps chain p t chunks) pre ->
    (read_via_link p q s pre = fget q s \/
     read_via_link p q s pre = Some {| f_data := concat chunks; f_mode := mode_file |}) /\
    fget q (exec_all s pre) = fget q s /\
    (pre = save_steps chain p t chunks ->
     read_via_link p q s pre = Some {| f_data := concat chunks; f_mode := mode_file |}).
Proof. exact symlink_path. Qed.
Print Assumptions C18_symlink_path.

(* FileStore.DisablePut: every Put (also one with a malformed credential) is
   refused with ErrPlaintextPutDisabled and changes nothing; Get and Delete are
   unaffected; over any history no auths entry appears in the file that the
   opened document did not already hold, unchanged; with the switch off the
   store is the one of the theorems above *)
Theorem C18_disable_put :
  forall (enc : str -> str) (dec : str -> option str),
    (forall st a c, fs_step enc dec true st (Put a c) = (st, RErrPutDisabled)) /\
    (forall st a, fs_step enc dec true st (Get a) = step enc dec st (Get a)) /\
    (forall st a, fs_step enc dec true st (Delete a) = step enc dec st (Delete a)) /\
    (forall f st0 h a e, open_store f = Some st0 ->
       file_entry a (st_file (fs_run enc dec true st0 h)) = Some e -> file_entry a f = Some e) /\
    (forall st h, fs_run enc dec false st h = run enc dec st h).
Proof.
  intros enc dec. split; [exact (put_disabled enc dec)|]. split; [reflexivity|]. split; [reflexivity|].
  split; [exact (disable_put_no_new_entry enc dec)|].
  intros st h. exact (fs_run_enabled enc dec h st).
Qed.
Print Assumptions C18_disable_put.

Example C18_example_mkdir_all :
  let s := {| fs_files := []; fs_dirs := [(b "/home", 493)] |} in
  let s' := exec_all s (save_steps [b "/home"; b "/home/.docker"; b "/home/.docker/sub"] (b "cfg") (b "tmp") [b "x"]) in
  (dget (b "/home") s', dget (b "/home/.docker") s', dget (b "/home/.docker/sub") s') = (Some 493, Some 448, Some 448).
Proof. vm_compute. reflexivity. Qed.

(* on plain host addresses (ToHostname a = a: no scheme, no path) the FileStore
   answers every history exactly like the in-memory Store of memory_store.go (a
   map; [mem_step] with the colon rule): starting from a store that corresponds to
   a map -- in particular from a missing config file and the empty map *)
Theorem C18_refines_memory_store :
  forall (enc : str -> str) (dec : str -> option str) (ok : str -> Prop),
    (forall s, ok s -> dec (enc s) = Some s) -> (forall s, enc s = [] -> s = []) ->
    forall h st m,
      sim enc ok st m -> Forall (good_op ok) h ->
      map fst (run_obs enc dec st h) = mem_results m h.
Proof. exact refines_memory_store. Qed.
Print Assumptions C18_refines_memory_store.

Theorem C18_refines_memory_store_fresh :
  forall h, Forall (good_op bytes) h ->
    map fst (run_obs b64_encode b64_decode {| st_mem := empty_mem; st_file := None |} h) = mem_results [] h.
Proof.
  intros h F.
  exact (refines_memory_store b64_encode b64_decode bytes b64_roundtrip b64_encode_nonempty h _ []
           (sim_empty b64_encode bytes None) F).
Qed.
Print Assumptions C18_refines_memory_store_fresh.

(* what the model takes from the Go source through the translator (Generated/GC18.v,
   regenerated on every run): FileStore.Put's guards in their order, and that these
   guards together mean "no colon in the username; address and tokens valid
   UTF-8"; ToHostname's TrimPrefix sequence and Cut byte.  An edit of Put,
   validateCredentialFormat or ToHostname changes the generated tables and breaks
   these equations (or the translation itself) *)
Theorem C18_put_guards_from_source :
  fileStorePut_guards = [b "DisablePut"; b "call:validateCredentialFormat"; b "utf8:serverAddress"] /\
  forall a c, put_accepts a c =
              negb (contains colon (c_user c)) && valid_utf8 a && valid_utf8 (c_refresh c) && valid_utf8 (c_access c).
Proof. exact (conj put_guards_order put_accepts_spec). Qed.
Print Assumptions C18_put_guards_from_source.

(* the order of effects the save model (Model/CredSave.v) and the lock discipline of
   the concurrent model (Model/CredConc.v) assume is the order in the source: an
   extra Unlock/Lock inside PutCredential, a save outside the lock, a write that
   bypasses Ingest + Rename, a chmod after the copy ... change these lists *)
Theorem C18_call_order_from_source :
  calls_saveFile = [b "os.MkdirAll"; b "ioutil.Ingest"; b "os.Remove"; b "os.Rename"] /\
  calls_Ingest = [b "os.CreateTemp"; b "tempFile.Close"; b "os.Remove"; b "tempFile.Chmod"; b "io.Copy"] /\
  calls_PutCredential = [b "cfg.rwLock.Lock"; b "cfg.rwLock.Unlock"; b "json.Marshal"; b "cfg.saveFile"] /\
  calls_DeleteCredential = [b "cfg.rwLock.Lock"; b "cfg.rwLock.Unlock"; b "cfg.saveFile"] /\
  calls_SetCredentialsStore = [b "cfg.rwLock.Lock"; b "cfg.rwLock.Unlock"; b "cfg.saveFile"] /\
  calls_GetCredential = [b "cfg.rwLock.RLock"; b "cfg.rwLock.RUnlock"; b "json.Unmarshal"] /\
  calls_IsAuthConfigured = [b "cfg.rwLock.RLock"; b "cfg.rwLock.RUnlock"] /\
  calls_getHelperSuffix = [b "ds.config.GetCredentialHelper"; b "ds.config.CredentialsStore"].
Proof. exact call_orders. Qed.
Print Assumptions C18_call_order_from_source.

Theorem C18_to_hostname_from_source :
  forall addr, to_hostname addr = cut_before slash (trim_prefix (b "https://") (trim_prefix (b "http://") addr)).
Proof. exact to_hostname_spec. Qed.
Print Assumptions C18_to_hostname_from_source.

(* encoding/json's string codec (Model/Json.v: appendString with HTML escaping,
   unquote with its lossy repairs) is part of the model: every valid UTF-8
   string -- control characters, quotes, <>&, U+2028/9, any plane -- written as a
   JSON string reads back as the same bytes *)
Theorem C18_json_string_roundtrip :
  forall s, valid_utf8 s = true -> json_unquote (json_quote s) = Some s.
Proof. exact json_string_roundtrip. Qed.
Print Assumptions C18_json_string_roundtrip.

(* hence every string an accepted Put hands to encoding/json -- the address (object
   key), the auth field (base64 text of ANY user/password bytes), the refresh and
   the access token -- survives the file; a string that is not valid UTF-8 would
   not, which is why Put refuses it (before fix d7d4ed9 it was written) *)
Theorem C18_put_fields_survive_json :
  forall a c,
    put_accepts a c = true -> Forall (fun x => x < 256) (c_user c ++ colon :: c_pass c) ->
    Forall (fun x => json_unquote (json_quote x) = Some x)
           [a; encode_auth b64_encode (c_user c) (c_pass c); c_refresh c; c_access c].
Proof. exact put_fields_json_roundtrip. Qed.
Print Assumptions C18_put_fields_survive_json.

(* Put -> bytes -> Get.  PutCredential keeps json.Marshal(AuthConfig) in the cache
   and the file holds the same text re-indented; GetCredential (also of a
   re-opened store) json.Unmarshals it.  [entry_bytes] is that text,
   [parse_fresh] the reading of its three fields: for every accepted credential
   the bytes parse back to the entry and decode to the credential *)
Theorem C18_entry_bytes_roundtrip :
  forall a c,
    put_accepts a c = true -> Forall (fun x => x < 256) (c_user c ++ colon :: c_pass c) ->
    parse_fresh (entry_bytes b64_encode c) =
      Some (encode_auth b64_encode (c_user c) (c_pass c), c_refresh c, c_access c) /\
    cred_of_bytes b64_decode (entry_bytes b64_encode c) = RCred c.
Proof. exact entry_bytes_roundtrip. Qed.
Print Assumptions C18_entry_bytes_roundtrip.

(* the GENERAL reader of the model (Model/JsonRead.v: the JSON value parser with
   encoding/json's conventions and the unmarshalling into AuthConfig -- the one
   that classifies a loaded config file in the HB correspondence cases) reads the
   text PutCredential produced back to the stored credential *)
Theorem C18_reader_reads_put_entry :
  forall a c,
    put_accepts a c = true -> Forall (fun x => x < 256) (c_user c ++ colon :: c_pass c) ->
    exists v, parse_whole (entry_bytes b64_encode c) = Some v /\
              cred_of_entry b64_decode (Old (entry_bytes b64_encode c) (view_of_jval v)) = RCred c.
Proof. exact reader_reads_put_entry. Qed.
Print Assumptions C18_reader_reads_put_entry.

(* END TO END AT BYTE LEVEL, no JSON hypothesis: the first Put on a missing config file
   (a login on a fresh machine) writes bytes -- MarshalIndent as modelled by
   render_file -- from which NewFileStore, reading them with the model's JSON reader
   (Model/JsonRead.v open_bytes), gives a store in which every answer Get can give for
   that address is the stored credential *)
Theorem C18_first_put_reopen_bytes :
  forall a c,
    put_accepts a c = true -> Forall (fun x => x < 256) (c_user c ++ colon :: c_pass c) ->
    exists d, st_file (fst (step b64_encode b64_decode fresh_store (Put a c))) = Some d /\
    exists st2 tops ents,
      open_bytes (Some (render_file [] [] d)) = Some (st2, tops, ents) /\
      get_candidates b64_decode (cache_of st2) a = [RCred c].
Proof. exact first_put_reopen. Qed.
Print Assumptions C18_first_put_reopen_bytes.

(* ... lifted to histories: after ANY number of accepted Puts for one address on a missing
   config (login, token refresh, re-login), the bytes on disk reopen to the LAST credential *)
Theorem C18_repeated_put_reopen_bytes :
  forall a (cs : list cred) c st,
    one_addr_shape a st ->
    Forall (fun c => put_accepts a c = true /\ Forall (fun x => x < 256) (c_user c ++ colon :: c_pass c)) (cs ++ [c]) ->
    let stf := run b64_encode b64_decode st (map (Put a) (cs ++ [c])) in
    exists d, st_file stf = Some d /\
    exists st2 tops ents,
      open_bytes (Some (render_file [] [] d)) = Some (st2, tops, ents) /\
      get_candidates b64_decode (cache_of st2) a = [RCred c].
Proof. exact repeated_put_reopen. Qed.
Print Assumptions C18_repeated_put_reopen_bytes.

(* the named JSON premise [reads_back] of C18_atomic_op, PROVED for that operation with
   the real writer (render_file) and the real reader (read_config) ... *)
Theorem C18_first_put_reads_back :
  forall a c,
    put_accepts a c = true -> Forall (fun x => x < 256) (c_user c ++ colon :: c_pass c) ->
    reads_back b64_encode b64_decode file_writer file_reader views_eq fresh_store (Put a c).
Proof. exact first_put_reads_back. Qed.
Print Assumptions C18_first_put_reads_back.

(* ... so the crash clause holds for it down to the bytes: at every crash cut of the
   save (between two system calls or inside a write, any split of the content over
   writes, any chain of config directories) the config path is still absent or
   holds bytes that the reader reads as the document with the stored entry, mode 0600 *)
Theorem C18_first_put_crash_bytes :
  forall a c (chunking : str -> list str) (dir : list path) (p t : path) s pre,
    (forall x, concat (chunking x) = x) ->
    put_accepts a c = true -> Forall (fun x => x < 256) (c_user c ++ colon :: c_pass c) ->
    t <> p -> fget t s = None -> fget p s = None ->
    crash_cut (op_steps b64_encode b64_decode file_writer chunking dir p t fresh_store (Put a c)) pre ->
    let d := one_entry_doc a (encode_auth b64_encode (c_user c) (c_pass c)) (c_refresh c) (c_access c) in
    let s' := exec_all s pre in
    (fget p s' = None \/
     disk_is file_reader views_eq p s' (Some d) /\ exists f, fget p s' = Some f /\ f_mode f = mode_file) /\
    (pre = op_steps b64_encode b64_decode file_writer chunking dir p t fresh_store (Put a c) ->
     disk_is file_reader views_eq p s' (Some d)).
Proof. exact first_put_crash_bytes. Qed.
Print Assumptions C18_first_put_crash_bytes.

(* the BYTES saveFile writes (Model/JsonDoc.v render_file = json.MarshalIndent of the
   content map, compared byte for byte with the real file on every run) do not
   depend on Go's map iteration order: any order of the content map and of the
   auths map gives the same file *)
Theorem C18_file_bytes_map_order :
  forall tops ents d d',
    NoDup (map fst d) -> Permutation d d' -> render_file tops ents d = render_file tops ents d'.
Proof. exact render_file_order. Qed.
Print Assumptions C18_file_bytes_map_order.

Theorem C18_auths_bytes_map_order :
  forall tops ents k l l',
    NoDup (map fst l) -> Permutation l l' ->
    render_top tops ents (k, TAuths l) = render_top tops ents (k, TAuths l').
Proof. exact render_auths_order. Qed.
Print Assumptions C18_auths_bytes_map_order.

Theorem C18_invalid_utf8_refuted :
  exists s, valid_utf8 s = false /\ json_unquote (json_quote s) <> Some s.
Proof. exact invalid_utf8_json_lossy. Qed.
Print Assumptions C18_invalid_utf8_refuted.

(* I/O errors inside a save (error paths of saveFile and ioutil.Ingest): whichever
   system call fails -- a mkdir at any level, the temp-file creation, chmod, any
   write, close or the rename -- after the clean-up the code performs the config
   path and every other file are untouched and no ingest file stays behind *)
Theorem C18_failed_save_harmless :
  forall (chain : list path) (p t : path) (chunks : list str),
    t <> p -> forall s fp,
    fget t s = None ->
    let s' := exec_all s (failed_save_steps chain p t chunks fp) in
    fget p s' = fget p s /\
    (forall q, q <> t -> fget q s' = fget q s) /\
    fget t s' = None.
Proof. exact failed_save_harmless. Qed.
Print Assumptions C18_failed_save_harmless.

(* ... and the operation is invisible: it reports the error and the store (memory
   and file) is exactly as before; operations that do not save cannot fail *)
Theorem C18_failed_op_invisible :
  forall (enc : str -> str) (dec : str -> option str) st o,
    (saves st o = true -> step_io enc dec true st o = (st, RErrIO)) /\
    (forall io, io = false \/ saves st o = false -> step_io enc dec io st o = step enc dec st o).
Proof. intros enc dec st o. split; [exact (step_io_failed enc dec st o)|intro io; exact (step_io_unaffected enc dec io st o)]. Qed.
Print Assumptions C18_failed_op_invisible.

(* the two defects fixed on the repository branch, as witnesses about the pre-fix
   variants of the model: the ingest file survived a failing chmod / write, and a
   failed Put stayed visible in memory *)
Theorem C18_failed_save_leak_refuted :
  forall (chain : list path) (p t : path) (chunks : list str) s,
    fget t s = None ->
    fget t (exec_all s (failed_save_steps_prefix chain p t chunks FChmod)) <> None /\
    forall j, fget t (exec_all s (failed_save_steps_prefix chain p t chunks (FWrite j))) <> None.
Proof. exact failed_save_prefix_leaks. Qed.
Print Assumptions C18_failed_save_leak_refuted.

Theorem C18_failed_op_visible_refuted :
  forall (enc : str -> str) (dec : str -> option str),
    exists st o a,
      snd (step_io_prefix enc dec true st o) = RErrIO /\
      get_candidates dec (cache_of (fst (step_io_prefix enc dec true st o))) a <>
      get_candidates dec (cache_of st) a.
Proof. exact step_io_prefix_visible. Qed.
Print Assumptions C18_failed_op_visible_refuted.

(* DynamicStore (store.go; DetectDefaultNativeStore off): an address routed to a
   credential helper or to the configured credsStore never touches the store or
   the config file; with no helper for any address and no credsStore, the
   DynamicStore IS the file store with DisablePut = not AllowPlaintextPut, over
   every history of Get/Put/Delete -- so all theorems above apply to it *)
Theorem C18_dynamic_store :
  forall (enc : str -> str) (dec : str -> option str) allow helpers,
    (forall st o h, ds_route helpers st (op_addr o) = Some h -> (forall s, o <> SetCs s) ->
                    ds_step enc dec allow helpers st o = (st, RNative)) /\
    (forall st h, (forall a, helper_of helpers a = []) -> m_cs (st_mem st) = [] -> Forall dyn_op h ->
                  ds_run enc dec allow helpers st h = fs_run enc dec (negb allow) st h).
Proof.
  intros enc dec allow helpers. split.
  - intros st o h. exact (ds_native_untouched enc dec allow helpers st o h).
  - intros st h. exact (ds_run_file enc dec allow helpers h st).
Qed.
Print Assumptions C18_dynamic_store.

(* the defect this check found (fixed on the repository branch): before the fix
   a config file holding the JSON value null made the first save panic *)
Theorem C18_null_document_refuted :
  exists j cache, save_content_prefix (load_content_prefix j) cache = None.
Proof. exact null_document_refuted. Qed.
Print Assumptions C18_null_document_refuted.

Theorem C18_null_document_fixed :
  forall j cache, save_content_prefix (load_content j) cache <> None.
Proof. exact null_document_fixed. Qed.
Print Assumptions C18_null_document_fixed.
