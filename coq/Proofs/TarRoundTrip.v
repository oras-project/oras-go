(* C12: the tar entries of a tree extract to the tree (entry by entry, each subtree put at its
   path); reproducible tars; descriptors and unpack; the name/digest machine of restoreDuplicates *)
From Oras Require Import Base.Prelude Model.TarRoundTrip Proofs.TarModeSweep.

Section TreeInd.
  Variable P : tree -> Prop.
  Hypothesis HF : forall c m t, P (File c m t).
  Hypothesis HL : forall tg t, P (Link tg t).
  Hypothesis HD : forall m t ch, Forall (fun nc => P (snd nc)) ch -> P (Dir m t ch).
  Fixpoint tree_ind' (t : tree) : P t :=
    match t with
    | File c m mt => HF c m mt
    | Link tg mt => HL tg mt
    | Dir m mt ch =>
        HD m mt ch
          ((fix go (l : list (name * tree)) : Forall (fun nc => P (snd nc)) l :=
              match l with
              | [] => Forall_nil _
              | nc :: l' => Forall_cons nc (tree_ind' (snd nc)) (go l')
              end) ch)
    end.
End TreeInd.

Lemma path_eqb_spec p q : path_eqb p q = true <-> p = q.
Proof.
  revert q; induction p as [|x p IH]; intros [|y q]; simpl; split; intro E;
    try reflexivity; try discriminate.
  - apply andb_true_iff in E as [E1 E2]. apply str_eqb_spec in E1. apply IH in E2. congruence.
  - injection E as -> ->. rewrite str_eqb_refl. simpl. now apply IH.
Qed.

Lemma path_eqb_refl p : path_eqb p p = true.
Proof. now apply path_eqb_spec. Qed.

Lemma path_eqb_neq p q : p <> q -> path_eqb p q = false.
Proof.
  intro N. destruct (path_eqb p q) eqn:E; [|reflexivity]. apply path_eqb_spec in E. contradiction.
Qed.

Lemma str_eqb_neq x y : x <> y -> str_eqb x y = false.
Proof.
  intro N. destruct (str_eqb x y) eqn:E; [|reflexivity]. apply str_eqb_spec in E. contradiction.
Qed.

Lemma str_eqb_sym x y : str_eqb x y = str_eqb y x.
Proof.
  destruct (str_eqb y x) eqn:E; [apply str_eqb_spec in E; subst; apply str_eqb_refl|].
  apply str_eqb_neq. intros ->. rewrite str_eqb_refl in E. discriminate.
Qed.

Lemma existsb_str_in n l : In n l -> existsb (str_eqb n) l = true.
Proof. intro H. apply existsb_exists. exists n. split; [exact H | apply str_eqb_refl]. Qed.

Lemma lookup_set f p n q :
  fs_lookup (fs_set f p n) q = if path_eqb p q then Some n else fs_lookup f q.
Proof. reflexivity. Qed.

Lemma lookup_set_same f p n : fs_lookup (fs_set f p n) p = Some n.
Proof. rewrite lookup_set, path_eqb_refl. reflexivity. Qed.

Lemma lookup_set_other f p n q : p <> q -> fs_lookup (fs_set f p n) q = fs_lookup f q.
Proof. intro N. rewrite lookup_set, path_eqb_neq by exact N. reflexivity. Qed.

Lemma strip_prefix_spec a l r : strip_prefix a l = Some r <-> l = a ++ r.
Proof.
  revert l; induction a as [|x a IH]; intro l; simpl.
  - split; [intros [= ->] | intros ->]; reflexivity.
  - destruct l as [|y l]; [split; discriminate|]. destruct (str_eqb x y) eqn:E.
    + apply str_eqb_spec in E. subst y. rewrite IH. split; [intros -> | intros [= ->]]; reflexivity.
    + split; [discriminate|]. intros [= -> _]. rewrite str_eqb_refl in E. discriminate.
Qed.

Lemma strip_prefix_app pre rel : strip_prefix pre (pre ++ rel) = Some rel.
Proof. now apply strip_prefix_spec. Qed.

Lemma strip_prefix_refl rel : strip_prefix rel rel = Some [].
Proof. apply strip_prefix_spec. now rewrite app_nil_r. Qed.

Lemma app_neq_longer {A} (l r : list A) : r <> [] -> l <> l ++ r.
Proof.
  intros Hr E. apply (f_equal (@length A)) in E. rewrite app_length in E.
  destruct r; [contradiction|simpl in E; lia].
Qed.

Lemma strip_prefix_longer q r : r <> [] -> strip_prefix (q ++ r) q = None.
Proof.
  intro Hr. destruct (strip_prefix (q ++ r) q) as [p|] eqn:E; [|reflexivity].
  apply strip_prefix_spec in E. rewrite <- app_assoc in E.
  exfalso. apply (app_neq_longer q (r ++ p)); [now destruct r | exact E].
Qed.

Lemma strip_prefix_snoc rel n : forall q,
  strip_prefix (rel ++ [n]) q =
  match strip_prefix rel q with Some (m :: p) => if str_eqb n m then Some p else None | _ => None end.
Proof.
  induction rel as [|x rel IH]; intros [|y q]; simpl; try reflexivity.
  destruct (str_eqb x y); [apply IH | reflexivity].
Qed.

Lemma path_eqb_strip rel q :
  path_eqb rel q = match strip_prefix rel q with Some [] => true | _ => false end.
Proof.
  revert q; induction rel as [|x rel IH]; intros [|y q]; simpl; try reflexivity.
  destruct (str_eqb x y); [apply IH | reflexivity].
Qed.

Lemma split_snoc {A} (q r rel : list A) (n : A) :
  r <> [] -> rel ++ [n] = q ++ r -> q = rel \/ exists r', r' <> [] /\ rel = q ++ r'.
Proof.
  intros Hr E. destruct (exists_last Hr) as (r0 & x & ->).
  rewrite app_assoc in E. apply app_inj_tail in E as [E _].
  destruct r0 as [|y r0].
  - left. now rewrite app_nil_r in E.
  - right. exists (y :: r0). split; [discriminate|exact E].
Qed.

Lemma check_dirs_ok f : forall rest acc,
  (forall q r, q <> [] -> r <> [] -> rest = q ++ r -> is_link (fs_lookup f (acc ++ q)) = false) ->
  check_dirs f acc rest = true.
Proof.
  induction rest as [|x rest IH]; intros acc Hc; simpl; [reflexivity|].
  destruct rest as [|y rest']; [reflexivity|].
  rewrite (Hc [x] (y :: rest')); [|discriminate|discriminate|reflexivity]. simpl.
  apply IH. intros q r Hq Hr E.
  rewrite <- app_assoc. apply (Hc (x :: q) r); [discriminate|exact Hr|]. simpl. now rewrite E.
Qed.

Section RoundTrip.
  Variables (pre : path) (umask : N) (preserve repro : bool) (isl isf : path -> bool).

  Definition links_sound (f : fs) : Prop :=
    (forall p tg, fs_lookup f p = Some (NLink tg) -> isl p = true) /\
    (forall p m, fs_lookup f p = Some (NDir m) -> N.land m sgid = 0).

  Lemma check_dirs_clear f : links_sound f -> forall rest acc,
    prefixes_clear isl isf acc rest = true -> check_dirs f acc rest = true.
  Proof.
    intros [Hs _]. induction rest as [|x rest IH]; intros acc Hc; simpl in *; [reflexivity|].
    destruct rest as [|y rest']; [reflexivity|].
    apply andb_true_iff in Hc as [H1 H2]. rewrite (IH _ H2), andb_true_r.
    destruct (fs_lookup f (acc ++ [x])) as [[c m|m|tg]|] eqn:E; try reflexivity.
    apply Hs in E. rewrite E in H1. discriminate.
  Qed.

  Lemma mode_file m : (m <=? 4095) = true ->
    (if preserve then chmod_mode m else create_mode file_create_bits umask m) = restored_mode umask preserve m.
  Proof.
    intro Hm. apply N.leb_le in Hm. unfold restored_mode, create_mode. fold (chmod_mode m).
    rewrite (chmod_small m Hm). now destruct preserve.
  Qed.

  Lemma mkdir_all_existing m f rp m' :
    fs_lookup f (rev rp) = Some (NDir m') -> mkdir_all umask m f rp = Ok f.
  Proof. intro E. destruct rp; simpl in *; rewrite E; reflexivity. Qed.

  Lemma mkdir_all_dir m f rp f' :
    mkdir_all umask m f rp = Ok f' -> exists pm, fs_lookup f' (rev rp) = Some (NDir pm).
  Proof.
    destruct rp as [|y rp]; simpl; (destruct (fs_lookup f _) as [[| pm |]|] eqn:E0; try discriminate);
      try (intros [= <-]; now exists pm).
    - intros [= <-]. eexists. apply lookup_set_same.
    - destruct (mkdir_all umask m f rp); [|discriminate]. intros [= <-]. eexists. apply lookup_set_same.
  Qed.

  Lemma mkdir_all_fresh m f rel m' :
    rel <> [] -> fs_lookup f rel = None -> fs_lookup f (parent rel) = Some (NDir m') ->
    N.land m' sgid = 0 ->
    mkdir_all umask m f (rev rel) = Ok (fs_set f rel (NDir (create_mode dir_create_bits umask m))).
  Proof.
    intros Hne Hn Hp Hsg. unfold parent in Hp.
    destruct (exists_last Hne) as (r0 & x & E). subst rel.
    rewrite removelast_last in Hp.
    rewrite rev_app_distr. simpl.
    rewrite rev_involutive, Hn.
    rewrite (mkdir_all_existing m f (rev r0) m') by (now rewrite rev_involutive).
    unfold inherited_sgid. rewrite ?rev_involutive, Hp, Hsg, N.lor_0_r.
    reflexivity.
  Qed.

  Definition dirs_above (f : fs) (rel : path) : Prop :=
    forall q r, r <> [] -> rel = q ++ r -> exists m, fs_lookup f q = Some (NDir m).

  Lemma parent_is_dir_ok f rel :
    rel <> [] -> dirs_above f rel -> exists m, fs_lookup f (parent rel) = Some (NDir m).
  Proof.
    intros Hne Hd. destruct (exists_last Hne) as (r0 & x & E). subst rel.
    unfold parent. rewrite removelast_last. apply (Hd r0 [x]); [discriminate|reflexivity].
  Qed.

  Lemma parent_is_dir_true f rel : rel <> [] -> dirs_above f rel -> parent_is_dir f rel = true.
  Proof.
    intros Hne Hd. destruct (parent_is_dir_ok f rel Hne Hd) as [m E].
    unfold parent_is_dir. destruct rel; [contradiction|]. now rewrite E.
  Qed.

  Lemma check_dirs_prefix_dirs f rel : dirs_above f rel -> check_dirs f [] rel = true.
  Proof.
    intro Hd. apply check_dirs_ok. intros q r _ Hr E. simpl.
    destruct (Hd q r Hr E) as [m ->]. reflexivity.
  Qed.

  Lemma expected_dir_cons m mt ch n p :
    expected_mid umask preserve (Dir m mt ch) (n :: p) =
    match find_child n ch with Some c => expected_mid umask preserve c p | None => None end.
  Proof. unfold expected_mid. simpl. destruct (find_child n ch); reflexivity. Qed.

  Lemma find_child_fresh n l : existsb (str_eqb n) (map fst l) = false -> find_child n l = None.
  Proof.
    induction l as [|[m c] l IH]; simpl; [reflexivity|]. intro E.
    apply orb_false_iff in E as [E1 E2]. rewrite str_eqb_sym, E1. now apply IH.
  Qed.

  Lemma extract_list_app f a b :
    extract_list pre umask preserve f (a ++ b) =
    match extract_list pre umask preserve f a with Ok f' => extract_list pre umask preserve f' b | Err e => Err e end.
  Proof.
    revert f; induction a as [|e a IH]; intro f; simpl; [reflexivity|].
    destruct (extract_entry pre umask preserve f e); [apply IH|reflexivity].
  Qed.

  Definition binds (f F : fs) (rel : path) (n : node) : Prop :=
    forall q, fs_lookup F q = if path_eqb rel q then Some n else fs_lookup f q.

  Definition node_sound (p : path) (n : node) : Prop :=
    match n with NLink _ => isl p = true | NFile _ _ => True | NDir m => N.land m sgid = 0 end.

  Lemma binds_sound f F rel n : binds f F rel n -> links_sound f -> node_sound rel n -> links_sound F.
  Proof.
    intros S [H1 H2] Hn.
    split; intros q x; rewrite S;
      (destruct (path_eqb rel q) eqn:E; [apply path_eqb_spec in E; subst q; intros [= ->]; exact Hn | eauto]).
  Qed.

  Definition planted (t : tree) (rel : path) (f F : fs) : Prop :=
    forall q, fs_lookup F q = match strip_prefix rel q with
                              | Some p => expected_mid umask preserve t p
                              | None => fs_lookup f q
                              end.

  Definition restores (t : tree) (rel : path) (f : fs) : Prop :=
    exists F, extract_list pre umask preserve f (entries pre repro rel t) = Ok F /\ planted t rel f F /\ links_sound F.

  Definition subtree_spec (t : tree) : Prop :=
    forall rel f,
      rel <> [] ->
      wf_treeb t = true -> modes_okb t = true -> benignb pre isl isf rel t = true ->
      dirs_above f rel ->
      (forall p, fs_lookup f (rel ++ p) = None) ->
      links_sound f ->
      restores t rel f.

  Lemma leaf_ok t e rel f F n :
    entries pre repro rel t = [e] -> extract_entry pre umask preserve f e = Ok F -> binds f F rel n ->
    (forall p, expected_mid umask preserve t p = match p with [] => Some n | _ => None end) ->
    (forall p, fs_lookup f (rel ++ p) = None) -> links_sound f -> node_sound rel n ->
    restores t rel f.
  Proof.
    intros Ee Ex S Hexp Hfresh Hls Hn. exists F. rewrite Ee. simpl. rewrite Ex.
    split; [reflexivity|]. split; [|exact (binds_sound f F rel n S Hls Hn)].
    intro q. rewrite S, path_eqb_strip.
    destruct (strip_prefix rel q) as [[|x p]|] eqn:E; rewrite ?Hexp; try reflexivity.
    apply strip_prefix_spec in E. subst q. apply Hfresh.
  Qed.

  Lemma children_ok rel : forall l,
    Forall (fun nc => subtree_spec (snd nc)) l ->
    forall g md,
      names_nodupb (map fst l) = true ->
      forallb (fun nc => wf_treeb (snd nc)) l = true ->
      forallb (fun nc => modes_okb (snd nc)) l = true ->
      forallb (fun nc => benignb pre isl isf (rel ++ [fst nc]) (snd nc)) l = true ->
      fs_lookup g rel = Some (NDir md) ->
      dirs_above g rel ->
      (forall n p, existsb (str_eqb n) (map fst l) = true -> fs_lookup g (rel ++ n :: p) = None) ->
      links_sound g ->
      exists g', extract_list pre umask preserve g (flat_map (fun nc => entries pre repro (rel ++ [fst nc]) (snd nc)) l) = Ok g' /\
        (forall q, fs_lookup g' q =
                   match strip_prefix rel q with
                   | Some (n :: p) => match find_child n l with
                                      | Some c => expected_mid umask preserve c p
                                      | None => fs_lookup g q
                                      end
                   | _ => fs_lookup g q
                   end) /\
        links_sound g'.
  Proof.
    induction l as [|[n0 c0] l IH]; intros HF g md Hnd Hwf Hmo Hbe Hrel Hpre Hfresh Hls.
    - exists g. split; [reflexivity|]. split; [|exact Hls].
      intro q. now destruct (strip_prefix rel q) as [[|n p]|].
    - inversion HF as [|? ? Hc0 HF']; subst. simpl in *.
      apply andb_true_iff in Hnd as [Hn0 Hnd]. apply negb_true_iff in Hn0.
      apply andb_true_iff in Hwf as [Hwf0 Hwf].
      apply andb_true_iff in Hmo as [Hmo0 Hmo].
      apply andb_true_iff in Hbe as [Hbe0 Hbe].
      destruct (Hc0 (rel ++ [n0]) g) as (g1 & E1 & P1 & S1); auto.
      + intro E. apply app_eq_nil in E as [_ E]. discriminate.
      + intros q r Hr E. destruct (split_snoc q r rel n0 Hr E) as [->|(r' & Hr' & E')]; eauto.
      + intro p. rewrite <- app_assoc. simpl. apply Hfresh. now rewrite str_eqb_refl.
      + assert (L1 : forall q, fs_lookup g1 q =
                       match strip_prefix rel q with
                       | Some (m :: p) => if str_eqb n0 m then expected_mid umask preserve c0 p else fs_lookup g q
                       | _ => fs_lookup g q
                       end).
        { intro q. rewrite P1, strip_prefix_snoc. destruct (strip_prefix rel q) as [[|m p]|]; try reflexivity.
          now destruct (str_eqb n0 m). }
        destruct (IH HF' g1 md) as (g' & E' & L' & S'); auto.
        * rewrite L1, strip_prefix_refl. exact Hrel.
        * intros q r Hr E. rewrite L1, E, (strip_prefix_longer q r Hr). exact (Hpre q r Hr E).
        * intros n p Hin. rewrite L1, strip_prefix_app. destruct (str_eqb n0 n) eqn:En.
          -- apply str_eqb_spec in En. subst n. rewrite Hin in Hn0. discriminate.
          -- apply Hfresh. now rewrite Hin, orb_true_r.
        * exists g'. split; [rewrite extract_list_app, E1; exact E'|]. split; [|exact S'].
          intro q. rewrite L', L1. destruct (strip_prefix rel q) as [[|n p]|]; try reflexivity.
          destruct (str_eqb n0 n) eqn:En; [|now destruct (find_child n l)].
          apply str_eqb_spec in En. subst n. now rewrite (find_child_fresh n0 l Hn0).
  Qed.

  (* a directory: its own entry left [rel] a directory in [f2], then the children *)
  Lemma dir_ok rel m mt ch f f2 md :
    Forall (fun nc => subtree_spec (snd nc)) ch ->
    wf_treeb (Dir m mt ch) = true -> modes_okb (Dir m mt ch) = true ->
    benignb pre isl isf rel (Dir m mt ch) = true ->
    extract_entry pre umask preserve f (mkEntry (pre ++ rel) EDir m (hdr_time repro mt)) = Ok f2 ->
    fs_lookup f2 rel = Some (NDir md) -> dirs_above f2 rel ->
    (forall n p, fs_lookup f2 (rel ++ n :: p) = None) -> links_sound f2 ->
    exists g', extract_list pre umask preserve f (entries pre repro rel (Dir m mt ch)) = Ok g' /\
      (forall q, fs_lookup g' q = match strip_prefix rel q with
                                  | Some (n :: p) => expected_mid umask preserve (Dir m mt ch) (n :: p)
                                  | _ => fs_lookup f2 q
                                  end) /\
      links_sound g'.
  Proof.
    intros HF Hwf Hmo Hbe Hstep Hrel Hpre Hfresh Hls. simpl in Hwf, Hmo, Hbe.
    apply andb_true_iff in Hwf as [Hnd Hwf]. apply andb_true_iff in Hnd as [Hnd _].
    apply andb_true_iff in Hmo as [_ Hmo].
    destruct (children_ok rel ch HF f2 md Hnd Hwf Hmo Hbe Hrel Hpre (fun n p _ => Hfresh n p) Hls)
      as (g' & E' & L' & S').
    exists g'. split; [simpl; rewrite Hstep; exact E'|]. split; [|exact S'].
    intro q. rewrite L'. destruct (strip_prefix rel q) as [[|n p]|] eqn:E; try reflexivity.
    rewrite expected_dir_cons. destruct (find_child n ch); [reflexivity|].
    apply strip_prefix_spec in E. subst q. apply Hfresh.
  Qed.

  Lemma subtree_ok : forall t, subtree_spec t.
  Proof.
    induction t as [c m mt|tg mt|m mt ch IHch] using tree_ind';
      intros rel f Hne Hwf Hmo Hbe Hpre Hfresh Hls;
      (assert (Hrel : fs_lookup f rel = None) by (rewrite <- (app_nil_r rel); apply Hfresh)).
    - (* regular file *)
      simpl in Hmo, Hbe.
      eapply (leaf_ok _ _ rel f _ (NFile c (restored_mode umask preserve m))); try eassumption; try reflexivity.
      + unfold extract_entry. simpl.
        rewrite strip_prefix_app, (check_dirs_prefix_dirs f rel Hpre). simpl.
        rewrite Hrel, (parent_is_dir_true f rel Hne Hpre). reflexivity.
      + intro q. rewrite <- (mode_file m Hmo).
        destruct preserve; rewrite ?lookup_set; destruct (path_eqb rel q); reflexivity.
      + intros [|x p]; reflexivity.
    - (* symlink *)
      simpl in Hbe.
      apply andb_true_iff in Hbe as [Hbe Hq]. apply andb_true_iff in Hbe as [Hbe _].
      apply andb_true_iff in Hbe as [Hisl Habs].
      apply negb_true_iff in Habs.
      destruct (link_target_path pre rel tg) as [q0|] eqn:Eq; [|discriminate].
      eapply (leaf_ok _ _ rel f _ (NLink tg)); try eassumption; try reflexivity.
      + unfold extract_entry. simpl.
        rewrite strip_prefix_app, (check_dirs_prefix_dirs f rel Hpre). simpl.
        unfold link_ok. rewrite Habs, Eq, (check_dirs_clear f Hls q0 [] Hq).
        rewrite Hrel, (parent_is_dir_true f rel Hne Hpre).
        assert (is_root rel = false) as -> by (destruct rel; [contradiction|reflexivity]). reflexivity.
      + intro q. apply lookup_set.
      + intros [|x p]; reflexivity.
    - (* directory *)
      destruct (parent_is_dir_ok f rel Hne Hpre) as [mp Hpar].
      set (f2 := fs_set f rel (NDir (mid_dir_mode umask m))).
      destruct (dir_ok rel m mt ch f f2 (mid_dir_mode umask m) IHch Hwf Hmo Hbe) as (g' & E' & L' & S').
      + unfold extract_entry. simpl.
        rewrite strip_prefix_app, (check_dirs_prefix_dirs f rel Hpre). simpl.
        rewrite (mkdir_all_fresh (N.lor m owner_rwx) f rel mp Hne Hrel Hpar); [reflexivity|].
        exact (proj2 Hls _ _ Hpar).
      + apply lookup_set_same.
      + intros q r Hr E. unfold f2. rewrite lookup_set, path_eqb_strip, E, (strip_prefix_longer q r Hr).
        exact (Hpre q r Hr E).
      + intros n p. unfold f2. rewrite lookup_set_other by (apply app_neq_longer; discriminate). apply Hfresh.
      + apply (binds_sound f f2 rel _ (lookup_set f rel _) Hls), create_dir_no_sgid.
      + exists g'. split; [exact E'|]. split; [|exact S'].
        intro q. rewrite L'. unfold f2. rewrite lookup_set, path_eqb_strip.
        now destruct (strip_prefix rel q) as [[|n p]|].
  Qed.

  Lemma extract_list_entries m mt ch :
    let T := Dir m mt ch in
    wf_treeb T = true -> modes_okb T = true -> benignb pre isl isf [] T = true ->
    links_sound (fs_init umask) ->
    exists f', extract_list pre umask preserve (fs_init umask) (entries pre repro [] T) = Ok f' /\
      forall p, fs_lookup f' p = expected_mid_top umask preserve T p.
  Proof.
    intros T Hwf Hmo Hbe Hls0. subst T.
    assert (HF : Forall (fun nc => subtree_spec (snd nc)) ch) by (apply Forall_forall; intros; apply subtree_ok).
    destruct (dir_ok [] m mt ch (fs_init umask) (fs_init umask) (N.ldiff 511 umask) HF Hwf Hmo Hbe)
      as (g' & E' & L' & _); try reflexivity; try exact Hls0.
    - unfold extract_entry. simpl. now rewrite strip_prefix_app.
    - intros q r Hr E. symmetry in E. apply app_eq_nil in E as [_ E]. contradiction.
    - exists g'. split; [exact E'|]. intros [|n p]; rewrite L'; reflexivity.
  Qed.

End RoundTrip.

(* a successful entry is a MkdirAll, or binds its path to a file or a link - the base directory
   itself is never rebound *)
Lemma extract_entry_ok pre umask preserve f e f' :
  extract_entry pre umask preserve f e = Ok f' ->
  exists rel,
    mkdir_all umask (N.lor (e_mode e) owner_rwx) f (rev rel) = Ok f' \/
    exists n, binds f f' rel n /\ (forall m, n <> NDir m) /\
              (rel = [] -> forall m, fs_lookup f [] <> Some (NDir m)).
Proof.
  unfold extract_entry. destruct (strip_prefix pre (e_name e)) as [rel|]; [|discriminate].
  destruct (check_dirs f [] rel); [|discriminate]. simpl. intro H. exists rel.
  destruct (e_kind e) as [c| |tg]; [|now left|]; right.
  - assert (B : forall mo, binds f (let f1 := fs_set f rel (NFile c mo) in
                                    if preserve then fs_set f1 rel (NFile c (chmod_mode (e_mode e))) else f1)
                           rel (NFile c (if preserve then chmod_mode (e_mode e) else mo))).
    { intros mo q. destruct preserve; simpl; destruct (path_eqb rel q); reflexivity. }
    destruct (fs_lookup f rel) as [[c0 m0|m0|g]|] eqn:El; try discriminate;
      try (destruct (parent_is_dir f rel); [|discriminate]); injection H as <-;
      (eexists; split; [apply B|]; split; [discriminate|]; intros ->; congruence).
  - destruct (is_root rel) eqn:Er; [discriminate|]. destruct (link_ok pre f rel tg); [|discriminate].
    exists (NLink tg). split; [|split; [discriminate | intros ->; discriminate]].
    destruct (fs_lookup f rel) as [[c0 m0|m0|g]|]; [| destruct (has_children f rel) | | destruct (parent_is_dir f rel)];
      try discriminate; injection H as <-; intro q; apply lookup_set.
Qed.

Lemma binds_dirs (R : N -> Prop) f F rel n :
  binds f F rel n -> (forall m, n <> NDir m) ->
  (forall p m, fs_lookup f p = Some (NDir m) -> R m) -> forall p m, fs_lookup F p = Some (NDir m) -> R m.
Proof.
  intros B Hn Hf p m. rewrite B. destruct (path_eqb rel p); [intros [= E]; now elim (Hn m) | apply Hf].
Qed.

Theorem extract_list_mid pre umask preserve repro T :
  is_dir T = true -> wf_treeb T = true -> modes_okb T = true -> benign_tree pre T = true ->
  exists f', extract_list pre umask preserve (fs_init umask) (entries pre repro [] T) = Ok f' /\
    forall p, fs_lookup f' p = expected_mid_top umask preserve T p.
Proof.
  intros Hd Hwf Hmo Hbe. destruct T as [| |m mt ch]; try discriminate.
  apply (extract_list_entries pre umask preserve repro (links_of (Dir m mt ch)) (files_of (Dir m mt ch)) m mt ch Hwf Hmo Hbe).
  split; intros p x E; unfold fs_init in E; destruct p; simpl in E; try discriminate.
  injection E as <-. apply create_dir_no_sgid.
Qed.

Lemma flat_map_ext_Forall {A B} (f g : A -> list B) l :
  Forall (fun x => f x = g x) l -> flat_map f l = flat_map g l.
Proof. induction 1; simpl; congruence. Qed.

Lemma entries_strip_times pre : forall t rel,
  entries pre true rel (strip_times t) = entries pre true rel t.
Proof.
  induction t as [c m mt|tg mt|m mt ch IH] using tree_ind'; intro rel; simpl; try reflexivity.
  f_equal. rewrite flat_map_concat_map, map_map, <- flat_map_concat_map. simpl.
  apply flat_map_ext_Forall. eapply Forall_impl; [|exact IH]. intros nc H. apply H.
Qed.

Lemma insert_child_map (g : name * tree -> name * tree) x l :
  (forall y, fst (g y) = fst y) ->
  insert_child (g x) (map g l) = map g (insert_child x l).
Proof.
  intro Hg. induction l as [|y l IH]; simpl; [reflexivity|].
  rewrite !Hg. destruct (str_ltb (fst y) (fst x)); simpl; [now rewrite IH|reflexivity].
Qed.

Lemma sort_children_map (g : name * tree -> name * tree) l :
  (forall y, fst (g y) = fst y) ->
  sort_children (map g l) = map g (sort_children l).
Proof.
  intro Hg. induction l as [|x l IH]; simpl; [reflexivity|].
  unfold sort_children in *. simpl. rewrite IH. now apply insert_child_map.
Qed.

Lemma sort_strip_commute : forall t, sort_tree (strip_times t) = strip_times (sort_tree t).
Proof.
  induction t as [c m mt|tg mt|m mt ch IH] using tree_ind'; simpl; try reflexivity.
  f_equal. rewrite <- (sort_children_map (fun nc => (fst nc, strip_times (snd nc)))) by reflexivity.
  f_equal. rewrite !map_map. simpl. apply map_ext_Forall.
  eapply Forall_impl; [|exact IH]. intros nc H. simpl. now rewrite H.
Qed.

Theorem reproducible_entries pre t1 t2 :
  strip_times t1 = strip_times t2 -> tar_entries pre true t1 = tar_entries pre true t2.
Proof.
  intro E. unfold tar_entries.
  rewrite <- (entries_strip_times pre (sort_tree t1)), <- (entries_strip_times pre (sort_tree t2)).
  rewrite <- !sort_strip_commute. now rewrite E.
Qed.

Lemma str_ltb_irrefl x : str_ltb x x = false.
Proof. induction x as [|c x IH]; simpl; [reflexivity|]. now rewrite N.ltb_irrefl. Qed.

Section Codec.
  Variable digest : Type.
  Variable H : str -> digest.
  Variable digest_eqb : digest -> digest -> bool.
  Variable enc : list entry -> str.
  Variable dec : str -> option (list entry).
  Variable gz : str -> str.
  Variable gunz : str -> option str.
  Hypothesis digest_eqb_spec : forall a b, digest_eqb a b = true <-> a = b.
  Hypothesis dec_enc : forall es, dec (enc es) = Some es.
  Hypothesis gunz_gz : forall s, gunz (gz s) = Some s.

  Let descr := dir_descriptor digest H enc gz.
  Let blobof := dir_blob enc gz.
  Let unpk := unpack digest H digest_eqb dec gunz.

  Lemma digest_eqb_refl a : digest_eqb a a = true.
  Proof. now apply digest_eqb_spec. Qed.

  Theorem descriptor_of_stored_bytes pre repro T :
    let d := descr pre repro T in
    let blob := blobof pre repro T in
    d_digest digest d = H blob /\ d_size digest d = N.of_nat (length blob) /\
    d_title digest d = pre /\ d_unpack digest d = true /\
    (forall tarb, gunz blob = Some tarb -> d_checksum digest d = Some (H tarb)).
  Proof.
    simpl. repeat split. intros tarb E. unfold blobof, dir_blob in E. rewrite gunz_gz in E.
    injection E as <-. reflexivity.
  Qed.

  Theorem wrong_checksum_rejected umask preserve d blob tarb c :
    gunz blob = Some tarb -> d_checksum digest d = Some c -> H tarb <> c ->
    forall f, unpk umask preserve d blob <> Ok f.
  Proof.
    intros Eg Ec Hne f. unfold unpk, unpack.
    destruct (negb _); [discriminate|]. rewrite Eg.
    destruct (dec tarb); [|discriminate].
    destruct (extract _ _ _ _); [|discriminate].
    rewrite Ec. destruct (digest_eqb (H tarb) c) eqn:E; [|discriminate].
    apply digest_eqb_spec in E. contradiction.
  Qed.

  Theorem wrong_blob_rejected umask preserve d blob :
    H blob <> d_digest digest d \/ N.of_nat (length blob) <> d_size digest d ->
    unpk umask preserve d blob = Err XDigest.
  Proof.
    intro Hne. unfold unpk, unpack.
    destruct (digest_eqb (H blob) (d_digest digest d)) eqn:E1; simpl; [|reflexivity].
    destruct (N.of_nat (length blob) =? d_size digest d) eqn:E2; simpl; [|reflexivity].
    apply digest_eqb_spec in E1. apply N.eqb_eq in E2. destruct Hne; contradiction.
  Qed.

  Theorem file_roundtrip umask nm content :
    push_file digest H digest_eqb umask (file_descriptor digest H nm content) content
    = Ok (NFile content (N.ldiff 438 umask)).
  Proof.
    unfold push_file, file_descriptor. simpl. rewrite digest_eqb_refl, N.eqb_refl. reflexivity.
  Qed.

  (* the descriptor of a plain file has no mode: a 0755 file comes back 0644 under umask 022 *)
  Theorem plain_file_mode_refuted nm content :
    exists m m', m <= 511 /\
      push_file digest H digest_eqb 18 (file_descriptor digest H nm content) content = Ok (NFile content m') /\
      m' <> N.ldiff m 18.
  Proof.
    exists 493, (N.ldiff 438 18). split; [vm_compute; discriminate|]. split; [apply file_roundtrip|].
    vm_compute. discriminate.
  Qed.

  Theorem file_push_verified umask d blob n :
    push_file digest H digest_eqb umask d blob = Ok n ->
    H blob = d_digest digest d /\ N.of_nat (length blob) = d_size digest d /\
    exists m, n = NFile blob m.
  Proof.
    unfold push_file.
    destruct (digest_eqb (H blob) (d_digest digest d)) eqn:E1; simpl; [|discriminate].
    destruct (N.of_nat (length blob) =? d_size digest d) eqn:E2; simpl; [|discriminate].
    intro E. injection E as <-. apply digest_eqb_spec in E1. apply N.eqb_eq in E2. eauto.
  Qed.

  Theorem reproducible_descriptor pre t1 t2 :
    strip_times t1 = strip_times t2 -> descr pre true t1 = descr pre true t2.
  Proof.
    intro E. unfold descr, dir_descriptor. now rewrite (reproducible_entries pre t1 t2 E).
  Qed.

End Codec.

Lemma name_lookup_in l n d : name_lookup l n = Some d -> In (n, d) l.
Proof.
  induction l as [|[m e] l IH]; simpl; [discriminate|].
  destruct (str_eqb m n) eqn:E.
  - intro Hs. injection Hs as ->. apply str_eqb_spec in E. subst. now left.
  - intro Hs. right. now apply IH.
Qed.

Lemma nodup_fst_inj (l : list (name * nat)) n d d' :
  NoDup (map fst l) -> In (n, d) l -> In (n, d') l -> d = d'.
Proof.
  induction l as [|[m e] l IH]; simpl; [contradiction|].
  intros Hnd [E1|H1] [E2|H2]; inversion Hnd as [|? ? Hni Hnd']; subst.
  - congruence.
  - injection E1 as -> ->. elim Hni. exact (in_map fst _ _ H2).
  - injection E2 as -> ->. elim Hni. exact (in_map fst _ _ H1).
  - now apply IH.
Qed.

Lemma fpush_layers_fresh : forall ls s,
  NoDup (map fst ls) ->
  (forall n d, In (n, d) ls -> name_lookup (s_names s) n = None) ->
  fpush_layers s ls = mkFstore (rev ls ++ s_names s) (rev (map snd ls) ++ s_digests s).
Proof.
  induction ls as [|[n d] ls IH]; intros s Hnd Hfresh; simpl.
  - destruct s; reflexivity.
  - unfold fpush_named. rewrite (Hfresh n d) by now left.
    inversion Hnd as [|? ? Hni Hnd']; subst.
    rewrite IH; simpl; auto.
    + now rewrite <- !app_assoc.
    + intros n' d' Hin. rewrite str_eqb_neq.
      * apply (Hfresh n' d'). now right.
      * intro E. subst n'. exact (Hni (in_map fst _ _ Hin)).
Qed.

Lemma restore_dups_mono : forall succ s n d,
  name_lookup (s_names s) n = Some d ->
  name_lookup (s_names (restore_dups s succ)) n = Some d.
Proof.
  induction succ as [|[n0 d0] succ IH]; intros s n d Hb; simpl; [exact Hb|].
  destruct (str_eqb n0 []); [now apply IH|].
  destruct (name_lookup (s_names s) n0) eqn:E0; [now apply IH|].
  destruct (existsb (Nat.eqb d0) (s_digests s)); [|now apply IH].
  unfold fpush_named. rewrite E0. apply IH. simpl.
  destruct (str_eqb n0 n) eqn:E; [|exact Hb].
  apply str_eqb_spec in E. subst. congruence.
Qed.

Lemma restore_dups_all : forall succ s,
  (forall n d, In (n, d) succ -> n <> []) ->
  (forall n d, In (n, d) succ -> existsb (Nat.eqb d) (s_digests s) = true) ->
  (forall n d d', In (n, d) succ -> name_lookup (s_names s) n = Some d' -> d' = d) ->
  NoDup (map fst succ) ->
  forall n d, In (n, d) succ -> name_lookup (s_names (restore_dups s succ)) n = Some d.
Proof.
  induction succ as [|[n0 d0] succ IH]; intros s Hne Hdg Hcons Hnd n d Hin; [contradiction|].
  inversion Hnd as [|? ? Hni Hnd']; subst. simpl.
  rewrite (str_eqb_neq n0 []) by (apply (Hne n0 d0); now left).
  destruct (name_lookup (s_names s) n0) as [d'|] eqn:E0.
  - assert (d' = d0) by (apply (Hcons n0 d0 d'); [now left|exact E0]). subst d'.
    destruct Hin as [E|Hin].
    + injection E as <- <-. now apply restore_dups_mono.
    + apply IH; auto.
      * intros; eapply Hne; right; eauto.
      * intros; eapply Hdg; right; eauto.
      * intros n1 d1 d1' H1. apply Hcons. now right.
  - rewrite (Hdg n0 d0) by now left. unfold fpush_named. rewrite E0.
    destruct Hin as [E|Hin].
    + injection E as <- <-. apply restore_dups_mono. simpl. now rewrite str_eqb_refl.
    + apply IH; auto.
      * intros; eapply Hne; right; eauto.
      * intros n1 d1 H1. simpl. rewrite (Hdg n1 d1) by now right. apply orb_true_r.
      * intros n1 d1 d1' H1. simpl. destruct (str_eqb n0 n1) eqn:E.
        -- apply str_eqb_spec in E. subst n1. elim Hni. exact (in_map fst _ _ H1).
        -- apply Hcons. now right.
Qed.

Theorem same_bytes_two_names inn pushed layers :
  NoDup (map fst layers) -> (forall n d, In (n, d) layers -> n <> []) ->
  incl pushed layers -> NoDup (map fst pushed) ->
  (forall n d, In (n, d) layers -> In d (map snd pushed)) ->
  forall n d, In (n, d) layers ->
    name_lookup (s_names (copy_into false inn pushed layers)) n = Some d.
Proof.
  intros Hnd Hne Hincl Hndp Hdg. unfold copy_into, fpush_manifest.
  rewrite (fpush_layers_fresh pushed fstore_empty Hndp) by reflexivity. simpl. rewrite !app_nil_r.
  apply restore_dups_all; auto; simpl.
  - intros n d Hin. apply existsb_exists. exists d. split; [|apply Nat.eqb_refl].
    apply in_rev. rewrite rev_involutive. eapply Hdg; eauto.
  - intros n d d' Hin Hb. apply name_lookup_in in Hb. apply in_rev in Hb.
    apply (nodup_fst_inj layers n d' d Hnd); auto.
Qed.

(* the code before the fix, under IgnoreNoName: the manifest was dropped before restoreDuplicates *)
Theorem ignorenoname_refuted :
  exists pushed layers,
    NoDup (map fst layers) /\ (forall n d, In (n, d) layers -> n <> []) /\
    incl pushed layers /\ NoDup (map fst pushed) /\
    (forall n d, In (n, d) layers -> In d (map snd pushed)) /\
    exists n d, In (n, d) layers /\
      name_lookup (s_names (copy_into_prefix false true pushed layers)) n = None.
Proof.
  exists [(b "a", 1%nat)], [(b "a", 1%nat); (b "b", 1%nat)].
  split; [|split; [|split; [|split; [|split]]]].
  - repeat constructor; simpl; intuition discriminate.
  - intros n d [E|[E|[]]]; injection E as <- _; discriminate.
  - intros x [<-|[]]. now left.
  - repeat constructor; simpl; intuition.
  - intros n d [E|[E|[]]]; injection E as _ <-; now left.
  - exists (b "b"), 1%nat. split; [right; now left|reflexivity].
Qed.

(* the directory itself does not get its recorded mode back without PreservePermissions *)
Definition root_mode_witness : tree := Dir 448 0 [(b "f", File (b "x") 420 0)].

