(* Lemmas about the elaboration of traces recorded with nil callbacks (Model/CopyFaultOpt.v): the
   elaborated trace is a run of Model/CopyFault.v, it contains a fault iff the recorded one does, and
   erasing the invocations of nil callbacks from it gives the recorded trace back -- so every theorem of
   Proofs/CopyFault.v speaks about runs with any subset of the callbacks set. *)
From Oras Require Import Base.Prelude Model.CopySpec Model.CopyTop Model.CopyOpt Model.CopyFault Model.CopyFaultOpt
  Proofs.CopySpec Proofs.CopyFault.
Local Open Scope nat_scope.

Section O.
Variable cs : cbset.
Variable g : graph.
Variable c : cfg.
Variable ext : bool.

(* the inserted events are invocations of nil callbacks: successful ones, so never faults, and erased *)
Definition nil_calls (l : list event) : Prop := forall x, In x l -> exists k n, x = Cb k n /\ cs k = false.

Lemma pre_events_nil_calls st e : nil_calls (pre_events cs st e).
Proof.
  unfold pre_events. destruct e; try (intros x []);
    (destruct (cs CPre) eqn:Hc; [intros x [] | destruct (awaits_pre (ph st n)); [|intros x []]]);
    intros x [<-|[]]; eauto.
Qed.

Lemma post_events_nil_calls st e : nil_calls (post_events cs st e).
Proof.
  unfold post_events. destruct (ev_node e); [|intros x []].
  destruct (ph st n); try (intros x []);
    (match goal with |- context [if cs ?k then _ else _] => destruct (cs k) eqn:Hc end;
     [intros x [] | intros x [<-|[]]; eauto]).
Qed.

Lemma nil_calls_spec l : nil_calls l ->
  existsb is_fault (map Ev l) = false /\ ferase cs (map Ev l) = [].
Proof.
  induction l as [|x l IH]; intro H; [split; reflexivity|].
  destruct (H x (or_introl eq_refl)) as [k [n [-> Hk]]].
  destruct IH as [IH1 IH2]; [intros y Hy; apply H; now right|].
  split; [exact IH1|]. unfold ferase in *. cbn [map filter fnil_cb nil_cb_event]. now rewrite Hk.
Qed.

Lemma fpre_events_spec fs fe :
  existsb is_fault (fpre_events cs fs fe) = false /\ ferase cs (fpre_events cs fs fe) = [].
Proof.
  unfold fpre_events. destruct fe; try (split; reflexivity). apply nil_calls_spec, pre_events_nil_calls.
Qed.

Lemma fpost_events_spec fs fe :
  existsb is_fault (fpost_events cs fs fe) = false /\ ferase cs (fpost_events cs fs fe) = [].
Proof.
  unfold fpost_events. destruct fe; try (split; reflexivity).
  destruct (returned (fb fs)); [split; reflexivity|]. apply nil_calls_spec, post_events_nil_calls.
Qed.

Lemma ferase_app a b : ferase cs (a ++ b) = ferase cs a ++ ferase cs b.
Proof. unfold ferase. apply filter_app. Qed.

Lemma fstep_opt_spec fs fe fs' full : fstep_opt cs g c ext fs fe = Some (fs', full) ->
  frun g c ext fs full = Some fs' /\ ferase cs full = [fe] /\ existsb is_fault full = is_fault fe.
Proof.
  unfold fstep_opt. destruct (fnil_cb cs fe) eqn:Hn; [discriminate|].
  destruct (frun g c ext fs (fpre_events cs fs fe ++ [fe])) as [fs2|] eqn:E1; [|discriminate].
  destruct (frun g c ext fs2 (fpost_events cs fs2 fe)) as [fs3|] eqn:E2; [|discriminate].
  intros [= <- <-].
  destruct (fpre_events_spec fs fe) as [F1 R1]. destruct (fpost_events_spec fs2 fe) as [F2 R2].
  split; [|split].
  - pose proof (frun_join g c ext _ _ _ _ _ E1 E2) as HJ. now rewrite <- app_assoc in HJ.
  - rewrite ferase_app, R1. unfold ferase in *. cbn [filter app]. now rewrite Hn, R2.
  - rewrite existsb_app, F1. cbn [existsb orb]. rewrite F2. apply orb_false_r.
Qed.

Lemma frun_opt_spec tr : forall fs fs' full, frun_opt cs g c ext fs tr = Some (fs', full) ->
  frun g c ext fs full = Some fs' /\ ferase cs full = tr /\ existsb is_fault full = existsb is_fault tr.
Proof.
  induction tr as [|fe tr IH]; simpl; intros fs fs' full H.
  - injection H as <- <-. repeat split.
  - destruct (fstep_opt cs g c ext fs fe) as [[fs1 full1]|] eqn:E1; [|discriminate].
    destruct (frun_opt cs g c ext fs1 tr) as [[fs2 full2]|] eqn:E2; [|discriminate].
    injection H as <- <-.
    destruct (fstep_opt_spec _ _ _ _ E1) as [A1 [B1 C1]]. destruct (IH _ _ _ E2) as [A2 [B2 C2]].
    split; [exact (frun_join g c ext _ _ _ _ _ A1 A2)|].
    now rewrite ferase_app, existsb_app, B1, B2, C1, C2.
Qed.

Variable d0 : list node.

Lemma fopt_elaborates tr fs full : faccepts_opt cs g c ext d0 tr = Some (fs, full) ->
  faccepts g c ext d0 full = Some fs /\ ferase cs full = tr /\ existsb is_fault full = existsb is_fault tr.
Proof. apply frun_opt_spec. Qed.

Lemma fopt_closed_always tr fs full :
  ext_ok g c ext d0 -> closed_nodes g d0 -> faccepts_opt cs g c ext d0 tr = Some (fs, full) ->
  closed_nodes g (dst (fb fs)).
Proof.
  intros Hx Hc H. destruct (fopt_elaborates _ _ _ H) as [Ha _]. eapply fclosed_always; eauto.
Qed.

Lemma fopt_fault_surfaces tr fs full :
  ext_ok g c ext d0 -> faccepts_opt cs g c ext d0 tr = Some (fs, full) -> existsb is_fault tr = true ->
  returned (fb fs) <> Some true.
Proof.
  intros Hx H Hf. destruct (fopt_elaborates _ _ _ H) as [Ha [_ He]]. apply (ffault_surfaces g c ext d0 full fs Hx Ha). congruence.
Qed.

Lemma fopt_nofault_no_error tr fs full :
  faccepts_opt cs g c ext d0 tr = Some (fs, full) -> existsb is_fault tr = false ->
  tainted g fs = false /\ returned (fb fs) <> Some false.
Proof.
  intros H Hf. destruct (fopt_elaborates _ _ _ H) as [Ha [_ He]]. apply (fnofault_no_error g c ext d0 full fs Ha). congruence.
Qed.

Lemma fopt_success_complete tr fs full :
  ext_ok g c ext d0 -> closed_nodes g d0 -> mt_consistent g ->
  faccepts_opt cs g c ext d0 tr = Some (fs, full) -> returned (fb fs) = Some true ->
  forall r n, is_call_root g c ext r -> reach g r n -> has g (dst (fb fs)) n = true.
Proof.
  intros Hx Hc Hmt H Hr. destruct (fopt_elaborates _ _ _ H) as [Ha _]. eapply fclosure; eauto.
Qed.

End O.

(* witness: g_sh copied with only PreCopy set (PostCopy, OnCopySkipped nil); the push of C = 0 fails after
   storing; the recorded trace has no CB.post / CB.skip events, the elaboration inserts them *)
Definition cs_pre_only : cbset := fun k => match k with CPre => true | _ => false end.
Definition tr_sh_opt : list fevent :=
  [Ev (ExB 4); Ev (ExE 4 false); Ev (SFB 4); Ev (SFE 4); Ev (SFC 4);
   Ev (ExB 2); Ev (ExB 3); Ev (ExE 2 false); Ev (ExE 3 false);
   Ev (SFB 2); Ev (SFE 2); Ev (SFC 2); Ev (SFB 3); Ev (SFE 3); Ev (SFC 3);
   Ev (ExB 0); Ev (ExB 1); Ev (ExE 0 false); Ev (ExE 1 false);
   Ev (Cb CPre 0); Ev (SFB 0); Ev (SFE 0); Ev (PuB 0 false);
   Ev (Cb CPre 1); Ev (SFB 1);
   PuX 0 false true; Ev (SFC 0);
   Ev (SFE 1); Ev (PuB 1 false); Ev (PuE 1 false POk); Ev (SFC 1);
   Ev (Ret false)].

