(* The generated link schema of content.Successors is exactly the property's link relation, and
   closure over CopySpec's [reach] is closure over those links.  Also what surrounds copyGraph in Copy:
   the prologue (root, platform selection, what it reads), removeForeignLayers as the filter behind
   [succ'], and a second schedule of the F12 witness graph. *)
From Oras Require Import Base.Prelude Generated.GC01 Model.CopySpec Model.CopyTop Model.CopyLinks Proofs.CopySpec.
Local Open Scope nat_scope.

Definition linked (f : mfields) (x : node) : Prop :=
  exists k, In k (spec_kinds (f_mt f)) /\ In x (links_of k f).

Lemma successors_spec_kinds f : successors f = flat_map (fun k => links_of k f) (spec_kinds (f_mt f)).
Proof.
  unfold successors, successors_by, spec_kinds, successors_schema. simpl.
  repeat (destruct (String.eqb (f_mt f) _); [reflexivity|]). reflexivity.
Qed.

Lemma schema_is_spec f x : linked f x <-> In x (successors f).
Proof. unfold linked. rewrite successors_spec_kinds, in_flat_map. reflexivity. Qed.

Lemma schema_labels_are_manifests :
  forall mt, is_manifest_mt mt = true <-> lookup_schema successors_schema mt <> None.
Proof.
  intro mt. unfold is_manifest_mt, isManifest_cases, successors_schema. simpl.
  destruct (String.eqb mt "docker.MediaTypeManifest"); simpl; [split; [discriminate|reflexivity]|].
  destruct (String.eqb mt "docker.MediaTypeManifestList") eqn:E2; simpl.
  { destruct (String.eqb mt "ocispec.MediaTypeImageManifest"); simpl; split; try discriminate; reflexivity. }
  destruct (String.eqb mt "ocispec.MediaTypeImageManifest"); simpl; [split; [discriminate|reflexivity]|].
  destruct (String.eqb mt "ocispec.MediaTypeImageIndex"); simpl; [split; [discriminate|reflexivity]|].
  destruct (String.eqb mt "spec.MediaTypeArtifactManifest"); simpl; [split; [discriminate|reflexivity]|].
  split; [discriminate | intro H; now elim H].
Qed.

Lemma manifest_not_foreign : forall mt, is_manifest_mt mt = true -> is_foreign_mt mt = false.
Proof.
  intros mt H. unfold is_manifest_mt in H. apply existsb_exists in H as [x [Hx He]].
  apply String.eqb_eq in He. subst x.
  assert (T : forallb (fun x => negb (is_foreign_mt x)) isManifest_cases = true) by reflexivity.
  rewrite forallb_forall in T. now apply negb_true_iff, T.
Qed.

Section Links.
Variable n : nat.
Variable flds : node -> mfields.
Variable dkey : node -> nat.

(* reachability along the property's links, foreign layers cut *)
Inductive lreach : node -> node -> Prop :=
| lreach_refl a : lreach a a
| lreach_step a x b : linked (flds a) x -> is_foreign_mt (f_mt (flds x)) = false ->
                      lreach x b -> lreach a b.

Lemma lreach_reach a b : lreach a b -> reach (graph_of n flds dkey) a b.
Proof.
  induction 1 as [a|a x b Hl Hf _ IH]; [constructor|].
  apply reach_step with x; [|exact IH].
  unfold succ'. simpl. apply filter_In. split.
  - now apply schema_is_spec.
  - now rewrite Hf.
Qed.

Lemma reach_lreach a b : reach (graph_of n flds dkey) a b -> lreach a b.
Proof.
  induction 1 as [a|a x b Hx _ IH]; [constructor|].
  unfold succ' in Hx. simpl in Hx. apply filter_In in Hx as [Hs Hf].
  apply lreach_step with x; [now apply schema_is_spec | now apply negb_true_iff in Hf | exact IH].
Qed.
End Links.

Lemma select_manifest_spec entries want n :
  select_manifest entries want = Some n <->
  exists l1 p l2, entries = l1 ++ (n, p) :: l2 /\ plat_match p want = true /\
                  forall m q, In (m, q) l1 -> plat_match q want = false.
Proof.
  split.
  - induction entries as [|[m q] r IH]; simpl; [discriminate|]. destruct (plat_match q want) eqn:E.
    + intro H. injection H as <-. exists [], q, r. repeat split; auto. intros ? ? [].
    + intro H. destruct (IH H) as [l1 [p [l2 [-> [Hp Hn]]]]]. exists ((m, q) :: l1), p, l2. repeat split; auto.
      intros m' q' [H1|H1]; [inversion H1; subst; exact E | eauto].
  - intros [l1 [p [l2 [-> [Hp Hn]]]]]. induction l1 as [|[m q] l1 IH]; simpl; [now rewrite Hp|].
    rewrite (Hn m q (or_introl eq_refl)). apply IH. intros m' q' H. apply (Hn m' q'). now right.
Qed.

Lemma select_manifest_none entries want :
  select_manifest entries want = None <-> forall m q, In (m, q) entries -> plat_match q want = false.
Proof.
  induction entries as [|[m q] r IH]; simpl.
  - split; auto. intros _ ? ? [].
  - destruct (plat_match q want) eqn:E.
    + split; [discriminate|]. intro H. rewrite (H m q (or_introl eq_refl)) in E. discriminate.
    + rewrite IH. split.
      * intros H m' q' [H1|H1]; [inversion H1; subst; exact E | eauto].
      * intros H m' q' H1. apply (H m' q'). now right.
Qed.

Lemma copy_root_platform resolved platform_want entries_of r es root :
  resolved = Some r -> entries_of r = Some es ->
  copy_root resolved None (Some platform_want) entries_of = Some root ->
  select_manifest es platform_want = Some root.
Proof.
  intros -> He. unfold copy_root, prologue. now rewrite He.
Qed.

Lemma copy_root_fails_unresolved user_map platform entries_of :
  copy_root None user_map platform entries_of = None.
Proof. reflexivity. Qed.

(* prologue reads vs the copy: a node read in the prologue and not cached is read again by copyGraph
   only if it is the (mapped) root's own content or its config -- the two mechanisms of the known finding
   prologue-read-twice; a manifest root resolved through a ReferenceFetcher is cached and not read again *)
Lemma prologue_manifest_root_cached root0 pt :
  cache_after_resolve true true false root0 = [root0] /\
  ~ In root0 (filter (fun x => negb (memb x [root0])) (match pt with PTList => [root0] | _ => [] end)).
Proof.
  split; [reflexivity|]. destruct pt; simpl; auto. rewrite Nat.eqb_refl. simpl. auto.
Qed.

Lemma prologue_fetches_nodes reffetch root0 mapped pt cache x :
  In x (prologue_fetches reffetch root0 mapped pt cache) ->
  x = root0 \/ x = mapped \/ (exists ok, pt = PTImage x ok).
Proof.
  unfold prologue_fetches. intro H. apply in_app_iff in H as [H|H].
  - destruct reffetch; [destruct H as [<-|[]]; auto | contradiction].
  - apply filter_In in H as [H _].
    destruct pt as [| |cb ok|]; simpl in H; try contradiction.
    + destruct H as [<-|[]]; auto.
    + destruct ok; simpl in H.
      * destruct H as [<-|[<-|[]]]; eauto.
      * destruct H as [<-|[]]; auto.
Qed.

(* ExtendedCopyGraph walks from c_root :: c_xroots: on success the graph of EVERY root is in the destination *)
Lemma closure_all_roots g c d0 tr st :
  closed_nodes g d0 -> mt_consistent g ->
  accepts g c d0 tr = Some st -> returned st = Some true ->
  forall r n, In r (c_root c :: c_xroots c) -> reach g r n -> has g (dst st) n = true.
Proof. exact (closure_roots g c d0 tr st). Qed.

(* removeForeignLayers: the in-place loop is the filter that CopySpec.succ' uses *)
Lemma set_nth_length l k v : length (set_nth l k v) = length l.
Proof. revert k; induction l as [|x l IH]; intros [|k]; simpl; auto. Qed.

Lemma firstn_set_nth_ge l k v j : j <= k -> firstn j (set_nth l k v) = firstn j l.
Proof.
  revert k j; induction l as [|x l IH]; intros [|k] [|j] H; simpl; auto; try lia.
  f_equal. apply IH. lia.
Qed.

Lemma skipn_set_nth_lt l k v i : k < i -> skipn i (set_nth l k v) = skipn i l.
Proof.
  revert k i; induction l as [|x l IH]; intros [|k] [|i] H; simpl; auto; try lia.
  apply IH. lia.
Qed.

Lemma firstn_S_set_nth l j v : j < length l -> firstn (S j) (set_nth l j v) = firstn j l ++ [v].
Proof.
  revert j; induction l as [|x l IH]; intros [|j] H; simpl in *; try lia; auto.
  f_equal. apply IH. lia.
Qed.

Lemma firstn_S_nth (l : list node) j d : nth_error l j = Some d -> firstn (S j) l = firstn j l ++ [d].
Proof.
  revert j; induction l as [|x l IH]; intros [|j] H; simpl in *; try discriminate.
  - now injection H as ->.
  - f_equal. now apply IH.
Qed.

Lemma nth_error_skipn (l : list node) i d : nth_error l i = Some d -> skipn i l = d :: skipn (S i) l.
Proof.
  revert i; induction l as [|x l IH]; intros [|i] H; simpl in *; try discriminate.
  - now injection H as ->.
  - now apply IH.
Qed.

(* the loop's invariant: what was written so far, then what the unread rest will contribute *)
Lemma rfl_spec foreign : forall fuel i j arr, j <= i -> i + fuel = length arr ->
  rfl foreign fuel i j arr = firstn j arr ++ filter (fun x => negb (foreign x)) (skipn i arr).
Proof.
  induction fuel as [|f IH]; intros i j arr Hji Hfuel; simpl.
  - rewrite skipn_all2 by lia. now rewrite app_nil_r.
  - destruct (nth_error arr i) as [d|] eqn:Hn; [|apply nth_error_None in Hn; lia].
    rewrite (nth_error_skipn arr i d Hn). simpl. destruct (foreign d) eqn:Fd; simpl.
    + apply IH; lia.
    + destruct (Nat.eqb_spec i j) as [->|Hne].
      * rewrite IH by lia. rewrite (firstn_S_nth arr j d Hn), <- app_assoc. reflexivity.
      * (* the write at j < i leaves the unread rest as it is *)
        rewrite IH by (rewrite ?set_nth_length; lia).
        rewrite firstn_S_set_nth, skipn_set_nth_lt, <- app_assoc by lia. reflexivity.
Qed.

Lemma remove_foreign_inplace_is_filter foreign descs :
  remove_foreign_inplace foreign descs = filter (fun x => negb (foreign x)) descs.
Proof. unfold remove_foreign_inplace. now rewrite rfl_spec by lia. Qed.

Lemma succ'_is_remove_foreign g n :
  succ' g n = remove_foreign_inplace (g_foreign g) (g_succ g n).
Proof. now rewrite remove_foreign_inplace_is_filter. Qed.

(* without mt_consistent the outcome depends on the schedule
   (C01_outcome_schedule_dependent_refuted_without_mt_consistency): the graph of the in-call F12 witness, copied into an empty
   digest-keyed destination in the other probe order (manifest 2 probed before blob 3 is pushed), ends
   with everything present *)
Definition tr_twin2_ok : list event :=
 [ExB 5; ExE 5 false; SFB 5; SFE 5; SFC 5;
  ExB 2; ExE 2 false; SFB 2; SFE 2; SFC 2;
  ExB 0; ExE 0 false; Cb CPre 0; SFB 0; SFE 0; PuB 0 false; PuE 0 false POk; SFC 0; Cb CPost 0;
  ExB 1; ExE 1 false; Cb CPre 1; SFB 1; SFE 1; PuB 1 false; PuE 1 false POk; SFC 1; Cb CPost 1;
  Cb CPre 2; PuB 2 false; PuE 2 false POk; Cb CPost 2;
  ExB 4; ExE 4 false; SFB 4; SFE 4; SFC 4;
  ExB 3; ExE 3 true; Cb CSkip 3;
  Cb CPre 4; PuB 4 false; PuE 4 false POk; Cb CPost 4;
  Cb CPre 5; PuB 5 false; PuE 5 false POk; TagB 5; TagE 5; Cb CPost 5; Ret true].

Lemma select_target_image r ok p want x :
  select_target r (PVImage ok p) want = Some x <-> x = r /\ ok = true /\ plat_match p want = true.
Proof.
  simpl. destruct ok; destruct (plat_match p want); simpl; split; intro H.
  - injection H as <-. auto.
  - destruct H as [-> _]. reflexivity.
  - discriminate.
  - destruct H as [_ [_ H]]. discriminate.
  - discriminate.
  - destruct H as [_ [H _]]. discriminate.
  - discriminate.
  - destruct H as [_ [H _]]. discriminate.
Qed.

Lemma select_target_other r want : select_target r PVOther want = None.
Proof. reflexivity. Qed.
