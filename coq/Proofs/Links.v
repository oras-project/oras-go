(* Proofs/Links.v -- "config, layers, blobs, manifests or subject": the successor relation
   of content.Successors spelled out, and Predecessors in those terms. *)
From Coq Require Import List NArith Bool.
Import ListNotations.
From Oras Require Import Model.GraphMem Model.Links Proofs.GraphMem.

(* n is referenced by document m, as the code reads m for its media type *)
Definition link (m : mdoc) (n : node) : Prop :=
  match d_kind m with
  | KDockerManifest => n = d_config m \/ In n (d_layers m)
  | KImageManifest => d_subject m = Some n \/ n = d_config m \/ In n (d_layers m)
  | KDockerList => In n (d_manifests m)
  | KImageIndex => d_subject m = Some n \/ In n (d_manifests m)
  | KArtifact => d_subject m = Some n \/ In n (d_blobs m)
  | KOther => False
  end.

Lemma In_opt_list o n : In n (opt_list o) <-> o = Some n.
Proof. destruct o; simpl; split; intros H; try tauto; try discriminate.
  - destruct H as [->|[]]. reflexivity.
  - inversion H. auto.
Qed.

(* the schema read from the source says what the hand-written reading says *)
Lemma successors_of_spec m : successors_of m = successors_spec m.
Proof.
  destruct m as [k sub cfg ls ms bs]. destruct k; cbv -[app opt_list]; rewrite ?app_nil_r; reflexivity.
Qed.

Lemma successors_link m n : In n (successors_of m) <-> link m n.
Proof.
  rewrite successors_of_spec.
  unfold successors_spec, link. destruct (d_kind m); simpl;
    rewrite ?in_app_iff, ?In_opt_list; simpl; intuition auto.
Qed.

Lemma links_exact (doc : node -> mdoc) (g : graph) :
  Inv (fun p => successors_of (doc p)) g ->
  forall n, NoDup (predecessors g n) /\
            forall p, In p (predecessors g n) <-> In p (g_nodes g) /\ link (doc p) n.
Proof.
  intros HI n. destruct (exact_full _ g HI n) as (Hd & Hm & _). split; auto.
  intro p. rewrite Hm, successors_link. tauto.
Qed.

(* a manifest listed twice, a subject that is also a layer: one predecessor entry *)
Example link_example :
  successors_of (mkDoc KImageManifest (Some 1%N) 2%N [1%N; 3%N; 3%N] [9%N] [8%N]) = [1; 2; 1; 3; 3]%N.
Proof. vm_compute. reflexivity. Qed.
