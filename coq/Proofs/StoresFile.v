(* C06 -- the clauses of the property for the file store (audit F2). *)
From Oras Require Import Base.Prelude Model.Stores Model.StoresConc Model.StoresConcFile
     Proofs.Stores Proofs.StoresConc Proofs.StoresConcFile.

Lemma file_run_fle fx ig ov h : forall s, fle s (fst (runf (file_step fx ig ov) s h)).
Proof. intro s. apply (file_run_rel _ _ _ _ _ _ (fle_writes fx ig ov)), all_ops_ok. Qed.

Lemma file_exists_fetch d s : file_inv s -> file_exists d s = true -> exists c, file_fetch d s = Some c.
Proof.
  intros [A B C]. unfold file_exists, file_fetch. intro H. apply andb_true_iff in H as [Hn Hp]. rewrite Hn.
  destruct (get N.eqb (d_dig d) (f_d2p s)) as [p|] eqn:E.
  - destruct (A _ _ E) as (_ & c & Hc & _). eauto.
  - simpl in Hp. destruct (get gkey_eqb (gk d) (f_cas s)); [eauto|discriminate].
Qed.

Lemma file_push_ok_stored fx ig ov s d c :
  (ig = false \/ d_name d <> 0) -> snd (file_step fx ig ov s (Push d c)) = FO OOk ->
  exists s1, file_exists d s1 = true /\ file_step fx ig ov s (Push d c) = file_index_after fx ov d s1.
Proof.
  intros Hig. rewrite file_step_push_split. pose proof (push_store_result fx ig ov s d c) as H.
  destruct (file_push_store fx ig ov s d c) as [s1 [x|]]; cbn [fst snd] in *; [|eauto].
  intro X. destruct (H X) as [-> E]. destruct Hig; congruence.
Qed.

(* Fetch returns the pushed content for ever: after a successful Push, whatever follows,
   Fetch of that descriptor succeeds and the bytes hash to its digest *)
Theorem file_fetch_returns_pushed ig ov h1 d c h2 :
  Forall no_alias h1 -> no_alias (Push d c) -> Forall no_alias h2 -> (ig = false \/ d_name d <> 0) ->
  let s := fst (runf (file_step true ig ov) file_init h1) in
  snd (file_step true ig ov s (Push d c)) = FO OOk ->
  let s2 := fst (runf (file_step true ig ov) (fst (file_step true ig ov s (Push d c))) h2) in
  exists len, snd (file_step true ig ov s2 (Fetch d)) = FO (OBytes (d_dig d) len).
Proof.
  intros H1 Hp H2 Hig s Hok s2.
  assert (Hinv2 : file_inv s2).
  { apply file_run_inv; [exact H2|]. apply file_step_inv; [exact Hp|]. now apply file_run_inv; [|exact file_inv_init]. }
  assert (He2 : file_exists d s2 = true).
  { apply file_run_fle. destruct (file_push_ok_stored true ig ov s d c Hig Hok) as (s1 & He & ->).
    now apply (file_index_after_rel _ _ _ _ _ _ (fle_writes true ig ov)). }
  destruct (file_exists_fetch d s2 Hinv2 He2) as (c2 & Hf).
  destruct (file_fetch_inv _ _ _ Hinv2 Hf) as [Hh _].
  exists (b_len c2). cbn [file_step]. rewrite Hf. cbn [snd]. now rewrite Hh.
Qed.

(* the fallback content map is immutable *)
Definition cas_le (a b : file_store) : Prop :=
  forall k c, get gkey_eqb k (f_cas a) = Some c -> get gkey_eqb k (f_cas b) = Some c.

Lemma cas_le_writes fx ig ov : respects_writes fx ig ov cas_le (fun _ => True) (fun _ => True).
Proof.
  constructor; [constructor|..]; unfold cas_le; auto.
  - intros a k n c _ k0 c0. now rewrite (proj1 (file_named_push_frame fx ov a k n c)).
  - intros a d c _ _ _ Habs k c0 H. cbn [f_cas]. rewrite (get_put_neq gkey_eqb gkey_eqb_spec); congruence.
Qed.

(* an unnamed re-push is already-exists and changes nothing *)
Theorem file_unnamed_repush_refused fx ov d c h2 s c' :
  d_name d = 0 ->
  snd (file_step fx false ov s (Push d c)) = FO OOk ->
  let s2 := fst (runf (file_step fx false ov) (fst (file_step fx false ov s (Push d c))) h2) in
  file_step fx false ov s2 (Push d c') = (s2, FO (OErr EAlreadyExists)).
Proof.
  intros Hn Hok s2.
  assert (H2 : exists c1, get gkey_eqb (gk d) (f_cas s2) = Some c1).
  { exists (limit_reader d c). apply (file_run_rel _ _ _ _ _ _ (cas_le_writes fx false ov) h2 _ (all_ops_ok h2)).
    revert Hok. rewrite file_step_push_split. unfold file_push_store. rewrite Hn. cbn [N.eqb].
    destruct (get gkey_eqb (gk d) (f_cas s)); [discriminate|].
    destruct (verify d (limit_reader d c)); [|discriminate]. intros _.
    apply (file_index_after_rel _ _ _ _ _ _ (cas_le_writes fx false ov)). cbn [f_cas].
    apply (get_put_eq gkey_eqb gkey_eqb_spec). }
  destruct H2 as (c1 & H2). cbn [file_step]. rewrite Hn. cbn [N.eqb]. now rewrite H2.
Qed.

Definition res_keeps (r : ref) (a b : file_store) : Prop :=
  get ref_eqb r (r_index (f_res b)) = get ref_eqb r (r_index (f_res a)).

Lemma res_keeps_writes fx ig ov r : respects_writes fx ig ov (res_keeps r) (fun _ => True) (fun r0 => r0 <> r).
Proof.
  constructor; [constructor|..]; unfold res_keeps; auto.
  - intros; congruence.
  - intros a k n c _. now rewrite (proj1 (proj2 (file_named_push_frame fx ov a k n c))).
  - intros a d r0 Hne. cbn [f_res]. rewrite r_index_tag. apply (get_put_neq ref_eqb ref_eqb_spec). congruence.
Qed.

Theorem file_resolve_latest fx ig ov s d r h2 :
  r <> REmpty ->
  snd (file_step fx ig ov s (Tag d r)) = FO OOk -> forallb (fun o => negb (tags_ref r o)) h2 = true ->
  snd (file_step fx ig ov (fst (runf (file_step fx ig ov) (fst (file_step fx ig ov s (Tag d r))) h2)) (Resolve r))
  = FO (ODesc d).
Proof.
  intros Hr Hok Hfr.
  assert (Hget : get ref_eqb r (r_index (f_res (fst (file_step fx ig ov s (Tag d r))))) = Some d).
  { revert Hok. cbn [file_step]. destruct r; try congruence;
      (destruct (file_exists d s); [|discriminate]; intros _; cbn [fst f_res]; rewrite r_index_tag;
       apply (get_put_eq ref_eqb ref_eqb_spec)). }
  assert (Hops : Forall (op_ok (fun _ => True) (fun r0 => r0 <> r)) h2).
  { apply Forall_forall. intros o Ho. rewrite forallb_forall in Hfr. specialize (Hfr o Ho).
    destruct o; cbn in *; auto. intros ->. now rewrite (eqb_refl ref_eqb ref_eqb_spec) in Hfr. }
  rewrite <- (file_run_rel _ _ _ _ _ _ (res_keeps_writes fx ig ov r) h2 _ Hops) in Hget.
  revert Hget. generalize (fst (runf (file_step fx ig ov) (fst (file_step fx ig ov s (Tag d r))) h2)).
  intros s2 Hget. cbn [file_step]. destruct r; try congruence; now rewrite Hget.
Qed.

Definition dig_absent (g : N) (s : file_store) : Prop :=
  get N.eqb g (f_d2p s) = None /\ forall k c, get gkey_eqb k (f_cas s) = Some c -> k_dig k <> g.

Lemma dig_absent_fetch g s d : dig_absent g s -> d_dig d = g -> file_fetch d s = None /\ file_exists d s = false.
Proof.
  intros [A C] Hd. unfold file_fetch, file_exists. rewrite Hd, A.
  destruct (get gkey_eqb (gk d) (f_cas s)) as [c|] eqn:E.
  - exfalso. apply (C _ _ E). exact Hd.
  - split; [now destruct (name_ok d s) | simpl; apply andb_false_r].
Qed.

Lemma dig_absent_writes fx ig ov g :
  respects_writes fx ig ov (fun a b => dig_absent g a -> dig_absent g b) (fun d => d_dig d <> g) (fun _ => True).
Proof.
  constructor; [constructor|..]; auto.
  - (* what restoreDuplicates could fetch is not the absent digest *)
    intros a k n c Hk [A C].
    assert (Hne : k_dig k <> g).
    { destruct Hk as [Hf|(d & Hd & ->)]; [|exact Hd]. intro E. apply Hf.
      exact (proj1 (dig_absent_fetch g a (mkDesc (k_mt k) (k_dig k) (k_size k) 0) (conj A C) E)). }
    unfold file_named_push. destruct (mem N.eqb n (f_names a)); [split; auto|]. destruct (bad_name n); [split; auto|].
    destruct (ov && _); [split; auto|]. destruct (_ && _); cbn [fst]; split; cbn [f_d2p f_cas]; auto.
    rewrite (get_put_neq N.eqb Neqb_spec); auto.
  - intros a d c Hd _ _ _ [A C]. split; cbn [f_d2p f_cas]; auto.
    now apply (put_all gkey_eqb gkey_eqb_spec (fun k _ => k_dig k <> g)).
Qed.

(* tagging or fetching content that was never pushed reports not-found (titled successors,
   IgnoreNoName, DisableOverwrite and the aliasing name included) *)
Theorem file_absent_notfound fx ig ov h g :
  (forall d c, In (Push d c) h -> d_dig d <> g) ->
  let s := fst (runf (file_step fx ig ov) file_init h) in
  forall d r, d_dig d = g ->
    snd (file_step fx ig ov s (Fetch d)) = FO (OErr ENotFound) /\
    snd (file_step fx ig ov s (Exists d)) = FO (OBool false) /\
    (r <> REmpty -> snd (file_step fx ig ov s (Tag d r)) = FO (OErr ENotFound)).
Proof.
  intros Hno s.
  assert (H : dig_absent g s).
  { apply (file_run_rel _ _ _ _ _ _ (dig_absent_writes fx ig ov g) h).
    - apply Forall_forall. intros o Ho. destruct o; cbn; eauto.
    - split; [reflexivity | intros k c X; discriminate]. }
  intros d r Hd. destruct (dig_absent_fetch g s d H Hd) as [Hf He].
  cbn [file_step]. rewrite Hf, He. repeat split; auto. intro Hr. destruct r; auto. congruence.
Qed.

Lemma mem_keys_put (k k0 : gkey) (v : desc) m :
  mem gkey_eqb k (map fst (put gkey_eqb k0 v m)) = gkey_eqb k k0 || mem gkey_eqb k (map fst m).
Proof.
  induction m as [|[k' v'] m IH]; simpl.
  - now rewrite orb_false_r.
  - destruct (gkey_eqb k0 k') eqn:E; simpl.
    + apply gkey_eqb_spec in E. subst k'. destruct (gkey_eqb k k0); reflexivity.
    + rewrite IH. destruct (gkey_eqb k k'), (gkey_eqb k k0); reflexivity.
Qed.

Lemma file_restore_graph_same fx ov tl s : f_graph (fst (file_restore fx ov tl s)) = f_graph s.
Proof.
  apply (file_restore_rel fx ov (fun a b => f_graph b = f_graph a) (fun _ => True)).
  constructor; [reflexivity | intros; congruence | intros; apply file_named_push_frame].
Qed.

Section FileGraph.
  (* collision freedom: the bytes a digest stands for *)
  Variable B : N -> blob.

  Definition wfB_op (o : op) : Prop :=
    match o with
    | Push d c => (verify d c = true -> c = B (d_dig d)) /\
                  (verify d (limit_reader d c) = true -> limit_reader d c = B (d_dig d))
    | _ => True
    end.

  Record file_B (s : file_store) : Prop := mkFB {
    fb_disk : forall p c, get N.eqb p (f_disk s) = Some c -> c = B (b_hash c);
    fb_cas : forall k c, get gkey_eqb k (f_cas s) = Some c -> c = B (b_hash c) }.

  (* the successor list of every indexed node is the one of the bytes of its digest *)
  Definition S_file (g : graph) : gkey -> option (list gkey) :=
    fun k => if mem gkey_eqb k (map fst (g_nodes g)) then Some (succ_of k (B (k_dig k))) else None.

  Definition file_ginv (s : file_store) : Prop := graph_inv (S_file (f_graph s)) (f_graph s).

  Lemma file_ginv_init : file_ginv file_init.
  Proof. unfold file_ginv. eapply graph_inv_ext; [|exact graph_inv_init]. intro k. reflexivity. Qed.

  Lemma g_index_file g d ss :
    graph_inv (S_file g) g -> ss = succ_of (gk d) (B (d_dig d)) ->
    graph_inv (S_file (g_index d ss g)) (g_index d ss g).
  Proof.
    intros Hg ->. eapply graph_inv_ext; [|apply g_index_inv; [exact Hg|]].
    - intro k. unfold upd, S_file. rewrite g_index_nodes, mem_keys_put.
      destruct (gkey_eqb k (gk d)) eqn:E; [|reflexivity]. apply gkey_eqb_spec in E. subst k. reflexivity.
    - unfold S_file. destruct (mem gkey_eqb (gk d) (map fst (g_nodes g))); [right|left]; reflexivity.
  Qed.

  Lemma file_fetch_B d s c : file_inv s -> file_B s -> file_fetch d s = Some c -> c = B (d_dig d).
  Proof.
    intros Hi [A C] Hf. destruct (file_fetch_inv _ _ _ Hi Hf) as [Hh _]. rewrite <- Hh.
    unfold file_fetch in Hf. destruct (name_ok d s); [|discriminate].
    destruct (get N.eqb (d_dig d) (f_d2p s)); eauto.
  Qed.

  Lemma file_index_ginv d s :
    file_inv s -> file_B s -> file_ginv s -> file_ginv (fst (file_index d s)).
  Proof.
    intros Hi Hb Hg. unfold file_index, file_ginv in *. destruct (is_manifest (d_mt d)) eqn:Em.
    - destruct (file_fetch d s) as [c1|] eqn:Ef; cbn [fst]; [|exact Hg].
      destruct (d_dig d =? b_hash c1); cbn [fst f_graph]; [|exact Hg].
      apply g_index_file; auto. now rewrite (file_fetch_B _ _ _ Hi Hb Ef).
    - cbn [fst f_graph]. apply g_index_file; auto. unfold succ_of. change (k_mt (gk d)) with (d_mt d). now rewrite Em.
  Qed.

  Lemma file_named_push_B ov s k n c :
    file_B s -> ((k_dig k =? b_hash c) && (k_size k =? b_len c) = true -> c = B (b_hash c)) ->
    file_B (fst (file_named_push true ov s k n c)).
  Proof.
    intros [A C] Hc. unfold file_named_push.
    destruct (mem N.eqb n (f_names s)); [split; auto|]. destruct (bad_name n); [split; auto|].
    destruct (ov && _); [split; auto|]. destruct (_ && _); cbn [fst]; split; cbn [f_disk f_cas]; auto.
    - apply (put_all N.eqb Neqb_spec (fun _ c0 => c0 = B (b_hash c0))); [now apply Hc | exact A].
    - now apply (del_all N.eqb Neqb_spec).
  Qed.

  Lemma file_restore_B ov tl : forall s,
    file_inv s -> file_B s -> (forall k n, In (k, n) tl -> path_of n = n) ->
    file_B (fst (file_restore true ov tl s)).
  Proof.
    induction tl as [|[k n] tl IH]; intros s Hi Hb Ht; [exact Hb|].
    assert (Ht' : forall k0 n0, In (k0, n0) tl -> path_of n0 = n0) by (intros; eapply Ht; right; eauto).
    pose proof (Ht k n (or_introl eq_refl)) as Hp. rewrite (file_restore_cons ov k n tl s Hi Hp).
    destruct ((n =? 0) || mem N.eqb n (f_names s)); [now apply IH|].
    destruct (file_fetch (mkDesc (k_mt k) (k_dig k) (k_size k) 0) s) as [c2|] eqn:Ef; [|now apply IH].
    destruct (file_fetch_inv _ _ _ Hi Ef) as [Hh Hok].
    assert (Hc2 : c2 = B (b_hash c2)) by (rewrite Hh; exact (file_fetch_B _ _ _ Hi Hb Ef)).
    pose proof (file_named_push_B ov s k n c2 Hb (fun _ => Hc2)) as H1.
    pose proof (file_named_push_inv ov s k n c2 Hi Hp Hok) as H2.
    destruct (file_named_push true ov s k n c2) as [s1 [e|]]; cbn [fst] in *.
    - destruct e as [o|[| |]]; try exact H1. now apply IH.
    - now apply IH.
  Qed.

  Lemma file_index_B d s : file_B s -> file_B (fst (file_index d s)).
  Proof.
    intros [A C]. unfold file_index. destruct (is_manifest (d_mt d)); [|split; auto].
    destruct (file_fetch d s) as [c1|]; [|split; auto]. destruct (d_dig d =? b_hash c1); split; auto.
  Qed.

  Lemma file_index_graph_only d s : fcore (fst (file_index d s)) = fcore s.
  Proof. apply fcore_index. Qed.

  Record file_G (s : file_store) : Prop := mkFG { fg_inv : file_inv s; fg_B : file_B s; fg_g : file_ginv s }.

  Lemma file_index_after_G ov d s : file_G s -> file_G (fst (file_index_after true ov d s)).
  Proof.
    intros [Hi Hb Hg].
    pose proof (file_index_inv d s Hi) as Hi2. pose proof (file_index_B d s Hb) as Hb2.
    pose proof (file_index_ginv d s Hi Hb Hg) as Hg2.
    destruct (file_index_after_state true ov d s) as [->|(c1 & Ef & ->)]; [constructor; assumption|].
    destruct (file_fetch_inv _ _ _ Hi2 Ef) as [_ [Hok _]].
    constructor; [now apply file_restore_inv | now apply file_restore_B |].
    unfold file_ginv. rewrite file_restore_graph_same. exact Hg2.
  Qed.

  Lemma file_push_store_G ig ov s d c :
    no_alias (Push d c) -> wfB_op (Push d c) -> file_G s -> file_G (fst (file_push_store true ig ov s d c)).
  Proof.
    intros Hna [Hw1 Hw2] [Hi Hb Hg]. constructor.
    - now apply file_push_store_inv.
    - destruct Hna as [Hna Ht]. unfold file_push_store. destruct (d_name d =? 0).
      + destruct ig.
        * destruct (is_manifest (d_mt d)); [|exact Hb]. destruct (verify d c); [|exact Hb].
          pose proof (file_restore_B ov (b_tl c) s Hi Hb (proj1 Ht)) as Hb3.
          destruct (file_restore true ov (b_tl c) s) as [s3 [e|]]; exact Hb3.
        * destruct (get gkey_eqb (gk d) (f_cas s)); [exact Hb|].
          destruct (verify d (limit_reader d c)) eqn:V; [|exact Hb].
          destruct Hb as [A C]. constructor; cbn [fst f_disk f_cas]; auto.
          apply (put_all gkey_eqb gkey_eqb_spec (fun _ c0 => c0 = B (b_hash c0))); [|exact C].
          rewrite (Hw2 eq_refl) at 1. f_equal. apply verify_spec in V as [V' _]. now rewrite V'.
      + apply file_named_push_B; [exact Hb|]. intro V. rewrite (Hw1 V) at 1. f_equal.
        apply verify_spec in V as [V' _]. now rewrite V'.
    - unfold file_ginv. now rewrite file_push_store_graph_same.
  Qed.

  Lemma file_step_G ig ov s o : no_alias o -> wfB_op o -> file_G s -> file_G (fst (file_step true ig ov s o)).
  Proof.
    intros Hna Hw HG. destruct (file_step_nonpush true ig ov s o) as [(d & c & ->)|[->|(d & r & -> & _ & ->)]];
      [|exact HG | destruct HG as [[A0 B0 C0] [A1 C1] Hg]; constructor; [constructor; auto | constructor; auto | exact Hg]].
    rewrite file_step_push_split. pose proof (file_push_store_G ig ov s d c Hna Hw HG) as H1.
    destruct (file_push_store true ig ov s d c) as [s1 [x|]]; cbn [fst] in *; [exact H1|].
    now apply file_index_after_G.
  Qed.

  Lemma file_run_G ig ov h : forall s,
    Forall no_alias h -> Forall wfB_op h -> file_G s -> file_G (fst (runf (file_step true ig ov) s h)).
  Proof.
    induction h as [|o h IH]; intros s Hna Hw H; [exact H|]. rewrite runf_cons. cbn [fst].
    inversion Hna; inversion Hw; subst. apply IH; auto. now apply file_step_G.
  Qed.

  Lemma file_G_init : file_G file_init.
  Proof.
    constructor; [exact file_inv_init | constructor; simpl; intros; discriminate | exact file_ginv_init].
  Qed.

  (* Predecessors answers exactly the indexed nodes whose bytes list the node as a successor *)
  Theorem file_preds_exact ig ov h n k :
    Forall no_alias h -> Forall wfB_op h ->
    let s := fst (runf (file_step true ig ov) file_init h) in
    In k (map gk (g_predecessors n (f_graph s))) <->
    In k (map fst (g_nodes (f_graph s))) /\ In (gk n) (succ_of k (B (k_dig k))).
  Proof.
    intros Hna Hw s. pose proof (file_run_G ig ov h _ Hna Hw file_G_init) as [_ _ Hg]. fold s in Hg.
    rewrite (g_predecessors_spec _ _ _ _ Hg). unfold S_file. split.
    - intros (l & A & C). destruct (mem gkey_eqb k (map fst (g_nodes (f_graph s)))) eqn:E; [|discriminate].
      injection A as <-. split; auto. now apply (mem_In gkey_eqb gkey_eqb_spec).
    - intros [A C]. apply (mem_In gkey_eqb gkey_eqb_spec) in A. rewrite A. eauto.
  Qed.
End FileGraph.

Definition indexed (k : gkey) (s : file_store) : Prop := mem gkey_eqb k (map fst (g_nodes (f_graph s))) = true.

Lemma indexed_g_index k d ss s :
  indexed k s \/ k = gk d ->
  indexed k (mkFile (f_names s) (f_d2p s) (f_disk s) (f_cas s) (f_res s) (g_index d ss (f_graph s))).
Proof.
  unfold indexed. cbn [f_graph]. rewrite g_index_nodes, mem_keys_put. intros [H| ->].
  - rewrite H. apply orb_true_r.
  - now rewrite (eqb_refl gkey_eqb gkey_eqb_spec).
Qed.

Lemma indexed_writes fx ig ov k :
  respects_writes fx ig ov (fun a b => indexed k a -> indexed k b) (fun _ => True) (fun _ => True).
Proof.
  constructor; [constructor|..]; auto.
  - intros a k0 n c _. unfold indexed. now rewrite (proj2 (proj2 (file_named_push_frame fx ov a k0 n c))).
  - intros a d ss H. apply indexed_g_index. now left.
Qed.

Lemma index_after_ok_indexed fx ov d s :
  snd (file_index_after fx ov d s) = FO OOk -> indexed (gk d) (fst (file_index_after fx ov d s)).
Proof.
  unfold file_index_after.
  assert (Hi : snd (file_index d s) = FO OOk -> indexed (gk d) (fst (file_index d s))).
  { unfold file_index. destruct (is_manifest (d_mt d)).
    - destruct (file_fetch d s) as [c1|]; [|discriminate]. destruct (d_dig d =? b_hash c1); [|discriminate].
      intros _. cbn [fst]. apply indexed_g_index. now right.
    - intros _. cbn [fst]. apply indexed_g_index. now right. }
  destruct (file_index d s) as [s2 r]. cbn [fst snd] in Hi.
  destruct r as [o|e]; [|discriminate]. destruct o; try discriminate. specialize (Hi eq_refl).
  destruct (is_manifest (d_mt d)); [|intros _; exact Hi].
  destruct (file_fetch d s2) as [c1|]; [|discriminate]. destruct (d_dig d =? b_hash c1); [|discriminate].
  pose proof (file_restore_graph_same fx ov (b_tl c1) s2) as X.
  destruct (file_restore fx ov (b_tl c1) s2) as [s3 [e|]]; cbn [fst snd] in *; intros _; unfold indexed; now rewrite X.
Qed.

(* a Push that succeeded (and was not discarded by IgnoreNoName) is in the graph for ever *)
Theorem file_push_ok_indexed fx ig ov s d c h2 :
  (ig = false \/ d_name d <> 0) ->
  snd (file_step fx ig ov s (Push d c)) = FO OOk ->
  indexed (gk d) (fst (runf (file_step fx ig ov) (fst (file_step fx ig ov s (Push d c))) h2)).
Proof.
  intros Hig Hok. apply (file_run_rel _ _ _ _ _ _ (indexed_writes fx ig ov (gk d)) h2 _ (all_ops_ok h2)).
  destruct (file_push_ok_stored fx ig ov s d c Hig Hok) as (s1 & _ & E). rewrite E in *.
  now apply index_after_ok_indexed.
Qed.

(* non-vacuity: a layer and a manifest listing it, with the bytes function they come from *)
Definition fgx_B (g : N) : blob := if g =? 9 then mkBlob 9 20 [(6, 1, 5)] 9 [(6, 1, 5)] else mkBlob 1 5 [] 1 [].
Definition fgx_hist : list op :=
  [Push w_named w_good; Push (mkDesc 1 9 20 0) (mkBlob 9 20 [(6, 1, 5)] 9 [(6, 1, 5)]); Preds w_layer].
Lemma fgx_wf : Forall (wfB_op fgx_B) fgx_hist /\ Forall no_alias fgx_hist.
Proof.
  split.
  - repeat constructor; intros _; reflexivity.
  - repeat constructor; try reflexivity; intros k n [].
Qed.
Lemma fgx_run : snd (runf (file_step true false false) file_init fgx_hist) = [FO OOk; FO OOk; FO (OPreds [(1, 9, 20)])].
Proof. vm_compute. reflexivity. Qed.
