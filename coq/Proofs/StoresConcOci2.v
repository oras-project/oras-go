(* C06 -- quiescent serialisability of the OCI store, second part: the resolver's
   digest-string entries, hence every Resolve answer. *)
From Oras Require Import Base.Prelude Model.Stores Model.StoresConc Model.StoresConcOci
     Proofs.Stores Proofs.StoresConc Proofs.StoresConcOci.
From Coq Require Import Permutation.

Definition dent (t : list (ref * desc)) (g : N) : option desc := get ref_eqb (RDig g) t.

(* what an operation does to the digest-string entries: nothing, set the entry of g, or delete
   the entries of the digest of k (Store.delete) *)
Inductive deff := DNone | DSet (g : N) (d : desc) | DDel (k : gkey).

Definition apply_deff (e : deff) (f : N -> option desc) (g : N) : option desc :=
  match e with
  | DNone => f g
  | DSet g0 d => if g0 =? g then Some d else f g
  | DDel k => match f g with Some d' => if eq_target d' k then None else Some d' | None => None end
  end.

Lemma apply_dset_has g0 d f g : apply_deff (DSet g0 d) f g <> None <-> g0 = g \/ f g <> None.
Proof.
  cbn. destruct (g0 =? g) eqn:E.
  - apply N.eqb_eq in E. split; [now left | discriminate].
  - apply N.eqb_neq in E. tauto.
Qed.

Lemma apply_ddel_has k f g :
  (forall d', f g = Some d' -> d_dig d' = g) ->
  apply_deff (DDel k) f g <> None <-> f g <> None /\ g <> k_dig k.
Proof.
  intro Hf. cbn. destruct (f g) as [d'|]; [|tauto]. specialize (Hf d' eq_refl). subst g.
  destruct (eq_target d' k) eqn:E.
  - apply eq_target_spec in E. tauto.
  - split; [|discriminate]. intros _. split; [discriminate|]. intro X. apply eq_target_spec in X. congruence.
Qed.

Lemma dent_put_dig g0 d t g : dent (put ref_eqb (RDig g0) d t) g = apply_deff (DSet g0 d) (dent t) g.
Proof.
  unfold dent. cbn [apply_deff]. rewrite (get_put ref_eqb ref_eqb_spec). cbn [ref_eqb]. now rewrite N.eqb_sym.
Qed.

Lemma dent_put_name m d t g : dent (put ref_eqb (RName m) d t) g = dent t g.
Proof. unfold dent. apply (get_put_neq ref_eqb ref_eqb_spec). discriminate. Qed.

Lemma dent_del_name m (t : list (ref * desc)) g : dent (del ref_eqb (RName m) t) g = dent t g.
Proof. unfold dent. apply (get_del_neq ref_eqb ref_eqb_spec). discriminate. Qed.

Lemma dent_untag_fold k t g :
  NoDup (map fst t) -> dent (untag_fold k t t) g = apply_deff (DDel k) (dent t) g.
Proof.
  intro Hnd. unfold dent, apply_deff. rewrite (untag_fold_order_free k t t (RDig g) Hnd) by tauto.
  unfold spec_untag_equal. rewrite get_filter_nodup by exact Hnd. simpl.
  destruct (get ref_eqb (RDig g) t) as [d'|]; auto. now destruct (eq_target d' k).
Qed.

Lemma dent_spec_oci_tag d r t g :
  r <> REmpty -> foreign_digest_ref d r = false ->
  dent (spec_oci_tag d r t) g = apply_deff (DSet (d_dig d) d) (dent t) g.
Proof.
  unfold spec_oci_tag. destruct r as [m|g0|]; [intros _ _|intros _ F|congruence]; cbn [ref_eqb].
  - rewrite dent_put_name. apply dent_put_dig.
  - cbn in F. apply negb_false_iff in F. rewrite F. apply N.eqb_eq in F. subst g0. apply dent_put_dig.
Qed.

(* adding the same digest X on both sides keeps "an entry is there or pending" related *)
Lemma or_imp_add (A C X PQ PS : Prop) : (A \/ PQ -> C \/ PS) -> (A \/ X) \/ PQ -> (C \/ X) \/ PS.
Proof. intros H [[a|x]|pq]; [destruct (H (or_introl a)) | | destruct (H (or_intror pq))]; auto. Qed.

Lemma drel_add (D D' P P' E E' S S' X PQ PS : Prop) :
  (D' \/ P' <-> (D \/ P) \/ X) -> (E' \/ S' <-> (E \/ S) \/ X) ->
  (D \/ P \/ PQ <-> E \/ S \/ PS) -> (D' \/ P' \/ PQ <-> E' \/ S' \/ PS).
Proof.
  intros H1 H2 H3. rewrite <- !or_assoc in H3. rewrite <- !or_assoc, H1, H2.
  split; apply or_imp_add; apply H3.
Qed.

Lemma run1 {S} (step : S -> op -> S * out) s o : fst (run step s [o]) = fst (step s o).
Proof. now rewrite run_cons. Qed.

Section OciDig.
  Variable U : N -> gkey.
  Hypothesis U_dig : forall g, k_dig (U g) = g.
  Variable B : N -> blob.

  (* Store.Tag itself refuses another content's digest string as reference, so nothing beyond
     wf_op has to be assumed of the programs: the second conjunct is trivial *)
  Definition wf2_op (o : op) : Prop := wf_op U B o /\ True.

  Definition dwf (t : list (ref * desc)) : Prop :=
    forall g d, dent t g = Some d -> d_dig d = g /\ canon_desc U d.

  Definition qdig (st : oci_store) : Prop :=
    dwf (r_index (o_res st)) /\
    forall g, get N.eqb g (o_blobs st) <> None -> is_manifest (k_mt (U g)) = true ->
              dent (r_index (o_res st)) g <> None.

  Definition qeff (st : oci_store) (o : op) : deff :=
    match o with
    | Push d c => match get N.eqb (d_dig d) (o_blobs st) with
                  | Some _ => DNone
                  | None => if verify d c && is_manifest (d_mt d) then DSet (d_dig d) d else DNone
                  end
    | Tag d r => match r with
                 | REmpty => DNone
                 | _ => if foreign_digest_ref d r then DNone
                        else if is_some (get N.eqb (d_dig d) (o_blobs st)) then DSet (d_dig d) d else DNone
                 end
    | Delete d => DDel (gk d)
    | _ => DNone
    end.

  Lemma oci_step_dent st o :
    dwf (r_index (o_res st)) -> NoDup (map fst (r_index (o_res st))) ->
    forall g, dent (r_index (o_res (fst (oci_step st o)))) g = apply_deff (qeff st o) (dent (r_index (o_res st))) g.
  Proof.
    intros Hd Hnd g. destruct o; cbn [oci_step qeff]; try reflexivity.
    - destruct (get N.eqb (d_dig d) (o_blobs st)); [reflexivity|].
      destruct (verify d c); [|reflexivity]. cbn [andb fst o_res].
      destruct (is_manifest (d_mt d)); [|reflexivity].
      rewrite r_index_oci_tag. apply dent_spec_oci_tag; [discriminate | cbn; now rewrite N.eqb_refl].
    - now destruct (get N.eqb (d_dig d) (o_blobs st)).
    - destruct r as [m|g0|]; [| |reflexivity];
        (destruct (foreign_digest_ref d _) eqn:F; [reflexivity|];
         destruct (is_some (get N.eqb (d_dig d) (o_blobs st))); [|reflexivity];
         cbn [fst o_res]; rewrite r_index_oci_tag; apply dent_spec_oci_tag; [discriminate | exact F]).
    - destruct r as [m|g0|]; [| |reflexivity]; destruct (get ref_eqb _ (r_index (o_res st))); try reflexivity.
      now destruct (get N.eqb g0 (o_blobs st)).
    - destruct r as [m|g0|]; [| |reflexivity].
      + destruct (get ref_eqb (RName m) (r_index (o_res st))); [|reflexivity].
        cbn [ref_eqb fst o_res]. rewrite r_index_untag. apply dent_del_name.
      + (* a digest string is only ever its own entry's: refused *)
        destruct (get ref_eqb (RDig g0) (r_index (o_res st))) as [d0|] eqn:E; [|reflexivity].
        destruct (Hd g0 d0 E) as [-> _]. cbn [ref_eqb]. now rewrite N.eqb_refl.
    - destruct (get N.eqb (d_dig d) (o_blobs st)); cbn [fst o_res];
        rewrite r_index_untag_equal; now apply dent_untag_fold.
  Qed.

  Definition deff_ok (e : deff) : Prop :=
    match e with DSet g0 d => d_dig d = g0 /\ canon_desc U d | _ => True end.

  Lemma dwf_apply e t t' :
    (forall g, dent t' g = apply_deff e (dent t) g) -> deff_ok e -> dwf t -> dwf t'.
  Proof.
    intros He Hok H g d'. rewrite He. destruct e as [|g0 d|k]; cbn.
    - apply H.
    - destruct (g0 =? g) eqn:E; [|apply H]. apply N.eqb_eq in E. subst g. intro X. injection X as <-. exact Hok.
    - destruct (dent t g) as [d1|] eqn:E; [|discriminate].
      destruct (eq_target d1 k); [discriminate|]. intro X. injection X as <-. now apply H.
  Qed.

  Lemma qeff_ok st o : canon_op_all U o -> deff_ok (qeff st o).
  Proof.
    intros Hc. destruct o; cbn [qeff]; try exact I.
    - destruct (get N.eqb (d_dig d) (o_blobs st)); [exact I|].
      destruct (verify d c && is_manifest (d_mt d)); [split; [reflexivity | exact Hc] | exact I].
    - destruct r; try exact I; (destruct (foreign_digest_ref d _); [exact I|]);
        (destruct (is_some _); [split; [reflexivity | exact Hc] | exact I]).
  Qed.

  Lemma apply_keeps e f g :
    match e with DDel _ => False | _ => True end -> f g <> None -> apply_deff e f g <> None.
  Proof. destruct e; [auto | intros _ H; apply apply_dset_has; now right | contradiction]. Qed.

  Lemma qdig_step st o :
    canon_op_all U o -> NoDup (map fst (r_index (o_res st))) -> qdig st -> qdig (fst (oci_step st o)).
  Proof.
    intros Hc Hnd [Hd Hm]. pose proof (oci_step_dent st o Hd Hnd) as He. split.
    - exact (dwf_apply _ _ _ He (qeff_ok st o Hc) Hd).
    - intros g Hp Hman. rewrite He. rewrite oci_step_blobs, (get_vmap N.eqb d_dig true Neqb_spec) in Hp. cbn [andb] in Hp. specialize (Hm g).
      destruct o; try (now apply Hm); cbn [qeff].
      + (* Push *)
        destruct (get N.eqb g (o_blobs st)) eqn:Eg; cbn [is_some negb andb] in Hp.
        * apply apply_keeps; [|apply Hm; [rewrite andb_false_r in Hp; exact Hp | exact Hman]].
          destruct (get N.eqb (d_dig d) (o_blobs st)); [exact I|]. now destruct (verify d c && is_manifest (d_mt d)).
        * destruct (d_dig d =? g) eqn:E; [|contradiction]. apply N.eqb_eq in E. subst g. rewrite Eg.
          destruct (verify d c); [|contradiction]. cbn in Hc. unfold canon_desc in Hc.
          rewrite <- Hc in Hman. change (k_mt (gk d)) with (d_mt d) in Hman. rewrite Hman. apply apply_dset_has. now left.
      + (* Tag *)
        apply apply_keeps; [|now apply Hm]. destruct r; try exact I;
          (destruct (foreign_digest_ref d _); [exact I|]); now destruct (is_some _).
      + (* Delete *)
        destruct (d_dig d =? g) eqn:E; [contradiction|]. apply N.eqb_neq in E.
        apply apply_ddel_has; [intros d' X; exact (proj1 (Hd g d' X))|]. split; [now apply Hm | intros ->; now apply E].
  Qed.

  Lemma qdig_init : qdig oci_init.
  Proof. split; [intros g d H; discriminate | intros g H; exfalso; apply H; reflexivity]. Qed.

  Lemma qdig_seq L : Forall (canon_op_all U) L -> qdig (seq_ostate L).
  Proof.
    intro H.
    refine (proj2 (run_invariant oci_step (fun st => NoDup (map fst (r_index (o_res st))) /\ qdig st) (canon_op_all U)
                                 _ L oci_init H (conj (NoDup_nil _) qdig_init))).
    intros st o Ho [Hnd Hq]. split; [now apply oci_index_nodup | now apply qdig_step].
  Qed.

  (* goroutines whose pending steps concern the digest entry of g *)
  Definition pq (t : othread) (g : N) : Prop :=
    exists d, (ot_pc t = OPush3 d \/ ot_pc t = OPush4 d) /\ d_dig d = g /\ is_manifest (d_mt d) = true.
  Definition ps (t : othread) (g : N) : Prop :=
    exists d m, ot_pc t = OTag3 d (RName m) /\ d_dig d = g.
  Definition pendQ (g : N) (ths : list othread) : Prop := exists t, In t ths /\ pq t g.
  Definition pendS (g : N) (ths : list othread) : Prop := exists t, In t ths /\ ps t g.

  Definition okd (t : othread) : Prop :=
    match ot_pc t with
    | OPush4 d => canon_desc U d /\ is_manifest (d_mt d) = true
    | OTagIx d r => canon_desc U d /\ (r = RDig (d_dig d) \/ exists m, r = RName m)
    | OTag2 d r => canon_desc U d /\ exists m, r = RName m
    | OTag3 d r => canon_desc U d /\ (r = RDig (d_dig d) \/ exists m, r = RName m)
    | OUntag2 r => exists m, r = RName m
    | _ => True
    end.

  Lemma pq_iff pc ops g :
    pq (mkOT pc ops) g <->
    match pc with OPush3 d | OPush4 d => d_dig d = g /\ is_manifest (d_mt d) = true | _ => False end.
  Proof.
    unfold pq. cbn [ot_pc]. split.
    - intros (d & [->| ->] & H); exact H.
    - destruct pc; try contradiction; intro H; exists d; auto.
  Qed.

  Lemma ps_iff pc ops g :
    ps (mkOT pc ops) g <-> match pc with OTag3 d (RName _) => d_dig d = g | _ => False end.
  Proof.
    unfold ps. cbn [ot_pc]. split.
    - intros (d & m & -> & H). exact H.
    - destruct pc as [| | | | | |d [m| |]|]; try contradiction. intro H. exists d, m. auto.
  Qed.

  Lemma odone_qeff s q o : o_blobs s = o_blobs q -> odone s o -> qeff q o = DNone.
  Proof.
    intro Hbl. destruct o; cbn [odone qeff]; unfold present; try reflexivity; rewrite <- ?Hbl.
    - destruct (get N.eqb (d_dig d) (o_blobs s)); [reflexivity|]. intros [H| ->]; [congruence | reflexivity].
    - intros [->|[F|H]]; [reflexivity | |].
      + destruct r; [| |reflexivity]; now rewrite F.
      + destruct r; [| |reflexivity]; (destruct (foreign_digest_ref d _); [reflexivity|]);
          (destruct (get N.eqb (d_dig d) (o_blobs s)); [exfalso; apply H; discriminate | reflexivity]).
    - contradiction.
  Qed.

  Lemma obegun_okd s o pc rest :
    canon_op_all U o -> dwf (r_index (o_res s)) -> obegun s o pc ->
    okd (mkOT pc rest) /\ forall g, ~ pq (mkOT pc rest) g /\ ~ ps (mkOT pc rest) g.
  Proof.
    intros Hc Hd. unfold okd. cbn [ot_pc].
    assert (Hr : forall d r, otagging s d r -> r = RDig (d_dig d) \/ exists m, r = RName m).
    { intros d r (Hne & F & _). destruct r as [m|g0|]; [eauto | left | congruence].
      cbn in F. apply negb_false_iff, N.eqb_eq in F. now subst. }
    destruct pc; cbn [obegun]; try contradiction.
    - intros _. split; [exact I|]. intro g. rewrite pq_iff, ps_iff. tauto.
    - intros (-> & Ht & _). split; [split; [exact Hc | now apply Hr]|]. intro g. rewrite pq_iff, ps_iff. tauto.
    - intros (-> & Ht & R). split.
      + split; [exact Hc|]. destruct (Hr _ _ Ht) as [->|H]; [|exact H].
        cbn in R. rewrite N.eqb_refl in R. discriminate.
      + intro g. rewrite pq_iff, ps_iff. tauto.
    - intros (-> & Ht & R). split; [split; [exact Hc | now apply Hr]|]. intro g. rewrite pq_iff, ps_iff.
      split; [tauto|]. destruct r; try tauto. discriminate.
    - intros (-> & Hne & d0 & E & R). split.
      + destruct r as [m|g0|]; [eauto | | congruence].
        destruct (Hd g0 d0 E) as [<- _]. cbn in R. rewrite N.eqb_refl in R. discriminate.
      + intro g. rewrite pq_iff, ps_iff. tauto.
  Qed.

  Lemma qpush_has q d c g :
    qdig q -> NoDup (map fst (r_index (o_res q))) -> canon_desc U d -> verify d c = true ->
    dent (r_index (o_res (fst (oci_step q (Push d c))))) g <> None <->
    dent (r_index (o_res q)) g <> None \/ (d_dig d = g /\ is_manifest (d_mt d) = true).
  Proof.
    intros [Hqd Hqm] Hnd Hc V. rewrite (oci_step_dent q _ Hqd Hnd). cbn [qeff]. rewrite V. cbn [andb].
    destruct (get N.eqb (d_dig d) (o_blobs q)) eqn:Eq.
    - (* the blob is already there: a manifest has its entry *)
      cbn. split; [now left|]. intros [H|[<- M]]; [exact H|]. apply Hqm; [congruence|]. now rewrite <- Hc.
    - destruct (is_manifest (d_mt d)).
      + rewrite apply_dset_has. tauto.
      + cbn. split; [now left | intros [H|[_ X]]; [exact H | discriminate]].
  Qed.

  Lemma qtag_has q d r g :
    dwf (r_index (o_res q)) -> NoDup (map fst (r_index (o_res q))) ->
    r = RDig (d_dig d) \/ (exists m, r = RName m) -> get N.eqb (d_dig d) (o_blobs q) <> None ->
    dent (r_index (o_res (fst (oci_step q (Tag d r))))) g <> None <-> d_dig d = g \/ dent (r_index (o_res q)) g <> None.
  Proof.
    intros Hqd Hnd Hr Hp. rewrite (oci_step_dent q _ Hqd Hnd), <- (apply_dset_has _ d). cbn [qeff].
    destruct (get N.eqb (d_dig d) (o_blobs q)); [|congruence].
    destruct Hr as [->|(m & ->)]; cbn [foreign_digest_ref is_some]; rewrite ?N.eqb_refl; reflexivity.
  Qed.

  Lemma okd_step b s t s' t' lg ix un :
    othread_ok U B s t -> okd t -> dwf (r_index (o_res s)) -> (forall o, In o (oremaining t) -> canon_op_all U o) ->
    othread_step b s t = Some (s', t', lg, ix, un) -> okd t'.
  Proof.
    destruct t as [[|d c|d|d|d r|d r|d r|r] ops]; unfold othread_ok, okd at 1; cbn [ot_pc]; intros Hok Hokd Hd Hwf.
    - destruct ops as [|o rest]; [discriminate|]. intro H.
      apply ostep_idle in H as [[H _]|[(pc & H & Hb)|(d & _ & _ & H)]]; injection H as <- <- <- <- <-; try exact I.
      apply (obegun_okd s o); auto. apply Hwf. now left.
    - intro H; injection H as <- <- <- <- <-. exact I.
    - cbn. destruct (get N.eqb (d_dig d) (o_blobs s)); intro H; injection H as <- <- <- <- <-; [|exact I].
      unfold okd. cbn [ot_pc]. destruct (is_manifest (d_mt d)) eqn:M; [split; [apply Hok | exact M] | exact I].
    - intro H; injection H as <- <- <- <- <-. exact I.
    - cbn. destruct (get N.eqb (d_dig d) (o_blobs s)); intro H; injection H as <- <- <- <- <-; [|exact I].
      unfold okd. cbn [ot_pc]. destruct Hokd as [Hc [->|(m & ->)]]; cbn [ref_eqb]; rewrite ?N.eqb_refl; split; eauto.
    - intro H; injection H as <- <- <- <- <-. destruct Hokd as [Hc Hm]. split; auto.
    - intro H; injection H as <- <- <- <- <-. exact I.
    - intro H; injection H as <- <- <- <- <-. exact I.
  Qed.

  Lemma dwf_put_dig d t : canon_desc U d -> dwf t -> dwf (put ref_eqb (RDig (d_dig d)) d t).
  Proof.
    intros Hc. apply (dwf_apply (DSet (d_dig d) d)); [intro; apply dent_put_dig | split; [reflexivity | exact Hc]].
  Qed.

  Lemma dwf_step b s t s' t' lg ix un :
    okd t -> dwf (r_index (o_res s)) -> NoDup (map fst (r_index (o_res s))) ->
    othread_step b s t = Some (s', t', lg, ix, un) -> dwf (r_index (o_res s')).
  Proof.
    destruct t as [[|d c|d|d|d r|d r|d r|r] ops]; unfold okd; cbn [ot_pc]; intros Hokd Hd Hnd.
    - destruct ops as [|o rest]; [discriminate|]. intro H.
      apply ostep_idle in H as [[H _]|[(pc & H & _)|(d & -> & _ & H)]]; injection H as <- <- <- <- <-; try exact Hd.
      exact (dwf_apply _ _ _ (oci_step_dent s (Delete d) Hd Hnd) I Hd).
    - intro H; injection H as <- <- <- <- <-. exact Hd.
    - cbn. destruct (get N.eqb (d_dig d) (o_blobs s)); intro H; injection H as <- <- <- <- <-; exact Hd.
    - intro H; injection H as <- <- <- <- <-. cbn [o_res]. rewrite r_index_tag. apply dwf_put_dig; [apply Hokd | exact Hd].
    - cbn. destruct (get N.eqb (d_dig d) (o_blobs s)); intro H; injection H as <- <- <- <- <-; exact Hd.
    - intro H; injection H as <- <- <- <- <-. cbn [o_res]. rewrite r_index_tag. apply dwf_put_dig; [apply Hokd | exact Hd].
    - intro H; injection H as <- <- <- <- <-. cbn [o_res]. rewrite r_index_tag. destruct Hokd as [Hc [->|(m & ->)]].
      + now apply dwf_put_dig.
      + apply (dwf_apply DNone (r_index (o_res s))); [intro; apply dent_put_name | exact I | exact Hd].
    - intro H; injection H as <- <- <- <- <-. cbn [o_res]. rewrite r_index_untag. destruct Hokd as (m & ->).
      apply (dwf_apply DNone (r_index (o_res s))); [intro; apply dent_del_name | exact I | exact Hd].
  Qed.

  (* one atomic step against the sequential state q of the commit log; PQ and PS stand for what the
     other goroutines have pending: "the entry of g is there or pending" stays the same on both sides *)
  Lemma dstep b s t s' t' lg ix un q :
    othread_ok U B s t -> okd t -> dwf (r_index (o_res s)) -> NoDup (map fst (r_index (o_res s))) ->
    qdig q -> NoDup (map fst (r_index (o_res q))) -> o_blobs s = o_blobs q ->
    (forall o, In o (oremaining t) -> wf2_op o) ->
    othread_step b s t = Some (s', t', lg, ix, un) ->
    okd t' /\ dwf (r_index (o_res s')) /\
    forall g (PQ PS : Prop), (b = true -> ~ PQ /\ ~ PS) ->
      ((dent (r_index (o_res s)) g <> None \/ pq t g \/ PQ) <->
       (dent (r_index (o_res q)) g <> None \/ ps t g \/ PS)) ->
      ((dent (r_index (o_res s')) g <> None \/ pq t' g \/ PQ) <->
       (dent (r_index (o_res (fst (run oci_step q lg)))) g <> None \/ ps t' g \/ PS)).
  Proof.
    intros Hok Hokd Hd Hnd Hq Hndq Hbl Hwf Es.
    assert (Hcan : forall o, In o (oremaining t) -> canon_op_all U o) by (intros o Ho; apply (Hwf o Ho)).
    split; [exact (okd_step _ _ _ _ _ _ _ _ Hok Hokd Hd Hcan Es)|].
    split; [exact (dwf_step _ _ _ _ _ _ _ _ Hokd Hd Hnd Es)|].
    pose proof Hq as [Hqd _].
    destruct t as [[|d c|d|d|d r|d r|d r|r] ops]; unfold othread_ok in Hok; unfold okd in Hokd; cbn [ot_pc] in Hok, Hokd.
    - (* between operations *)
      destruct ops as [|o rest]; [discriminate|].
      assert (Hwfo : canon_op_all U o) by (apply Hcan; now left).
      pose proof (oci_step_dent q o Hqd Hndq) as Hqo.
      apply ostep_idle in Es as [[H Hdn]|[(pc & H & Hbg)|(d & -> & -> & H)]];
        [| |set (sd := fst (oci_step s (Delete d))) in H]; injection H as <- <- <- <- <-; intros g PQ PS Hb.
      + apply (drel_add _ _ _ _ _ _ _ _ False);
          [rewrite !pq_iff | rewrite run1, Hqo, (odone_qeff _ _ _ Hbl Hdn), !ps_iff]; cbn; tauto.
      + destruct (proj2 (obegun_okd s o pc rest Hwfo Hd Hbg) g) as [NP NS].
        apply (drel_add _ _ _ _ _ _ _ _ False); [rewrite (pq_iff OIdle) | cbn [run fst]; rewrite (ps_iff OIdle)]; tauto.
      + (* Delete, alone: the entry of its digest goes on both sides *)
        subst sd. destruct (Hb eq_refl) as [NPQ NPS]. rewrite !pq_iff, !ps_iff, run1, Hqo, (oci_step_dent s _ Hd Hnd). cbn [qeff].
        rewrite (apply_ddel_has _ (dent (r_index (o_res s)))) by (intros d' X; apply (Hd _ _ X)).
        rewrite (apply_ddel_has _ (dent (r_index (o_res q)))) by (intros d' X; apply (Hqd _ _ X)).
        intros [H1 H2]. assert (Hde : dent (r_index (o_res s)) g <> None <-> dent (r_index (o_res q)) g <> None).
        { split; intro X; [destruct (H1 (or_introl X)) as [Y|[[]|Y]] | destruct (H2 (or_introl X)) as [Y|[[]|Y]]];
            auto; contradiction. }
        rewrite Hde. clear H1 H2 Hde. tauto.
    - (* rename: the commit of Push d c *)
      destruct Hok as (V & Hc & _). injection Es as <- <- <- <- <-. intros g PQ PS _. cbn [o_res].
      apply (drel_add _ _ _ _ _ _ _ _ (d_dig d = g /\ is_manifest (d_mt d) = true)).
      + rewrite !pq_iff. tauto.
      + rewrite !ps_iff, run1, (qpush_has q d c g Hq Hndq Hc V). tauto.
    - (* graph.index *)
      destruct Hok as (Hc & Hp). unfold present in Hp. cbn in Es.
      destruct (get N.eqb (d_dig d) (o_blobs s)); [|congruence].
      injection Es as <- <- <- <- <-. intros g PQ PS _. cbn [o_res run fst].
      destruct (is_manifest (d_mt d)) eqn:M;
        (apply (drel_add _ _ _ _ _ _ _ _ False); [rewrite !pq_iff, ?M | rewrite !ps_iff]; intuition discriminate).
    - (* tag by digest after a push *)
      destruct Hokd as [Hc M]. injection Es as <- <- <- <- <-. intros g PQ PS _. cbn [o_res run fst].
      apply (drel_add _ _ _ _ _ _ _ _ False).
      + rewrite r_index_tag, dent_put_dig, apply_dset_has, !pq_iff. tauto.
      + rewrite !ps_iff. tauto.
    - (* Tag: graph.index of the manifest *)
      destruct Hok as (_ & Hp). unfold present in Hp. cbn in Es.
      destruct (get N.eqb (d_dig d) (o_blobs s)); [|congruence].
      injection Es as <- <- <- <- <-. intros g PQ PS _. cbn [o_res run fst].
      apply (drel_add _ _ _ _ _ _ _ _ False).
      + destruct (ref_eqb r (RDig (d_dig d))); rewrite !pq_iff; tauto.
      + destruct Hokd as [_ [->|(m & ->)]]; cbn [ref_eqb]; rewrite ?N.eqb_refl, !ps_iff; tauto.
    - (* Tag: the digest entry *)
      destruct Hokd as [Hc (m & ->)]. injection Es as <- <- <- <- <-. intros g PQ PS _. cbn [o_res run fst].
      apply (drel_add _ _ _ _ _ _ _ _ (d_dig d = g)).
      + rewrite r_index_tag, dent_put_dig, apply_dset_has, !pq_iff. tauto.
      + rewrite !ps_iff. tauto.
    - (* Tag: the commit *)
      destruct Hokd as [Hc Hr]. unfold present in Hok. rewrite Hbl in Hok.
      injection Es as <- <- <- <- <-. intros g PQ PS _. cbn [o_res]. rewrite r_index_tag.
      pose proof (qtag_has q d r g Hqd Hndq Hr Hok) as Hq'. destruct Hr as [->|(m & ->)].
      + apply (drel_add _ _ _ _ _ _ _ _ (d_dig d = g)).
        * rewrite dent_put_dig, apply_dset_has, !pq_iff. clear. tauto.
        * rewrite run1, Hq', !ps_iff. clear. tauto.
      + apply (drel_add _ _ _ _ _ _ _ _ False).
        * rewrite dent_put_name, !pq_iff. clear. tauto.
        * rewrite run1, Hq', !ps_iff. clear. tauto.
    - (* Untag of a name *)
      destruct Hokd as (m & ->). injection Es as <- <- <- <- <-. intros g PQ PS _. cbn [o_res]. rewrite r_index_untag.
      apply (drel_add _ _ _ _ _ _ _ _ False).
      + rewrite dent_del_name, !pq_iff. tauto.
      + rewrite run1, (oci_step_dent q _ Hqd Hndq), !ps_iff. cbn. tauto.
  Qed.

  Lemma pendQ_split g l1 x l2 : pendQ g (l1 ++ x :: l2) <-> pq x g \/ pendQ g (l1 ++ l2).
  Proof. apply (ex_in_elt (fun t => pq t g)). Qed.

  Lemma pendS_split g l1 x l2 : pendS g (l1 ++ x :: l2) <-> ps x g \/ pendS g (l1 ++ l2).
  Proof. apply (ex_in_elt (fun t => ps t g)). Qed.

  Lemma idle_no_pending g ths :
    (forall x, In x ths -> ot_pc x = OIdle) -> ~ pendQ g ths /\ ~ pendS g ths.
  Proof.
    intro Hall. split.
    - intros (x & Hx & d0 & [E|E] & _); rewrite (Hall x Hx) in E; discriminate.
    - intros (x & Hx & d0 & m & E & _). rewrite (Hall x Hx) in E. discriminate.
  Qed.

  Record dinv (cf : oconf) : Prop := mkDInv {
    di_dwf : dwf (r_index (o_res (oc_store cf)));
    di_okd : Forall okd (oc_threads cf);
    di_rel : forall g,
        (dent (r_index (o_res (oc_store cf))) g <> None \/ pendQ g (oc_threads cf)) <->
        (dent (r_index (o_res (seq_ostate (map snd (oc_log cf))))) g <> None \/ pendS g (oc_threads cf)) }.

  Lemma dinv_init progs : dinv (oconf_init progs).
  Proof.
    assert (Hidle : forall x, In x (oc_threads (oconf_init progs)) -> ot_pc x = OIdle).
    { intros x Hx. apply in_map_iff in Hx as (p & <- & _). reflexivity. }
    constructor.
    - intros g d H. discriminate.
    - apply Forall_forall. intros t Ht. unfold okd. now rewrite (Hidle t Ht).
    - intro g. destruct (idle_no_pending g _ Hidle). cbn. tauto.
  Qed.

  Lemma seq_ostate_app L lg : seq_ostate (L ++ lg) = fst (run oci_step (seq_ostate L) lg).
  Proof. unfold seq_ostate. now rewrite run_app. Qed.

  Lemma wf_canon l : Forall (wf_op U B) l -> Forall (canon_op_all U) l.
  Proof. apply Forall_impl. now intros o [A _]. Qed.

  Lemma dinv_step progs cf i :
    Forall (wf_op U B) (concat progs) -> oinv U B progs cf -> dinv cf -> dinv (oconf_step cf i).
  Proof.
    intros Hwfall Hinv Hdinv.
    destruct (oconf_step_cases cf i) as [->|(l1 & t & l2 & s' & t' & lg & ix & un & Hth & Es & ->)]; [exact Hdinv|].
    destruct cf as [s ths L J]. cbn [oc_store oc_threads oc_log oc_indexed] in *. subst ths.
    destruct Hinv as [Hsched Hbl _ Hnd [_ Hthr _ _ _]]. destruct Hdinv as [Hd Hokd Hrel].
    cbn [oc_store oc_threads oc_log oc_indexed] in *.
    destruct (sched_inv_Forall _ _ _ _ _ Hsched Hwfall) as [HwfL Hwft].
    destruct (dstep _ _ _ _ _ _ _ _ (seq_ostate (map snd L)) (Forall_elt _ _ _ Hthr) (Forall_elt _ _ _ Hokd) Hd Hnd
                    (qdig_seq _ (wf_canon _ HwfL)) (seq_ostate_nodup _) Hbl
                    (fun o Ho => conj (Hwft t o (in_elt _ _ _) Ho) I) Es)
      as (Hokd' & Hd' & Hstep).
    constructor; cbn [oc_store oc_threads oc_log oc_indexed].
    - exact Hd'.
    - eapply Forall_mid; [|exact Hokd' | exact Hokd]. auto.
    - intro g. rewrite map_app, map_snd_pair, seq_ostate_app, pendQ_split, pendS_split. apply Hstep.
      + intro Hb. exact (idle_no_pending g _ (others_idle_split l1 t l2 Hb)).
      + rewrite <- pendQ_split, <- pendS_split. apply Hrel.
  Qed.

  Lemma dinv_run progs sched :
    Forall (wf_op U B) (concat progs) ->
    forall cf, oinv U B progs cf -> dinv cf ->
               oinv U B progs (oconf_run cf sched) /\ dinv (oconf_run cf sched).
  Proof.
    intros Hwf cf H1 H2.
    apply (fold_left_invariant oconf_step (fun cf => oinv U B progs cf /\ dinv cf)); [|now split].
    intros cf0 i [A C]. split; [now apply oinv_step | now apply (dinv_step progs)].
  Qed.

  (* Complete statement: at quiescence of ANY schedule, every Resolve (names, digest
     strings, the empty reference), Fetch/Exists (content map) and Predecessors answer is
     the one of a sequential execution of the same operations in program order. *)
  Theorem quiescent_serialisable_oci_full (progs : list (list op)) (sched : list nat) :
    Forall wf2_op (concat progs) ->
    let cf := oconf_run (oconf_init progs) sched in
    oquiescent cf = true ->
    exists order : list (nat * op),
      Permutation (map snd order) (concat progs) /\
      (forall i, log_of i order = nth i progs []) /\
      let q := fst (run oci_step oci_init (map snd order)) in
      o_blobs (oc_store cf) = o_blobs q /\
      (forall r, snd (oci_step (oc_store cf) (Resolve r)) = snd (oci_step q (Resolve r))) /\
      forall n k, In k (map gk (g_predecessors n (o_graph (oc_store cf)))) <->
                  In k (map gk (g_predecessors n (o_graph q))).
  Proof.
    intros Hwf2 cf Hq. pose proof (Forall_impl _ (fun o => @proj1 (wf_op U B o) True) Hwf2) as Hwf.
    destruct (dinv_run progs sched Hwf _ (oinv_init U B progs) (dinv_init progs)) as [Hinv [Hd _ Hrel]].
    fold cf in Hinv, Hd, Hrel.
    destruct (oinv_quiescent U B progs cf Hwf Hinv Hq) as (Hperm & Hord & Hpreds).
    pose proof (oi_blobs _ _ _ _ Hinv) as Hbl.
    exists (oc_log cf). split; [exact Hperm|]. split; [exact Hord|].
    cbn zeta. fold (seq_ostate (map snd (oc_log cf))). split; [exact Hbl|]. split; [|exact Hpreds].
    intros [n|g|]; [| |reflexivity].
    - apply (oci_reads_view _ _ Hbl (oi_names _ _ _ _ Hinv) zero_desc n).
    - (* a digest string: both sides have the entry -- the same, by well-formedness -- or none *)
      destruct (qdig_seq _ (wf_canon _ (Permutation_Forall (Permutation_sym Hperm) Hwf))) as [Hqd _].
      assert (Hidle : forall x, In x (oc_threads cf) -> ot_pc x = OIdle).
      { intros x Hx. apply (othread_done_spec x). unfold oquiescent in Hq. rewrite forallb_forall in Hq. auto. }
      destruct (idle_no_pending g _ Hidle) as [NQ NS]. specialize (Hrel g).
      cbn [oci_step snd]. unfold dent in *.
      destruct (get ref_eqb (RDig g) (r_index (o_res (oc_store cf)))) as [d1|] eqn:E1;
        destruct (get ref_eqb (RDig g) (r_index (o_res (seq_ostate (map snd (oc_log cf)))))) as [d2|] eqn:E2.
      + destruct (Hd g d1 E1) as [G1 C1]. destruct (Hqd g d2 E2) as [G2 C2].
        cbn [snd ref_eqb]. rewrite G1, G2, N.eqb_refl.
        assert (Hgk : gk d1 = gk d2) by (unfold canon_desc in *; congruence).
        unfold plain. unfold gk in Hgk. injection Hgk as -> -> ->. reflexivity.
      + exfalso. destruct (proj1 Hrel) as [X|X]; [left; discriminate | now apply X | contradiction].
      + exfalso. destruct (proj2 Hrel) as [X|X]; [left; discriminate | now apply X | contradiction].
      + rewrite Hbl. now destruct (get N.eqb g (o_blobs (seq_ostate (map snd (oc_log cf))))).
  Qed.
End OciDig.

Lemma ox_wf2 : Forall (wf2_op ex_U ox_B) (concat ox_progs).
Proof. eapply Forall_impl; [|exact ox_wf]. intros o H. split; [exact H | exact I]. Qed.
