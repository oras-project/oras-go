(* C10 -- proofs about the crash model (Model/OciCrash.v, Model/OciCrashSpec.v).
   An operation runs at most two stages (publish a blob, rewrite index.json, remove a blob); a
   stage works on a temporary and ends with the one step a reader can see (rename, unlink).
   So every cut leaves the directory, up to temporaries, as it was at a stage boundary, and the
   invariant [Inv] of quiescent states makes each boundary a directory the property accepts. *)
From Oras Require Import Base.Prelude Model.OciCrash Model.OciCrashSpec.

Lemma fpath_eqb_spec p q : fpath_eqb p q = true <-> p = q.
Proof.
  split; [|intros <-; destruct p; cbn; now rewrite ?N.eqb_refl, ?Nat.eqb_refl].
  destruct p, q; cbn; try discriminate;
    rewrite ?andb_true_iff, ?N.eqb_eq, ?Nat.eqb_eq; intuition congruence.
Qed.

Lemma fpath_eqb_refl p : fpath_eqb p p = true.
Proof. now apply fpath_eqb_spec. Qed.

Lemma fpath_eqP p q : reflect (p = q) (fpath_eqb p q).
Proof. apply iff_reflect. symmetry. apply fpath_eqb_spec. Qed.

Lemma upd_same f p v : upd f p v p = v.
Proof. unfold upd. now rewrite fpath_eqb_refl. Qed.

Lemma upd_other f p v q : q <> p -> upd f p v q = f q.
Proof. intro Hn. unfold upd. now destruct (fpath_eqP q p). Qed.

Definition touches (m : mstep) (p : fpath) : Prop :=
  match m with
  | Mkdir _ | Close _ => False
  | Create q | OpenTrunc q | Write q _ | Chmod q | Unlink q => p = q
  | Rename a b => p = a \/ p = b
  end.

Lemma apply1_frame fs m p : ~ touches m p -> files (apply1 fs m) p = files fs p.
Proof.
  destruct m as [|q|q|q ?|q| |q ?|q]; cbn; intro Hn; try destruct (files fs q); cbn [files];
    rewrite ?upd_other by tauto; reflexivity.
Qed.

Lemma apply_app a c fs : apply (a ++ c) fs = apply c (apply a fs).
Proof. unfold apply. apply fold_left_app. Qed.

Lemma apply_cons m ms fs : apply (m :: ms) fs = apply ms (apply1 fs m).
Proof. reflexivity. Qed.

Lemma apply_frame ms : forall fs p,
  (forall m, In m ms -> ~ touches m p) -> files (apply ms fs) p = files fs p.
Proof.
  induction ms as [|m ms IH]; intros fs p Hn; [reflexivity|].
  rewrite apply_cons, IH.
  - apply apply1_frame. apply Hn. now left.
  - intros m' Hin. apply Hn. now right.
Qed.

Lemma In_firstn {A} (x : A) k l : In x (firstn k l) -> In x l.
Proof.
  revert l; induction k as [|k IH]; intros [|a l]; simpl; try tauto.
  intros [->|Hin]; [now left|right; now apply IH].
Qed.

Lemma firstn_app_cases {A} k (a c : list A) :
  (firstn k (a ++ c) = firstn k a /\ (k <= length a)%nat) \/
  (exists k', firstn k (a ++ c) = a ++ firstn k' c).
Proof.
  destruct (Nat.le_gt_cases k (length a)) as [Hle|Hgt].
  - left. split; [|exact Hle]. rewrite firstn_app.
    replace (k - length a)%nat with 0%nat by lia. simpl. now rewrite app_nil_r.
  - right. exists (k - length a)%nat. rewrite firstn_app.
    rewrite firstn_all2 by lia. reflexivity.
Qed.

Definition only_touch (A : list mstep) (t : fpath) : Prop :=
  forall m, In m A -> forall p, touches m p -> p = t.

Lemma only_touch_frame A t fs p : only_touch A t -> p <> t -> files (apply A fs) p = files fs p.
Proof. intros HA Hp. apply apply_frame. intros m Hin Ht. apply Hp. exact (HA m Hin p Ht). Qed.

Lemma only_touch_app A B t : only_touch A t -> only_touch B t -> only_touch (A ++ B) t.
Proof. intros HA HB m Hin. apply in_app_or in Hin as [Hin|Hin]; [now apply HA|now apply HB]. Qed.

Definition nt_eq (a c : FS) : Prop := forall p, is_temp p = false -> files a p = files c p.

Lemma nt_eq_refl a : nt_eq a a.
Proof. intros p _. reflexivity. Qed.

Lemma read_index_nt a c : nt_eq a c -> read_index a = read_index c.
Proof. intro E. unfold read_index. now rewrite (E FIndex eq_refl). Qed.

Definition atomic (ms : list mstep) (fs : FS) : Prop :=
  forall k, nt_eq fs (apply (firstn k ms) fs) \/ firstn k ms = ms.

Lemma atomic_nil fs : atomic [] fs.
Proof. intro k. right. apply firstn_nil. Qed.

Lemma atomic_one c fs : atomic [c] fs.
Proof. intros [|k]; [left; apply nt_eq_refl|right]. cbn. now rewrite firstn_nil. Qed.

Lemma atomic_commit A t c fs : only_touch A t -> is_temp t = true -> atomic (A ++ [c]) fs.
Proof.
  intros HA Ht k.
  assert (Pre : forall j, nt_eq fs (apply (firstn j A) fs)).
  { intros j p Hp. symmetry. apply apply_frame. intros m Hin Hm.
    rewrite (HA m (In_firstn m j A Hin) p Hm), Ht in Hp. discriminate. }
  destruct (firstn_app_cases k A [c]) as [[-> _]|([|k'] & ->)]; [left; apply Pre| |right].
  - left. cbn [firstn]. rewrite app_nil_r, <- (firstn_all A). apply Pre.
  - cbn [firstn]. now rewrite firstn_nil.
Qed.

Lemma cuts_app (P : FS -> Prop) ms1 ms2 fs :
  (forall k, P (apply (firstn k ms1) fs)) -> (forall k, P (apply (firstn k ms2) (apply ms1 fs))) ->
  forall k, P (apply (firstn k (ms1 ++ ms2)) fs).
Proof.
  intros C1 C2 k. destruct (firstn_app_cases k ms1 ms2) as [[-> _]|(k' & ->)]; [apply C1|].
  rewrite apply_app. apply C2.
Qed.

Lemma cuts_atomic (P : FS -> Prop) ms fs :
  (forall a c, nt_eq a c -> P a -> P c) -> atomic ms fs -> P fs -> P (apply ms fs) ->
  forall k, P (apply (firstn k ms) fs).
Proof. intros Pnt At P0 P1 k. destruct (At k) as [E| ->]; [exact (Pnt _ _ E P0)|exact P1]. Qed.

(* writeFileAtomic: a temporary file is created, filled, closed and renamed into place *)
Definition atomic_write (t q : fpath) (a : atom) : list mstep :=
  [Create t; Write t a; Close t] ++ [Rename t q].

Lemma aw_only_touch t a : only_touch [Create t; Write t a; Close t] t.
Proof. intros m [<-|[<-|[<-|[]]]] p Hp; cbn in Hp; now try contradiction. Qed.

Lemma aw_final t q a fs : t <> q -> files fs t = None ->
  forall p, files (apply (atomic_write t q a) fs) p =
            if fpath_eqb p t then None else if fpath_eqb p q then Some (mkFile [a] false) else files fs p.
Proof.
  intros Htq Hnone p. unfold atomic_write, apply. cbn [app fold_left apply1]. rewrite Hnone.
  cbn [files]. rewrite upd_same. cbn [files fcontent fro app]. rewrite upd_same. cbn [files].
  destruct (fpath_eqP p t) as [->|Ht]; [apply upd_same|]. rewrite upd_other by exact Ht.
  destruct (fpath_eqP p q) as [->|Hq]; [apply upd_same|]. now rewrite !upd_other.
Qed.

Lemma aw_atomic t q a fs : is_temp t = true -> atomic (atomic_write t q a) fs.
Proof. apply atomic_commit, aw_only_touch. Qed.

(* the temporary file of a Push *)
Definition ingest (fs : FS) (d : N) (t : fpath) (cont : list N) : list mstep :=
  mkdirs fs d ++ Create t :: map (fun x => Write t (AChunk x)) cont.

Lemma mkdirs_touch fs d m p : In m (mkdirs fs d) -> ~ touches m p.
Proof.
  unfold mkdirs. intro Hin. apply in_app_or in Hin.
  destruct (dirs fs (DAlg (alg_of d))), (dirs fs DIngest); cbn in Hin;
    destruct Hin as [Hin|Hin]; try contradiction;
    destruct Hin as [<-|[]]; cbn; tauto.
Qed.

Lemma ingest_only_touch fs d t cont : only_touch (ingest fs d t cont) t.
Proof.
  intros m Hin p Ht. apply in_app_or in Hin as [Hin|[<-|Hin]].
  - exfalso. exact (mkdirs_touch fs d m p Hin Ht).
  - exact Ht.
  - apply in_map_iff in Hin as (x & <- & _). exact Ht.
Qed.

Lemma apply_writes t : forall cont fs pre ro,
  files fs t = Some (mkFile pre ro) ->
  files (apply (map (fun x => Write t (AChunk x)) cont) fs) t
    = Some (mkFile (pre ++ map AChunk cont) ro).
Proof.
  induction cont as [|x cont IH]; intros fs pre ro Hf; cbn [map].
  - cbn. now rewrite app_nil_r.
  - rewrite apply_cons. cbn [apply1]. rewrite Hf.
    erewrite IH; [|cbn [files]; apply upd_same]. cbn [fcontent fro].
    now rewrite <- app_assoc.
Qed.

Lemma ingest_content fs d t cont :
  files fs t = None ->
  files (apply (ingest fs d t cont) fs) t = Some (mkFile (map AChunk cont) false).
Proof.
  intro Hn. unfold ingest. rewrite apply_app, apply_cons.
  apply (apply_writes t cont _ [] false). cbn [apply1].
  rewrite apply_frame by (intros m Hin; now apply (mkdirs_touch fs d)).
  rewrite Hn. cbn [files]. apply upd_same.
Qed.

(* verified content: chmod, close, rename to blobs/<d> *)
Definition pub_steps (fs : FS) (d : N) (c : nat) (cont : list N) : list mstep :=
  let t := FIngest d c in (ingest fs d t cont ++ [Chmod t; Close t]) ++ [Rename t (FBlob d)].
(* verification failed: close, remove *)
Definition drop_steps (fs : FS) (d : N) (c : nat) (cont : list N) : list mstep :=
  let t := FIngest d c in (ingest fs d t cont ++ [Close t]) ++ [Unlink t].

Lemma pub_only_touch fs d c cont :
  only_touch (ingest fs d (FIngest d c) cont ++ [Chmod (FIngest d c); Close (FIngest d c)]) (FIngest d c).
Proof.
  apply only_touch_app; [apply ingest_only_touch|].
  intros m [<-|[<-|[]]] p Hp; cbn in Hp; now try contradiction.
Qed.

Lemma drop_only_touch fs d c cont :
  only_touch (ingest fs d (FIngest d c) cont ++ [Close (FIngest d c)]) (FIngest d c).
Proof.
  apply only_touch_app; [apply ingest_only_touch|]. intros m [<-|[]] p Hp. destruct Hp.
Qed.

Lemma pub_atomic fs d c cont fs' : atomic (pub_steps fs d c cont) fs'.
Proof. apply (atomic_commit _ (FIngest d c)); [apply pub_only_touch|reflexivity]. Qed.

Lemma drop_atomic fs d c cont fs' : atomic (drop_steps fs d c cont) fs'.
Proof. apply (atomic_commit _ (FIngest d c)); [apply drop_only_touch|reflexivity]. Qed.

Lemma pub_files fs d c cont : files fs (FIngest d c) = None ->
  forall p, files (apply (pub_steps fs d c cont) fs) p =
            if fpath_eqb p (FBlob d) then Some (mkFile (map AChunk cont) true) else files fs p.
Proof.
  intros Hn p. unfold pub_steps. cbv zeta. set (t := FIngest d c) in *.
  rewrite !apply_app. unfold apply at 1 2. cbn [fold_left apply1].
  rewrite (ingest_content fs d t cont Hn). cbn [files fcontent fro]. rewrite upd_same. cbn [files].
  destruct (fpath_eqP p t) as [->|Ht]; [now rewrite upd_same|]. rewrite upd_other by exact Ht.
  destruct (fpath_eqP p (FBlob d)) as [->|Hb]; [apply upd_same|]. rewrite !upd_other by assumption.
  apply (only_touch_frame _ t); [apply ingest_only_touch|exact Ht].
Qed.

Lemma drop_files fs d c cont : files fs (FIngest d c) = None ->
  forall p, files (apply (drop_steps fs d c cont) fs) p = files fs p.
Proof.
  intros Hn p. unfold drop_steps. cbv zeta. set (t := FIngest d c) in *.
  rewrite apply_app. unfold apply at 1. cbn [fold_left apply1 files].
  destruct (fpath_eqP p t) as [->|Ht]; [now rewrite upd_same|]. rewrite upd_other by exact Ht.
  apply (only_touch_frame _ t); [apply drop_only_touch|exact Ht].
Qed.

Section Crash.
Variable H : list N -> N.
Variable shuffle : nat -> list entry -> list entry.
(* Go's map iteration order: saveIndex writes the entries in some order *)
Hypothesis shuffle_In : forall c l e, In e (shuffle c l) <-> In e l.

Notation idx_steps := (index_steps shuffle false).
Notation steps := (op_steps H shuffle false false true).
Notation runop := (run_op H shuffle false false true).
Notation runs := (run H shuffle false false true).
Notation runC := (runc H shuffle false false true).
Notation cutop := (crash_fs H shuffle false false true).
Notation cutseq := (crash_seq H shuffle false false true).

(* What a reader requires of the directory it finds.  [ix] is the condition on index.json:
   index_ok for the property itself, mere parsing when AutoSaveIndex is off
   (Proofs/OciCrashOff.v).  [RecP index_ok] is [Recoverable H]. *)
Section Readers.
Variable ix : FS -> Prop.
Hypothesis ix_nt : forall a c, nt_eq a c -> ix a -> ix c.

Definition GoodP (fs : FS) : Prop := layout_ok fs /\ blob_ok H fs /\ ix fs.

Definition RecP (fs0 fsk fs1 : FS) : Prop :=
  layout_ok fsk /\ blob_ok H fsk /\ ix fsk /\
  (read_index fsk = read_index fs0 \/ read_index fsk = read_index fs1) /\
  (forall d, has fs0 (FBlob d) -> has fs1 (FBlob d) -> has fsk (FBlob d)) /\
  (forall d, has fsk (FBlob d) -> has fs0 (FBlob d) \/ has fs1 (FBlob d)).

Lemma goodp_nt a c : nt_eq a c -> GoodP a -> GoodP c.
Proof.
  intros E (L & B & I). split; [|split; [|now apply (ix_nt a)]].
  - unfold layout_ok. now rewrite <- (E FLayout eq_refl).
  - intros d f. rewrite <- (E (FBlob d) eq_refl). apply B.
Qed.

Lemma recp_nt fs0 a c fs1 : nt_eq a c -> RecP fs0 a fs1 -> RecP fs0 c fs1.
Proof.
  intros E (L & B & I & R & P1 & P2).
  destruct (goodp_nt a c E (conj L (conj B I))) as (L' & B' & I').
  repeat split; try assumption.
  - now rewrite <- (read_index_nt a c E).
  - intros d H0 H1. unfold has. rewrite <- (E (FBlob d) eq_refl). now apply P1.
  - intro d. unfold has. rewrite <- (E (FBlob d) eq_refl). apply P2.
Qed.

Lemma recp_between fs0 fsk fs1 : GoodP fsk ->
  (read_index fsk = read_index fs0 \/ read_index fsk = read_index fs1) ->
  (forall d, files fsk (FBlob d) = files fs0 (FBlob d)) \/
  (forall d, files fsk (FBlob d) = files fs1 (FBlob d)) ->
  RecP fs0 fsk fs1.
Proof.
  intros (L & B & I) R E. repeat split; try assumption; unfold has; intro d;
    destruct E as [E|E]; rewrite E; auto.
Qed.

Lemma recp_start fs0 fs1 : GoodP fs0 -> RecP fs0 fs0 fs1.
Proof. intro G. apply recp_between; [exact G|now left|now left]. Qed.

Lemma recp_end fs0 fs1 : GoodP fs1 -> RecP fs0 fs1 fs1.
Proof. intro G. apply recp_between; [exact G|now right|now right]. Qed.

Lemma recp_stage fs0 ms : atomic ms fs0 -> GoodP fs0 -> GoodP (apply ms fs0) ->
  forall k, RecP fs0 (apply (firstn k ms) fs0) (apply ms fs0).
Proof.
  intros At G0 G1. apply (cuts_atomic (fun x => RecP fs0 x (apply ms fs0))); [intros a c; apply recp_nt|exact At| |].
  - now apply recp_start.
  - now apply recp_end.
Qed.

(* two stages: the cut falls into one of them *)
Lemma recp_stages fs0 ms1 ms2 :
  atomic ms1 fs0 -> atomic ms2 (apply ms1 fs0) ->
  GoodP fs0 -> RecP fs0 (apply ms1 fs0) (apply ms2 (apply ms1 fs0)) -> GoodP (apply ms2 (apply ms1 fs0)) ->
  forall k, RecP fs0 (apply (firstn k (ms1 ++ ms2)) fs0) (apply ms2 (apply ms1 fs0)).
Proof.
  intros A1 A2 G0 Rm G2.
  set (P := fun x => RecP fs0 x (apply ms2 (apply ms1 fs0))).
  apply (cuts_app P); apply (cuts_atomic P); try assumption; try (intros a c; apply recp_nt).
  - now apply recp_start.
  - now apply recp_end.
Qed.
End Readers.

Lemma index_ok_nt a c : nt_eq a c -> index_ok a -> index_ok c.
Proof.
  intros E (l & Hl & He). exists l. split; [now rewrite <- (read_index_nt a c E)|].
  intros e Hin. unfold has. rewrite <- (E (FBlob (fst e)) eq_refl). now apply He.
Qed.

Definition Good (fs : FS) : Prop := layout_ok fs /\ blob_ok H fs /\ index_ok fs.

Definition temp_ctr (p : fpath) : nat :=
  match p with FIndexTmp c | FIngest _ c | FLayoutTmp c => c | _ => 0%nat end.

(* Holds after every completed operation AND after every crash + reopen:
   - every reference of the tag resolver is also held by digest, and every digest held
     names an existing blob;
   - every entry of index.json on disk is held by digest (so nothing the disk index names
     can be unlinked without the index being rewritten first);
   - temporaries that a future operation will create do not exist yet (leftovers of
     interrupted operations have older counters = other random names). *)
Record Inv (s : st) : Prop := {
  inv_layout : layout_ok (sfs s);
  inv_blob : blob_ok H (sfs s);
  inv_tagdig : forall r n, In (r, n) (stags s) -> In n (sdigs s);
  inv_digs : forall n, In n (sdigs s) -> has (sfs s) (FBlob n);
  inv_temp : forall p, is_temp p = true -> (sctr s <= temp_ctr p)%nat -> files (sfs s) p = None;
  inv_index : exists l, read_index (sfs s) = Some l /\
                        forall e, In e l -> In (fst e) (sdigs s);
  (* a reference names one blob, and the names on disk are the ones in memory *)
  inv_fun : forall r n n', In (r, n) (stags s) -> In (r, n') (stags s) -> n = n';
  inv_named : exists l, read_index (sfs s) = Some l /\
                        forall r n, In (n, Some r) l <-> In (r, n) (stags s)
}.

Lemma inv_tags s : Inv s -> forall r n, In (r, n) (stags s) -> has (sfs s) (FBlob n).
Proof. intros I r n Hin. apply (inv_digs s I). now apply (inv_tagdig s I r). Qed.

(* index.json on disk is what saveIndex would write now (true when no crash intervened) *)
Definition Agree (s : st) : Prop :=
  exists l, read_index (sfs s) = Some l /\
            forall e, In e l <-> In e (save (stags s) (sdigs s)).

Lemma save_In tags digs e :
  In e (save tags digs) ->
  (exists r, In (r, fst e) tags) \/ In (fst e) digs.
Proof.
  unfold save. intro Hin. apply in_app_or in Hin as [Hin|Hin].
  - apply in_map_iff in Hin as ([r n] & <- & Hin). left. exists r. exact Hin.
  - apply in_map_iff in Hin as (d & <- & Hin). apply filter_In in Hin as [Hin _]. now right.
Qed.

Lemma save_exist fs tags digs :
  (forall r n, In (r, n) tags -> has fs (FBlob n)) ->
  (forall n, In n digs -> has fs (FBlob n)) ->
  forall e, In e (save tags digs) -> has fs (FBlob (fst e)).
Proof.
  intros Ht Hd e Hin. apply save_In in Hin as [(r & Hr)|Hn]; [now apply (Ht r)|now apply Hd].
Qed.

Lemma save_in_digs tags digs :
  (forall r n, In (r, n) tags -> In n digs) ->
  forall e, In e (save tags digs) -> In (fst e) digs.
Proof.
  intros Ht e Hin. apply save_In in Hin as [(r & Hr)|Hn]; [now apply (Ht r)|exact Hn].
Qed.

Lemma save_tagged tags digs n r : In (n, Some r) (save tags digs) <-> In (r, n) tags.
Proof.
  unfold save. rewrite in_app_iff. split.
  - intros [Hin|Hin].
    + apply in_map_iff in Hin as ([r' n'] & E & Hin). cbn in E. injection E as -> ->. exact Hin.
    + apply in_map_iff in Hin as (d & E & _). discriminate.
  - intro Hin. left. apply in_map_iff. exists (r, n). split; [reflexivity|exact Hin].
Qed.

Lemma inv_good s : Inv s -> Good (sfs s).
Proof.
  intros [L B T D _ (l & Hl & Hs) _ _]. split; [exact L|split; [exact B|]].
  exists l. split; [exact Hl|]. intros e Hin. apply D. now apply Hs.
Qed.

Lemma exists_file_has fs p : exists_file fs p = true <-> has fs p.
Proof. unfold exists_file, has. destruct (files fs p); [now split|split; [discriminate|contradiction]]. Qed.

Lemma exists_file_false fs p : exists_file fs p = false -> files fs p = None.
Proof. unfold exists_file. destruct (files fs p); [discriminate|reflexivity]. Qed.

Lemma filter_all_true {A} (f : A -> bool) l : (forall x, In x l -> f x = true) -> filter f l = l.
Proof.
  induction l as [|a l IH]; intro Hf; [reflexivity|]. simpl.
  rewrite (Hf a (or_introl eq_refl)). f_equal. apply IH. intros x Hx. apply Hf. now right.
Qed.

Lemma existsb_false {A} (f : A -> bool) l : existsb f l = false -> forall x, In x l -> f x = false.
Proof.
  induction l as [|a l IH]; simpl; intros E x Hx; [contradiction|].
  apply orb_false_iff in E as [E1 E2]. destruct Hx as [<-|Hx]; [exact E1|now apply IH].
Qed.

Lemma dig_add_In d digs n : In n (dig_add d digs) -> n = d \/ In n digs.
Proof. unfold dig_add. destruct (memN d digs); simpl; intuition. Qed.

Lemma dig_add_incl d digs n : In n digs -> In n (dig_add d digs).
Proof. unfold dig_add. destruct (memN d digs); simpl; intuition. Qed.

Lemma dig_add_self d digs : In d (dig_add d digs).
Proof.
  unfold dig_add, memN. destruct (existsb (N.eqb d) digs) eqn:E; [|now left].
  apply existsb_exists in E as (x & Hin & E). apply N.eqb_eq in E. now subst x.
Qed.

Lemma tag_set_iff r d tags r' n :
  In (r', n) (tag_set r d tags) <-> (r' = r /\ n = d) \/ (r' <> r /\ In (r', n) tags).
Proof.
  unfold tag_set. cbn [In]. rewrite filter_In. cbn [fst]. split.
  - intros [E|[Hin Hn]]; [left; injection E as <- <-; now split|right].
    apply negb_true_iff in Hn. apply N.eqb_neq in Hn. now split.
  - intros [[-> ->]|[Hn Hin]]; [now left|right]. split; [exact Hin|].
    apply negb_true_iff. now apply N.eqb_neq.
Qed.

Lemma tag_set_fun r d tags :
  (forall r0 n n', In (r0, n) tags -> In (r0, n') tags -> n = n') ->
  forall r0 n n', In (r0, n) (tag_set r d tags) -> In (r0, n') (tag_set r d tags) -> n = n'.
Proof.
  intros Hf r0 n n' H1 H2. apply tag_set_iff in H1, H2.
  destruct H1 as [[-> ->]|[N1 H1]], H2 as [[E ->]|[N2 H2]]; try congruence. exact (Hf r0 n n' H1 H2).
Qed.

(* the invariant depends on the directory through oci-layout, index.json, the blobs, and the
   temporaries not yet used *)
Lemma inv_blobs s fs' c' :
  Inv s ->
  files fs' FLayout = files (sfs s) FLayout -> files fs' FIndex = files (sfs s) FIndex ->
  blob_ok H fs' -> (forall n, In n (sdigs s) -> has fs' (FBlob n)) ->
  (forall p, is_temp p = true -> (c' <= temp_ctr p)%nat -> files fs' p = None) ->
  Inv (mkSt fs' (stags s) (sdigs s) c').
Proof.
  intros [L B T D Tm Ix Fu Nm] EL EX B' D' Tm'.
  assert (RI : read_index fs' = read_index (sfs s)) by (unfold read_index; now rewrite EX).
  constructor; cbn [sfs stags sdigs sctr]; try assumption; [|now rewrite RI..].
  unfold layout_ok. now rewrite EL.
Qed.

Lemma inv_files_eq s fs' c' :
  Inv s -> (forall p, files fs' p = files (sfs s) p) -> (sctr s <= c')%nat ->
  Inv (mkSt fs' (stags s) (sdigs s) c').
Proof.
  intros I E Hc. apply inv_blobs; try apply E; try exact I.
  - intros d f. rewrite E. apply (inv_blob s I).
  - intros n Hn. unfold has. rewrite E. now apply (inv_digs s I).
  - intros p Hp Hq. rewrite E. apply (inv_temp s I p Hp). lia.
Qed.

Lemma agree_index_eq s fs' c' :
  files fs' FIndex = files (sfs s) FIndex -> Agree s -> Agree (mkSt fs' (stags s) (sdigs s) c').
Proof. intros E (l & Hl & He). exists l. split; [|exact He]. unfold read_index in *. cbn [sfs]. now rewrite E. Qed.

(* index.json is rewritten (or, [w = false], left alone: the resolver has not changed) *)
Lemma idx_stage s (w : bool) tags' digs' :
  Inv s ->
  (forall r n, In (r, n) tags' -> In n digs') ->
  (forall n, In n digs' -> has (sfs s) (FBlob n)) ->
  (forall r n n', In (r, n) tags' -> In (r, n') tags' -> n = n') ->
  (w = false -> tags' = stags s /\ digs' = sdigs s) ->
  let ms := if w then idx_steps (sctr s) tags' digs' else [] in
  let s1 := mkSt (apply ms (sfs s)) tags' digs' (S (sctr s)) in
  Inv s1 /\ (Agree s -> Agree s1) /\ atomic ms (sfs s) /\
  forall d, files (sfs s1) (FBlob d) = files (sfs s) (FBlob d).
Proof.
  intros I Ht Hd Hfun Hw ms s1. destruct w.
  - set (it := FIndexTmp (sctr s)). set (l := shuffle (sctr s) (save tags' digs')).
    assert (F : forall p, files (sfs s1) p = if fpath_eqb p it then None else
                          if fpath_eqb p FIndex then Some (mkFile [AIndex l] false) else files (sfs s) p).
    { apply (aw_final it FIndex (AIndex l)); [discriminate|]. exact (inv_temp s I it eq_refl (le_n _)). }
    assert (RI : read_index (sfs s1) = Some l) by (unfold read_index; now rewrite F).
    split; [|split; [|split]].
    + destruct I as [L B T D Tm Ix Fu Nm]. constructor; try assumption.
      * unfold layout_ok. rewrite F. exact L.
      * intros d f. rewrite F. apply B.
      * intros n Hn. unfold has. rewrite F. now apply Hd.
      * intros p Hp Hq. rewrite F. destruct (fpath_eqP p it) as [->|_]; [reflexivity|].
        destruct (fpath_eqP p FIndex) as [->|_]; [discriminate|]. apply Tm; [exact Hp|cbn in Hq; lia].
      * exists l. split; [exact RI|]. intros e Hin. apply shuffle_In in Hin. now apply (save_in_digs tags' digs').
      * exists l. split; [exact RI|]. intros r n. unfold l. rewrite shuffle_In. apply save_tagged.
    + intros _. exists l. split; [exact RI|]. intro e. apply shuffle_In.
    + apply (aw_atomic it). reflexivity.
    + intro d. now rewrite F.
  - destruct (Hw eq_refl) as [-> ->]. split; [|split; [|split]].
    + apply inv_files_eq; [exact I|reflexivity|lia].
    + intro A. exact A.
    + apply atomic_nil.
    + reflexivity.
Qed.

Lemma pub_stage s d cont :
  Inv s -> files (sfs s) (FBlob d) = None -> H cont = d ->
  let fs1 := apply (pub_steps (sfs s) d (sctr s) cont) (sfs s) in
  Inv (mkSt fs1 (stags s) (sdigs s) (sctr s)) /\
  forall p, files fs1 p = if fpath_eqb p (FBlob d) then Some (mkFile (map AChunk cont) true) else files (sfs s) p.
Proof.
  intros I Hnew HH fs1.
  pose proof (pub_files (sfs s) d (sctr s) cont (inv_temp s I (FIngest d (sctr s)) eq_refl (le_n _))) as F. fold fs1 in F.
  split; [|exact F]. apply inv_blobs; try exact I; try (now rewrite F).
  - intros d' f. rewrite F. cbn [fpath_eqb]. destruct (N.eqb_spec d' d) as [->|_]; [|apply (inv_blob s I)].
    intros [= <-]. now exists cont.
  - intros n Hn. unfold has. rewrite F. cbn [fpath_eqb]. destruct (n =? d); [discriminate|now apply (inv_digs s I)].
  - intros p Hp Hq. rewrite F. destruct p; try discriminate Hp; now apply (inv_temp s I).
Qed.

Lemma unlink_stage s d c' :
  Inv s -> (sctr s <= c')%nat -> ~ In d (sdigs s) ->
  let ms := if exists_file (sfs s) (FBlob d) then [Unlink (FBlob d)] else [] in
  let fs1 := apply ms (sfs s) in
  Inv (mkSt fs1 (stags s) (sdigs s) c') /\ atomic ms (sfs s) /\
  forall p, files fs1 p = if fpath_eqb p (FBlob d) then None else files (sfs s) p.
Proof.
  intros I Hc Hd ms fs1.
  assert (F : forall p, files fs1 p = if fpath_eqb p (FBlob d) then None else files (sfs s) p).
  { intro p. unfold fs1, ms, exists_file. destruct (files (sfs s) (FBlob d)) eqn:E; [reflexivity|].
    cbn. destruct (fpath_eqP p (FBlob d)) as [->|_]; [exact E|reflexivity]. }
  split; [|split; [|exact F]].
  - apply inv_blobs; try exact I; try (now rewrite F).
    + intros d' f. rewrite F. cbn [fpath_eqb]. destruct (d' =? d); [discriminate|apply (inv_blob s I)].
    + intros n Hn. unfold has. rewrite F. cbn [fpath_eqb].
      destruct (N.eqb_spec n d) as [->|_]; [contradiction|now apply (inv_digs s I)].
    + intros p Hp Hq. rewrite F. destruct p; try discriminate Hp; apply (inv_temp s I); cbn in *; auto; lia.
  - unfold ms. destruct (exists_file (sfs s) (FBlob d)); [apply atomic_one|apply atomic_nil].
Qed.

(* the steps [ms] take the quiescent state [s] to the quiescent state [s1], whose blobs are
   [bs], and every cut in between is recoverable *)
Definition safe_op (s : st) (ms : list mstep) (s1 : st) (bs : N -> bool) : Prop :=
  Inv s1 /\ (Agree s -> Agree s1) /\
  (forall d, exists_file (sfs s1) (FBlob d) = bs d) /\
  forall k, Recoverable H (sfs s) (apply (firstn k ms) (sfs s)) (sfs s1).

Lemma idx_op_safe s w tags' digs' :
  Inv s ->
  (forall r n, In (r, n) tags' -> In n digs') ->
  (forall n, In n digs' -> has (sfs s) (FBlob n)) ->
  (forall r n n', In (r, n) tags' -> In (r, n') tags' -> n = n') ->
  (w = false -> tags' = stags s /\ digs' = sdigs s) ->
  let ms := if w then idx_steps (sctr s) tags' digs' else [] in
  safe_op s ms (mkSt (apply ms (sfs s)) tags' digs' (S (sctr s))) (fun d => exists_file (sfs s) (FBlob d)).
Proof.
  intros I Ht Hd Hf Hw ms. destruct (idx_stage s w tags' digs' I Ht Hd Hf Hw) as (I1 & A1 & At & F).
  split; [exact I1|split; [exact A1|split]].
  - intro d. unfold exists_file. now rewrite F.
  - apply (recp_stage index_ok index_ok_nt); [exact At|now apply inv_good|exact (inv_good _ I1)].
Qed.

Lemma noop_safe s :
  Inv s ->
  safe_op s [] (mkSt (apply [] (sfs s)) (stags s) (sdigs s) (S (sctr s))) (fun d => exists_file (sfs s) (FBlob d)).
Proof.
  intro I. exact (idx_op_safe s false _ _ I (inv_tagdig s I) (inv_digs s I) (inv_fun s I)
                    (fun _ => conj eq_refl eq_refl)).
Qed.

Lemma push_bad_safe s d cont :
  Inv s ->
  let ms := drop_steps (sfs s) d (sctr s) cont in
  let s1 := mkSt (apply ms (sfs s)) (stags s) (sdigs s) (S (sctr s)) in
  safe_op s ms s1 (fun d' => exists_file (sfs s) (FBlob d')).
Proof.
  intros I ms s1.
  pose proof (drop_files (sfs s) d (sctr s) cont (inv_temp s I (FIngest d (sctr s)) eq_refl (le_n _))) as F.
  assert (I1 : Inv s1) by (apply inv_files_eq; [exact I|exact F|lia]).
  split; [exact I1|split; [now apply agree_index_eq|split]].
  - intro d'. unfold exists_file. cbn [sfs]. now rewrite F.
  - apply (recp_stage index_ok index_ok_nt); [apply drop_atomic|now apply inv_good|exact (inv_good _ I1)].
Qed.

(* Push of verified content: the blob, then (for a manifest) the index *)
Lemma push_good_safe s d cont (man : bool) :
  Inv s -> files (sfs s) (FBlob d) = None -> H cont = d ->
  let digs' := if man then dig_add d (sdigs s) else sdigs s in
  let ms := pub_steps (sfs s) d (sctr s) cont ++ (if man then idx_steps (sctr s) (stags s) digs' else []) in
  let s1 := mkSt (apply ms (sfs s)) (stags s) digs' (S (sctr s)) in
  safe_op s ms s1 (fun d' => if d' =? d then true else exists_file (sfs s) (FBlob d')).
Proof.
  intros I Hnew HH digs' ms s1. destruct (pub_stage s d cont I Hnew HH) as (IB & FB).
  set (sB := mkSt (apply (pub_steps (sfs s) d (sctr s) cont) (sfs s)) (stags s) (sdigs s) (sctr s)) in *.
  destruct (idx_stage sB man (stags s) digs' IB) as (I1 & A1 & At1 & F1).
  { intros r n Hin. unfold digs'. destruct man; [apply dig_add_incl|]; exact (inv_tagdig s I r n Hin). }
  { intros n Hin. unfold has. cbn [sfs sB]. rewrite FB. cbn [fpath_eqb].
    destruct (N.eqb_spec n d) as [->|Hn]; [discriminate|]. apply (inv_digs s I).
    unfold digs' in Hin. destruct man; [|exact Hin]. now apply dig_add_In in Hin as [->|Hin]. }
  { exact (inv_fun s I). }
  { intros ->. now split. }
  unfold s1, ms. rewrite apply_app. cbn [sfs sctr sB] in *.
  split; [exact I1|split; [|split]].
  - intro A. apply A1. apply (agree_index_eq s); [now rewrite FB|exact A].
  - intro d'. unfold exists_file. rewrite F1, FB. cbn [fpath_eqb]. now destruct (d' =? d).
  - apply (recp_stages index_ok index_ok_nt); [apply pub_atomic|exact At1|now apply inv_good| |exact (inv_good _ I1)].
    apply recp_between; [exact (inv_good _ IB)|left; unfold read_index; now rewrite FB|right; intro d'; now rewrite F1].
Qed.

Lemma delete_mem_same s d :
  existsb (fun e => snd e =? d) (stags s) || memN d (sdigs s) = false ->
  filter (fun e => negb (snd e =? d)) (stags s) = stags s /\ filter (fun x => negb (x =? d)) (sdigs s) = sdigs s.
Proof.
  intro Eu. apply orb_false_iff in Eu as [Eu1 Eu2]. split; apply filter_all_true.
  - intros e Hin. now rewrite (existsb_false _ _ Eu1 e Hin).
  - intros x Hin. rewrite N.eqb_sym. now rewrite (existsb_false _ _ Eu2 x Hin).
Qed.

(* Delete: the index (when a reference names d), then the blob *)
Lemma delete_safe s d :
  Inv s ->
  let tags' := filter (fun e => negb (snd e =? d)) (stags s) in
  let digs' := filter (fun x => negb (x =? d)) (sdigs s) in
  let IX := if existsb (fun e => snd e =? d) (stags s) || memN d (sdigs s)
            then idx_steps (sctr s) tags' digs' else [] in
  let UN := if exists_file (sfs s) (FBlob d) then [Unlink (FBlob d)] else [] in
  let s1 := mkSt (apply (IX ++ UN) (sfs s)) tags' digs' (S (sctr s)) in
  safe_op s (IX ++ UN) s1 (fun d' => if d' =? d then false else exists_file (sfs s) (FBlob d')).
Proof.
  intros I tags' digs' IX UN s1.
  assert (Ht' : forall r n, In (r, n) tags' -> In (r, n) (stags s) /\ n <> d).
  { intros r n Hin. apply filter_In in Hin as [Hin E]. split; [exact Hin|].
    cbn in E. apply negb_true_iff in E. now apply N.eqb_neq in E. }
  assert (Hd' : forall n, In n digs' <-> In n (sdigs s) /\ n <> d).
  { intro n. unfold digs'. now rewrite filter_In, negb_true_iff, N.eqb_neq. }
  destruct (idx_stage s (existsb (fun e => snd e =? d) (stags s) || memN d (sdigs s)) tags' digs' I)
    as (IM & AM & AtM & FM).
  { intros r n Hin. apply Ht' in Hin as [Hin Hn]. apply Hd'. split; [exact (inv_tagdig s I r n Hin)|exact Hn]. }
  { intros n Hin. apply (inv_digs s I). now apply Hd'. }
  { intros r n n' H1 H2. apply Ht' in H1 as [H1 _], H2 as [H2 _]. exact (inv_fun s I r n n' H1 H2). }
  { apply delete_mem_same. }
  fold IX in IM, AM, AtM, FM. set (sM := mkSt (apply IX (sfs s)) tags' digs' (S (sctr s))) in *.
  destruct (unlink_stage sM d (S (sctr s)) IM (le_n _)) as (I1 & AtU & FU).
  { intro Hin. now apply Hd' in Hin as [_ Hn]. }
  cbn [sfs stags sdigs sM] in I1, AtU, FU, FM.
  assert (EU : exists_file (apply IX (sfs s)) (FBlob d) = exists_file (sfs s) (FBlob d))
    by (unfold exists_file; now rewrite FM).
  rewrite EU in I1, AtU, FU. fold UN in I1, AtU, FU. unfold s1. rewrite apply_app. cbn [sfs].
  split; [exact I1|split; [|split]].
  - intro A. apply (agree_index_eq sM); [now rewrite FU|now apply AM].
  - intro d'. unfold exists_file. rewrite FU. cbn [fpath_eqb]. rewrite FM. now destruct (d' =? d).
  - apply (recp_stages index_ok index_ok_nt); [exact AtM|exact AtU|now apply inv_good| |exact (inv_good _ I1)].
    apply recp_between; [exact (inv_good _ IM)|right; unfold read_index; now rewrite FU|left; exact FM].
Qed.

Lemma push_steps au s d cont man :
  op_steps H shuffle false false au s (Push d cont man) =
  if exists_file (sfs s) (FBlob d) then []
  else if H cont =? d
       then pub_steps (sfs s) d (sctr s) cont ++
            (if man then auto_idx shuffle false au (sctr s) (stags s) (dig_add d (sdigs s)) else [])
       else drop_steps (sfs s) d (sctr s) cont.
Proof.
  unfold op_steps, pub_steps, drop_steps, ingest. cbn [op_mem].
  destruct (exists_file (sfs s) (FBlob d)); [reflexivity|].
  destruct (H cont =? d), man; cbn [negb app]; rewrite <- ?app_assoc; reflexivity.
Qed.

Lemma op_safe s o :
  Inv s -> safe_op s (steps s o) (runop s o) (spec_blobs_step H (fun x => exists_file (sfs s) (FBlob x)) o).
Proof.
  intro I. unfold run_op. destruct o as [d cont man|d r|r|d| |dd|live].
  - (* Push *)
    rewrite push_steps. cbn [op_mem spec_blobs_step].
    destruct (exists_file (sfs s) (FBlob d)) eqn:Ex; [exact (noop_safe s I)|].
    apply exists_file_false in Ex. destruct (H cont =? d) eqn:EH; cbn [negb].
    + apply N.eqb_eq in EH. destruct man; [exact (push_good_safe s d cont true I Ex EH)|exact (push_good_safe s d cont false I Ex EH)].
    + destruct man; exact (push_bad_safe s d cont I).
  - (* Tag *)
    unfold op_steps. cbn [op_mem spec_blobs_step].
    destruct (exists_file (sfs s) (FBlob d)) eqn:Ex; [|exact (noop_safe s I)].
    apply exists_file_has in Ex. apply (idx_op_safe s true); [exact I| | | |discriminate].
    + intros r' n Hin. apply tag_set_iff in Hin as [[_ ->]|[_ Hin]]; [apply dig_add_self|].
      apply dig_add_incl. exact (inv_tagdig s I r' n Hin).
    + intros n Hin. apply dig_add_In in Hin as [->|Hin]; [exact Ex|now apply (inv_digs s I)].
    + apply tag_set_fun. exact (inv_fun s I).
  - (* Untag *)
    unfold op_steps. cbn [op_mem spec_blobs_step].
    destruct (tag_get r (stags s)) as [x|]; [|exact (noop_safe s I)].
    apply (idx_op_safe s true); [exact I| |exact (inv_digs s I)| |discriminate].
    + intros r' n Hin. apply filter_In in Hin as [Hin _]. exact (inv_tagdig s I r' n Hin).
    + intros r' n n' H1 H2. apply filter_In in H1 as [H1 _], H2 as [H2 _]. exact (inv_fun s I r' n n' H1 H2).
  - (* Delete *)
    unfold op_steps. cbn [op_mem spec_blobs_step]. exact (delete_safe s d I).
  - (* SaveIndex *)
    apply (idx_op_safe s true); [exact I|exact (inv_tagdig s I)|exact (inv_digs s I)|exact (inv_fun s I)|discriminate].
  - (* TagDig *)
    unfold op_steps. cbn [op_mem spec_blobs_step].
    destruct (exists_file (sfs s) (FBlob dd)) eqn:Ex; [|exact (noop_safe s I)].
    apply exists_file_has in Ex. apply (idx_op_safe s true); [exact I| | |exact (inv_fun s I)|discriminate].
    + intros r' n Hin. apply dig_add_incl. exact (inv_tagdig s I r' n Hin).
    + intros n Hin. apply dig_add_In in Hin as [->|Hin]; [exact Ex|now apply (inv_digs s I)].
  - (* Forget *)
    apply (idx_op_safe s true); [exact I| | |exact (inv_fun s I)|discriminate].
    + intros r n Hin. apply filter_In. split; [exact (inv_tagdig s I r n Hin)|].
      apply orb_true_iff. right. apply existsb_exists. exists (r, n). split; [exact Hin|apply N.eqb_refl].
    + intros n Hin. apply filter_In in Hin as [Hin _]. now apply (inv_digs s I).
Qed.

Lemma tag_get_none r tags : tag_get r tags = None -> forall n, ~ In (r, n) tags.
Proof.
  unfold tag_get. destruct (find (fun e => fst e =? r) tags) eqn:E; [discriminate|].
  intros _ n Hin. pose proof (find_none _ _ E (r, n) Hin) as X. cbn in X.
  rewrite N.eqb_refl in X. discriminate.
Qed.

Lemma op_tags s o r n :
  In (r, n) (stags (runop s o)) <->
  match o with
  | Tag d r' => if exists_file (sfs s) (FBlob d)
                then (r = r' /\ n = d) \/ (r <> r' /\ In (r, n) (stags s)) else In (r, n) (stags s)
  | Untag r' => r <> r' /\ In (r, n) (stags s)
  | Delete d => n <> d /\ In (r, n) (stags s)
  | _ => In (r, n) (stags s)
  end.
Proof.
  unfold run_op. destruct o as [d cont man|d r'|r'|d| |dd|live]; cbn [op_mem].
  - destruct (exists_file _ _); [reflexivity|]. destruct (negb _); [reflexivity|]. now destruct man.
  - destruct (exists_file _ _); [apply tag_set_iff|reflexivity].
  - destruct (tag_get r' (stags s)) eqn:Eg; cbn [stags].
    + unfold tag_del. rewrite filter_In. cbn [fst]. rewrite negb_true_iff, N.eqb_neq. tauto.
    + split; [intro Hin; split; [intros ->; exact (tag_get_none _ _ Eg n Hin)|exact Hin]|now intros [_ Hin]].
  - cbn [stags]. rewrite filter_In. cbn [snd]. rewrite negb_true_iff, N.eqb_neq. tauto.
  - reflexivity.
  - now destruct (exists_file _ _).
  - reflexivity.
Qed.

Lemma blob_from_op s o d :
  Inv s -> exists_file (sfs (runop s o)) (FBlob d) = true ->
  exists_file (sfs s) (FBlob d) = true \/ (exists c m, o = Push d c m /\ H c = d).
Proof.
  intros I Hx. destruct (op_safe s o I) as (_ & _ & E & _). rewrite E in Hx.
  destruct o as [d' c m|d' r|r|d'| |dd|live]; cbn in Hx; try (now left).
  - destruct (exists_file (sfs s) (FBlob d')) eqn:Ex; [now left|].
    destruct (H c =? d') eqn:Eh; [|now left].
    destruct (d =? d') eqn:Ed; [|now left].
    apply N.eqb_eq in Ed. subst d'. apply N.eqb_eq in Eh. right. now exists c, m.
  - destruct (d =? d'); [discriminate|now left].
Qed.

Lemma tag_from_op s o d r :
  In (r, d) (stags (runop s o)) -> In (r, d) (stags s) \/ o = Tag d r.
Proof.
  intro Hin. apply op_tags in Hin. destruct o; try tauto. destruct (exists_file _ _); [|tauto].
  destruct Hin as [[-> ->]|[_ Hin]]; [now right|now left].
Qed.

Lemma inv_init : Inv init.
Proof.
  constructor; cbn.
  - eexists. split; reflexivity.
  - intros d f Hf. discriminate.
  - intros r n [].
  - intros n [].
  - intros p Hp _. destruct p; try discriminate; reflexivity.
  - exists []. split; [reflexivity|]. intros e [].
  - intros r n n' [].
  - exists []. split; [reflexivity|]. intros r n. cbn. tauto.
Qed.

Lemma agree_init : Agree init.
Proof. exists []. split; [reflexivity|]. intro e. cbn. tauto. Qed.

Lemma inv_run h : forall s, Inv s -> Inv (run H shuffle false false true h s).
Proof.
  induction h as [|o h IH]; intros s I; [exact I|].
  cbn [run fold_left]. apply IH. now apply op_safe.
Qed.

Lemma agree_run h : forall s, Inv s -> Agree s -> Agree (run H shuffle false false true h s).
Proof.
  induction h as [|o h IH]; intros s I A; [exact A|].
  cbn [run fold_left]. destruct (op_safe s o I) as (I1 & A1 & _). apply IH; [exact I1|now apply A1].
Qed.

Theorem crash_safe h o k :
  let s := run H shuffle false false true h init in
  Recoverable H (sfs s) (crash_fs H shuffle false false true s o k) (sfs (run_op H shuffle false false true s o)).
Proof. intro s. apply op_safe. apply inv_run. apply inv_init. Qed.

Lemma rec_same_tags fs0 fsk fs1 :
  Recoverable H fs0 fsk fs1 -> same_tags fsk fs0 \/ same_tags fsk fs1.
Proof.
  intros (_ & _ & (l & Hl & _) & R & _). destruct R as [R|R]; [left|right];
    exists l, l; rewrite <- R; repeat split; auto.
Qed.

Corollary crash_tags_before_or_after h o k :
  let s := run H shuffle false false true h init in
  let fsk := crash_fs H shuffle false false true s o k in
  same_tags fsk (sfs s) \/ same_tags fsk (sfs (run_op H shuffle false false true s o)).
Proof. intros s fsk. apply rec_same_tags. apply crash_safe. Qed.

(* completed operations: the directory refines the sequential specification *)
Definition Rel (s : st) (bs : N -> bool) (tg : N -> option N) : Prop :=
  (forall d, exists_file (sfs s) (FBlob d) = bs d) /\
  (forall r n, In (r, n) (stags s) <-> tg r = Some n).

Lemma spec_blobs_ext f g o d' :
  (forall x, f x = g x) -> spec_blobs_step H f o d' = spec_blobs_step H g o d'.
Proof.
  intro E. destruct o; cbn; try apply E.
  - rewrite (E d). destruct (g d); [apply E|]. destruct (H c =? d); [|apply E].
    destruct (d' =? d); [reflexivity|apply E].
  - destruct (d' =? d); [reflexivity|apply E].
Qed.

Lemma rel_step s o bs tg :
  Inv s -> Rel s bs tg -> Rel (runop s o) (spec_blobs_step H bs o) (spec_tags_step bs tg o).
Proof.
  intros I [Rb Rt]. split.
  - intro d'. destruct (op_safe s o I) as (_ & _ & E & _). rewrite E.
    apply spec_blobs_ext. exact Rb.
  - intros r' n. rewrite op_tags. destruct o as [d cont man|d r|r|d| |dd|live]; cbn [spec_tags_step]; try apply Rt.
    + rewrite <- (Rb d). destruct (exists_file (sfs s) (FBlob d)); [|apply Rt].
      destruct (N.eqb_spec r' r) as [->|Hn]; [|rewrite <- Rt; tauto].
      split; [intros [[_ ->]|[F _]]; [reflexivity|contradiction]|intros [= <-]; left; now split].
    + destruct (N.eqb_spec r' r) as [->|Hn]; [|rewrite <- Rt; tauto].
      split; [intros [F _]; contradiction|discriminate].
    + rewrite Rt. destruct (tg r') as [m|]; [|split; [intros [_ F]; discriminate|discriminate]].
      destruct (N.eqb_spec m d) as [->|Hn]; split; try discriminate.
      * intros [F [= ->]]. contradiction.
      * now intros [_ E].
      * intros [= <-]. now split.
Qed.

Lemma rel_run h : forall s bs tg,
  Inv s -> Rel s bs tg ->
  Rel (run H shuffle false false true h s) (fst (spec_run H h bs tg)) (snd (spec_run H h bs tg)).
Proof.
  induction h as [|o h IH]; intros s bs tg I R; [exact R|].
  cbn [run fold_left spec_run]. apply IH; [now apply op_safe|now apply rel_step].
Qed.

Theorem completed_effects h :
  let s := run H shuffle false false true h init in
  let bs := fst (spec_run H h (fun _ => false) (fun _ => None)) in
  let tg := snd (spec_run H h (fun _ => false) (fun _ => None)) in
  (forall d, exists_file (sfs s) (FBlob d) = bs d) /\
  exists l, read_index (sfs s) = Some l /\ forall r n, tag_of l r n <-> tg r = Some n.
Proof.
  intros s bs tg.
  assert (R0 : Rel init (fun _ => false) (fun _ => None)).
  { split; [reflexivity|]. intros r n. cbn. split; [contradiction|discriminate]. }
  destruct (rel_run h init _ _ inv_init R0) as [Rb Rt]. fold s in Rb, Rt. fold bs in Rb. fold tg in Rt.
  split; [exact Rb|].
  destruct (agree_run h init inv_init agree_init) as (l & Hl & He). fold s in Hl, He.
  exists l. split; [exact Hl|]. intros r n. unfold tag_of. rewrite He, save_tagged. apply Rt.
Qed.

(* The kinds of steps an operation issues: create / write / chmod / close only ever target a
   temporary named by the current counter; the files a reader looks at change by rename and
   unlink alone *)
Definition own_temp (c : nat) (p : fpath) : Prop := is_temp p = true /\ temp_ctr p = c.

Definition step_kind (c : nat) (m : mstep) : Prop :=
  match m with
  | Mkdir _ => True
  | Create p | Write p _ | Chmod p | Close p => own_temp c p
  | Rename p q => own_temp c p /\ is_temp q = false
  | Unlink p => own_temp c p \/ is_temp p = false
  | OpenTrunc _ => False
  end.

Lemma kind_ingest c fs d t cont : own_temp c t -> Forall (step_kind c) (ingest fs d t cont).
Proof.
  intro Ht. apply Forall_app. split.
  - unfold mkdirs. destruct (dirs fs _), (dirs fs _); repeat constructor.
  - constructor; [exact Ht|]. apply Forall_forall. intros m Hin.
    apply in_map_iff in Hin as (x & <- & _). exact Ht.
Qed.

Lemma kind_aw c t q a : own_temp c t -> is_temp q = false -> Forall (step_kind c) (atomic_write t q a).
Proof. intros Ht Hq. repeat constructor; (exact Hq || apply Ht). Qed.

Lemma op_steps_kind au s o : Forall (step_kind (sctr s)) (op_steps H shuffle false false au s o).
Proof.
  assert (IX : forall tags digs, Forall (step_kind (sctr s)) (auto_idx shuffle false au (sctr s) tags digs))
    by (intros; destruct au; [now apply kind_aw|constructor]).
  destruct o as [d cont man|d r|r|d| |dd|live]; [rewrite push_steps|unfold op_steps; cbn [op_mem]..].
  - assert (Ht : own_temp (sctr s) (FIngest d (sctr s))) by now split.
    pose proof (kind_ingest _ (sfs s) d _ cont Ht) as Ig.
    destruct (exists_file _ _); [constructor|]. unfold pub_steps, drop_steps.
    destruct (H cont =? d); rewrite !Forall_app; repeat split; try exact Ig; repeat constructor; try apply Ht.
    destruct man; [apply IX|constructor].
  - destruct (exists_file _ _); [apply IX|constructor].
  - destruct (tag_get _ _); [apply IX|constructor].
  - apply Forall_app. split; [destruct (_ || _); [apply IX|constructor]|].
    destruct (exists_file _ _); [|constructor]. constructor; [now right|constructor].
  - now apply kind_aw.
  - destruct (exists_file _ _); [apply IX|constructor].
  - apply IX.
Qed.

Lemma kind_touch c m p : step_kind c m -> touches m p -> is_temp p = true -> temp_ctr p = c.
Proof. destruct m; cbn; unfold own_temp; intros K T Hp; intuition (subst; congruence). Qed.

(* leftovers and future temporaries are out of an operation's reach *)
Lemma kind_frame c ms fs k p : Forall (step_kind c) ms -> is_temp p = true -> temp_ctr p <> c ->
  files (apply (firstn k ms) fs) p = files fs p.
Proof.
  intros K Hp Hc. apply apply_frame. intros m Hin Ht. apply In_firstn in Hin.
  exact (Hc (kind_touch c m p (proj1 (Forall_forall _ _) K m Hin) Ht Hp)).
Qed.

Lemma load_digs l : forall tags digs n,
  In n (snd (load l tags digs)) <-> In n digs \/ exists r, In (n, r) l.
Proof.
  induction l as [|[x o] l IH]; intros tags digs n.
  - cbn. split; [now left|intros [Hn|(r & [])]; exact Hn].
  - assert (E : In n (snd (load ((x, o) :: l) tags digs)) <-> In n (dig_add x digs) \/ exists r, In (n, r) l)
      by (destruct o; apply IH).
    rewrite E. split.
    + intros [Hn|(r & Hr)]; [|right; exists r; now right].
      apply dig_add_In in Hn as [->|Hn]; [right; exists o; now left|now left].
    + intros [Hn|(r & [[= <- <-]|Hr])]; [left; now apply dig_add_incl|left; apply dig_add_self|right; now exists r].
Qed.

(* with one blob per reference name in the index (and in the resolver so far, where the two
   overlap), loadIndex adds exactly the named entries *)
Lemma load_named l : forall tags digs,
  (forall r n n', In (n, Some r) l -> In (n', Some r) l -> n = n') ->
  (forall r n n', In (r, n) tags -> In (n', Some r) l -> n = n') ->
  forall r n, In (r, n) (fst (load l tags digs)) <-> In (n, Some r) l \/ In (r, n) tags.
Proof.
  induction l as [|[x [r0|]] l IH]; intros tags digs Hf Hc r n; cbn [load].
  - cbn. split; [now right|intros [[]|Hin]; exact Hin].
  - rewrite IH, tag_set_iff.
    + cbn [In]. split.
      * intros [Hin|[[-> ->]|[_ Hin]]]; auto.
      * intros [[E|Hin]|Hin]; [injection E as <- <-; auto|auto|].
        destruct (N.eq_dec r r0) as [->|Hn]; [|auto].
        right. left. split; [reflexivity|]. apply (Hc r0 n x Hin). now left.
    + intros r1 n1 n2 H1 H2. apply (Hf r1); now right.
    + intros r1 n1 n2 H1 H2. apply tag_set_iff in H1 as [[-> ->]|[_ H1]].
      * apply (Hf r0); [now left|now right].
      * apply (Hc r1 n1 n2 H1). now right.
  - rewrite IH.
    + cbn [In]. split; [intros [Hin|Hin]; auto|intros [[E|Hin]|Hin]; [discriminate|auto|auto]].
    + intros r1 n1 n2 H1 H2. apply (Hf r1); now right.
    + intros r1 n1 n2 H1 H2. apply (Hc r1 n1 n2 H1). now right.
Qed.

Lemma load_digs0 l n : In n (snd (load l [] [])) <-> exists r, In (n, r) l.
Proof. rewrite load_digs. split; [intros [[]|X]; exact X|now right]. Qed.

Lemma load_named0 l :
  (forall r n n', In (n, Some r) l -> In (n', Some r) l -> n = n') ->
  forall r n, In (r, n) (fst (load l [] [])) <-> In (n, Some r) l.
Proof.
  intros Hf r n. rewrite (load_named l [] [] Hf); [|intros r0 n0 n' []]. split; [intros [X|[]]; exact X|now left].
Qed.

(* oci.New on a directory a reader accepts whose index names one blob per reference *)
Lemma inv_reopen fs c l :
  layout_ok fs -> blob_ok H fs -> read_index fs = Some l ->
  (forall e, In e l -> has fs (FBlob (fst e))) ->
  (forall r n n', In (n, Some r) l -> In (n', Some r) l -> n = n') ->
  (forall p, is_temp p = true -> (c <= temp_ctr p)%nat -> files fs p = None) ->
  Inv (reopen fs c).
Proof.
  intros L B Hl He Hfl Tm. unfold reopen. rewrite Hl.
  constructor; cbn [sfs stags sdigs sctr]; try assumption.
  - intros r n Hin. apply load_digs0. exists (Some r). now apply load_named0 in Hin.
  - intros n Hin. apply load_digs0 in Hin as (r & Hin). exact (He (n, r) Hin).
  - exists l. split; [exact Hl|]. intros [n r] Hin. apply load_digs0. now exists r.
  - intros r n n' H1 H2. apply load_named0 in H1, H2; try exact Hfl. exact (Hfl r n n' H1 H2).
  - exists l. split; [exact Hl|]. intros r n. symmetry. now apply load_named0.
Qed.

Lemma inv_index_fun s l : Inv s -> read_index (sfs s) = Some l ->
  forall r n n', In (n, Some r) l -> In (n', Some r) l -> n = n'.
Proof.
  intros I Hl r n n' H1 H2. destruct (inv_named s I) as (l0 & Hl0 & Hn). rewrite Hl in Hl0.
  injection Hl0 as <-. apply Hn in H1, H2. exact (inv_fun s I r n n' H1 H2).
Qed.

Lemma reopen_inv s o k :
  Inv s -> Inv (reopen (crash_fs H shuffle false false true s o k) (S (sctr s))).
Proof.
  intro I. destruct (op_safe s o I) as (I1 & _ & _ & R).
  destruct (R k) as (L & B & (l & Hl & He) & RI & _).
  apply (inv_reopen _ _ l); try assumption.
  - rewrite Hl in RI.
    destruct RI as [RI|RI]; symmetry in RI; [exact (inv_index_fun s l I RI)|exact (inv_index_fun _ l I1 RI)].
  - intros p Hp Hq. unfold crash_fs.
    rewrite (kind_frame (sctr s)); [apply (inv_temp s I p Hp); lia|apply op_steps_kind|exact Hp|lia].
Qed.

Lemma inv_run_hop s x : Inv s -> Inv (run_hop H shuffle false false true s x).
Proof. intro I. destruct x as [o|o k]; cbn [run_hop]; [now apply op_safe|now apply reopen_inv]. Qed.

Lemma inv_runc h : forall s, Inv s -> Inv (runc H shuffle false false true h s).
Proof.
  induction h as [|x h IH]; intros s I; [exact I|].
  cbn [runc fold_left]. apply IH. now apply inv_run_hop.
Qed.

(* after any history in which operations completed or were interrupted at any cut (the
   store being reopened after each crash), the next operation is crash-safe again *)
Theorem crash_safe_recovered (h : list hop) o k :
  let s := runc H shuffle false false true h init in
  Recoverable H (sfs s) (crash_fs H shuffle false false true s o k) (sfs (run_op H shuffle false false true s o)).
Proof. intro s. apply op_safe. apply inv_runc. apply inv_init. Qed.

(* nothing that stays is ever written in place, so the granularity of write(2) (torn or partial
   writes) cannot matter *)
Definition in_place_free (m : mstep) : Prop :=
  match m with
  | Create p | OpenTrunc p | Write p _ | Chmod p => is_temp p = true
  | _ => True
  end.

Theorem no_in_place_write s o m : In m (steps s o) -> in_place_free m.
Proof.
  intro Hin. pose proof (proj1 (Forall_forall _ _) (op_steps_kind true s o) m Hin) as K.
  destruct m; cbn in *; try exact I; try apply K. destruct K.
Qed.

(* One API call = several primitive operations in a row (Delete+AutoGC, GC):
   a cut of the concatenated micro-steps is a cut of ONE of the primitives, taken in the
   quiescent state the earlier primitives of the same call left behind *)
Lemma sfs_run_op s o : sfs (runop s o) = apply (steps s o) (sfs s).
Proof. unfold run_op. destruct (op_mem H s o). reflexivity. Qed.

Lemma seq_cut os : forall s k,
  (exists pre o post k', os = pre ++ o :: post /\ cutseq s os k = cutop (runs pre s) o k') \/
  cutseq s os k = sfs (runs os s).
Proof.
  induction os as [|o os IH]; intros s k.
  - right. unfold crash_seq. cbn. now rewrite firstn_nil.
  - unfold crash_seq. cbn [steps_seq].
    destruct (firstn_app_cases k (steps s o) (steps_seq H shuffle false false true (runop s o) os)) as [[E _]|(k' & E)].
    + left. exists [], o, os, k. split; [reflexivity|]. rewrite E. reflexivity.
    + rewrite E, apply_app, <- sfs_run_op.
      destruct (IH (runop s o) k') as [(pre & o' & post & k'' & Eq & Ec)|Ef].
      * left. exists (o :: pre), o', post, k''. split; [now rewrite Eq|exact Ec].
      * right. exact Ef.
Qed.

(* every cut of a composite call: the directory is a crash state of one primitive [o] of the
   call, between the quiescent states before and after [o]; both are reached by completed
   primitives only *)
Lemma composite_safe s os k :
  Inv s ->
  (exists pre o post,
     os = pre ++ o :: post /\
     Recoverable H (sfs (runs pre s)) (cutseq s os k) (sfs (runop (runs pre s) o))) \/
  (cutseq s os k = sfs (runs os s) /\ Good (cutseq s os k)).
Proof.
  intro I. destruct (seq_cut os s k) as [(pre & o & post & k' & Eq & ->)|Ef].
  - left. exists pre, o, post. split; [exact Eq|]. apply op_safe. now apply inv_run.
  - right. split; [exact Ef|]. rewrite Ef. apply inv_good. now apply inv_run.
Qed.

Lemma inv_runc_init h : Inv (runC h init).
Proof. apply inv_runc, inv_init. Qed.

Theorem crash_safe_composite (h : list hop) (os : list op) k :
  let s := runc H shuffle false false true h init in
  let fsk := crash_seq H shuffle false false true s os k in
  (exists pre o post,
     os = pre ++ o :: post /\
     let sj := run H shuffle false false true pre s in
     Recoverable H (sfs sj) fsk (sfs (run_op H shuffle false false true sj o))) \/
  (fsk = sfs (run H shuffle false false true os s) /\ Good fsk).
Proof. intros s fsk. apply composite_safe, inv_runc_init. Qed.

Corollary crash_composite_good (h : list hop) (os : list op) k :
  Good (crash_seq H shuffle false false true (runc H shuffle false false true h init) os k).
Proof.
  destruct (crash_safe_composite h os k) as [(pre & o & post & _ & (L & B & Ix & _))|[_ G]].
  - exact (conj L (conj B Ix)).
  - exact G.
Qed.

Lemma shuffle_nil c : shuffle c [] = [].
Proof.
  destruct (shuffle c []) as [|e l] eqn:E; [reflexivity|]. exfalso.
  apply (shuffle_In c [] e). rewrite E. now left.
Qed.

Definition lay_part (fs : FS) (c : nat) : list mstep :=
  if exists_file fs FLayout then [] else layout_steps false c.
Definition idx_part (fs : FS) (c : nat) : list mstep :=
  if exists_file fs FIndex then []
  else [Create (FIndexTmp c); Write (FIndexTmp c) (AIndex []); Close (FIndexTmp c); Rename (FIndexTmp c) FIndex].

Lemma new_steps_eq fs c :
  new_steps shuffle false false fs c =
  (if dirs fs DBlobs then [] else [Mkdir DBlobs]) ++ lay_part fs c ++ idx_part fs c.
Proof. unfold new_steps, index_steps. cbn [save map filter app]. now rewrite shuffle_nil. Qed.

Lemma new_steps_kind fs c : Forall (step_kind c) (new_steps shuffle false false fs c).
Proof.
  rewrite new_steps_eq. unfold lay_part, idx_part.
  destruct (dirs fs DBlobs), (exists_file fs FLayout), (exists_file fs FIndex);
    repeat (apply Forall_app; split); repeat constructor.
Qed.

(* a directory in the middle of (re-)initialisation: no blobs yet; oci-layout and index.json
   each absent or complete; temporaries of future attempts do not exist *)
Definition InitNT (fs : FS) : Prop :=
  (forall d, files fs (FBlob d) = None) /\
  (files fs FLayout = None \/ files fs FLayout = Some (mkFile [ALayout] false)) /\
  (files fs FIndex = None \/ files fs FIndex = Some (mkFile [AIndex []] false)).
Definition InitOK (fs : FS) (c : nat) : Prop :=
  InitNT fs /\ forall p, is_temp p = true -> (c <= temp_ctr p)%nat -> files fs p = None.

Lemma initnt_nt a c : nt_eq a c -> InitNT a -> InitNT c.
Proof.
  intros E (B & L & X). unfold InitNT. rewrite <- (E FLayout eq_refl), <- (E FIndex eq_refl).
  repeat split; auto. intro d. rewrite <- (E (FBlob d) eq_refl). apply B.
Qed.

Lemma initok_new_ok fs c : InitOK fs c -> new_okb fs = true.
Proof.
  intros ((_ & [L|L] & [X|X]) & _); unfold new_okb, exists_file, layout_okb, read_index; rewrite L, X; reflexivity.
Qed.

Lemma apply_dirs ms : forall fs, (forall m, In m ms -> forall d, m <> Mkdir d) -> dirs (apply ms fs) = dirs fs.
Proof.
  induction ms as [|m ms IH]; intros fs Hm; [reflexivity|].
  rewrite apply_cons, IH by (intros m' Hin; apply Hm; now right).
  pose proof (Hm m (or_introl eq_refl)) as Hm0.
  destruct m; cbn; try destruct (files fs _); try reflexivity. now destruct (Hm0 d).
Qed.

(* oci-layout or index.json (q) is written through the temporary t when it does not exist;
   [fs0]: the directory as oci.New found it *)
Lemma init_piece fs0 fs t q a :
  files fs0 q = files fs q -> InitNT fs -> is_temp t = true -> files fs t = None ->
  (q = FLayout /\ a = ALayout \/ q = FIndex /\ a = AIndex []) ->
  let ms := if exists_file fs0 q then [] else atomic_write t q a in
  atomic ms fs /\ InitNT (apply ms fs) /\ files (apply ms fs) q <> None /\
  (forall p, p <> q -> p <> t -> files (apply ms fs) p = files fs p) /\ dirs (apply ms fs) = dirs fs.
Proof.
  intros E0 (B & L & X) Ht Hn Hq ms. unfold ms, exists_file. rewrite E0. destruct (files fs q) eqn:Eq.
  - split; [apply atomic_nil|]. split; [now split|]. split; [cbn; congruence|split; reflexivity].
  - assert (Htq : t <> q) by (intros ->; destruct Hq as [[-> _]|[-> _]]; discriminate).
    pose proof (aw_final t q a fs Htq Hn) as F. split; [now apply aw_atomic|].
    assert (Fnt : forall p, is_temp p = false -> files (apply (atomic_write t q a) fs) p =
                              if fpath_eqb p q then Some (mkFile [a] false) else files fs p).
    { intros p Hp. rewrite F. destruct (fpath_eqP p t) as [->|_]; [congruence|reflexivity]. }
    split; [|split; [|split]].
    + destruct Hq as [[-> ->]|[-> ->]]; (split; [intro d|split]); rewrite Fnt by reflexivity; cbn; auto.
    + rewrite F, fpath_eqb_refl. destruct (fpath_eqP q t); [congruence|discriminate].
    + intros p Hpq Hpt. rewrite F. destruct (fpath_eqP p t), (fpath_eqP p q); congruence.
    + apply apply_dirs. intros m [<-|[<-|[<-|[<-|[]]]]] d; discriminate.
Qed.

(* one attempt of oci.New on a directory in the middle of initialisation: cut anywhere it leaves
   such a directory, and run to completion the initialised layout *)
Lemma init_run fs c :
  InitOK fs c ->
  let ms := new_steps shuffle false false fs c in
  (forall k, InitOK (apply (firstn k ms) fs) (S c)) /\
  files (apply ms fs) FLayout = Some (mkFile [ALayout] false) /\
  files (apply ms fs) FIndex = Some (mkFile [AIndex []] false) /\ dirs (apply ms fs) DBlobs = true.
Proof.
  intros [N T] ms. pose proof (new_steps_kind fs c) as K. fold ms in K. unfold ms in *. clear ms.
  rewrite new_steps_eq in *.
  set (A := if dirs fs DBlobs then [] else [Mkdir DBlobs]) in *. set (fsA := apply A fs).
  assert (FA : forall p, files fsA p = files fs p) by (intro p; unfold fsA, A; now destruct (dirs fs DBlobs)).
  assert (DA : dirs fsA DBlobs = true) by (unfold fsA, A; now destruct (dirs fs DBlobs) eqn:E).
  assert (NA : InitNT fsA) by (now apply (initnt_nt fs)).
  destruct (init_piece fs fsA (FLayoutTmp c) FLayout ALayout) as (AtL & NL & PL & FL & DL);
    [now rewrite FA|exact NA|reflexivity|rewrite FA; now apply T|now left|].
  change (if exists_file fs FLayout then [] else _) with (lay_part fs c) in AtL, NL, PL, FL, DL. set (fsL := apply (lay_part fs c) fsA) in *.
  destruct (init_piece fs fsL (FIndexTmp c) FIndex (AIndex [])) as (AtX & NX & PX & FX & DX);
    [rewrite FL, FA by discriminate; reflexivity|exact NL|reflexivity| |now right|].
  { rewrite FL, FA by discriminate. now apply T. }
  change (if exists_file fs FIndex then [] else _) with (idx_part fs c) in AtX, NX, PX, FX, DX. set (fsX := apply (idx_part fs c) fsL) in *.
  split; [|rewrite !apply_app; fold fsA fsL fsX; split; [|split]].
  - intro k. split.
    + apply (cuts_app InitNT); [|apply cuts_app]; apply (cuts_atomic InitNT _ _ initnt_nt); try assumption.
      unfold A. destruct (dirs fs DBlobs); [apply atomic_nil|apply atomic_one].
    + intros p Hp Hq. rewrite (kind_frame c); [apply T; [exact Hp|lia]|exact K|exact Hp|lia].
  - rewrite FX by discriminate. destruct NL as (_ & [E|E] & _); [contradiction|exact E].
  - destruct NX as (_ & _ & [E|E]); [contradiction|exact E].
  - now rewrite DX, DL.
Qed.

Lemma initok_empty : InitOK empty_fs 0.
Proof. repeat split; auto. Qed.

(* any number of interrupted attempts: the directory never makes oci.New fail, and the first
   attempt that completes gives the initialised layout *)
Theorem init_restartable_many ks :
  let fs := fst (init_attempts shuffle false false ks empty_fs 0) in
  let c := snd (init_attempts shuffle false false ks empty_fs 0) in
  let fs' := apply (new_steps shuffle false false fs c) fs in
  new_okb fs = true /\
  files fs' FLayout = Some (mkFile [ALayout] false) /\
  files fs' FIndex = Some (mkFile [AIndex []] false) /\
  (forall d, files fs' (FBlob d) = None) /\ dirs fs' DBlobs = true.
Proof.
  assert (G : forall ks fs c, InitOK fs c ->
              InitOK (fst (init_attempts shuffle false false ks fs c)) (snd (init_attempts shuffle false false ks fs c))).
  { induction ks0 as [|k ks0 IH]; intros fs c I0; [exact I0|].
    cbn [init_attempts]. apply IH. now apply init_run. }
  intros fs c fs'. pose proof (G ks empty_fs 0%nat initok_empty) as IK. fold fs c in IK.
  destruct (init_run fs c IK) as (Cut & L & X & D).
  pose proof (Cut (length (new_steps shuffle false false fs c))) as ((B & _) & _). rewrite firstn_all in B.
  repeat split; try assumption. exact (initok_new_ok fs c IK).
Qed.

(* the first New is cut anywhere; the second New runs to completion *)
Theorem init_restartable k :
  let fsk := apply (firstn k (new_steps shuffle false false empty_fs 0)) empty_fs in
  let fs2 := apply (new_steps shuffle false false fsk 1) fsk in
  new_okb fsk = true /\
  layout_okb fs2 = true /\ read_index fs2 = Some [] /\ dirs fs2 DBlobs = true /\
  forall d, files fs2 (FBlob d) = None.
Proof.
  intros fsk fs2. destruct (init_restartable_many [k]) as (N & L & X & B & D).
  cbn [init_attempts fst snd] in N, L, X, B, D. fold fsk in N, L, X, B, D. fold fs2 in L, X, B, D.
  unfold layout_okb, read_index. rewrite L, X. repeat split; assumption.
Qed.

(* calls that only remove (Delete cascades, GC): blobs lie between start and end *)
Definition shrinking (o : op) : Prop :=
  match o with Delete _ | Forget _ | SaveIndex => True | _ => False end.

Lemma shrinking_step s o d :
  Inv s -> shrinking o -> has (sfs (runop s o)) (FBlob d) -> has (sfs s) (FBlob d).
Proof.
  intros I Ho Hh. apply exists_file_has. apply exists_file_has in Hh.
  destruct (blob_from_op s o d I Hh) as [Hx|(c & m & -> & _)]; [exact Hx|destruct Ho].
Qed.

Lemma shrinking_run os : forall s d,
  Inv s -> Forall shrinking os -> has (sfs (runs os s)) (FBlob d) -> has (sfs s) (FBlob d).
Proof.
  induction os as [|o os IH]; intros s d I Hs Hh; [exact Hh|]. apply Forall_cons_iff in Hs as [Ho Hs].
  apply (shrinking_step s o d I Ho). apply IH; [now apply op_safe|exact Hs|exact Hh].
Qed.

Theorem crash_shrinking_between (h : list hop) (os : list op) k :
  (forall o, In o os -> shrinking o) ->
  let s := runc H shuffle false false true h init in
  let fsk := crash_seq H shuffle false false true s os k in
  let fs1 := sfs (run H shuffle false false true os s) in
  (forall d, has (sfs s) (FBlob d) -> has fs1 (FBlob d) -> has fsk (FBlob d)) /\
  (forall d, has fsk (FBlob d) -> has (sfs s) (FBlob d)).
Proof.
  intros Hs s fsk fs1. pose proof (inv_runc_init h) as I. fold s in I. apply Forall_forall in Hs.
  destruct (composite_safe s os k I) as [(pre & o & post & Eq & R)|[Ef _]]; fold fsk in R || fold fsk in Ef.
  - rewrite Eq in Hs. apply Forall_app in Hs as [Hpre Hs]. apply Forall_cons_iff in Hs as [Ho Hpost].
    set (sj := runs pre s) in *. assert (Ij : Inv sj) by now apply inv_run.
    assert (E1 : fs1 = sfs (runs post (runop sj o))).
    { unfold fs1, run. rewrite Eq, fold_left_app. reflexivity. }
    destruct R as (_ & _ & _ & _ & P1 & P2). split.
    + (* present at the end => present at every earlier quiescent state *)
      intros d H0 H1. rewrite E1 in H1. apply (shrinking_run post) in H1; [|now apply op_safe|exact Hpost].
      apply P1; [now apply (shrinking_step sj o)|exact H1].
    + intros d Hk. apply (shrinking_run pre s d I Hpre).
      apply P2 in Hk as [Hk|Hk]; [exact Hk|now apply (shrinking_step sj o)].
  - rewrite Ef. split; [auto|]. intro d. now apply shrinking_run.
Qed.

Lemma same_tags_of_inv s s' :
  Inv s -> Inv s' -> (forall r n, In (r, n) (stags s) <-> In (r, n) (stags s')) ->
  same_tags (sfs s) (sfs s').
Proof.
  intros I I' E. destruct (inv_named s I) as (l & Hl & Hn). destruct (inv_named s' I') as (l' & Hl' & Hn').
  exists l, l'. split; [exact Hl|split; [exact Hl'|]]. intros r n. unfold tag_of.
  rewrite Hn, Hn'. apply E.
Qed.

Lemma same_tags_trans a c e : same_tags a c -> same_tags c e -> same_tags a e.
Proof.
  intros (l1 & l2 & H1 & H2 & E1) (l2' & l3 & H2' & H3 & E2).
  rewrite H2 in H2'. injection H2' as <-.
  exists l1, l3. split; [exact H1|split; [exact H3|]]. intros r n. rewrite E1. apply E2.
Qed.

(* the first primitive may change the names; whatever the cut, the tag mapping is the one
   before the call or the one after it -- although index.json may be rewritten several times *)
Lemma tail_keeps_tags s o0 tl k :
  Inv s ->
  (forall pre post, tl = pre ++ post -> stags (runs pre (runop s o0)) = stags (runop s o0)) ->
  same_tags (cutseq s (o0 :: tl) k) (sfs s) \/ same_tags (cutseq s (o0 :: tl) k) (sfs (runs (o0 :: tl) s)).
Proof.
  intros I Keep. set (s1 := runop s o0) in *. assert (I1 : Inv s1) by now apply op_safe.
  assert (To_end : forall pre post, tl = pre ++ post -> same_tags (sfs (runs pre s1)) (sfs (runs tl s1))).
  { intros pre post E. apply same_tags_of_inv; try now apply inv_run.
    intros r n. now rewrite (Keep pre post E), (Keep tl [] (eq_sym (app_nil_r tl))). }
  destruct (composite_safe s (o0 :: tl) k I) as [(pre & o & post & Eq & R)|[-> (_ & _ & l & Hl & _)]].
  - apply rec_same_tags in R. destruct pre as [|p0 pre]; injection Eq as <- Eq.
    + destruct R as [R|R]; [now left|right]. subst tl.
      exact (same_tags_trans _ _ _ R (To_end [] post eq_refl)).
    + right. cbn [run fold_left] in R. fold s1 in R. fold (runs pre s1) in R.
      destruct R as [R|R]; apply (same_tags_trans _ _ _ R).
      * exact (To_end pre (o :: post) Eq).
      * replace (runop (runs pre s1) o) with (runs (pre ++ [o]) s1) by (unfold run; now rewrite fold_left_app).
        apply (To_end (pre ++ [o]) post). now rewrite <- app_assoc.
  - right. exists l, l. now repeat split.
Qed.

Definition untagged_delete (tags : list (N * N)) (o : op) : Prop :=
  exists x, o = Delete x /\ forall r, ~ In (r, x) tags.

Lemma untagged_delete_tags s o : untagged_delete (stags s) o -> stags (runop s o) = stags s.
Proof.
  intros (x & -> & Hx). unfold run_op. cbn [op_mem stags].
  apply filter_all_true. intros [r n] Hin. cbn. apply negb_true_iff. apply N.eqb_neq.
  intros ->. exact (Hx r Hin).
Qed.

Lemma untagged_deletes_tags os : forall s, Forall (untagged_delete (stags s)) os -> stags (runs os s) = stags s.
Proof.
  induction os as [|o os IH]; intros s Ho; [reflexivity|]. apply Forall_cons_iff in Ho as [Ho Hos].
  change (runs (o :: os) s) with (runs os (runop s o)).
  pose proof (untagged_delete_tags s o Ho) as E. rewrite IH; [exact E|now rewrite E].
Qed.

(* Delete with AutoGC: the nodes deleted after the target carry no reference name *)
Theorem cascade_tags (h : list hop) d xs k :
  let s := runc H shuffle false false true h init in
  (forall l, read_index (sfs s) = Some l -> forall x r, In x xs -> ~ tag_of l r x) ->
  let os := Delete d :: map Delete xs in
  let fsk := crash_seq H shuffle false false true s os k in
  same_tags fsk (sfs s) \/ same_tags fsk (sfs (run H shuffle false false true os s)).
Proof.
  intros s Hun os fsk. pose proof (inv_runc_init h) as I. fold s in I.
  apply tail_keeps_tags; [exact I|]. intros pre post Eq. apply untagged_deletes_tags.
  apply Forall_forall. intros o Hin.
  assert (Ho : In o (map Delete xs)) by (rewrite Eq; apply in_or_app; now left).
  apply in_map_iff in Ho as (x & <- & Hx). exists x. split; [reflexivity|].
  intros r Ht. apply op_tags in Ht as [_ Ht]. destruct (inv_named s I) as (l & Hl & Hn).
  apply (Hun l Hl x r Hx). now apply Hn.
Qed.

(* GC: Forget, then bare removals of blob files.  Go's sweep is os.Remove, not Store.delete.
   Whenever the swept blob is not held by the tag resolver, the model's plain Delete IS that
   bare removal: no index write, memory unchanged. *)
Lemma delete_unheld_is_unlink s x :
  Inv s -> ~ In x (sdigs s) ->
  steps s (Delete x) = (if exists_file (sfs s) (FBlob x) then [Unlink (FBlob x)] else []) /\
  stags (runop s (Delete x)) = stags s /\ sdigs (runop s (Delete x)) = sdigs s.
Proof.
  intros I Hx.
  assert (E : existsb (fun e => snd e =? x) (stags s) || memN x (sdigs s) = false).
  { apply orb_false_iff. split; apply not_true_iff_false; unfold memN; rewrite existsb_exists.
    - intros ([r n] & Hin & E). apply N.eqb_eq in E. cbn in E. subst n. exact (Hx (inv_tagdig s I r x Hin)).
    - intros (y & Hin & E). apply N.eqb_eq in E. now subst y. }
  destruct (delete_mem_same s x E) as [Et Ed].
  unfold run_op, op_steps. cbn [op_mem stags sdigs]. now rewrite E.
Qed.

Definition unheld_delete (digs : list N) (o : op) : Prop := exists x, o = Delete x /\ ~ In x digs.

Lemma unheld_deletes os : forall s,
  Inv s -> Forall (unheld_delete (sdigs s)) os ->
  stags (runs os s) = stags s /\ sdigs (runs os s) = sdigs s /\
  read_index (sfs (runs os s)) = read_index (sfs s).
Proof.
  induction os as [|o os IH]; intros s I Ho; [now repeat split|]. apply Forall_cons_iff in Ho as [(x & -> & Hx) Hos].
  destruct (delete_unheld_is_unlink s x I Hx) as (Es & Et & Ed).
  change (runs (Delete x :: os) s) with (runs os (runop s (Delete x))).
  destruct (IH (runop s (Delete x))) as (-> & -> & ->); [now apply op_safe|now rewrite Ed|].
  split; [exact Et|split; [exact Ed|]]. rewrite sfs_run_op, Es.
  destruct (exists_file (sfs s) (FBlob x)); reflexivity.
Qed.

Definition gc_ops (live xs : list N) : list op := Forget live :: map Delete xs.

Theorem gc_crash_safe (h : list hop) live xs k :
  let s := runc H shuffle false false true h init in
  (forall l, read_index (sfs s) = Some l ->
     forall x, In x xs -> ~ In x live /\ forall r, ~ tag_of l r x) ->
  let os := gc_ops live xs in
  let fsk := crash_seq H shuffle false false true s os k in
  (* every removal of the sweep is a bare unlink *)
  (forall pre x post, map Delete xs = pre ++ Delete x :: post ->
     let sj := run H shuffle false false true pre (runop s (Forget live)) in
     steps sj (Delete x) = if exists_file (sfs sj) (FBlob x) then [Unlink (FBlob x)] else []) /\
  (* the tag mapping never changes *)
  same_tags fsk (sfs s) /\
  (* index.json is the one before the call or the one Forget saved *)
  (read_index fsk = read_index (sfs s) \/ read_index fsk = read_index (sfs (runop s (Forget live)))).
Proof.
  intros s Hd os fsk. pose proof (inv_runc_init h) as I. fold s in I.
  set (s1 := runop s (Forget live)). assert (I1 : Inv s1) by now apply op_safe.
  (* no swept blob is held once Forget has run, so the sweep leaves the memory and index.json alone *)
  assert (Sweep : forall pre post, map Delete xs = pre ++ post -> Forall (unheld_delete (sdigs s1)) pre).
  { intros pre post Eq. apply Forall_forall. intros o Hin.
    assert (Ho : In o (map Delete xs)) by (rewrite Eq; apply in_or_app; now left).
    apply in_map_iff in Ho as (x & <- & Hx). exists x. split; [reflexivity|].
    destruct (inv_named s I) as (l & Hl & Hn). destruct (Hd l Hl x Hx) as [Hlive Ht].
    unfold s1, run_op. cbn [op_mem sdigs]. rewrite filter_In, orb_true_iff. unfold memN. rewrite !existsb_exists.
    intros [_ [(y & Hy & E)|([r n] & Hr & E)]]; apply N.eqb_eq in E; cbn in E; subst.
    - exact (Hlive Hy).
    - apply (Ht r). now apply Hn. }
  assert (Mem : forall pre post, map Delete xs = pre ++ post ->
            stags (runs pre s1) = stags s1 /\ sdigs (runs pre s1) = sdigs s1 /\
            read_index (sfs (runs pre s1)) = read_index (sfs s1))
    by (intros pre post Eq; apply unheld_deletes; [exact I1|exact (Sweep pre post Eq)]).
  split; [|split].
  - intros pre x post Eq sj. destruct (Mem pre _ Eq) as (_ & Ed & _).
    apply delete_unheld_is_unlink; [now apply inv_run|]. unfold sj. rewrite Ed.
    pose proof (Sweep (pre ++ [Delete x]) post) as S. rewrite <- app_assoc in S. specialize (S Eq).
    apply Forall_app in S as [_ S]. apply Forall_cons_iff in S as [(y & [= ->] & Hy) _]. exact Hy.
  - destruct (tail_keeps_tags s (Forget live) (map Delete xs) k I) as [T|T]; [|exact T|].
    + intros pre post Eq. now apply Mem in Eq.
    + apply (same_tags_trans _ _ _ T). apply same_tags_of_inv; [now apply inv_run|exact I|].
      intros r n. change (runs (Forget live :: map Delete xs) s) with (runs (map Delete xs) s1).
      destruct (Mem _ [] (eq_sym (app_nil_r _))) as (-> & _). reflexivity.
  - (* index.json changes exactly once, in Forget *)
    destruct (composite_safe s os k I) as [(pre & o & post & Eq & (_ & _ & _ & R & _))|[Ef _]]; fold fsk in R || fold fsk in Ef.
    + destruct pre as [|p0 pre]; injection Eq as <- Eq; [exact R|right].
      cbn [run fold_left] in R. fold s1 in R. fold (runs pre s1) in R.
      destruct (Mem pre _ Eq) as (_ & _ & E0). destruct (Mem (pre ++ [o]) post) as (_ & _ & E1); [now rewrite <- app_assoc|].
      unfold run in E1. rewrite fold_left_app in E1. destruct R as [R|R]; rewrite R; [exact E0|exact E1].
    + right. rewrite Ef. cbn [gc_ops run fold_left]. fold s1. now apply (Mem _ []), eq_sym, app_nil_r.
Qed.

Lemma sfs_reopen fs c : sfs (reopen fs c) = fs.
Proof. unfold reopen. destruct (read_index fs); reflexivity. Qed.

Lemma crashed_between s o k :
  Inv s -> Recoverable H (sfs s) (sfs (run_hop H shuffle false false true s (Crashed o k))) (sfs (runop s o)).
Proof. intro I. cbn [run_hop]. rewrite sfs_reopen. now apply op_safe. Qed.

(* A completed push survives every later crash (until a Delete of that blob):
   the bookkeeping of [stored_since] is sound for a completed operation ... *)
Lemma stored_done s o d acc :
  Inv s -> (acc = true -> exists_file (sfs s) (FBlob d) = true) ->
  stored_step H d acc (Done o) = true -> exists_file (sfs (runop s o)) (FBlob d) = true.
Proof.
  intros I Ha Hs. destruct (op_safe s o I) as (_ & _ & -> & _).
  destruct o as [d' c m|d' r|r|d'| |dd|live]; cbn in *; auto.
  - destruct (N.eqb_spec d' d) as [->|Hn]; cbn in Hs.
    + destruct (exists_file (sfs s) (FBlob d)) eqn:Ex; [exact Ex|]. destruct (H c =? d); [now rewrite N.eqb_refl|discriminate (Ha Hs)].
    + destruct (exists_file (sfs s) (FBlob d')); [auto|]. destruct (H c =? d'); [|auto].
      destruct (d =? d'); auto.
  - rewrite N.eqb_sym. destruct (d' =? d); [discriminate|auto].
Qed.

(* ... and an interrupted one counts for no more than a completed one *)
Lemma stored_crashed o k d acc :
  stored_step H d acc (Crashed o k) = true -> acc = true /\ stored_step H d acc (Done o) = true.
Proof.
  destruct o as [d' c m|d' r|r|d'| |dd|live]; cbn; intro Hs; try now split.
  - split; [exact Hs|]. rewrite Hs. now destruct (_ && _).
  - destruct (d' =? d); [discriminate|now split].
Qed.

Lemma stored_step_sound s x d acc :
  Inv s -> (acc = true -> exists_file (sfs s) (FBlob d) = true) ->
  stored_step H d acc x = true ->
  exists_file (sfs (run_hop H shuffle false false true s x)) (FBlob d) = true.
Proof.
  intros I Ha Hs. destruct x as [o|o k]; [now apply (stored_done s o d acc)|].
  (* interrupted: present before and after the operation, hence at the cut *)
  apply stored_crashed in Hs as [Hacc Hs]. apply exists_file_has.
  destruct (crashed_between s o k I) as (_ & _ & _ & _ & P1 & _).
  apply P1; apply exists_file_has; [now apply Ha|now apply (stored_done s o d acc)].
Qed.

Theorem completed_push_survives (h : list hop) d :
  stored_since H d h = true ->
  exists_file (sfs (runc H shuffle false false true h init)) (FBlob d) = true.
Proof.
  unfold stored_since, runc.
  assert (G : forall h s acc, Inv s -> (acc = true -> exists_file (sfs s) (FBlob d) = true) ->
              fold_left (stored_step H d) h acc = true ->
              exists_file (sfs (fold_left (run_hop H shuffle false false true) h s)) (FBlob d) = true).
  { induction h0 as [|x h0 IH]; intros s acc I Ha Hf; cbn [fold_left] in *.
    - now apply Ha.
    - apply (IH _ (stored_step H d acc x)); [now apply inv_run_hop| |exact Hf].
      intro Hs. now apply (stored_step_sound s x d acc). }
  intro Hf. apply (G h init false inv_init); [discriminate|exact Hf].
Qed.

(* ... and so does a completed Tag (until a Tag/Untag of that name or a Delete of the blob) *)
Definition on_disk (s : st) (d r : N) : Prop :=
  exists l, read_index (sfs s) = Some l /\ In (d, Some r) l.

Lemma on_disk_mem s d r : Inv s -> (on_disk s d r <-> In (r, d) (stags s)).
Proof.
  intro I. destruct (inv_named s I) as (l & Hl & Hn). unfold on_disk. split.
  - intros (l' & Hl' & Hin). rewrite Hl in Hl'. injection Hl' as <-. now apply Hn.
  - intro Hin. exists l. split; [exact Hl|now apply Hn].
Qed.

Lemma tagged_fst d r st tg x : fst (tagged_step H d r (st, tg) x) = stored_step H d st x.
Proof.
  unfold tagged_step. cbn [fst].
  destruct x as [[| | | | | |]|[| | | | | |] ?]; cbn [fst]; try reflexivity;
    match goal with |- fst (if ?c then _ else _) = _ => destruct c; reflexivity end.
Qed.

Lemma tagged_done s o d r st tg :
  (st = true -> exists_file (sfs s) (FBlob d) = true) -> (tg = true -> In (r, d) (stags s)) ->
  snd (tagged_step H d r (st, tg) (Done o)) = true -> In (r, d) (stags (runop s o)).
Proof.
  intros Hst Htg Hs. apply op_tags.
  destruct o as [d' c m|d' r'|r'|d'| |dd|live]; cbn [tagged_step fst snd] in Hs; auto.
  - destruct (N.eqb_spec r' r) as [->|Hn]; cbn [snd] in Hs.
    + apply andb_true_iff in Hs as [Ed Hs]. apply N.eqb_eq in Ed. subst d'. rewrite (Hst Hs). left. now split.
    + destruct (exists_file (sfs s) (FBlob d')); auto.
  - destruct (N.eqb_spec r' r) as [->|Hn]; [discriminate|auto].
  - destruct (N.eqb_spec d' d) as [->|Hn]; [discriminate|auto].
Qed.

Lemma tagged_crashed o k d r st tg :
  snd (tagged_step H d r (st, tg) (Crashed o k)) = true ->
  tg = true /\ snd (tagged_step H d r (st, tg) (Done o)) = true.
Proof.
  destruct o as [d' c m|d' r'|r'|d'| |dd|live]; cbn [tagged_step fst snd]; try (intro Hs; now split).
  - destruct (r' =? r); [discriminate|intro Hs; now split].
  - destruct (r' =? r); [discriminate|intro Hs; now split].
  - destruct (d' =? d); [discriminate|intro Hs; now split].
Qed.

Lemma tagged_step_sound s x d r st tg :
  Inv s -> (st = true -> exists_file (sfs s) (FBlob d) = true) -> (tg = true -> In (r, d) (stags s)) ->
  snd (tagged_step H d r (st, tg) x) = true ->
  on_disk (run_hop H shuffle false false true s x) d r.
Proof.
  intros I Hst Htg Hs. assert (I1 : Inv (runop s (hop_op x))) by now apply op_safe.
  destruct x as [o|o k]; cbn [hop_op] in I1.
  - (* completed: read the memory of the state after *)
    apply (on_disk_mem _ d r I1). now apply (tagged_done s o d r st tg).
  - (* interrupted: the entry is in index.json before and after the operation, and the file
       found is one of the two *)
    apply tagged_crashed in Hs as [Ht Hs]. destruct (crashed_between s o k I) as (_ & _ & _ & RI & _).
    unfold on_disk. destruct RI as [-> | ->].
    + now apply (on_disk_mem s d r I), Htg.
    + now apply (on_disk_mem _ d r I1), (tagged_done s o d r st tg).
Qed.

Theorem completed_tag_survives (h : list hop) d r :
  tagged_since H d r h = true ->
  exists l, read_index (sfs (runc H shuffle false false true h init)) = Some l /\ tag_of l r d.
Proof.
  unfold tagged_since, runc.
  assert (G : forall h s st tg, Inv s ->
              (st = true -> exists_file (sfs s) (FBlob d) = true) -> (tg = true -> In (r, d) (stags s)) ->
              snd (fold_left (tagged_step H d r) h (st, tg)) = true ->
              on_disk (fold_left (run_hop H shuffle false false true) h s) d r).
  { induction h0 as [|x h0 IH]; intros s st tg I Hst Htg Hf; cbn [fold_left] in *.
    - apply (on_disk_mem s d r I). now apply Htg.
    - pose proof (tagged_fst d r st tg x) as E1. destruct (tagged_step H d r (st, tg) x) as [st' tg'] eqn:E.
      assert (Ix : Inv (run_hop H shuffle false false true s x)) by (now apply inv_run_hop).
      apply (IH _ st' tg' Ix); [| |exact Hf].
      + cbn [fst] in E1. rewrite E1. now apply stored_step_sound.
      + intro Ht. apply (on_disk_mem _ d r Ix).
        apply (tagged_step_sound s x d r st tg I Hst Htg). rewrite E. exact Ht. }
  intro Hf. apply (G h init false false inv_init); [discriminate|discriminate|exact Hf].
Qed.

(* ... and nothing is invented: what is on disk was put there by an operation *)
Lemma blob_from_hop s x d :
  Inv s -> exists_file (sfs (run_hop H shuffle false false true s x)) (FBlob d) = true ->
  exists_file (sfs s) (FBlob d) = true \/ (exists c m, hop_op x = Push d c m /\ H c = d).
Proof.
  intros I Hx. destruct x as [o|o k]; cbn [hop_op]; [now apply blob_from_op|].
  destruct (crashed_between s o k I) as (_ & _ & _ & _ & _ & P2).
  apply exists_file_has, P2 in Hx as [Hx|Hx]; apply exists_file_has in Hx; [now left|now apply blob_from_op].
Qed.

Lemma tag_from_hop s x d r :
  Inv s -> In (r, d) (stags (run_hop H shuffle false false true s x)) ->
  In (r, d) (stags s) \/ hop_op x = Tag d r.
Proof.
  intros I Hin. destruct x as [o|o k]; cbn [hop_op]; [now apply tag_from_op|].
  apply (on_disk_mem _ d r (inv_run_hop s _ I)) in Hin as (l & Hl & Hd).
  destruct (crashed_between s o k I) as (_ & _ & _ & RI & _).
  rewrite Hl in RI. destruct RI as [RI|RI]; symmetry in RI.
  - left. apply (on_disk_mem s d r I). now exists l.
  - apply tag_from_op. apply (on_disk_mem _ d r (proj1 (op_safe s o I))). now exists l.
Qed.

Lemma invented_from s0 (h : list hop) :
  Inv s0 ->
  (forall d, exists_file (sfs (runC h s0)) (FBlob d) = true ->
     exists_file (sfs s0) (FBlob d) = true \/ pushed_in H d h) /\
  (forall d r, In (r, d) (stags (runC h s0)) -> In (r, d) (stags s0) \/ tagged_in d r h).
Proof.
  intro I0. induction h as [|x h [PB PT]] using rev_ind; [split; intros; now left|].
  unfold runc. rewrite fold_left_app. cbn [fold_left]. fold (runC h s0).
  pose proof (inv_runc h s0 I0) as I. split.
  - intros d Hx. destruct (blob_from_hop _ x d I Hx) as [Hs|(c & m & E)]; [|right; exists x, c, m].
    + destruct (PB d Hs) as [H0|(y & c & m & Hy & E)]; [now left|right].
      exists y, c, m. split; [apply in_or_app; now left|exact E].
    + split; [apply in_or_app; right; now left|exact E].
  - intros d r Hin. destruct (tag_from_hop _ x d r I Hin) as [Hs|E]; [|right; exists x].
    + destruct (PT d r Hs) as [H0|(y & Hy & E)]; [now left|right].
      exists y. split; [apply in_or_app; now left|exact E].
    + split; [apply in_or_app; right; now left|exact E].
Qed.

Theorem nothing_invented (h : list hop) :
  let s := runc H shuffle false false true h init in
  (forall d, exists_file (sfs s) (FBlob d) = true -> pushed_in H d h) /\
  (forall d r, In (r, d) (stags s) -> tagged_in d r h).
Proof.
  intro s. destruct (invented_from init h inv_init) as [PB PT]. split.
  - intros d Hx. destruct (PB d Hx) as [H0|P]; [destruct d; discriminate H0|exact P].
  - intros d r Hin. destruct (PT d r Hin) as [[]|P]. exact P.
Qed.

Corollary nothing_invented_disk (h : list hop) :
  let s := runc H shuffle false false true h init in
  (forall d, exists_file (sfs s) (FBlob d) = true -> pushed_in H d h) /\
  (forall l d r, read_index (sfs s) = Some l -> tag_of l r d -> tagged_in d r h).
Proof.
  intro s. destruct (nothing_invented h) as [A B]. fold s in A, B. split; [exact A|].
  intros l d r Hl Ht. apply B. apply (on_disk_mem s d r (inv_runc_init h)). now exists l.
Qed.

(* The API layer: calls expanded to primitives (Model expand), histories of completed and
   interrupted CALLS (runa), and "loadIndex succeeds" including decoding of manifests. *)
Section Api.
Variable mt : N -> bool.
Variable dec : N -> bool.

Notation expd := (expand H mt dec).
Notation crops := (crash_ops H shuffle false false true).
Notation runA := (runa H shuffle false false true mt dec).
Notation runcall := (run_acall H shuffle false false true mt dec).
Notation loadok := (load_okb mt dec).

(* A history of calls IS a history of primitives,
   so every theorem about histories of primitives with crashes (C10_completed_*_survives_crashes,
   C10_nothing_invented, ...) speaks about histories of API calls *)
Lemma run_is_runc os : forall s, runs os s = runC (map Done os) s.
Proof. induction os as [|o os IH]; intro s; [reflexivity|]. cbn [run runc map fold_left]. apply IH. Qed.

Lemma crash_ops_is_runc os : forall s k, exists hs, crops s os k = runC hs s.
Proof.
  induction os as [|o os IH]; intros s k; cbn [crash_ops].
  - now exists [Crashed SaveIndex 0].
  - destruct (Nat.leb k (length (steps s o))); [now exists [Crashed o k]|].
    destruct (IH (runop s o) (k - length (steps s o))%nat) as (hs & E). now exists (Done o :: hs).
Qed.

Lemma run_acall_is_runc s x : exists hs, runcall s x = runC hs s.
Proof.
  destruct x as [a|a k]; cbn [run_acall]; [|apply crash_ops_is_runc].
  exists (map Done (expd s a)). apply run_is_runc.
Qed.

Theorem runa_is_runc h : forall s, exists hs, runA h s = runC hs s.
Proof.
  induction h as [|x h IH]; intro s; [now exists []|].
  change (runA (x :: h) s) with (runA h (runcall s x)).
  destruct (run_acall_is_runc s x) as (hs1 & ->). destruct (IH (runC hs1 s)) as (hs2 & ->).
  exists (hs1 ++ hs2). unfold runc. now rewrite fold_left_app.
Qed.

Lemma inv_run_acall s x : Inv s -> Inv (runcall s x).
Proof. intro I. destruct (run_acall_is_runc s x) as (hs & ->). now apply inv_runc. Qed.

Lemma inv_runa h : Inv (runA h init).
Proof. destruct (runa_is_runc h init) as (hs & ->). apply inv_runc_init. Qed.

Definition DecInv (s : st) : Prop := forall n, In n (sdigs s) -> mt n = true -> dec n = true.

Definition ok_at (s : st) (o : op) : Prop :=
  match o with
  | Push d _ true => dec d = true
  | Tag d _ | TagDig d => exists_file (sfs s) (FBlob d) = true -> mt d = true -> dec d = true
  | _ => True
  end.

Fixpoint all_ok (s : st) (os : list op) : Prop :=
  match os with
  | [] => True
  | o :: r => ok_at s o /\ all_ok (runop s o) r
  end.

Lemma digs_step s o n :
  In n (sdigs (runop s o)) ->
  In n (sdigs s) \/ (exists c, o = Push n c true) \/
  ((exists r, o = Tag n r) \/ o = TagDig n) /\ exists_file (sfs s) (FBlob n) = true.
Proof.
  unfold run_op. destruct o as [d c m|d r|r|d| |dd|live]; cbn [op_mem].
  - destruct (exists_file (sfs s) (FBlob d)); cbn [sdigs]; [now left|].
    destruct (negb (H c =? d)); cbn [sdigs]; [now left|].
    destruct m; cbn [sdigs]; [|now left].
    intro Hin. apply dig_add_In in Hin as [->|Hin]; [right; left; now exists c|now left].
  - destruct (exists_file (sfs s) (FBlob d)) eqn:Ex; cbn [sdigs]; [|now left].
    intro Hin. apply dig_add_In in Hin as [->|Hin]; [right; right; split; [left; now exists r|exact Ex]|now left].
  - destruct (tag_get r (stags s)); cbn [sdigs]; now left.
  - cbn [sdigs]. intro Hin. apply filter_In in Hin as [Hin _]. now left.
  - now left.
  - destruct (exists_file (sfs s) (FBlob dd)) eqn:Ex; cbn [sdigs]; [|now left].
    intro Hin. apply dig_add_In in Hin as [->|Hin]; [right; right; split; [now right|exact Ex]|now left].
  - cbn [sdigs]. intro Hin. apply filter_In in Hin as [Hin _]. now left.
Qed.

Lemma decinv_step s o : DecInv s -> ok_at s o -> DecInv (runop s o).
Proof.
  intros D Ho n Hin Hm. apply digs_step in Hin as [Hin|[(c & ->)|[[(r & ->)| ->] Ex]]];
    [now apply D|exact Ho|now apply Ho..].
Qed.

Lemma decinv_run os : forall s, DecInv s -> all_ok s os -> DecInv (runs os s).
Proof.
  induction os as [|o os IH]; intros s D A; [exact D|].
  destruct A as [Ao Ar]. cbn [run fold_left]. apply IH; [now apply decinv_step|exact Ar].
Qed.

Lemma all_ok_split pre : forall s o post,
  all_ok s (pre ++ o :: post) -> DecInv s -> DecInv (runs pre s) /\ ok_at (runs pre s) o.
Proof.
  induction pre as [|p pre IH]; intros s o post A D.
  - cbn in *. now split; [|destruct A].
  - cbn [app all_ok] in A. destruct A as [Ap Ar]. cbn [run fold_left].
    apply (IH _ o post Ar). now apply decinv_step.
Qed.

Lemma all_ok_deletes xs : forall s, all_ok s (map Delete xs).
Proof. induction xs as [|x xs IH]; intro s; [exact I|]. split; [exact I|apply IH]. Qed.

(* Tag and TagDigest refuse a stored manifest-typed blob that does not decode *)
Lemma tag_guard_ok (ex m dc : bool) : ex && m && negb dc = false -> ex = true -> m = true -> dc = true.
Proof. intros E -> ->. now destruct dc. Qed.

Lemma expand_all_ok s a : all_ok s (expd s a).
Proof.
  destruct a as [d c|d r|r|d|d|d cas| |live sw|]; cbn [expand].
  - destruct (mt d) eqn:Em; [|cbn; auto].
    destruct (dec d) eqn:Ed; [cbn; auto|].
    destruct (exists_file (sfs s) (FBlob d)); [cbn; auto|].
    destruct (H c =? d); cbn; auto.
  - destruct (exists_file (sfs s) (FBlob d) && mt d && negb (dec d)) eqn:E; [exact I|].
    split; [exact (tag_guard_ok _ _ _ E)|exact I].
  - cbn. auto.
  - destruct (exists_file (sfs s) (FBlob d) && mt d && negb (dec d)) eqn:E; [exact I|].
    split; [exact (tag_guard_ok _ _ _ E)|exact I].
  - exact I.
  - split; [exact I|apply all_ok_deletes].
  - cbn. auto.
  - split; [exact I|apply all_ok_deletes].
  - exact I.
Qed.

Lemma cut_entries_dec s o k l :
  Inv s -> DecInv s -> ok_at s o -> read_index (cutop s o k) = Some l ->
  forall e, In e l -> mt (fst e) = true -> dec (fst e) = true.
Proof.
  intros I D Ho Hl e Hin Hm.
  destruct (op_safe s o I) as (I1 & _ & _ & R). destruct (R k) as (_ & _ & _ & RI & _).
  fold (cutop s o k) in RI. rewrite Hl in RI. destruct RI as [RI|RI]; symmetry in RI.
  - destruct (inv_index s I) as (l0 & Hl0 & He). rewrite Hl0 in RI. injection RI as <-.
    exact (D _ (He e Hin) Hm).
  - destruct (inv_index _ I1) as (l1 & Hl1 & He). rewrite Hl1 in RI. injection RI as <-.
    exact (decinv_step s o D Ho _ (He e Hin) Hm).
Qed.

Lemma reopen_digs fs c n :
  In n (sdigs (reopen fs c)) -> exists l r, read_index fs = Some l /\ In (n, r) l.
Proof.
  unfold reopen. destruct (read_index fs) as [l|]; cbn [sdigs]; [|intros []].
  intro Hin. apply load_digs0 in Hin as (r & Hr). now exists l, r.
Qed.

Lemma decinv_reopen_cut s o k :
  Inv s -> DecInv s -> ok_at s o -> DecInv (reopen (cutop s o k) (S (sctr s))).
Proof.
  intros I D Ho n Hin Hm. apply reopen_digs in Hin as (l & r & Hl & Hr).
  exact (cut_entries_dec s o k l I D Ho Hl (n, r) Hr Hm).
Qed.

Lemma decinv_crash_ops os : forall s k, Inv s -> DecInv s -> all_ok s os -> DecInv (crops s os k).
Proof.
  induction os as [|o os IH]; intros s k I D A; cbn [crash_ops].
  - exact (decinv_reopen_cut s SaveIndex 0 I D Logic.I).
  - destruct A as [Ao Ar]. destruct (Nat.leb k (length (steps s o))).
    + cbn [run_hop]. now apply decinv_reopen_cut.
    + apply IH; [now apply op_safe|now apply decinv_step|exact Ar].
Qed.

Lemma decinv_runa h : forall s, Inv s -> DecInv s -> DecInv (runA h s).
Proof.
  induction h as [|x h IH]; intros s I D; [exact D|].
  cbn [runa fold_left]. apply IH; [now apply inv_run_acall|].
  destruct x as [a|a k]; cbn [run_acall].
  - apply decinv_run; [exact D|apply expand_all_ok].
  - apply decinv_crash_ops; [exact I|exact D|apply expand_all_ok].
Qed.

(* loadIndex succeeds: index.json parses, every entry names a blob and decodes if it should *)
Lemma load_ok_of fs l :
  read_index fs = Some l -> (forall e, In e l -> has fs (FBlob (fst e))) ->
  (forall e, In e l -> mt (fst e) = true -> dec (fst e) = true) -> loadok fs = true.
Proof.
  intros Hl Hx Hd. unfold load_okb. rewrite Hl. apply forallb_forall. intros e Hin.
  apply andb_true_iff. split; [now apply exists_file_has, Hx|].
  destruct (mt (fst e)) eqn:Em; [|reflexivity]. exact (Hd e Hin Em).
Qed.

(* ... on the directory found after any cut of any call, after any history of completed and
   interrupted calls *)
Theorem api_crash_load_ok (h : list acall) (a : api) k :
  let s := runA h init in
  loadok (crash_seq H shuffle false false true s (expd s a) k) = true.
Proof.
  intro s. pose proof (inv_runa h) as I. fold s in I.
  assert (D : DecInv s) by (apply decinv_runa; [apply inv_init|intros n []]).
  pose proof (expand_all_ok s a) as A.
  destruct (seq_cut (expd s a) s k) as [(pre & o & post & k' & Eq & ->)| ->].
  - rewrite Eq in A. destruct (all_ok_split pre s o post A D) as [Dj Oj].
    assert (Ij : Inv (runs pre s)) by now apply inv_run.
    destruct (op_safe _ o Ij) as (_ & _ & _ & R). destruct (R k') as (_ & _ & (l & Hl & Hx) & _).
    exact (load_ok_of _ l Hl Hx (cut_entries_dec _ o k' l Ij Dj Oj Hl)).
  - assert (In_ : Inv (runs (expd s a) s)) by now apply inv_run.
    destruct (inv_index _ In_) as (l & Hl & He). apply (load_ok_of _ l Hl).
    + intros e Hin. now apply (inv_digs _ In_), He.
    + intros e Hin. now apply (decinv_run _ s D A), He.
Qed.

(* every theorem about primitives applies to the calls of an API history: the cut of a call is
   a crash state of one primitive of its expansion, between quiescent states *)
Theorem api_crash_safe (h : list acall) (a : api) k :
  let s := runA h init in
  let os := expd s a in
  let fsk := crash_seq H shuffle false false true s os k in
  (exists pre o post,
     os = pre ++ o :: post /\
     let sj := run H shuffle false false true pre s in
     Recoverable H (sfs sj) fsk (sfs (run_op H shuffle false false true sj o))) \/
  (fsk = sfs (run H shuffle false false true os s) /\ Good fsk).
Proof. intros s os fsk. apply composite_safe, inv_runa. Qed.

End Api.

End Crash.

(* the code before the repair: index.json written in place *)
Lemma crash_unsafe_inplace (H : list N -> N) :
  exists h o k,
    let s := run H (fun _ l => l) true false true h init in
    ~ Recoverable H (sfs s) (crash_fs H (fun _ l => l) true false true s o k)
        (sfs (run_op H (fun _ l => l) true false true s o)).
Proof.
  exists [], SaveIndex, 1%nat. cbn zeta. intros (_ & _ & (l & Hl & _) & _).
  cbn in Hl. discriminate.
Qed.

(* after the cut between open(O_TRUNC) and write, index.json is empty: a reader cannot parse it *)
Lemma crash_inplace_index_unreadable (H : list N -> N) :
  read_index (crash_fs H (fun _ l => l) true false true init SaveIndex 1) = None.
Proof. reflexivity. Qed.

(* Store.delete with the two effects swapped (blob unlinked before index.json is rewritten):
   a cut between them leaves an index entry that names a missing blob *)
Lemma crash_unsafe_unlink_first :
  exists H h o k,
    let s := run H (fun _ l => l) false true true h init in
    ~ Recoverable H (sfs s) (crash_fs H (fun _ l => l) false true true s o k)
        (sfs (run_op H (fun _ l => l) false true true s o)).
Proof.
  exists (fun _ => 2), [Push 2 [9] true], (Delete 2), 1%nat. cbn zeta.
  intros (_ & _ & (l & Hl & He) & _).
  vm_compute in Hl. injection Hl as <-.
  specialize (He (2, None) (or_introl eq_refl)). apply He. vm_compute. reflexivity.
Qed.

(* the configuration read off the Go source is the proved one *)
Lemma src_inplace_false : src_inplace = false.
Proof. vm_compute. reflexivity. Qed.

Lemma src_unlink_first_false : src_unlink_first = false.
Proof. vm_compute. reflexivity. Qed.

Lemma src_push_order : src_push_order_ok = true.
Proof. vm_compute. reflexivity. Qed.

Lemma src_gc_order : src_gc_order_ok = true.
Proof. vm_compute. reflexivity. Qed.

Lemma src_guards : src_guards_ok = true.
Proof. vm_compute. reflexivity. Qed.

Lemma src_locks : src_locks_ok = true.
Proof. vm_compute. reflexivity. Qed.

Lemma src_init : src_init_ok = true.
Proof. vm_compute. reflexivity. Qed.

(* oci-layout written in place (the code before the repair): cut after open(O_TRUNC) and
   every later New fails on the empty oci-layout *)
Lemma init_unrestartable_inplace (shuffle : nat -> list entry -> list entry) :
  exists k, new_okb (apply (firstn k (new_steps shuffle false true empty_fs 0)) empty_fs) = false.
Proof. exists 2%nat. reflexivity. Qed.

Lemma src_layout_inplace_false : src_layout_inplace = false.
Proof. vm_compute. reflexivity. Qed.

(* AutoSaveIndex = false: Delete unlinks the blob although the index.json saved earlier still
   names it -- already the completed Delete (and every cut after its unlink) leaves an
   index entry without a blob, until the caller's next SaveIndex *)
Lemma crash_unsafe_autosave_off :
  exists H h o k,
    let s := run H (fun _ l => l) false false false h init in
    ~ Recoverable H (sfs s) (crash_fs H (fun _ l => l) false false false s o k)
        (sfs (run_op H (fun _ l => l) false false false s o)).
Proof.
  exists (fun _ => 2), [Push 2 [9] true; Tag 2 5; SaveIndex], (Delete 2), 1%nat. cbn zeta.
  intros (_ & _ & (l & Hl & He) & _).
  vm_compute in Hl. injection Hl as <-.
  specialize (He (2, Some 5) (or_introl eq_refl)). apply He. vm_compute. reflexivity.
Qed.

(* audit F2 before the repairs: Push left the undecodable manifest behind and Tag accepted it
   (the primitives [Push d c false; Tag d r] on a manifest-typed, undecodable d): the index
   names content on which loadIndex fails *)
Lemma reopen_refuted_undecodable :
  exists (mt dec : N -> bool) (H : list N -> N) (os : list op),
    load_okb mt dec (sfs (run H (fun _ l => l) false false true os init)) = false.
Proof.
  exists (fun d => d =? 7), (fun d => negb (d =? 7)), (fun _ => 7), [Push 7 [9] false; Tag 7 8].
  vm_compute. reflexivity.
Qed.

