(* C12: unpacking into a set-group-ID working directory.  mkdir(2) makes every new directory
   set-group-ID there; the extraction is otherwise the same run: its file system is the one of
   the ordinary run with the bit added to every directory (simulation), restoreDirModes keeps
   the inherited bit without PreservePermissions and sets the recorded mode exactly with it. *)
From Oras Require Import Base.Prelude Model.TarRoundTrip Proofs.TarRoundTrip Proofs.TarModeSweep
  Proofs.TarWalkOrder Proofs.TarRootMode Proofs.TarUnprivileged.

Definition add_sg (n : node) : node :=
  match n with NDir m => NDir (N.lor m sgid) | _ => n end.

Definition Fsg (f : fs) : fs := map (fun pn => (fst pn, add_sg (snd pn))) f.

Lemma lookup_Fsg f p : fs_lookup (Fsg f) p = option_map add_sg (fs_lookup f p).
Proof.
  induction f as [|[q n] f IH]; simpl; [reflexivity|]. destruct (path_eqb q p); [reflexivity|exact IH].
Qed.

Lemma Fsg_set f p n : Fsg (fs_set f p n) = fs_set (Fsg f) p (add_sg n).
Proof. reflexivity. Qed.

Definition no_sgid (f : fs) : Prop := forall p m, fs_lookup f p = Some (NDir m) -> N.land m sgid = 0.
Definition has_base (f : fs) : Prop := exists m, fs_lookup f [] = Some (NDir m).

Lemma is_link_Fsg f p : is_link (fs_lookup (Fsg f) p) = is_link (fs_lookup f p).
Proof. rewrite lookup_Fsg. destruct (fs_lookup f p) as [[| |]|]; reflexivity. Qed.

Lemma check_dirs_Fsg f : forall rest acc, check_dirs (Fsg f) acc rest = check_dirs f acc rest.
Proof.
  induction rest as [|x rest IH]; intro acc; simpl; [reflexivity|].
  destruct rest; [reflexivity|]. now rewrite is_link_Fsg, IH.
Qed.

Lemma parent_is_dir_Fsg f rel : parent_is_dir (Fsg f) rel = parent_is_dir f rel.
Proof.
  unfold parent_is_dir. destruct rel; [reflexivity|]. rewrite lookup_Fsg.
  destruct (fs_lookup f (parent (n :: rel))) as [[| |]|]; reflexivity.
Qed.

Lemma has_children_Fsg f p : has_children (Fsg f) p = has_children f p.
Proof.
  unfold has_children, Fsg. induction f as [|[q n] f IH]; simpl; [reflexivity|]. now rewrite IH.
Qed.

Lemma link_ok_Fsg pre f rel tg : link_ok pre (Fsg f) rel tg = link_ok pre f rel tg.
Proof.
  unfold link_ok. destruct (is_abs tg); [reflexivity|].
  destruct (link_target_path pre rel tg); [|reflexivity]. now rewrite check_dirs_Fsg.
Qed.

Definition map_res (r : res fs) : res fs := match r with Ok f => Ok (Fsg f) | Err x => Err x end.

Lemma mkdir_all_Fsg umask m : forall rp f,
  no_sgid f -> has_base f ->
  mkdir_all umask m (Fsg f) rp = map_res (mkdir_all umask m f rp) /\
  (forall f', mkdir_all umask m f rp = Ok f' -> no_sgid f' /\ has_base f').
Proof.
  induction rp as [|x rp IH]; intros f Hn Hb.
  - simpl. rewrite lookup_Fsg. destruct Hb as [mb Hb]. rewrite Hb. simpl. split; [reflexivity|].
    intros f' E. injection E as <-. split; [exact Hn|now exists mb].
  - simpl. rewrite lookup_Fsg.
    destruct (fs_lookup f (rev rp ++ [x])) as [[c m0|m0|g]|] eqn:E; simpl.
    + split; [reflexivity|discriminate].
    + split; [reflexivity|]. intros f' E'. injection E' as <-. now split.
    + split; [reflexivity|discriminate].
    + destruct (IH f Hn Hb) as [IH1 IH2]. rewrite IH1.
      destruct (mkdir_all umask m f rp) as [f1|e] eqn:E1; simpl; [|split; [reflexivity|discriminate]].
      destruct (IH2 f1 eq_refl) as [Hn1 [mb Hb1]]. destruct (mkdir_all_dir umask m f rp f1 E1) as [pm Hpm].
      unfold inherited_sgid. rewrite lookup_Fsg, Hpm. simpl.
      rewrite (land_lor_sgid pm (Hn1 _ _ Hpm)), (Hn1 _ _ Hpm), N.lor_0_r. split; [reflexivity|].
      intros f' E'. injection E' as <-. split.
      * intros p m1. rewrite lookup_set. destruct (path_eqb (rev rp ++ [x]) p); [|apply Hn1].
        intros [= <-]. apply create_dir_no_sgid.
      * exists mb. rewrite lookup_set_other; [exact Hb1 | now destruct (rev rp)].
Qed.

Lemma extract_entry_Fsg pre umask preserve f e :
  no_sgid f -> has_base f ->
  extract_entry pre umask preserve (Fsg f) e = map_res (extract_entry pre umask preserve f e).
Proof.
  intros Hn Hb. unfold extract_entry.
  destruct (strip_prefix pre (e_name e)) as [rel|]; [|reflexivity].
  rewrite check_dirs_Fsg. destruct (check_dirs f [] rel); simpl; [|reflexivity].
  destruct (e_kind e) as [c| |tg].
  - rewrite lookup_Fsg, parent_is_dir_Fsg.
    destruct (fs_lookup f rel) as [[c0 m0|m0|g]|]; simpl; try reflexivity;
      try (destruct (parent_is_dir f rel); [|reflexivity]); destruct preserve; reflexivity.
  - exact (proj1 (mkdir_all_Fsg umask (N.lor (e_mode e) owner_rwx) (rev rel) f Hn Hb)).
  - destruct (is_root rel); [reflexivity|].
    rewrite link_ok_Fsg. destruct (link_ok pre f rel tg); [|reflexivity].
    rewrite lookup_Fsg, parent_is_dir_Fsg, has_children_Fsg.
    destruct (fs_lookup f rel) as [[c0 m0|m0|g]|]; simpl; try reflexivity;
      [destruct (has_children f rel) | destruct (parent_is_dir f rel)]; reflexivity.
Qed.

Lemma extract_entry_base pre umask preserve f e f' :
  no_sgid f -> has_base f -> extract_entry pre umask preserve f e = Ok f' -> no_sgid f' /\ has_base f'.
Proof.
  intros Hn [mb Hb] E. destruct (extract_entry_ok _ _ _ _ _ _ E) as (rel & [M|(n & B & Hnd & Hr)]).
  - exact (proj2 (mkdir_all_Fsg umask _ (rev rel) f Hn (ex_intro _ mb Hb)) f' M).
  - split; [exact (binds_dirs _ f f' rel n B Hnd Hn)|]. exists mb. rewrite B.
    destruct (path_eqb rel []) eqn:Er; [|exact Hb].
    apply path_eqb_spec in Er. now elim (Hr Er mb).
Qed.

Lemma extract_list_Fsg pre umask preserve : forall es f,
  no_sgid f -> has_base f ->
  extract_list pre umask preserve (Fsg f) es = map_res (extract_list pre umask preserve f es).
Proof.
  induction es as [|e es IH]; intros f Hn Hb; simpl; [reflexivity|].
  rewrite (extract_entry_Fsg pre umask preserve f e Hn Hb).
  destruct (extract_entry pre umask preserve f e) as [f1|x] eqn:E; simpl; [|reflexivity].
  destruct (extract_entry_base pre umask preserve f e f1 Hn Hb E) as [Hn1 Hb1]. now apply IH.
Qed.

Lemma fs_init_sg_Fsg umask : fs_init_sg umask sgid = Fsg (fs_init umask).
Proof. reflexivity. Qed.

Lemma no_sgid_init umask : no_sgid (fs_init umask) /\ has_base (fs_init umask).
Proof.
  split.
  - intros p m E. unfold fs_init in E. destruct p; simpl in E; [|discriminate].
    injection E as <-. apply create_dir_no_sgid.
  - eexists. reflexivity.
Qed.

Theorem extract_list_setgid pre umask preserve es :
  extract_list pre umask preserve (fs_init_sg umask sgid) es
  = map_res (extract_list pre umask preserve (fs_init umask) es).
Proof.
  rewrite fs_init_sg_Fsg. destruct (no_sgid_init umask) as [Hn Hb]. now apply extract_list_Fsg.
Qed.

Theorem roundtrip_setgid_entries pre umask preserve repro T :
  (preserve = false -> umask <= 511) ->
  is_dir T = true -> wf_treeb T = true -> modes_okb T = true -> benign_tree pre T = true ->
  exists f', extract_sg sgid pre umask preserve (entries pre repro [] T) = Ok f' /\
    forall p, fs_lookup f' p = expected_sg sgid umask preserve T p.
Proof.
  intros Hu Hd Hwf Hmo Hbe.
  destruct (extract_list_mid pre umask preserve repro T Hd Hwf Hmo Hbe) as (f' & E & L).
  unfold extract_sg. rewrite extract_list_setgid, E. simpl. eexists. split; [reflexivity|].
  apply finish_tree; auto. intro q. rewrite lookup_Fsg, L.
  now destruct (expected_mid_top umask preserve T q) as [[| |]|].
Qed.

Lemma expected_sg_sort sg umask preserve T p :
  wf_treeb T = true -> expected_sg sg umask preserve (sort_tree T) p = expected_sg sg umask preserve T p.
Proof.
  intro Hwf. unfold expected_sg. rewrite (tree_get_sort p T Hwf).
  destruct (tree_get T p) as [[| |]|]; reflexivity.
Qed.

Theorem roundtrip_setgid pre umask preserve repro T :
  (preserve = false -> umask <= 511) ->
  is_dir T = true -> wf_treeb T = true -> modes_okb T = true -> benign_tree pre T = true ->
  exists f', extract_sg sgid pre umask preserve (tar_entries pre repro T) = Ok f' /\
    forall p, fs_lookup f' p = expected_sg sgid umask preserve T p.
Proof.
  intros Hu Hd Hwf Hmo Hbe. destruct (hyps_sort pre T Hd Hwf Hmo Hbe) as (A & B & C & D).
  destruct (roundtrip_setgid_entries pre umask preserve repro (sort_tree T) Hu A B C D) as (f' & E & L).
  exists f'. split; [exact E|]. intro p. rewrite L. now apply expected_sg_sort.
Qed.

Lemma extract_sg_0 pre umask preserve es : extract_sg 0 pre umask preserve es = extract pre umask preserve es.
Proof. unfold extract_sg, extract, fs_init_sg, fs_init. now rewrite N.lor_0_r. Qed.
