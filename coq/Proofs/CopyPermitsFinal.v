(* C04, on the protocol model Model/CopyImpl.v (syncutil.Go / LimitedRegion / semaphore / tracker):
   when the top-level syncutil.Go has returned -- with or without an error -- every task has
   finished, none holds a permit, nothing is in flight and ALL K permits are free again.
   This is what the harness reads off the real limiter after every CopyGraph call made through the
   verif hook (oracle signature permit-leak). *)
From Coq Require Import List Arith Bool Lia.
From Oras Require Import Model.CopyImpl Proofs.CopyImplBase Proofs.CopyImplInv Proofs.CopyImplInv2
  Proofs.CopyImplFault.
Import ListNotations.

Section Final.
Variable succ : nat -> list nat.
Variable K : nat.
Variable ext : bool.
Variable roots : list nat.
Hypothesis succ_dec : forall n m, In m (succ n) -> m < n.

Lemma all_permits_free_at_return s : Reachable succ K ext roots s -> is_final s = true ->
  free s = K /\ holders s = 0 /\ inflight s = 0.
Proof.
  intros Hr Hf.
  pose proof (final_all_finished succ s (proj2 (inv12_reach succ K ext roots succ_dec s Hr)) Hf) as Hall.
  destruct (permits_conserved succ K ext roots s Hr) as [Hp [_ Hfin]].
  assert (Hh : holders s = 0).
  { unfold holders. apply count_upto_false. intros i _. apply Hfin. apply Hall. }
  assert (Hi : inflight s = 0).
  { unfold inflight. apply count_upto_false. intros i _. specialize (Hall i).
    destruct (t_pc (tasks s i)); simpl in *; congruence. }
  repeat split; auto. lia.
Qed.
End Final.
