(* C20: the repository regular expression (re-translated from registry/reference.go on every
   run) is exactly the documented repository-name rule of the distribution specification, stated
   as an inductive grammar that does not mention regular expressions:
     name      ::= component ( '/' component )*
     component ::= alnum+ ( separator alnum+ )*
     separator ::= '.' | '_' | '__' | '-'+
     alnum     ::= [a-z0-9]                                                            *)
From Oras Require Import Base.Prelude Base.Regex Generated.GC20 Model.Reference Proofs.Reference.

Definition lalnum (c : N) : bool := ((48 <=? c) && (c <=? 57)) || ((97 <=? c) && (c <=? 122)).
Definition alnum1 (s : str) : Prop := s <> [] /\ Forall (fun c => lalnum c = true) s.

Inductive Separator : str -> Prop :=
| SepDot : Separator [46]
| SepUnderscore : Separator [95]
| SepUnderscore2 : Separator [95; 95]
| SepDashes n : Separator (repeat 45 (S n)).

Inductive Component : str -> Prop :=
| CompOne a : alnum1 a -> Component a
| CompMore a sep c : alnum1 a -> Separator sep -> Component c -> Component (a ++ sep ++ c).

Inductive RepoName : str -> Prop :=
| RepoOne c : Component c -> RepoName c
| RepoMore c r : Component c -> RepoName r -> RepoName (c ++ [c_slash] ++ r).

Lemma Lang_Star_induction a (P : str -> Prop) :
  P [] -> (forall s t, Lang a s -> Lang (Star a) t -> P t -> P (s ++ t)) ->
  forall s, Lang (Star a) s -> P s.
Proof.
  intros H0 HS s H. remember (Star a) as r eqn:E.
  induction H; try discriminate; injection E as ->; auto.
Qed.

Definition RA : list (N * N) := [(48, 57); (97, 122)].
Definition SEP : re := Alt (Cls [(46, 46); (95, 95)]) (Alt (Lit [95; 95]) (Star (Lit [45]))).
Definition COMP : re := Cat (Plus (Cls RA)) (Star (Cat SEP (Plus (Cls RA)))).

Lemma in_ranges_RA c : in_ranges RA c = lalnum c.
Proof. unfold in_ranges, RA, lalnum. cbn [existsb fst snd]. now rewrite orb_false_r. Qed.

Lemma Lang_PlusA s : Lang (Plus (Cls RA)) s <-> alnum1 s.
Proof.
  unfold Plus, alnum1. rewrite Lang_Cat. split.
  - intros (s1 & s2 & -> & H1 & H2). apply Lang_Cls in H1 as (c & -> & H1).
    apply Lang_star_cls in H2. split; [discriminate|]. simpl. constructor.
    + now rewrite <- in_ranges_RA.
    + eapply Forall_impl; [|exact H2]. intros x Hx. now rewrite <- in_ranges_RA.
  - intros [Hne F]. destruct s as [|c s]; [contradiction|]. inversion F; subst.
    exists [c], s. split; [reflexivity|]. split.
    + apply Lang_Cls. exists c. split; auto. now rewrite in_ranges_RA.
    + apply Lang_star_cls. eapply Forall_impl; [|eassumption]. intros x Hx. cbv beta. now rewrite in_ranges_RA.
Qed.

Lemma Lang_dashes s : Lang (Star (Lit [45])) s <-> exists n, s = repeat 45 n.
Proof.
  split.
  - intro H. pattern s. eapply Lang_Star_induction; [| |exact H].
    + now exists 0%nat.
    + intros s1 t H1 _ [n ->]. apply Lang_Lit in H1. subst s1. now exists (S n).
  - intros [n ->]. induction n as [|n IH]; simpl; [constructor|].
    change (45 :: repeat 45 n) with ([45] ++ repeat 45 n). constructor; [now apply (Lang_Lit [45]) | exact IH].
Qed.

(* the expression's "-*" also matches the empty string: two alnum runs then simply merge *)
Lemma Lang_SEP s : Lang SEP s <-> Separator s \/ s = [].
Proof.
  unfold SEP. rewrite !Lang_Alt, Lang_Lit, Lang_dashes, Lang_Cls. split.
  - intros [(c & -> & H)|[->|[n ->]]].
    + left. unfold in_ranges in H. cbn [existsb fst snd] in H. rewrite orb_false_r in H.
      apply orb_true_iff in H as [H|H]; apply andb_true_iff in H as [A B]; apply N.leb_le in A, B.
      * assert (c = 46) by lia. subst. constructor.
      * assert (c = 95) by lia. subst. constructor.
    + left. constructor.
    + destruct n; [now right | left; constructor].
  - intros [H| ->].
    + destruct H.
      * left. now exists 46.
      * left. now exists 95.
      * right. now left.
      * right. right. now exists (S n).
    + right. right. now exists 0%nat.
Qed.

Lemma alnum1_app a c : alnum1 a -> alnum1 c -> alnum1 (a ++ c).
Proof.
  intros [Ha Fa] [_ Fc]. split; [destruct a; [contradiction | discriminate]|]. now apply Forall_app.
Qed.

Lemma comp_prepend a c : alnum1 a -> Component c -> Component (a ++ c).
Proof.
  intros Ha Hc. destruct Hc as [a' Ha' | a' sep c' Ha' Hs Hc'].
  - constructor. now apply alnum1_app.
  - rewrite app_assoc. apply CompMore; auto. now apply alnum1_app.
Qed.

Lemma Lang_COMP s : Lang COMP s <-> Component s.
Proof.
  unfold COMP. rewrite Lang_Cat. split.
  - intros (a & t & -> & Ha & Ht). apply Lang_PlusA in Ha. revert a Ha.
    pattern t. eapply Lang_Star_induction; [| |exact Ht].
    + intros a Ha. rewrite app_nil_r. now constructor.
    + intros s1 t' H1 _ IH a Ha.
      apply Lang_Cat in H1 as (sep & a' & -> & Hsep & Ha'). apply Lang_PlusA in Ha'.
      apply Lang_SEP in Hsep as [Hsep| ->].
      * rewrite <- !app_assoc. apply CompMore; auto.
      * simpl. rewrite app_assoc. apply IH. now apply alnum1_app.
  - induction 1 as [a Ha | a sep c Ha Hs Hc IH].
    + exists a, []. rewrite app_nil_r. repeat split; [now apply Lang_PlusA | constructor].
    + destruct IH as (a' & t' & -> & Ha' & Ht').
      exists a, ((sep ++ a') ++ t'). split; [now rewrite <- !app_assoc|].
      split; [now apply Lang_PlusA|].
      constructor; [|exact Ht']. constructor; [|exact Ha']. apply Lang_SEP. now left.
Qed.

Lemma repositoryRegexp_shape :
  repositoryRegexp
  = Cat (Plus (Cls RA)) (Cat (Star (Cat SEP (Plus (Cls RA)))) (Star (Cat (Lit [47]) COMP))).
Proof. reflexivity. Qed.

Lemma Lang_repository s :
  Lang repositoryRegexp s <-> exists c t, s = c ++ t /\ Lang COMP c /\ Lang (Star (Cat (Lit [47]) COMP)) t.
Proof.
  rewrite repositoryRegexp_shape. unfold COMP at 2. rewrite Lang_Cat. split.
  - intros (a & u & -> & Ha & Hu). apply Lang_Cat in Hu as (x & t & -> & Hx & Ht).
    exists (a ++ x), t. split; [now rewrite app_assoc|]. split; [|exact Ht]. now constructor.
  - intros (c & t & -> & Hc & Ht). apply Lang_Cat in Hc as (a & x & -> & Ha & Hx).
    exists a, (x ++ t). split; [now rewrite app_assoc|]. split; [exact Ha|]. now constructor.
Qed.

Theorem repository_grammar s : valid_repository s = true <-> RepoName s.
Proof.
  unfold valid_repository. rewrite matches_spec, Lang_repository. split.
  - intros (c & t & -> & Hc & Ht). apply Lang_COMP in Hc. revert c Hc.
    pattern t. eapply Lang_Star_induction; [| |exact Ht].
    + intros c Hc. rewrite app_nil_r. now constructor.
    + intros s1 t' H1 _ IH c Hc.
      apply Lang_Cat in H1 as (sl & c' & -> & Hsl & Hc'). apply Lang_Lit in Hsl. subst sl.
      apply Lang_COMP in Hc'. rewrite <- app_assoc. apply RepoMore; auto.
  - induction 1 as [c Hc | c r Hc Hr IH].
    + exists c, []. rewrite app_nil_r. repeat split; [now apply Lang_COMP | constructor].
    + destruct IH as (c' & t' & -> & Hc' & Ht').
      exists c, (([c_slash] ++ c') ++ t'). split; [now rewrite <- !app_assoc|].
      split; [now apply Lang_COMP|].
      constructor; [|exact Ht']. constructor; [now apply (Lang_Lit [47]) | exact Hc'].
Qed.

(* every '/'-separated segment of a valid repository is a component, in particular never "." / ".." *)
Lemma component_head c : Component c -> exists x t, c = x :: t /\ lalnum x = true.
Proof.
  destruct 1 as [a [Hne F] | a sep c' [Hne F] _ _]; destruct a as [|x a]; try contradiction;
    inversion F; subst.
  - exists x, a. auto.
  - exists x, (a ++ sep ++ c'). auto.
Qed.

Lemma repository_grammar_examples :
  RepoName (b "a__b/c--d.e") /\ ~ RepoName (b "a___b") /\ ~ RepoName (b "a-_b") /\ ~ RepoName (b "a//b") /\ ~ RepoName (b "Org/app").
Proof.
  repeat split; try (rewrite <- repository_grammar; vm_compute; (reflexivity || discriminate)).
Qed.

(* the digest rule (go-digest v1.0.0), stated without the parser's helper functions:
   <algorithm> ':' <encoded>, the algorithm one of the table AND linked into the binary, the
   encoded part lower-case hex of exactly the algorithm's length *)
Theorem digest_grammar avail s :
  valid_digest avail s = true <->
  exists alg n enc, In (alg, n) alg_table /\ avail alg = true /\ s = alg ++ [c_colon] ++ enc /\
                    length enc = n /\ Forall (fun c => hexlower c = true) enc.
Proof.
  split.
  - intro H. apply valid_digest_inv in H as (alg & n & enc & -> & Hin & Ha & Hl & Hx).
    exists alg, n, enc. repeat split; auto. apply Forall_forall. now apply forallb_forall.
  - unfold valid_digest. intros (alg & n & enc & Hin & Ha & -> & Hl & Hf).
    assert (Hx : forallb hexlower enc = true) by (apply forallb_forall; now apply Forall_forall).
    change (alg ++ [c_colon] ++ enc) with (alg ++ c_colon :: enc).
    simpl in Hin. destruct Hin as [Hin|[Hin|[Hin|[]]]]; injection Hin as <- <-;
      (rewrite split_first_app by reflexivity); vm_compute (find _ _);
      rewrite Ha, Hx, <- Hl, Nat.eqb_refl; reflexivity.
Qed.

Definition hexr : list (N * N) := [(48, 57); (97, 102)].

Lemma in_ranges_hexr c : in_ranges hexr c = hexlower c.
Proof. unfold in_ranges, hexr, hexlower. cbn [existsb fst snd]. now rewrite orb_false_r. Qed.

(* ^[a-f0-9]{n}$ *)
Lemma rep_hex n s : matches (Rep (Cls hexr) n n) s = Nat.eqb (length s) n && forallb hexlower s.
Proof.
  apply Bool.eq_true_iff_eq. rewrite matches_spec. unfold Rep. rewrite Nat.sub_diag, Lang_Cat.
  rewrite andb_true_iff, Nat.eqb_eq, forallb_forall. split.
  - intros (s1 & s2 & -> & H1 & H2). apply Lang_rep_exact_cls in H1 as [L1 A1].
    apply Lang_rep_upto_cls in H2 as [L2 _]. destruct s2; [|simpl in L2; lia].
    rewrite app_nil_r. split; [exact L1|]. intros c Hc. unfold all_in in A1. rewrite Forall_forall in A1.
    rewrite <- in_ranges_hexr. now apply A1.
  - intros [L A]. exists s, []. rewrite app_nil_r. split; [reflexivity|]. split.
    + apply Lang_rep_exact_cls. split; [exact L|]. apply Forall_forall. intros c Hc. rewrite in_ranges_hexr. now apply A.
    + apply Lang_rep_upto_cls. split; [simpl; lia | constructor].
Qed.

Lemma go_digest_table_is_alg_table :
  map (fun p => (fst (fst p), snd (fst p))) go_digest_algorithms = alg_table.
Proof. reflexivity. Qed.

Lemma go_digest_regexes_ok :
  Forall (fun p => forall enc, matches (snd p) enc = Nat.eqb (length enc) (snd (fst p)) && forallb hexlower enc)
         go_digest_algorithms.
Proof. repeat constructor; intro enc; apply rep_hex. Qed.

Lemma find_proj (l : list (str * nat * re)) alg :
  find (fun p => str_eqb (fst p) alg) (map (fun p => (fst (fst p), snd (fst p))) l)
  = option_map (fun p => (fst (fst p), snd (fst p))) (find (fun p => str_eqb (fst (fst p)) alg) l).
Proof.
  induction l as [|[[nm n] r] l IH]; [reflexivity|]. simpl. destruct (str_eqb nm alg); [reflexivity | exact IH].
Qed.

(* Digest.Validate assembled from go-digest's source = the closed form of the theorems *)
Theorem valid_digest_gen_eq avail s : valid_digest_gen avail s = valid_digest avail s.
Proof.
  unfold valid_digest_gen, valid_digest. destruct (split_first c_colon s) as [[alg enc]|]; [|reflexivity].
  rewrite <- go_digest_table_is_alg_table, find_proj.
  destruct (find (fun p => str_eqb (fst (fst p)) alg) go_digest_algorithms) as [[[nm n] r]|] eqn:F; [|reflexivity].
  simpl. apply find_some in F as [Hin _].
  pose proof go_digest_regexes_ok as G. rewrite Forall_forall in G. specialize (G _ Hin enc). simpl in G.
  rewrite G. destruct (avail alg), (Nat.eqb (length enc) n); reflexivity.
Qed.
