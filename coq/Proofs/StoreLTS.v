(* Proofs/StoreLTS.v -- every interleaving of the atomic steps of concurrent Push / Tag /
   Untag operations (with exclusive Delete / GC / reopen in between) leads, once all
   operations have returned, to a store in which Predecessors is exact and which a reopen
   reproduces. *)
From Coq Require Import List NArith Arith Bool Lia Permutation.
Import ListNotations.
From Oras Require Import Base.Prelude Model.GraphMem Model.GraphStore Model.IndexLTS Model.StoreLTS
     Proofs.GraphMem Proofs.GraphStore Proofs.IndexLTS.
Local Open Scope nat_scope.

Lemma Forall_set_nth {A} (Q : A -> Prop) x : forall l i, Forall Q l -> Q x -> Forall Q (set_nth i x l).
Proof.
  induction l as [|z r IH]; intros i Hl Hx; destruct i; simpl; auto; inversion Hl; subst; constructor; auto.
Qed.

(* what the threads in flight still owe *)
Definition p_push1 (p : node) (t : cthread) : bool :=
  match ct_op t with CPush n => N.eqb n p && Nat.eqb (ct_pc t) 1 | _ => false end.
Definition p_push12 (p : node) (t : cthread) : bool :=
  match ct_op t with CPush n => N.eqb n p && (Nat.eqb (ct_pc t) 1 || Nat.eqb (ct_pc t) 2) | _ => false end.
Definition p_save (t : cthread) : bool :=
  match ct_op t with
  | CPush _ => Nat.eqb (ct_pc t) 3
  | CTag _ => Nat.eqb (ct_pc t) 2 || Nat.eqb (ct_pc t) 3
  | CUntag _ => Nat.eqb (ct_pc t) 3
  | CAtomic _ => false
  end.
(* what the next step of a thread in flight relies on: graph.Index on the blob being stored, the
   tag by name on the entry by digest *)
Definition Qt (s : ostore) (t : cthread) : Prop :=
  match ct_op t, ct_pc t with
  | CPush n, 1 => In n (o_blobs s)
  | CTag n, 2 => In n (o_bydigest s)
  | _, _ => True
  end.

Lemma push1_spec p op pc : p_push1 p (mkCT op pc) = true <-> op = CPush p /\ pc = 1.
Proof.
  unfold p_push1. destruct op; simpl; try (split; [discriminate | intros [H _]; discriminate]).
  rewrite andb_true_iff, N.eqb_eq, Nat.eqb_eq. split; intros [H1 H2]; split; congruence.
Qed.

Lemma push12_spec p op pc : p_push12 p (mkCT op pc) = true <-> op = CPush p /\ (pc = 1 \/ pc = 2).
Proof.
  unfold p_push12. destruct op; simpl; try (split; [discriminate | intros [H _]; discriminate]).
  rewrite andb_true_iff, orb_true_iff, N.eqb_eq, !Nat.eqb_eq. split; intros [H1 H2]; split; congruence.
Qed.

Lemma idle_pc t : idle_t t = true <-> ct_pc t = 0 \/ ct_pc t = done_pc.
Proof. unfold idle_t. now rewrite orb_true_iff, !Nat.eqb_eq. Qed.

Lemma idle_owes_nothing (P : cthread -> bool) l :
  (forall op pc, P (mkCT op pc) = true -> pc <> 0 /\ pc <> done_pc) ->
  forallb idle_t l = true -> existsb P l = true -> False.
Proof.
  intros HP Hi He. apply existsb_exists in He. destruct He as ([op pc] & Hin & Hp).
  rewrite forallb_forall in Hi. apply Hi, idle_pc in Hin. apply HP in Hp. simpl in Hin. tauto.
Qed.

Section Conc.
Variable content : node -> list node.
Variable isman : node -> bool.
Variable rank : node -> nat.
Hypothesis content_isman : forall p, content p <> [] -> isman p = true.
Hypothesis rank_dec : forall p c, In c (content p) -> rank c < rank p.

(* the store invariant with the debts of the threads *)
Definition owed (P : cthread -> bool) (st : cstate) : Prop := existsb P (c_threads st) = true.
Definition K (st : cstate) : Prop :=
  JX content isman (fun p => owed (p_push12 p) st) (fun p => owed (p_push1 p) st) (owed p_save st) (c_s st) /\
  Forall (Qt (c_s st)) (c_threads st).

Lemma J_K s ops : J content isman s -> K (cinit s ops).
Proof.
  intro HJ. split.
  - apply (JX_mono HJ); intros; contradiction.
  - simpl. induction ops; simpl; constructor; auto. unfold Qt. simpl. destruct a; exact I.
Qed.

Lemma K_J st : forallb idle_t (c_threads st) = true -> K st -> J content isman (c_s st).
Proof.
  intros Hi [HJ _]. apply (JX_mono HJ).
  - intros p _. apply (idle_owes_nothing _ _) ; auto. intros op pc H. apply push12_spec in H. unfold done_pc. lia.
  - intros p _. apply (idle_owes_nothing _ _); auto. intros op pc H. apply push1_spec in H. unfold done_pc. lia.
  - apply (idle_owes_nothing _ _); auto. intros op pc. unfold p_save, done_pc. simpl.
    destruct op; rewrite ?orb_true_iff, ?Nat.eqb_eq; try discriminate; lia.
Qed.

Lemma done_idle st : call_done st = true -> forallb idle_t (c_threads st) = true.
Proof.
  unfold call_done. induction (c_threads st) as [|t r IH]; simpl; auto.
  intro H. apply andb_true_iff in H. destruct H as [H1 H2]. rewrite (IH H2).
  unfold idle_t. rewrite H1. rewrite orb_true_r. reflexivity.
Qed.

Lemma Forall_Qt_mono s s' l :
  (forall q, In q (o_blobs s) -> In q (o_blobs s')) ->
  (forall q, In q (o_bydigest s) -> In q (o_bydigest s')) -> Forall (Qt s) l -> Forall (Qt s') l.
Proof.
  intros Hb Hd H. eapply Forall_impl; [|exact H]. intros t. unfold Qt.
  destruct (ct_op t); destruct (ct_pc t) as [|[|[|[|k]]]]; auto.
Qed.

(* thread i moves to pc' and the store to s', which satisfies the invariant with debts
   unrooted, unindexed, u: K holds again when the new thread list owes them *)
Lemma K_step st i op pc' s' unrooted unindexed (u : Prop) :
  JX content isman unrooted unindexed u s' ->
  let st' := mkC s' (set_nth i (mkCT op pc') (c_threads st)) in
  (forall p, isman p = true -> unrooted p -> owed (p_push12 p) st') ->
  (forall p, isman p = true -> unindexed p -> owed (p_push1 p) st') ->
  (u -> owed p_save st') ->
  Forall (Qt s') (c_threads st) -> Qt s' (mkCT op pc') ->
  K st'.
Proof.
  intros HJ st' A B C HF HQ. split; [exact (JX_mono HJ A B C)|].
  apply Forall_set_nth; auto.
Qed.
Arguments K_step st i {op pc' s' unrooted unindexed u}.

Lemma owed_after st i t (E : nth_error (c_threads st) i = Some t) P t' s' :
  owed P (mkC s' (set_nth i t' (c_threads st))) <->
  P t' = true \/ existsb P (others (c_threads st) i) = true.
Proof. unfold owed. simpl. now rewrite (existsb_others P _ i _ E), orb_true_iff. Qed.

Lemma owed_before st i t (E : nth_error (c_threads st) i = Some t) P :
  owed P st <-> P t = true \/ existsb P (others (c_threads st) i) = true.
Proof. rewrite <- (owed_after st i t E P t (c_s st)). unfold owed. simpl. now rewrite (set_nth_same _ i _ E). Qed.

(* thread i still owes at its new pc what it owed at the old one (or owed nothing): by the
   program counters, after push12_spec / push1_spec *)
Local Ltac carry := unfold done_pc; rewrite ?push12_spec, ?push1_spec; simpl; try discriminate;
  try (intros [Ho Hp]; first [discriminate Ho | split; [exact Ho | lia]]); auto.

Lemma cstep_K fuel st i st' : K st -> cstep content isman fuel st i = Some st' -> K st'.
Proof.
  intros HK H. pose proof HK as [HJ HQ]. unfold cstep in H.
  destruct (nth_error (c_threads st) i) as [[op pc]|] eqn:E; [|discriminate].
  assert (HQt : Qt (c_s st) (mkCT op pc)).
  { rewrite Forall_forall in HQ. apply HQ. eapply nth_error_In; eauto. }
  (* a debt of another thread is carried over; one of thread i when its new pc still owes it *)
  assert (Hnew : forall P pc' s', P (mkCT op pc') = true ->
            owed P (mkC s' (set_nth i (mkCT op pc') (c_threads st))))
    by (intros P pc' s' HP; apply (owed_after st i _ E); auto).
  assert (Hcarry : forall P pc' s', (P (mkCT op pc) = true -> P (mkCT op pc') = true) -> owed P st ->
            owed P (mkC s' (set_nth i (mkCT op pc') (c_threads st))))
    by (intros P pc' s' HP Ho; apply (owed_after st i _ E); apply (owed_before st i _ E) in Ho; destruct Ho; auto).
  unfold Qt in HQt. cbn [ct_op ct_pc] in *.
  destruct op as [n|n|n|o].
  - (* Push *)
    destruct pc as [|[|[|[|k]]]]; try discriminate.
    + (* storage.Push *)
      destruct (smem n (o_blobs (c_s st))) eqn:M; inversion H; subst; clear H.
      * apply (K_step st i HJ); [intros p _ Hx | intros p _ Hx | intro Hx | exact HQ |];
          try (apply Hcarry; [carry | exact Hx]). exact I.
      * apply (K_step st i (JX_store_blob n HJ)).
        -- intros p _ [->|Hx]; [apply Hnew, push12_spec; auto | apply Hcarry; [carry | exact Hx]].
        -- intros p _ [->|Hx]; [apply Hnew, push1_spec; auto | apply Hcarry; [carry | exact Hx]].
        -- intro Hx. apply Hcarry; [carry | exact Hx].
        -- apply (Forall_Qt_mono (c_s st)); simpl; auto.
        -- unfold Qt. simpl. auto.
    + (* graph.Index *)
      inversion H; subst; clear H.
      apply (K_step st i (JX_index n HJ HQt)).
      * intros p _ Hx. apply Hcarry; [carry | exact Hx].
      * intros p _ [Hne Hx]. apply Hcarry; [|exact Hx]. rewrite !push1_spec. intros [Ho _]. congruence.
      * intro Hx. apply Hcarry; [carry | exact Hx].
      * exact HQ.
      * exact I.
    + (* tag by digest (manifests) *)
      destruct (isman n) eqn:Mn; inversion H; subst; clear H.
      * refine (K_step st i (JX_resolver (sadd n (o_bydigest (c_s st))) (o_tagged (c_s st)) HJ _ _ (Hnew p_save 3 _ eq_refl)) _ _ (fun H => H) _ _).
        -- intros p Hp. apply In_sadd. auto.
        -- intros p Hp. apply In_sadd. right. apply (j_tagged HJ), Hp.
        -- intros p _ [Hx Hn]. apply Hcarry; [|exact Hx]. rewrite !push12_spec. intros [Ho _].
           destruct Hn. apply In_sadd. left. congruence.
        -- intros p _ Hx. apply Hcarry; [carry | exact Hx].
        -- apply (Forall_Qt_mono (c_s st)); simpl; auto. intros q Hq. apply In_sadd. auto.
        -- exact I.
      * apply (K_step st i HJ); [intros p Hm Hx | intros p _ Hx | intro Hx | exact HQ |].
        -- apply Hcarry; [|exact Hx]. rewrite !push12_spec. intros [Ho _]. congruence.
        -- apply Hcarry; [carry | exact Hx].
        -- apply Hcarry; [carry | exact Hx].
        -- exact I.
    + (* saveIndex *)
      inversion H; subst; clear H.
      apply (K_step st i (JX_save False HJ));
        [intros p _ Hx | intros p _ Hx | intros [] | exact HQ | exact I]; (apply Hcarry; [carry | exact Hx]).
  - (* Tag *)
    destruct pc as [|[|[|[|k]]]]; try discriminate.
    + (* storage.Exists *)
      assert (forall pc', pc' = 1 \/ pc' = done_pc ->
                K (mkC (c_s st) (set_nth i (mkCT (CTag n) pc') (c_threads st)))) as Hk.
      { intros pc' Hpc. apply (K_step st i HJ); [intros p _ Hx | intros p _ Hx | intro Hx | exact HQ |];
          try (apply Hcarry; [carry | exact Hx]). destruct Hpc as [-> | ->]; exact I. }
      destruct (smem n (o_blobs (c_s st))); inversion H; subst; clear H; apply Hk; auto.
    + (* by digest *)
      inversion H; subst; clear H.
      refine (K_step st i (JX_resolver (sadd n (o_bydigest (c_s st))) (o_tagged (c_s st)) HJ _ _ (Hnew p_save 2 _ eq_refl)) _ _ (fun H => H) _ _).
      * intros p Hp. apply In_sadd. auto.
      * intros p Hp. apply In_sadd. right. apply (j_tagged HJ), Hp.
      * intros p _ [Hx _]. apply Hcarry; [carry | exact Hx].
      * intros p _ Hx. apply Hcarry; [carry | exact Hx].
      * apply (Forall_Qt_mono (c_s st)); simpl; auto. intros q Hq. apply In_sadd. auto.
      * unfold Qt. simpl. apply In_sadd. auto.
    + (* by name *)
      inversion H; subst; clear H.
      refine (K_step st i (JX_resolver (o_bydigest (c_s st)) (sadd n (o_tagged (c_s st))) HJ _ _ (Hnew p_save 3 _ eq_refl)) _ _ (fun H => H) _ _).
      * auto.
      * intros p Hp. apply In_sadd in Hp. destruct Hp as [->|Hp]; [auto | apply (j_tagged HJ), Hp].
      * intros p _ [Hx _]. apply Hcarry; [carry | exact Hx].
      * intros p _ Hx. apply Hcarry; [carry | exact Hx].
      * exact HQ.
      * exact I.
    + (* saveIndex *)
      inversion H; subst; clear H.
      apply (K_step st i (JX_save False HJ));
        [intros p _ Hx | intros p _ Hx | intros [] | exact HQ | exact I]; (apply Hcarry; [carry | exact Hx]).
  - (* Untag *)
    destruct pc as [|[|[|[|k]]]]; try discriminate.
    + destruct (smem n (o_tagged (c_s st))); inversion H; subst; clear H.
      * refine (K_step st i (JX_resolver (o_bydigest (c_s st)) (sdel n (o_tagged (c_s st))) HJ _ _ (Hnew p_save 3 _ eq_refl)) _ _ (fun H => H) _ _).
        -- auto.
        -- intros p Hp. apply In_sdel in Hp. apply (j_tagged HJ), Hp.
        -- intros p _ [Hx _]. apply Hcarry; [carry | exact Hx].
        -- intros p _ Hx. apply Hcarry; [carry | exact Hx].
        -- exact HQ.
        -- exact I.
      * apply (K_step st i HJ); [intros p _ Hx | intros p _ Hx | intro Hx | exact HQ | exact I];
          (apply Hcarry; [carry | exact Hx]).
    + inversion H; subst; clear H.
      apply (K_step st i (JX_save False HJ));
        [intros p _ Hx | intros p _ Hx | intros [] | exact HQ | exact I]; (apply Hcarry; [carry | exact Hx]).
  - (* Atomic: nobody in flight *)
    destruct pc as [|k]; [|discriminate].
    destruct (forallb idle_t (c_threads st)) eqn:Hi; [|discriminate].
    inversion H; subst; clear H.
    pose proof (ostep_J content isman rank content_isman rank_dec fuel (c_s st) o False (K_J st Hi HK) (fun _ F => F)) as HJ'.
    apply (K_step st i HJ'); try contradiction.
    + rewrite forallb_forall in Hi. apply Forall_forall. intros [op pc] Hx. apply Hi, idle_pc in Hx.
      unfold Qt. simpl in *. destruct Hx as [-> | ->]; destruct op; exact I.
    + exact I.
Qed.

Lemma crun_K fuel trace : forall st st', K st -> crun content isman fuel st trace = Some st' -> K st'.
Proof.
  induction trace as [|i r IH]; intros st st' HK H; simpl in H.
  - inversion H; subst; auto.
  - destruct (cstep content isman fuel st i) as [st1|] eqn:E; [|discriminate].
    apply (IH st1); auto. apply (cstep_K fuel st i); auto.
Qed.

Lemma concurrent_quiescent_J fuel ops0 cops trace st' :
  let s0 := fst (orun true true true content isman fuel empty_store ops0) in
  crun content isman fuel (cinit s0 cops) trace = Some st' -> call_done st' = true ->
  J content isman (c_s st').
Proof.
  intros s0 H Hd.
  apply K_J; [apply done_idle, Hd|].
  apply (crun_K fuel trace (cinit s0 cops)); auto.
  apply J_K. apply (orun_J content isman rank content_isman rank_dec). apply J_empty.
Qed.

Lemma concurrent_quiescent_exact fuel ops0 cops trace st' n :
  let s0 := fst (orun true true true content isman fuel empty_store ops0) in
  crun content isman fuel (cinit s0 cops) trace = Some st' -> call_done st' = true ->
  NoDup (predecessors (o_graph (c_s st')) n) /\
  forall p, In p (predecessors (o_graph (c_s st')) n) <-> In p (o_blobs (c_s st')) /\ In n (content p).
Proof.
  intros s0 H Hd. apply (J_exact content isman content_isman no_debt False).
  apply (concurrent_quiescent_J fuel ops0 cops trace st' H Hd).
Qed.

Lemma concurrent_quiescent_reopen fuel ops0 cops trace st' s'' :
  let s0 := fst (orun true true true content isman fuel empty_store ops0) in
  crun content isman fuel (cinit s0 cops) trace = Some st' -> call_done st' = true ->
  ostep true true true content isman fuel (c_s st') PReopen = (s'', true) ->
  o_blobs s'' = o_blobs (c_s st') /\
  forall n, Permutation (predecessors (o_graph s'') n) (predecessors (o_graph (c_s st')) n).
Proof.
  intros s0 H Hd. apply (J_reopen_same content isman rank content_isman rank_dec).
  apply (concurrent_quiescent_J fuel ops0 cops trace st' H Hd).
Qed.

(* at EVERY reachable state, quiescent or not: no extra and no duplicate answer, and the only
   stored referencing nodes that may still be missing are those whose Push is between its
   storage step and its index step *)
Lemma concurrent_anytime fuel ops0 cops trace st' n :
  let s0 := fst (orun true true true content isman fuel empty_store ops0) in
  crun content isman fuel (cinit s0 cops) trace = Some st' ->
  NoDup (predecessors (o_graph (c_s st')) n) /\
  (forall p, In p (predecessors (o_graph (c_s st')) n) -> In p (o_blobs (c_s st')) /\ In n (content p)) /\
  (forall p, In p (o_blobs (c_s st')) -> In n (content p) ->
             In p (predecessors (o_graph (c_s st')) n) \/ existsb (p_push1 p) (c_threads st') = true).
Proof.
  intros s0 H.
  assert (K st') as [[H1 _ H3 H4 _ _] _].
  { apply (crun_K fuel trace (cinit s0 cops)); auto.
    apply J_K. apply (orun_J content isman rank content_isman rank_dec). apply J_empty. }
  assert (Hman : forall p, In n (content p) -> isman p = true).
  { intros p Hn. apply content_isman. intro E. rewrite E in Hn. destruct Hn. }
  destruct (exact_full content (o_graph (c_s st')) H1 n) as (Hd & Hm & _).
  split; auto. split.
  - intros p Hp. apply Hm in Hp. destruct Hp as [Hp Hn]. auto.
  - intros p Hp Hn. destruct (H4 p Hp (Hman p Hn)) as [Hx|Hx]; auto. left. apply Hm. auto.
Qed.
End Conc.

(* a complete interleaved run: three pushes and a tag step by step, then an exclusive delete *)
Definition lts_ct : amap := [(2, [0]); (3, [2])]%N.
Definition lts_isman (x : node) : bool := N.leb 2 x.
Definition lts_ops : list cop := [CPush 2%N; CPush 3%N; CTag 3%N; CAtomic (PDelete 3%N); CPush 0%N].
Definition lts_trace : list nat := [4; 0; 1; 4; 1; 0; 4; 0; 1; 1; 0; 2; 2; 2; 2; 3].
