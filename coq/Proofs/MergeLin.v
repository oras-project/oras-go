(* C14 — linearisation, registry view and garbage invariants of the Merge
   transition system (Model/Merge.v), on top of the structural invariant of
   Proofs/Merge.v. *)
From Oras Require Import Base.Prelude Model.Referrers Proofs.Referrers Model.Merge Proofs.Merge.

Lemma member_after_app k b l1 l2 :
  member_after k b (l1 ++ l2) = member_after k (member_after k b l1) l2.
Proof. unfold member_after. apply fold_left_app. Qed.

Lemma member_after_zero cs : changes_nonempty cs -> member_after 0 false cs = false.
Proof.
  unfold member_after. induction cs as [|c t IH]; intro F; simpl; auto.
  inversion F as [|? ? Fc Ft]; subst.
  assert (E : member_step 0 false c = false).
  { destruct c as [d|d]; simpl in *; apply N.eqb_neq in Fc; now rewrite Fc. }
  rewrite E. auto.
Qed.

Lemma apply_effect old cs : changes_nonempty cs -> forall k,
  memb (Some (match apply_changes old cs with Updated new => new | NoUpdate => old end)) k
  = member_after k (memb (Some old) k) cs.
Proof.
  intros F k. unfold memb. simpl. destruct (k =? 0) eqn:E; simpl.
  - apply N.eqb_eq in E. subst k. now rewrite member_after_zero.
  - apply eq_iff_eq_true. rewrite !has_key_In. destruct (apply_changes old cs) as [|new] eqn:H.
    + apply apply_noupdate_iff in H as [_ H]; auto. now rewrite H, spec_apply_member, E.
    + apply apply_updated_spec in H; auto. subst new. now rewrite spec_apply_member, E.
Qed.

Lemma apply_updated_effect old cs new :
  changes_nonempty cs -> apply_changes old cs = Updated new ->
  forall k, memb (Some new) k = member_after k (memb (Some old) k) cs.
Proof. intros F H k. pose proof (apply_effect old cs F k) as E. now rewrite H in E. Qed.

Lemma desc_eqb_true a b : desc_eqb a b = true -> a = b.
Proof.
  unfold desc_eqb. rewrite !andb_true_iff, !N.eqb_eq. intros [[A B] C].
  destruct a, b; simpl in *; congruence.
Qed.

Lemma desc_eqb_refl a : desc_eqb a a = true.
Proof. unfold desc_eqb. now rewrite !N.eqb_refl. Qed.

Lemma index_eqb_true a : forall b, index_eqb a b = true -> a = b.
Proof.
  induction a as [|x a IH]; intros [|y b] H; simpl in H; try discriminate; auto.
  apply andb_true_iff in H as [H1 H2]. apply desc_eqb_true in H1. apply IH in H2. congruence.
Qed.

Lemma index_eqb_refl a : index_eqb a a = true.
Proof. induction a; simpl; auto. now rewrite desc_eqb_refl. Qed.

Lemma apply_updated_neq old cs new :
  changes_nonempty cs -> apply_changes old cs = Updated new -> index_eqb new old = false.
Proof.
  intros F H. destruct (index_eqb new old) eqn:E; auto. apply index_eqb_true in E. subst new.
  pose proof (apply_updated_spec _ _ _ F H) as Hs.
  assert (Hn : apply_changes old cs = NoUpdate).
  { apply apply_noupdate_iff; auto. split.
    - rewrite Hs. now apply spec_apply_wf.
    - intro k. now rewrite <- Hs. }
  congruence.
Qed.

Lemma memb_none_nil k : memb None k = memb (Some []) k.
Proof. reflexivity. Qed.

(* the main caller's view of the registry cell: the index it fetched is still there, or it was an
   index without a single referrer that another tag's update deleted (EExtDrop): as a set nothing
   changed *)
Definition droppable (o : option index) : Prop :=
  match o with Some x => forallb is_empty x = true | None => True end.
Definition view (r o : option index) : Prop := r = o \/ (r = None /\ droppable o).

Lemma empty_index_memb x k : forallb is_empty x = true -> memb (Some x) k = false.
Proof.
  intro H. unfold memb. simpl. destruct (k =? 0) eqn:E; simpl; auto.
  apply N.eqb_neq in E. destruct (has_key k x) eqn:Hk; auto. exfalso.
  apply has_key_In in Hk. unfold keys in Hk. apply in_map_iff in Hk as (d & Ed & Hd).
  rewrite forallb_forall in H. specialize (H d Hd). unfold is_empty in H. apply N.eqb_eq in H. congruence.
Qed.

Lemma view_memb r o k : view r o -> memb r k = memb o k.
Proof.
  intros [->|[-> D]]; auto. destruct o as [x|]; auto. simpl in D.
  pose proof (empty_index_memb x k D) as E. unfold memb in *. simpl in *. rewrite E. now rewrite andb_false_r.
Qed.

Lemma view_refl r : view r r.
Proof. now left. Qed.

Lemma view_drop x o : forallb is_empty x = true -> view (Some x) o -> view None o.
Proof. intros H [<-|[E _]]; [right; split; auto|discriminate]. Qed.

Lemma view_some r x o : r = Some x -> view r o -> o = Some x.
Proof. intros -> [<-|[E _]]; [reflexivity|discriminate]. Qed.

(* whether the call of caller t, in state p, has taken effect; b = the current batch,
   ap = the current batch has taken effect *)
Definition eff (b : list tid) (ap : bool) (t : tid) (p : pc) : Prop :=
  match p with
  | Idle | Got _ => False
  | Wait => In t b /\ ap = true
  | Ret r | Done r => r <> RErr
  | _ => ap = true
  end.

(* what the main caller's state says about whether its batch has taken effect *)
Definition flag (p : pc) : bool :=
  match p with
  | NeedDel _ a => a
  | Completing r => match r with RErr => false | _ => true end
  | _ => false
  end.

(* what the main caller knows about the registry cell r; its = the batch *)
Definition view_ok (its : list (tid * change)) (p : pc) (r : option index) : Prop :=
  match p with
  | Prepared (Some o) => view r o
  | NeedPut new o => view r o /\ apply_changes (idx o) (map snd its) = Updated new
  | NeedDel oi false => view r (Some oi) /\ apply_changes oi (map snd its) = Updated []
  | NeedDel oi true => exists new, view r (Some new) /\ index_eqb new oi = false
  | _ => True
  end.

Record InvV (reg0 : option index) (s : state) : Prop := {
  v_lin : forall t, In t (lin s) <-> eff (batch s) (applied s) t (pcs s t);
  v_flag : forall t, is_main (pcs s t) = true -> flag (pcs s t) = applied s;
  v_nd : NoDup (lin s);
  v_set : forall k, memb (reg s) k = member_after k (memb reg0 k) (map (arg s) (lin s));
  v_ne_got : forall t c, pcs s t = Got c -> dkey (cdesc c) <> 0;
  v_ne_items : forall t c, In (t, c) (items s) -> dkey (cdesc c) <> 0;
  v_ne_pend : forall t c, In (t, c) (pending s) -> dkey (cdesc c) <> 0;
  v_view : forall t, view_ok (items s) (pcs s t) (reg s);
  g_store : forall x, In x (store s) ->
      reg s = Some x \/ In x (junk s) \/ exists t a, pcs s t = NeedDel x a
}.

Lemma invV_init r0 st0 : InvV r0 (init r0 st0).
Proof.
  constructor; simpl; try discriminate; try (intros t c []).
  - intro t. split; intros [].
  - constructor.
  - reflexivity.
  - exact (fun _ => I).
  - intros x Hx. destruct (is_cur r0 x) eqn:E.
    + left. unfold is_cur in E. destruct r0 as [c|]; [|discriminate]. apply index_eqb_true in E. now subst.
    + right; left. apply filter_In. split; auto. now rewrite E.
Qed.

Section Read.
  Variables (r0 : option index) (s : state).
  Hypothesis V : InvV r0 s.

  Lemma v_idle t : In t (lin s) -> pcs s t <> Idle /\ (forall c, pcs s t <> Got c).
  Proof. intro H. apply (v_lin _ _ V) in H. split; [|intro c]; intro E; now rewrite E in H. Qed.

  Lemma v_wait t : pcs s t = Wait -> (In t (lin s) <-> In t (batch s) /\ applied s = true).
  Proof. intro E. pose proof (v_lin _ _ V t) as H. now rewrite E in H. Qed.

  Lemma v_main t : is_main (pcs s t) = true -> (In t (lin s) <-> applied s = true).
  Proof. intro E. pose proof (v_lin _ _ V t) as H. now destruct (pcs s t). Qed.

  Lemma v_ret t r : pcs s t = Ret r \/ pcs s t = Done r -> (In t (lin s) <-> r <> RErr).
  Proof. intro E. pose proof (v_lin _ _ V t) as H. now destruct E as [E|E]; rewrite E in H. Qed.

  Lemma items_nonempty : changes_nonempty (map snd (items s)).
  Proof.
    apply Forall_forall. intros c Hc.
    apply in_map_iff in Hc as ((t, c') & E & Hin). simpl in E. subst c'. eapply (v_ne_items _ _ V); eauto.
  Qed.
End Read.

Lemma map_arg_upd s t c l : ~ In t l -> map (upd (arg s) t c) l = map (arg s) l.
Proof.
  intro H. apply map_ext_in. intros x Hx. rewrite upd_neq; auto. intro; subst; auto.
Qed.

Lemma map_arg_batch s : InvS s -> map (arg s) (batch s) = map snd (items s).
Proof.
  intro I. unfold batch. rewrite map_map. apply map_ext_in. intros [t c] Hin. simpl.
  now destruct (i_items s I t c Hin).
Qed.

(* the batch, what has taken effect and the set view of the registry cell stay; pool, committed
   flag and token are not read by InvV *)
Lemma invV_move r0 s t p' pl cm tk pe' r' st' j' :
  InvV r0 s ->
  (eff (batch s) (applied s) t p' <-> In t (lin s)) ->
  (is_main p' = true -> flag p' = applied s) ->
  (forall c, p' = Got c -> dkey (cdesc c) <> 0) ->
  (forall x c, In (x, c) pe' -> dkey (cdesc c) <> 0) ->
  (forall k, memb r' k = memb (reg s) k) ->
  (forall x, view_ok (items s) (upd (pcs s) t p' x) r') ->
  (forall y, In y st' -> r' = Some y \/ In y j' \/ exists x a, upd (pcs s) t p' x = NeedDel y a) ->
  InvV r0 (mkSt pl cm (items s) tk pe' (upd (pcs s) t p') r' st' (arg s) (lin s) j' (applied s)).
Proof.
  intros V Heff Hfl Hgot Hpe Hset Hview Hst. constructor; simpl; auto.
  - intro x. tcase x t; [now symmetry|apply (v_lin _ _ V)].
  - intros x Hx. tcase x t; [now apply Hfl|now apply (v_flag _ _ V)].
  - apply (v_nd _ _ V).
  - intro k. rewrite Hset. apply (v_set _ _ V).
  - intros x c Hx. tcase x t; [now apply Hgot|now apply (v_ne_got _ _ V x)].
  - apply (v_ne_items _ _ V).
Qed.

Lemma store_keep r0 s t p' : InvV r0 s -> (forall y a, pcs s t <> NeedDel y a) ->
  forall y, In y (store s) -> reg s = Some y \/ In y (junk s) \/ exists x a, upd (pcs s) t p' x = NeedDel y a.
Proof.
  intros V Hn y Hy. destruct (g_store _ _ V y Hy) as [H|[H|(x & a & H)]]; auto. right; right. exists x, a.
  rewrite upd_neq; auto. intros ->. now apply Hn in H.
Qed.

Lemma view_upd r0 s t p' : InvV r0 s -> view_ok (items s) p' (reg s) ->
  forall x, view_ok (items s) (upd (pcs s) t p' x) (reg s).
Proof. intros V Hp x. tcase x t; [exact Hp|apply (v_view _ _ V)]. Qed.

Lemma stepV_get sg r0 s t c s' :
  InvS s -> InvV r0 s -> step sg s (EGet t c) = Some s' -> InvV r0 s'.
Proof.
  intros I V H. destruct (step_get sg s t c s' I H) as (Hpc & Hne & ->).
  assert (Hnl : ~ In t (lin s)) by (intro Hx; now destruct (v_idle _ _ V t Hx)).
  assert (V1 : InvV r0 (mkSt (pool s) (committed s) (items s) (token s) (pending s) (pcs s) (reg s) (store s)
                             (upd (arg s) t c) (lin s) (junk s) (applied s))).
  { destruct V. constructor; simpl; auto. now rewrite map_arg_upd. }
  apply (invV_move r0 _ t (Got c) _ _ _ _ _ _ _ V1); simpl; try apply V; try tauto; try discriminate.
  - intros c0 [= <-]. now apply N.eqb_neq.
  - now apply (view_upd r0 _ t _ V1).
  - apply (store_keep r0 _ t _ V1). intros y a. simpl. now rewrite Hpc.
Qed.

Lemma stepV_done sg r0 s t s' :
  InvS s -> InvV r0 s -> step sg s (EDone t) = Some s' -> InvV r0 s'.
Proof.
  intros I V H. simpl in H.
  destruct (pcs s t) as [|c0| | |o|nw o|oi ap|r|r|r] eqn:Hpc; try discriminate.
  destruct (pool s) as [rc|] eqn:Hpool; try discriminate. injection H as <-.
  apply invV_move; try apply V; try discriminate; auto.
  - rewrite (v_lin _ _ V t), Hpc. reflexivity.
  - now apply (view_upd r0).
  - apply (store_keep r0); [exact V|]. intros y a. now rewrite Hpc.
Qed.

Lemma stepV_recv sg r0 s t s' :
  InvS s -> InvV r0 s -> step sg s (ERecvMain t) = Some s' -> InvV r0 s'.
Proof.
  intros I V H. simpl in H.
  destruct (pcs s t) eqn:Hpc; try discriminate.
  destruct (token s) eqn:Htok; simpl in H; try discriminate.
  destruct (mem t (batch s)); try discriminate. injection H as <-.
  assert (Ha : applied s = false).
  { destruct (applied s) eqn:E; auto. apply (i_applied s I) in E. destruct (i_token s I Htok). congruence. }
  apply invV_move; try apply V; try discriminate; auto.
  - rewrite (v_wait _ _ V t Hpc), Ha. simpl. intuition discriminate.
  - now apply (view_upd r0).
  - apply (store_keep r0); [exact V|]. intros y a. now rewrite Hpc.
Qed.

Lemma stepV_assign sg r0 s t s' :
  InvS s -> InvV r0 s -> step sg s (EAssign t) = Some s' -> InvV r0 s'.
Proof.
  intros I V H. simpl in H.
  destruct (pcs s t) eqn:Hpc; try discriminate.
  assert (Hnl : ~ In t (lin s)) by (intro Hx; destruct (v_idle _ _ V t Hx) as [_ Hy]; now apply Hy in Hpc).
  assert (Hnb : ~ In t (batch s)) by (apply not_in_batch; auto; now rewrite Hpc).
  assert (Hk : dkey (cdesc c) <> 0) by now apply (v_ne_got _ _ V t).
  assert (Hst : forall y, In y (store s) -> reg s = Some y \/ In y (junk s) \/ exists x a, upd (pcs s) t Wait x = NeedDel y a)
    by (apply (store_keep r0); [exact V|]; intros y a; now rewrite Hpc).
  destruct (committed s) eqn:Hc; injection H as <-.
  - (* the pending batch *)
    apply invV_move; try apply V; try discriminate; auto.
    + simpl. tauto.
    + intros x c0 Hin. apply in_snoc in Hin as [Hin|[= -> ->]]; [now apply (v_ne_pend _ _ V x)|exact Hk].
    + now apply (view_upd r0).
  - (* the current batch: nothing of it has taken effect, nobody is past the commit point *)
    assert (Ha : applied s = false).
    { destruct (applied s) eqn:E; auto. apply (i_applied s I) in E. congruence. }
    assert (Hnpc : forall x, post_commit (pcs s x) = false).
    { intro x. destruct (post_commit (pcs s x)) eqn:E; auto. apply (i_committed s I) in E. congruence. }
    constructor; unfold batch; simpl; try apply V; auto.
    + intro x. rewrite Ha. tcase x t; [simpl; intuition discriminate|].
      rewrite (v_lin _ _ V x), Ha. destruct (pcs s x); simpl; try tauto. intuition discriminate.
    + intros x Hx. tcase x t; [discriminate|now apply (v_flag _ _ V)].
    + intros x c0 Hx. tcase x t; [discriminate|now apply (v_ne_got _ _ V x)].
    + intros x c0 Hin. apply in_snoc in Hin as [Hin|[= -> ->]]; [now apply (v_ne_items _ _ V x)|exact Hk].
    + intro x. tcase x t; [exact Logic.I|]. pose proof (v_view _ _ V x) as W. specialize (Hnpc x).
      destruct (pcs s x); try discriminate; exact W.
Qed.

Lemma view_ok_other its p r : is_main p = false -> view_ok its p r.
Proof. destruct p; try discriminate; intros _; exact I. Qed.

Lemma eff_main b ap t p : is_main p = true -> (eff b ap t p <-> ap = true).
Proof. destruct p; try discriminate; reflexivity. Qed.

Lemma NoDup_app_disj {A} (l1 l2 : list A) :
  NoDup l1 -> NoDup l2 -> (forall x, In x l1 -> ~ In x l2) -> NoDup (l1 ++ l2).
Proof.
  induction l1 as [|h t IH]; simpl; intros N1 N2 D; auto.
  inversion N1 as [|? ? Hn Hd]; subst. constructor.
  - rewrite in_app_iff. intros [H|H]; [auto|]. eapply D; eauto.
  - apply IH; auto.
Qed.

Section MainStep.
  Variables (r0 : option index) (s : state) (t : tid) (p : pc) (cm : bool)
            (r' : option index) (st' j' : list index).
  Hypothesis I : InvS s.
  Hypothesis V : InvV r0 s.
  Hypothesis Hm : is_main (pcs s t) = true.
  Hypothesis Hp : is_main p = true.
  Hypothesis Hview : view_ok (items s) p r'.
  Hypothesis Hstore : forall x, In x st' -> r' = Some x \/ In x j' \/ exists a, p = NeedDel x a.

  Let Hview' : forall x, view_ok (items s) (upd (pcs s) t p x) r'.
  Proof. intro x. tcase x t; [exact Hview|]. now apply view_ok_other, (other_not_main s t). Qed.

  Let Hstore' : forall y, In y st' -> r' = Some y \/ In y j' \/ exists x a, upd (pcs s) t p x = NeedDel y a.
  Proof.
    intros y Hy. destruct (Hstore y Hy) as [H|[H|(a & H)]]; auto. right; right. exists t, a. now rewrite upd_eq.
  Qed.

  Lemma invV_main_keep :
    flag p = applied s -> (forall k, memb r' k = memb (reg s) k) ->
    InvV r0 (mkSt (pool s) cm (items s) (token s) (pending s) (upd (pcs s) t p) r' st'
                  (arg s) (lin s) j' (applied s)).
  Proof.
    intros Hf Hset. apply invV_move; auto; try apply V.
    - rewrite (v_main _ _ V t Hm). now apply eff_main.
    - intros c ->. discriminate.
  Qed.

  Lemma invV_main_apply :
    applied s = false -> flag p = true ->
    (forall k, memb r' k = member_after k (memb (reg s) k) (map snd (items s))) ->
    InvV r0 (mkSt (pool s) cm (items s) (token s) (pending s) (upd (pcs s) t p) r' st'
                  (arg s) (lin s ++ batch s) j' true).
  Proof.
    intros Ha Hf Hset.
    assert (Hdisj : forall x, In x (lin s) -> ~ In x (batch s)).
    { intros x Hl Hb. apply (v_lin _ _ V) in Hl. rewrite Ha in Hl.
      destruct (batch_member s x I Hb) as [E|E]; [rewrite E in Hl; now destruct Hl|].
      apply (eff_main (batch s) false x) in E. now apply E in Hl. }
    constructor; simpl; auto; try apply V.
    - intro x. rewrite in_app_iff, (v_lin _ _ V x), Ha. tcase x t.
      + rewrite (eff_main _ _ _ _ Hp). pose proof (i_main_in s I t Hm). tauto.
      + pose proof (other_not_main s t x I Hm Hne) as Hx. pose proof (batch_member s x I) as Hb.
        destruct (pcs s x); try discriminate; simpl; intuition congruence.
    - intros x Hx. tcase x t; [exact Hf|]. now rewrite (other_not_main s t) in Hx.
    - apply NoDup_app_disj; auto; [apply (v_nd _ _ V)|apply (i_items_nd s I)].
    - intro k. rewrite map_app, member_after_app, map_arg_batch by auto.
      rewrite <- (v_set _ _ V k). apply Hset.
    - intros x c Hx. tcase x t; [now rewrite Hx in Hp|now apply (v_ne_got _ _ V x)].
  Qed.
End MainStep.

Lemma store_cases r0 s t : InvS s -> InvV r0 s -> is_main (pcs s t) = true ->
  forall x, In x (store s) -> reg s = Some x \/ In x (junk s) \/ exists a, pcs s t = NeedDel x a.
Proof.
  intros I V Hm x Hx. destruct (g_store _ _ V x Hx) as [H|[H|(t0 & a & H)]]; auto.
  right; right. exists a. assert (t0 = t); [|subst; auto].
  apply (i_main_unique s I); [now rewrite H|exact Hm].
Qed.

Lemma stepV_prepare sg r0 s t f s' :
  InvS s -> InvV r0 s -> step sg s (EPrepare t f) = Some s' -> InvV r0 s'.
Proof.
  intros I V H. simpl in H.
  destruct (pcs s t) eqn:Hpc; try discriminate. injection H as <-.
  assert (Hm : is_main (pcs s t) = true) by now rewrite Hpc.
  pose proof (v_flag _ _ V t Hm) as Hf. rewrite Hpc in Hf.
  pose proof (store_cases _ _ _ I V Hm) as Hst.
  apply (invV_main_keep r0 s t); auto.
  - destruct f; simpl; [exact Logic.I|apply view_refl].
  - intros x Hx. destruct (Hst x Hx) as [E|[E|(a & E)]]; auto. congruence.
Qed.

Lemma stepV_commit sg r0 s t s' :
  InvS s -> InvV r0 s -> step sg s (ECommit t) = Some s' -> InvV r0 s'.
Proof.
  intros I V H. simpl in H.
  destruct (pcs s t) as [|c0| | |old|nw o|oi ap|r|r|r] eqn:Hpc; try discriminate.
  assert (Hm : is_main (pcs s t) = true) by now rewrite Hpc.
  pose proof (v_flag _ _ V t Hm) as Ha. rewrite Hpc in Ha. simpl in Ha. symmetry in Ha.
  pose proof (items_nonempty _ _ V) as Hne.
  assert (Hst : forall p x, In x (store s) -> reg s = Some x \/ In x (junk s) \/ exists a, p = NeedDel x a).
  { intros p x Hx. destruct (store_cases _ _ _ I V Hm x Hx) as [E|[E|(a & E)]]; auto. congruence. }
  destruct old as [o|]; [|injection H as <-; apply (invV_main_keep r0 s t); simpl; auto].
  pose proof (v_view _ _ V t) as Hr. rewrite Hpc in Hr. simpl in Hr.
  assert (Hrm : forall k, memb (reg s) k = memb o k) by (intro k; now apply view_memb).
  destruct (apply_changes (idx o) (map snd (items s))) as [|new] eqn:Ea.
  - injection H as <-. apply (invV_main_apply r0 s t); simpl; auto.
    intro k. rewrite Hrm. pose proof (apply_effect (idx o) _ Hne k) as E. now rewrite Ea in E.
  - destruct (negb (is_nil new) || sg) eqn:Epush; [injection H as <-; apply (invV_main_keep r0 s t); simpl; auto|].
    apply orb_false_iff in Epush as [En _]. apply negb_false_iff in En. destruct new; [|discriminate].
    destruct o as [oi|]; injection H as <-; [apply (invV_main_keep r0 s t); simpl; auto|].
    apply (invV_main_apply r0 s t); simpl; auto.
    intro k. rewrite Hrm. apply (apply_updated_effect [] _ [] Hne Ea).
Qed.

(* the PUT of the new index takes effect, whatever the client sees *)
Lemma stepV_put sg r0 s t f s' :
  InvS s -> InvV r0 s -> step sg s (EPut t f) = Some s' \/ (f = false /\ step sg s (EPutLost t) = Some s') -> InvV r0 s'.
Proof.
  intros I V H.
  assert (Hpc : exists nw o, pcs s t = NeedPut nw o).
  { destruct H as [H|[_ H]]; simpl in H; destruct (pcs s t); try discriminate; eauto. }
  destruct Hpc as (nw & o & Hpc).
  assert (Hm : is_main (pcs s t) = true) by now rewrite Hpc.
  pose proof (v_flag _ _ V t Hm) as Ha. rewrite Hpc in Ha. simpl in Ha. symmetry in Ha.
  pose proof (items_nonempty _ _ V) as Hne.
  assert (Hst : forall x, In x (store s) -> reg s = Some x \/ In x (junk s)).
  { intros x Hx. destruct (store_cases _ _ _ I V Hm x Hx) as [E|[E|(a & E)]]; auto. congruence. }
  pose proof (v_view _ _ V t) as W. rewrite Hpc in W. destruct W as [Hr Hap].
  (* the old index is still in the store: it is handed to the deletion, or becomes junk *)
  assert (Hstore : forall p j', (forall oi, o = Some oi -> p = NeedDel oi true \/ In oi j') -> incl (junk s) j' ->
            forall x, In x (nw :: store s) -> Some nw = Some x \/ In x j' \/ exists a, p = NeedDel x a).
  { intros p j' Ho Hj x [<-|Hx]; auto. destruct (Hst x Hx) as [E|E]; [|auto].
    destruct (Ho x (view_some _ _ _ E Hr)) as [->|]; eauto. }
  assert (Hset : forall k, memb (Some nw) k = member_after k (memb (reg s) k) (map snd (items s))).
  { intro k. rewrite (view_memb _ _ k Hr). apply (apply_updated_effect (idx o) _ nw Hne Hap). }
  destruct H as [H|[-> H]]; simpl in H; rewrite Hpc in H.
  - destruct f; injection H as <-.
    + apply (invV_main_keep r0 s t); simpl; auto. intros x Hx. destruct (Hst x Hx); auto.
    + unfold after_put. destruct sg.
      * apply (invV_main_apply r0 s t); simpl; auto. apply Hstore; [intros oi ->; right; now left|].
        destruct o; [apply incl_tl|]; apply incl_refl.
      * destruct o as [oi|]; apply (invV_main_apply r0 s t); simpl; auto.
        -- exists nw. split; [apply view_refl|]. apply (apply_updated_neq oi _ nw Hne Hap).
        -- apply Hstore; [intros ? [= <-]; now left|apply incl_refl].
        -- apply Hstore; [discriminate|apply incl_refl].
  - injection H as <-. apply (invV_main_apply r0 s t); simpl; auto.
    apply Hstore; [intros oi ->; right; now left|]. destruct o; [apply incl_tl|]; apply incl_refl.
Qed.

(* the DELETE of the old index fails, or takes effect whatever the client sees *)
Lemma stepV_del sg r0 s t f s' :
  InvS s -> InvV r0 s -> step sg s (EDel t f) = Some s' \/ (f = false /\ step sg s (EDelLost t) = Some s') -> InvV r0 s'.
Proof.
  intros I V H.
  assert (Hpc : exists oi ap, pcs s t = NeedDel oi ap).
  { destruct H as [H|[_ H]]; simpl in H; destruct (pcs s t); try discriminate; eauto. }
  destruct Hpc as (oi & ap & Hpc).
  assert (Hm : is_main (pcs s t) = true) by now rewrite Hpc.
  pose proof (v_flag _ _ V t Hm) as Ha. rewrite Hpc in Ha. simpl in Ha. symmetry in Ha.
  pose proof (items_nonempty _ _ V) as Hne.
  pose proof (store_cases _ _ _ I V Hm) as Hst.
  pose proof (v_view _ _ V t) as W. rewrite Hpc in W.
  set (r' := match reg s with Some cur => if index_eqb cur oi then None else Some cur | None => None end).
  set (st' := filter (fun x => negb (index_eqb x oi)) (store s)).
  (* the old index leaves the store; it is not the current one unless its deletion is the update *)
  assert (Hstore : forall r, (r' = reg s \/ r' = None /\ reg s = Some oi) ->
            forall x, In x st' -> r' = Some x \/ In x (junk s) \/ exists a, Completing r = NeedDel x a).
  { intros r Hr x Hx. apply filter_In in Hx as [Hx Hx2]. apply negb_true_iff in Hx2.
    assert (Hxo : x <> oi) by (intros ->; now rewrite index_eqb_refl in Hx2).
    destruct (Hst x Hx) as [E|[E|(a & E)]]; auto; [|congruence].
    destruct Hr as [->|[_ Hr]]; [auto|congruence]. }
  assert (Hdone : forall r, r <> RErr -> InvV r0 (set_pc (if ap then set_reg s r' st' (junk s) else add_lin (set_reg s r' st' (junk s))) t (Completing r))).
  { intros r Hr. assert (Hf : flag (Completing r) = true) by now destruct r.
    destruct ap.
    - destruct W as (new & Hv & Hneq).
      assert (Er : r' = reg s).
      { unfold r'. destruct Hv as [->|[-> _]]; [now rewrite Hneq|reflexivity]. }
      apply (invV_main_keep r0 s t); simpl; auto; [rewrite Ha; exact Hf|intro k; now rewrite Er].
    - destruct W as (Hv & Hap).
      assert (Er : r' = None) by (unfold r'; destruct Hv as [->|[-> _]]; [now rewrite index_eqb_refl|reflexivity]).
      apply (invV_main_apply r0 s t); simpl; auto.
      + apply Hstore. destruct Hv as [E|[E _]]; [right; split|left]; congruence.
      + intro k. rewrite Er, (view_memb _ _ k Hv). apply (apply_updated_effect oi _ [] Hne Hap). }
  destruct H as [H|[-> H]]; simpl in H; rewrite Hpc in H.
  - destruct f; injection H as <-; [|apply Hdone; discriminate].
    apply (invV_main_keep r0 s t); simpl; auto; [|rewrite Ha; now destruct ap].
    intros x Hx. destruct (Hst x Hx) as [E|[E|(a & E)]]; auto.
    rewrite Hpc in E. injection E as <- _. right; left. now left.
  - injection H as <-. destruct ap; apply (Hdone _); discriminate.
Qed.

Lemma stepV_complete sg r0 s t s' :
  InvS s -> InvV r0 s -> step sg s (EComplete t) = Some s' -> InvV r0 s'.
Proof.
  intros I V H. simpl in H.
  destruct (pcs s t) as [|c0| | |old|nw o|oi ap|r|r|r] eqn:Hpc; try discriminate. injection H as <-.
  fold (complete_pcs s t r).
  assert (Hm : is_main (pcs s t) = true) by now rewrite Hpc.
  pose proof (v_flag _ _ V t Hm) as Hf. rewrite Hpc in Hf.
  assert (Hr : r <> RErr <-> applied s = true) by (rewrite <- Hf; destruct r; simpl; intuition congruence).
  pose proof (fun x => other_not_main s t x I Hm) as Hnm.
  constructor; simpl; try apply V.
  - intro x. rewrite (v_lin _ _ V x).
    destruct (complete_pcs_cases s t r x) as [[A ->]|(A & B & ->)]; simpl.
    + destruct (Nat.eq_dec x t) as [->|Hne]; [rewrite Hpc; simpl; tauto|]. destruct A as [A|A]; [congruence|].
      destruct (batch_member s x I A) as [E|E]; [rewrite E; simpl; tauto|]. now rewrite Hnm in E.
    + specialize (Hnm x A). destruct (pcs s x); try discriminate; simpl; intuition discriminate.
  - intros x Hx. destruct (complete_pcs_cases s t r x) as [[_ E]|(A & _ & E)]; rewrite E in Hx; [discriminate|].
    now rewrite Hnm in Hx.
  - intros x c Hx. destruct (complete_pcs_cases s t r x) as [[_ E]|(_ & _ & E)]; rewrite E in Hx; [discriminate|].
    now apply (v_ne_got _ _ V x).
  - intros x c [].
  - intro x. destruct (complete_pcs_cases s t r x) as [[_ ->]|(A & _ & ->)]; [exact Logic.I|].
    now apply view_ok_other, Hnm.
  - intros x Hx. destruct (store_cases _ _ _ I V Hm x Hx) as [E|[E|(a & E)]]; auto. congruence.
Qed.

Lemma stepV_extdrop sg r0 s s' :
  InvV r0 s -> step sg s EExtDrop = Some s' -> InvV r0 s'.
Proof.
  intros V H. simpl in H. destruct (reg s) as [x|] eqn:Er; [|discriminate].
  destruct (forallb is_empty x) eqn:Ex; [|discriminate]. injection H as <-.
  constructor; simpl; try apply V.
  - intro k. rewrite <- (v_set _ _ V), Er. exact (view_memb None (Some x) k (or_intror (conj eq_refl Ex))).
  - intro t. pose proof (v_view _ _ V t) as W. rewrite Er in W.
    destruct (pcs s t) as [| | | |[o|]|nw o|oi [|]| | |]; simpl in *; auto.
    + now apply (view_drop x).
    + split; [now apply (view_drop x)|apply W].
    + destruct W as (new & Hv & B). exists new. split; [now apply (view_drop x)|exact B].
    + split; [now apply (view_drop x)|apply W].
  - intros y Hy. apply filter_In in Hy as [Hy Hy2]. apply negb_true_iff in Hy2.
    destruct (g_store _ _ V y Hy) as [E|[E|E]]; auto.
    rewrite Er in E. injection E as <-. now rewrite index_eqb_refl in Hy2.
Qed.

Lemma stepV sg r0 s e s' : InvS s -> InvV r0 s -> step sg s e = Some s' -> InvV r0 s'.
Proof.
  intros I V H. destruct e.
  - eapply stepV_get; eauto.
  - eapply stepV_assign; eauto.
  - eapply stepV_recv; eauto.
  - eapply stepV_prepare; eauto.
  - eapply stepV_commit; eauto.
  - eapply stepV_put; eauto.
  - eapply (stepV_put sg r0 s t false); eauto.
  - eapply stepV_del; eauto.
  - eapply (stepV_del sg r0 s t false); eauto.
  - eapply stepV_complete; eauto.
  - eapply stepV_done; eauto.
  - eapply stepV_extdrop; eauto.
Qed.

Lemma run_inv sg r0 tr : forall s s',
  InvS s -> InvV r0 s -> run sg s tr = Some s' -> InvS s' /\ InvV r0 s'.
Proof.
  induction tr as [|e tr IH]; intros s s' I V H; simpl in H.
  - injection H as <-. auto.
  - destruct (step sg s e) as [s1|] eqn:E; [|discriminate].
    apply (IH s1 s'); [eapply stepS; eauto | eapply stepV; eauto | exact H].
Qed.

Lemma reachable_inv sg r0 st0 tr s :
  run sg (init r0 st0) tr = Some s -> InvS s /\ InvV r0 s.
Proof.
  intros H. eapply run_inv; eauto using invS_init, invV_init.
Qed.
