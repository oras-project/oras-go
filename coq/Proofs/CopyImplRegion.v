(* CopyImplRegion: LimitedRegion over the semaphore model never makes the semaphore panic
   ("released more than held"), End / Start are idempotent, and the permits held are exactly the
   started regions. *)
From Coq Require Import List Arith Bool Lia.
From Oras Require Import Model.CopyImplSem Model.CopyImplRegion Proofs.CopyImplSem.
Import ListNotations.

Definition pend (s : sem) (x : nat) : Prop := In x (s_wait s ++ s_granted s).
Definition takes (o : sop) (r : sres) : nat :=
  match o, r with SAcquire _ _, RGranted | SWake _ false, _ => 1 | _, _ => 0 end.

Lemma sstep_pend n s o s' r : SReach n s -> sstep s o = Some (s', r) ->
  (forall j, pend s' j <-> match o, r with
                           | SAcquire w _, RBlocked => j = w \/ pend s j
                           | SWake w _, _ | SCancel w, _ => j <> w /\ pend s j
                           | _, _ => pend s j
                           end) /\
  s_held s' + (match o with SRelease => 1 | _ => 0 end) = s_held s + takes o r.
Proof.
  intros Hr H. destruct (sreach_inv n s Hr) as [I _].
  pose proof (fun j => nodup_app_disj _ _ j (si_nodup s I)) as Hd.
  destruct (sstep_spec s o s' r I H) as [w|w Hn Hw Hlt|w Hn Hf|h c woken ws Hh Hcur Hw Hle' Hf|w Hin|
    w c woken ws Hin Hcur Hw Hle' Hf|w Hin]; unfold pend; cbn [takes s_wait s_granted s_held];
    (split; [intros j; try rewrite Hw in *; rewrite ?in_app_iff, ?remove1_In in *; cbn [In] | lia]); try tauto.
  (* the waiter that leaves is in one list only *)
  all: intuition (subst; auto; eapply Hd; eauto using in_or_app).
Qed.

Section Regions.
Variable n : nat.

Inductive RReach : rsys -> Prop :=
| RR_init : RReach (rinit n)
| RR_step x o x' : RReach x -> rstep x o = Some x' -> RReach x'.

Record RInv (x : rsys) : Prop := {
  ri_sem : SReach n (r_sem x);
  ri_pend : forall w, r_reg x w = RPending <-> pend (r_sem x) w;
  ri_started : exists l, NoDup l /\ (forall w, In w l <-> r_reg x w = RStarted) /\ length l = s_held (r_sem x) }.

Lemma rset_same f w v : rset f w v w = v.
Proof. unfold rset. rewrite Nat.eqb_refl. reflexivity. Qed.
Lemma rset_other f w v j : j <> w -> rset f w v j = f j.
Proof. intros H. unfold rset. destruct (Nat.eqb_spec j w); congruence. Qed.

Lemma rinv_init : RInv (rinit n).
Proof.
  constructor; cbn.
  - constructor.
  - intros w. unfold pend. cbn. split; [discriminate|contradiction].
  - exists []. repeat split; auto; try constructor; try contradiction; try discriminate.
Qed.

Definition started (v : rstate) : nat := match v with RStarted => 1 | _ => 0 end.

Lemma rinv_set x s' reg' w : RInv x -> SReach n s' -> (forall j, j <> w -> reg' j = r_reg x j) ->
  (forall j, j <> w -> (pend s' j <-> pend (r_sem x) j)) -> (pend s' w <-> reg' w = RPending) ->
  s_held s' + started (r_reg x w) = s_held (r_sem x) + started (reg' w) -> RInv (mkR s' reg').
Proof.
  intros [_ Hp [l [Hnd [Hl Hlen]]]] Hs' Hreg Hpo Hpw Hh. constructor; cbn [r_sem r_reg]; [exact Hs'| |].
  - intros j. destruct (Nat.eq_dec j w) as [->|Hne]; [now symmetry | now rewrite Hreg, Hpo, Hp].
  - (* the started regions of reg': those of x without w, and w if reg' has it started *)
    assert (Hrm : length (remove1 w l) + started (r_reg x w) = length l).
    { destruct (r_reg x w) eqn:Hw; cbn [started].
      1, 2: rewrite remove1_notin; [lia | rewrite Hl, Hw; discriminate].
      pose proof (remove1_length w l Hnd (proj2 (Hl w) Hw)). lia. }
    assert (Hnw : ~ In w (remove1 w l)) by (rewrite remove1_In; tauto).
    exists ((match reg' w with RStarted => [w] | _ => [] end) ++ remove1 w l). split; [|split].
    + destruct (reg' w); cbn; try constructor; auto; now apply NoDup_filter.
    + intros j. rewrite in_app_iff, remove1_In, Hl. destruct (Nat.eq_dec j w) as [->|Hne].
      * destruct (reg' w); cbn; intuition discriminate.
      * rewrite <- (Hreg j Hne). destruct (reg' w); cbn; intuition congruence.
    + rewrite app_length. destruct (reg' w); cbn [started length] in *; lia.
Qed.

Lemma rinv_step x o x' : RInv x -> rstep x o = Some x' -> RInv x'.
Proof.
  intros I H. pose proof (ri_sem x I) as Hs. pose proof (ri_pend x I) as Hp.
  destruct o as [w d|w|w d|w]; cbn [rstep] in H; destruct (r_reg x w) eqn:Hw;
    try discriminate H; try (injection H as <-; exact I).
  all: destruct (sstep (r_sem x) _) as [[s' r]|] eqn:E; [|discriminate H].
  all: destruct (sstep_pend n _ _ _ _ Hs E) as [Hpe Hh].
  all: assert (Hs' : SReach n s') by (econstructor; eauto).
  3: destruct d.
  1: destruct d, r.
  (* in every case region w alone changes, and what sstep_pend says of the operation is what rinv_set asks for *)
  all: injection H as <-; cbn [takes] in Hpe, Hh.
  all: apply (rinv_set x s' _ w I Hs');
    [ intros j Hne; now rewrite ?rset_other
    | intros j Hne; rewrite Hpe; tauto
    | rewrite ?rset_same, Hpe, <- Hp, Hw; intuition congruence
    | rewrite ?rset_same, Hw; cbn [started]; lia ].
Qed.

Lemma rreach_inv x : RReach x -> RInv x.
Proof. induction 1; eauto using rinv_init, rinv_step. Qed.

(* End() of a started region always succeeds: the semaphore never panics with "released more than
   held", whatever Start / End calls (idempotent ones included), wake-ups and cancellations came before *)
Theorem region_end_never_panics x w : RReach x -> r_reg x w = RStarted ->
  exists x', rstep x (REnd w) = Some x' /\ r_reg x' w = REnded.
Proof.
  intros Hr Hw. destruct (rreach_inv x Hr) as [Hs Hp [l [Hnd [Hl Hlen]]]].
  destruct (sreach_inv n _ Hs) as [[Hc Hle Hnl Hndp] Hsz].
  assert (Hin : In w l) by (apply Hl; auto).
  assert (Hh : 1 <= s_held (r_sem x)) by (destruct l; [contradiction|cbn in Hlen; lia]).
  cbn [rstep]. rewrite Hw. cbn [sstep].
  destruct (s_held (r_sem x)) as [|h]; [lia|]. destruct (s_cur (r_sem x)) as [|c]; [lia|].
  destruct (notify _ _ _ _ _) as [[[c' ws] gs] woken]. eexists. split; [reflexivity|]. cbn. apply rset_same.
Qed.

Theorem region_idempotent x w :
  (r_reg x w = REnded -> rstep x (REnd w) = Some x) /\
  (forall d, r_reg x w = RStarted -> rstep x (RStart w d) = Some x).
Proof. split; [intros H | intros d H]; cbn [rstep]; rewrite H; reflexivity. Qed.

Theorem region_permits x : RReach x ->
  exists l, NoDup l /\ (forall w, In w l <-> r_reg x w = RStarted) /\ length l = s_held (r_sem x) /\ length l <= n.
Proof.
  intros Hr. destruct (rreach_inv x Hr) as [Hs Hp [l [Hnd [Hl Hlen]]]].
  exists l. repeat split; auto; try apply Hl. destruct (sem_sound n _ Hs) as [_ [_ [Hle _]]]. lia.
Qed.

End Regions.
