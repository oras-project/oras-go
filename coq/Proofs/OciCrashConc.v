(* C10 -- concurrent callers (Model/OciCrashConc.v): every configuration reachable by any schedule
   is a directory the property accepts; a reference name in index.json was there at the start
   or is set by one of the calls; a call scheduled alone is the sequential model's operation. *)
From Oras Require Import Base.Prelude Model.OciCrash Model.OciCrashSpec Model.OciCrashConc Proofs.OciCrash.

Section ConcProofs.
Variable H : list N -> N.
Variable shuffle : nat -> list entry -> list entry.
Hypothesis shuffle_In : forall c l e, In e (shuffle c l) <-> In e l.

Notation stepN := (sched_step shuffle).

(* the rest of a thread's program is safe: a blob is published only when the ingest file holds
   verified content, a resolver entry is made only for a blob that exists (or that the thread
   itself has published earlier in the same call: [extra]) *)
Fixpoint safe (fs : FS) (extra : list N) (tmp : list atom) (p : list act) : Prop :=
  match p with
  | [] => True
  | TWrite a :: r => safe fs extra (tmp ++ [a]) r
  | TPublishBlob d :: r => (exists c, tmp = map AChunk c /\ H c = d) /\ safe fs (d :: extra) [] r
  | TDropTemp :: r => safe fs extra [] r
  | TTagMem d _ :: r => (has fs (FBlob d) \/ In d extra) /\ safe fs extra tmp r
  | _ :: r => safe fs extra tmp r
  end.

Definition grows (fs fs' : FS) : Prop := forall d, has fs (FBlob d) -> has fs' (FBlob d).

(* the directory may grow, and a blob the thread has published counts as existing *)
Lemma safe_weaken fs fs' p : grows fs fs' -> forall e1 e2 tmp,
  (forall x, In x e1 -> In x e2 \/ has fs' (FBlob x)) -> safe fs e1 tmp p -> safe fs' e2 tmp p.
Proof.
  intro G. induction p as [|a p IH]; intros e1 e2 tmp He S; [exact I|].
  destruct a; cbn [safe] in *; try (now apply (IH e1)).
  - destruct S as [E S]. split; [exact E|]. apply (IH (d :: e1)); [|exact S].
    intros x [<-|Hx]; [left; now left|]. destruct (He x Hx) as [Hy|Hy]; [left; now right|now right].
  - destruct S as [[E|E] S]; (split; [|now apply (IH e1)]); [left; now apply G|].
    destruct (He _ E) as [Hy|Hy]; [now right|now left].
Qed.

Lemma safe_mono fs fs' p : grows fs fs' -> forall extra tmp, safe fs extra tmp p -> safe fs' extra tmp p.
Proof. intros G extra tmp. apply (safe_weaken fs fs' p G). now left. Qed.

Lemma safe_absorb fs p d extra tmp :
  has fs (FBlob d) -> safe fs (d :: extra) tmp p -> safe fs extra tmp p.
Proof.
  intro Hd. apply (safe_weaken fs fs p); [now intros x Hx|]. intros x [<-|Hx]; [now right|now left].
Qed.

Lemma safe_writes fs extra c : forall tmp rest,
  safe fs extra (tmp ++ map AChunk c) rest -> safe fs extra tmp (map (fun x => TWrite (AChunk x)) c ++ rest).
Proof.
  induction c as [|x c IH]; intros tmp rest S; cbn [map app safe].
  - now rewrite app_nil_r in S.
  - apply IH. now rewrite <- app_assoc.
Qed.

Definition TOK (fs : FS) (t : thread) : Prop :=
  (forall l, tsnap t = Some l -> forall e, In e l -> has fs (FBlob (fst e))) /\
  safe fs [] (ttmp t) (tprog t).

Record CInv (c : conf) : Prop := {
  ci_layout : layout_ok (cfs c);
  ci_blob : blob_ok H (cfs c);
  ci_index : index_ok (cfs c);
  ci_tagdig : forall r n, In (r, n) (ctags c) -> In n (cdigs c);
  ci_digs : forall n, In n (cdigs c) -> has (cfs c) (FBlob n);
  ci_threads : forall t, In t (cthreads c) -> TOK (cfs c) t
}.

Lemma tok_mono fs fs' t : grows fs fs' -> TOK fs t -> TOK fs' t.
Proof.
  intros G [A B]. split; [|now apply (safe_mono fs)].
  intros l Hl e Hin. apply G. now apply (A l).
Qed.

Lemma In_set_nth {A} (x y : A) l : forall i, In y (set_nth i x l) -> y = x \/ In y l.
Proof.
  induction l as [|z l IH]; intros i Hin; [destruct i; destruct Hin|].
  destruct i; cbn in Hin.
  - destruct Hin as [<-|Hin]; [now left|right; now right].
  - destruct Hin as [<-|Hin]; [right; now left|]. destruct (IH i Hin); [now left|right; now right].
Qed.

Lemma has_set_blob fs d f x : has fs (FBlob x) -> has (set_file fs (FBlob d) f) (FBlob x).
Proof.
  unfold has, set_file. cbn [files]. unfold upd. destruct (fpath_eqb (FBlob x) (FBlob d)); [discriminate|auto].
Qed.

(* what a step may change: the directory only grows, the memory stays consistent with it, the
   stepping thread is replaced *)
Lemma cinv_update c i t' fs' tags' digs' lk cnt :
  CInv c -> grows (cfs c) fs' ->
  layout_ok fs' -> blob_ok H fs' -> index_ok fs' ->
  (forall r n, In (r, n) tags' -> In n digs') -> (forall n, In n digs' -> has fs' (FBlob n)) ->
  TOK fs' t' ->
  CInv (mkConf fs' tags' digs' lk cnt (set_nth i t' (cthreads c))).
Proof.
  intros [L B Ix TD D T] G L' B' Ix' TD' D' Ht'. constructor; cbn [cfs ctags cdigs cthreads]; try assumption.
  intros u Hin. apply In_set_nth in Hin as [->|Hin]; [exact Ht'|].
  apply (tok_mono (cfs c)); [exact G|now apply T].
Qed.

Lemma step_inv c i : CInv c -> CInv (stepN c i).
Proof.
  intro C. pose proof C as [L B Ix TD D T]. unfold sched_step.
  destruct (nth_error (cthreads c) i) as [t|] eqn:En; [|exact C].
  pose proof (T t (nth_error_In _ _ En)) as [Tsnap Tsafe].
  unfold fire. destruct (tprog t) as [|a rest] eqn:Ep; [exact C|].
  assert (Same : grows (cfs c) (cfs c)) by (intros d Hd; exact Hd).
  destruct a; cbn [safe] in Tsafe; cbv beta iota zeta; cbn [cfs ctags cdigs clock ccnt cthreads].
  - (* TWrite *) apply cinv_update; try assumption. now split.
  - (* TPublishBlob *)
    destruct Tsafe as [(cn & Ec & Hc) Tsafe].
    set (fs' := set_file (cfs c) (FBlob d) (mkFile (ttmp t) true)).
    assert (G : grows (cfs c) fs') by (intros x Hx; now apply has_set_blob).
    apply cinv_update; try assumption.
    + intros x f. unfold fs', set_file, upd. cbn [files fpath_eqb].
      destruct (N.eqb_spec x d) as [->|_]; [|apply B]. intros [= <-]. exists cn. now split.
    + destruct Ix as (l & Hl & He). exists l. split; [exact Hl|]. intros e Hin. apply G. now apply He.
    + intros n Hin. apply G. now apply D.
    + split; cbn [tsnap ttmp tprog].
      * intros l Hl e Hin'. apply G. now apply (Tsnap l).
      * apply (safe_absorb fs' rest d); [|now apply (safe_mono (cfs c))].
        unfold has, fs', set_file. cbn [files]. rewrite upd_same. discriminate.
  - (* TDropTemp *) apply cinv_update; try assumption. now split.
  - (* TTagMem *)
    destruct Tsafe as [[Hd|[]] Tsafe]. apply cinv_update; try assumption; [| |now split].
    + intros r0 n Hin. destruct r as [r|]; [apply tag_set_iff in Hin as [[_ ->]|[_ Hin]]; [apply dig_add_self|]|];
        exact (dig_add_incl H d (cdigs c) n (TD r0 n Hin)).
    + intros n Hin. apply (dig_add_In H) in Hin as [->|Hin]; [exact Hd|now apply D].
  - (* TUntagMem *)
    apply cinv_update; try assumption; [|now split].
    intros r0 n Hin. apply filter_In in Hin as [Hin _]. now apply (TD r0).
  - (* TLockSnap *)
    destruct (clock c); [exact C|]. cbn [cfs ctags cdigs clock ccnt cthreads].
    apply cinv_update; try assumption. split; [|exact Tsafe].
    intros l [= <-] e Hin'. apply shuffle_In in Hin'. apply D. now apply (save_in_digs (ctags c) (cdigs c) TD).
  - (* TPublishIndex *)
    destruct (tsnap t) as [l|] eqn:Es; cbn [cfs ctags cdigs clock ccnt cthreads];
      [|apply cinv_update; try assumption; split; [discriminate|exact Tsafe]].
    set (fs' := set_file (cfs c) FIndex (mkFile [AIndex l] false)).
    assert (G : grows (cfs c) fs') by (intros x Hx; exact Hx).
    apply cinv_update; try assumption.
    + exists l. split; [reflexivity|]. intros e Hin. now apply (Tsnap l).
    + split; [intros l0 Hl0; now apply (Tsnap l0)|now apply (safe_mono (cfs c))].
  - (* TUnlock *) apply cinv_update; try assumption. split; [discriminate|exact Tsafe].
Qed.

Lemma sched_ind (P : conf -> Prop) :
  (forall c i, P c -> P (stepN c i)) -> forall is c, P c -> P (sched shuffle c is).
Proof.
  intros Hs is. induction is as [|i is IH]; intros c Pc; [exact Pc|]. cbn [sched fold_left]. apply IH, Hs, Pc.
Qed.

Lemma sched_inv is c : CInv c -> CInv (sched shuffle c is).
Proof. apply sched_ind, step_inv. Qed.

Lemma step_grows c i : grows (cfs c) (cfs (stepN c i)).
Proof.
  unfold sched_step. destruct (nth_error (cthreads c) i) as [t|]; [|intros d Hd; exact Hd].
  unfold fire. destruct (tprog t) as [|a rest]; [intros d Hd; exact Hd|].
  destruct a; cbn [cfs]; try (intros x Hx; exact Hx).
  - intros x Hx. now apply has_set_blob.
  - destruct (clock c); intros x Hx; exact Hx.
  - destruct (tsnap t); cbn [cfs]; intros x Hx; [|exact Hx].
    unfold has, set_file in *. cbn [files]. now rewrite upd_other by discriminate.
Qed.

Lemma sched_grows is c : grows (cfs c) (cfs (sched shuffle c is)).
Proof.
  apply (sched_ind (fun c' => grows (cfs c) (cfs c'))); [|intros d Hd; exact Hd].
  intros c' i G d Hd. apply step_grows, G, Hd.
Qed.

Lemma call_prog_safe fs tags x : safe fs [] [] (call_prog H fs tags x).
Proof.
  destruct x as [d c man|d r|r|]; cbn [call_prog].
  - destruct (exists_file fs (FBlob d)); [exact I|]. unfold push_prog.
    apply safe_writes. cbn [app]. destruct (H c =? d) eqn:E.
    + apply N.eqb_eq in E. cbn [safe]. split; [exists c; now split|].
      destruct man; cbn [safe save_prog]; auto. split; [right; now left|exact I].
    + cbn. exact I.
  - destruct (exists_file fs (FBlob d)) eqn:E; [|exact I]. cbn [tag_prog safe save_prog].
    split; [left; now apply exists_file_has|]. split; [left; now apply exists_file_has|exact I].
  - destruct (tag_get r tags); cbn; exact I.
  - cbn. exact I.
Qed.

(* entering a concurrent phase: a quiescent state of the sequential model, threads that have not
   yet done anything *)
Lemma entry_cinv s ths :
  Inv H s -> (forall t, In t ths -> tsnap t = None /\ safe (sfs s) [] (ttmp t) (tprog t)) ->
  CInv (mkConf (sfs s) (stags s) (sdigs s) false (sctr s) ths).
Proof.
  intros I Ht. destruct (inv_good H s I) as (GL & GB & GI).
  constructor; cbn [cfs ctags cdigs cthreads]; try assumption.
  - exact (inv_tagdig H s I).
  - exact (inv_digs H s I).
  - intros t Hin. destruct (Ht t Hin) as [Es S]. split; [rewrite Es; discriminate|exact S].
Qed.

Lemma start_cinv s calls : Inv H s -> CInv (start H s calls).
Proof.
  intro I. apply entry_cinv; [exact I|]. intros t Hin. apply in_map_iff in Hin as (x & <- & _).
  split; [reflexivity|apply call_prog_safe].
Qed.

Theorem conc_safe_from s calls is :
  Inv H s ->
  let c := sched shuffle (start H s calls) is in
  layout_ok (cfs c) /\ blob_ok H (cfs c) /\ index_ok (cfs c) /\
  (forall d, has (sfs s) (FBlob d) -> has (cfs c) (FBlob d)).
Proof.
  intros I c. destruct (sched_inv is _ (start_cinv s calls I)) as [L B Ix _ _ _].
  repeat split; try assumption. exact (sched_grows is (start H s calls)).
Qed.

Theorem conc_crash_safe (h : list hop) (calls : list ccall) (is : list nat) :
  let s := runc H shuffle false false true h init in
  let c := sched shuffle (start H s calls) is in
  layout_ok (cfs c) /\ blob_ok H (cfs c) /\ index_ok (cfs c) /\
  (forall d, has (sfs s) (FBlob d) -> has (cfs c) (FBlob d)).
Proof. apply conc_safe_from, inv_runc_init, shuffle_In. Qed.

Section Origin.
Variable s0 : st.
Variable calls : list ccall.

Definition origin (r n : N) : Prop := In (r, n) (stags s0) \/ In (CTag n r) calls.

Record TInv (c : conf) : Prop := {
  ti_tags : forall r n, In (r, n) (ctags c) -> origin r n;
  ti_snap : forall t l, In t (cthreads c) -> tsnap t = Some l -> forall r n, In (n, Some r) l -> origin r n;
  ti_index : forall l, read_index (cfs c) = Some l -> forall r n, In (n, Some r) l -> origin r n;
  ti_prog : forall t d r, In t (cthreads c) -> In (TTagMem d (Some r)) (tprog t) -> In (CTag d r) calls
}.

Lemma tinv_update {c i t a rest t'} fs' tags' digs' lk cnt :
  TInv c -> nth_error (cthreads c) i = Some t -> tprog t = a :: rest -> tprog t' = rest ->
  (forall r n, In (r, n) tags' -> origin r n) ->
  (forall l, read_index fs' = Some l -> forall r n, In (n, Some r) l -> origin r n) ->
  (forall l, tsnap t' = Some l -> forall r n, In (n, Some r) l -> origin r n) ->
  TInv (mkConf fs' tags' digs' lk cnt (set_nth i t' (cthreads c))).
Proof.
  intros [Tg Sn Ix Pg] En Ep <- Tg' Ix' Sn'. pose proof (nth_error_In _ _ En) as Ht.
  constructor; cbn [cfs ctags cthreads]; try assumption.
  - intros u l Hin. apply In_set_nth in Hin as [->|Hin]; [exact (Sn' l)|exact (Sn u l Hin)].
  - intros u d r Hin Hp. apply In_set_nth in Hin as [->|Hin]; [|exact (Pg u d r Hin Hp)].
    apply (Pg t d r Ht). rewrite Ep. now right.
Qed.

Lemma tstep_inv c i : TInv c -> TInv (stepN c i).
Proof.
  intro T. pose proof T as [Tg Sn Ix Pg]. unfold sched_step.
  destruct (nth_error (cthreads c) i) as [t|] eqn:En; [|exact T].
  pose proof (nth_error_In _ _ En) as Ht. pose proof (fun l => Sn t l Ht) as SnT.
  unfold fire. destruct (tprog t) as [|a rest] eqn:Ep; [exact T|].
  (* the actions that touch neither the resolver's names nor index.json nor a snapshot *)
  destruct a; cbv beta iota zeta; cbn [cfs ctags cdigs clock ccnt cthreads];
    try (now apply (tinv_update _ _ _ _ _ T En Ep)).
  - (* TTagMem *)
    apply (tinv_update _ _ _ _ _ T En Ep); try easy.
    intros r0 n Hin. destruct r as [r|]; [|now apply Tg].
    apply tag_set_iff in Hin as [[-> ->]|[_ Hin]]; [|now apply Tg].
    right. apply (Pg t d r Ht). rewrite Ep. now left.
  - (* TUntagMem *)
    apply (tinv_update _ _ _ _ _ T En Ep); try easy.
    intros r0 n Hin. apply filter_In in Hin as [Hin _]. now apply Tg.
  - (* TLockSnap *)
    destruct (clock c); [exact T|]. cbn [cfs ctags cdigs clock ccnt cthreads].
    apply (tinv_update _ _ _ _ _ T En Ep); try easy.
    intros l [= <-] r n Hin. apply shuffle_In, save_tagged in Hin. now apply Tg.
  - (* TPublishIndex: what is published is the thread's snapshot (SnT) *)
    destruct (tsnap t) as [l|] eqn:Es; cbn [cfs ctags cdigs clock ccnt cthreads];
      now apply (tinv_update _ _ _ _ _ T En Ep).
Qed.

Lemma tsched_inv is c : TInv c -> TInv (sched shuffle c is).
Proof. apply sched_ind, tstep_inv. Qed.

End Origin.

Lemma call_prog_names fs tags x a :
  In a (call_prog H fs tags x) ->
  match a with TTagMem d (Some r) => x = CTag d r | TUntagMem r => x = CUntag r | _ => True end.
Proof.
  destruct x as [d0 c man|d0 r0|r0|]; cbn [call_prog].
  - destruct (exists_file fs (FBlob d0)); [intros []|]. unfold push_prog. intro Hin.
    apply in_app_or in Hin as [Hin|Hin]; [apply in_map_iff in Hin as (y & <- & _); exact I|].
    destruct (H c =? d0), man; cbn in Hin; repeat destruct Hin as [<-|Hin]; try exact I; destruct Hin.
  - destruct (exists_file fs (FBlob d0)); [|intros []]. cbn. intro Hin.
    repeat destruct Hin as [<-|Hin]; try exact I; try reflexivity; destruct Hin.
  - destruct (tag_get r0 tags); [|intros []]. cbn. intro Hin.
    repeat destruct Hin as [<-|Hin]; try exact I; try reflexivity; destruct Hin.
  - cbn. intro Hin. repeat destruct Hin as [<-|Hin]; try exact I; destruct Hin.
Qed.

(* at every point of every schedule: a reference name in index.json was there before the calls
   started, or one of the concurrent calls is the Tag that sets it *)
Lemma conc_tags_origin_from s (calls : list ccall) (is : list nat) :
  Inv H s ->
  let c := sched shuffle (start H s calls) is in
  forall l r n, read_index (cfs c) = Some l -> tag_of l r n ->
    (exists l0, read_index (sfs s) = Some l0 /\ tag_of l0 r n) \/ In (CTag n r) calls.
Proof.
  intros I c l r n Hl Ht.
  assert (T0 : TInv s calls (start H s calls)).
  { constructor; cbn [start cfs ctags cdigs cthreads].
    - intros r0 n0 Hin. now left.
    - intros t l0 Hin. apply in_map_iff in Hin as (x & <- & _). cbn. discriminate.
    - intros l0 Hl0 r0 n0 Hin. left. destruct (inv_named H s I) as (l1 & Hl1 & Hn).
      rewrite Hl1 in Hl0. injection Hl0 as <-. now apply Hn.
    - intros t d r0 Hin Hp. apply in_map_iff in Hin as (x & <- & Hx). cbn [tprog] in Hp.
      apply call_prog_names in Hp. now subst x. }
  destruct (tsched_inv s calls is _ T0) as [_ _ Ix _]. fold c in Ix.
  destruct (Ix l Hl r n Ht) as [Ho|Ho]; [left|now right].
  destruct (inv_named H s I) as (l1 & Hl1 & Hn). exists l1. split; [exact Hl1|]. unfold tag_of. now apply Hn.
Qed.

Theorem conc_tags_origin (h : list hop) (calls : list ccall) (is : list nat) :
  let s := runc H shuffle false false true h init in
  let c := sched shuffle (start H s calls) is in
  forall l r n, read_index (cfs c) = Some l -> tag_of l r n ->
    (exists l0, read_index (sfs s) = Some l0 /\ tag_of l0 r n) \/ In (CTag n r) calls.
Proof. apply conc_tags_origin_from, inv_runc_init, shuffle_In. Qed.

(* A call that runs alone = the sequential operation:
   the concurrent model scheduled with one thread to completion leaves the same shared
   directory (all non-temporary paths) and the same resolver as Model/OciCrash.v's run_op *)
Definition nt_same (fs fs' : FS) : Prop := forall p, is_temp p = false -> files fs p = files fs' p.

Definition alone (s : st) (x : ccall) (n : nat) : conf := sched shuffle (start H s [x]) (repeat 0%nat n).

Definition refines (s : st) (x : ccall) (n : nat) : Prop :=
  let c := alone s x n in
  let s1 := run_op H shuffle false false true s (op_of_call x) in
  ctags c = stags s1 /\ cdigs c = sdigs s1 /\ nt_same (cfs c) (sfs s1) /\ clock c = false.

(* the index write of the sequential model, seen on non-temporary paths *)
Lemma idx_view fs c tags digs :
  files fs (FIndexTmp c) = None ->
  nt_same (set_file fs FIndex (mkFile [AIndex (shuffle c (save tags digs))] false))
          (apply (index_steps shuffle false c tags digs) fs).
Proof.
  intros Hn p Hp. symmetry.
  rewrite (aw_final (FIndexTmp c) FIndex (AIndex (shuffle c (save tags digs))) fs) by (discriminate || exact Hn).
  destruct (fpath_eqP p (FIndexTmp c)) as [->|_]; [discriminate|reflexivity].
Qed.

(* a call whose operation at most rewrites index.json ([w]): it is enough that its thread, run
   alone, leaves the resolver of the operation ([digsC]: as the thread computes the digests) and
   has published the index saved from it *)
Lemma refines_idx s x n (w : bool) tags' digs' digsC :
  Inv H s ->
  op_mem H s (op_of_call x) = (tags', digs') ->
  op_steps H shuffle false false true s (op_of_call x) = (if w then index_steps shuffle false (sctr s) tags' digs' else []) ->
  ctags (alone s x n) = tags' -> cdigs (alone s x n) = digsC -> clock (alone s x n) = false ->
  cfs (alone s x n) = (if w then set_file (sfs s) FIndex (mkFile [AIndex (shuffle (sctr s) (save tags' digsC))] false)
                       else sfs s) ->
  digsC = digs' -> refines s x n.
Proof.
  intros I Em Es Et Ed El Ef <-. unfold refines, run_op. rewrite Em, Es. cbn [stags sdigs sfs].
  repeat split; try assumption. rewrite Ef. destruct w; [|intros p _; reflexivity].
  apply idx_view. exact (inv_temp H s I (FIndexTmp (sctr s)) eq_refl (le_n _)).
Qed.

Lemma refines_saveindex s : Inv H s -> refines s CSaveIndex 3.
Proof. intro I. now apply (refines_idx s CSaveIndex 3 true (stags s) (sdigs s) (sdigs s)). Qed.

Lemma dig_add_idem d l : dig_add d (dig_add d l) = dig_add d l.
Proof.
  unfold dig_add at 2 3. destruct (memN d l) eqn:E; unfold dig_add; [now rewrite E|].
  unfold memN. cbn [existsb]. now rewrite N.eqb_refl.
Qed.

Lemma refines_tag s d r : Inv H s -> refines s (CTag d r) 5.
Proof.
  intro I. destruct (exists_file (sfs s) (FBlob d)) eqn:Ex.
  - apply (refines_idx s (CTag d r) 5 true (tag_set r d (stags s)) (dig_add d (sdigs s)) (dig_add d (dig_add d (sdigs s))));
      [exact I|unfold alone, start, op_steps; cbn [op_of_call op_mem map call_prog]; rewrite Ex; reflexivity..|].
    apply dig_add_idem.
  - apply (refines_idx s (CTag d r) 5 false (stags s) (sdigs s) (sdigs s));
      [exact I|unfold alone, start, op_steps; cbn [op_of_call op_mem map call_prog]; rewrite Ex; reflexivity..|reflexivity].
Qed.

Lemma refines_untag s r : Inv H s -> refines s (CUntag r) 4.
Proof.
  intro I. destruct (tag_get r (stags s)) as [x|] eqn:Eg.
  - apply (refines_idx s (CUntag r) 4 true (tag_del r (stags s)) (sdigs s) (sdigs s));
      [exact I|unfold alone, start, op_steps; cbn [op_of_call op_mem map call_prog]; rewrite Eg; reflexivity..|reflexivity].
  - apply (refines_idx s (CUntag r) 4 false (stags s) (sdigs s) (sdigs s));
      [exact I|unfold alone, start, op_steps; cbn [op_of_call op_mem map call_prog]; rewrite Eg; reflexivity..|reflexivity].
Qed.

Lemma alone_writes cont : forall fs tags digs lk cnt tmp rest sn hd,
  sched shuffle (mkConf fs tags digs lk cnt [mkThread (map (fun x => TWrite (AChunk x)) cont ++ rest) tmp sn hd])
        (repeat 0%nat (length cont))
  = mkConf fs tags digs lk cnt [mkThread rest (tmp ++ map AChunk cont) sn hd].
Proof.
  induction cont as [|x cont IH]; intros fs tags digs lk cnt tmp rest sn hd.
  - cbn. now rewrite app_nil_r.
  - cbn [length repeat sched fold_left map app]. unfold sched_step at 2. cbn [cthreads nth_error fire tprog ttmp tsnap tholds].
    cbn [cfs ctags cdigs clock ccnt set_nth].
    change (fold_left (sched_step shuffle) (repeat 0%nat (length cont)) ?c) with (sched shuffle c (repeat 0%nat (length cont))).
    rewrite IH. now rewrite <- app_assoc.
Qed.

Lemma sched_app c is1 is2 : sched shuffle c (is1 ++ is2) = sched shuffle (sched shuffle c is1) is2.
Proof. unfold sched. apply fold_left_app. Qed.

Lemma repeat_plus (n m : nat) : repeat 0%nat (n + m) = repeat 0%nat n ++ repeat 0%nat m.
Proof. induction n; cbn; congruence. Qed.

Lemma alone_tail fs tags digs cnt tmp d (ok man : bool) :
  sched shuffle
    (mkConf fs tags digs false cnt
       [mkThread (if ok then TPublishBlob d :: (if man then TTagMem d None :: save_prog else []) else [TDropTemp])
                 tmp None false])
    (repeat 0%nat 5) =
  if ok then
    let fs1 := set_file fs (FBlob d) (mkFile tmp true) in
    if man then mkConf (set_file fs1 FIndex (mkFile [AIndex (shuffle cnt (save tags (dig_add d digs)))] false))
                       tags (dig_add d digs) false (S cnt) [mkThread [] [] None false]
    else mkConf fs1 tags digs false cnt [mkThread [] [] None false]
  else mkConf fs tags digs false cnt [mkThread [] [] None false].
Proof. destruct ok, man; reflexivity. Qed.

Lemma alone_idle fs tags digs cnt n :
  sched shuffle (mkConf fs tags digs false cnt [mkThread [] [] None false]) (repeat 0%nat n)
  = mkConf fs tags digs false cnt [mkThread [] [] None false].
Proof. induction n as [|n IHn]; [reflexivity|exact IHn]. Qed.

Lemma refines_push s d cont man : Inv H s -> refines s (CPush d cont man) (length cont + 5).
Proof.
  intro I. unfold refines, alone. cbn zeta. cbn [op_of_call].
  unfold start. cbn [map call_prog]. unfold run_op. rewrite push_steps. cbn [op_mem].
  destruct (exists_file (sfs s) (FBlob d)) eqn:Ex.
  - (* AlreadyExists: nothing happens in either model *)
    rewrite alone_idle. repeat split; reflexivity.
  - rewrite repeat_plus, sched_app. unfold push_prog. rewrite alone_writes, alone_tail. cbn [app].
    pose proof (inv_temp H s I (FIngest d (sctr s)) eq_refl (le_n _)) as Htmp.
    destruct (H cont =? d) eqn:EH; cbn [negb].
    + (* verified: published, and for a manifest tagged by digest and saved *)
      pose proof (pub_files (sfs s) d (sctr s) cont Htmp) as FB.
      destruct man; cbv zeta; cbn [cfs ctags cdigs clock sfs stags sdigs];
        (repeat split; try reflexivity); intros p Hp.
      * rewrite apply_app.
        refine (eq_trans _ (idx_view _ (sctr s) (stags s) (dig_add d (sdigs s)) _ p Hp)).
        -- unfold set_file. cbn [files]. unfold upd. now rewrite FB.
        -- rewrite FB. exact (inv_temp H s I (FIndexTmp (sctr s)) eq_refl (le_n _)).
      * rewrite app_nil_r, FB. reflexivity.
    + (* verification fails: the temporary goes, nothing else changes *)
      cbn [cfs ctags cdigs clock sfs stags sdigs]. repeat split; try reflexivity.
      intros p Hp. symmetry. now apply drop_files.
Qed.

(* every call that runs alone in the concurrent model is the sequential model's operation *)
Theorem conc_alone_refines s x : Inv H s -> exists n, refines s x n.
Proof.
  intro I. destruct x as [d c man|d r|r|].
  - exists (length c + 5)%nat. now apply refines_push.
  - exists 5%nat. now apply refines_tag.
  - exists 4%nat. now apply refines_untag.
  - exists 3%nat. now apply refines_saveindex.
Qed.

End ConcProofs.

(* why a call must enter the resolver only after its blob is published: a thread that tags
   first lets a concurrent (or its own) saveIndex write an entry for a blob that is not there *)
Lemma conc_unsafe_tag_before_publish :
  exists (H : list N -> N) (t : thread) (is : list nat),
    let c := sched (fun _ l => l) (mkConf init_fs [] [] false 0 [t]) is in
    ~ index_ok (cfs c).
Proof.
  exists (fun _ => 2),
         (mkThread ([TTagMem 2 None] ++ save_prog ++ [TWrite (AChunk 9); TPublishBlob 2]) [] None false),
         [0; 0; 0]%nat.
  cbn zeta. intros (l & Hl & He). vm_compute in Hl. injection Hl as <-.
  apply (He (2, None) (or_introl eq_refl)). vm_compute. reflexivity.
Qed.

(* a non-trivial instance: two manifest pushes and a tag of already stored content, interleaved;
   the cut after 9 scheduler steps has one blob published, the other still being written, and
   an index.json that names only what is there *)
Lemma conc_example :
  let H := fun c : list N => match c with [7] => 1 | [8] => 2 | [9] => 3 | _ => 0 end in
  let id := fun (_ : nat) (l : list entry) => l in
  let s := runc H id src_inplace src_unlink_first true [Done (Push 3 [9] true)] init in
  let c := sched id (start H s [CPush 1 [7] true; CPush 2 [8] true; CTag 3 5]) [0; 2; 0; 2; 2; 0; 2; 0; 1; 2]%nat in
  read_index (cfs c) = Some [(3, Some 5)] /\
  exists_file (cfs c) (FBlob 1) = true /\ exists_file (cfs c) (FBlob 2) = false /\
  cdigs c = [1; 3] /\ clock c = false.
Proof. vm_compute. repeat split; reflexivity. Qed.

