(* C10 x C09 -- the bridge between the crash model (Model/OciCrash.v) and the model of WHAT
   Delete-with-AutoGC and GC remove (Model/OciGC.v, proved exact in Proofs/OciGC.v, C09).

   The crash theorems for cascades and sweeps (C10_cascade_tags_before_or_after,
   C10_gc_crash_safe) carry the hypothesis "the removed nodes hold no reference name (and are
   not live)".  Here that hypothesis is DERIVED from C09's characterisation of the removed
   sets ([Gone], complement of [Live]) for every enumeration of those sets, given only that
   the two models describe the same store (they agree on which nodes carry a reference name).
   Node n of the C09 model (nat) is blob N.of_nat n of the crash model. *)
From Oras Require Import Base.Prelude.
From Oras Require Model.OciGC Proofs.OciGC.
From Oras Require Import Model.OciCrash Model.OciCrashSpec Proofs.OciCrash.

Module G := Oras.Model.OciGC.
Module GP := Oras.Proofs.OciGC.

Section Bridge.
Variable H : list N -> N.
Variable shuffle : nat -> list entry -> list entry.
Hypothesis shuffle_In : forall c l e, In e (shuffle c l) <-> In e l.
Variable succ : nat -> list nat.
Variable subject : nat -> option nat.
Variable manifest : nat -> bool.

(* the two models agree on reference names: a node without a tag entry in the C09 state has
   no named entry in the index.json of the crash state *)
Definition names_agree (g : G.state) (s : st) : Prop :=
  forall n, (forall t, ~ In (G.RTag t, n) (G.idx g)) ->
  forall l, read_index (sfs s) = Some l -> forall r, ~ tag_of l r (N.of_nat n).

Lemma untagged_no_tag g n : G.is_tagged g n = false -> forall t, ~ In (G.RTag t, n) (G.idx g).
Proof.
  intros Hu t Hin. unfold G.is_tagged in Hu.
  assert (X : existsb (G.is_tag_entry n) (G.idx g) = true).
  { apply existsb_exists. exists (G.RTag t, n). split; [exact Hin|]. unfold G.is_tag_entry. cbn.
    apply Nat.eqb_refl. }
  rewrite X in Hu. discriminate.
Qed.

(* Delete with AutoGC: whatever enumeration xs of the nodes C09's model removes besides the
   target x (the set Gone), the crash model's cascade keeps the tag mapping before-or-after at
   every cut, after any earlier crashes *)
Theorem cascade_of_gc_model (g : G.state) (x : nat) (h : list hop) (xs : list nat) (k : nat) :
  let s := runc H shuffle false false true h init in
  names_agree g s ->
  (forall y, In y xs -> GP.Gone succ subject manifest g x y /\ y <> x) ->
  let os := Delete (N.of_nat x) :: map Delete (map N.of_nat xs) in
  let fsk := crash_seq H shuffle false false true s os k in
  same_tags fsk (sfs s) \/ same_tags fsk (sfs (run H shuffle false false true os s)).
Proof.
  intros s Ha Hx os fsk.
  apply (cascade_tags H shuffle shuffle_In h (N.of_nat x) (map N.of_nat xs) k).
  intros l Hl z r Hin. apply in_map_iff in Hin as (y & <- & Hy).
  destruct (Hx y Hy) as [Hg Hn].
  destruct (GP.delete_never_final succ subject manifest g x y Hg Hn) as (Hu & _).
  exact (Ha y (untagged_no_tag g y Hu) l Hl r).
Qed.

(* GC: whatever enumeration xs of stored nodes outside C09's live set, and whatever list
   [live] of live nodes the crash model is told, the hypothesis of C10_gc_crash_safe holds:
   every removal is a bare unlink, the tag mapping never changes, index.json is the one before
   or the one the GC saved *)
Theorem gc_of_gc_model (g : G.state) (h : list hop) (live : list N) (xs : list nat) (k : nat) :
  let s := runc H shuffle false false true h init in
  names_agree g s ->
  (forall z, In z live -> exists n, z = N.of_nat n /\ GP.Live succ subject manifest g n) ->
  (forall y, In y xs -> In y (G.blobs g) /\ ~ GP.Live succ subject manifest g y) ->
  let os := gc_ops live (map N.of_nat xs) in
  let fsk := crash_seq H shuffle false false true s os k in
  same_tags fsk (sfs s) /\
  (read_index fsk = read_index (sfs s) \/
   read_index fsk = read_index (sfs (run_op H shuffle false false true s (Forget live)))).
Proof.
  intros s Ha Hl Hx os fsk.
  destruct (gc_crash_safe H shuffle shuffle_In h live (map N.of_nat xs) k) as (_ & T & R).
  - intros l Hr z Hin. apply in_map_iff in Hin as (y & <- & Hy).
    destruct (Hx y Hy) as [Hb Hnl]. split.
    + intro Hz. destruct (Hl _ Hz) as (n & E & Ln). apply Nat2N.inj in E. subst n. contradiction.
    + apply (Ha y); [|exact Hr]. intros t Ht. apply Hnl.
      apply (GP.L_tag succ subject manifest g t y y Ht). now apply GP.R_refl.
  - split; [exact T|exact R].
Qed.

End Bridge.

(* the agreement hypothesis is satisfiable: a layer 1 and a manifest 2 tagged t5, in both models *)
Lemma names_agree_example :
  let Hf := fun c : list N => match c with [7] => 1 | [9] => 2 | _ => 0 end in
  let s := runc Hf (fun _ l => l) src_inplace src_unlink_first true
             [Done (Push 1 [7] false); Done (Push 2 [9] true); Done (Tag 2 5)] init in
  let g := {| G.blobs := [1; 2]%nat; G.idx := [(G.RDig 2, 2%nat); (G.RTag 5, 2%nat)];
              G.gnodes := [1; 2]%nat; G.strays := []; G.autogc := true |} in
  names_agree g s /\ read_index (sfs s) = Some [(2, Some 5)].
Proof.
  cbn zeta. split; [|vm_compute; reflexivity].
  intros n Hn l Hl r Ht. vm_compute in Hl. injection Hl as <-.
  destruct Ht as [E|[]]. injection E as E _.
  assert (n = 2%nat) by (apply Nat2N.inj; rewrite <- E; reflexivity). subst n.
  apply (Hn 5%nat). right. now left.
Qed.
