(* CopyImplFault: a fault or a cancellation before completion surfaces as an error of the top-level call. *)
From Coq Require Import List Arith Bool Lia Wf_nat.
From Oras Require Import Model.CopyImpl Proofs.CopyImplBase Proofs.CopyImplInv Proofs.CopyImplInv2
  Proofs.CopyImplLive.
Import ListNotations.

Section Proofs.
Variable succ : nat -> list nat.
Variable K : nat.
Variable ext : bool.
Variable roots : list nat.
Hypothesis succ_dec : forall n m, In m (succ n) -> m < n.
Local Notation Reachable := (Reachable succ K ext roots).
Local Notation Inv1 := (Inv1 K).
Local Notation Inv2 := (Inv2 succ).

Lemma unreturned_up s : Inv2 s -> forall f, is_ret (f_pc (frames s f)) = false -> is_ret (f_pc (frames s 0)) = false.
Proof.
  intros [Hwff Hnf Htf Hunf Hingo Hpar Htop Hself Hanc Hrank Hwait].
  induction f as [f IH] using lt_wf_ind. intros Hu.
  pose proof (flive s f _ Hwff eq_refl Hu) as Hf.
  destruct (f_parent (frames s f)) as [p|] eqn:Hp.
  - destruct (Hpar f p Hp) as [[Hlt _] Hq]. specialize (Hq Hu).
    apply (IH (t_frame (tasks s p))); auto. apply Hunf. rewrite Hq. reflexivity.
  - destruct (Htop f Hp); [subst; auto | lia].
Qed.

Lemma final_all_finished s : Inv2 s -> is_final s = true -> forall t, is_fin (t_pc (tasks s t)) = true.
Proof.
  intros I2 Hfin t. destruct (is_fin (t_pc (tasks s t))) eqn:Hf; auto.
  pose proof (unreturned_up s I2 _ (i2_unfin _ _ I2 t Hf)) as H0. unfold is_final in Hfin. congruence.
Qed.

Lemma run_reachable s ls s' : Reachable s -> run succ s ls = Some s' -> Reachable s'.
Proof.
  revert s. induction ls as [|l ls IH]; cbn; intros s Hr H.
  - inversion H. subst. auto.
  - destruct (step succ s l) as [s1|] eqn:Hs; [|discriminate]. apply (IH s1); auto. econstructor; eauto.
Qed.
Lemma run_failed s ls s' : run succ s ls = Some s' ->
  (failed s = true \/ existsb is_fault ls = true) -> failed s' = true.
Proof.
  revert s. induction ls as [|l ls IH]; cbn; intros s H Hf.
  - inversion H. subst. destruct Hf; auto. discriminate.
  - destruct (step succ s l) as [s1|] eqn:Hs; [|discriminate]. apply (IH s1); auto.
    destruct Hf as [Hf|Hf].
    + left. eapply failed_mono; eauto.
    + apply orb_true_iff in Hf. destruct Hf as [Hf|Hf]; auto. left. eapply fault_sets_failed; eauto.
Qed.

Lemma failed_final_error s : Reachable s -> failed s = true -> is_final s = true -> result s = Some true.
Proof.
  intros Hr Hf Hfin. destruct (inv123_reach succ K ext roots succ_dec s Hr) as [I1 [I2 I3]].
  unfold is_final, result in *.
  destruct (i3_failw s I3 Hf) as [[f [Hc Hu]]|Ht].
  - rewrite (unreturned_up s I2 f Hu) in Hfin. discriminate.
  - rewrite Ht. reflexivity.
Qed.

(* any execution in which a storage step / callback of some task fails or the caller's context is
   cancelled before the top-level syncutil.Go has returned, ends - if it ends - with an error *)
Theorem fault_surfaces ls s : run succ (init K ext roots) ls = Some s ->
  existsb is_fault ls = true -> is_final s = true -> result s = Some true.
Proof.
  intros Hrun Hf Hfin. apply failed_final_error; auto.
  - eapply run_reachable; eauto. constructor.
  - eapply run_failed; eauto.
Qed.

End Proofs.
