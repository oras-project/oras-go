(* C14 — InvS preserved by EComplete: complete() hands the result to every member of the batch *)
From Oras Require Import Base.Prelude Model.Referrers Proofs.Referrers Model.Merge Proofs.MergeBase.

Definition complete_pcs (s : state) (t : tid) (r : result) : tid -> pc :=
  fun x => if Nat.eqb x t then Ret r else if mem x (batch s) then Ret r else pcs s x.

Lemma complete_pcs_cases s t r x :
  ((x = t \/ In x (batch s)) /\ complete_pcs s t r x = Ret r) \/
  (x <> t /\ ~ In x (batch s) /\ complete_pcs s t r x = pcs s x).
Proof.
  unfold complete_pcs. destruct (Nat.eqb_spec x t) as [->|Hne]; [left; auto|].
  destruct (mem x (batch s)) eqn:E.
  - apply mem_In in E. left; auto.
  - apply mem_false in E. right; auto.
Qed.

Lemma stepS_complete sg s t s' : InvS s -> step sg s (EComplete t) = Some s' -> InvS s'.
Proof.
  intros I H. simpl in H.
  destruct (pcs s t) as [|c0| | |o|nw o|oi ap|r|r|r] eqn:Hpc; try discriminate. injection H as <-.
  fold (complete_pcs s t r).
  assert (Hm : is_main (pcs s t) = true) by (rewrite Hpc; reflexivity).
  destruct (i_main_in s I t Hm) as [Htb Htok].
  assert (Hnomain : forall x, is_main (complete_pcs s t r x) = false).
  { intro x. destruct (complete_pcs_cases s t r x) as [[_ E]|(A & B & E)]; rewrite E; [reflexivity|].
    destruct (is_main (pcs s x)) eqn:Em; auto. destruct (i_main_in s I x Em). tauto. }
  constructor; simpl.
  - intros t0 c0 Hin. destruct (i_pend s I t0 c0 Hin) as (A & B & C). split; auto.
    destruct (complete_pcs_cases s t r t0) as [[[E|E] _]|(_ & _ & E)]; [subst; tauto|tauto|]. rewrite E. auto.
  - apply (i_pend_nd s I).
  - intros t0 c0 [].
  - constructor.
  - intros t0 Hx. rewrite Hnomain in Hx. discriminate.
  - intros t1 t2 Hx. rewrite Hnomain in Hx. discriminate.
  - intro Hx. split; auto. destruct (pending s); [discriminate|discriminate].
  - intro Hx. rewrite Hx. auto.
  - intros t0 Hx. apply post_commit_main in Hx. rewrite Hnomain in Hx. discriminate.
  - discriminate.
  - intros t0 c0 Hx. destruct (complete_pcs_cases s t r t0) as [[_ E]|(_ & _ & E)]; rewrite E in Hx; [discriminate|].
    eapply i_got; eauto.
  - intros x Hx. destruct (complete_pcs_cases s t r x) as [[_ E]|(A & B & E)]; rewrite E in Hx; [discriminate|].
    destruct (i_wait s I x Hx) as [Hw|Hw]; [tauto|]. left. exact Hw.
  - intro Hx. left. destruct (pending s); [congruence|reflexivity].
  - apply (pool_ok_ext holding _ (pcs s)); [|apply (i_pool s I)]. intro x.
    destruct (complete_pcs_cases s t r x) as [[[E0|E0] E]|(_ & _ & E)]; rewrite E; auto.
    + subst. now rewrite (main_holding _ Hm).
    + destruct (batch_member s x I E0) as [E1|E1]; [now rewrite E1|now rewrite (main_holding _ E1)].
Qed.

