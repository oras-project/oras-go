(* Every schedule of programs that respect the lock discipline (Model/OciLocks.v [check]) keeps
   the references valid and leaves index.json current at quiescence; the programs of the real
   operations, assembled from the call sequences read from the sources, respect it. *)
From Coq Require Import List Arith Bool PeanoNat Lia.
From Oras Require Import Base.Prelude Generated.GC08 Model.OciIndex Proofs.OciIndex Model.OciConc Proofs.OciConc Model.OciLocks.
Import ListNotations.
Local Open Scope nat_scope.

Lemma lmode_eqb_eq a b : lmode_eqb a b = true <-> a = b.
Proof. destruct a, b; simpl; split; intro H; try discriminate; auto. Qed.
Lemma lmode_neqb a b : lmode_eqb a b = false <-> a <> b.
Proof. destruct a, b; simpl; split; intro H; try discriminate; try congruence; auto. Qed.

(* what a thread's type state says about itself, whatever the others do *)
Definition ts_ok (a : tstate) : Prop :=
  (ts_mode a = MNone -> a = ts0) /\ (ts_mode a = MShared -> ts_clr a = []) /\
  (ts_gc a <> [] -> ts_mode a = MExcl) /\ (ts_snapped a = true -> ts_hold a = true).

(* a finite check over the lock mode and the kind of the step *)
Lemma ts_ok_step a st : ts_ok a -> tstep_ok a st = true -> ts_ok (tnext a st).
Proof.
  intros (W & Sh & Gc & Sn) Ok. destruct a as [m h sn di v c dg gg]. unfold ts_ok in *.
  cbn [ts_mode ts_hold ts_snapped ts_dirty ts_ver ts_clr ts_dig ts_gc] in *.
  assert (Hg : m <> MExcl -> gg = []) by (destruct gg; [reflexivity|intro H; exfalso; apply H, Gc; discriminate]).
  destruct m.
  - (* at rest: the only step is to take the store lock *)
    injection (W eq_refl) as -> -> -> -> -> -> ->.
    destruct st as [ | | | |k|k|r|k|[ | | | ]|k|g|g]; try discriminate Ok; cbn; repeat split; easy.
  - specialize (Sh eq_refl). rewrite Hg in * by discriminate. subst c.
    destruct st as [ | | | |k|k|r|k|[ | | | ]|k|g|g]; try discriminate Ok; cbn in Ok |- *;
      rewrite ?andb_true_iff, ?negb_true_iff in Ok; repeat split; intuition (subst; easy).
  - destruct st as [ | | | |k|k|r|k|[ | | | ]|k|g|g]; try discriminate Ok; cbn in Ok |- *;
      rewrite ?andb_true_iff, ?negb_true_iff in Ok; repeat split; intuition (subst; easy).
Qed.

Lemma ts_ok0 : ts_ok ts0.
Proof. repeat split; easy. Qed.

Lemma lupd_same f i t : lupd f i t i = t.
Proof. unfold lupd. now rewrite Nat.eqb_refl. Qed.
Lemma lupd_other f i t j : j <> i -> lupd f i t j = f j.
Proof. intro H. unfold lupd. apply Nat.eqb_neq in H. now rewrite H. Qed.

Lemma others_spec s i p : others s i p = true -> forall j, j < ll_n s -> j <> i -> p (ll_ths s j) = true.
Proof.
  unfold others. intros H j Hj Hji. rewrite forallb_forall in H.
  specialize (H j). rewrite in_seq in H. specialize (H ltac:(lia)).
  apply orb_true_iff in H as [H|H]; auto. apply Nat.eqb_eq in H. contradiction.
Qed.


(* the programs of the operations, as assembled from the generated call sequences *)
Lemma programs_explicit :
  (forall d t, prog_tag d t = [KRLock; KExists (d_node d); KReg (RegDig d); KReg (RegTag t d);
                               KSave SLock; KSave SSnap; KSave SWrite; KSave SUnlock; KRUnlock]) /\
  (forall t, prog_untag t = [KRLock; KReg (RegUntag t); KSave SLock; KSave SSnap; KSave SWrite; KSave SUnlock; KRUnlock]) /\
  prog_saveindex = [KRLock; KSave SLock; KSave SSnap; KSave SWrite; KSave SUnlock; KRUnlock] /\
  (forall k, prog_push k true = [KRLock; KCreate k; KReg (RegDig (plain k));
                                 KSave SLock; KSave SSnap; KSave SWrite; KSave SUnlock; KRUnlock]) /\
  (forall k, prog_push k false = [KRLock; KCreate k; KRUnlock]) /\
  (forall k, prog_delete k = [KWLock; KRegDelete k; KSave SLock; KSave SSnap; KSave SWrite; KSave SUnlock;
                              KRemove k; KWUnlock]) /\
  (forall g, prog_gc g = [KWLock; KRegGC g; KSave SLock; KSave SSnap; KSave SWrite; KSave SUnlock;
                          KSweep g; KWUnlock]).
Proof. repeat split; intros; vm_compute; reflexivity. Qed.

Lemma programs_checked :
  (forall d t, check ts0 (prog_tag d t) = true) /\ (forall t, check ts0 (prog_untag t) = true) /\
  check ts0 prog_saveindex = true /\ (forall k m, check ts0 (prog_push k m) = true) /\
  (forall k, check ts0 (prog_delete k) = true) /\ (forall g, check ts0 (prog_gc g) = true).
Proof.
  destruct programs_explicit as (A & B & C & D & E & F & G).
  split; [|split; [|split; [|split; [|split]]]].
  - intros d t. rewrite A. simpl. now rewrite Nat.eqb_refl.
  - intros t. now rewrite B.
  - now rewrite C.
  - intros k m. destruct m; [rewrite D|rewrite E]; simpl; now rewrite ?Nat.eqb_refl.
  - intros k. rewrite F. simpl. now rewrite Nat.eqb_refl.
  - intros g. rewrite G. simpl. now rewrite Nat.eqb_refl.
Qed.

Lemma lookup_filter (f : ref * desc -> bool) m r : NoDup (map fst m) ->
  lookup r (filter f m) = match lookup r m with Some d => if f (r, d) then Some d else None | None => None end.
Proof.
  induction m as [|[k v] m IH]; simpl; intro ND; auto.
  inversion ND as [|? ? Hn ND']; subst.
  destruct (ref_eqb r k) eqn:E.
  - apply ref_eqb_eq in E. subst k. destruct (f (r, v)) eqn:F; simpl.
    + now rewrite ref_eqb_refl.
    + rewrite (IH ND'). destruct (lookup r m) as [d|] eqn:L; auto.
      exfalso. apply Hn. apply lookup_Some_In in L. apply in_map_iff. exists (r, d). auto.
  - destruct (f (k, v)); simpl; [rewrite E|]; now apply IH.
Qed.
Lemma ixinv_filter_node (keep : nat -> bool) ix : IxInv ix -> IxInv (filter (fun kv => keep (d_node (snd kv))) ix).
Proof.
  intro I. apply (ixinv_drop keep ix); [exact I|apply nodup_filter_keys, I|].
  intro r. exact (lookup_filter (fun kv => keep (d_node (snd kv))) ix r (ix_nd _ I)).
Qed.

Section Inv.
  Notation md s j := (ts_mode (l_ts (ll_ths s j))).
  Notation hold s j := (ts_hold (l_ts (ll_ths s j))).
  Notation snapped s j := (ts_snapped (l_ts (ll_ths s j))).
  Notation dirty s j := (ts_dirty (l_ts (ll_ths s j))).

  Definition some_dirty (s : lstate) : Prop := exists j, j < ll_n s /\ dirty s j = true.
  Definition current (s : lstate) : Prop := exists c, ll_disk s = save_index (fst c) (snd c) (ll_live s).

  (* the locks: each thread's type state is consistent, the rest of its program respects the
     discipline from there, indexLock is held by the thread that says so, an exclusive holder
     of the store lock is alone *)
  Record LkInv (s : lstate) : Prop := {
    k_ts : forall i, i < ll_n s -> ts_ok (l_ts (ll_ths s i));
    k_chk : forall i, i < ll_n s -> check (l_ts (ll_ths s i)) (l_prog (ll_ths s i)) = true;
    k_il : forall j, ll_ilock s = Some j -> j < ll_n s;
    k_hold : forall i, i < ll_n s -> (hold s i = true <-> ll_ilock s = Some i);
    k_excl : forall i j, i < ll_n s -> j < ll_n s -> md s i = MExcl -> j <> i -> md s j = MNone }.

  (* what a type state claims about the shared data: the references left after its GC calls are
     kept ones, no reference names content whose references it dropped, the content it saw and
     the digest entries it registered are there (unless its operation already failed) *)
  Definition knows (live : rmap) (blobs : list nat) (keep : nat -> nat -> bool) (a : tstate) (ok : bool) : Prop :=
    (forall g, In g (ts_gc a) -> forall r d, In (r, d) live -> keep g (d_node d) = true) /\
    (forall k, In k (ts_clr a) -> forall r d, In (r, d) live -> d_node d <> k) /\
    (ok = true -> (forall k, In k (ts_dig a) -> lookup (RDig k) live <> None) /\
                  (forall k, In k (ts_ver a) -> In k blobs)).

  Record DtInv (s : lstate) : Prop := {
    d_ix : IxInv (ll_live s);
    d_refs : refs_valid s;
    d_know : forall i, i < ll_n s ->
             knows (ll_live s) (ll_blobs s) (ll_keep s) (l_ts (ll_ths s i)) (l_ok (ll_ths s i)) }.

  (* saveIndex: a snapshot is the live map unless somebody registered since; index.json is
     current unless somebody has registered or is between snapshot and write *)
  Record SvInv (s : lstate) : Prop := {
    v_snap : forall i, i < ll_n s -> snapped s i = true ->
             exists v, l_snap (ll_ths s i) = Some v /\ (v = ll_live s \/ some_dirty s);
    v_disk : (forall i, i < ll_n s -> snapped s i = false) -> current s \/ some_dirty s }.

  Definition LInv (s : lstate) : Prop := LkInv s /\ DtInv s /\ SvInv s.

  Notation next s i p a' snap' ok' live' disk' blobs' il' :=
    (mkLS live' disk' blobs' il' (ll_n s) (lupd (ll_ths s) i (mkLT p a' snap' ok')) (ll_keep s)).

  Lemma lk_step s i p a' snap' ok' live' disk' blobs' il' :
    LkInv s -> i < ll_n s -> ts_ok a' -> check a' p = true ->
    (ts_mode a' = md s i \/ ts_mode a' = MNone \/
     (ts_mode a' = MShared /\ forall j, j < ll_n s -> j <> i -> md s j <> MExcl) \/
     (forall j, j < ll_n s -> j <> i -> md s j = MNone)) ->
    ((il' = ll_ilock s /\ ts_hold a' = hold s i) \/
     (ll_ilock s = None /\ il' = Some i /\ ts_hold a' = true) \/
     (il' = None /\ ts_hold a' = false /\ hold s i = true)) ->
    LkInv (next s i p a' snap' ok' live' disk' blobs' il').
  Proof.
    intros K Li Ta Ck Hm Hl. split; cbn [ll_n ll_ths ll_ilock].
    - intros j Hj. unfold lupd. destruct (Nat.eqb j i); [exact Ta|now apply (k_ts s K)].
    - intros j Hj. unfold lupd. destruct (Nat.eqb j i); [exact Ck|now apply (k_chk s K)].
    - intros j E. destruct Hl as [[-> _]|[(_ & -> & _)|(-> & _)]]; [now apply (k_il s K)|now injection E as <-|discriminate].
    - intros j Hj. destruct (Nat.eq_dec j i) as [->|Hji]; [rewrite lupd_same|rewrite lupd_other by assumption]; cbn [l_ts].
      + destruct Hl as [[-> ->]|[(_ & -> & ->)|(-> & -> & _)]]; [now apply (k_hold s K)|tauto|easy].
      + destruct Hl as [[-> _]|[(E & -> & _)|(-> & _ & E)]]; [now apply (k_hold s K)| |].
        * rewrite (k_hold s K j Hj), E. split; [discriminate|congruence].
        * apply (k_hold s K i Li) in E. rewrite (k_hold s K j Hj), E. split; [congruence|discriminate].
    - intros x y Hx Hy. destruct (Nat.eq_dec x i) as [->|Hxi]; destruct (Nat.eq_dec y i) as [->|Hyi];
        rewrite ?lupd_same, ?lupd_other by assumption; cbn [l_ts]; try congruence.
      + intros E _. destruct Hm as [Hm|[Hm|[[Hm _]|Hm]]]; try congruence; [|now apply Hm].
        apply (k_excl s K i y); auto; congruence.
      + intros E _. destruct Hm as [Hm|[Hm|[[_ Hm]|Hm]]]; try congruence.
        * rewrite Hm. apply (k_excl s K x i); auto.
        * now destruct (Hm x Hx Hxi).
        * rewrite (Hm x Hx Hxi) in E. discriminate.
      + now apply (k_excl s K).
  Qed.

  (* the other threads while thread i holds the store lock: none of them holds it exclusively, so
     none has dropped references or run gcIndex; if i holds it exclusively they are at rest *)
  Lemma others_shared s i j : LkInv s -> i < ll_n s -> j < ll_n s -> j <> i -> md s i <> MNone ->
    ts_clr (l_ts (ll_ths s j)) = [] /\ ts_gc (l_ts (ll_ths s j)) = [].
  Proof.
    intros K Li Lj Hji Hm. destruct (k_ts s K j Lj) as (W & Sh & Gc & _).
    assert (Hj : md s j <> MExcl) by (intro E; apply Hm, (k_excl s K j i); auto).
    split.
    - destruct (md s j); [now rewrite (W eq_refl)|now apply Sh|contradiction].
    - destruct (ts_gc _); [reflexivity|]. exfalso. apply Hj, Gc. discriminate.
  Qed.
  Lemma others_rest s i j : LkInv s -> i < ll_n s -> j < ll_n s -> j <> i -> md s i = MExcl ->
    l_ts (ll_ths s j) = ts0.
  Proof. intros K Li Lj Hji E. apply (k_ts s K j Lj), (k_excl s K i j); auto. Qed.

  Lemma dt_step s i p a' snap' ok' live' disk' blobs' il' :
    LkInv s -> DtInv s -> i < ll_n s ->
    IxInv live' -> (forall r d, In (r, d) live' -> In (d_node d) blobs') ->
    knows live' blobs' (ll_keep s) a' ok' ->
    (md s i = MExcl \/
     ((live' = ll_live s \/ md s i <> MNone) /\
      (forall k, lookup (RDig k) (ll_live s) <> None -> lookup (RDig k) live' <> None) /\
      (forall x, In x (ll_blobs s) -> In x blobs'))) ->
    DtInv (next s i p a' snap' ok' live' disk' blobs' il').
  Proof.
    intros K D Li Hix Hrf Hk Ho. split; cbn [ll_live ll_blobs ll_keep ll_n ll_ths]; [exact Hix|exact Hrf|].
    intros j Hj. destruct (Nat.eq_dec j i) as [->|Hji]; [now rewrite lupd_same|rewrite lupd_other by assumption].
    destruct (d_know s D j Hj) as (Kg & Kc & Kv). destruct Ho as [E|(Hl & Hd & Hb)].
    - rewrite (others_rest s i j K Li Hj Hji E). split; [intros g []|split; [intros k []|]].
      intros _. split; intros k [].
    - split; [|split].
      + destruct Hl as [->|Hm]; [exact Kg|]. destruct (others_shared s i j K Li Hj Hji Hm) as [_ ->]. intros g [].
      + destruct Hl as [->|Hm]; [exact Kc|]. destruct (others_shared s i j K Li Hj Hji Hm) as [-> _]. intros k [].
      + intro Ok. destruct (Kv Ok) as [Kd Kb]. split; intros k Hk'; [apply Hd, Kd|apply Hb, Kb]; assumption.
  Qed.

  (* a step that leaves the shared data alone and adds nothing to what the thread claims *)
  Lemma dt_same s i p a' snap' ok' disk' il' :
    LkInv s -> DtInv s -> i < ll_n s ->
    knows (ll_live s) (ll_blobs s) (ll_keep s) a' ok' ->
    DtInv (next s i p a' snap' ok' (ll_live s) disk' (ll_blobs s) il').
  Proof.
    intros K D Li Hk. apply dt_step; [assumption|assumption|assumption|apply (d_ix s D)|apply (d_refs s D)|exact Hk|right; auto].
  Qed.

  Lemma sv_keep s i p a' snap' ok' live' disk' blobs' il' :
    SvInv s -> i < ll_n s ->
    ts_snapped a' = snapped s i -> (ts_snapped a' = true -> snap' = l_snap (ll_ths s i)) ->
    (ts_dirty a' = true \/ (live' = ll_live s /\ disk' = ll_disk s /\ ts_dirty a' = dirty s i)) ->
    SvInv (next s i p a' snap' ok' live' disk' blobs' il').
  Proof.
    intros V Li Es Ep Hd.
    assert (SD : some_dirty s -> some_dirty (next s i p a' snap' ok' live' disk' blobs' il')).
    { intros (j & Hj & Dj). destruct Hd as [Hd|(_ & _ & Hd)]; [exists i|exists j]; (split; [assumption|]); cbn [ll_ths].
      - now rewrite lupd_same.
      - destruct (Nat.eq_dec j i) as [->|Hji]; [rewrite lupd_same; cbn; congruence|now rewrite lupd_other]. }
    assert (Live : forall v, v = ll_live s \/ some_dirty s ->
                   v = live' \/ some_dirty (next s i p a' snap' ok' live' disk' blobs' il')).
    { intros v [->|X]; [|right; now apply SD]. destruct Hd as [Hd|(-> & _)]; [right|now left].
      exists i. split; [assumption|]. cbn [ll_ths]. now rewrite lupd_same. }
    split; cbn [ll_n ll_ths ll_live].
    - intros j Hj. destruct (Nat.eq_dec j i) as [->|Hji]; [rewrite lupd_same|rewrite lupd_other by assumption]; cbn [l_ts l_snap]; intro E.
      + destruct (v_snap s V i Li) as (v & Sv & Hv); [congruence|]. exists v. split; [now rewrite Ep|now apply Live].
      + destruct (v_snap s V j Hj E) as (v & Sv & Hv). exists v. split; [exact Sv|now apply Live].
    - intro Hn. destruct Hd as [Hd|(-> & -> & Hd)].
      + right. exists i. split; [assumption|]. cbn [ll_ths]. now rewrite lupd_same.
      + destruct (v_disk s V) as [X|X]; [|now left|right; now apply SD].
        intros j Hj. specialize (Hn j Hj). destruct (Nat.eq_dec j i) as [->|Hji];
          [rewrite lupd_same in Hn; cbn in Hn; congruence|now rewrite lupd_other in Hn].
  Qed.

  (* while thread i holds indexLock no other thread is between snapshot and write *)
  Lemma sv_alone s i p a' snap' ok' live' disk' blobs' il' :
    LkInv s -> i < ll_n s -> hold s i = true ->
    (ts_snapped a' = true -> exists v, snap' = Some v /\ v = live') ->
    (ts_snapped a' = false ->
     let s' := next s i p a' snap' ok' live' disk' blobs' il' in current s' \/ some_dirty s') ->
    SvInv (next s i p a' snap' ok' live' disk' blobs' il').
  Proof.
    intros K Li Hh H1 H2.
    assert (No : forall j, j < ll_n s -> j <> i -> snapped s j = false).
    { intros j Hj Hji. destruct (snapped s j) eqn:E; [exfalso|reflexivity].
      apply (k_ts s K j Hj), (k_hold s K j Hj) in E. apply (k_hold s K i Li) in Hh. congruence. }
    split; cbn [ll_n ll_ths ll_live].
    - intros j Hj. destruct (Nat.eq_dec j i) as [->|Hji]; [rewrite lupd_same|rewrite lupd_other by assumption]; cbn [l_ts l_snap]; intro E.
      + destruct (H1 E) as (v & -> & ->). exists live'. auto.
      + rewrite No in E by assumption. discriminate.
    - intro Hn. apply H2. specialize (Hn i Li). now rewrite lupd_same in Hn.
  Qed.

  Lemma lk_same s i p a' snap' ok' live' disk' blobs' :
    LkInv s -> i < ll_n s -> ts_ok a' -> check a' p = true ->
    ts_mode a' = md s i -> ts_hold a' = hold s i ->
    LkInv (next s i p a' snap' ok' live' disk' blobs' (ll_ilock s)).
  Proof. intros. apply lk_step; auto. Qed.

  Lemma sv_same s i p a' ok' blobs' il' :
    SvInv s -> i < ll_n s -> ts_snapped a' = snapped s i -> ts_dirty a' = dirty s i ->
    SvInv (next s i p a' (l_snap (ll_ths s i)) ok' (ll_live s) (ll_disk s) blobs' il').
  Proof. intros. apply sv_keep; auto. Qed.

  Lemma knows_nil live blobs keep a ok :
    ts_gc a = [] -> ts_clr a = [] -> ts_dig a = [] -> ts_ver a = [] -> knows live blobs keep a ok.
  Proof.
    unfold knows. intros -> -> -> ->. split; [intros g []|split; [intros k []|]]. intros _. split; intros k [].
  Qed.

  (* taking or releasing the store lock *)
  Lemma linv_mode s i p m' :
    LInv s -> i < ll_n s ->
    let a := l_ts (ll_ths s i) in
    let a' := mkTS m' (ts_hold a) (ts_snapped a) (ts_dirty a) [] [] [] [] in
    ts_ok a' -> check a' p = true ->
    (m' = MNone \/ (m' = MShared /\ forall j, j < ll_n s -> j <> i -> md s j <> MExcl) \/
     (forall j, j < ll_n s -> j <> i -> md s j = MNone)) ->
    LInv (next s i p a' (l_snap (ll_ths s i)) true (ll_live s) (ll_disk s) (ll_blobs s) (ll_ilock s)).
  Proof.
    intros (K & D & V) Li a a' Ta Ck Hm. split; [|split].
    - apply lk_step; auto.
    - now apply dt_same, knows_nil.
    - now apply sv_same.
  Qed.

  (* a registration in the resolver: the content was seen under the lock and its references
     were not dropped; a tag comes after the digest entry of its descriptor *)
  Lemma dt_reg s i p r snap' :
    LkInv s -> DtInv s -> i < ll_n s ->
    let t := ll_ths s i in
    tstep_ok (l_ts t) (KReg r) = true ->
    DtInv (next s i p (tnext (l_ts t) (KReg r)) snap' (l_ok t)
                (if l_ok t then reg_fun r (ll_live s) else ll_live s) (ll_disk s) (ll_blobs s) (ll_ilock s)).
  Proof.
    intros K D Li t Ok. pose proof (d_know s D i Li) as (Kg & Kc & Kv). fold t in Kg, Kc, Kv.
    cbn [tstep_ok] in Ok. apply andb_true_iff in Ok as [Ok Ogc]. apply andb_true_iff in Ok as [Ok Og].
    apply andb_true_iff in Ok as [Om Ov]. apply negb_true_iff, lmode_neqb in Om.
    assert (Egc : ts_gc (l_ts t) = []) by (destruct (ts_gc (l_ts t)); [reflexivity|discriminate]).
    assert (Mono : forall k', lookup (RDig k') (ll_live s) <> None ->
                   lookup (RDig k') (if l_ok t then reg_fun r (ll_live s) else ll_live s) <> None).
    { intros k' X. destruct (l_ok t); [now apply reg_keeps_digests|exact X]. }
    apply dt_step; [exact K|exact D|exact Li| | | |].
    - destruct (l_ok t) eqn:Okt; [|apply (d_ix s D)]. destruct (Kv eq_refl) as [Kd _].
      destruct r as [d|tg d|tg]; cbn [reg_fun].
      + apply ixinv_set_dig, (d_ix s D).
      + apply ixinv_set_tag; [apply (d_ix s D)|]. apply Kd. now apply mem_In.
      + apply ixinv_untag, (d_ix s D).
    - intros r' d' X. destruct (l_ok t) eqn:Okt; [|now apply (d_refs s D r' d')].
      destruct (Kv eq_refl) as [_ Kb].
      destruct r as [d|tg d|tg]; cbn [reg_fun rreg_node] in X, Ov;
        [apply in_rset in X as [[-> ->]|X]|apply in_rset in X as [[-> ->]|X]|apply in_runset in X];
        try (now apply (d_refs s D r' d')); apply andb_true_iff in Ov as [Ov _]; now apply Kb, mem_In.
    - split; [cbn [tnext ts_gc]; rewrite Egc; intros g0 []|split].
      + intros k' Ik r' d' X. destruct (l_ok t); [|now apply (Kc k' Ik r' d')].
        destruct r as [d|tg d|tg]; cbn [reg_fun rreg_node] in X, Ov;
          [apply in_rset in X as [[-> ->]|X]|apply in_rset in X as [[-> ->]|X]|apply in_runset in X];
          try (now apply (Kc k' Ik r' d')); apply andb_true_iff in Ov as [_ Ov];
          apply negb_true_iff, mem_false in Ov; intro E; apply Ov; now rewrite E.
      + intro E. rewrite E in *. destruct (Kv eq_refl) as [Kd Kb]. split; [|exact Kb].
        destruct r as [d|tg d|tg]; cbn [tnext ts_dig reg_fun]; intros k' Ik; try (now apply Mono, Kd).
        destruct Ik as [<-|Ik]; [rewrite lookup_rset_eq; congruence|now apply Mono, Kd].
    - right. split; [now right|]. split; [exact Mono|auto].
  Qed.

  (* delete() and gcIndex, under the exclusive lock: only references to nodes that [f] accepts
     are left; the thread may claim that for a GC call whose kept set contains them, or for the
     node that [f] rejects *)
  Lemma dt_drop s i p a' snap' ok' f :
    LkInv s -> DtInv s -> i < ll_n s ->
    let a := l_ts (ll_ths s i) in
    ts_mode a = MExcl -> (ok' = true -> l_ok (ll_ths s i) = true) ->
    (forall g, In g (ts_gc a') -> In g (ts_gc a) \/ forall d, f d = true -> ll_keep s g d = true) ->
    (forall k, In k (ts_clr a') -> In k (ts_clr a) \/ f k = false) ->
    ts_dig a' = [] -> ts_ver a' = ts_ver a ->
    DtInv (next s i p a' snap' ok' (filter (fun kv => f (d_node (snd kv))) (ll_live s))
                (ll_disk s) (ll_blobs s) (ll_ilock s)).
  Proof.
    intros K D Li a Ea Hok Hg Hc Ed Ev. pose proof (d_know s D i Li) as (Kg & Kc & Kv). fold a in Kg, Kc, Kv.
    apply dt_step; [exact K|exact D|exact Li|apply ixinv_filter_node, (d_ix s D)| | |now left].
    - intros r d X. apply filter_In in X as [X _]. now apply (d_refs s D r d).
    - split; [|split].
      + intros g Ig r d X. apply filter_In in X as [X Y]. destruct (Hg g Ig) as [H|H]; [now apply (Kg g H r d)|now apply H].
      + intros k Ik r d X. apply filter_In in X as [X Y]. destruct (Hc k Ik) as [H|H]; [now apply (Kc k H r d)|].
        cbn in Y. congruence.
      + intro E. destruct (Kv (Hok E)) as [_ Kb]. rewrite Ed, Ev. split; [intros k []|exact Kb].
  Qed.

  (* storage.Delete and GC's sweep, under the exclusive lock: no blob file goes that a reference
     names *)
  Lemma dt_sweep s i p a' snap' ok' f :
    LkInv s -> DtInv s -> i < ll_n s ->
    let a := l_ts (ll_ths s i) in
    ts_mode a = MExcl -> (ok' = true -> l_ok (ll_ths s i) = true) ->
    (forall r d, In (r, d) (ll_live s) -> f (d_node d) = true) ->
    ts_gc a' = ts_gc a -> ts_clr a' = ts_clr a -> ts_dig a' = ts_dig a -> ts_ver a' = [] ->
    DtInv (next s i p a' snap' ok' (ll_live s) (ll_disk s) (filter f (ll_blobs s)) (ll_ilock s)).
  Proof.
    intros K D Li a Ea Hok Hf Eg Ec Ed Ev. pose proof (d_know s D i Li) as (Kg & Kc & Kv). fold a in Kg, Kc, Kv.
    apply dt_step; [exact K|exact D|exact Li|apply (d_ix s D)| | |now left].
    - intros r d X. apply filter_In. split; [now apply (d_refs s D r d)|now apply (Hf r d)].
    - unfold knows. rewrite Eg, Ec, Ed, Ev. split; [exact Kg|split; [exact Kc|]].
      intro E. destruct (Kv (Hok E)) as [Kd _]. split; [exact Kd|intros k []].
  Qed.

  Lemma linv_step s i c s' : LInv s -> l_step i c s = Some s' -> LInv s'.
  Proof.
    intros I H. pose proof I as (K & D & V). unfold l_step in H.
    destruct (Nat.ltb i (ll_n s)) eqn:Li; [|discriminate]. apply Nat.ltb_lt in Li. cbn [negb] in H.
    pose proof (k_chk s K i Li) as Ck. pose proof (k_ts s K i Li) as Ta.
    pose proof (d_know s D i Li) as (Kg & Kc & Kv).
    destruct (l_prog (ll_ths s i)) as [|st p] eqn:P; [discriminate|].
    cbn [check] in Ck. apply andb_true_iff in Ck as [Ok Ck].
    pose proof (ts_ok_step _ _ Ta Ok) as Ta'.
    set (t := ll_ths s i) in *. set (a := l_ts t) in *.
    destruct st as [ | | | |k|k|r|k|sv|k|g|g]; cbn [tstep_ok] in Ok.
    - (* KRLock *)
      destruct (others s i _) eqn:G; [|discriminate]. injection H as <-.
      apply linv_mode; auto. right. left. split; [reflexivity|]. intros j Hj Hji E.
      pose proof (others_spec s i _ G j Hj Hji) as X. cbn in X. now rewrite E in X.
    - (* KRUnlock *) injection H as <-. apply linv_mode; auto.
    - (* KWLock *)
      destruct (others s i _) eqn:G; [|discriminate]. injection H as <-.
      apply linv_mode; auto. right. right. intros j Hj Hji.
      apply lmode_eqb_eq, (others_spec s i _ G j Hj Hji).
    - (* KWUnlock *) injection H as <-. apply linv_mode; auto.
    - (* KExists *)
      injection H as <-. split; [now apply lk_same|split; [|now apply sv_same]].
      apply dt_same; auto. split; [exact Kg|split; [exact Kc|]]. intro E.
      apply andb_true_iff in E as [E1 E2]. destruct (Kv E1) as [Kd Kb]. split; [exact Kd|].
      intros k' [<-|Hk]; [now apply mem_In|now apply Kb].
    - (* KCreate *)
      injection H as <-. split; [now apply lk_same|split; [|now apply sv_same]].
      apply dt_step; [exact K|exact D|exact Li|apply (d_ix s D)| | |].
      + intros r d X. apply In_add. right. now apply (d_refs s D r d).
      + split; [exact Kg|split; [exact Kc|]]. intro E. destruct (Kv E) as [Kd Kb]. split; [exact Kd|].
        intros k' [<-|Hk]; apply In_add; [now left|right; now apply Kb].
      + right. split; [now left|]. split; [auto|]. intros x Hx. apply In_add. now right.
    - (* KReg *)
      injection H as <-. split; [now apply lk_same|split; [now apply dt_reg|apply sv_keep; auto]].
    - (* KRegDelete *)
      injection H as <-. apply lmode_eqb_eq in Ok.
      split; [now apply lk_same|split; [|apply sv_keep; auto]].
      apply (dt_drop s i p _ _ _ (fun n => negb (Nat.eqb n k))); auto.
      intros k' [<-|Ik]; [right; now rewrite Nat.eqb_refl|now left].
    - (* KSave *)
      destruct sv; cbn [tstep_ok] in Ok.
      + (* SLock *)
        destruct (ll_ilock s) eqn:Il; [discriminate|]. injection H as <-.
        split; [|split; [now apply dt_same|now apply sv_same]].
        apply lk_step; auto.
      + (* SSnap *)
        injection H as <-. split; [now apply lk_same|split; [now apply dt_same|]].
        apply sv_alone; auto; [intros _; now exists (ll_live s)|discriminate].
      + (* SWrite *)
        injection H as <-. apply andb_true_iff in Ok as [Oh Os].
        split; [now apply lk_same|split; [now apply dt_same|]].
        apply sv_alone; auto; [discriminate|]. intros _.
        destruct (v_snap s V i Li Os) as (v & Sv & Cur). fold t in Sv. rewrite Sv.
        destruct Cur as [->|(j & Hj & Dj)]; [left; now exists c|right].
        exists j. split; [exact Hj|]. cbn [ll_ths]. destruct (Nat.eq_dec j i) as [->|Hji];
          [now rewrite lupd_same|now rewrite lupd_other].
      + (* SUnlock *)
        injection H as <-. apply andb_true_iff in Ok as [Oh Os]. apply negb_true_iff in Os.
        split; [|split; [now apply dt_same|]].
        * apply lk_step; auto.
        * apply sv_keep; auto. cbn. fold a. congruence.
    - (* KRemove *)
      injection H as <-. do 3 (apply andb_true_iff in Ok as [Ok _]).
      apply andb_true_iff in Ok as [Om Oc]. apply lmode_eqb_eq in Om. apply mem_In in Oc.
      split; [now apply lk_same|split; [|now apply sv_same]].
      apply (dt_sweep s i p _ _ _ (fun x => negb (Nat.eqb k x))); auto.
      intros r d X. apply negb_true_iff, Nat.eqb_neq. intro E. now apply (Kc k Oc r d X).
    - (* KRegGC *)
      injection H as <-. apply lmode_eqb_eq in Ok.
      split; [now apply lk_same|split; [|apply sv_keep; auto]].
      apply (dt_drop s i p _ _ _ (ll_keep s g)); auto.
      intros g0 [<-|Ig]; [now right|now left].
    - (* KSweep *)
      injection H as <-. do 3 (apply andb_true_iff in Ok as [Ok _]).
      apply andb_true_iff in Ok as [Om Oc]. apply lmode_eqb_eq in Om. apply mem_In in Oc.
      split; [now apply lk_same|split; [|now apply sv_same]].
      apply (dt_sweep s i p _ _ _ (ll_keep s g)); auto. intros r d. now apply Kg.
  Qed.

  Lemma linv_run sched : forall s, LInv s -> LInv (l_run sched s).
  Proof.
    induction sched as [|[i c] r IH]; intros s I; simpl; auto.
    apply IH. destruct (l_step i c s) eqn:E; auto. eapply linv_step; eauto.
  Qed.

  Lemma linv_init s : l_init s -> IxInv (ll_live s) -> LInv s.
  Proof.
    intros (Hd & Hr & Hl & Ht) Hix.
    assert (E : forall i, i < ll_n s -> l_ts (ll_ths s i) = ts0) by (intros i Hi; apply Ht, Hi).
    split; [|split]; split.
    - intros i Hi. rewrite (E i Hi). apply ts_ok0.
    - intros i Hi. rewrite (E i Hi). apply Ht, Hi.
    - intros j X. congruence.
    - intros i Hi. rewrite (E i Hi), Hl. split; discriminate.
    - intros i j Hi _ X. rewrite (E i Hi) in X. discriminate.
    - exact Hix.
    - exact Hr.
    - intros i Hi. rewrite (E i Hi). now apply knows_nil.
    - intros i Hi X. rewrite (E i Hi) in X. discriminate.
    - intros _. now left.
  Qed.

  (* every schedule of any number of threads running programs that respect the lock discipline:
     once all have returned, index.json is current, every reference points to a blob file, and
     no lock is held *)
  Theorem locks_quiescent s0 sched :
    l_init s0 -> IxInv (ll_live s0) -> let s := l_run sched s0 in
    IxInv (ll_live s) /\
    (l_quiescent s -> current s /\ DiskOK (ll_disk s) (ll_live s) /\ refs_valid s /\ ll_ilock s = None).
  Proof.
    intros H0 Hix s. pose proof (linv_run sched s0 (linv_init s0 H0 Hix)) as (K & D & V). fold s in K, D, V.
    split; [apply (d_ix s D)|]. intro Q.
    assert (Rest : forall i, i < ll_n s -> l_ts (ll_ths s i) = ts0).
    { intros i Hi. apply (k_ts s K i Hi). pose proof (k_chk s K i Hi) as C.
      rewrite (Q i Hi) in C. now apply lmode_eqb_eq. }
    assert (Cur : current s).
    { destruct (v_disk s V) as [X|(j & Hj & Dj)]; [intros i Hi; now rewrite (Rest i Hi)|exact X|].
      rewrite (Rest j Hj) in Dj. discriminate. }
    split; [exact Cur|]. split; [destruct Cur as (c & E); rewrite E; apply save_diskok, (d_ix s D)|].
    split; [apply (d_refs s D)|]. destruct (ll_ilock s) as [j|] eqn:E; [exfalso|reflexivity].
    pose proof (k_il s K j E) as Hj. apply (k_hold s K j Hj) in E. rewrite (Rest j Hj) in E. discriminate.
  Qed.
End Inv.

Lemma check_app p : forall a q, ts_ok a -> check a p = true -> check ts0 q = true -> check a (p ++ q) = true.
Proof.
  induction p as [|st p IH]; intros a q W C Q; simpl in *.
  - apply lmode_eqb_eq in C. now rewrite (proj1 W C).
  - apply andb_true_iff in C as [Ok C]. rewrite Ok. simpl. apply IH; auto. now apply ts_ok_step.
Qed.

Lemma lops_checked ops : check ts0 (prog_of_lops ops) = true.
Proof.
  destruct programs_checked as (A & B & C & D & E & F).
  induction ops as [|o ops IH]; [reflexivity|]. cbn [prog_of_lops flat_map]. fold (prog_of_lops ops).
  apply check_app; [apply ts_ok0 | destruct o; cbn [prog_of_lop]; [apply A|apply B|exact C|apply D|apply E|apply F] | exact IH].
Qed.

(* any number of threads, each running any list of Tag / Untag / SaveIndex / Push / Delete calls
   (programs assembled from the call sequences of the sources), from a store at rest, under
   every schedule: at quiescence index.json is current, every live reference points to a blob
   file (so every index.json entry does), no lock is held *)
Theorem store_operations_quiescent s0 sched :
  IxInv (ll_live s0) -> current s0 -> refs_valid s0 -> ll_ilock s0 = None ->
  (forall i, i < ll_n s0 -> exists ops, ll_ths s0 i = mkLT (prog_of_lops ops) ts0 None true) ->
  let s := l_run sched s0 in
  IxInv (ll_live s) /\
  (l_quiescent s -> current s /\ DiskOK (ll_disk s) (ll_live s) /\ refs_valid s /\ ll_ilock s = None).
Proof.
  intros Hix C R L T. apply locks_quiescent; auto. split; auto. split; auto. split; auto.
  intros i Hi. destruct (T i Hi) as (ops & ->). simpl. repeat split; auto. apply lops_checked.
Qed.

(* what the reopened store answers: loadIndex of that index.json gives every tag its live
   descriptor (with the ref-name annotation set) and a digest entry exactly for the live ones *)
Corollary store_operations_reload s0 sched :
  IxInv (ll_live s0) -> current s0 -> refs_valid s0 -> ll_ilock s0 = None ->
  (forall i, i < ll_n s0 -> exists ops, ll_ths s0 i = mkLT (prog_of_lops ops) ts0 None true) ->
  let s := l_run sched s0 in
  l_quiescent s ->
  let ix' := r_index (fold_left load_res (ll_disk s) res_empty) in
  (forall t, lookup (RTag t) ix' = option_map (fun d => with_ref d (RTag t)) (lookup (RTag t) (ll_live s))) /\
  (forall k, lookup (RDig k) ix' <> None <-> lookup (RDig k) (ll_live s) <> None).
Proof.
  intros Hix C R L T s Q ix'.
  destruct (store_operations_quiescent s0 sched Hix C R L T) as [I X]. fold s in I, X.
  destruct (X Q) as (_ & D & _). split.
  - intro t. apply (reload_tag _ _ D).
  - intro k. apply (reload_dig _ _ D).
Qed.

(* the lock placement of a seeded change breaks the property: a Tag whose Exists precedes its
   RLock, against a Delete (run in C08_seeded_lock_orders_rejected) *)
Definition exl_s0 : lstate :=
  mkLS [(RDig 0, plain 0)] [plain 0] [0] None 2
    (fun i => match i with
              | 0 => mkLT [KExists 0; KRLock; KReg (RegDig (plain 0)); KReg (RegTag 5 (plain 0));
                           KSave SLock; KSave SSnap; KSave SWrite; KSave SUnlock; KRUnlock] ts0 None true
              | _ => mkLT (prog_delete 0) ts0 None true
              end) (fun _ _ => true).

Definition dang_steps (ds : list nat) : list kstep := flat_map (fun d => [KExists d; KReg (RegDig (plain d))]) ds.

Lemma delete_item_explicit k ds :
  prog_delete_item k ds = [KRegDelete k] ++ dang_steps ds ++
                          [KSave SLock; KSave SSnap; KSave SWrite; KSave SUnlock; KRemove k].
Proof. unfold dang_steps. vm_compute. reflexivity. Qed.

Lemma delete_auto_explicit items :
  prog_delete_auto items = KWLock :: flat_map (fun it => prog_delete_item (fst it) (snd it)) items ++ [KWUnlock].
Proof. reflexivity. Qed.

(* the type state inside the exclusive section, outside saveIndex: the checks of the cascade's
   steps read of it only the dropped nodes [c] (and [v] right after an Exists) *)
Definition excl (di : bool) (v c dg : list nat) : tstate := mkTS MExcl false false di v c dg [].

Lemma dang_checked c q : (forall v dg, check (excl true v c dg) q = true) ->
  forall ds v dg, forallb (fun d => negb (mem d c)) ds = true ->
  check (excl true v c dg) (dang_steps ds ++ q) = true.
Proof.
  intro Hq. induction ds as [|d ds IH]; intros v dg F; [apply Hq|].
  cbn [forallb] in F. apply andb_true_iff in F as [Fd F].
  cbn [dang_steps flat_map app check tstep_ok tnext excl ts_mode ts_ver ts_clr ts_dig ts_gc rreg_node plain d_node
       lmode_eqb negb andb].
  rewrite (proj2 (mem_In d (d :: v)) (or_introl eq_refl)), Fd. apply (IH (d :: v) (d :: dg) F).
Qed.

Lemma cascade_ok items : forall v c dg, cascade_wf c items = true ->
  check (excl false v c dg) (flat_map (fun it => prog_delete_item (fst it) (snd it)) items ++ [KWUnlock]) = true.
Proof.
  induction items as [|[k ds] items IH]; intros v c dg W; [reflexivity|].
  cbn [cascade_wf] in W. apply andb_true_iff in W as [Wd W].
  cbn [flat_map fst snd]. rewrite delete_item_explicit, <- !app_assoc.
  cbn [app check tstep_ok tnext excl ts_mode lmode_eqb andb]. apply (dang_checked (k :: c)); [|exact Wd].
  intros v' dg'. cbn. rewrite Nat.eqb_refl. apply (IH [] (k :: c) dg' W).
Qed.

(* Store.Delete with AutoGC, for every queue: the program respects the lock discipline, so
   [locks_quiescent] covers threads that run it *)
Theorem delete_auto_checked items : cascade_wf [] items = true -> check ts0 (prog_delete_auto items) = true.
Proof. intro W. rewrite delete_auto_explicit. apply (cascade_ok items [] [] [] W). Qed.

(* a cascade next to a concurrent Tag, concretely: Delete of node 2 with AutoGC takes its child 1
   along and gives the dangling manifest 3 a digest reference (run in C08_delete_cascade_example) *)
Definition exa_s0 : lstate :=
  mkLS [(RTag 0, plain 2); (RDig 2, plain 2); (RDig 1, plain 1)]
       [mkDesc 2 0 (Some (RTag 0)); plain 1] [3; 2; 1] None 2
    (fun i => match i with
              | 0 => mkLT (prog_delete_auto [(2, [3]); (1, [])]) ts0 None true
              | _ => mkLT (prog_tag (plain 1) 7) ts0 None true
              end) (fun _ _ => true).
