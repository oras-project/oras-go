(* C15 -- lemmas about Model/PagingJson.v: the first JSON value of a stream is self-delimiting;
   what the decoder behind limitReader delivers and how many bytes it consumes *)
From Oras Require Import Base.Prelude Generated.GC15 Model.Paging Model.PagingJson Proofs.Paging.

(* one byte inside the outermost bracket: the next state, or None when the byte closes that bracket *)
Definition jnext (st : jst) (c : N) : option jst :=
  match st with
  | JStr d => Some (if c =? j_quote then JOut d else if c =? j_bslash then JEsc d else JStr d)
  | JEsc d => Some (JStr d)
  | JOut d => if c =? j_quote then Some (JStr d)
              else if j_open c then Some (JOut (S d))
              else if j_close c then match d with O => None | S d' => Some (JOut d') end
              else Some (JOut d)
  end.

Lemma scan_in_cons c r st n :
  scan_in (c :: r) st n = match jnext st c with Some st' => scan_in r st' (S n) | None => Some (S n) end.
Proof.
  destruct st as [d|d|d]; simpl; [|destruct (c =? j_quote), (c =? j_bslash); reflexivity|reflexivity].
  destruct (c =? j_quote), (j_open c), (j_close c), d; reflexivity.
Qed.

Lemma scan_in_app s tail st n m : scan_in s st n = Some m -> scan_in (s ++ tail) st n = Some m.
Proof.
  revert st n. induction s as [|c r IH]; intros st n H; [discriminate|].
  rewrite <- app_comm_cons, scan_in_cons in *. destruct (jnext st c); [now apply IH|exact H].
Qed.

Lemma scan_in_prefix s st n m :
  scan_in s st n = Some m ->
  (n < m <= n + length s)%nat /\ forall k, (n + k < m)%nat -> scan_in (firstn k s) st n = None.
Proof.
  revert st n. induction s as [|c r IH]; intros st n H; [discriminate|].
  rewrite scan_in_cons in H. simpl length. destruct (jnext st c) as [st'|] eqn:J.
  - destruct (IH st' (S n) H) as [B P]. split; [lia|].
    intros [|k'] Hk; [reflexivity|]. cbn [firstn]. rewrite scan_in_cons, J. apply P. lia.
  - injection H as <-. split; [lia|]. intros k Hk. now replace k with 0%nat by lia.
Qed.

Lemma scan_from_app s tail n m : scan_from s n = Some m -> scan_from (s ++ tail) n = Some m.
Proof.
  revert n. induction s as [|c r IH]; intros n H; [discriminate|]. simpl in *.
  destruct (j_ws c); [now apply IH|]. destruct (j_open c); [now apply scan_in_app|discriminate].
Qed.

Lemma scan_from_prefix s n m :
  scan_from s n = Some m ->
  (n < m <= n + length s)%nat /\ forall k, (n + k < m)%nat -> scan_from (firstn k s) n = None.
Proof.
  revert n. induction s as [|c r IH]; intros n H; [discriminate|]. simpl in H.
  destruct (j_ws c) eqn:W.
  - destruct (IH (S n) H) as [B P]. simpl length. split; [lia|].
    intros [|k'] Hk; [reflexivity|]. simpl. rewrite W. apply P. lia.
  - destruct (j_open c) eqn:O; [|discriminate].
    destruct (scan_in_prefix r (JOut 0) (S n) m H) as [B P]. simpl length. split; [lia|].
    intros [|k'] Hk; [reflexivity|]. simpl. rewrite W, O. apply P. lia.
Qed.

(* a complete bracketed value d (scan d = its length): decoding the stream d ++ anything stops
   at the end of d and yields d; no proper prefix of d is complete *)
Theorem first_value_self_delimiting d :
  scan d = Some (length d) ->
  (forall tail, first_value (d ++ tail) = Some d) /\
  (forall k, (k < length d)%nat -> first_value (firstn k d) = None).
Proof.
  intro H. unfold first_value, scan in *. split.
  - intro tail. rewrite (scan_from_app d tail 0 _ H). now rewrite firstn_app_exact.
  - intros k Hk. destruct (scan_from_prefix d 0 _ H) as [_ P]. now rewrite (P k Hk).
Qed.

Lemma consumed_loop_le fuel cap docend avail : consumed_loop fuel cap docend avail <= avail.
Proof.
  revert cap. induction fuel as [|f IH]; intro cap; simpl; [lia|].
  destruct (docend <=? N.min cap avail); [lia|]. destruct (avail <=? cap); [lia|apply IH].
Qed.

Lemma consumed_loop_ge fuel cap docend avail :
  docend <= avail -> docend <= consumed_loop fuel cap docend avail.
Proof.
  intro H. revert cap. induction fuel as [|f IH]; intro cap; simpl; [exact H|].
  destruct (N.leb_spec docend (N.min cap avail)); [assumption|].
  destruct (avail <=? cap); [exact H|apply IH].
Qed.

(* the client consumes at most MaxMetadataBytes (the default when <= 0) and at most the body;
   a document that fits is consumed at least to its end *)
Theorem consumed_of_spec limit docend total :
  (Z.of_N (consumed_of limit docend total) <= eff_limit limit)%Z /\
  consumed_of limit docend total <= total /\
  (docend <= total -> (Z.of_N docend <= eff_limit limit)%Z -> docend <= consumed_of limit docend total).
Proof.
  pose proof (eff_limit_pos limit) as Hp. unfold consumed_of, consumed.
  set (avail := N.min (Z.to_N (eff_limit limit)) total).
  pose proof (consumed_loop_le 80 512 (if docend <=? avail then docend else avail + 1) avail) as L.
  split; [|split].
  - unfold avail in *. lia.
  - unfold avail in *. lia.
  - intros H1 H2. assert (A : docend <= avail) by (unfold avail; lia).
    apply N.leb_le in A. rewrite A. apply consumed_loop_ge. now apply N.leb_le.
Qed.

Theorem consumed_index_spec limit size :
  (Z.of_N (consumed_index limit size) <= eff_limit limit)%Z /\ consumed_index limit size <= size.
Proof.
  pose proof (eff_limit_pos limit) as Hp. unfold consumed_index.
  destruct (limit_size_rejects limit (Z.of_N size)) eqn:E; [lia|].
  assert (~ (eff_limit limit < Z.of_N size)%Z) by (intro H; apply limit_size_spec in H; congruence).
  lia.
Qed.

Lemma scan_in_firstn s st n m :
  scan_in s st n = Some m -> forall k, (m <= n + k)%nat -> scan_in (firstn k s) st n = Some m.
Proof.
  revert st n. induction s as [|c r IH]; intros st n H k Hk; [discriminate|].
  destruct (scan_in_prefix (c :: r) st n m H) as [[Hlt _] _].
  destruct k as [|k']; [lia|]. cbn [firstn]. rewrite scan_in_cons in *.
  destruct (jnext st c); [apply IH; [exact H|lia]|exact H].
Qed.

Lemma scan_from_firstn s n m :
  scan_from s n = Some m -> forall k, (m <= n + k)%nat -> scan_from (firstn k s) n = Some m.
Proof.
  revert n. induction s as [|c r IH]; intros n H k Hk; [discriminate|].
  destruct (scan_from_prefix (c :: r) n m H) as [[Hlt _] _].
  destruct k as [|k']; [lia|]. cbn [firstn]. simpl in H |- *.
  destruct (j_ws c); [apply IH; [exact H|lia]|].
  destruct (j_open c); [|discriminate]. apply scan_in_firstn; [exact H|lia].
Qed.

(* Decoding the first value of a body through limitReader succeeds exactly when the value ends
   within the limit, and then yields the whole value: the comparison `document length <= limit`
   of Model/Paging.v (body_fits) is what the decoder behind the reader does. *)
Theorem scan_behind_limit body limit :
  first_value (seen limit body) =
  match scan body with
  | Some m => if (Z.of_nat m <=? eff_limit limit)%Z then Some (firstn m body) else None
  | None => None
  end.
Proof.
  pose proof (eff_limit_pos limit) as Hp. unfold first_value, seen, scan.
  set (n := Z.to_nat (eff_limit limit)).
  destruct (scan_from body 0) as [m|] eqn:S.
  - destruct (Z.leb_spec (Z.of_nat m) (eff_limit limit)) as [L|G].
    + rewrite (scan_from_firstn body 0 m S n) by (unfold n; lia).
      f_equal. rewrite firstn_firstn. f_equal. unfold n. lia.
    + destruct (scan_from_prefix body 0 m S) as [_ P]. rewrite (P n) by (unfold n; lia). reflexivity.
  - destruct (scan_from (firstn n body) 0) as [m|] eqn:S'; [|reflexivity].
    exfalso. pose proof (scan_from_app (firstn n body) (skipn n body) 0 m S') as A.
    rewrite firstn_skipn in A. congruence.
Qed.
