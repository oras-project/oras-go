(* Proofs about Model/OciConc.v: with the lock placement of the current sources (read by the
   translator), every interleaving of index-saving operations leaves index.json equal to the
   projection of the live references once all of them have returned, and every interleaving of
   Tag / Delete / Push on the same content leaves only references to existing content. *)
From Coq Require Import List Arith Bool PeanoNat Lia.
From Oras Require Import Base.Prelude Generated.GC08 Model.OciIndex Proofs.OciIndex Model.OciConc.
Import ListNotations.
Local Open Scope nat_scope.

(* the programs read from the sources are the well-locked ones *)
Lemma save_prog_good : save_prog = good_save.
Proof. reflexivity. Qed.
Lemma tag_prog_good : tag_prog = good_tag.
Proof. reflexivity. Qed.
Lemma del_prog_good : del_prog = good_del.
Proof. reflexivity. Qed.
Lemma push_prog_good : push_prog = good_push.
Proof. reflexivity. Qed.

(* system 1 (index.json), for any types of live map, file and iteration orders *)
Section SaveLTS.
  Variables L D Ord : Type.
  Variable proj : Ord -> L -> D.
  Notation thread := (thread L).
  Notation sstate := (sstate L D).
  Notation th_step := (th_step L D Ord proj).
  Notation run_sched := (run_sched L D Ord proj).

  Definition phase_ok (i : nat) (s : sstate) (t : thread) : Prop :=
    (t_save L t = [] /\ t_regs L t = [] /\ ilock L D s <> Some i) \/
    (t_save L t = good_save /\ ilock L D s <> Some i) \/
    (t_save L t = [SSnap; SWrite; SUnlock] /\ t_regs L t = [] /\ ilock L D s = Some i) \/
    (t_save L t = [SWrite; SUnlock] /\ t_regs L t = [] /\ ilock L D s = Some i /\ t_snap L t <> None) \/
    (t_save L t = [SUnlock] /\ t_regs L t = [] /\ ilock L D s = Some i).

  (* inside an operation, before the snapshot of its saveIndex *)
  Definition pending (t : thread) : Prop :=
    t_regs L t <> [] \/ t_save L t = good_save \/ t_save L t = [SSnap; SWrite; SUnlock].

  Record SInv (s : sstate) : Prop := {
    si_phase : forall i, phase_ok i s (ths L D s i) /\ Forall (fun o => snd o = good_save) (t_ops L (ths L D s i));
    si_snap : forall i v, t_save L (ths L D s i) = [SWrite; SUnlock] -> t_snap L (ths L D s i) = Some v ->
              v = live L D s \/ exists j, pending (ths L D s j);
    si_disk : (forall i, t_save L (ths L D s i) <> [SWrite; SUnlock]) ->
              (exists c, disk L D s = proj c (live L D s)) \/ exists j, pending (ths L D s j) }.

  Lemma upd_same f i t : upd L f i t i = t.
  Proof. unfold upd. now rewrite Nat.eqb_refl. Qed.
  Lemma upd_other f i t j : j <> i -> upd L f i t j = f j.
  Proof. intro H. unfold upd. apply Nat.eqb_neq in H. now rewrite H. Qed.

  Lemma sinv_init s : s_init L D Ord proj good_save s -> SInv s.
  Proof.
    intros (Hd & Hl & Hf). split.
    - intro i. destruct (Hf i) as (A & B & C & E). split; auto.
      left. repeat split; auto. rewrite Hl. discriminate.
    - intros i v H. destruct (Hf i) as (_ & B & _). rewrite B in H. discriminate.
    - intros _. now left.
  Qed.

  Lemma phase_same j s s1 t : ilock L D s1 = ilock L D s -> phase_ok j s t -> phase_ok j s1 t.
  Proof. intros E P. unfold phase_ok in *. now rewrite E. Qed.

  (* a thread that neither holds indexLock nor gets it does not care who does *)
  Lemma phase_other j s s1 t : ilock L D s <> Some j -> ilock L D s1 <> Some j ->
    phase_ok j s t -> phase_ok j s1 t.
  Proof.
    intros N N1 [(A & B & _)|[(A & _)|[(_ & _ & C)|[(_ & _ & C & _)|(_ & _ & C)]]]]; try contradiction.
    - left. auto.
    - right. left. auto.
  Qed.

  (* the threads other than the holder of indexLock are outside the lock phases *)
  Lemma holder_unique s i k : SInv s -> ilock L D s = Some i -> k <> i ->
    (t_save L (ths L D s k) = [] /\ t_regs L (ths L D s k) = []) \/ t_save L (ths L D s k) = good_save.
  Proof.
    intros I Hl Hk. destruct (si_phase s I k) as [P _].
    destruct P as [(A & B & _)|[(A & _)|[(_ & _ & C)|[(_ & _ & C & _)|(_ & _ & C)]]]]; auto;
      rewrite Hl in C; injection C as C; congruence.
  Qed.

  Notation next s i t' live' disk' il' := (mkSt L D live' disk' il' (upd L (ths L D s) i t')).

  Lemma sinv_pending s i t' live' il' :
    SInv s -> pending t' ->
    phase_ok i (next s i t' live' (disk L D s) il') t' -> Forall (fun o => snd o = good_save) (t_ops L t') ->
    (il' = ilock L D s \/ (ilock L D s = None /\ il' = Some i)) ->
    SInv (next s i t' live' (disk L D s) il').
  Proof.
    intros I Pe Ph Fo Hl. split; cbn [ths live disk].
    - intro j. destruct (Nat.eq_dec j i) as [->|Hj]; [now rewrite upd_same|rewrite upd_other by assumption].
      destruct (si_phase s I j) as [Pj Gj]. split; [|exact Gj].
      destruct Hl as [->|[E ->]]; [exact Pj|]. apply (phase_other j s); cbn [ilock]; congruence.
    - intros j v _ _. right. exists i. now rewrite upd_same.
    - intros _. right. exists i. now rewrite upd_same.
  Qed.

  Lemma sinv_step s i c s' : SInv s -> th_step i c s = Some s' -> SInv s'.
  Proof.
    intros I H. unfold OciConc.th_step in H.
    destruct (si_phase s I i) as [P G]. unfold phase_ok in P.
    set (t := ths L D s i) in *.
    assert (Keep : forall j, j <> i -> pending (ths L D s j) -> forall t' , pending (upd L (ths L D s) i t' j))
      by (intros j Hj Pj t'; now rewrite upd_other).
    destruct (t_regs L t) as [|f fs] eqn:R.
    - destruct (t_save L t) as [|st r] eqn:Sv.
      + (* start the next operation *)
        destruct (t_ops L t) as [|[rg sv] more] eqn:O; [discriminate|]. injection H as <-.
        inversion G as [|? ? G1 G2]; subst. simpl in G1. subst sv.
        destruct P as [(_ & _ & C)|[(A & _)|[(A & _)|[(A & _)|(A & _)]]]]; try discriminate.
        apply sinv_pending; auto; [right; now left|right; left; now split].
      + destruct st.
        * (* Lock *)
          destruct P as [(A & _)|[(A & C)|[(A & _)|[(A & _)|(A & _)]]]]; try discriminate.
          injection A as ->. destruct (ilock L D s) eqn:Lk; [discriminate|]. injection H as <-.
          apply sinv_pending; auto; [right; now right|right; right; left; now repeat split].
        * (* Snap: the snapshot is the live map *)
          destruct P as [(A & _)|[(A & _)|[(A & B & C)|[(A & _)|(A & _)]]]]; try discriminate.
          injection A as ->. injection H as <-. split; cbn [ths live disk].
          -- intro j. destruct (Nat.eq_dec j i) as [->|Hj]; [rewrite upd_same|rewrite upd_other by assumption; apply (si_phase s I j)].
             split; [|exact G]. right; right; right; left. now repeat split.
          -- intros j v Hs Hv. destruct (Nat.eq_dec j i) as [->|Hj].
             ++ rewrite upd_same in Hv. injection Hv as <-. now left.
             ++ rewrite upd_other in Hs by assumption.
                destruct (holder_unique s i j I C Hj) as [(X & _)|X]; rewrite X in Hs; discriminate.
          -- intro Hn. exfalso. apply (Hn i). now rewrite upd_same.
        * (* Write: of a snapshot that is current unless somebody is pending *)
          destruct P as [(A & _)|[(A & _)|[(A & _)|[(A & B & C & E)|(A & _)]]]]; try discriminate.
          injection A as ->. injection H as <-.
          destruct (t_snap L t) as [v|] eqn:Sn; [|congruence].
          split; cbn [ths live disk].
          -- intro j. destruct (Nat.eq_dec j i) as [->|Hj]; [rewrite upd_same|rewrite upd_other by assumption; apply (si_phase s I j)].
             split; [|exact G]. right; right; right; right. now repeat split.
          -- intros j w Hs _. destruct (Nat.eq_dec j i) as [->|Hj]; [rewrite upd_same in Hs; discriminate|].
             rewrite upd_other in Hs by assumption.
             destruct (holder_unique s i j I C Hj) as [(X & _)|X]; rewrite X in Hs; discriminate.
          -- intros _. destruct (si_snap s I i v Sv Sn) as [->|(j & Pj)]; [left; now exists c|right].
             exists j. apply Keep; [|exact Pj]. intros ->. fold t in Pj. unfold pending in Pj. rewrite R, Sv in Pj.
             destruct Pj as [X|[X|X]]; [now apply X|discriminate|discriminate].
        * (* Unlock *)
          destruct P as [(A & _)|[(A & _)|[(A & _)|[(A & _)|(A & B & C)]]]]; try discriminate.
          injection A as ->. injection H as <-. rewrite C, Nat.eqb_refl.
          assert (NoSnap : forall k, t_save L (ths L D s k) <> [SWrite; SUnlock]).
          { intro k. destruct (Nat.eq_dec k i) as [->|Hk]; [fold t; rewrite Sv; discriminate|].
            destruct (holder_unique s i k I C Hk) as [(X & _)|X]; rewrite X; discriminate. }
          split; cbn [ths live disk].
          -- intro j. destruct (Nat.eq_dec j i) as [->|Hj]; [rewrite upd_same|rewrite upd_other by assumption].
             ++ split; [|exact G]. left. repeat split. discriminate.
             ++ destruct (si_phase s I j) as [Pj Gj]. split; [|exact Gj].
                apply (phase_other j s); cbn [ilock]; [congruence|discriminate|exact Pj].
          -- intros j w Hs _. destruct (Nat.eq_dec j i) as [->|Hj]; [rewrite upd_same in Hs; discriminate|].
             rewrite upd_other in Hs by assumption. now destruct (NoSnap j).
          -- intros _. destruct (si_disk s I NoSnap) as [X|(j & Pj)]; [now left|right].
             exists j. apply Keep; [|exact Pj]. intros ->. fold t in Pj. unfold pending in Pj. rewrite R, Sv in Pj.
             destruct Pj as [X|[X|X]]; [now apply X|discriminate|discriminate].
    - (* a registration: only in front of a whole saveIndex *)
      injection H as <-.
      destruct P as [(_ & B & _)|[(A & C)|[(_ & B & _)|[(_ & B & _)|(_ & B & _)]]]]; try discriminate.
      apply sinv_pending; auto; [right; now left|right; left; now split].
  Qed.
  Lemma sinv_run sched : forall s, SInv s -> SInv (run_sched sched s).
  Proof.
    induction sched as [|[i c] r IH]; intros s I; simpl; auto.
    apply IH. destruct (th_step i c s) eqn:E; auto. eapply sinv_step; eauto.
  Qed.

  (* every interleaving, any number of threads and operations: once all have returned,
     index.json is the projection of the live references *)
  Theorem save_quiescent_current s0 sched :
    s_init L D Ord proj good_save s0 ->
    let s := run_sched sched s0 in
    quiescent L D s -> exists c, disk L D s = proj c (live L D s).
  Proof.
    intros H0 s Q. pose proof (sinv_run sched s0 (sinv_init s0 H0)) as I. fold s in I.
    assert (N : forall i, t_save L (ths L D s i) <> [SWrite; SUnlock]).
    { intro i. destruct (Q i) as (_ & B & _). rewrite B. discriminate. }
    destruct (si_disk s I N) as [X|(j & [X|[X|X]])]; auto; exfalso; destruct (Q j) as (A & B & _).
    - now apply X.
    - rewrite B in X. discriminate.
    - rewrite B in X. discriminate.
  Qed.
End SaveLTS.

(* the order of the seeded change (snapshot before indexLock) loses a reference:
   two Tag-like operations, the one that snapshots first writes last (run in
   C08_concurrent_refuted_snapshot_before_lock) *)
Definition bad_save : list sstep := [SSnap; SLock; SWrite; SUnlock].

Definition ex_thread (x : nat) : thread (list nat) := mkTh (list nat) [] [] None [([cons x], bad_save)].
Definition ex_idle : thread (list nat) := mkTh (list nat) [] [] None [].
Definition ex_s0 : sstate (list nat) (list nat) :=
  mkSt (list nat) (list nat) [] [] None (fun i => match i with 0 => ex_thread 1 | 1 => ex_thread 2 | _ => ex_idle end).
Definition ex_sched : list (nat * list nat) :=
  map (fun i => (i, [])) [0; 0; 0;  1; 1; 1; 1; 1; 1;  0; 0; 0].

(* the program points of the three operations, with the lock flags a thread has there *)
Definition gpoints : list (list gstep * bool * bool) :=
  [([], false, false);
   (good_tag, false, false); ([GExists; GReg; GRUnlock], true, false); ([GReg; GRUnlock], true, false);
   ([GRUnlock], true, false);
   (good_del, false, false); ([DUntag; DRemove; DWUnlock], false, true); ([DRemove; DWUnlock], false, true);
   ([DWUnlock], false, true);
   (good_push, false, false); ([PCreate; PRUnlock], true, false); ([PRUnlock], true, false)].

Definition blocked (st : gstep) (s : gstate) : bool :=
  match st with GRLock | PRLock => any_w s | DWLock => any_rw s | _ => false end.
Definition r_after (st : gstep) (r : bool) : bool :=
  match st with GRLock | PRLock => true | GRUnlock | PRUnlock => false | _ => r end.
Definition w_after (st : gstep) (w : bool) : bool :=
  match st with DWLock => true | DWUnlock => false | _ => w end.
Definition blob_after (st : gstep) (b : bool) : bool :=
  match st with DRemove => false | PCreate => true | _ => b end.
Definition refs_after (st : gstep) (ok : bool) (n : nat) : nat :=
  match st with GReg => if ok then S n else n | DUntag => 0 | _ => n end.
Definition ok_after (st : gstep) (b ok : bool) : bool := match st with GExists => b | _ => ok end.

Lemma g_step_inv i s s' : g_step i s = Some s' ->
  let t := gths s i in
  i < gn s /\ exists st p, g_prog t = st :: p /\ blocked st s = false /\
  s' = mkGS (blob_after st (blob s)) (refs_after st (g_ok t) (refs s)) (gn s)
            (gupd (gths s) i (mkG p (r_after st (g_r t)) (w_after st (g_w t)) (ok_after st (blob s) (g_ok t)))).
Proof.
  unfold g_step. destruct (Nat.ltb i (gn s)) eqn:Li; [|discriminate]. apply Nat.ltb_lt in Li. cbn [negb].
  destruct (g_prog (gths s i)) as [|st p]; [discriminate|]. intro H. split; [exact Li|]. exists st, p.
  split; [reflexivity|].
  destruct st; cbn [blocked]; try destruct (any_w s); try destruct (any_rw s); try discriminate;
    injection H as <-; now split.
Qed.

Lemma gpoint_step st p r w : In (st :: p, r, w) gpoints ->
  In (p, r_after st r, w_after st w) gpoints /\
  (w = true <-> st = DUntag \/ st = DRemove \/ st = DWUnlock) /\
  (r = true <-> st = GExists \/ st = GReg \/ st = GRUnlock \/ st = PCreate \/ st = PRUnlock) /\
  (p = [GReg; GRUnlock] -> st = GExists) /\ (p = [DRemove; DWUnlock] -> st = DUntag) /\ (p = [DWUnlock] -> st = DRemove) /\
  (st = GReg -> p = [GRUnlock]) /\ (st = DWUnlock -> p = []).
Proof.
  intro H. repeat (destruct H as [H|H]; [try discriminate H; injection H as <- <- <- <-; simpl; intuition (try discriminate; auto 20)|]).
  destruct H.
Qed.

Record GInv (s : gstate) : Prop := {
  gi_point : forall i, i < gn s -> In (g_prog (gths s i), g_r (gths s i), g_w (gths s i)) gpoints;
  gi_excl : forall i j, i < gn s -> j < gn s -> g_w (gths s i) = true -> j <> i ->
            g_r (gths s j) = false /\ g_w (gths s j) = false;
  (* a Tag between its check and its registration holds the read lock: the content it saw is there *)
  gi_blob : forall i, i < gn s -> g_prog (gths s i) = [GReg; GRUnlock] -> g_ok (gths s i) = true -> blob s = true;
  (* a Delete past its Untag holds the write lock: no reference has come back *)
  gi_refs : forall i, i < gn s -> g_prog (gths s i) = [DRemove; DWUnlock] \/ g_prog (gths s i) = [DWUnlock] -> refs s = 0;
  gi_valid : (forall i, i < gn s -> g_w (gths s i) = false) -> g_valid s }.

Lemma gupd_same f i t : gupd f i t i = t.
Proof. unfold gupd. now rewrite Nat.eqb_refl. Qed.
Lemma gupd_other f i t j : j <> i -> gupd f i t j = f j.
Proof. intro H. unfold gupd. apply Nat.eqb_neq in H. now rewrite H. Qed.

Lemma existsb_seq_false (f : nat -> bool) n : existsb f (seq 0 n) = false -> forall j, j < n -> f j = false.
Proof.
  intros H j Hj. destruct (f j) eqn:E; [|reflexivity]. rewrite <- H. symmetry.
  apply existsb_exists. exists j. split; [apply in_seq; lia|exact E].
Qed.
Lemma any_w_false s : any_w s = false -> forall j, j < gn s -> g_w (gths s j) = false.
Proof. apply (existsb_seq_false (fun j => g_w (gths s j)) (gn s)). Qed.
Lemma any_rw_false s : any_rw s = false -> forall j, j < gn s -> g_w (gths s j) = false /\ g_r (gths s j) = false.
Proof.
  intros H j Hj. apply orb_false_iff. now apply (existsb_seq_false (fun j => g_w (gths s j) || g_r (gths s j)) (gn s)).
Qed.

Lemma ginv_init s : g_init good_tag good_del good_push s -> GInv s.
Proof.
  intros [V H]. split.
  - intros i Hi. destruct (H i Hi) as (-> & -> & [ -> | [ -> | [ -> | -> ]]]); simpl; auto 15.
  - intros i j Hi Hj Wi. destruct (H i Hi) as (_ & W & _). congruence.
  - intros i Hi X. destruct (H i Hi) as (_ & _ & [P|[P|[P|P]]]); rewrite P in X; discriminate.
  - intros i Hi [X|X]; destruct (H i Hi) as (_ & _ & [P|[P|[P|P]]]); rewrite P in X; discriminate.
  - intros _. exact V.
Qed.

Lemma valid_after st ok b n :
  (n > 0 -> b = true) -> st <> DRemove -> (st = GReg -> ok = true -> b = true) ->
  refs_after st ok n > 0 -> blob_after st b = true.
Proof.
  intros V Hd Hg. destruct st; cbn; auto; try lia; try congruence.
  destruct ok; auto.
Qed.

Lemma ginv_step s i s' : GInv s -> g_step i s = Some s' -> GInv s'.
Proof.
  intros I H. apply g_step_inv in H as (Li & st & p & P & Bl & ->).
  pose proof (gi_point s I i Li) as Pt. rewrite P in Pt.
  destruct (gpoint_step _ _ _ _ Pt) as (Pt' & Hw & Hr & Eb & Er1 & Er2 & Eg & Eu).
  set (t := gths s i) in *.
  split; cbn [gn gths blob refs].
  - intros j Hj. destruct (Nat.eq_dec j i) as [->|Hji]; [now rewrite gupd_same|rewrite gupd_other by assumption].
    now apply (gi_point s I).
  - intros x y Hx Hy. destruct (Nat.eq_dec x i) as [->|Hxi]; destruct (Nat.eq_dec y i) as [->|Hyi];
      rewrite ?gupd_same, ?gupd_other by assumption; cbn [g_r g_w]; try congruence.
    + (* thread i has or takes the write lock *)
      intros W _. destruct st; cbn in W, Bl; try discriminate W; try (now apply (gi_excl s I i y)).
      destruct (any_rw_false s Bl y Hy). now split.
    + (* another thread has it: thread i cannot take a lock *)
      intros W _. destruct (gi_excl s I x i Hx Li W) as [Ri Wi]; [congruence|]. fold t in Ri, Wi. rewrite Ri, Wi.
      destruct st; cbn in Bl |- *; try (now split);
        [rewrite (any_w_false s Bl x Hx) in W|destruct (any_rw_false s Bl x Hx) as [X _]; rewrite X in W|
         rewrite (any_w_false s Bl x Hx) in W]; discriminate.
    + now apply (gi_excl s I).
  - intros j Hj. destruct (Nat.eq_dec j i) as [->|Hji]; [rewrite gupd_same|rewrite gupd_other by assumption]; cbn [g_prog g_ok].
    + intros E. rewrite (Eb E). exact (fun H => H).
    + intros E Ok. rewrite (gi_blob s I j Hj E Ok). destruct st; try reflexivity. exfalso.
      (* DRemove: thread i holds the write lock, thread j the read lock *)
      pose proof (gi_point s I j Hj) as Pj. rewrite E in Pj. apply gpoint_step in Pj as (_ & _ & Rj & _).
      destruct (gi_excl s I i j Li Hj) as [X _]; [apply Hw; auto|assumption|]. rewrite (proj2 Rj) in X; [discriminate|auto].
  - intros j Hj. destruct (Nat.eq_dec j i) as [->|Hji]; [rewrite gupd_same|rewrite gupd_other by assumption]; cbn [g_prog].
    + intros [E|E]; [now rewrite (Er1 E)|]. rewrite (Er2 E). apply (gi_refs s I i Li). left. fold t. now rewrite P, (Er2 E), E.
    + intros E. rewrite (gi_refs s I j Hj E). destruct st; try reflexivity. exfalso.
      (* GReg: thread i holds the read lock, thread j the write lock *)
      assert (Wj : g_w (gths s j) = true).
      { pose proof (gi_point s I j Hj) as Pj. destruct E as [E|E]; rewrite E in Pj; apply gpoint_step in Pj as (_ & Wj & _); apply Wj; auto. }
      destruct (gi_excl s I j i Hj Li Wj) as [X _]; [congruence|]. fold t in X. rewrite (proj2 Hr) in X; [discriminate|auto].
  - intros NW. unfold g_valid. cbn [refs blob].
    assert (Wi : w_after st (g_w t) = false) by (specialize (NW i Li); now rewrite gupd_same in NW).
    destruct (g_w t) eqn:W.
    + (* thread i releases the write lock *)
      assert (st = DWUnlock) by (destruct st; cbn in Wi; congruence). subst st.
      cbn. rewrite (gi_refs s I i Li); [lia|]. right. fold t. now rewrite P, Eu.
    + (* nobody held it *)
      apply valid_after.
      * apply (gi_valid s I). intros j Hj. destruct (Nat.eq_dec j i) as [->|Hji]; [exact W|].
        specialize (NW j Hj). now rewrite gupd_other in NW.
      * intros ->. assert (X : false = true) by (apply Hw; auto). discriminate X.
      * intros -> Ok. apply (gi_blob s I i Li); [|exact Ok]. fold t. now rewrite P, Eg.
Qed.

Lemma ginv_run sched : forall s, GInv s -> GInv (g_run sched s).
Proof.
  induction sched as [|i r IH]; intros s I; simpl; auto.
  apply IH. destruct (g_step i s) eqn:E; auto. eapply ginv_step; eauto.
Qed.

(* every interleaving of any number of Tag / Delete / Push calls on the same content: once all
   have returned, a registered reference points to content that exists *)
Theorem tag_delete_quiescent_current s0 sched :
  g_init good_tag good_del good_push s0 ->
  let s := g_run sched s0 in
  g_quiescent s -> g_valid s.
Proof.
  intros H0 s Q. pose proof (ginv_run sched s0 (ginv_init s0 H0)) as I. fold s in I.
  apply (gi_valid s I). intros i Hi. pose proof (gi_point s I i Hi) as Pt. rewrite (Q i Hi) in Pt.
  repeat (destruct Pt as [Pt|Pt]; [try discriminate Pt; now injection Pt|]). destruct Pt.
Qed.

(* the order of the seeded change (Exists before the read lock): a Tag that checked first and
   locked after a whole Delete registers a reference to content that is gone (run in
   C08_concurrent_refuted_exists_before_lock) *)
Definition bad_tag : list gstep := [GExists; GRLock; GReg; GRUnlock].

Definition exg_s0 : gstate :=
  mkGS true 1 2 (fun i => match i with 0 => mkG bad_tag false false false | 1 => mkG good_del false false false
                                    | _ => mkG [] false false false end).

Lemma reg_keeps_digests r ix k : lookup (RDig k) ix <> None -> lookup (RDig k) (reg_fun r ix) <> None.
Proof.
  intro H. destruct r as [d|t d|t]; cbn [reg_fun].
  - now apply rset_keeps.
  - now apply rset_keeps.
  - rewrite lookup_runset. cbn [ref_eqb]. exact H.
Qed.

(* every tag registration still to come finds the digest entry of its descriptor: it is there
   already, or the same operation registers it before ([pres]) *)
Fixpoint safe' (pres : list nat) (ix : rmap) (l : list rreg) : Prop :=
  match l with
  | [] => True
  | RegDig d :: r => safe' (d_node d :: pres) ix r
  | RegTag t d :: r => (lookup (RDig (d_node d)) ix <> None \/ In (d_node d) pres) /\ safe' pres ix r
  | RegUntag t :: r => safe' pres ix r
  end.

Lemma safe_mono l : forall pres pres' ix ix',
  (forall k, lookup (RDig k) ix <> None \/ In k pres -> lookup (RDig k) ix' <> None \/ In k pres') ->
  safe' pres ix l -> safe' pres' ix' l.
Proof.
  induction l as [|[d|t d|t] l IH]; intros pres pres' ix ix' M H; simpl in *; auto.
  - apply (IH (d_node d :: pres) (d_node d :: pres') ix ix'); auto.
    intros k [X|[X|X]]; [destruct (M k (or_introl X)); auto; right; now right|right; now left|].
    destruct (M k (or_intror X)); auto. right. now right.
  - destruct H as [H1 H2]. split; [now apply M|]. now apply (IH pres pres' ix ix').
  - now apply (IH pres pres' ix ix').
Qed.

Section Typed.
  Notation St := (sstate rmap (list desc)).
  Let proj := fun (c : list nat * list nat) (v : rmap) => save_index (fst c) (snd c) v.

  Definition typed_thread (ix : rmap) (t : thread rmap) : Prop :=
    exists l ops, t_regs rmap t = map reg_fun l /\ safe' [] ix l /\ t_ops rmap t = map cop_thread_op ops.
  Definition TInv (s : St) : Prop :=
    IxInv (live _ _ s) /\ forall i, typed_thread (live _ _ s) (ths _ _ s i).

  Lemma tinv_step s i c s' : TInv s -> th_step rmap (list desc) _ proj i c s = Some s' -> TInv s'.
  Proof.
    intros [I T] H. unfold th_step in H.
    destruct (T i) as (l & ops & El & Sl & Eo).
    assert (Same : forall t', live _ _ s' = live _ _ s -> ths _ _ s' = upd rmap (ths _ _ s) i t' ->
                   typed_thread (live _ _ s) t' -> TInv s').
    { intros t' E1 E2 Tt. split; [now rewrite E1|]. intro j. rewrite E1, E2. unfold upd.
      destruct (Nat.eqb j i); auto. }
    destruct (t_regs rmap (ths _ _ s i)) as [|f fs] eqn:R.
    - assert (Tl : l = []) by (destruct l; [reflexivity|discriminate]). subst l.
      destruct (t_save rmap (ths _ _ s i)) as [|st r] eqn:Sv.
      + destruct (t_ops rmap (ths _ _ s i)) as [|[rg sv] more] eqn:O; [discriminate|]. injection H as <-.
        destruct ops as [|o ops]; [discriminate|]. simpl in Eo. injection Eo as E1 E2 E3.
        eapply Same; [reflexivity|reflexivity|]. exists (cop_regs o), ops. simpl. subst rg.
        repeat split; auto. destruct o; simpl; auto.
      + (* the steps of saveIndex leave the live map and the registrations alone *)
        destruct st; [destruct (ilock _ _ s); [discriminate|]| | |]; injection H as <-.
        all: eapply Same; [reflexivity|reflexivity|]; exists [], ops; simpl; auto.
    - injection H as <-. destruct l as [|r l]; [discriminate|]. simpl in El. injection El as Ef Efs. subst f fs.
      simpl.
      assert (Mono : forall k, lookup (RDig k) (live _ _ s) <> None -> lookup (RDig k) (reg_fun r (live _ _ s)) <> None)
        by (intros k; apply reg_keeps_digests).
      assert (Keep : forall l0, safe' [] (live _ _ s) l0 -> safe' [] (reg_fun r (live _ _ s)) l0).
      { intro l0. apply safe_mono. intros k [X|[]]. left. now apply (Mono k). }
      split; simpl.
      + destruct r as [d|t d|t]; simpl in *.
        * now apply ixinv_set_dig.
        * destruct Sl as [[X|[]] _]. now apply ixinv_set_tag.
        * now apply ixinv_untag.
      + intro j. unfold upd. destruct (Nat.eqb j i).
        * exists l, ops. simpl. repeat split; auto.
          destruct r as [d|t d|t]; simpl in Sl |- *.
          -- apply (safe_mono l [d_node d] [] (live _ _ s)); auto.
             intros k [X|[X|[]]]; left; [now apply (Mono k)|].
             subst k. rewrite lookup_rset, ref_eqb_refl. congruence.
          -- destruct Sl as [_ Sl]. now apply Keep.
          -- now apply Keep.
        * destruct (T j) as (lj & opsj & A & B & Cj). exists lj, opsj. split; [exact A|]. split; [now apply Keep|exact Cj].
  Qed.

  Lemma tinv_run sched : forall s, TInv s -> TInv (run_sched rmap (list desc) _ proj sched s).
  Proof.
    induction sched as [|[i c] r IH]; intros s I; simpl; auto.
    apply IH. destruct (th_step rmap (list desc) _ proj i c s) eqn:E; auto. eapply tinv_step; eauto.
  Qed.
End Typed.

(* index.json = saveIndex of the live resolver map, for some iteration orders, hence (for a
   resolver map satisfying the store invariant) an order-independent projection of it *)
Theorem concurrent_saves_index_current
  (s0 : sstate rmap (list desc)) (sched : list (nat * (list nat * list nat))) :
  let proj := fun (c : list nat * list nat) (v : rmap) => save_index (fst c) (snd c) v in
  s_init rmap (list desc) (list nat * list nat) proj save_prog s0 ->
  let s := run_sched rmap (list desc) (list nat * list nat) proj sched s0 in
  quiescent rmap (list desc) s ->
  (exists c1 c2, disk _ _ s = save_index c1 c2 (live _ _ s)) /\
  (IxInv (live _ _ s) -> DiskOK (disk _ _ s) (live _ _ s)).
Proof.
  intros proj H0 s Q. rewrite save_prog_good in H0.
  destruct (save_quiescent_current rmap (list desc) (list nat * list nat) proj s0 sched H0 Q) as ([c1 c2] & E).
  split; [exists c1, c2; exact E|]. intro I. fold s in E. rewrite E. now apply save_diskok.
Qed.

Theorem concurrent_tag_delete_valid (s0 : gstate) (sched : list nat) :
  g_init tag_prog del_prog push_prog s0 ->
  let s := g_run sched s0 in g_quiescent s -> g_valid s.
Proof.
  rewrite tag_prog_good, del_prog_good, push_prog_good. apply tag_delete_quiescent_current.
Qed.

(* the hypotheses are satisfiable: three threads (a Tag: two registrations; an Untag; a SaveIndex),
   run under a non-trivial schedule in C08_concurrent_hypotheses_satisfiable *)
Definition exc_thread (regs : list (rmap -> rmap)) : thread rmap := mkTh rmap [] [] None [(regs, save_prog)].
Definition exc_s0 : sstate rmap (list desc) :=
  mkSt rmap (list desc) [] [] None
    (fun i => match i with
              | 0 => exc_thread [rset (RDig 1) (plain 1); rset (RTag 0) (plain 1)]
              | 1 => exc_thread [runset (RTag 0)]
              | 2 => exc_thread []
              | _ => mkTh rmap [] [] None []
              end).


(* Unconditional form: threads running any lists of Tag / Tag-by-digest (manifest Push) / Untag /
   SaveIndex on a store whose resolver map satisfies the store invariant and whose index.json is
   current: under every schedule the invariant holds at every moment, and at quiescence
   index.json is the order-independent projection of the live map *)
Theorem concurrent_store_index_current
  (s0 : sstate rmap (list desc)) (sched : list (nat * (list nat * list nat))) :
  let proj := fun (c : list nat * list nat) (v : rmap) => save_index (fst c) (snd c) v in
  IxInv (live _ _ s0) -> (exists c, disk _ _ s0 = proj c (live _ _ s0)) -> ilock _ _ s0 = None ->
  (forall i, exists ops, ths _ _ s0 i = mkTh rmap [] [] None (map cop_thread_op ops)) ->
  let s := run_sched rmap (list desc) (list nat * list nat) proj sched s0 in
  IxInv (live _ _ s) /\ (quiescent rmap (list desc) s -> DiskOK (disk _ _ s) (live _ _ s)).
Proof.
  intros proj I0 D0 L0 T0 s.
  assert (TI : TInv s0).
  { split; auto. intro i. destruct (T0 i) as (ops & ->). exists [], ops. simpl. auto. }
  pose proof (tinv_run sched s0 TI) as [I _]. fold proj in I. fold s in I.
  split; auto. intro Q.
  apply (concurrent_saves_index_current s0 sched); auto.
  split; auto. split; auto. intro i. destruct (T0 i) as (ops & ->). simpl. repeat split; auto.
  apply Forall_forall. intros o Ho. apply in_map_iff in Ho as (c & <- & _). reflexivity.
Qed.

(* the control flow around the effects (kind callguards): Store.tag registers the digest entry first
   iff the reference is not the digest ([is_digest_ref] in st_tag) and saves iff AutoSaveIndex
   ([maybe_save]); delete() drops the references of the target's DIGEST and saves iff something
   changed and AutoSaveIndex ([changed] in delete1); GC saves iff AutoSaveIndex; Push tags manifests
   only and removes content it cannot index; Tag indexes manifests only; loadIndex registers the tag
   iff the ref name is not empty ([load_entry]) *)
Lemma guards_as_in_the_sources :
  c08_guards_tag =
    [(b "s.tagResolver.Tag"%string, [b "reference != dgst"%string]); (b "s.tagResolver.Tag"%string, []); (b "s.saveIndex"%string, [b "s.AutoSaveIndex"%string])] /\
  c08_guards_Untag =
    [(b "s.tagResolver.Untag"%string, []); (b "s.saveIndex"%string, [b "s.AutoSaveIndex"%string])] /\
  c08_guards_delete =
    [(b "s.tagResolver.Untag"%string, [b "desc.Digest == target.Digest"%string]); (b "s.tagResolver.Tag"%string, []); (b "s.saveIndex"%string, [b "indexChanged && s.AutoSaveIndex"%string]); (b "s.storage.Delete"%string, [])] /\
  c08_guards_GC =
    [(b "s.gcIndex"%string, []); (b "s.tagResolver.Tag"%string, []); (b "s.saveIndex"%string, [b "s.AutoSaveIndex"%string])] /\
  c08_guards_Push =
    [(b "s.storage.Push"%string, []); (b "s.graph.Index"%string, []); (b "s.storage.Delete"%string, [b "err != nil"%string]); (b "s.tag"%string, [b "descriptor.IsManifest(expected)"%string])] /\
  c08_guards_Tag =
    [(b "s.storage.Exists"%string, []); (b "s.graph.Index"%string, [b "descriptor.IsManifest(desc)"%string]); (b "s.tag"%string, [])] /\
  c08_guards_loadIndex =
    [(b "tagger.Tag"%string, []); (b "tagger.Tag"%string, [b "ref != ''"%string]); (b "graph.IndexAll"%string, [])].
Proof. repeat split; reflexivity. Qed.
