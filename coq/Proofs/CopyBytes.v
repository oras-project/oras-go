(* Byte identity: along every accepted trace the destination's byte-level content is verified
   content for exactly the nodes CopySpec says it holds; with a collision-free digest that is the
   source's content, so success => every reachable node is present WITH THE SOURCE'S BYTES. *)
From Oras Require Import Base.Prelude Model.CopySpec Model.CopyBytes Proofs.CopySpec.
Local Open Scope nat_scope.

Lemma step_dst_stores g c st e st' : step g c st e = Some st' ->
  dst st' = match stores e with Some n => n :: dst st | None => dst st end.
Proof. intro H. apply step_cases in H as [_ S]. destruct S as [n p q _ _ | ok -> _]; reflexivity. Qed.

Lemma run_dst_stores g c tr : forall st st', run g c st tr = Some st' ->
  dst st' = stored_nodes tr (dst st).
Proof.
  induction tr as [|e tr IH]; simpl; intros st st' H.
  - now injection H as <-.
  - destruct (step g c st e) as [s1|] eqn:E; [|discriminate].
    rewrite (IH _ _ H), (step_dst_stores g c st e s1 E). reflexivity.
Qed.

Section Bytes.
Variable digest : str -> nat.
Variable src_bytes : node -> str.

Notation verify := (verify digest src_bytes).
Notation brun := (brun digest src_bytes).

Lemma brun_sound tr : forall served bs bs',
  brun tr served bs = Some bs' ->
  (forall n b, In (n, b) bs -> verify n b = true) ->
  (forall n b, In (n, b) bs' -> verify n b = true) /\
  map fst bs' = stored_nodes tr (map fst bs).
Proof.
  induction tr as [|e tr IH]; simpl; intros served bs bs' H Hv.
  - injection H as <-. auto.
  - destruct (stores e) as [n|].
    + destruct served as [|b sv]; [discriminate|].
      destruct (verify n b) eqn:V; [|discriminate].
      apply (IH sv ((n, b) :: bs) bs' H).
      intros m x [Hx|Hx]; [injection Hx as <- <-; exact V | now apply Hv].
    + apply (IH served bs bs' H Hv).
Qed.

(* collision-freeness of the digest on the universe: content that matches n's descriptor is n's content *)
Definition collision_free : Prop := forall n b, verify n b = true -> b = src_bytes n.

(* the destination key is a function of the content (digest-keyed) or of the node (descriptor-keyed):
   nodes with the same key have the same source bytes *)
Definition key_respects_bytes (g : graph) : Prop :=
  forall m n, g_dkey g m = g_dkey g n -> src_bytes m = src_bytes n.

Lemma bytes_of_present g tr served bs0 bs d0 n :
  collision_free -> key_respects_bytes g ->
  (forall n b, In (n, b) bs0 -> verify n b = true) -> map fst bs0 = d0 ->
  brun tr served bs0 = Some bs ->
  has g (stored_nodes tr d0) n = true ->
  exists m b, In (m, b) bs /\ g_dkey g m = g_dkey g n /\ b = src_bytes n.
Proof.
  intros Hcf Hk Hv0 Hd0 Hb Hp.
  destruct (brun_sound tr served bs0 bs Hb Hv0) as [Hv Hnodes].
  rewrite Hd0 in Hnodes.
  apply has_spec in Hp as [m [Hin Hkey]].
  rewrite <- Hnodes in Hin. apply in_map_iff in Hin as [[m' b] [Hfst Hin]]. simpl in Hfst. subst m'.
  exists m, b. split; [exact Hin|]. split; [exact Hkey|].
  rewrite (Hcf m b (Hv m b Hin)). now apply Hk.
Qed.

Lemma bytes_identical_all_roots g c d0 tr st served bs0 bs :
  closed_nodes g d0 -> mt_consistent g ->
  collision_free -> key_respects_bytes g ->
  (forall n b, In (n, b) bs0 -> verify n b = true) -> map fst bs0 = d0 ->
  accepts g c d0 tr = Some st -> returned st = Some true ->
  brun tr served bs0 = Some bs ->
  forall r n, In r (c_root c :: c_xroots c) -> reach g r n ->
    exists m b, In (m, b) bs /\ g_dkey g m = g_dkey g n /\ b = src_bytes n.
Proof.
  intros Hc Hm Hcf Hk Hv0 Hd0 Ha Hr Hb r n Hin Hn.
  pose proof (closure_roots g c d0 tr st Hc Hm Ha Hr r n Hin Hn) as Hp.
  rewrite (run_dst_stores g c tr _ _ Ha) in Hp.
  exact (bytes_of_present g tr served bs0 bs d0 n Hcf Hk Hv0 Hd0 Hb Hp).
Qed.

(* a push of wrong bytes does not become visible: the run of the byte layer stops (the Push fails) *)
Lemma wrong_bytes_rejected n ref r served b bs :
  verify n b = false -> brun (PuE n ref POk :: r) (b :: served) bs = None.
Proof. intro V. simpl. now rewrite V. Qed.
End Bytes.
