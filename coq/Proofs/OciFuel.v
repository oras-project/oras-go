(* The fuel of Model/OciIndex.v is sufficient: on a universe whose successor and subject links
   point to smaller node ids (content addressing: a descriptor can only name content that
   existed before; the harness builds its DAGs bottom-up) and whose node ids stay below N, the
   fuelled functions do not depend on their fuel and Delete's queue loop never runs out of it.
   (Audit F7: "hidden totalisation by fuel".) *)
From Coq Require Import List Arith Bool PeanoNat Lia.
From Oras Require Import Model.OciIndex Proofs.OciIndex.
Import ListNotations.

Lemma fold_left_ext_in {A B} (f g : A -> B -> A) l : forall a,
  (forall a b, In b l -> f a b = g a b) -> fold_left f l a = fold_left g l a.
Proof.
  induction l as [|b l IH]; intros a H; simpl; auto.
  rewrite H by (now left). apply IH. intros a' b' I. apply H. now right.
Qed.

Lemma filter_len {A} (f : A -> bool) l : length (filter f l) <= length l.
Proof. induction l as [|x l IH]; simpl; auto. destruct (f x); simpl; lia. Qed.

Lemma filter_len_le {A} (p q : A -> bool) l :
  (forall x, In x l -> q x = true -> p x = true) -> length (filter q l) <= length (filter p l).
Proof.
  induction l as [|x l IH]; simpl; intro H; auto.
  assert (IH' : length (filter q l) <= length (filter p l)) by (apply IH; intros y I; apply H; now right).
  destruct (q x) eqn:Q.
  - rewrite (H x (or_introl eq_refl) Q). simpl. lia.
  - destruct (p x); simpl; lia.
Qed.
Lemma filter_len_lt {A} (p q : A -> bool) l x :
  (forall y, In y l -> q y = true -> p y = true) -> In x l -> p x = true -> q x = false ->
  length (filter q l) < length (filter p l).
Proof.
  induction l as [|y l IH]; simpl; intros H I P Q; [tauto|].
  assert (Hl : forall z, In z l -> q z = true -> p z = true) by (intros z Iz; apply H; now right).
  destruct I as [->|I].
  - rewrite P, Q. simpl. pose proof (filter_len_le p q l Hl). lia.
  - specialize (IH Hl I P Q). destruct (q y) eqn:Qy.
    + rewrite (H y (or_introl eq_refl) Qy). simpl. lia.
    + destruct (p y); simpl; lia.
Qed.

Section Fuel.
  Variable N : nat.
  Variable mf : nat -> bool.
  Variable succs : nat -> list nat.
  Variable subj : nat -> option nat.
  Variable sk bad : nat -> bool.
  Hypothesis succs_down : forall k c, In c (succs k) -> c < k.
  Hypothesis subj_down : forall k c, subj k = Some c -> c < k.

  (* IndexAll: any fuel above the root gives the same traversal *)
  Lemma visit_fuel p f1 : forall f2 n g, n < f1 -> n < f2 -> visit mf succs f1 p n g = visit mf succs f2 p n g.
  Proof.
    induction f1 as [|f1 IH]; intros f2 n g H1 H2; [lia|].
    destruct f2 as [|f2]; [lia|]. simpl.
    destruct (mem n g); auto. destruct (mf n); auto. destruct (p n); auto.
    apply fold_left_ext_in. intros a c Ic. pose proof (succs_down n c Ic). apply IH; lia.
  Qed.

  (* the subject-chain walk of the GC referrer pass *)
  Lemma chain_fuel bl g f1 : forall f2 cur, cur < f1 -> cur < f2 ->
    chain_hits mf subj sk f1 bl g cur = chain_hits mf subj sk f2 bl g cur.
  Proof.
    induction f1 as [|f1 IH]; intros f2 cur H1 H2; [lia|].
    destruct f2 as [|f2]; [lia|]. simpl.
    destruct (sk cur && negb (mem cur bl)); auto.
    destruct (subj cur) as [sb|] eqn:E; auto.
    destruct (mf sb && mem sb g); auto.
    pose proof (subj_down cur sb E). apply IH; lia.
  Qed.

  (* Delete: every turn of the queue loop removes one blob file (or ends the loop) *)
  Lemma length_del k l : In k l -> length (del k l) < length l.
  Proof.
    induction l as [|x l IH]; simpl; [tauto|]. unfold del in *. simpl.
    destruct (Nat.eqb k x) eqn:E; simpl.
    - intros _. pose proof (filter_len (fun x0 => negb (Nat.eqb k x0)) l). lia.
    - intros [X|X]; [subst; rewrite Nat.eqb_refl in E; discriminate|]. specialize (IH X). lia.
  Qed.

  Lemma maybe_save_blobs cfg o s : blobs (maybe_save cfg o s) = blobs s.
  Proof. unfold maybe_save, do_save. now destruct (autosave cfg). Qed.
  Lemma st_tag_blobs cfg o d r s : blobs (st_tag cfg o d r s) = blobs s.
  Proof. unfold st_tag. now rewrite maybe_save_blobs. Qed.
  Lemma delete1_blobs cfg o k s :
    blobs (fst (fst (delete1 mf succs cfg o k s))) = (if mem k (blobs s) then del k (blobs s) else blobs s) /\
    snd (delete1 mf succs cfg o k s) = mem k (blobs s).
  Proof.
    unfold delete1. destruct (mem k (blobs s)); cbn [fst snd blobs]; [now split|]. split; [|reflexivity].
    destruct (_ || _); [now rewrite maybe_save_blobs|reflexivity].
  Qed.

  Lemma delete_loop_fuel fixHold cfg o fuel : forall ds qq pd s,
    length (blobs s) < fuel ->
    snd (delete_loop N mf succs subj fixHold fuel cfg o ds qq pd s) <> ROutOfFuel.
  Proof.
    induction fuel as [|f IH]; intros ds qq pd s H; [lia|]. simpl.
    destruct (fst qq) as [|h q]; [discriminate|].
    pose proof (delete1_blobs cfg o h s) as [E B].
    destruct (delete1 mf succs cfg o h s) as [[s' dang] okb]. cbn [fst snd] in E, B.
    destruct okb; [|discriminate]. symmetry in B. rewrite B in E. apply mem_In in B.
    apply IH. rewrite E. pose proof (length_del h (blobs s) B). lia.
  Qed.

  Definition blobs_ok (bl : list nat) : Prop := NoDup bl /\ forall k, In k bl -> k < N.
  Definition op_below (o : op) : Prop :=
    match o with
    | OPush k | OInject k => k < N
    | OPushX d => d_node d < N
    | _ => True
    end.

  Lemma blobs_ok_length bl : blobs_ok bl -> length bl <= N.
  Proof.
    intros [ND B]. rewrite <- (seq_length N 0). apply NoDup_incl_length; auto.
    intros k I. apply in_seq. specialize (B k I). lia.
  Qed.
  Lemma blobs_ok_cons k bl : blobs_ok bl -> k < N -> ~ In k bl -> blobs_ok (k :: bl).
  Proof. intros [ND B] Hk Hn. split; [now constructor|]. intros x [<-|I]; auto. Qed.
  Lemma blobs_ok_filter f bl : blobs_ok bl -> blobs_ok (filter f bl).
  Proof. intros [ND B]. split; [now apply NoDup_filter|]. intros k I. apply filter_In in I as [I _]. auto. Qed.

  Lemma delete_loop_blobs_ok fixHold cfg o fuel : forall ds qq pd s,
    blobs_ok (blobs s) -> blobs_ok (blobs (fst (delete_loop N mf succs subj fixHold fuel cfg o ds qq pd s))).
  Proof.
    induction fuel as [|f IH]; intros ds qq pd s H; simpl; auto.
    destruct (fst qq) as [|h q]; auto.
    assert (B : blobs_ok (blobs (fst (fst (delete1 mf succs cfg o h s))))).
    { rewrite (proj1 (delete1_blobs cfg o h s)). destruct (mem h (blobs s)); [exact (blobs_ok_filter _ _ H)|exact H]. }
    destruct (delete1 mf succs cfg o h s) as [[s' dang] okb]. simpl in B.
    destruct okb; simpl; auto.
  Qed.

  Lemma push_desc_blobs_ok cfg o d s : blobs_ok (blobs s) -> d_node d < N ->
    blobs_ok (blobs (fst (st_push_desc mf bad cfg o d s))).
  Proof.
    intros H W. unfold st_push_desc. destruct (mem (d_node d) (blobs s)) eqn:M; [exact H|].
    destruct (bad (d_node d)); [exact H|]. apply mem_false in M.
    destruct (mf (d_node d)); cbn [fst]; rewrite ?st_tag_blobs; now apply blobs_ok_cons.
  Qed.

  Lemma step_blobs_ok fF2 fA fF1 fH fR cfg s oo :
    blobs_ok (blobs s) -> op_below (fst oo) ->
    blobs_ok (blobs (fst (step N mf succs subj sk bad fF2 fA fF1 fH fR cfg s oo))).
  Proof.
    intros H W. destruct oo as [o ord]. unfold step. cbn [fst snd] in *. destruct o; cbn [op_below] in W.
    - now apply push_desc_blobs_ok.
    - now apply push_desc_blobs_ok.
    - unfold st_tagop. destruct (fR && _); [exact H|]. destruct (mem (d_node d) (blobs s)); [|exact H].
      cbn [fst]. rewrite st_tag_blobs. now destruct (mf (d_node d)).
    - unfold st_untag. destruct (lookup r (r_index (res s))) as [d|]; [|exact H].
      destruct (is_digest_ref r d); [exact H|]. cbn [fst]. now rewrite maybe_save_blobs.
    - now apply delete_loop_blobs_ok.
    - unfold st_gc. destruct (gc_pass2 _ _ _ _ _ _ _ _ _ _) as [[a2 [|]]|]; try exact H.
      cbn [fst blobs]. apply blobs_ok_filter. destruct fF2; [now rewrite maybe_save_blobs|exact H].
    - exact H.
    - exact H.
    - exact H.
    - destruct (mem k (blobs s)) eqn:M; [exact H|]. apply mem_false in M. now apply blobs_ok_cons.
  Qed.

  Lemma run_blobs_ok fF2 fA fF1 fH fR h : forall cfg s,
    blobs_ok (blobs s) -> Forall (fun oo => op_below (fst oo)) h ->
    blobs_ok (blobs (run N mf succs subj sk bad fF2 fA fF1 fH fR cfg h s)).
  Proof.
    induction h as [|oo h IH]; intros cfg s H W; simpl; auto.
    inversion W as [|? ? W1 W2]; subst. apply IH; auto. now apply step_blobs_ok.
  Qed.

  (* after any history on nodes below N, Delete never runs out of fuel *)
  Theorem delete_fuel_sufficient fF2 fA fF1 fH fR cfg h o k :
    Forall (fun oo => op_below (fst oo)) h ->
    let s := run N mf succs subj sk bad fF2 fA fF1 fH fR cfg h store_empty in
    snd (st_delete N mf succs subj fH cfg o k s) <> ROutOfFuel.
  Proof.
    intros W s. unfold st_delete. apply delete_loop_fuel.
    assert (B : blobs_ok (blobs s)).
    { apply run_blobs_ok; auto. split; [constructor|intros ? []]. }
    pose proof (blobs_ok_length _ B). lia.
  Qed.
End Fuel.

(* the rounds of GC's referrer pass: every continued round keeps one more entry ([mu] falls) *)
Section GcFuel.
  Variable N : nat.
  Variable mf : nat -> bool.
  Variable succs : nat -> list nat.
  Variable subj : nat -> option nat.
  Variable sk : nat -> bool.

  (* the entries a round of the referrer pass may still keep *)
  Definition cand (tg : list nat) (kv : ref * desc) : bool :=
    is_digest_ref (fst kv) (snd kv) && negb (mem (d_node (snd kv)) tg).
  Definition mu (m : rmap) (tg : list nat) : nat := length (filter (cand tg) m).

  Lemma mu_mono m tg tg' : (forall x, In x tg -> In x tg') -> mu m tg' <= mu m tg.
  Proof.
    intro H. unfold mu. apply filter_len_le. intros kv _ C. unfold cand in *.
    apply andb_true_iff in C as [C1 C2]. rewrite C1. simpl. apply negb_true_iff in C2. apply negb_true_iff.
    apply mem_false. apply mem_false in C2. auto.
  Qed.
  Lemma mu_strict m tg kv : In kv m -> cand tg kv = true -> mu m (d_node (snd kv) :: tg) < mu m tg.
  Proof.
    intros I C. unfold mu. apply (filter_len_lt _ _ m kv); auto.
    - intros y _ Cy. unfold cand in *. apply andb_true_iff in Cy as [C1 C2]. rewrite C1. simpl.
      apply negb_true_iff in C2. apply negb_true_iff. apply mem_false. apply mem_false in C2.
      intro X. apply C2. now right.
    - unfold cand in *. apply andb_true_iff in C as [C1 _]. rewrite C1. cbn [andb].
      apply negb_false_iff. apply mem_In. now left.
  Qed.

  Notation round_step := (rstep N mf succs subj sk).

  Lemma round_progress bl m l : forall a b, (forall kv, In kv l -> In kv m) ->
    let r := fold_left (round_step bl) l (a, b) in
    mu m (g_tagged (fst r)) <= mu m (g_tagged a) /\
    (snd r = true -> b = true \/ mu m (g_tagged (fst r)) < mu m (g_tagged a)).
  Proof.
    induction l as [|kv l IH]; intros a b Hl; cbn [fold_left]; [cbn [fst snd]; split; auto|].
    assert (Hl' : forall x, In x l -> In x m) by (intros x I; apply Hl; now right).
    destruct kv as [r d]. unfold rstep. cbn [fst snd]. fold (round_step bl).
    destruct (negb (is_digest_ref r d) || mem (d_node d) (g_tagged a)) eqn:C; [now apply IH|].
    destruct (chain_hits mf subj sk (S N) bl (g_gr a) (d_node d)); [|now apply IH].
    apply orb_false_iff in C as [C1 C2]. apply negb_false_iff in C1.
    assert (Cd : cand (g_tagged a) (r, d) = true) by (unfold cand; cbn [fst snd]; now rewrite C1, C2).
    pose proof (mu_strict m (g_tagged a) (r, d) (Hl _ (or_introl eq_refl)) Cd) as St. cbn [fst snd] in St.
    destruct (IH (mkGc (res_tag (strip d) (RDig (d_node d)) (g_res a))
                       (index_all N mf succs bl (d_node d) (g_gr a)) (d_node d :: g_tagged a)) true Hl') as [A B].
    cbn [g_tagged] in A, B. split; [lia|]. intros _. right. lia.
  Qed.

  Lemma rounds_fuel bl m f1 : forall f2 os a, mu m (g_tagged a) < f1 -> mu m (g_tagged a) < f2 ->
    gc_rounds N mf succs subj sk f1 bl m os a = gc_rounds N mf succs subj sk f2 bl m os a.
  Proof.
    induction f1 as [|f1 IH]; intros f2 os a H1 H2; [lia|]. destruct f2 as [|f2]; [lia|]. cbn [gc_rounds].
    rewrite !gc_round_eq.
    pose proof (round_progress bl m (shuffle (hd [] os) m) a false
                 (fun kv I => proj1 (In_shuffle _ _ _) I)) as [A B]. cbn [fst snd] in A, B.
    destruct (snd (fold_left (round_step bl) (shuffle (hd [] os) m) (a, false))) eqn:E; auto.
    destruct (B eq_refl) as [X|X]; [discriminate|]. apply IH; lia.
  Qed.

  (* the referrer pass of gcIndex: S |refMap| rounds are enough for any order *)
  Theorem gc_rounds_fuel_sufficient bl m os a fuel :
    length m < fuel ->
    gc_rounds N mf succs subj sk (S (length m)) bl m os a = gc_rounds N mf succs subj sk fuel bl m os a.
  Proof.
    intro H. pose proof (filter_len (cand (g_tagged a)) m) as X. apply rounds_fuel; unfold mu; lia.
  Qed.
End GcFuel.
