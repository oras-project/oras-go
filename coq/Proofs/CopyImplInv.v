(* CopyImplInv: the permit invariant Inv1: the free permits and the holders add up to K, and the program counter
   of a task says whether it holds a permit. *)
From Coq Require Import List Arith Bool Lia.
From Oras Require Import Model.CopyImpl Proofs.CopyImplBase.
Import ListNotations.

Definition may_hold (p : pc) : bool :=
  match p with TSpawned | TTry | TExists | TFind | TEnd | TPush => true | _ => false end.

Section Proofs.
Variable succ : nat -> list nat.
Variable K : nat.
Variable ext : bool.
Variable roots : list nat.
Local Notation Reachable := (Reachable succ K ext roots).

Record Inv1 (s : state) : Prop := {
  i1_wf : forall t, ntasks s <= t -> tasks s t = dtask;
  i1_perm : free s + holders s = K;
  i1_must : forall t, must_hold (t_pc (tasks s t)) = true -> t_holds (tasks s t) = true;
  i1_may : forall t, t_holds (tasks s t) = true -> may_hold (t_pc (tasks s t)) = true }.

Lemma inv1_init : Inv1 (init K ext roots).
Proof. constructor; simpl; intros; auto; try discriminate. Qed.

Lemma inv1_same s fs nf trk tc fl : Inv1 s ->
  Inv1 (mkState (tasks s) (ntasks s) fs nf (free s) trk tc fl).
Proof. intros []. now constructor. Qed.

Lemma inv1_task s t p h k fs nf trk tc fl : Inv1 s -> is_fin (t_pc (tasks s t)) = false ->
  k + b2n h = free s + b2n (t_holds (tasks s t)) ->
  (must_hold p = true -> h = true) -> (h = true -> may_hold p = true) ->
  Inv1 (mkState (upd (tasks s) t (set_pc_holds (tasks s t) p h)) (ntasks s) fs nf k trk tc fl).
Proof.
  intros [Hwf Hperm Hmust Hmay] Ht Hk Hp1 Hp2. pose proof (live_lt s t _ Hwf eq_refl Ht) as Hlt.
  constructor; cbn [tasks ntasks free].
  - intros j Hj. rewrite upd_other by lia. auto.
  - pose proof (count_upto_upd t_holds (tasks s) t (set_pc_holds (tasks s t) p h) (ntasks s) Hlt) as Hh.
    unfold holders in *. cbn [tasks ntasks set_pc_holds t_holds] in *. lia.
  - intros j. upd_at j t; auto.
  - intros j. upd_at j t; auto.
Qed.

Lemma inv1_step s l s' : Inv1 s -> step succ s l = Some s' -> Inv1 s'.
Proof.
  intros I1 Hs. pose proof I1 as [Hwf Hperm Hmust Hmay].
  destruct (step_Step succ s l s' Hs) as [| f i rest k Hpc Hit Hfr | | | f p _ _ _ Hp _ | f p _ _ _ Hp _ | t Hp
                                          | l t q p h k trk Hm Hq | l t q e trk Hf Hq].
  1, 3, 4: now apply inv1_same.
  - (* LDispatchAcq: the dispatch loop hands its permit to the task it spawns *)
    constructor; cbn [tasks ntasks free].
    + intros j Hj. rewrite upd_other by lia. apply Hwf. lia.
    + unfold holders in *. cbn [tasks ntasks count_upto]. rewrite upd_same, (count_upto_upd_ge t_holds) by lia.
      cbn [t_holds]. lia.
    + intros j. upd_at j (ntasks s); auto.
    + intros j. upd_at j (ntasks s); auto.
  - (* LGoReturn, nil *) specialize (Hmay p). rewrite Hp in Hmay. apply inv1_task; auto; try (now rewrite Hp).
    all: destruct (wait_list _ _); cbn; auto; discriminate.
  - (* LGoReturn, error *) apply inv1_task; auto; try discriminate; try (now rewrite Hp).
    unfold b2n. destruct (t_holds _); lia.
  - (* LGo *) specialize (Hmay t). rewrite Hp in Hmay. apply inv1_task; auto; try discriminate; now rewrite Hp.
  - (* move *) specialize (Hmust t). specialize (Hmay t). rewrite Hq in Hmust, Hmay.
    apply inv1_task; [assumption | rewrite Hq; apply running_alive, (move_running succ s t l q p h k trk Hm) | ..];
      destruct Hm; cbn [must_hold may_hold] in *; auto; unfold b2n.
    all: try (destruct (t_holds (tasks s t)); lia).
    all: try destruct rest; try destruct (t_kind _); try destruct (succ _); cbn; auto; discriminate.
  - (* fin *) apply inv1_task; auto; try discriminate.
    + rewrite Hq. apply running_alive, (fin_running s t l q e trk Hf).
    + unfold b2n. destruct (t_holds _); lia.
Qed.

Lemma inv1_reach s : Reachable s -> Inv1 s.
Proof. induction 1; eauto using inv1_init, inv1_step. Qed.

Lemma permits_conserved s : Reachable s ->
  free s + holders s = K /\ holders s <= K /\
  (forall t, is_fin (t_pc (tasks s t)) = true -> t_holds (tasks s t) = false).
Proof.
  intros H. destruct (inv1_reach s H) as [Hwf Hperm Hmust Hmay]. repeat split; auto; try lia.
  intros t Hf. destruct (t_holds (tasks s t)) eqn:Hh; auto. apply Hmay in Hh.
  destruct (t_pc (tasks s t)); discriminate.
Qed.

Lemma end_idempotent s t s' : step succ s (LEnd t) = Some s' ->
  t_holds (tasks s' t) = false /\ free s' = (if t_holds (tasks s t) then S (free s) else free s).
Proof.
  cbn [step]. destruct (t_pc (tasks s t)); try discriminate. intros [= <-]. cbn. rewrite upd_same. auto.
Qed.
Lemma finish_releases_once s t e m :
  free (finish s t e m) = (if t_holds (tasks s t) then S (free s) else free s) /\
  t_holds (tasks (finish s t e m) t) = false.
Proof. unfold finish. cbn. rewrite upd_same. auto. Qed.
Lemma start_idempotent s t s' : step succ s (LStart t) = Some s' -> t_holds (tasks s t) = true ->
  t_kind (tasks s t) = KFn -> free s' = free s /\ t_holds (tasks s' t) = true.
Proof.
  cbn [step]. destruct (t_pc (tasks s t)); try discriminate. intros Hs Hh Hk. rewrite Hh, Hk in Hs.
  injection Hs as <-. cbn. rewrite upd_same. auto.
Qed.

Lemma inflight_bounded s : Reachable s -> inflight s <= holders s /\ inflight s <= K.
Proof.
  intros H. destruct (inv1_reach s H) as [Hwf Hperm Hmust Hmay].
  assert (inflight s <= holders s).
  { unfold inflight, holders. apply count_upto_le. intros i Hi. apply Hmust.
    destruct (t_pc (tasks s i)); try discriminate; reflexivity. }
  split; auto. lia.
Qed.

End Proofs.
