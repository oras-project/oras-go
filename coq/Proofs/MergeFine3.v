(* C14 — every run of the channel-level Merge system (Model/MergeFine.v) is simulated by a run of
   the system of Model/Merge.v: the atomic EComplete happens when the main caller enters
   complete(); channel operations and the swap are stuttering steps; a caller blocked on a
   channel whose batch already has its verdict corresponds to a caller that has returned. *)
From Oras Require Import Base.Prelude Model.Referrers Proofs.Referrers Model.Merge Proofs.Merge
  Model.MergeFine Proofs.MergeFine Proofs.MergeLin Proofs.MergeThm.

Definition rel_pc (f : fstate) (p : fpc) (q : pc) : Prop :=
  match p with
  | FIdle => q = Idle
  | FGot c => q = Got c
  | FWait g => match f_verdict f g with Some r => q = Ret r | None => q = Wait end
  | FPrep => q = Prep
  | FPrepared o => q = Prepared o
  | FNeedPut n o => q = NeedPut n o
  | FNeedDel o a => q = NeedDel o a
  | FNotify r _ => q = Ret r
  | FSwap r => q = Ret r
  | FRet r => q = Ret r
  | FDone r => q = Done r
  end.

Definition is_token (f : fstate) : bool :=
  match fbuf (f_chans f (f_gen f)) with Some FMain => true | _ => false end.

Record Sim (f : fstate) (c : state) : Prop := {
  s_pool : pool c = f_pool f;
  s_reg : reg c = f_reg f;
  s_store : store c = f_store f;
  s_pcs : forall t, rel_pc f (f_pcs f t) (pcs c t);
  s_quiet : (forall t, fwindow (f_pcs f t) = false) ->
      committed c = f_committed f /\ items c = f_items f /\ pending c = f_pending f /\ token c = is_token f;
  s_win : forall tm, fwindow (f_pcs f tm) = true ->
      committed c = false /\ items c = f_pending f /\ pending c = [] /\ token c = negb (is_nil (f_pending f))
}.

Lemma sim_init r0 st0 : Sim (finit r0 st0) (init r0 st0).
Proof.
  constructor; simpl; auto; try (intros tm H; discriminate).
Qed.

Lemma rel_pc_ext f f' p q : (forall g, f_verdict f' g = f_verdict f g) -> rel_pc f p q -> rel_pc f' p q.
Proof. intros H R. destruct p; simpl in *; auto. now rewrite H. Qed.

Definition simulated (sg : bool) (f' : fstate) (c : state) : Prop :=
  exists tr c', run sg c tr = Some c' /\ Sim f' c'.

Lemma sim_extdrop sg f c f' :
  Sim f c -> fstep sg f FEExtDrop = Some f' -> simulated sg f' c.
Proof.
  intros Sm H. simpl in H. destruct (f_reg f) as [x|] eqn:Er; [|discriminate].
  destruct (forallb is_empty x) eqn:Ex; [|discriminate]. injection H as <-.
  exists [EExtDrop]. eexists. split; [simpl; rewrite (s_reg f c Sm), Er, Ex; reflexivity|].
  destruct Sm. constructor; simpl; auto. now rewrite s_store0.
Qed.

Lemma sim_move f c c1 t p q pl :
  Sim f c -> fwindow (f_pcs f t) = false -> fwindow p = false -> rel_pc f p q ->
  pcs c1 = upd (pcs c) t q -> pool c1 = pl -> reg c1 = reg c -> store c1 = store c ->
  committed c1 = committed c -> items c1 = items c -> pending c1 = pending c -> token c1 = token c ->
  Sim (mkF pl (f_committed f) (f_items f) (f_pending f) (f_gen f) (f_chans f) (upd (f_pcs f) t p)
           (f_reg f) (f_store f) (f_verdict f)) c1.
Proof.
  intros Sm Hw Hp Hr E1 E2 E3 E4 E5 E6 E7 E8.
  assert (Hwin : forall x, fwindow (upd (f_pcs f) t p x) = fwindow (f_pcs f x)) by (intro x; tcase x t; congruence).
  constructor; simpl; try congruence.
  - now rewrite E3, (s_reg f c Sm).
  - now rewrite E4, (s_store f c Sm).
  - intro x. rewrite E1. tcase x t; [exact Hr|apply (s_pcs f c Sm)].
  - intro Hq. rewrite E5, E6, E7, E8. apply (s_quiet f c Sm). intro x. now rewrite <- Hwin.
  - intros tm Hx. rewrite Hwin in Hx. rewrite E5, E6, E7, E8. now apply (s_win f c Sm tm).
Qed.

Lemma sim_done sg f c t f' :
  Sim f c -> fstep sg f (FEDone t) = Some f' -> simulated sg f' c.
Proof.
  intros Sm H. simpl in H.
  destruct (f_pcs f t) as [|c0|g| |old|nw o|oi ap|r k|r|r|r] eqn:Hpc; try discriminate.
  destruct (f_pool f) as [rc|] eqn:Hpool; try discriminate. injection H as <-.
  pose proof (s_pcs f c Sm t) as Ht. rewrite Hpc in Ht. simpl in Ht.
  exists [EDone t]. eexists. split; [simpl; rewrite Ht, (s_pool f c Sm), Hpool; reflexivity|].
  apply (sim_move f c _ t (FDone r) (Done r)); rewrite ?Hpc; auto. reflexivity.
Qed.

Lemma sim_notify sg f c t f' :
  InvF f -> Sim f c -> fstep sg f (FENotify t) = Some f' -> simulated sg f' c.
Proof.
  intros I Sm H. simpl in H.
  destruct (f_pcs f t) as [|c0|g| |old|nw o|oi ap|r k|r|r|r] eqn:Hpc; try discriminate.
  assert (Hw : fwindow (f_pcs f t) = true) by now rewrite Hpc.
  pose proof (s_pcs f c Sm t) as Ht. rewrite Hpc in Ht. simpl in Ht.
  exists []. exists c. split; [reflexivity|].
  assert (Hgen : forall p ch', fwindow p = true -> rel_pc f p (Ret r) ->
            Sim (mkF (f_pool f) (f_committed f) (f_items f) (f_pending f) (f_gen f) ch' (upd (f_pcs f) t p)
                     (f_reg f) (f_store f) (f_verdict f)) c).
  { intros p ch' Hp Hr. destruct Sm. constructor; simpl; auto.
    - intro x. tcase x t; [rewrite Ht; destruct p; simpl in *; auto; discriminate|]. apply (rel_pc_ext f); auto.
    - intro Hq. specialize (Hq t). rewrite upd_eq in Hq. congruence.
    - intros tm _. apply (s_win0 t Hw). }
  destruct r; [injection H as <-; apply Hgen; reflexivity|..].
  all: destruct k; [injection H as <-; unfold fset_pc; apply Hgen; reflexivity|].
  all: destruct (fbuf (f_chans f (f_gen f))); [discriminate|]; injection H as <-; apply Hgen; reflexivity.
Qed.

Lemma sim_swap sg f c t f' :
  InvF f -> Sim f c -> fstep sg f (FESwap t) = Some f' -> simulated sg f' c.
Proof.
  intros I Sm H. simpl in H.
  destruct (f_pcs f t) as [|c0|g| |old|nw o|oi ap|r k|r|r|r] eqn:Hpc; try discriminate. injection H as <-.
  assert (Hw : fwindow (f_pcs f t) = true) by now rewrite Hpc.
  pose proof (s_pcs f c Sm t) as Ht. rewrite Hpc in Ht. simpl in Ht.
  destruct (s_win f c Sm t Hw) as (W1 & W2 & W3 & W4).
  destruct (f_fut f I (S (f_gen f)) (Nat.lt_succ_diag_r _)) as (F1 & F2 & F3).
  exists []. exists c. split; [reflexivity|].
  assert (Hnw : forall x, fwindow (upd (f_pcs f) t (FRet r) x) = false).
  { intro x. tcase x t; [reflexivity|]. apply (fother_not_window f t); auto. now apply fwindow_main. }
  destruct Sm. constructor; simpl; auto.
  - intro x. tcase x t; [exact Ht|]. apply (rel_pc_ext f); auto.
  - intros _. repeat split; auto. rewrite W4. unfold is_token. simpl.
    destruct (f_pending f) eqn:Ep; simpl; [now rewrite F1|now rewrite upd_eq].
  - intros tm Hx. rewrite Hnw in Hx. discriminate.
Qed.

Lemma sim_get sg f c t ch f' :
  InvF f -> Sim f c -> fstep sg f (FEGet t ch) = Some f' -> simulated sg f' c.
Proof.
  intros I Sm H. simpl in H.
  destruct (f_pcs f t) eqn:Hpc; try discriminate.
  destruct (is_empty (cdesc ch)) eqn:Hne; try discriminate.
  pose proof (s_pcs f c Sm t) as Ht. rewrite Hpc in Ht. simpl in Ht.
  destruct (f_pool f) as [rc|] eqn:Hpool; injection H as <-;
    (exists [EGet t ch]; eexists; split; [simpl; rewrite Ht, Hne, (s_pool f c Sm), Hpool; reflexivity|]).
  - apply (sim_move f c _ t (FGot ch) (Got ch)); rewrite ?Hpc; auto. reflexivity.
  - (* a fresh Merge on both sides: the fields that are reset had these values *)
    destruct (fpool_none f I Hpool) as (Hh & Hi & Hp). destruct (f_emp f I Hi) as [Hc _].
    assert (Hnw : forall x, fwindow (f_pcs f x) = false).
    { intro x. destruct (fwindow (f_pcs f x)) eqn:E; auto. apply fwindow_main, fmain_holding in E. now rewrite Hh in E. }
    destruct (s_quiet f c Sm Hnw) as (A & B & C & D).
    assert (Htk : is_token f = false).
    { unfold is_token. destruct (fbuf (f_chans f (f_gen f))) as [[|r]|] eqn:Eb; auto.
      destruct (f_tok f I Eb) as (E & _). congruence. }
    rewrite <- Hi, <- Hp at 1. rewrite <- Hc at 1. apply (sim_move f c _ t (FGot ch) (Got ch)); rewrite ?Hpc; simpl; auto; congruence.
Qed.

Lemma sim_assign sg f c t f' :
  InvF f -> Sim f c -> fstep sg f (FEAssign t) = Some f' -> simulated sg f' c.
Proof.
  intros I Sm H. simpl in H.
  destruct (f_pcs f t) as [|ch|g| |old|nw o|oi ap|r k|r|r|r] eqn:Hpc; try discriminate.
  pose proof (s_pcs f c Sm t) as Ht. rewrite Hpc in Ht. simpl in Ht.
  destruct (f_fut f I (S (f_gen f)) (Nat.lt_succ_diag_r _)) as (F1 & F2 & F3).
  assert (Hq0 : forall p, fwindow p = false ->
            (forall x, fwindow (upd (f_pcs f) t p x) = false) -> forall x, fwindow (f_pcs f x) = false).
  { intros p Hp Hq x. specialize (Hq x). tcase x t; [now rewrite Hpc|auto]. }
  assert (Hw0 : forall p tm, fwindow (upd (f_pcs f) t p tm) = true -> fwindow p = false -> fwindow (f_pcs f tm) = true).
  { intros p tm Hw Hp. tcase tm t; [congruence|auto]. }
  exists [EAssign t]. simpl. rewrite Ht.
  destruct (f_committed f) eqn:Hc; injection H as <-.
  - (* the batch is committed: the caller joins the pending batch; for Model/Merge.v that is the
       current batch already when the main caller is in complete() *)
    destruct (committed c) eqn:Hcc; eexists; (split; [reflexivity|]); destruct Sm; constructor; simpl; auto.
    1,4: intro x; tcase x t; [simpl; now rewrite F3|apply (rel_pc_ext f); auto].
    + intro Hq. destruct (s_quiet0 (Hq0 (FWait (S (f_gen f))) eq_refl Hq)) as (A & B & C & D). now rewrite B, C, D.
    + intros tm Hw. destruct (s_win0 tm (Hw0 _ _ Hw eq_refl)) as (A & _). congruence.
    + intro Hq. destruct (s_quiet0 (Hq0 (FWait (S (f_gen f))) eq_refl Hq)) as (A & _). congruence.
    + intros tm Hw. destruct (s_win0 tm (Hw0 _ _ Hw eq_refl)) as (A & B & C & D). rewrite B, C, D.
      repeat split. destruct (f_pending f); reflexivity.
  - destruct (open_batch f I Hc) as (_ & Hnw & Hv).
    destruct Sm. destruct (s_quiet0 Hnw) as (A & B & C & D). rewrite A, Hc.
    eexists; (split; [reflexivity|]). constructor; simpl; auto.
    + intro x. tcase x t; [simpl; now rewrite Hv|apply (rel_pc_ext f); auto].
    + intros _. rewrite B, C, D. repeat split. unfold is_token. simpl.
      destruct (f_items f); simpl; [now rewrite upd_eq|reflexivity].
    + intros tm Hw. tcase tm t; [discriminate|]. now rewrite Hnw in Hw.
Qed.

Lemma sim_recv sg f c t f' :
  InvF f -> Sim f c -> fstep sg f (FERecv t) = Some f' -> simulated sg f' c.
Proof.
  intros I Sm H. simpl in H.
  destruct (f_pcs f t) as [|ch|g| |old|nw o|oi ap|r k|r|r|r] eqn:Hpc; try discriminate.
  pose proof (s_pcs f c Sm t) as Ht. rewrite Hpc in Ht. simpl in Ht.
  destruct (f_wt f I t g Hpc) as (Hg1 & Hg2 & Hg3).
  assert (Hstut : forall r ch', f_verdict f g = Some r -> (forall g0, g0 <> g -> ch' g0 = f_chans f g0) ->
            (is_token f = true -> g <> f_gen f) -> fbuf (ch' g) = None ->
            Sim (mkF (f_pool f) (f_committed f) (f_items f) (f_pending f) (f_gen f) ch' (upd (f_pcs f) t (FRet r))
                     (f_reg f) (f_store f) (f_verdict f)) c).
  { intros r ch' Hv Hch Htk Hb. rewrite Hv in Ht. destruct Sm. constructor; simpl; auto.
    - intro x. tcase x t; [exact Ht|apply (rel_pc_ext f); auto].
    - intro Hq. assert (Hq' : forall x, fwindow (f_pcs f x) = false) by (intro x; specialize (Hq x); tcase x t; [now rewrite Hpc|auto]).
      destruct (s_quiet0 Hq') as (A & B & C & D). repeat split; auto. rewrite D. unfold is_token in *. simpl.
      destruct (Nat.eq_dec g (f_gen f)) as [->|Hne]; [|now rewrite Hch by auto].
      rewrite Hb. destruct (fbuf (f_chans f (f_gen f))) as [[|r0]|] eqn:Eb; auto. exfalso. now apply Htk.
    - intros tm Hw. tcase tm t; [discriminate|eauto]. }
  destruct (fbuf (f_chans f g)) as [[|r]|] eqn:Hb.
  - (* the main status: the caller becomes the main caller of its batch *)
    injection H as <-. pose proof (f_vm f I g Hb) as ->.
    destruct (f_tok f I Hb) as (Hni & Hcm & Hnomain).
    destruct (token_fresh f I Hb) as (Hcl & Hv). rewrite Hv in Ht.
    assert (Hnw : forall x, fwindow (f_pcs f x) = false).
    { intro x. destruct (fwindow (f_pcs f x)) eqn:E; auto. apply fwindow_main in E. now rewrite Hnomain in E. }
    destruct (s_quiet f c Sm Hnw) as (A & B & C & D).
    assert (Htk : token c = true) by (rewrite D; unfold is_token; now rewrite Hb).
    assert (Hmem : mem t (batch c) = true) by (apply mem_In; unfold batch; rewrite B; now apply Hg2).
    exists [ERecvMain t]. eexists. split; [simpl; rewrite Ht, Htk, Hmem; reflexivity|].
    destruct Sm. constructor; simpl; auto.
    + intro x. tcase x t; [reflexivity|apply (rel_pc_ext f); auto].
    + intros _. repeat split; auto. unfold is_token. simpl. now rewrite upd_eq.
    + intros tm Hw. tcase tm t; [discriminate|]. now rewrite Hnw in Hw.
  - injection H as <-. exists []. exists c. split; [reflexivity|].
    apply Hstut; auto.
    + eapply (f_vb f I); eauto.
    + intros g0 Hne. now rewrite upd_neq.
    + unfold is_token. intros Htk ->. rewrite Hb in Htk. discriminate.
    + now rewrite upd_eq.
  - destruct (fclosed (f_chans f g)) eqn:Hc; [|discriminate]. injection H as <-.
    exists []. exists c. split; [reflexivity|]. unfold fset_pc. apply Hstut; auto.
    + eapply (f_vc f I); eauto.
    + unfold is_token. intros Htk ->. rewrite Hb in Htk. discriminate.
Qed.

(* the main caller learns the batch result: in Model/Merge.v this is where EComplete happens *)
Lemma sim_enter sg f c c1 t r cm rg st :
  InvF f -> Sim f c -> fpre (f_pcs f t) = true ->
  pcs c1 = upd (pcs c) t (Completing r) -> pool c1 = pool c -> items c1 = items c -> pending c1 = pending c ->
  reg c1 = rg -> store c1 = st ->
  exists c2, step sg c1 (EComplete t) = Some c2 /\
    Sim (mkF (f_pool f) cm (f_items f) (f_pending f) (f_gen f) (f_chans f)
             (upd (f_pcs f) t (FNotify r (length (f_items f) - 1))) rg st
             (upd (f_verdict f) (f_gen f) (Some r))) c2.
Proof.
  intros I Sm Hp E1 E2 E3 E4 E5 E6.
  pose proof (no_window_of_pre f t I Hp) as Hnw.
  destruct (s_quiet f c Sm Hnw) as (A & B & C & D).
  eexists. split; [simpl; rewrite E1, upd_eq; reflexivity|].
  assert (Hbatch : batch c1 = fbatch f) by (unfold batch, fbatch; now rewrite E3, B).
  constructor; simpl; auto.
  - now rewrite E2, (s_pool f c Sm).
  - intro x.
    destruct (complete_pcs_cases c1 t r x) as [[[E0|E0] E]|(N1 & N2 & E)]; unfold complete_pcs in E; rewrite E1 in E; rewrite E.
    + subst x. now rewrite upd_eq.
    + rewrite Hbatch in E0. tcase x t; [reflexivity|].
      unfold fbatch in E0. apply in_map_iff in E0 as ((x', c0) & Ex & Hin). simpl in Ex. subst x'.
      destruct (f_it f I x c0 Hin) as [Hx|[Hx|[(tm & Hx) _]]].
      * rewrite Hx. simpl. now rewrite upd_eq.
      * now rewrite (fother_not_main f t x I (fpre_main _ Hp) Hne) in Hx.
      * now rewrite Hnw in Hx.
    + rewrite !upd_neq by auto.
      pose proof (s_pcs f c Sm x) as Hx. destruct (f_pcs f x) eqn:Epx; simpl in *; auto.
      destruct (Nat.eq_dec g (f_gen f)) as [->|Hg]; [|now rewrite upd_neq].
      exfalso. apply N2. rewrite Hbatch. destruct (f_wt f I x _ Epx) as (_ & Hin & _). auto.
  - intro Hq. specialize (Hq t). rewrite upd_eq in Hq. discriminate.
  - intros tm _. rewrite E4, C. auto.
Qed.

Lemma sim_pre f c c1 t p q cm rg st :
  InvF f -> Sim f c -> fpre (f_pcs f t) = true -> fpre p = true -> (forall fx, rel_pc fx p q) ->
  pcs c1 = upd (pcs c) t q -> pool c1 = pool c -> committed c1 = cm -> items c1 = items c ->
  pending c1 = pending c -> token c1 = token c -> reg c1 = rg -> store c1 = st ->
  Sim (mkF (f_pool f) cm (f_items f) (f_pending f) (f_gen f) (f_chans f) (upd (f_pcs f) t p) rg st (f_verdict f)) c1.
Proof.
  intros I Sm Hp Hp' Hr E1 E2 E3 E4 E5 E6 E7 E8.
  pose proof (no_window_of_pre f t I Hp) as Hnw.
  destruct (s_quiet f c Sm Hnw) as (A & B & C & D).
  constructor; simpl; auto.
  - now rewrite E2, (s_pool f c Sm).
  - intro x. rewrite E1. tcase x t; [apply Hr|]. apply (rel_pc_ext f); auto. apply (s_pcs f c Sm).
  - intros _. rewrite E4, E5, E6, B, C, D. auto.
  - intros tm Hw. exfalso. tcase tm t; [destruct p; discriminate|]. rewrite Hnw in Hw. discriminate.
Qed.

Lemma sim_at f c t : InvF f -> Sim f c -> fpre (f_pcs f t) = true ->
  rel_pc f (f_pcs f t) (pcs c t) /\ reg c = f_reg f /\ store c = f_store f /\
  committed c = f_committed f /\ items c = f_items f.
Proof.
  intros I Sm Hp. destruct (s_quiet f c Sm (no_window_of_pre f t I Hp)) as (A & B & _).
  split; [apply (s_pcs f c Sm)|]. split; [apply (s_reg f c Sm)|]. split; [apply (s_store f c Sm)|auto].
Qed.

Definition coarse_event (e : fevent) : option event :=
  match e with
  | FEPrepare t fl => Some (EPrepare t fl) | FECommit t => Some (ECommit t)
  | FEPut t fl => Some (EPut t fl) | FEPutLost t => Some (EPutLost t)
  | FEDel t fl => Some (EDel t fl) | FEDelLost t => Some (EDelLost t)
  | _ => None
  end.

(* from states that agree where the step reads them, a step of the main caller before complete()
   is the same step in both systems; where Model/Merge.v goes to Completing, the channel-level
   system enters complete() *)
Lemma fstep_pre_coarse sg f c e e' t f' :
  pre_event e = Some t -> coarse_event e = Some e' -> fstep sg f e = Some f' ->
  rel_pc f (f_pcs f t) (pcs c t) ->
  reg c = f_reg f -> store c = f_store f -> committed c = f_committed f -> items c = f_items f ->
  exists c1, step sg c e' = Some c1 /\
    pool c1 = pool c /\ items c1 = items c /\ pending c1 = pending c /\
    ((exists p q, fpre p = true /\ (forall fx, rel_pc fx p q) /\ pcs c1 = upd (pcs c) t q /\ token c1 = token c /\
        f' = fset_pc (fwith f (committed c1) (reg c1) (store c1)) t p) \/
     (exists r, pcs c1 = upd (pcs c) t (Completing r) /\
        f' = fnotify (fwith f (committed c1) (reg c1) (store c1)) t r)).
Proof.
  intros He He' H Ht Er Es Ec Ei.
  destruct e; try discriminate; injection He as ->; injection He' as <-; unfold fstep in H;
    destruct (f_pcs f t) as [|c0|g| |old|nw o|oi ap|r k|r|r|r] eqn:Hpc; try discriminate;
    simpl in Ht; unfold step; rewrite Ht.
  - injection H as <-. eexists. split; [reflexivity|]. repeat split. left.
    exists (FPrepared (if fail then None else Some (f_reg f))), (Prepared (if fail then None else Some (f_reg f))).
    simpl. rewrite Er, Es, Ec. repeat split.
  - destruct old as [o|]; [|injection H as <-; eexists; split; [reflexivity|]; repeat split; right; exists RErr; simpl; now rewrite Er, Es].
    rewrite (f_equal (map snd) Ei). destruct (apply_changes (idx o) (map snd (f_items f))) as [|new].
    { injection H as <-. eexists. split; [reflexivity|]. repeat split. right. exists ROk. simpl. now rewrite Er, Es. }
    destruct (negb (is_nil new) || sg).
    { injection H as <-. eexists. split; [reflexivity|]. repeat split. left.
      exists (FNeedPut new o), (NeedPut new o). simpl. rewrite Er, Es. repeat split. }
    destruct o as [oi|]; injection H as <-; (eexists; split; [reflexivity|]); repeat split.
    + left. exists (FNeedDel oi false), (NeedDel oi false). simpl. rewrite Er, Es. repeat split.
    + right. exists ROk. simpl. now rewrite Er, Es.
  - destruct fail; injection H as <-; (eexists; split; [reflexivity|]); repeat split.
    + right. exists RErr. simpl. now rewrite Er, Es, Ec.
    + unfold after_put, fafter_put. destruct sg; [right; exists ROk; simpl; now rewrite Es, Ec|].
      destruct o as [oi|]; [|right; exists ROk; simpl; now rewrite Es, Ec].
      left. exists (FNeedDel oi true), (NeedDel oi true). simpl. rewrite Es, Ec. repeat split.
  - injection H as <-. eexists. split; [reflexivity|]. repeat split. right. exists RLost. simpl. now rewrite Es, Ec.
  - destruct fail; [|destruct ap]; injection H as <-; (eexists; split; [reflexivity|]); repeat split; right;
      eexists; simpl; now rewrite ?Er, ?Es, ?Ec.
  - destruct ap; injection H as <-; (eexists; split; [reflexivity|]); repeat split; right;
      eexists; simpl; now rewrite ?Er, ?Es, ?Ec.
Qed.

(* where the main caller enters complete(), EComplete follows *)
Lemma sim_pre_event sg f c e t f' :
  InvF f -> Sim f c -> pre_event e = Some t -> fstep sg f e = Some f' -> simulated sg f' c.
Proof.
  intros I Sm He H. destruct (fstep_pre sg f e f' t He H) as (Hp & _).
  destruct (coarse_event e) as [e'|] eqn:He'; [|destruct e; discriminate].
  destruct (sim_at f c t I Sm Hp) as (Ht & Er & Es & Ec & Ei).
  destruct (fstep_pre_coarse sg f c e e' t f' He He' H Ht Er Es Ec Ei)
    as (c1 & Hs & E2 & E3 & E4 & [(p & q & Hp' & Hr & E1 & E8 & ->)|(r & E1 & ->)]).
  - exists [e'], c1. split; [cbn -[step]; now rewrite Hs|]. now apply (sim_pre f c c1 t p q).
  - destruct (sim_enter sg f c c1 t r (committed c1) (reg c1) (store c1) I Sm Hp E1 E2 E3 E4 eq_refl eq_refl) as (c2 & Hs2 & S2).
    exists [e'; EComplete t], c2. split; [cbn -[step]; rewrite Hs; cbn -[step]; now rewrite Hs2|exact S2].
Qed.

Lemma sim_step sg f c e f' :
  InvF f -> Sim f c -> fstep sg f e = Some f' -> simulated sg f' c.
Proof.
  intros I Sm H. destruct (pre_event e) as [t|] eqn:He; [now apply (sim_pre_event sg f c e t)|].
  destruct e; try discriminate.
  - eapply sim_get; eauto.
  - eapply sim_assign; eauto.
  - eapply sim_recv; eauto.
  - eapply sim_notify; eauto.
  - eapply sim_swap; eauto.
  - eapply sim_done; eauto.
  - eapply sim_extdrop; eauto.
Qed.

Lemma run_app sg tr1 : forall c c1 tr2 c2,
  run sg c tr1 = Some c1 -> run sg c1 tr2 = Some c2 -> run sg c (tr1 ++ tr2) = Some c2.
Proof.
  induction tr1 as [|e tr IH]; intros c c1 tr2 c2 H1 H2; simpl in *.
  - injection H1 as <-. exact H2.
  - destruct (step sg c e) as [c'|]; [|discriminate]. eapply IH; eauto.
Qed.

Lemma frun_simulated sg ftr : forall f0 c0 f, InvF f0 -> Sim f0 c0 -> frun sg f0 ftr = Some f -> simulated sg f c0.
Proof.
  induction ftr as [|e ftr IH]; intros f0 c0 f I Sm H; simpl in H.
  - injection H as <-. now exists [], c0.
  - destruct (fstep sg f0 e) as [f1|] eqn:E; [|discriminate].
    destruct (sim_step sg f0 c0 e f1 I Sm E) as (tr1 & c1 & R1 & S1).
    destruct (IH f1 c1 f (stepF sg f0 e f1 I E) S1 H) as (tr2 & c2 & R2 & S2).
    exists (tr1 ++ tr2), c2. split; [eapply run_app; eauto|exact S2].
Qed.

Lemma fine_simulated sg r0 st0 ftr : forall f,
  frun sg (finit r0 st0) ftr = Some f ->
  exists tr c, run sg (init r0 st0) tr = Some c /\ Sim f c.
Proof. intros f H. exact (frun_simulated sg ftr _ _ f (invF_init r0 st0) (sim_init r0 st0) H). Qed.

Lemma fine_structure sg r0 st0 ftr f :
  frun sg (finit r0 st0) ftr = Some f ->
  (forall t1 t2, fmain (f_pcs f t1) = true -> fmain (f_pcs f t2) = true -> t1 = t2) /\
  (forall g, fbuf (f_chans f g) = Some FMain -> g = f_gen f /\ forall t, fmain (f_pcs f t) = false) /\
  (forall g r, fbuf (f_chans f g) = Some (FRes r) -> f_verdict f g = Some r) /\
  (forall g, fclosed (f_chans f g) = true -> f_verdict f g = Some ROk) /\
  (forall t r, fres (f_pcs f t) = Some r -> f_verdict f (f_gen f) = Some r) /\
  (exists hs, NoDup hs /\ (forall t, In t hs <-> fholding (f_pcs f t) = true) /\
     match f_pool f with None => hs = [] | Some rc => rc = length hs /\ hs <> [] end).
Proof.
  intro H. assert (I : InvF f) by (eapply frun_inv; eauto using invF_init).
  split; [apply (f_mu f I)|]. split.
  - intros g Hb. pose proof (f_vm f I g Hb) as ->. split; auto. now destruct (f_tok f I Hb) as (_ & _ & ?).
  - split; [apply (f_vb f I)|]. split; [apply (f_vc f I)|]. split; [apply (f_vw f I)|apply (f_pl f I)].
Qed.

Lemma fine_no_lost_update sg r0 st0 ftr f :
  frun sg (finit r0 st0) ftr = Some f -> fquiescent f ->
  exists tr c, run sg (init r0 st0) tr = Some c /\ quiescent c /\
    (forall t r, f_pcs f t = FDone r <-> pcs c t = Done r) /\
    NoDup (lin c) /\
    (forall t, In t (lin c) <-> exists r, f_pcs f t = FDone r /\ r <> RErr) /\
    (forall k, memb (f_reg f) k = member_after k (memb r0 k) (map (arg c) (lin c))) /\
    NoDup (keys (list_referrers (f_reg f) 0)) /\
    (forall k, In k (keys (list_referrers (f_reg f) 0)) <-> member_after k (memb r0 k) (map (arg c) (lin c)) = true).
Proof.
  intros H Q. destruct (fine_simulated sg r0 st0 ftr f H) as (tr & c & R & Sm).
  assert (Hd : forall t r, f_pcs f t = FDone r <-> pcs c t = Done r).
  { intros t r. pose proof (s_pcs f c Sm t) as Ht. split; intro E.
    - rewrite E in Ht. exact Ht.
    - destruct (Q t) as [E0|(r' & E0)]; rewrite E0 in Ht; simpl in Ht; congruence. }
  assert (Qc : quiescent c).
  { intro t. pose proof (s_pcs f c Sm t) as Ht. destruct (Q t) as [E0|(r' & E0)]; rewrite E0 in Ht; simpl in Ht; eauto. }
  destruct (Proofs.MergeThm.no_lost_update sg r0 st0 tr c R Qc) as (N & L & Z).
  destruct (Proofs.MergeThm.listing_is_fold sg r0 st0 tr c R) as (LN & _ & LK & _).
  exists tr, c. rewrite <- (s_reg f c Sm). repeat split; auto; try apply Hd.
  - intro Hin. apply L in Hin as (r & E & Hr). exists r. split; auto. now apply Hd.
  - intros (r & E & Hr). apply L. exists r. split; auto. now apply Hd.
  - apply LK.
  - apply LK.
Qed.
