(* The transition systems of concurrent pushes into one OCI layout and into one cas.Memory
   (Model/Verify.v: cstep, mstep): their invariants over every schedule; the exhaustive
   interleaving explorers the correspondence compares the implementation's races with list
   exactly the terminal states of the systems; and for the OCI system splitting the Writes
   changes no outcome. *)
From Oras Require Import Base.Prelude Model.Verify Proofs.VerifyFacts Proofs.VerifyAny Proofs.Verify.
From Coq Require Import Lia.

Local Open Scope nat_scope.

Lemma Forall_set_nth {A} (P : A -> Prop) l i x : Forall P l -> P x -> Forall P (set_nth l i x).
Proof.
  intros F Px. revert i. induction F as [|y l Py F IH]; intros [|i]; simpl; auto.
Qed.

Lemma Forall_nth_error {A} (P : A -> Prop) l i x : Forall P l -> nth_error l i = Some x -> P x.
Proof. intros F E. eapply Forall_forall; [exact F|eapply nth_error_In; exact E]. Qed.

Lemma nth_error_set_nth_eq {A} (l : list A) i x t :
  nth_error l i = Some t -> nth_error (set_nth l i x) i = Some x.
Proof. revert i. induction l as [|y l IH]; intros [|i]; simpl; try discriminate; auto. Qed.

Lemma nth_error_lt {A} (l : list A) i x : nth_error l i = Some x -> i < length l.
Proof. intro E. apply nth_error_Some. congruence. Qed.

Lemma set_nth_twice {A} (l : list A) i x y : set_nth (set_nth l i x) i y = set_nth l i y.
Proof. revert i. induction l as [|z l IH]; intros [|i]; simpl; auto. rewrite IH. reflexivity. Qed.

Lemma map_set_nth {A B} (f : A -> B) l i x : map f (set_nth l i x) = set_nth (map f l) i (f x).
Proof. revert i. induction l as [|y l IH]; intros [|i]; simpl; auto. rewrite IH. reflexivity. Qed.

Lemma set_nth_same {A} (l : list A) i x : nth_error l i = Some x -> set_nth l i x = l.
Proof.
  revert i. induction l as [|y l IH]; intros [|i]; simpl; try discriminate; intro E.
  - inversion E; reflexivity.
  - rewrite IH; auto.
Qed.

(* [explore], [explore_m] and [explore_f] are one function of the step function: they list
   exactly the states in which a schedule of the given length ends with no thread able to move *)
Section Explorer.
  Context {St : Type}.
  Variables (step : St -> nat -> option St) (nthr : St -> nat)
            (run : St -> list nat -> option St) (ex : nat -> St -> list St).
  Hypothesis run_nil : forall st, run st [] = Some st.
  Hypothesis run_cons : forall st i r,
    run st (i :: r) = match step st i with Some st' => run st' r | None => None end.
  Hypothesis ex_0 : forall st, ex 0 st = [].
  Hypothesis ex_S : forall f st,
    ex (S f) st =
    let nexts := flat_map (fun i => match step st i with Some st' => [st'] | None => [] end) (seq 0 (nthr st)) in
    match nexts with [] => [st] | _ => flat_map (ex f) nexts end.
  Hypothesis step_lt : forall st i st', step st i = Some st' -> i < nthr st.

  Lemma in_nexts st st1 :
    In st1 (flat_map (fun i => match step st i with Some st' => [st'] | None => [] end) (seq 0 (nthr st))) <->
    exists i, step st i = Some st1.
  Proof.
    rewrite in_flat_map. split.
    - intros (i & _ & I2). exists i. destruct (step st i); [destruct I2 as [->|[]]; reflexivity|destruct I2].
    - intros (i & Es). exists i. split; [apply in_seq; split; [lia|exact (step_lt _ _ _ Es)]|].
      rewrite Es. left; reflexivity.
  Qed.

  Lemma ex_reachable fuel : forall st st', In st' (ex fuel st) -> exists sched, run st sched = Some st'.
  Proof.
    induction fuel as [|f IH]; intros st st'; [rewrite ex_0; intros []|]. rewrite ex_S. cbv zeta.
    pose proof (in_nexts st) as Hn. destruct (flat_map _ _) as [|n0 nr].
    - intros [<-|[]]. exists []. apply run_nil.
    - intro I1. apply in_flat_map in I1 as (st1 & I2 & I3).
      apply Hn in I2 as (i & Es). destruct (IH _ _ I3) as (sched & Er).
      exists (i :: sched). rewrite run_cons, Es. exact Er.
  Qed.

  Lemma ex_complete sched : forall fuel st st',
    run st sched = Some st' -> (forall i, step st' i = None) -> length sched < fuel -> In st' (ex fuel st).
  Proof.
    induction sched as [|i r IH]; intros fuel st st' E T L; (destruct fuel as [|f]; [inversion L|]);
      rewrite ex_S; cbv zeta; pose proof (in_nexts st) as Hn; destruct (flat_map _ _) as [|n0 nr].
    - rewrite run_nil in E. injection E as <-. left; reflexivity.
    - destruct (proj1 (Hn n0) (or_introl eq_refl)) as (j & Es). rewrite run_nil in E. injection E as <-.
      rewrite T in Es. discriminate.
    - rewrite run_cons in E. destruct (step st i) as [st1|] eqn:Es; [|discriminate].
      destruct (proj2 (Hn st1) (ex_intro _ i Es)).
    - rewrite run_cons in E. destruct (step st i) as [st1|] eqn:Es; [|discriminate].
      apply in_flat_map. exists st1. split; [apply Hn; eauto|]. apply IH; auto. simpl in L. lia.
  Qed.
End Explorer.

Section OciConc.
  Variable H : str -> str -> str.

  Definition copied (t : thr) (e : option rerr) (out : str) : Prop :=
    exists v, copy_buffer H (t_comb t) true (t_fuel t) (mkBase (t_evs t) None) oci_bufsz
                          (d_dg (t_d t)) (d_sz (t_d t)) = ((e, out), v).

  (* [cstep] seen from one thread: a push of digest [dg] whose CopyBuffer returns what [cb]
     says goes from pc [p] to pc [q], and [blobs] become [b] *)
  Inductive tstep (blobs : oci) (dg : str) (cb : option rerr -> str -> Prop) (n : nat) : pc -> pc -> oci -> Prop :=
  | ts_bad : valid_digest dg = false -> tstep blobs dg cb n PStart (PDone (Some EBadDigest)) blobs
  | ts_exists bs : valid_digest dg = true -> oci_get blobs dg = Some bs ->
      tstep blobs dg cb n PStart (PDone (Some EExists)) blobs
  | ts_copy e out : valid_digest dg = true -> oci_get blobs dg = None -> cb e out ->
      tstep blobs dg cb n PStart (PIngest [] out e) blobs
  | ts_write w c todo e :
      tstep blobs dg cb n (PIngest w (c :: todo) e)
            (PIngest (w ++ firstn (S (Nat.min n (length (c :: todo) - 1))) (c :: todo))
                     (skipn (S (Nat.min n (length (c :: todo) - 1))) (c :: todo)) e) blobs
  | ts_remove w er : tstep blobs dg cb n (PIngest w [] (Some er)) (PDone (Some er)) blobs
  | ts_rename w : tstep blobs dg cb n (PIngest w [] None) (PDone None) ((dg, w) :: blobs).

  Lemma cstep_iff st i n st' :
    cstep H st i n = Some st' <->
    exists t q b, nth_error (c_thr st) i = Some t /\
                  tstep (c_blobs st) (d_dg (t_d t)) (copied t) n (t_pc t) q b /\
                  st' = mkC b (set_nth (c_thr st) i (with_pc t q)).
  Proof.
    unfold cstep. split.
    - destruct (nth_error (c_thr st) i) as [t|]; [|discriminate]. intro E. exists t.
      destruct (t_pc t) as [|w [|c todo] [er|]|r]; [| | | | |discriminate].
      1: destruct (valid_digest (d_dg (t_d t))) eqn:V; cbn [negb] in E;
           [destruct (oci_get (c_blobs st) (d_dg (t_d t))) eqn:G;
              [|destruct (copy_buffer H (t_comb t) true (t_fuel t) (mkBase (t_evs t) None) oci_bufsz
                                      (d_dg (t_d t)) (d_sz (t_d t))) as [[e out] v] eqn:Ec]|].
      all: injection E as <-; eexists _, _; split; [reflexivity|split; [|reflexivity]].
      all: econstructor; try eassumption. exists v. exact Ec.
    - intros (t & q & b & -> & Ts & ->).
      destruct Ts as [V|bs V G|e out V G [v Ec]|w c todo e|w er|w]; rewrite ?V, ?G, ?Ec; reflexivity.
  Qed.

  (* a thread that is writing its ingest file writes what CopyBuffer returned *)
  Definition thr_ok (t : thr) : Prop :=
    match t_pc t with
    | PIngest w todo e => copied t e (w ++ todo)
    | _ => True
    end.

  Definition cinv (st : cstate) : Prop := oci_ok H (c_blobs st) /\ Forall thr_ok (c_thr st).

  Lemma cstep_inv st i n st' : cinv st -> cstep H st i n = Some st' -> cinv st'.
  Proof.
    intros [Ob Ft] E. apply cstep_iff in E as (t & q & b & Ei & Ts & ->).
    pose proof (Forall_nth_error _ _ _ _ Ft Ei) as Pt. unfold thr_ok in Pt.
    enough (oci_ok H b /\ thr_ok (with_pc t q)) as [Ob' Tq] by (split; [exact Ob'|apply Forall_set_nth; assumption]).
    unfold thr_ok; cbn [with_pc t_pc].
    destruct Ts as [V|bs V G|e out V G C|w c todo e|w er|w]; try (split; [exact Ob|exact I]).
    - split; [exact Ob|exact C].
    - split; [exact Ob|]. rewrite <- app_assoc, firstn_skipn. exact Pt.
    - rewrite app_nil_r in Pt. destruct Pt as [v Ec]. apply copy_buffer_sound in Ec as (A & _).
      split; [eapply oci_ok_cons; eassumption|exact I].
  Qed.

  Lemma crun_inv sched : forall st st', cinv st -> crun H st sched = Some st' -> cinv st'.
  Proof.
    induction sched as [|[i n] r IH]; intros st st' Iv; simpl.
    - intro E; inversion E; subst; auto.
    - destruct (cstep H st i n) as [st1|] eqn:Es; [|discriminate].
      apply IH. eapply cstep_inv; eauto.
  Qed.

  Lemma cinv_start blobs ts :
    oci_ok H blobs -> Forall (fun t => t_pc t = PStart) ts -> cinv (mkC blobs ts).
  Proof.
    intros Ob F. split; auto. simpl. eapply Forall_impl; [|exact F].
    intros t E. unfold thr_ok. rewrite E. exact I.
  Qed.

  Lemma cstep_success st i n st' t w :
    cinv st -> cstep H st i n = Some st' ->
    nth_error (c_thr st) i = Some t -> t_pc t = PIngest w [] None ->
    oci_get (c_blobs st') (d_dg (t_d t)) = Some w /\ copied t None w.
  Proof.
    intros [Ob Ft] Es Ei Epc. unfold cstep in Es. rewrite Ei, Epc in Es. injection Es as <-.
    pose proof (Forall_nth_error _ _ _ _ Ft Ei) as Pt. unfold thr_ok in Pt. rewrite Epc, app_nil_r in Pt.
    split; [simpl; rewrite str_eqb_refl; reflexivity|exact Pt].
  Qed.

  Lemma cstep_success_sound st i n st' t w :
    cinv st -> cstep H st i n = Some st' ->
    nth_error (c_thr st) i = Some t -> t_pc t = PIngest w [] None ->
    exists w', oci_get (c_blobs st') (d_dg (t_d t)) = Some w' /\
               matches_desc H (d_dg (t_d t)) (d_sz (t_d t)) w' /\ (neof (t_evs t) = 0 -> stream (t_evs t) = w').
  Proof.
    intros Iv Es Ei Ep. destruct (cstep_success st i n st' t w Iv Es Ei Ep) as [G [v Ec]].
    apply copy_buffer_sound in Ec as (A & _ & C). exists w. auto.
  Qed.

  Lemma cstep_index st i big st' : cstep H st i big = Some st' -> i < length (c_thr st).
  Proof.
    unfold cstep. destruct (nth_error (c_thr st) i) eqn:E; [|discriminate]. intros _. eapply nth_error_lt; eauto.
  Qed.

  Lemma explore_reachable fuel big st st' :
    In st' (explore H fuel big st) -> exists sched, crun H st sched = Some st'.
  Proof.
    intro I1.
    destruct (ex_reachable (fun st i => cstep H st i big) (fun st => length (c_thr st))
                (fun st is => crun H st (map (fun i => (i, big)) is)) (fun f => explore H f big)
                (fun _ => eq_refl) (fun _ _ _ => eq_refl) (fun _ => eq_refl) (fun _ _ => eq_refl)
                (fun st i => cstep_index st i big) fuel st st' I1) as (is & R).
    eauto.
  Qed.

  Lemma explore_complete big sched fuel st st' :
    crun H st (map (fun i => (i, big)) sched) = Some st' -> (forall i, cstep H st' i big = None) ->
    length sched < fuel -> In st' (explore H fuel big st).
  Proof.
    apply (ex_complete (fun st i => cstep H st i big) (fun st => length (c_thr st))
             (fun st is => crun H st (map (fun i => (i, big)) is)) (fun f => explore H f big));
      try reflexivity. exact (fun st i => cstep_index st i big).
  Qed.

  (* every explored outcome satisfies the invariant of C05_concurrent_same_digest *)
  Lemma explore_invariant fuel big blobs ts st' :
    oci_reach H blobs -> Forall (fun t => t_pc t = PStart) ts ->
    In st' (explore H fuel big (mkC blobs ts)) ->
    forall dg bs, oci_get (c_blobs st') dg = Some bs ->
                  dg = digest_of H (alg_of dg) bs /\ valid_digest dg = true.
  Proof.
    intros R F I1. apply explore_reachable in I1 as (sched & Er).
    exact (proj1 (crun_inv sched _ _ (cinv_start blobs ts (oci_reach_ok H blobs R) F) Er)).
  Qed.

  Lemma ingest_empty_when_done st :
    Forall (fun t => exists r, t_pc t = PDone r) (c_thr st) -> ingest_files st = [].
  Proof.
    unfold ingest_files. induction 1 as [|t l [r E] F IH]; simpl; auto. rewrite E. exact IH.
  Qed.
End OciConc.

Section MemoryConc.
  Variable H : str -> str -> str.

  (* what a thread that has read holds is what ReadAll returned on its reader *)
  Definition mthr_ok (t : mthr) : Prop :=
    match m_pc t with
    | MRead e buf =>
        exists v, read_all H (m_comb t) true (m_fuel t)
                    (mkBase (m_evs t) (match m_lim t with Some _ => Some (d_sz (m_d t)) | None => None end))
                    (d_dg (m_d t)) (d_sz (m_d t)) = ((e, buf), v)
    | _ => True
    end.

  (* [Q]: anything about a thread that does not depend on how far it has got *)
  Definition minv (Q : mthr -> Prop) (st : mstate) : Prop :=
    mem_ok H (ms_mem st) /\ Forall (fun t => Q t /\ mthr_ok t) (ms_thr st).

  Lemma mstep_inv (Q : mthr -> Prop) st i st' :
    (forall t p, Q t -> Q (with_mpc t p)) -> minv Q st -> mstep H st i = Some st' -> minv Q st'.
  Proof.
    intros Qs [Om Ft]. unfold mstep. destruct (nth_error (ms_thr st) i) as [t|] eqn:Ei; [|discriminate].
    destruct (Forall_nth_error _ _ _ _ Ft Ei) as [Qt Pt]. unfold mthr_ok in Pt.
    assert (Upd : forall p, mthr_ok (with_mpc t p) ->
                  minv Q (mkM (ms_mem st) (set_nth (ms_thr st) i (with_mpc t p)))).
    { intros p Tp. split; [exact Om|apply Forall_set_nth; auto]. }
    destruct (m_pc t) as [|[e|] buf|r] eqn:Epc; [| | |discriminate].
    - destruct (match m_lim t with Some l => (d_sz (m_d t) >? l)%Z | None => false end);
        [|destruct (mem_get (ms_mem st) (m_d t))].
      1,2: intro E; injection E as <-; apply Upd; exact I.
      destruct (read_all H (m_comb t) true (m_fuel t) _ (d_dg (m_d t)) (d_sz (m_d t))) as [[e buf] v] eqn:Er.
      intro E; injection E as <-. apply Upd. exists v. exact Er.
    - intro E; injection E as <-. apply Upd. exact I.
    - destruct Pt as [v Er]. destruct (mem_get (ms_mem st) (m_d t)); intro E; injection E as <-; [apply Upd; exact I|].
      split; [|apply Forall_set_nth; auto; split; [auto|exact I]].
      apply mem_ok_cons; [exact Om|]. apply read_all_sound in Er. apply Er.
  Qed.

  Lemma mrun_inv (Q : mthr -> Prop) sched : (forall t p, Q t -> Q (with_mpc t p)) ->
    forall st st', minv Q st -> mrun H st sched = Some st' -> minv Q st'.
  Proof.
    intro Qs. induction sched as [|i r IH]; intros st st' Iv; simpl.
    - intro E; inversion E; subst; auto.
    - destruct (mstep H st i) as [st1|] eqn:Es; [|discriminate]. apply IH. eapply mstep_inv; eauto.
  Qed.

  Lemma minv_start (Q : mthr -> Prop) m ts :
    mem_reach H m -> Forall (fun t => m_pc t = MStart /\ Q t) ts -> minv Q (mkM m ts).
  Proof.
    intros R F. split; [apply mem_reach_ok; exact R|]. simpl. eapply Forall_impl; [|exact F].
    intros t [Et Qt]. split; [exact Qt|]. unfold mthr_ok. rewrite Et. exact I.
  Qed.

  (* any number of threads, any descriptors, any schedule: whatever the memory store
     holds at any instant matches its descriptor; a push that reports success has
     stored a prefix of its own reader *)
  Lemma memory_concurrent m ts sched st :
    mem_reach H m -> Forall (fun t => m_pc t = MStart) ts ->
    mrun H (mkM m ts) sched = Some st ->
    (forall d bs, mem_get (ms_mem st) d = Some bs -> matches_desc H (d_dg d) (d_sz d) bs) /\
    (forall i st' t buf, mstep H st i = Some st' -> nth_error (ms_thr st) i = Some t ->
       m_pc t = MRead None buf -> mem_get (ms_mem st) (m_d t) = None ->
       mem_get (ms_mem st') (m_d t) = Some buf /\ matches_desc H (d_dg (m_d t)) (d_sz (m_d t)) buf /\
       exists rest, stream (m_evs t) = buf ++ rest).
  Proof.
    intros R F E.
    assert (I0 : minv (fun _ => True) (mkM m ts)).
    { apply minv_start; [exact R|]. eapply Forall_impl; [|exact F]. auto. }
    pose proof (mrun_inv _ sched (fun _ _ _ => I) _ _ I0 E) as [Om Ft]. split; [exact Om|].
    intros i st' t buf Es Ei Ep G. unfold mstep in Es. rewrite Ei, Ep, G in Es. injection Es as <-.
    destruct (Forall_nth_error _ _ _ _ Ft Ei) as [_ Pt]. unfold mthr_ok in Pt. rewrite Ep in Pt.
    destruct Pt as [v Er]. apply read_all_sound in Er as (A & B & _).
    simpl. rewrite desc_eqb_refl. auto.
  Qed.
  Lemma mstep_index st i st' : mstep H st i = Some st' -> i < length (ms_thr st).
  Proof.
    unfold mstep. destruct (nth_error (ms_thr st) i) eqn:E; [|discriminate]. intros _. eapply nth_error_lt; eauto.
  Qed.

  Lemma explore_m_reachable fuel st st' :
    In st' (explore_m H fuel st) -> exists sched, mrun H st sched = Some st'.
  Proof.
    apply (ex_reachable (mstep H) (fun st => length (ms_thr st)) (mrun H) (explore_m H)); try reflexivity.
    apply mstep_index.
  Qed.

  Lemma explore_m_complete sched fuel st st' :
    mrun H st sched = Some st' -> (forall i, mstep H st' i = None) -> length sched < fuel ->
    In st' (explore_m H fuel st).
  Proof.
    apply (ex_complete (mstep H) (fun st => length (ms_thr st)) (mrun H) (explore_m H)); try reflexivity.
    apply mstep_index.
  Qed.
End MemoryConc.

(* Any schedule of the OCI system, with Writes split in any way, that runs from a state in
   which no push has started to a state in which every push is done, ends in a state that
   a schedule with unsplit Writes also reaches -- hence (explore_complete) in a state the
   explorer lists.  The Writes of a thread only grow its own ingest file: seen through
   [collapse] (every ingest file already complete) they are no steps at all, and each other
   step is one or two steps of the unsplit system. *)
Section SplitWrites.
  Variable H : str -> str -> str.
  Variable big : nat.

  Definition collapse_pc (p : pc) : pc :=
    match p with PIngest w todo e => PIngest (w ++ todo) [] e | _ => p end.
  Definition collapse_t (t : thr) : thr := with_pc t (collapse_pc (t_pc t)).
  Definition collapse (st : cstate) : cstate := mkC (c_blobs st) (map collapse_t (c_thr st)).

  (* [big] is large enough for everything a thread will write *)
  Definition fits_pc (cb : option rerr -> str -> Prop) (p : pc) : Prop :=
    match p with
    | PStart => forall e out, cb e out -> length out <= S big
    | PIngest w todo e => length (w ++ todo) <= S big
    | PDone _ => True
    end.
  Definition fits (t : thr) : Prop := fits_pc (copied H t) (t_pc t).

  (* the steps an unsplit schedule has left for a thread, at most *)
  Definition rank_pc (p : pc) : nat :=
    match p with PStart => 3 | PIngest _ _ _ => 1 | PDone _ => 0 end.

  Fixpoint total_rank (l : list thr) : nat :=
    match l with [] => 0 | t :: r => rank_pc (t_pc t) + total_rank r end.

  Lemma total_rank_set_nth l i t x :
    nth_error l i = Some t ->
    total_rank (set_nth l i x) + rank_pc (t_pc t) = total_rank l + rank_pc (t_pc x).
  Proof.
    revert i. induction l as [|y l IH]; intros [|i]; simpl; try discriminate; intro E.
    - inversion E; subst. lia.
    - specialize (IH i E). lia.
  Qed.

  Lemma total_rank_le l : total_rank l <= 3 * length l.
  Proof. induction l as [|t r IH]; simpl; [lia|]. destruct (t_pc t); simpl; lia. Qed.

  (* one step of a thread, seen through [collapse_pc]: a Write is invisible; starting the
     copy is the start and then one Write of everything; any other step is itself *)
  Lemma tstep_sim blobs dg cb n p q b :
    tstep blobs dg cb n p q b -> fits_pc cb p ->
    fits_pc cb q /\
    (collapse_pc q = collapse_pc p /\ b = blobs /\ rank_pc q <= rank_pc p \/
     tstep blobs dg cb big (collapse_pc p) (collapse_pc q) b /\ 1 + rank_pc q <= rank_pc p \/
     exists m, tstep blobs dg cb big (collapse_pc p) m blobs /\ tstep blobs dg cb big m (collapse_pc q) b /\
               2 + rank_pc q <= rank_pc p).
  Proof.
    intros [V|bs V G|e out V G C|w c todo e|w er|w] F; cbn [fits_pc collapse_pc rank_pc] in *.
    - split; [exact I|]. right; left. split; [constructor; exact V|lia].
    - split; [exact I|]. right; left. split; [econstructor; eassumption|lia].
    - specialize (F _ _ C). split; [exact F|]. destruct out as [|c out].
      + right; left. split; [constructor; assumption|lia].
      + right; right. exists (PIngest [] (c :: out) e). split; [constructor; assumption|]. split; [|lia].
        (* the Write takes everything *)
        pose proof (ts_write blobs dg cb big [] c out e) as W.
        replace (S (Nat.min big (length (c :: out) - 1))) with (length (c :: out)) in W by (simpl in *; lia).
        rewrite firstn_all, skipn_all in W. exact W.
    - rewrite <- !app_assoc, !firstn_skipn. split; [exact F|]. left. split; [reflexivity|split; [reflexivity|lia]].
    - rewrite app_nil_r. split; [exact I|]. right; left. split; [constructor|lia].
    - rewrite app_nil_r. split; [exact I|]. right; left. split; [constructor|lia].
  Qed.

  Lemma cstep_sim st i n st1 :
    Forall fits (c_thr st) -> cstep H st i n = Some st1 ->
    Forall fits (c_thr st1) /\
    exists is, length is + total_rank (c_thr st1) <= total_rank (c_thr st) /\
               crun H (collapse st) (map (fun j => (j, big)) is) = Some (collapse st1).
  Proof.
    intros Ff Es. apply cstep_iff in Es as (t & q & b & Ei & Ts & ->).
    destruct (tstep_sim _ _ _ _ _ _ _ Ts (Forall_nth_error _ _ _ _ Ff Ei)) as [Fq Sim].
    split; [apply Forall_set_nth; assumption|].
    pose proof (total_rank_set_nth _ _ _ (with_pc t q) Ei) as Rk. cbn [c_thr with_pc t_pc] in *.
    assert (Ec : nth_error (c_thr (collapse st)) i = Some (collapse_t t)).
    { simpl. rewrite nth_error_map, Ei. reflexivity. }
    replace (collapse (mkC b (set_nth (c_thr st) i (with_pc t q))))
      with (mkC b (set_nth (c_thr (collapse st)) i (with_pc t (collapse_pc q))))
      by (unfold collapse; simpl; rewrite map_set_nth; reflexivity).
    (* a step of thread i of the collapsed system, from any of its states *)
    assert (Step : forall s p m b2, nth_error (c_thr s) i = Some (with_pc t p) ->
              tstep (c_blobs s) (d_dg (t_d t)) (copied H t) big p m b2 ->
              cstep H s i big = Some (mkC b2 (set_nth (c_thr s) i (with_pc t m)))).
    { intros s p m b2 En Tm. apply cstep_iff. exists (with_pc t p), m, b2. auto. }
    destruct Sim as [(Eq & -> & R)|[(T1 & R)|(m & T1 & T2 & R)]].
    - exists []. split; [simpl; lia|]. cbn [map crun]. rewrite Eq. fold (collapse_t t). rewrite (set_nth_same _ _ _ Ec). reflexivity.
    - exists [i]. split; [simpl; lia|]. cbn [map crun]. rewrite (Step (collapse st) _ _ _ Ec T1). reflexivity.
    - exists [i; i]. split; [simpl; lia|]. cbn [map crun]. rewrite (Step (collapse st) _ _ _ Ec T1).
      rewrite (Step (mkC _ _) _ _ _ (nth_error_set_nth_eq _ _ _ _ Ec) T2). cbn [c_thr]. rewrite set_nth_twice. reflexivity.
  Qed.

  Lemma crun_app st sched1 : forall sched2 st1,
    crun H st sched1 = Some st1 -> crun H st (sched1 ++ sched2) = crun H st1 sched2.
  Proof.
    revert st. induction sched1 as [|[i n] r IH]; intros st sched2 st1; simpl.
    - intro E; inversion E; subst; reflexivity.
    - destruct (cstep H st i n) as [st'|]; [apply IH|discriminate].
  Qed.

  Lemma crun_sim sched : forall st st',
    Forall fits (c_thr st) -> crun H st sched = Some st' ->
    exists is, length is + total_rank (c_thr st') <= total_rank (c_thr st) /\
               crun H (collapse st) (map (fun j => (j, big)) is) = Some (collapse st').
  Proof.
    induction sched as [|[i n] r IH]; intros st st' Ff; simpl.
    - intro E; injection E as <-. exists []. split; [simpl; lia|reflexivity].
    - destruct (cstep H st i n) as [st1|] eqn:Es; [|discriminate]. intro E.
      destruct (cstep_sim st i n st1 Ff Es) as (F1 & is1 & L1 & R1).
      destruct (IH st1 st' F1 E) as (is2 & L2 & R2).
      exists (is1 ++ is2). rewrite app_length, map_app, (crun_app _ _ _ _ R1). split; [lia|exact R2].
  Qed.

  Lemma collapse_same st : Forall (fun t => collapse_pc (t_pc t) = t_pc t) (c_thr st) -> collapse st = st.
  Proof.
    destruct st as [bl thr]. unfold collapse. simpl. intro F. f_equal.
    induction F as [|t l E F IH]; simpl; auto. rewrite IH. unfold collapse_t. rewrite E. destruct t; reflexivity.
  Qed.

  Lemma done_terminal st : Forall (fun t => exists r, t_pc t = PDone r) (c_thr st) -> forall i, cstep H st i big = None.
  Proof.
    intros F i. unfold cstep. destruct (nth_error (c_thr st) i) as [t|] eqn:Ei; auto.
    destruct (Forall_nth_error _ _ _ _ F Ei) as [r E]. rewrite E. reflexivity.
  Qed.

  (* what CopyBuffer writes never exceeds what the reader holds, so big = the total number
     of bytes of the scripts (what the driver uses) fits every thread *)
  Lemma vr_read_conserve comb v k bs e v' :
    vr_read comb v k = ((bs, e), v') ->
    stream (b_evs (v_base v)) = bs ++ stream (b_evs (v_base v')).
  Proof.
    intro E. apply to_g_read_eq, g_read_cases in E as (_ & _ & [(-> & Eb & _)|(_ & _ & _ & _ & e0 & Eb & _)]).
    - simpl in Eb. rewrite Eb. reflexivity.
    - apply base_read_facts in Eb as [[] _]. assumption.
  Qed.

  Lemma copy_loop_conserve comb bufsz fuel : forall v out e out' v',
    copy_loop comb fuel v bufsz out = ((e, out'), v') ->
    length out' + length (stream (b_evs (v_base v'))) = length out + length (stream (b_evs (v_base v))).
  Proof.
    induction fuel as [|f IH]; intros v out e out' v'; simpl.
    - intro E; inversion E; subst. reflexivity.
    - destruct (vr_read comb v bufsz) as [[bs e0] v1] eqn:Er.
      apply vr_read_conserve in Er. rewrite Er, app_length.
      destruct e0 as [e0|].
      + intro E. assert (X : out' = out ++ bs /\ v' = v1) by (destruct e0; injection E as _ <- <-; auto).
        destruct X as [-> ->]. rewrite app_length. lia.
      + intro E. apply IH in E. rewrite app_length in E. lia.
  Qed.

  Lemma fits_started t :
    t_pc t = PStart -> length (stream (t_evs t)) <= S big -> fits t.
  Proof.
    intros Ep L. unfold fits. rewrite Ep. intros e out [v E]. revert E. unfold copy_buffer.
    destruct (copy_loop (t_comb t) (t_fuel t) (new_vr true (mkBase (t_evs t) None) (d_dg (t_d t)) (d_sz (t_d t))) oci_bufsz [])
      as [[e0 o] v0] eqn:Ec.
    apply copy_loop_conserve in Ec. unfold new_vr in Ec.
    destruct (new_vr_shape true (mkBase (t_evs t) None) (d_dg (t_d t)) (d_sz (t_d t))) as [e1 N]. rewrite N in Ec. simpl in Ec.
    destruct e0 as [e0|].
    - intro E; inversion E; subst. lia.
    - destruct (vr_verify H (t_comb t) (t_fuel t) (d_dg (t_d t)) v0) as [r v1]. intro E; inversion E; subst. lia.
  Qed.

  (* every finished race, however its Writes were split, is the end of an unsplit schedule of
     at most three steps per thread *)
  Lemma split_writes_unsplit blobs ts sched st' :
    Forall (fun t => t_pc t = PStart /\ length (stream (t_evs t)) <= S big) ts ->
    crun H (mkC blobs ts) sched = Some st' -> Forall (fun t => exists r, t_pc t = PDone r) (c_thr st') ->
    exists is, length is <= 3 * length ts /\ crun H (mkC blobs ts) (map (fun i => (i, big)) is) = Some st'.
  Proof.
    intros F E Fd.
    assert (Ff : Forall fits ts) by (eapply Forall_impl; [|exact F]; intros t [A B]; apply fits_started; assumption).
    destruct (crun_sim sched (mkC blobs ts) st' Ff E) as (is & L & R).
    rewrite (collapse_same (mkC blobs ts)), (collapse_same st') in R.
    - exists is. pose proof (total_rank_le ts). simpl in L. split; [lia|exact R].
    - eapply Forall_impl; [|exact Fd]. intros t [r Ed]. rewrite Ed. reflexivity.
    - eapply Forall_impl; [|exact F]. intros t [Es _]. simpl. rewrite Es. reflexivity.
  Qed.

  (* ... hence one of the explored outcomes *)
  Theorem split_writes_explored blobs ts sched st' :
    Forall (fun t => t_pc t = PStart /\ length (stream (t_evs t)) <= S big) ts ->
    crun H (mkC blobs ts) sched = Some st' -> Forall (fun t => exists r, t_pc t = PDone r) (c_thr st') ->
    exists is, crun H (mkC blobs ts) (map (fun i => (i, big)) is) = Some st' /\
               forall fuel, length is < fuel -> In st' (explore H fuel big (mkC blobs ts)).
  Proof.
    intros F E Fd. destruct (split_writes_unsplit blobs ts sched st' F E Fd) as (is & _ & R).
    exists is. split; [exact R|]. intros fuel L. apply (explore_complete H big is); auto using done_terminal.
  Qed.

  (* ... with the explorer's fuel 4 * threads + 2 (what the correspondence uses) *)
  Theorem split_writes_explored_fuel blobs ts sched st' :
    Forall (fun t => t_pc t = PStart /\ length (stream (t_evs t)) <= S big) ts ->
    crun H (mkC blobs ts) sched = Some st' -> Forall (fun t => exists r, t_pc t = PDone r) (c_thr st') ->
    In st' (explore H (4 * length ts + 2) big (mkC blobs ts)).
  Proof.
    intros F E Fd. destruct (split_writes_unsplit blobs ts sched st' F E Fd) as (is & L & R).
    apply (explore_complete H big is); [exact R|apply done_terminal; exact Fd|lia].
  Qed.
End SplitWrites.
