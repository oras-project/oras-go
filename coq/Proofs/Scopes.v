(* C16 -- lemmas about Model/Scopes.v (CleanScopes / cleanActions). *)
From Coq Require Import Sorting.Sorted Sorting.Permutation.
From Oras Require Import Base.Prelude Model.Scopes.

Definition leb (x y : str) : Prop := str_leb x y = true.
Definition slt (x y : str) : Prop := str_leb x y = true /\ x <> y.

Lemma str_leb_cons c x d y :
  str_leb (c :: x) (d :: y) = true <-> (c < d)%N \/ c = d /\ str_leb x y = true.
Proof.
  simpl. destruct (N.ltb_spec c d); [split; auto|].
  destruct (N.ltb_spec d c); [split; [discriminate | lia]|].
  split; [intro; right; split; [lia | assumption] | now intros [|[_ ?]]; [lia|]].
Qed.

Lemma str_leb_refl x : str_leb x x = true.
Proof. induction x; [reflexivity | apply str_leb_cons; auto]. Qed.

Lemma str_leb_total x y : str_leb x y = true \/ str_leb y x = true.
Proof.
  revert y; induction x as [|c x IH]; intros [|d y]; auto. rewrite !str_leb_cons.
  destruct (IH y); destruct (N.lt_trichotomy c d) as [|[|]]; auto.
Qed.

Lemma str_leb_antisym x y : str_leb x y = true -> str_leb y x = true -> x = y.
Proof.
  revert y; induction x as [|c x IH]; intros [|d y]; try discriminate; auto. rewrite !str_leb_cons.
  intros [|[-> H1]] [|[? H2]]; try lia. f_equal; auto.
Qed.

Lemma str_leb_trans x y z : str_leb x y = true -> str_leb y z = true -> str_leb x z = true.
Proof.
  revert y z; induction x as [|c x IH]; intros [|d y] [|e z]; try discriminate; auto. rewrite !str_leb_cons.
  intros [|[-> H1]] [|[-> H2]]; [left; lia | auto | auto | right; eauto].
Qed.

Lemma slt_leb x y : slt x y -> leb x y.
Proof. now intros [H _]. Qed.

Lemma insert_perm x l : Permutation (insert x l) (x :: l).
Proof.
  induction l as [|y l IH]; simpl; auto.
  destruct (str_leb x y); auto.
  eapply perm_trans; [apply perm_skip, IH | apply perm_swap].
Qed.

Lemma isort_perm_of l : Permutation (isort l) l.
Proof.
  induction l as [|x l IH]; simpl; auto.
  eapply perm_trans; [apply insert_perm | auto].
Qed.

Lemma insert_sorted x l : StronglySorted leb l -> StronglySorted leb (insert x l).
Proof.
  induction l as [|y l IH]; intro S; simpl.
  - repeat constructor.
  - apply StronglySorted_inv in S as [S F].
    destruct (str_leb x y) eqn:E.
    + constructor. { constructor; auto. }
      constructor; auto. rewrite Forall_forall in *. intros z Hz.
      eapply str_leb_trans; [exact E | apply F; auto].
    + constructor; auto.
      eapply Permutation_Forall; [apply Permutation_sym, insert_perm|].
      constructor; auto. destruct (str_leb_total x y) as [H|H]; [congruence | exact H].
Qed.

Lemma isort_sorted l : StronglySorted leb (isort l).
Proof. induction l; simpl; [constructor | now apply insert_sorted]. Qed.

Lemma sorted_head_leb a l x : StronglySorted leb (a :: l) -> In x (a :: l) -> leb a x.
Proof.
  intros S [<-|H]; [apply str_leb_refl|].
  apply StronglySorted_inv in S as [_ F]. rewrite Forall_forall in F. auto.
Qed.

Lemma sorted_perm_eq l1 : forall l2,
  StronglySorted leb l1 -> StronglySorted leb l2 -> Permutation l1 l2 -> l1 = l2.
Proof.
  induction l1 as [|a l1 IH]; intros l2 S1 S2 P.
  - apply Permutation_nil in P. auto.
  - destruct l2 as [|c l2]; [apply Permutation_sym, Permutation_nil in P; discriminate|].
    assert (a = c) as ->.
    { apply str_leb_antisym; eapply sorted_head_leb; eauto.
      - eapply Permutation_in; [apply Permutation_sym, P | now left].
      - eapply Permutation_in; [apply P | now left]. }
    apply StronglySorted_inv in S1 as [S1 _]. apply StronglySorted_inv in S2 as [S2 _].
    f_equal. apply IH; auto. eapply Permutation_cons_inv; eauto.
Qed.

(* sorting any permutation gives the same list: the iteration order of the Go
   maps that feed the final slices.Sort cannot be observed *)
Lemma isort_perm l l' : Permutation l l' -> isort l = isort l'.
Proof.
  intro P. apply sorted_perm_eq; try apply isort_sorted.
  eapply perm_trans; [apply isort_perm_of|]. eapply perm_trans; [exact P|].
  apply Permutation_sym, isort_perm_of.
Qed.

Lemma isort_id l : StronglySorted leb l -> isort l = l.
Proof. intro S. apply sorted_perm_eq; auto using isort_sorted, isort_perm_of. Qed.

Lemma isort_in x l : In x (isort l) <-> In x l.
Proof.
  split; apply Permutation_in; [apply isort_perm_of | apply Permutation_sym, isort_perm_of].
Qed.

Lemma compact_cons2 a c l :
  compact (a :: c :: l) = if str_eqb a c then compact (c :: l) else a :: compact (c :: l).
Proof. reflexivity. Qed.

Lemma in_cons_iff' {A} (a x : A) l : In x (a :: l) <-> a = x \/ In x l.
Proof. simpl; tauto. Qed.

Lemma compact_in x l : In x (compact l) <-> In x l.
Proof.
  induction l as [|a l IH]; [simpl; tauto|].
  destruct l as [|c l']; [simpl; tauto|].
  rewrite compact_cons2. destruct (str_eqb a c) eqn:E.
  - apply str_eqb_spec in E. subst. rewrite IH, !in_cons_iff'. tauto.
  - rewrite (in_cons_iff' a x (c :: l')), <- IH, in_cons_iff'. tauto.
Qed.

Lemma compact_ssorted l : StronglySorted leb l -> StronglySorted slt (compact l).
Proof.
  induction l as [|a l IH]; intro S; [constructor|].
  destruct l as [|c l']; [simpl; repeat constructor|].
  rewrite compact_cons2. apply StronglySorted_inv in S as [S F].
  destruct (str_eqb a c) eqn:E; [now apply IH|].
  constructor; [now apply IH|].
  rewrite Forall_forall in *. intros y Hy. rewrite compact_in in Hy.
  split; [now apply F|]. intros <-.
  assert (a = c) by (apply str_leb_antisym; [apply F; now left | exact (sorted_head_leb c l' a S Hy)]).
  subst. rewrite str_eqb_refl in E. discriminate.
Qed.

Lemma ssorted_weaken l : StronglySorted slt l -> StronglySorted leb l.
Proof.
  induction 1 as [|a l S IH F]; constructor; auto.
  eapply Forall_impl; [|exact F]. intros ? [? _]; assumption.
Qed.

Lemma ssorted_nodup l : StronglySorted slt l -> NoDup l.
Proof.
  induction 1 as [|a l S IH F]; constructor; auto.
  intro Hin. rewrite Forall_forall in F. destruct (F _ Hin) as [_ Hne]. now apply Hne.
Qed.

Lemma ssorted_ext l1 l2 :
  StronglySorted slt l1 -> StronglySorted slt l2 -> (forall x, In x l1 <-> In x l2) -> l1 = l2.
Proof.
  intros S1 S2 H. apply sorted_perm_eq; auto using ssorted_weaken.
  apply NoDup_Permutation; auto using ssorted_nodup.
Qed.

Lemma compact_id l : StronglySorted slt l -> compact l = l.
Proof.
  intro S. apply ssorted_ext; auto.
  - apply compact_ssorted, ssorted_weaken, S.
  - intro; apply compact_in.
Qed.

Definition canon (l : list str) : list str := compact (isort l).

Definition same {A} (l l' : list A) : Prop := forall x, In x l <-> In x l'.

Lemma perm_same {A} (l l' : list A) : Permutation l l' -> same l l'.
Proof. intros P x. split; apply Permutation_in; auto using Permutation_sym. Qed.

Lemma canon_in x l : In x (canon l) <-> In x l.
Proof. unfold canon. now rewrite compact_in, isort_in. Qed.

Lemma canon_ssorted l : StronglySorted slt (canon l).
Proof. apply compact_ssorted, isort_sorted. Qed.

Lemma canon_ext l l' : same l l' -> canon l = canon l'.
Proof.
  intro H. apply ssorted_ext; try apply canon_ssorted.
  intro x. rewrite !canon_in. apply H.
Qed.

Lemma canon_id l : StronglySorted slt l -> canon l = l.
Proof.
  intro S. unfold canon. rewrite isort_id by now apply ssorted_weaken. now apply compact_id.
Qed.

Lemma key_eqb_spec k1 k2 : key_eqb k1 k2 = true <-> k1 = k2.
Proof.
  destruct k1 as [a1 b1], k2 as [a2 b2]. unfold key_eqb. simpl.
  rewrite andb_true_iff, !str_eqb_spec. split; [intros [-> ->]; auto | intros [= -> ->]; auto].
Qed.

Lemma key_eqb_refl k : key_eqb k k = true.
Proof. now apply key_eqb_spec. Qed.

Lemma in_passes y L : In y (passes L) <-> In (Pass y) L.
Proof.
  induction L as [|c L IH]; simpl; [tauto|].
  destruct c as [s| |t n a]; simpl; rewrite IH; intuition (try discriminate; try congruence).
Qed.

Lemma in_acts_of a k L :
  In a (acts_of k L) <-> exists acts, In (Keyed (fst k) (snd k) acts) L /\ In a acts.
Proof.
  induction L as [|c L IH]; simpl.
  - split; [tauto | intros (? & [] & _)].
  - destruct c as [s| |t n a0].
    1, 2: rewrite IH; split; intros (acts & H & Ha); exists acts; (split; [|exact Ha]);
      [now right | now destruct H as [H|H]].
    destruct (key_eqb k (t, n)) eqn:E.
    + apply key_eqb_spec in E. subst k. simpl. rewrite in_app_iff, IH. simpl. split.
      * intros [H|(acts & H & Ha)]; [exists a0; auto | exists acts; auto].
      * intros (acts & [H|H] & Ha); [injection H as ->; auto | right; eauto].
    + rewrite IH. split; intros (acts & H & Ha); exists acts; split; auto.
      destruct H as [H|H]; auto. injection H as -> -> ->.
      destruct k; simpl in E. rewrite key_eqb_refl in E. discriminate.
Qed.

Lemma in_keys_of k L : forall seen,
  In k (keys_of L seen) <->
  (exists a, In (Keyed (fst k) (snd k) a) L) /\ mem_key k seen = false.
Proof.
  induction L as [|c L IH]; intro seen; simpl.
  - split; [tauto | intros [(a & []) _]].
  - destruct c as [s| |t n a0].
    1, 2: rewrite IH; split; intros [(a & H) M]; (split; [|exact M]); exists a;
      [now right | now destruct H as [H|H]].
    destruct (mem_key (t, n) seen) eqn:M.
    + rewrite IH. split; intros [(a & H) Mk]; split; auto; [exists a; auto|].
      destruct H as [H|H]; [|eauto]. injection H as -> -> ->.
      destruct k; simpl in *. congruence.
    + rewrite in_cons_iff', IH. split.
      * intros [H | [(a & H) Mk]].
        -- subst k; simpl. split; [exists a0; auto | auto].
        -- split; [exists a; auto|]. simpl in Mk. apply orb_false_iff in Mk as [_ Mk]. auto.
      * intros [(a & H) Mk]. destruct (key_eqb k (t, n)) eqn:E.
        -- left. apply key_eqb_spec in E. auto.
        -- right. split.
           ++ destruct H as [H|H]; [|eauto]. injection H as -> -> ->.
              destruct k; simpl in E. rewrite key_eqb_refl in E. discriminate.
           ++ simpl. now rewrite E, Mk.
Qed.

Lemma keys_of_nodup L : forall seen, NoDup (keys_of L seen).
Proof.
  induction L as [|c L IH]; intro seen; simpl; [constructor|].
  destruct c as [s| |t n a0]; auto.
  destruct (mem_key (t, n) seen) eqn:M; auto.
  constructor; auto. intro H. apply in_keys_of in H as [_ H].
  simpl in H. rewrite key_eqb_refl in H. discriminate.
Qed.

Lemma existsb_same {A} (f : A -> bool) l l' : same l l' -> existsb f l = existsb f l'.
Proof.
  intro H. apply Bool.eq_true_iff_eq. rewrite !existsb_exists.
  split; intros (x & Hx & Hf); exists x; (split; [apply H, Hx | exact Hf]).
Qed.

Lemma merge_actions_ext a a' : same a a' -> merge_actions a = merge_actions a'.
Proof.
  intro H. unfold merge_actions. rewrite (existsb_same _ _ _ H).
  destruct (existsb is_star a'); auto. now apply canon_ext.
Qed.

Lemma rebuild_ext L L' k : same L L' -> rebuild L k = rebuild L' k.
Proof.
  intro H. unfold rebuild.
  assert (S : same (acts_of k L) (acts_of k L')).
  { intro a. rewrite !in_acts_of. split; intros (acts & Hi & Ha); exists acts; split; auto; now apply H. }
  pose proof (merge_actions_ext _ _ S) as M.
  destruct (acts_of k L) as [|x A], (acts_of k L') as [|x' A']; auto.
  - exfalso. apply (S x'). now left.
  - exfalso. apply (S x). now left.
  - now rewrite M.
Qed.

Lemma in_presort y l :
  In y (presort l) <->
  In (Pass y) (map classify l) \/
  exists k, In k (keys_of (map classify l) []) /\ In y (rebuild (map classify l) k).
Proof.
  unfold presort. rewrite in_app_iff, in_passes, in_flat_map. tauto.
Qed.

Lemma presort_same l l' : same l l' -> same (presort l) (presort l').
Proof.
  intros H y.
  assert (HL : same (map classify l) (map classify l')).
  { intro c. rewrite !in_map_iff. split; intros (s & E & Hs); exists s; split; auto; now apply H. }
  rewrite !in_presort. split; (intros [Hp | (k & Hk & Hy)]; [left; now apply HL | right; exists k; split]).
  - apply in_keys_of. apply in_keys_of in Hk as [(a & Ha) M]. split; auto. exists a. now apply HL.
  - now rewrite <- (rebuild_ext _ _ k HL).
  - apply in_keys_of. apply in_keys_of in Hk as [(a & Ha) M]. split; auto. exists a. now apply HL.
  - now rewrite (rebuild_ext _ _ k HL).
Qed.

Lemma slow_canon l : clean_scopes_slow l = canon (presort l).
Proof. reflexivity. Qed.

Lemma slow_ext l l' : same l l' -> clean_scopes_slow l = clean_scopes_slow l'.
Proof. intro H. rewrite !slow_canon. apply canon_ext. now apply presort_same. Qed.

Lemma slow_in y l : In y (clean_scopes_slow l) <-> In y (presort l).
Proof. rewrite slow_canon. apply canon_in. Qed.

(* any iteration order of the maps (any permutation of the pre-sort list) gives
   the same result *)
Lemma slow_any_map_order l p :
  Permutation p (presort l) -> compact (isort p) = clean_scopes_slow l.
Proof. intro P. unfold clean_scopes_slow. now rewrite (isort_perm _ _ P). Qed.

Lemma merge_any_set_order a q : Permutation q a -> merge_actions q = merge_actions a.
Proof. intro P. now apply merge_actions_ext, perm_same. Qed.

(* duplicates and order are irrelevant as soon as both lists take the general path *)
Lemma clean_scopes_set l l' :
  (2 <= length l)%nat -> (2 <= length l')%nat -> same l l' -> clean_scopes l = clean_scopes l'.
Proof.
  intros H1 H2 S.
  destruct l as [|s [|s2 l]]; simpl in H1; try lia.
  destruct l' as [|t [|t2 l']]; simpl in H2; try lia.
  now apply slow_ext.
Qed.

Lemma pass_self s y : classify s = Pass y -> s = y.
Proof.
  unfold classify. destruct (index_of c_colon s); [|congruence].
  destruct (last_index_of c_colon _); [|congruence].
  destruct (is_empty _); discriminate.
Qed.

Lemma rebuild_singleton L k y : In y (rebuild L k) -> rebuild L k = [y].
Proof. unfold rebuild. destruct (acts_of k L); simpl; [tauto|]. intros [<-|[]]. reflexivity. Qed.

Lemma slow_members l y :
  In y (clean_scopes_slow l) <->
  (In y l /\ classify y = Pass y) \/
  exists k, In k (keys_of (map classify l) []) /\ rebuild (map classify l) k = [y].
Proof.
  rewrite slow_in, in_presort.
  assert (HP : In (Pass y) (map classify l) <-> In y l /\ classify y = Pass y).
  { rewrite in_map_iff. split.
    - intros (s & E & Hs). pose proof (pass_self _ _ E). subst. auto.
    - intros [H E]. exists y. auto. }
  rewrite HP. split; (intros [H|(k & Hk & Hy)]; [left; exact H | right; exists k; split; auto]).
  - now apply rebuild_singleton.
  - rewrite Hy. now left.
Qed.

Lemma clean_scopes_members l y :
  (2 <= length l)%nat ->
  (In y (clean_scopes l) <->
   (In y l /\ classify y = Pass y) \/
   exists k, In k (keys_of (map classify l) []) /\ rebuild (map classify l) k = [y]).
Proof.
  intro Hlen. destruct l as [|s1 [|s2 l]]; simpl in Hlen; try lia. apply slow_members.
Qed.

Lemma prefix_keeps_duplicates :
  clean_scopes_prefix [b "foo"; b "foo"] = [b "foo"; b "foo"].
Proof. vm_compute. reflexivity. Qed.

Lemma prefix_not_idempotent :
  clean_scopes_prefix [b "a:"; b "r:n:"] = [b "a:"] /\ clean_scopes_prefix [b "a:"] = [].
Proof. split; vm_compute; reflexivity. Qed.
