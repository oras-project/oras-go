(* C10 -- AutoSaveIndex = false: what still holds.  The full property is refuted there
   (C10_crash_safe_refuted_autosave_off: Delete unlinks content the saved index.json names).
   Everything else survives: at every cut of every operation after every history the layout
   is valid, every blob file is complete and matches its name, index.json parses and is the
   one before or the one after, and blobs lie between before and after. *)
From Oras Require Import Base.Prelude Model.OciCrash Model.OciCrashSpec Proofs.OciCrash.

Section Off.
Variable H : list N -> N.
Variable shuffle : nat -> list entry -> list entry.

Notation stepsF := (op_steps H shuffle false false false).
Notation runopF := (run_op H shuffle false false false).

(* all that is left of index_ok *)
Definition parses (fs : FS) : Prop := exists l, read_index fs = Some l.

Lemma parses_nt a c : nt_eq a c -> parses a -> parses c.
Proof. intros E (l & Hl). exists l. now rewrite <- (read_index_nt a c E). Qed.

Notation GoodW := (GoodP H parses).
Notation RecW := (RecP H parses).

Definition WInv (s : st) : Prop :=
  GoodW (sfs s) /\ forall p, is_temp p = true -> (sctr s <= temp_ctr p)%nat -> files (sfs s) p = None.

(* every operation is a single stage: no operation but SaveIndex writes index.json *)
Lemma opF_safe s o :
  WInv s ->
  WInv (runopF s o) /\
  forall k, RecW (sfs s) (crash_fs H shuffle false false false s o k) (sfs (runopF s o)).
Proof.
  intros [G T]. pose proof G as (L & B & (l0 & Hl0)).
  enough (R : atomic (stepsF s o) (sfs s) /\ GoodW (apply (stepsF s o) (sfs s))).
  { destruct R as [At G1]. unfold run_op, crash_fs. destruct (op_mem H s o). cbn [sfs].
    split; [split; [exact G1|]|now apply (recp_stage H parses parses_nt)].
    intros p Hp Hq. cbn [sfs sctr] in *. rewrite <- (firstn_all (stepsF s o)), (kind_frame (sctr s));
      [apply T; [exact Hp|lia]|apply op_steps_kind|exact Hp|lia]. }
  assert (Noop : atomic [] (sfs s) /\ GoodW (apply [] (sfs s))) by (split; [apply atomic_nil|exact G]).
  destruct o as [d cont man|d r|r|d| |dd|live]; [rewrite push_steps|unfold op_steps; cbn [op_mem auto_idx]..].
  - destruct (exists_file (sfs s) (FBlob d)); [exact Noop|].
    pose proof (T (FIngest d (sctr s)) eq_refl (le_n _)) as Htmp.
    destruct (H cont =? d) eqn:EH.
    + replace (auto_idx _ _ _ _ _ _) with (@nil mstep) by reflexivity.
      replace (if man then [] else []) with (@nil mstep) by (now destruct man). rewrite app_nil_r.
      split; [apply pub_atomic|]. pose proof (pub_files (sfs s) d (sctr s) cont Htmp) as F.
      split; [unfold layout_ok; now rewrite F|split; [|exists l0; unfold read_index; now rewrite F]].
      intros d' f. rewrite F. cbn [fpath_eqb]. destruct (N.eqb_spec d' d) as [->|_]; [|apply B].
      intros [= <-]. exists cont. split; [reflexivity|now apply N.eqb_eq].
    + split; [apply drop_atomic|]. apply (goodp_nt H parses parses_nt (sfs s)); [|exact G].
      intros p _. symmetry. now apply drop_files.
  - destruct (exists_file (sfs s) (FBlob d)); exact Noop.
  - destruct (tag_get r (stags s)); exact Noop.
  - replace (if _ || _ then [] else []) with (@nil mstep) by (now destruct (_ || _)). cbn [app].
    destruct (exists_file (sfs s) (FBlob d)); [|exact Noop]. split; [apply atomic_one|].
    assert (F : forall p, files (apply [Unlink (FBlob d)] (sfs s)) p = if fpath_eqb p (FBlob d) then None else files (sfs s) p)
      by reflexivity.
    split; [unfold layout_ok; now rewrite F|split; [|exists l0; unfold read_index; now rewrite F]].
    intros d' f. rewrite F. cbn [fpath_eqb]. destruct (d' =? d); [discriminate|apply B].
  - split; [now apply (aw_atomic (FIndexTmp (sctr s)))|].
    assert (F := aw_final (FIndexTmp (sctr s)) FIndex (AIndex (shuffle (sctr s) (save (stags s) (sdigs s)))) (sfs s)).
    specialize (F ltac:(discriminate) (T (FIndexTmp (sctr s)) eq_refl (le_n _))).
    split; [unfold layout_ok; now rewrite F|split; [|eexists; unfold read_index; now rewrite F]].
    intros d' f. rewrite F. apply B.
  - destruct (exists_file (sfs s) (FBlob dd)); exact Noop.
  - exact Noop.
Qed.

Lemma winv_init : WInv init.
Proof.
  split.
  - split; [eexists; split; reflexivity|split; [intros d f Hf; discriminate|now exists []]].
  - intros p Hp _. destruct p; try discriminate; reflexivity.
Qed.

Lemma winv_run h : forall s, WInv s -> WInv (run H shuffle false false false h s).
Proof.
  induction h as [|o h IH]; intros s W; [exact W|]. cbn [run fold_left]. apply IH. now apply opF_safe.
Qed.

Theorem autosave_off_partial h o k :
  let s := run H shuffle false false false h init in
  RecW (sfs s) (crash_fs H shuffle false false false s o k) (sfs (run_op H shuffle false false false s o)).
Proof. intro s. apply opF_safe. apply winv_run. apply winv_init. Qed.

End Off.
