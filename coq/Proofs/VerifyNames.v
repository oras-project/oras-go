(* file.Store by NAMES: resolveWritePath (lexical filepath.Clean + traversal check) is
   part of the model; histories in which no name resolves to the path of another name
   in use satisfy the full property. *)
From Oras Require Import Base.Prelude Model.Verify Proofs.Verify.
From Coq Require Import Lia.

Section Names.
  Variable H : str -> str -> str.

  (* every path that serves content belongs to a name in use *)
  Definition d2p_named (s : fstore) : Prop :=
    forall dg p, assoc_get (f_d2p s) dg = Some p ->
                 exists n, name_in n (f_names s) = true /\ resolve_name n = Some p.

  Lemma name_in_cons n x l : name_in n (x :: l) = str_eqb n x || name_in n l.
  Proof. reflexivity. Qed.

  Lemma no_alias_path_free s name path :
    d2p_named s -> no_alias s name -> name_in name (f_names s) = false ->
    resolve_name name = Some path -> path_free s path.
  Proof.
    intros Dn Na Nin Rn dg p Gp. destruct (Dn _ _ Gp) as (n & In & Rp).
    destruct (str_eqb path p) eqn:E; auto. apply str_eqb_spec in E. subst p.
    assert (n = name) by (apply Na; auto; congruence). subst n. congruence.
  Qed.

  Lemma d2p_named_commit s name path dg files :
    d2p_named s -> resolve_name name = Some path ->
    d2p_named (mkFs files (name :: f_names s) (assoc_set (f_d2p s) dg path) (f_fb s)).
  Proof.
    intros Dn Rn dg' p. cbn [f_d2p f_names]. rewrite assoc_get_set. destruct (str_eqb dg dg').
    - intro X; injection X as <-. exists name. rewrite name_in_cons, str_eqb_refl. auto.
    - intro Gp. destruct (Dn _ _ Gp) as (n & In & Rq). exists n. rewrite name_in_cons, In, orb_true_r. auto.
  Qed.

  Lemma file_push_d2p_named comb fuel s name path d evs e s' :
    d2p_named s -> (name <> [] -> resolve_name name = Some path) ->
    file_push H comb true fuel s name path d evs = (e, s') -> d2p_named s'.
  Proof.
    intros Dn Rn. destruct name as [|c n0].
    - unfold file_push. destruct (limited_push _ _ _ _ _) as [e0 fb']. intro E; injection E as _ <-. exact Dn.
    - intro E. assert (Nn : c :: n0 <> []) by discriminate.
      apply file_push_named_inv in E as [(_ & [->| ->])|(_ & _ & out & v & _ & ->)];
        [exact Dn|exact Dn|apply d2p_named_commit; auto|exact Nn].
  Qed.

  Lemma file_push_name_cases comb fuel s name d evs e s' :
    file_push_name H comb true fuel s name d evs = (e, s') ->
    (name = [] /\ file_push H comb true fuel s [] [] d evs = (e, s')) \/
    (name <> [] /\ e <> None /\ s' = s /\ (e = Some EDupName \/ (e = Some ETraversal /\ resolve_name name = None))) \/
    (name <> [] /\ name_in name (f_names s) = false /\
     exists path, resolve_name name = Some path /\ file_push H comb true fuel s name path d evs = (e, s')).
  Proof.
    unfold file_push_name. destruct name as [|c n0]; [intro E; left; auto|].
    destruct (name_in (c :: n0) (f_names s)) eqn:Nin.
    - intro E; inversion E; subst. right; left. repeat split; auto; discriminate.
    - destruct (resolve_name (c :: n0)) as [path|] eqn:Rn.
      + intro E. right; right. split; [discriminate|]. split; auto. exists path. auto.
      + intro E; inversion E; subst. right; left. repeat split; auto; discriminate.
  Qed.

  Lemma file_reach_names_ok s : file_reach_names H s -> file_reach H s /\ d2p_named s.
  Proof.
    induction 1 as [|comb fuel s name d evs e s' R [IH1 IH2] Na E].
    - split; [constructor|]. intros dg p; discriminate.
    - apply file_push_name_cases in E as [(-> & E)|[(Nn & _ & -> & _)|(Nn & Nin & path & Rn & E)]].
      + split.
        * eapply file_reach_push; [exact IH1| |exact E]. intro X; congruence.
        * eapply file_push_d2p_named; [exact IH2| |exact E]. intro X; congruence.
      + auto.
      + split.
        * eapply file_reach_push; [exact IH1| |exact E]. intros _.
          eapply no_alias_path_free; eauto.
        * eapply file_push_d2p_named; [exact IH2| |exact E]. auto.
  Qed.

  Theorem file_push_name_spec comb fuel s name d evs e s' :
    file_reach_names H s -> no_alias s name ->
    file_push_name H comb true fuel s name d evs = (e, s') ->
    (e = None ->
       exists bs, file_fetch s' name d = Some bs /\ file_exists s' name d = true /\
                  d_dg d = digest_of H (alg_of (d_dg d)) bs /\ valid_digest (d_dg d) = true /\
                  ((name <> [] \/ assoc_get (f_d2p s) (d_dg d) = None) ->
                   matches_desc H (d_dg d) (d_sz d) bs /\ exists rest, stream evs = bs ++ rest)) /\
    (e <> None -> forall name' d', file_exists s' name' d' = file_exists s name' d' /\
                                   file_fetch s' name' d' = file_fetch s name' d').
  Proof.
    intros R Na E. destruct (file_reach_names_ok s R) as [Rs Dn].
    apply file_push_name_cases in E as [(-> & E)|[(Nn & Ne & -> & _)|(Nn & Nin & path & Rn & E)]].
    - refine (proj2 (file_push_spec H comb fuel s [] [] d evs e s' (file_reach_ok H s Rs) _ E)). intro X; congruence.
    - split; [intro X; congruence|]. auto.
    - refine (proj2 (file_push_spec H comb fuel s name path d evs e s' (file_reach_ok H s Rs) _ E)).
      intros _. eapply no_alias_path_free; eauto.
  Qed.

  Theorem file_names_visible_matches s name d bs :
    file_reach_names H s -> file_fetch s name d = Some bs ->
    d_dg d = digest_of H (alg_of (d_dg d)) bs /\ valid_digest (d_dg d) = true.
  Proof.
    intros R. apply file_fetch_ok. apply file_reach_ok. apply file_reach_names_ok. exact R.
  Qed.

  Theorem file_push_traversal comb fuel s name d evs :
    name <> [] -> name_in name (f_names s) = false -> resolve_name name = None ->
    file_push_name H comb true fuel s name d evs = (Some ETraversal, s).
  Proof.
    intros Nn Nin Rn. unfold file_push_name. destruct name as [|c n0]; [congruence|].
    rewrite Nin, Rn. reflexivity.
  Qed.
End Names.

Example resolve_examples :
  (resolve_name (b "./a"), resolve_name (b "x/../a"), resolve_name (b "sub/./f"), resolve_name (b "a//b/"),
   resolve_name (b "../x"), resolve_name (b "a/../../x"), resolve_name (b "/etc/x"), resolve_name (b "a/.."))
  = (Some (b "a"), Some (b "a"), Some (b "sub/f"), Some (b "a/b"), None, None, None, Some (b ".")).
Proof. vm_compute. reflexivity. Qed.
