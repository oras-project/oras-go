(* Lemmas about the copyGraph transition system (Model/CopySpec.v).  [step] is characterised once, as
   the relation [move] (event, node, phase before, phase after, guard) with [step_cases]; the invariant
   [Inv] of every accepted trace, closure / copy_result / tagging (C01) and the accounting of
   Proofs/CopyAcct.v (C04) argue by cases on the move. *)
From Oras Require Import Base.Prelude Model.CopySpec Model.CopyTop Model.CopyOpt Model.CopyBytes.
Local Open Scope nat_scope.

Lemma memb_In n l : memb n l = true <-> In n l.
Proof.
  unfold memb. rewrite existsb_exists. split.
  - intros [x [Hx He]]. apply Nat.eqb_eq in He. now subst.
  - intro H. exists n. split; [assumption | apply Nat.eqb_refl].
Qed.

Lemma has_cons g d x n : has g (x :: d) n = Nat.eqb (g_dkey g x) (g_dkey g n) || has g d n.
Proof. reflexivity. Qed.

Lemma has_mono g d x n : has g d n = true -> has g (x :: d) n = true.
Proof. intro H. rewrite has_cons, H. apply orb_true_r. Qed.

Lemma has_self g d n : has g (n :: d) n = true.
Proof. rewrite has_cons, Nat.eqb_refl. reflexivity. Qed.

Lemma has_In g d n : In n d -> has g d n = true.
Proof.
  intro H. unfold has. apply existsb_exists. exists n. split; [assumption | apply Nat.eqb_refl].
Qed.

Lemma has_spec g d n : has g d n = true <-> exists m, In m d /\ g_dkey g m = g_dkey g n.
Proof.
  unfold has. rewrite existsb_exists. split; intros [m [Hm He]]; exists m; split; auto.
  - now apply Nat.eqb_eq.
  - now apply Nat.eqb_eq.
Qed.

Lemma has_key g d n n' : g_dkey g n = g_dkey g n' -> has g d n = has g d n'.
Proof. intro H. unfold has. now rewrite H. Qed.

Lemma has_app g d1 d2 n : has g (d1 ++ d2) n = has g d1 n || has g d2 n.
Proof. unfold has. apply existsb_app. Qed.

Lemma upd_same {A} (f : nat -> A) n v : upd f n v n = v.
Proof. unfold upd. now rewrite Nat.eqb_refl. Qed.

Lemma upd_other {A} (f : nat -> A) n v m : m <> n -> upd f n v m = f m.
Proof. intro H. unfold upd. apply Nat.eqb_neq in H. now rewrite H. Qed.

Lemma run_app g c tr1 : forall tr2 st st', run g c st (tr1 ++ tr2) = Some st' ->
  exists st1, run g c st tr1 = Some st1 /\ run g c st1 tr2 = Some st'.
Proof.
  induction tr1 as [|e tr1 IH]; simpl; intros tr2 st st' H.
  - eauto.
  - destruct (step g c st e) as [s1|]; [|discriminate]. eauto.
Qed.

Lemma run_preserves g c (P : state -> Prop) :
  (forall st e st', step g c st e = Some st' -> P st -> P st') ->
  forall tr st st', run g c st tr = Some st' -> P st -> P st'.
Proof.
  intro Hs. induction tr as [|e tr IH]; simpl; intros st st' H Hp.
  - now injection H as <-.
  - destruct (step g c st e) as [s1|] eqn:E; [|discriminate]. eauto.
Qed.

Lemma run_cat g c a : forall b st s1 s2,
  run g c st a = Some s1 -> run g c s1 b = Some s2 -> run g c st (a ++ b) = Some s2.
Proof.
  induction a as [|e a IH]; simpl; intros b st s1 s2 H1 H2.
  - injection H1 as <-. exact H2.
  - destruct (step g c st e) as [s|]; [|discriminate]. eapply IH; eauto.
Qed.

Lemma forallb_done st l : forallb (fun s => is_done (ph st s)) l = true ->
  forall x, In x l -> ph st x = Done.
Proof.
  intros H x Hx. rewrite forallb_forall in H. specialize (H x Hx).
  destruct (ph st x); simpl in H; congruence.
Qed.

(* dst.Push answered [r]: the destination held the content before *)
Definition was_present (r : pres) : bool := match r with POk => false | PExists => true end.
Section Moves.
Variables (g : graph) (c : cfg) (st : state).

(* [cb_next g c st k n = Some q] with [p] the phase of [n] *)
Inductive cb_move (n : node) : cbk -> phase -> phase -> Prop :=
| cm_pre :
    (forall x, In x (succ' g n) -> ph st x = Done) -> active g st < c_K c ->
    mount_applies g c st n = false -> cb_move n CPre Waiting (Rdy false)
| cm_mountfrom :
    (forall x, In x (succ' g n) -> ph st x = Done) -> active g st < c_K c ->
    c_mount c = true -> g_ismf g n = false -> memb n (cached st) = false ->
    cb_move n CMountFrom Waiting MtRdy
| cm_pre_nocand : cb_move n CPre MtRdy (Rdy false)
| cm_pre_fallback : root_refpush c n = false -> cb_move n CPre Mounting MtPre
| cm_mounted_tag :
    c_tagmounted c = true -> root_tagger c n = true -> cb_move n CMounted MountedP (TagP0 true)
| cm_mounted_ref :
    c_tagmounted c = true -> root_tagger c n = false -> root_refpush c n = true ->
    cb_move n CMounted MountedP (Rdy true)
| cm_mounted_done :
    c_tagmounted c = false \/ (root_tagger c n = false /\ root_refpush c n = false) ->
    cb_move n CMounted MountedP Done
| cm_post : cb_move n CPost PostP Done
| cm_skip_tag : root_tagger c n = true -> cb_move n CSkip SkipP (TagP0 true)
| cm_skip_done : root_tagger c n = false -> cb_move n CSkip SkipP Done.

(* The accepted events other than the return, one constructor per case of [step]:
   the event, its node, the node's phase before and after, under the guard of that case. *)
Inductive move : event -> node -> phase -> phase -> Prop :=
| m_exb n :
    n < g_n g -> dispatched g c st n = true -> active g st < c_K c ->
    move (ExB n) n Idle (ExQ (has g (dst st) n))
| m_exe_skip n was :
    has g (dst st) n = true -> root_refpush c n = false -> move (ExE n true) n (ExQ was) SkipP
| m_exe_refroot n was :
    has g (dst st) n = true -> root_refpush c n = true -> move (ExE n true) n (ExQ was) (Rdy true)
| m_exe_fetch n :
    g_ismf g n = true -> memb n (cached st) = false -> move (ExE n false) n (ExQ false) NeedFetch
| m_exe_wait n :
    g_ismf g n && negb (memb n (cached st)) = false -> move (ExE n false) n (ExQ false) Waiting
| m_sfb_mf n : memb n (cached st) = false -> move (SFB n) n NeedFetch MF1
| m_sfb n sk : memb n (cached st) = false -> move (SFB n) n (Rdy sk) (F1 sk)
| m_sfb_mt n : memb n (cached st) = false -> move (SFB n) n MtPre MtF1
| m_sfe_mf n : move (SFE n) n MF1 MF2
| m_sfe n sk : move (SFE n) n (F1 sk) (F2 sk)
| m_sfe_mt n : move (SFE n) n MtF1 MtF2
| m_sfc_mf n : move (SFC n) n MF2 Waiting
| m_sfc_early n sk : move (SFC n) n (Pushing sk true) (Pushing sk false)
| m_sfc_mt n : move (SFC n) n MtF2 MtC
| m_sfc_sk n : move (SFC n) n (Closing true) Done
| m_sfc_tag n : root_tagger c n = true -> move (SFC n) n (Closing false) (TagP0 false)
| m_sfc_post n : root_tagger c n = false -> move (SFC n) n (Closing false) PostP
| m_pub_cached n sk :
    memb n (cached st) = true -> move (PuB n (root_refpush c n)) n (Rdy sk) (Pushing sk false)
| m_pub n sk : move (PuB n (root_refpush c n)) n (F2 sk) (Pushing sk true)
| m_pue_open n r sk :
    has g (dst st) n = was_present r ->
    move (PuE n (root_refpush c n) r) n (Pushing sk true) (Closing sk)
| m_pue_sk n r :
    has g (dst st) n = was_present r ->
    move (PuE n (root_refpush c n) r) n (Pushing true false) Done
| m_pue_tag n r :
    has g (dst st) n = was_present r -> root_tagger c n = true ->
    move (PuE n (root_refpush c n) r) n (Pushing false false) (TagP0 false)
| m_pue_post n r :
    has g (dst st) n = was_present r -> root_tagger c n = false ->
    move (PuE n (root_refpush c n) r) n (Pushing false false) PostP
| m_cb k n p q : cb_move n k p q -> move (Cb k n) n p q
| m_cbfail k n p q : cb_move n k p q -> move (CbFail k n) n p Dead
| m_mtb n : move (MtB n) n MtRdy Mounting
| m_mte_skipped n : move (MtE n MSkipped) n Mounting MtRdy
| m_mte_mounted n : has g (dst st) n = false -> move (MtE n MMounted) n Mounting MountedP
| m_mte_tag n :
    has g (dst st) n = false -> root_tagger c n = true -> move (MtE n MCopied) n MtC (TagP0 false)
| m_mte_post n :
    has g (dst st) n = false -> root_tagger c n = false -> move (MtE n MCopied) n MtC PostP
| m_tagb n sk : move (TagB n) n (TagP0 sk) (TagP1 sk)
| m_tage_sk n : move (TagE n) n (TagP1 true) Done
| m_tage n : move (TagE n) n (TagP1 false) PostP.
End Moves.

Definition sets_tag (e : event) : bool :=
  match e with PuE _ ref _ => ref | TagE _ => true | _ => false end.

Definition caches (e : event) (p : phase) : bool :=
  match e, p with SFC _, MF2 => true | _, _ => false end.

Definition moved (st : state) (e : event) (n : node) (p q : phase) : state :=
  mkState (upd (ph st) n q)
          (match stores e with Some m => m :: dst st | None => dst st end)
          (if caches e p then n :: cached st else cached st)
          (if sets_tag e then Some n else tag st)
          (returned st).

Definition ret_ok (g : graph) (c : cfg) (st : state) (ok : bool) : bool :=
  if ok
  then is_done (ph st (c_root c)) && forallb (fun n => is_idle_or_done (ph st n)) (seq 0 (g_n g))
       && forallb (fun r => is_done (ph st r)) (c_xroots c)
  else existsb (fun n => is_dead (ph st n)) (seq 0 (g_n g)).

Definition with_ret (st : state) (ok : bool) : state :=
  mkState (ph st) (dst st) (cached st) (tag st) (Some ok).

Inductive step_spec (g : graph) (c : cfg) (st : state) (e : event) : state -> Prop :=
| sp_move n p q : ph st n = p -> move g c st e n p q -> step_spec g c st e (moved st e n p q)
| sp_ret ok : e = Ret ok -> ret_ok g c st ok = true -> step_spec g c st e (with_ret st ok).

Lemma cb_next_move g c st k n q : cb_next g c st k n = Some q -> cb_move g c st n k (ph st n) q.
Proof.
  unfold cb_next. intro H.
  destruct k, (ph st n); try discriminate H.
  - destruct (forallb _ _ && _ && _) eqn:G; [|discriminate H]. injection H as <-.
    apply andb_true_iff in G as [G M]. apply andb_true_iff in G as [D K].
    apply cm_pre; [exact (forallb_done st _ D) | now apply Nat.ltb_lt | now apply negb_true_iff].
  - injection H as <-. constructor.
  - destruct (root_refpush c n) eqn:R; [discriminate H|]. injection H as <-. now constructor.
  - injection H as <-. constructor.
  - injection H as <-. destruct (root_tagger c n) eqn:T; now constructor.
  - injection H as <-. destruct (c_tagmounted c) eqn:TM; [|apply cm_mounted_done; now left].
    destruct (root_tagger c n) eqn:T; [now constructor|].
    destruct (root_refpush c n) eqn:R; [now constructor|]. apply cm_mounted_done. now right.
  - destruct (forallb _ _ && _ && _) eqn:G; [|discriminate H]. injection H as <-.
    apply andb_true_iff in G as [G M]. apply andb_true_iff in G as [D K].
    unfold mount_applies in M. apply andb_true_iff in M as [M M3]. apply andb_true_iff in M as [M1 M2].
    apply negb_true_iff in M2, M3. apply cm_mountfrom; auto using (forallb_done st _ D). now apply Nat.ltb_lt.
Qed.

(* an accepting leaf of [step]: the new state is [moved ..], by the constructor of that case *)
Local Ltac leaf H MV n Hp := injection H as <-; apply (MV n _ _ Hp eq_refl); now constructor.

Lemma step_cases g c st e st' : step g c st e = Some st' ->
  returned st = None /\ step_spec g c st e st'.
Proof.
  unfold step, set_ph. destruct (returned st) eqn:Hret; [discriminate|]. intro H. split; [reflexivity|].
  assert (MV : forall n p q, ph st n = p -> st' = moved st e n p q -> move g c st e n p q ->
                             step_spec g c st e st').
  { intros n p q Hp -> M. now apply sp_move. }
  unfold moved in MV. rewrite Hret in MV.
  destruct e.
  - destruct (ph st n) eqn:Hp; try discriminate H.
    destruct (_ && _ && _) eqn:G; [|discriminate H].
    apply andb_true_iff in G as [G K]. apply andb_true_iff in G as [B D].
    apply Nat.ltb_lt in B, K. leaf H MV n Hp.
  - destruct (ph st n) eqn:Hp; try discriminate H. destruct b.
    + destruct (has g (dst st) n) eqn:Hh; [|discriminate H].
      destruct (root_refpush c n) eqn:R; leaf H MV n Hp.
    + destruct was; [discriminate H|].
      destruct (g_ismf g n && negb (memb n (cached st))) eqn:G; [|leaf H MV n Hp].
      apply andb_true_iff in G as [G1 G2]. apply negb_true_iff in G2. leaf H MV n Hp.
  - destruct (ph st n) eqn:Hp; try discriminate H;
      (destruct (memb n (cached st)) eqn:Hc; [discriminate H|]); leaf H MV n Hp.
  - destruct (ph st n) eqn:Hp; try discriminate H; leaf H MV n Hp.
  - destruct (ph st n) eqn:Hp; try discriminate H; try leaf H MV n Hp.
    + destruct rd; [|discriminate H]. leaf H MV n Hp.
    + unfold after_push in H. destruct sk; [|destruct (root_tagger c n) eqn:T]; leaf H MV n Hp.
  - destruct (eqb ref (root_refpush c n)) eqn:R; [|discriminate H]. apply eqb_prop in R. subst ref.
    destruct (ph st n) eqn:Hp; try discriminate H; [|leaf H MV n Hp].
    destruct (memb n (cached st)) eqn:Hc; [|discriminate H]. leaf H MV n Hp.
  - destruct (eqb ref (root_refpush c n)) eqn:R; [|discriminate H]. apply eqb_prop in R. subst ref.
    destruct (ph st n) eqn:Hp; try discriminate H. unfold after_push in H.
    assert (Hh : has g (dst st) n = was_present r)
      by (destruct r, (has g (dst st) n); try discriminate H; reflexivity).
    destruct rd; [|destruct sk; [|destruct (root_tagger c n) eqn:T]];
      (destruct r; rewrite Hh in H; leaf H MV n Hp).
  - destruct (cb_next g c st k n) as [q|] eqn:CB; [|discriminate H]. injection H as <-.
    apply (MV n _ _ eq_refl eq_refl). apply m_cb. now apply cb_next_move.
  - destruct (cb_next g c st k n) as [q|] eqn:CB; [|discriminate H]. injection H as <-.
    apply (MV n _ _ eq_refl eq_refl). apply m_cbfail with q. now apply cb_next_move.
  - destruct (ph st n) eqn:Hp; try discriminate H. leaf H MV n Hp.
  - destruct (ph st n) eqn:Hp; try discriminate H; destruct r; try discriminate H; try leaf H MV n Hp.
    + destruct (has g (dst st) n) eqn:Hh; [discriminate H|]. leaf H MV n Hp.
    + destruct (has g (dst st) n) eqn:Hh; [discriminate H|]. unfold after_push in H.
      destruct (root_tagger c n) eqn:T; leaf H MV n Hp.
  - destruct (ph st n) eqn:Hp; try discriminate H. leaf H MV n Hp.
  - destruct (ph st n) eqn:Hp; try discriminate H. destruct sk; leaf H MV n Hp.
  - assert (G : ret_ok g c st ok = true /\ st' = with_ret st ok).
    { unfold ret_ok, with_ret. destruct ok;
        match type of H with (if ?b then _ else _) = _ => destruct b end;
        try discriminate H; injection H as <-; auto. }
    destruct G as [G ->]. now apply (sp_ret g c st _ ok).
Qed.

Lemma move_node g c st e n p q : move g c st e n p q -> ev_node e = Some n.
Proof. destruct 1; reflexivity. Qed.

(* case analysis on a move; every case has constructor phases before and after *)
Ltac move_cases M :=
  destruct M; try match goal with CB : cb_move _ _ _ _ _ _ _ |- _ => destruct CB end.
(* the same when the event of the move is given: only the cases of that event remain *)
Ltac move_inv M :=
  match type of M with
  | move _ _ _ ?E _ _ _ =>
      let e := fresh "e" in let He := fresh "He" in
      remember E as e eqn:He; move_cases M; try discriminate He;
      first [injection He; clear He; intros; subst | clear He]
  end.

Lemma move_stores g c st e n p q m : move g c st e n p q -> stores e = Some m ->
  m = n /\ has g (dst st) n = false.
Proof.
  intros M S. move_cases M; try discriminate S; try (destruct r; try discriminate S);
    injection S as <-; auto.
Qed.

Lemma step_ph g c st e st' x : step g c st e = Some st' ->
  ph st' x = ph st x \/ exists p q, ph st x = p /\ ph st' x = q /\ move g c st e x p q.
Proof.
  intro H. apply step_cases in H as [_ S]. destruct S as [n p q Hp M | ok _ _]; [|now left].
  cbn [moved ph]. unfold upd. destruct (Nat.eqb_spec x n) as [->|_]; [right; eauto | now left].
Qed.

Lemma step_move g c st e st' n : step g c st e = Some st' -> ev_node e = Some n ->
  exists p q, ph st n = p /\ move g c st e n p q /\ st' = moved st e n p q.
Proof.
  intros H He. apply step_cases in H as [_ S]. destruct S as [m p q Hp M | ok -> _]; [|discriminate He].
  rewrite (move_node g c st e m p q M) in He. injection He as <-. eauto.
Qed.

Definition closed_ph (f : phase -> bool) : Prop :=
  forall g c st e n p q, move g c st e n p q -> f p = true -> f q = true.

Lemma closed_ph_step f g c st e st' x : closed_ph f ->
  step g c st e = Some st' -> f (ph st x) = true -> f (ph st' x) = true.
Proof.
  intros Hf H Hx. destruct (step_ph g c st e st' x H) as [->|(p & q & <- & <- & M)]; eauto.
Qed.

Lemma closed_ph_run f g c tr st st' x : closed_ph f -> run g c st tr = Some st' ->
  f (ph st x) = true -> f (ph st' x) = true.
Proof.
  intro Hf. apply (run_preserves g c (fun s => f (ph s x) = true)). intros s e s'. now apply closed_ph_step.
Qed.

(* every [closed_ph] fact is the same finite check over the moves *)
Ltac closed_ph_tac :=
  let M := fresh "M" in
  intros ? ? ? ? ? ? ? M; move_cases M; simpl; auto; discriminate.

Lemma done_closed : closed_ph is_done.
Proof. closed_ph_tac. Qed.
Lemma dead_closed : closed_ph is_dead.
Proof. closed_ph_tac. Qed.

Lemma step_keeps_returned g c st e st' : step g c st e = Some st' ->
  (forall ok, e <> Ret ok) -> returned st' = returned st.
Proof.
  intros H Hne. apply step_cases in H as [_ S]. destruct S as [n p q _ _ | ok -> _]; [reflexivity|].
  now elim (Hne ok).
Qed.

Section Inv.
Variable g : graph.
Variable c : cfg.
Variable d0 : list node.

Definition closed_nodes (d : list node) : Prop :=
  forall m x, In m d -> In x (succ' g m) -> has g d x = true.

(* content with one digest has one set of (non-foreign) successors, up to digest *)
Definition mt_consistent : Prop :=
  forall m m' x, g_dkey g m = g_dkey g m' -> In x (succ' g m) ->
    exists x', In x' (succ' g m') /\ g_dkey g x' = g_dkey g x.

Inductive reach : node -> node -> Prop :=
| reach_refl a : reach a a
| reach_step a x b : In x (succ' g a) -> reach x b -> reach a b.

(* dispatch-reachable: every proper ancestor on the path is absent from the initial destination *)
Inductive dp : node -> Prop :=
| dp_root : dp (c_root c)
| dp_xroot x : In x (c_xroots c) -> dp x
| dp_step p x : dp p -> has g d0 p = false -> In x (succ' g p) -> dp x.

(* phases of a node whose content is in the destination *)
Definition present_ph (p : phase) : bool :=
  match p with
  | SkipP | Rdy true | F1 true | F2 true | Pushing true _ | Closing _ | TagP0 _ | TagP1 _ | PostP | Done
  | MountedP => true
  | _ => false
  end.

(* phases after PreCopy on the not-found path *)
Definition settled_ph (p : phase) : bool :=
  match p with
  | Rdy false | F1 false | F2 false | Pushing false _ | Closing false | TagP0 false | TagP1 false | PostP
  | MtRdy | Mounting | MtPre | MtF1 | MtF2 | MtC | MountedP => true
  | _ => false
  end.

(* the tag clause holds when a mounted root gets tagged, or the root cannot be mounted *)
Definition tag_ok : bool := c_tagmounted c || negb (c_mount c && negb (g_ismf g (c_root c))).

(* the fallback inside Mount *)
Definition mtfb_ph (p : phase) : bool :=
  match p with MtPre | MtF1 | MtF2 | MtC => true | _ => false end.

Definition mt_ph (p : phase) : bool :=
  match p with MtRdy | Mounting | MtPre | MtF1 | MtF2 | MtC | MountedP => true | _ => false end.

(* phases of a node that was probed and found absent *)
Definition absent_ph (p : phase) : bool :=
  match p with
  | ExQ false | NeedFetch | MF1 | MF2 | Waiting => true
  | p => settled_ph p
  end.

(* phases with the skip flag: only the root of a ReferencePusher copy *)
Definition skflag_ph (p : phase) : bool :=
  match p with
  | Rdy true | F1 true | F2 true | Pushing true _ | Closing true => true
  | _ => false
  end.

Definition tagging_ph (p : phase) : bool :=
  match p with TagP0 _ | TagP1 _ => true | _ => false end.

Record Inv (st : state) : Prop := {
  i_closed : closed_nodes d0 -> closed_nodes (dst st);
  i_present : forall n, present_ph (ph st n) = true -> has g (dst st) n = true;
  i_settled : forall n, settled_ph (ph st n) = true -> forall x, In x (succ' g n) -> ph st x = Done;
  i_bound : forall n, ph st n <> Idle -> n < g_n g;
  i_dp : forall n, ph st n <> Idle -> dp n;
  i_absent : forall n, absent_ph (ph st n) = true -> has g d0 n = false;
  i_mono : forall n, has g d0 n = true -> has g (dst st) n = true;
  i_orig : forall m, In m (dst st) -> In m d0 \/ (dp m /\ has g d0 m = false);
  i_skflag : forall n, skflag_ph (ph st n) = true -> root_refpush c n = true;
  i_tagging : forall n, tagging_ph (ph st n) = true -> root_tagger c n = true;
  i_noskip : root_refpush c (c_root c) = true -> ph st (c_root c) <> SkipP;
  i_mt : forall n, mt_ph (ph st n) = true -> c_mount c = true /\ g_ismf g n = false;
  i_tagroot : tag st = None \/ tag st = Some (c_root c);
  i_mtfb : forall n, mtfb_ph (ph st n) = true -> root_refpush c n = false;
  i_tagged : c_mode c <> MGraph -> tag_ok = true ->
             (ph st (c_root c) = PostP \/ ph st (c_root c) = Done \/
              (root_refpush c (c_root c) = true /\ exists sk, ph st (c_root c) = Closing sk)) ->
             tag st <> None
}.

Lemma is_root_eq n : is_root c n = true -> n = c_root c.
Proof. unfold is_root. apply Nat.eqb_eq. Qed.

Lemma root_refpush_root n : root_refpush c n = true -> n = c_root c /\ c_mode c = MRefPush.
Proof.
  unfold root_refpush. intro H. apply andb_true_iff in H as [H1 H2].
  split; [now apply is_root_eq|]. destruct (c_mode c); simpl in H2; congruence.
Qed.

Lemma root_tagger_root n : root_tagger c n = true -> n = c_root c /\ c_mode c = MTagger.
Proof.
  unfold root_tagger. intro H. apply andb_true_iff in H as [H1 H2].
  split; [now apply is_root_eq|]. destruct (c_mode c); simpl in H2; congruence.
Qed.

Lemma refpush_not_tagger n : root_refpush c n = true -> root_tagger c n = false.
Proof.
  intro H. apply root_refpush_root in H as [_ H]. unfold root_tagger. rewrite H.
  simpl. apply andb_false_r.
Qed.

Lemma init_inv : Inv (init c d0).
Proof.
  constructor; simpl; intros; try discriminate; try congruence; auto.
  - destruct H1 as [H1|[H1|[_ [sk H1]]]]; discriminate.
Qed.

Lemma dispatched_dp st n : Inv st -> dispatched g c st n = true -> dp n.
Proof.
  intros I H. unfold dispatched in H. apply orb_true_iff in H as [H|H]; [apply orb_true_iff in H as [H|H]|].
  - apply is_root_eq in H. subst. constructor.
  - apply dp_xroot. now apply memb_In.
  - apply existsb_exists in H as [p [_ Hp]]. apply andb_true_iff in Hp as [Hw Hm].
    apply memb_In in Hm.
    assert (Hph : ph st p = Waiting) by (destruct (ph st p); simpl in Hw; congruence).
    apply dp_step with p; auto.
    + apply (i_dp st I). congruence.
    + apply (i_absent st I). now rewrite Hph.
Qed.

Lemma mode_cases : c_mode c <> MGraph -> root_tagger c (c_root c) = false ->
  root_refpush c (c_root c) = true.
Proof.
  unfold root_tagger, root_refpush, is_root. rewrite Nat.eqb_refl.
  destruct (c_mode c); simpl; congruence.
Qed.

Lemma done_absorbing st e st' x : step g c st e = Some st' -> ph st x = Done -> ph st' x = Done.
Proof.
  intros H Hx. pose proof (closed_ph_step is_done g c st e st' x done_closed H) as D.
  rewrite Hx in D. specialize (D eq_refl). destruct (ph st' x); try discriminate D; reflexivity.
Qed.

Lemma settled_absent p : settled_ph p = true -> absent_ph p = true.
Proof. destruct p; simpl; auto; try discriminate. Qed.

Lemma dst_step st e st' : Inv st -> step g c st e = Some st' ->
  dst st' = dst st \/
  exists n, dst st' = n :: dst st /\ settled_ph (ph st n) = true /\ has g (dst st) n = false.
Proof.
  intros I H. apply step_cases in H as [_ S]. destruct S as [n p q Hp M | ok _ _]; [|now left].
  cbn [moved dst]. destruct (stores e) as [m|] eqn:S; [right; exists n|now left].
  destruct (move_stores g c st e n p q m M S) as [-> Hh]. repeat split; [|exact Hh].
  pose proof (i_present st I n) as IP. rewrite Hp in *.
  (* with the skip flag the node would be present *)
  move_cases M; try discriminate S; try reflexivity; try destruct sk; try reflexivity;
    rewrite IP in Hh by reflexivity; discriminate Hh.
Qed.

Lemma dst_mono st e st' x : Inv st -> step g c st e = Some st' ->
  has g (dst st) x = true -> has g (dst st') x = true.
Proof.
  intros I H Hx. destruct (dst_step st e st' I H) as [->|[n [-> _]]]; auto using has_mono.
Qed.

Lemma phase_inv_step (f : phase -> bool) (P : state -> node -> Prop) st e st' :
  step g c st e = Some st' ->
  (forall x, P st x -> P st' x) ->
  (forall n p q, ph st n = p -> move g c st e n p q -> f q = true ->
                 f p = true \/ P st n \/ P (moved st e n p q) n) ->
  (forall x, f (ph st x) = true -> P st x) ->
  forall x, f (ph st' x) = true -> P st' x.
Proof.
  intros H Hs He Hi x. apply step_cases in H as [_ S]. destruct S as [n p q Hp M | ok _ _]; cbn [moved with_ret ph]; [|auto].
  unfold upd. destruct (Nat.eqb_spec x n) as [->|_]; [|auto].
  intro Hq. destruct (He n p q Hp M Hq) as [Hf|[Hn|Hn]]; auto. apply Hs, Hi. now rewrite Hp.
Qed.

Lemma pres_present st e st' : Inv st -> step g c st e = Some st' ->
  forall m, present_ph (ph st' m) = true -> has g (dst st') m = true.
Proof.
  intros I H.
  apply (phase_inv_step present_ph (fun s x => has g (dst s) x = true) st e st' H);
    [intro x; exact (dst_mono st e st' x I H) | | exact (i_present st I)].
  intros n p q Hp M Hq. cbn [moved dst].
  (* the node enters by dst.Exists = true, by a push (stored, or found present), by Mount *)
  move_cases M; try discriminate Hq; auto; right; right; cbn [stores];
    try (destruct r; [|assumption]); apply has_self.
Qed.

Lemma pres_settled st e st' : Inv st -> step g c st e = Some st' ->
  forall m, settled_ph (ph st' m) = true -> forall x, In x (succ' g m) -> ph st' x = Done.
Proof.
  intros I H.
  apply (phase_inv_step settled_ph (fun s m => forall x, In x (succ' g m) -> ph s x = Done) st e st' H);
    [intros m Hm x Hx; exact (done_absorbing st e st' x H (Hm x Hx)) | | exact (i_settled st I)].
  (* the node enters by PreCopy / MountFrom, whose guard is this *)
  intros n p q Hp M Hq. move_cases M; try discriminate Hq; auto.
Qed.

Lemma phase_eq_idle (p : phase) : p = Idle \/ p <> Idle.
Proof. destruct p; auto; right; discriminate. Qed.

Lemma move_bound st e n p q : Inv st -> ph st n = p -> move g c st e n p q -> n < g_n g.
Proof.
  intros I Hp M. move_cases M; try assumption; apply (i_bound st I); rewrite Hp; discriminate.
Qed.

(* a node leaves [Idle] only when dispatched *)
Lemma pres_visited (P : node -> Prop) st e st' : step g c st e = Some st' ->
  (forall n, n < g_n g -> dispatched g c st n = true -> P n) ->
  (forall n, ph st n <> Idle -> P n) -> forall m, ph st' m <> Idle -> P m.
Proof.
  intros H Hd Hi m Hm. destruct (phase_eq_idle (ph st m)) as [Hz|Hz]; [|now apply Hi].
  destruct (step_ph g c st e st' m H) as [E|(p & q & Hp & _ & M)]; [congruence|].
  rewrite Hz in Hp. move_cases M; try discriminate Hp. now apply Hd.
Qed.

Lemma phase_prop_step (f : phase -> bool) (P : node -> Prop) st e st' :
  step g c st e = Some st' ->
  (forall n p q, ph st n = p -> move g c st e n p q -> f q = true -> f p = true \/ P n) ->
  (forall x, f (ph st x) = true -> P x) ->
  forall x, f (ph st' x) = true -> P x.
Proof.
  intros H He. apply (phase_inv_step f (fun _ => P) st e st' H); auto.
  intros n p q Hp M Hq. destruct (He n p q Hp M Hq); auto.
Qed.

Lemma pres_absent st e st' : Inv st -> step g c st e = Some st' ->
  forall m, absent_ph (ph st' m) = true -> has g d0 m = false.
Proof.
  intros I H. apply (phase_prop_step absent_ph _ st e st' H); [|exact (i_absent st I)].
  intros n p q Hp M Hq. move_cases M; try discriminate Hq; try (now left); right.
  (* ExB: the probe sees the destination, which contains the initial content *)
  destruct (has g d0 n) eqn:E0; [|reflexivity]. apply (i_mono st I) in E0.
  rewrite E0 in Hq. discriminate Hq.
Qed.

(* CopyGraph never calls dst.Tag *)
Lemma step_no_tag st e st' : c_mode c = MGraph -> Inv st -> step g c st e = Some st' ->
  (forall n, e <> TagB n) /\ (forall n, e <> TagE n).
Proof.
  intros Hm I H.
  assert (NT : forall n p, ph st n = p -> tagging_ph p = true -> False).
  { intros n p <- Ht. apply (i_tagging st I), root_tagger_root in Ht as [_ Ht]. congruence. }
  split; intros n ->; destruct (step_move g c st _ st' n H eq_refl) as (p & q & Hp & M & _);
    apply (NT n p Hp); now move_inv M.
Qed.

Lemma pres_noskip st e st' : Inv st -> step g c st e = Some st' ->
  root_refpush c (c_root c) = true -> ph st' (c_root c) <> SkipP.
Proof.
  intros I H Hr Hs. destruct (step_ph g c st e st' (c_root c) H) as [E|(p & q & _ & Hq & M)].
  - rewrite E in Hs. exact (i_noskip st I Hr Hs).
  - rewrite Hs in Hq. move_cases M; try discriminate Hq. congruence.
Qed.

(* the reference is written by the ReferencePusher root's push and by Tag *)
Lemma pres_tagroot st e st' : Inv st -> step g c st e = Some st' ->
  tag st' = None \/ tag st' = Some (c_root c).
Proof.
  intros I H. apply step_cases in H as [_ S]. destruct S as [n p q Hp M | ok _ _]; [|exact (i_tagroot st I)].
  cbn [moved tag]. destruct (sets_tag e) eqn:S; [right; f_equal|exact (i_tagroot st I)].
  move_cases M; try discriminate S; cbn [sets_tag] in S; try (now apply root_refpush_root);
    apply root_tagger_root, (i_tagging st I); now rewrite Hp.
Qed.

Lemma pres_tagged st e st' : Inv st -> step g c st e = Some st' ->
  c_mode c <> MGraph -> tag_ok = true ->
  (ph st' (c_root c) = PostP \/ ph st' (c_root c) = Done \/
   (root_refpush c (c_root c) = true /\ exists sk, ph st' (c_root c) = Closing sk)) ->
  tag st' <> None.
Proof.
  intros I H Hm Hok Hph.
  pose proof (i_tagged st I Hm Hok) as IT. pose proof (mode_cases Hm) as RR.
  pose proof (i_skflag st I (c_root c)) as SK. pose proof (i_noskip st I) as NS.
  pose proof (i_mtfb st I (c_root c)) as FB. pose proof (i_mt st I (c_root c)) as MT.
  apply step_cases in H as [_ S]. destruct S as [n p q Hp M | ok _ _]; [|exact (IT Hph)].
  cbn [moved ph tag] in *. destruct (sets_tag e) eqn:S; [discriminate|]. apply IT. clear IT.
  unfold upd in Hph. destruct (Nat.eqb_spec (c_root c) n) as [E|_]; [|exact Hph].
  unfold tag_ok in Hok. rewrite E in *. clear E.
  rewrite Hp in *.
  move_cases M; destruct Hph as [Hq|[Hq|[Hr [sk' Hq]]]]; try discriminate Hq; cbn [sets_tag] in S.
  all: try discriminate S; try (now left).
  all: try match goal with T : root_tagger c _ = false |- _ => apply RR in T end.
  - (* Closing true -> Done *) right; right. split; [now apply SK | eauto].
  - (* Closing false -> PostP *) right; right. split; [assumption | eauto].
  - (* the ReferencePusher root's push sets the reference *) congruence.
  - specialize (SK eq_refl). congruence.
  - congruence.
  - (* OnMounted -> Done: the mounted root is tagged (tag_ok), and it is a Tagger's or a ReferencePusher's *)
    destruct MT as [A B]; [reflexivity|]. rewrite A, B, orb_false_r in Hok. intuition congruence.
  - (* OnCopySkipped -> Done *) exfalso. now apply NS.
  - (* Mount uploaded -> PostP *) specialize (FB eq_refl). congruence.
Qed.

Lemma pres_closed st e st' : Inv st -> step g c st e = Some st' ->
  closed_nodes d0 -> closed_nodes (dst st').
Proof.
  intros I H Hc0. destruct (dst_step st e st' I H) as [->|[n [-> [Hp _]]]]; [now apply (i_closed st I)|].
  intros m x [<-|Hm] Hx.
  - apply has_mono. apply (i_present st I).
    rewrite (i_settled st I n) with (x := x); auto.
  - apply has_mono. eapply (i_closed st I); eauto.
Qed.

Lemma pres_orig st e st' : Inv st -> step g c st e = Some st' ->
  forall m, In m (dst st') -> In m d0 \/ (dp m /\ has g d0 m = false).
Proof.
  intros I H m Hm.
  destruct (dst_step st e st' I H) as [E|[n [E [Hp _]]]]; rewrite E in Hm.
  - now apply (i_orig st I).
  - destruct Hm as [<-|Hm]; [|now apply (i_orig st I)].
    right. split.
    + apply (i_dp st I). intro Hz. rewrite Hz in Hp. discriminate.
    + apply (i_absent st I). now apply settled_absent.
Qed.

Lemma step_preserves_inv st e st' : Inv st -> step g c st e = Some st' -> Inv st'.
Proof.
  intros I H. constructor.
  - now apply (pres_closed st e).
  - now apply (pres_present st e).
  - now apply (pres_settled st e).
  - apply (pres_visited _ st e st' H); [auto | exact (i_bound st I)].
  - apply (pres_visited dp st e st' H); [intros n _; exact (dispatched_dp st n I) | exact (i_dp st I)].
  - now apply (pres_absent st e).
  - intros m Hm. apply (dst_mono st e st' m I H). now apply (i_mono st I).
  - now apply (pres_orig st e).
  - (* skip flag, tagging, mount path: a node enters the phase set only under a guard that says so *)
    apply (phase_prop_step skflag_ph _ st e st' H); [|exact (i_skflag st I)].
    intros n p q Hp M Hq. move_cases M; try discriminate Hq; auto.
  - apply (phase_prop_step tagging_ph _ st e st' H); [|exact (i_tagging st I)].
    intros n p q Hp M Hq. move_cases M; try discriminate Hq; auto.
  - now apply (pres_noskip st e).
  - apply (phase_prop_step mt_ph _ st e st' H); [|exact (i_mt st I)].
    intros n p q Hp M Hq. move_cases M; try discriminate Hq; auto.
  - now apply (pres_tagroot st e).
  - apply (phase_prop_step mtfb_ph _ st e st' H); [|exact (i_mtfb st I)].
    intros n p q Hp M Hq. move_cases M; try discriminate Hq; auto.
  - now apply (pres_tagged st e).
Qed.

Lemma run_inv tr st st' : Inv st -> run g c st tr = Some st' -> Inv st'.
Proof.
  intros I H. revert I. apply (run_preserves g c Inv) with (tr := tr); [|exact H].
  intros s e s' E I. exact (step_preserves_inv s e s' I E).
Qed.

Lemma accepts_inv tr st : accepts g c d0 tr = Some st -> Inv st.
Proof. exact (run_inv tr _ _ init_inv). Qed.

Lemma accepts_mid t1 e t2 st : accepts g c d0 (t1 ++ e :: t2) = Some st ->
  exists s1 s2, accepts g c d0 t1 = Some s1 /\ Inv s1 /\ step g c s1 e = Some s2 /\ run g c s2 t2 = Some st.
Proof.
  intro H. unfold accepts in H. apply run_app in H as [s1 [H1 H2]]. simpl in H2.
  destruct (step g c s1 e) as [s2|] eqn:E; [|discriminate]. exists s1, s2.
  exact (conj H1 (conj (accepts_inv t1 s1 H1) (conj E H2))).
Qed.

Lemma step_after_ret st e b : returned st = Some b -> step g c st e = None.
Proof. intro H. unfold step. now rewrite H. Qed.

Lemma run_after_ret tr st st' b : returned st = Some b -> run g c st tr = Some st' -> tr = [] /\ st' = st.
Proof.
  intros Hb H. destruct tr as [|e tr]; simpl in H; [now injection H|].
  now rewrite (step_after_ret st e b Hb) in H.
Qed.

Lemma step_Ret st ok st' : step g c st (Ret ok) = Some st' ->
  ret_ok g c st ok = true /\ st' = with_ret st ok.
Proof.
  intro H. apply step_cases in H as [_ S]. destruct S as [n p q _ M | ok' E G]; [inversion M|].
  injection E as <-. auto.
Qed.

Lemma run_ret tr : forall st st' ok, run g c st tr = Some st' ->
  returned st = None -> returned st' = Some ok ->
  ret_ok g c st' ok = true /\ exists tr0, tr = tr0 ++ [Ret ok].
Proof.
  induction tr as [|e tr IH]; simpl; intros st st' ok H Hn Hr.
  - injection H as <-. congruence.
  - destruct (step g c st e) as [st1|] eqn:E; [|discriminate].
    destruct (returned st1) as [b|] eqn:R1.
    + destruct (run_after_ret tr st1 st' b R1 H) as [-> ->]. apply step_cases in E as [_ S].
      destruct S as [n p q _ _ | ok' -> G]; cbn [moved with_ret returned] in *; [congruence|].
      replace ok' with ok in * by congruence. split; [exact G | now exists []].
    + destruct (IH st1 st' ok H R1 Hr) as [G [tr0 ->]]. split; [exact G | now exists (e :: tr0)].
Qed.

Lemma run_ret_true tr st st' : run g c st tr = Some st' ->
  returned st = None -> returned st' = Some true ->
  (forall r, In r (c_root c :: c_xroots c) -> ph st' r = Done) /\
  forall n, n < g_n g -> is_idle_or_done (ph st' n) = true.
Proof.
  intros H Hn Hr. destruct (run_ret tr st st' true H Hn Hr) as [G _]. unfold ret_ok in G.
  apply andb_true_iff in G as [G X]. apply andb_true_iff in G as [D A]. split.
  - intros r [<-|Hin]; [|exact (forallb_done st' _ X r Hin)].
    destruct (ph st' (c_root c)); simpl in D; congruence.
  - intros n Ln. rewrite forallb_forall in A. apply A, in_seq. lia.
Qed.

Lemma ret_true_phase tr st n : accepts g c d0 tr = Some st -> returned st = Some true ->
  ph st n = Idle \/ ph st n = Done.
Proof.
  intros Ha Hr. destruct (phase_eq_idle (ph st n)) as [Hi|Hi]; [now left|right].
  destruct (run_ret_true tr _ _ Ha eq_refl Hr) as [_ A].
  specialize (A n (i_bound st (accepts_inv tr st Ha) n Hi)).
  destruct (ph st n); try discriminate A; [now elim Hi|reflexivity].
Qed.

Lemma key_closed d m x : closed_nodes d -> mt_consistent ->
  has g d m = true -> In x (succ' g m) -> has g d x = true.
Proof.
  intros Hc Hmt Hm Hx. apply has_spec in Hm as [m' [Hin Hk]].
  destruct (Hmt m m' x (eq_sym Hk) Hx) as [x' [Hx' Hk']].
  rewrite <- (has_key g d x' x Hk'). eapply Hc; eauto.
Qed.

Lemma reach_closed d a b : closed_nodes d -> mt_consistent -> reach a b ->
  has g d a = true -> has g d b = true.
Proof.
  intros Hc Hmt Hr. induction Hr as [a|a x b Hx Hr IH]; auto.
  intro Ha. apply IH. eapply key_closed; eauto.
Qed.

Lemma present_closure tr st m n : closed_nodes d0 -> mt_consistent ->
  accepts g c d0 tr = Some st -> present_ph (ph st m) = true -> reach m n -> has g (dst st) n = true.
Proof.
  intros Hc Hmt Ha Hp Hn. pose proof (accepts_inv tr st Ha) as I.
  exact (reach_closed (dst st) m n (i_closed st I Hc) Hmt Hn (i_present st I m Hp)).
Qed.

Lemma closure_roots tr st : closed_nodes d0 -> mt_consistent ->
  accepts g c d0 tr = Some st -> returned st = Some true ->
  forall r n, In r (c_root c :: c_xroots c) -> reach r n -> has g (dst st) n = true.
Proof.
  intros Hc Hmt Ha Hr r n Hin. apply (present_closure tr st r n Hc Hmt Ha).
  destruct (run_ret_true tr _ _ Ha eq_refl Hr) as [D _]. now rewrite (D r Hin).
Qed.

Lemma closure_lemma tr st : closed_nodes d0 -> mt_consistent ->
  accepts g c d0 tr = Some st -> returned st = Some true ->
  forall n, reach (c_root c) n -> has g (dst st) n = true.
Proof. intros Hc Hmt Ha Hr n. now apply (closure_roots tr st Hc Hmt Ha Hr (c_root c)); left. Qed.

(* paths all of whose nodes are absent from the initial destination *)
Inductive dr : node -> node -> Prop :=
| dr_refl a : has g d0 a = false -> dr a a
| dr_step a x b : has g d0 a = false -> In x (succ' g a) -> dr x b -> dr a b.

Lemma dr_snoc a p x : dr a p -> In x (succ' g p) -> has g d0 x = false -> dr a x.
Proof.
  intros H Hx Hax. induction H as [a Ha|a y b Ha Hy H IH].
  - eapply dr_step; eauto. now constructor.
  - eapply dr_step; eauto.
Qed.

Lemma dp_dr m : c_xroots c = [] -> dp m -> has g d0 m = false -> dr (c_root c) m.
Proof.
  intros Hx0 H. induction H as [|y Hy|p x Hp IH Hap Hx]; intro Ha.
  - now constructor.
  - rewrite Hx0 in Hy. contradiction.
  - eapply dr_snoc; eauto.
Qed.

Lemma dr_reach a b : dr a b -> reach a b.
Proof. induction 1; econstructor; eauto. Qed.

Lemma reachset_dr f : forall a m, In m (reachset g d0 f a) -> dr a m.
Proof.
  induction f as [|f IH]; simpl; intros a m H; [contradiction|].
  destruct (has g d0 a) eqn:Ha; [contradiction|].
  destruct H as [<-|H]; [now constructor|].
  apply in_flat_map in H as [x [Hx Hm]]. eapply dr_step; eauto.
Qed.

Section Rank.
Variable rank : node -> nat.
Hypothesis rank_dec : forall n x, In x (succ' g n) -> rank x < rank n.

Lemma dr_reachset a m : dr a m -> forall f, rank a < f -> In m (reachset g d0 f a).
Proof.
  induction 1 as [a Ha|a x b Ha Hx H IH]; intros f Hf; (destruct f as [|f]; [lia|]); simpl; rewrite Ha.
  - now left.
  - right. apply in_flat_map. exists x. split; auto. apply IH.
    specialize (rank_dec a x Hx). lia.
Qed.

Lemma copy_result_lemma tr st fuel : c_xroots c = [] -> closed_nodes d0 -> mt_consistent ->
  rank (c_root c) < fuel ->
  accepts g c d0 tr = Some st -> returned st = Some true ->
  forall n, has g (dst st) n = has g (copy_result g d0 fuel (c_root c)) n.
Proof.
  intros Hx0 Hc Hmt Hf Ha Hr n.
  pose proof (closure_lemma tr st Hc Hmt Ha Hr) as CL.
  pose proof (accepts_inv tr st Ha) as I. unfold copy_result. rewrite has_app.
  apply Bool.eq_iff_eq_true. rewrite orb_true_iff. split.
  - intro H. apply has_spec in H as [m [Hm Hk]].
    destruct (i_orig st I m Hm) as [H0|[Hdp Hab]].
    + right. apply has_spec. eauto.
    + left. apply has_spec. exists m. split; auto.
      apply dr_reachset; auto. now apply dp_dr.
  - intros [H|H].
    + apply has_spec in H as [m [Hm Hk]]. rewrite <- (has_key g (dst st) m n Hk).
      apply CL. apply dr_reach. eapply reachset_dr; eauto.
    + now apply (i_mono st I).
Qed.
End Rank.

Lemma tagged_lemma tr st :
  accepts g c d0 tr = Some st -> returned st = Some true -> c_mode c <> MGraph ->
  tag_ok = true ->
  tag st = Some (c_root c).
Proof.
  intros Ha Hr Hm Hnm. pose proof (accepts_inv tr st Ha) as I.
  destruct (run_ret_true tr _ _ Ha eq_refl Hr) as [Hd _].
  destruct (i_tagroot st I) as [Hn|Hs]; auto.
  exfalso. apply (i_tagged st I Hm Hnm); auto using in_eq.
Qed.

Lemma mt_consistent_inj : (forall a b, g_dkey g a = g_dkey g b -> a = b) -> mt_consistent.
Proof. intros Hi m m' x Hk Hx. apply Hi in Hk. subst. eauto. Qed.

End Inv.

Lemma copy_tagged_lemma (g : graph) (dflt opt : Z) (refpusher mount : bool) (root : node)
      (cached0 d0 : list node) (tags0 : str -> option node) (srcRef dstRef : str) tr st :
  accepts g (copy_cfg dflt opt refpusher mount root cached0) d0 tr = Some st ->
  returned st = Some true ->
  tags_after tags0 (eff_ref srcRef dstRef) st (eff_ref srcRef dstRef) = Some root.
Proof.
  intros Ha Hr. unfold tags_after. rewrite str_eqb_refl.
  rewrite (tagged_lemma g _ d0 tr st Ha Hr); [reflexivity| |reflexivity].
  unfold copy_cfg. simpl. destruct refpusher; discriminate.
Qed.

(* before the fix (c_tagmounted = false): a blob root that gets mounted is never tagged
   (OnMounted was not wrapped by prepareCopy) *)
Definition g_blob : graph := mkGraph 1 (fun _ => []) (fun _ => false) (fun _ => false) (fun n => n).
Definition c_mountroot : cfg := mkCfg 3 MTagger 0 true false [] [].
Definition tr_mountroot : list event :=
  [ExB 0; ExE 0 false; Cb CMountFrom 0; MtB 0; MtE 0 MMounted; Cb CMounted 0; Ret true].

Lemma eff_ref_blank srcRef : eff_ref srcRef [] = srcRef.
Proof. reflexivity. Qed.

Lemma eff_ref_given srcRef x dstRef : eff_ref srcRef (x :: dstRef) = x :: dstRef.
Proof. reflexivity. Qed.

(* F12: node 1 is a manifest with the layer 0; node 2 is a blob with the same bytes
   (same digest key) as the manifest.  The destination holds only node 2. *)
Definition g_twin : graph :=
  mkGraph 3 (fun n => match n with 1 => [0] | _ => [] end) (fun _ => false)
          (fun n => Nat.eqb n 1) (fun n => match n with 0 => 0 | _ => 1 end).
Definition c_twin : cfg := mkCfg 3 MGraph 1 false true [] [].
Definition tr_twin : list event := [ExB 1; ExE 1 true; Cb CSkip 1; Ret true].

Lemma closure_refuted_without_mt_consistency :
  exists g c d0 tr st,
    closed_nodes g d0 /\ accepts g c d0 tr = Some st /\ returned st = Some true /\
    exists n, reach g (c_root c) n /\ has g (dst st) n = false.
Proof.
  exists g_twin, c_twin, [2], tr_twin.
  eexists. split; [|split; [vm_compute; reflexivity|split; [reflexivity|]]].
  - intros m x [<-|[]] Hx. simpl in Hx. contradiction.
  - exists 0. split; [|reflexivity].
    apply reach_step with 0; [simpl; auto | constructor].
Qed.

(* the hypotheses of the closure theorem are satisfiable: an index-like manifest 3 over the
   manifest 2 = [0; 1; 1] (a blob listed twice) and the shared blob 0, blob 1 already present *)
Definition g_ex : graph :=
  mkGraph 4 (fun n => match n with 2 => [0; 1; 1] | 3 => [2; 0] | _ => [] end) (fun _ => false)
          (fun n => Nat.leb 2 n) (fun n => n).
Definition c_ex : cfg := mkCfg 2 MTagger 3 false true [] [].
Definition tr_ex : list event :=
  [ExB 3; ExE 3 false; SFB 3; SFE 3; SFC 3; ExB 2; ExB 0; ExE 2 false; ExE 0 false; SFB 2;
   Cb CPre 0; SFE 2; SFB 0; SFC 2; SFE 0; PuB 0 false; ExB 1; ExE 1 true; PuE 0 false POk;
   Cb CSkip 1; SFC 0; Cb CPost 0; Cb CPre 2; PuB 2 false; PuE 2 false POk; Cb CPost 2;
   Cb CPre 3; PuB 3 false; PuE 3 false POk; TagB 3; TagE 3; Cb CPost 3; Ret true].

Lemma closed_always_lemma (g : graph) (c : cfg) (d0 : list node) tr st :
  closed_nodes g d0 -> accepts g c d0 tr = Some st -> closed_nodes g (dst st).
Proof.
  intros Hc Ha. exact (i_closed g c d0 st (accepts_inv g c d0 tr st Ha) Hc).
Qed.

(* F12 needs no pre-population: with an EMPTY (trivially link-closed) digest-keyed
   destination, a source graph in which a manifest's bytes also occur as a blob (node 3 = the
   bytes of manifest 2 under a non-manifest media type, used as a layer of manifest 4) is
   copied like this: blob 3 is pushed, then Exists(manifest 2) answers true, 2 is skipped
   and its layer 1 never arrives -- Copy succeeds and tags the root 5. *)
Definition g_twin2 : graph :=
  mkGraph 6 (fun n => match n with 2 => [0; 1] | 4 => [0; 3] | 5 => [4; 2] | _ => [] end)
          (fun _ => false) (fun n => match n with 2 | 4 | 5 => true | _ => false end)
          (fun n => if Nat.eqb n 3 then 2 else n).
Definition c_twin2 : cfg := mkCfg 3 MTagger 5 false true [] [].
Definition tr_twin2 : list event :=
 [ExB 5; ExE 5 false; SFB 5; SFE 5; SFC 5;
  ExB 4; ExE 4 false; SFB 4; SFE 4; SFC 4;
  ExB 0; ExE 0 false; Cb CPre 0; SFB 0; SFE 0; PuB 0 false; PuE 0 false POk; SFC 0; Cb CPost 0;
  ExB 3; ExE 3 false; Cb CPre 3; SFB 3; SFE 3; PuB 3 false; PuE 3 false POk; SFC 3; Cb CPost 3;
  ExB 2; ExE 2 true; Cb CSkip 2;
  Cb CPre 4; PuB 4 false; PuE 4 false POk; Cb CPost 4;
  Cb CPre 5; PuB 5 false; PuE 5 false POk; TagB 5; TagE 5; Cb CPost 5; Ret true].

Lemma closure_refuted_in_call :
  exists g c tr st,
    closed_nodes g [] /\ accepts g c [] tr = Some st /\ returned st = Some true /\
    tag st = Some (c_root c) /\
    exists n, reach g (c_root c) n /\ has g (dst st) n = false.
Proof.
  exists g_twin2, c_twin2, tr_twin2. eexists.
  split; [intros m x []|]. split; [vm_compute; reflexivity|].
  split; [reflexivity|]. split; [reflexivity|].
  exists 1. split; [|reflexivity].
  apply reach_step with 2; [simpl; auto|]. apply reach_step with 1; [simpl; auto|]. constructor.
Qed.

Lemma twin2_not_mt_consistent : ~ mt_consistent g_twin2.
Proof.
  intro H. destruct (H 2 3 1 eq_refl) as [x [Hx _]]; [simpl; auto|]. simpl in Hx. contradiction.
Qed.
