(* C15 -- lemmas about Model/PagingUrl.v (the string level of the listing requests) *)
From Oras Require Import Base.Prelude Generated.GC15 Model.Paging Model.PagingUrl Proofs.Paging.

Lemma split_on_nonnil c s : split_on c s <> [].
Proof.
  induction s as [|d s IH]; simpl; [discriminate|].
  destruct (d =? c); [discriminate|]. destruct (split_on c s); [discriminate|discriminate].
Qed.

Lemma split_on_app c x rest :
  contains c x = false -> split_on c (x ++ c :: rest) = x :: split_on c rest.
Proof.
  induction x as [|d x IH]; simpl; intro H.
  - now rewrite N.eqb_refl.
  - apply orb_false_iff in H as [H1 H2]. rewrite H1. rewrite (IH H2). reflexivity.
Qed.

Lemma split_on_plain c x : contains c x = false -> split_on c x = [x].
Proof.
  induction x as [|d x IH]; simpl; intro H; [reflexivity|].
  apply orb_false_iff in H as [H1 H2]. rewrite H1. now rewrite (IH H2).
Qed.

Lemma split_on_join c l :
  l <> [] -> Forall (fun x => contains c x = false) l -> split_on c (join [c] l) = l.
Proof.
  induction l as [|x l IH]; intros Hne HF; [contradiction|].
  inversion HF as [|? ? Hx HF']; subst.
  destruct l as [|y l].
  - simpl. now apply split_on_plain.
  - change (join [c] (x :: y :: l)) with (x ++ [c] ++ join [c] (y :: l)).
    simpl app. rewrite split_on_app by exact Hx. f_equal. apply IH; [discriminate|exact HF'].
Qed.

Lemma split_on_no_sep c s : Forall (fun x => contains c x = false) (split_on c s).
Proof.
  induction s as [|d s IH]; simpl; [repeat constructor|].
  destruct (d =? c) eqn:E; [constructor; [reflexivity|exact IH]|].
  destruct (split_on c s) as [|w ws]; [repeat constructor; simpl; now rewrite E|].
  inversion IH; subst. constructor; [simpl; rewrite E; assumption|assumption].
Qed.

Lemma drop_last_snoc {A} (l : list A) x : drop_last (l ++ [x]) = l.
Proof.
  induction l as [|y l IH]; [reflexivity|].
  change ((y :: l) ++ [x]) with (y :: (l ++ [x])).
  assert (N : l ++ [x] <> []) by (destruct l; discriminate).
  destruct (l ++ [x]) as [|z r] eqn:E; [contradiction|].
  change (drop_last (y :: z :: r)) with (y :: drop_last (z :: r)). now rewrite IH.
Qed.

Lemma join_cons_ne sep (x : str) l : l <> [] -> join sep (x :: l) = x ++ sep ++ join sep l.
Proof. destruct l; [contradiction|reflexivity]. Qed.

Lemma join_app_ne sep (l1 l2 : list str) :
  l1 <> [] -> l2 <> [] -> join sep (l1 ++ l2) = join sep l1 ++ sep ++ join sep l2.
Proof.
  intros H1 H2. induction l1 as [|x l1 IH]; [contradiction|].
  destruct l1 as [|y l1].
  - simpl app. now rewrite join_cons_ne.
  - change ((x :: y :: l1) ++ l2) with (x :: (y :: l1) ++ l2).
    rewrite !join_cons_ne by (try discriminate; destruct l2; discriminate).
    rewrite IH by discriminate. now rewrite <- !app_assoc.
Qed.

Lemma cut_app c x r : contains c x = false -> cut c (x ++ c :: r) = (x, Some r).
Proof.
  induction x as [|d x IH]; simpl; intro H.
  - now rewrite N.eqb_refl.
  - apply orb_false_iff in H as [H1 H2]. rewrite H1. now rewrite (IH H2).
Qed.

Lemma cut_plain c x : contains c x = false -> cut c x = (x, None).
Proof.
  induction x as [|d x IH]; simpl; intro H; [reflexivity|].
  apply orb_false_iff in H as [H1 H2]. rewrite H1. now rewrite (IH H2).
Qed.

Lemma contains_forallb c (P : N -> bool) s :
  P c = false -> forallb P s = true -> contains c s = false.
Proof.
  intros Hc. induction s as [|d s IH]; simpl; intro H; [reflexivity|].
  apply andb_true_iff in H as [H1 H2]. rewrite (IH H2), orb_false_r.
  destruct (N.eqb_spec d c); [subst; congruence|reflexivity].
Qed.

Lemma forallb_join (P : N -> bool) sep l :
  forallb P sep = true -> Forall (fun x => forallb P x = true) l -> forallb P (join sep l) = true.
Proof.
  intros Hs H. induction H as [|x l Hx _ IH]; [reflexivity|].
  destruct l as [|y l]; [exact Hx|].
  change (join sep (x :: y :: l)) with (x ++ sep ++ join sep (y :: l)).
  rewrite !forallb_app. now rewrite Hx, Hs, IH.
Qed.

Lemma forallb_impl (P Q0 : N -> bool) s :
  (forall c, P c = true -> Q0 c = true) -> forallb P s = true -> forallb Q0 s = true.
Proof.
  intros I. induction s as [|c s IH]; simpl; [reflexivity|]. intro H.
  apply andb_true_iff in H as [A B0]. now rewrite (I c A), (IH B0).
Qed.

Definition byte_ok (c : N) : Prop := c < 256.

Lemma small_cases (P : N -> bool) (n : nat) :
  forallb P (map N.of_nat (seq 0 n)) = true -> forall v, v < N.of_nat n -> P v = true.
Proof.
  intros H v Hv. rewrite forallb_forall in H. apply H.
  apply in_map_iff. exists (N.to_nat v). split; [apply N2Nat.id|]. apply in_seq. lia.
Qed.

Lemma hexval_hexdig v : v < 16 -> hexval (hexdig v) = Some v.
Proof.
  intro H.
  pose proof (small_cases (fun v => match hexval (hexdig v) with Some w => w =? v | None => false end) 16
                eq_refl v H) as X.
  cbv beta in X. destruct (hexval (hexdig v)); [|discriminate]. apply N.eqb_eq in X. now subst.
Qed.

(* the characters QueryEscape writes *)
Definition esc_char (c : N) : bool := unreserved c || (c =? c_plus) || (c =? c_pct).

Lemma hexdig_unreserved v : v < 16 -> unreserved (hexdig v) = true.
Proof. intro H. apply (small_cases (fun v => unreserved (hexdig v)) 16); [vm_compute; reflexivity|exact H]. Qed.

Lemma byte_nibbles c : byte_ok c -> c / 16 < 16 /\ c mod 16 < 16.
Proof. intro Hc. split; [apply N.div_lt_upper_bound; [discriminate|exact Hc]|apply N.mod_lt; discriminate]. Qed.

Lemma query_escape_chars s : Forall byte_ok s -> forallb esc_char (query_escape s) = true.
Proof.
  induction s as [|c s IH]; intro HF; simpl; [reflexivity|].
  inversion HF as [|? ? Hc HF']; subst. specialize (IH HF').
  destruct (unreserved c) eqn:U; simpl.
  - unfold esc_char at 1. now rewrite U, IH.
  - destruct (c =? 32); simpl; rewrite IH; unfold esc_char; simpl; [reflexivity|].
    destruct (byte_nibbles c Hc). rewrite !hexdig_unreserved by assumption. reflexivity.
Qed.

Lemma unreserved_plain c : unreserved c = true -> (c =? c_pct) = false /\ (c =? c_plus) = false.
Proof.
  intro H. split.
  - destruct (N.eqb_spec c c_pct); [subst; vm_compute in H; discriminate|reflexivity].
  - destruct (N.eqb_spec c c_plus); [subst; vm_compute in H; discriminate|reflexivity].
Qed.

Theorem escape_roundtrip s : Forall byte_ok s -> query_unescape (query_escape s) = Some s.
Proof.
  induction s as [|c s IH]; intro HF; [reflexivity|].
  inversion HF as [|? ? Hc HF']; subst. specialize (IH HF').
  cbn [query_escape].
  destruct (unreserved c) eqn:U.
  - destruct (unreserved_plain c U) as [E1 E2]. cbn [query_unescape]. rewrite E1, IH, E2. reflexivity.
  - destruct (N.eqb_spec c 32).
    + subst. cbn [query_unescape]. change (c_plus =? c_pct) with false. cbv iota. rewrite IH.
      now rewrite N.eqb_refl.
    + cbn [query_unescape]. rewrite N.eqb_refl.
      destruct (byte_nibbles c Hc). rewrite !hexval_hexdig by assumption. rewrite IH.
      f_equal. f_equal. symmetry. apply N.div_mod. discriminate.
Qed.

Lemma esc_char_no c : (c =? c_amp) = true \/ (c =? c_eq) = true -> esc_char c = false.
Proof. intros [H|H]; apply N.eqb_eq in H; subst; reflexivity. Qed.

Lemma query_escape_no_amp s : Forall byte_ok s -> contains c_amp (query_escape s) = false.
Proof. intro H. apply (contains_forallb c_amp esc_char); [reflexivity|now apply query_escape_chars]. Qed.

Lemma query_escape_no_eq s : Forall byte_ok s -> contains c_eq (query_escape s) = false.
Proof. intro H. apply (contains_forallb c_eq esc_char); [reflexivity|now apply query_escape_chars]. Qed.

Definition param_ok (p : str) : Prop := is_empty p = false /\ contains c_amp p = false.

Lemma raw_params_ok raw : Forall param_ok (raw_params raw).
Proof.
  unfold raw_params. pose proof (split_on_no_sep c_amp raw) as H.
  induction (split_on c_amp raw) as [|p l IH]; simpl; [constructor|].
  inversion H; subst. destruct (is_empty p) eqn:E; simpl; [now apply IH|].
  constructor; [split; assumption|now apply IH].
Qed.

Lemma raw_params_join l : Forall param_ok l -> raw_params (join [c_amp] l) = l.
Proof.
  intro H. unfold raw_params. destruct l as [|p l]; [reflexivity|].
  rewrite split_on_join; [|discriminate|].
  - induction H as [|x l' [E _] _ IH]; simpl; [reflexivity|]. rewrite E. simpl. now f_equal.
  - clear -H. induction H as [|x l' [_ A] _ IH]; constructor; assumption.
Qed.

Definition parse_param (p : str) : str * str :=
  let '(k, v) := cut c_eq p in
  (unescape_or_raw k, match v with Some v' => unescape_or_raw v' | None => [] end).

Lemma parse_query_lenient_eq raw : parse_query_lenient raw = map parse_param (raw_params raw).
Proof. reflexivity. Qed.

Lemma parse_param_key p : fst (parse_param p) = param_key p.
Proof. unfold parse_param, param_key. now destruct (cut c_eq p). Qed.

Definition kv_ok (kv : str * str) : Prop := Forall byte_ok (fst kv) /\ Forall byte_ok (snd kv).

Definition new_param (kv : str * str) : str := query_escape (fst kv) ++ c_eq :: query_escape (snd kv).

Lemma new_param_ok kv : kv_ok kv -> param_ok (new_param kv).
Proof.
  intros [Hk Hv]. unfold new_param. split.
  - destruct (query_escape (fst kv)); reflexivity.
  - rewrite contains_app. rewrite (query_escape_no_amp _ Hk). simpl.
    now rewrite (query_escape_no_amp _ Hv).
Qed.

Lemma parse_new_param kv : kv_ok kv -> parse_param (new_param kv) = kv.
Proof.
  intros [Hk Hv]. unfold parse_param, new_param.
  rewrite cut_app by (now apply query_escape_no_eq).
  unfold unescape_or_raw. rewrite !escape_roundtrip by assumption. now destruct kv.
Qed.

Definition not_set (kvs : list (str * str)) (k : str) : bool :=
  negb (existsb (fun kv => str_eqb k (fst kv)) kvs).

(* every parameter that is not set is forwarded byte for byte, in order; the set ones follow *)
Theorem set_query_params_verbatim raw kvs :
  Forall kv_ok kvs ->
  raw_params (set_query_params raw kvs) =
  filter (fun p => not_set kvs (param_key p)) (raw_params raw) ++ map new_param kvs.
Proof.
  intro H. unfold set_query_params. apply raw_params_join.
  apply Forall_app. split.
  - pose proof (raw_params_ok raw) as R. induction R as [|p l Hp _ IH]; simpl; [constructor|].
    destruct (not_set kvs (param_key p)); [constructor; assumption|assumption].
  - apply Forall_map, (Forall_impl _ new_param_ok H).
Qed.

(* what a registry reads afterwards: the other parameters as before, then the set ones *)
Theorem set_query_params_spec raw kvs :
  Forall kv_ok kvs ->
  parse_query_lenient (set_query_params raw kvs) =
  filter (fun kv' => not_set kvs (fst kv')) (parse_query_lenient raw) ++ kvs.
Proof.
  intro H. rewrite !parse_query_lenient_eq. rewrite (set_query_params_verbatim raw kvs H).
  rewrite map_app. f_equal.
  - induction (raw_params raw) as [|p l IH]; simpl; [reflexivity|].
    rewrite parse_param_key. destruct (not_set kvs (param_key p)); simpl; now rewrite IH.
  - rewrite map_map. rewrite <- (map_id kvs) at 2. apply map_ext_in. intros kv Hkv.
    rewrite Forall_forall in H. now apply parse_new_param, H.
Qed.

(* first-match lookup, as the registry model reads a query *)
Fixpoint lookup (k : str) (l : list (str * str)) : option str :=
  match l with
  | [] => None
  | (k', v) :: l' => if str_eqb k' k then Some v else lookup k l'
  end.

Lemma lookup_app k l1 l2 :
  lookup k (l1 ++ l2) = match lookup k l1 with Some v => Some v | None => lookup k l2 end.
Proof. induction l1 as [|[k' v] l1 IH]; simpl; [reflexivity|]. destruct (str_eqb k' k); [reflexivity|exact IH]. Qed.

Lemma lookup_filter k (f : str -> bool) l :
  lookup k (filter (fun kv => f (fst kv)) l) = if f k then lookup k l else None.
Proof.
  induction l as [|[k' v] l IH]; simpl; [now destruct (f k)|].
  destruct (str_eqb k' k) eqn:E.
  - apply str_eqb_spec in E. subst k'. destruct (f k); simpl; [now rewrite str_eqb_refl|exact IH].
  - destruct (f k'); simpl; [rewrite E|]; exact IH.
Qed.

Lemma str_eqb_sym x y : str_eqb x y = str_eqb y x.
Proof.
  destruct (str_eqb y x) eqn:E; [apply str_eqb_spec in E; subst; apply str_eqb_refl|].
  apply str_eqb_neq. intros ->. now rewrite str_eqb_refl in E.
Qed.

Lemma not_set_lookup kvs k : not_set kvs k = match lookup k kvs with None => true | Some _ => false end.
Proof.
  induction kvs as [|[k' v] l IH]; [reflexivity|]. unfold not_set in *. cbn [existsb lookup fst].
  rewrite (str_eqb_sym k k'). destruct (str_eqb k' k); [reflexivity|exact IH].
Qed.

(* setQueryParams = url.Values.Set as the registry model has it (Paging.qset): a key that is
   set reads its new value, every other key reads what it read before *)
Theorem set_query_params_lookup raw kvs k :
  Forall kv_ok kvs ->
  lookup k (parse_query_lenient (set_query_params raw kvs)) =
  match lookup k kvs with Some v => Some v | None => lookup k (parse_query_lenient raw) end.
Proof.
  intro H. rewrite (set_query_params_spec raw kvs H), lookup_app, (lookup_filter k (not_set kvs)), not_set_lookup.
  destruct (lookup k kvs); [reflexivity|]. now destruct (lookup k (parse_query_lenient raw)).
Qed.

Definition printable (c : N) : bool := (33 <=? c) && (c <=? 126).

Definition seg_ok (s : str) : Prop :=
  (exists ch t, s = ch :: t /\ (ch =? c_sl) = false) /\ contains c_sl s = false /\ s <> dot /\ s <> dotdot.

(* P = "/" ++ segments joined by "/": no empty, "." or ".." segment *)
Definition clean_path (P : str) (segs : list str) : Prop :=
  segs <> [] /\ Forall seg_ok segs /\ P = c_sl :: join [c_sl] segs.

Lemma seg_ok_not_dots s : seg_ok s -> str_eqb s dot = false /\ str_eqb s dotdot = false.
Proof. intros (_ & _ & A & B). split; apply str_eqb_neq; assumption. Qed.

Lemma fold_seg_plain segs acc :
  Forall seg_ok segs -> fold_left seg_step segs acc = acc ++ segs.
Proof.
  revert acc. induction segs as [|s l IH]; intros acc H; simpl; [now rewrite app_nil_r|].
  inversion H as [|? ? Hs Hl]; subst. destruct (seg_ok_not_dots s Hs) as [A B].
  unfold seg_step at 2. rewrite A, B. rewrite IH by exact Hl. now rewrite <- app_assoc.
Qed.

Lemma last_cons_ne {A} (x : A) l d : l <> [] -> last (x :: l) d = last l d.
Proof. destruct l; [contradiction|reflexivity]. Qed.

Lemma last_in {A} (l : list A) d : l <> [] -> In (last l d) l.
Proof.
  induction l as [|x l IH]; [contradiction|]. intros _. destruct l as [|y l]; [now left|].
  right. apply IH. discriminate.
Qed.

Lemma seg_ok_no_sl segs : Forall seg_ok segs -> Forall (fun x => contains c_sl x = false) segs.
Proof. induction 1 as [|s l (_ & A & _) _ IH]; constructor; assumption. Qed.

Lemma clean_path_split P segs : clean_path P segs -> split_on c_sl P = [] :: segs.
Proof.
  intros (Hne & HF & ->). cbn [split_on]. change (c_sl =? c_sl) with true. cbv iota. f_equal.
  apply split_on_join; [exact Hne|now apply seg_ok_no_sl].
Qed.

Lemma clean_path_head P segs :
  clean_path P segs -> exists ch t, P = c_sl :: ch :: t /\ (ch =? c_sl) = false.
Proof.
  intros (Hne & HF & ->). destruct segs as [|s l]; [contradiction|].
  inversion HF as [|? ? ((ch & t & -> & Hc) & _) _]; subst.
  destruct l; simpl; eauto.
Qed.

Lemma resolve_path_elems elems segs :
  elems <> [] -> Forall (fun x => contains c_sl x = false) elems ->
  fold_left seg_step elems [[]] = [] :: segs -> segs <> [] ->
  str_eqb (last elems []) dot = false -> str_eqb (last elems []) dotdot = false ->
  resolve_path (c_sl :: join [c_sl] elems) [] = c_sl :: join [c_sl] segs.
Proof.
  intros Hne Hsl Hf Hs A B. unfold resolve_path. cbv zeta iota.
  replace (split_on c_sl (c_sl :: join [c_sl] elems)) with (([] : str) :: elems).
  2:{ cbn [split_on]. change (c_sl =? c_sl) with true. cbv iota. f_equal. symmetry. now apply split_on_join. }
  cbn [fold_left]. change (seg_step [] []) with (@cons str [] []). unfold str in *. rewrite Hf.
  rewrite last_cons_ne by exact Hne. rewrite A, B. cbn [orb].
  rewrite join_cons_ne by exact Hs. cbn [app]. now rewrite N.eqb_refl.
Qed.

Lemma resolve_path_clean P segs : clean_path P segs -> resolve_path P [] = P.
Proof.
  intros (Hne & HF & ->).
  assert (L : seg_ok (last segs [])) by (rewrite Forall_forall in HF; now apply HF, last_in).
  destruct (seg_ok_not_dots _ L) as [A B].
  apply resolve_path_elems; auto using seg_ok_no_sl. exact (fold_seg_plain segs [[]] HF).
Qed.

Lemma resolve_path_abs B P segs : clean_path P segs -> resolve_path B P = P.
Proof.
  intro C. rewrite <- (resolve_path_clean P segs C) at 2.
  destruct (clean_path_head P segs C) as (ch & t & -> & _). reflexivity.
Qed.

Lemma no_bad_pct P : forallb path_char P = true -> bad_pct P = false.
Proof.
  intro H. apply (contains_forallb c_pct path_char P eq_refl) in H.
  induction P as [|c P IH]; [reflexivity|]. cbn [contains existsb bad_pct] in *.
  apply orb_false_iff in H as [-> H]. now apply IH.
Qed.

Definition link_ok (ref : str) : Prop := forallb printable ref = true.

Lemma query_char_printable c : query_char c = true -> printable c = true.
Proof. unfold query_char, printable. intro H. apply andb_true_iff in H as [H _]. exact H. Qed.

Lemma unreserved_query_char c : unreserved c = true -> query_char c = true.
Proof.
  intro H. unfold unreserved, is_alpha, is_digit in H.
  repeat (apply orb_true_iff in H as [H|H]); try (apply N.eqb_eq in H; now subst c);
    apply andb_true_iff in H as [A B0]; apply N.leb_le in A, B0; unfold query_char;
    apply andb_true_iff; (split; [apply andb_true_iff; split; apply N.leb_le; lia|]);
    apply negb_true_iff, N.eqb_neq; unfold c_hash; lia.
Qed.

Lemma path_char_query_char c : path_char c = true -> query_char c = true.
Proof.
  intro H. unfold path_char in H.
  destruct (unreserved c) eqn:U; [now apply unreserved_query_char|].
  repeat (apply orb_true_iff in H as [H|H]); try discriminate; apply N.eqb_eq in H; now subst c.
Qed.

Lemma host_char_path_char c : host_char c = true -> path_char c = true.
Proof.
  unfold host_char, path_char, unreserved, c_dot.
  destruct (is_alpha c), (is_digit c), (c =? 45), (c =? 46); try discriminate; now rewrite ?orb_true_r.
Qed.

Lemma path_chars_query s : forallb path_char s = true -> forallb query_char s = true.
Proof. apply forallb_impl, path_char_query_char. Qed.

Lemma host_chars_path s : forallb host_char s = true -> forallb path_char s = true.
Proof. apply forallb_impl, host_char_path_char. Qed.

Lemma no_qm_path P : forallb path_char P = true -> contains c_qm P = false.
Proof. apply contains_forallb. reflexivity. Qed.

(* url.Parse judges exactly the references made of query characters *)
Lemma parse_ref_judged ref :
  forallb query_char ref = true ->
  parse_ref ref = match get_scheme ref with
                  | SErr => PErr
                  | SScheme s r => parse_rest (Some (map to_lower s)) r
                  | SNone => parse_rest None ref
                  end.
Proof.
  intro H. unfold parse_ref. fold printable.
  now rewrite (forallb_impl _ _ _ query_char_printable H), (contains_forallb c_hash query_char ref eq_refl H).
Qed.

Lemma parse_rest_path_query R Q :
  forallb path_char R = true -> forallb query_char Q = true ->
  has_prefix [c_sl; c_sl] R = false ->
  has_prefix [c_sl] R = true \/ contains c_col (fst (cut c_sl R)) = false ->
  parse_rest None (R ++ c_qm :: Q) = POk (mkP None None R (Some Q)).
Proof.
  intros HR HQ H2 H1. unfold parse_rest. rewrite cut_app by (now apply no_qm_path).
  assert (H3 : has_prefix [c_sl; c_sl; c_sl] R = false).
  { destruct R as [|a [|b0 R']]; [reflexivity| |]; cbn [has_prefix] in *; destruct (c_sl =? a); try reflexivity.
    destruct (c_sl =? b0); [discriminate|reflexivity]. }
  replace (negb (has_prefix [c_sl] R) && contains c_col (fst (cut c_sl R))) with false
    by (destruct H1 as [->| ->]; [reflexivity|now rewrite andb_false_r]).
  rewrite H3, H2, (no_bad_pct R HR), HR, HQ. reflexivity.
Qed.

(* form 1: </path?query> *)
Theorem resolve_abs_path base P segs Q :
  clean_path P segs -> forallb path_char P = true -> forallb query_char Q = true ->
  resolve_ref base (P ++ c_qm :: Q) = ROk (mkS (s_scheme base) (s_host base) P Q).
Proof.
  intros C HP HQ. destruct (clean_path_head P segs C) as (ch & t & E & Hc).
  unfold resolve_ref. rewrite parse_ref_judged by (rewrite forallb_app, (path_chars_query P HP); exact HQ).
  assert (G : get_scheme (P ++ c_qm :: Q) = SNone) by (rewrite E; reflexivity).
  rewrite G, parse_rest_path_query; auto.
  - cbn [p_scheme p_host p_path p_query]. rewrite (resolve_path_abs _ P segs C). now destruct P.
  - rewrite E. cbn [has_prefix]. now rewrite (N.eqb_sym c_sl ch), Hc, andb_false_r.
  - left. now rewrite E.
Qed.

(* form 2: <?query> -- the path of the request *)
Theorem resolve_query_only base segs Q :
  clean_path (s_path base) segs -> forallb query_char Q = true ->
  resolve_ref base (c_qm :: Q) = ROk (mkS (s_scheme base) (s_host base) (s_path base) Q).
Proof.
  intros C HQ. unfold resolve_ref. rewrite parse_ref_judged by exact HQ.
  change (get_scheme (c_qm :: Q)) with SNone. cbv iota.
  rewrite (parse_rest_path_query [] Q eq_refl HQ eq_refl (or_intror eq_refl) : parse_rest None (c_qm :: Q) = _).
  cbn [p_scheme p_host p_path p_query]. now rewrite (resolve_path_clean _ segs C).
Qed.

Lemma host_ok_cons h : host_ok h = true -> exists hc ht, h = hc :: ht.
Proof. destruct h; [discriminate|eauto]. Qed.

Lemma parse_authority_rest sch h P segs Q :
  forallb host_char h = true -> host_ok h = true ->
  clean_path P segs -> forallb path_char P = true -> forallb query_char Q = true ->
  parse_rest sch (c_sl :: c_sl :: h ++ P ++ c_qm :: Q) = POk (mkP sch (Some h) P (Some Q)).
Proof.
  intros Hh Hok C HP HQ. destruct (clean_path_head P segs C) as (ch & t & E & Hc).
  destruct (host_ok_cons h Hok) as (hc & ht & Eh).
  unfold parse_rest.
  replace (c_sl :: c_sl :: h ++ P ++ c_qm :: Q) with ((c_sl :: c_sl :: h ++ P) ++ c_qm :: Q)
    by (simpl; now rewrite <- app_assoc).
  rewrite cut_app.
  2:{ simpl. rewrite contains_app, (no_qm_path h (host_chars_path h Hh)). now apply no_qm_path. }
  assert (Hhc : (c_sl =? hc) = false).
  { subst h. simpl in Hh. apply andb_true_iff in Hh as [A _].
    destruct (N.eqb_spec c_sl hc); [subst hc; vm_compute in A; discriminate|reflexivity]. }
  assert (T3 : has_prefix [c_sl; c_sl; c_sl] (c_sl :: c_sl :: h ++ P) = false).
  { rewrite Eh. cbn [has_prefix app]. change (c_sl =? c_sl) with true. now rewrite Hhc. }
  change (has_prefix [c_sl] (c_sl :: c_sl :: h ++ P)) with true.
  change (has_prefix [c_sl; c_sl] (c_sl :: c_sl :: h ++ P)) with true.
  rewrite T3. cbn [negb andb skipn].
  rewrite E. rewrite cut_app by (apply (contains_forallb c_sl host_char); [reflexivity|exact Hh]).
  rewrite <- E. rewrite Hok, (no_bad_pct P HP), HP, HQ. cbn [andb].
  now destruct sch.
Qed.

Lemma authority_query_chars h P Q :
  forallb host_char h = true -> forallb path_char P = true -> forallb query_char Q = true ->
  forallb query_char (c_sl :: c_sl :: h ++ P ++ c_qm :: Q) = true.
Proof.
  intros Hh HP HQ. cbn [forallb]. rewrite !forallb_app.
  rewrite (path_chars_query h (host_chars_path h Hh)), (path_chars_query P HP). exact HQ.
Qed.

(* form 3: <http://host/path?query> *)
Theorem resolve_absolute base h P segs Q :
  forallb host_char h = true -> host_ok h = true ->
  clean_path P segs -> forallb path_char P = true -> forallb query_char Q = true ->
  resolve_ref base (b "http://" ++ h ++ P ++ c_qm :: Q) = ROk (mkS (b "http") h P Q).
Proof.
  intros Hh Hok C HP HQ.
  unfold resolve_ref. rewrite parse_ref_judged by (now apply (authority_query_chars h P Q)).
  change (b "http://" ++ h ++ P ++ c_qm :: Q) with (b "http" ++ c_col :: c_sl :: c_sl :: h ++ P ++ c_qm :: Q).
  change (get_scheme (b "http" ++ c_col :: c_sl :: c_sl :: h ++ P ++ c_qm :: Q))
    with (SScheme (b "http") (c_sl :: c_sl :: h ++ P ++ c_qm :: Q)).
  cbv iota. change (map to_lower (b "http")) with (b "http").
  rewrite (parse_authority_rest _ h P segs Q Hh Hok C HP HQ).
  cbn [p_scheme p_host p_path p_query]. now rewrite (resolve_path_clean P segs C).
Qed.

(* form 4: <//host/path?query> *)
Theorem resolve_scheme_relative base h P segs Q :
  forallb host_char h = true -> host_ok h = true ->
  clean_path P segs -> forallb path_char P = true -> forallb query_char Q = true ->
  resolve_ref base (c_sl :: c_sl :: h ++ P ++ c_qm :: Q) = ROk (mkS (s_scheme base) h P Q).
Proof.
  intros Hh Hok C HP HQ.
  unfold resolve_ref. rewrite parse_ref_judged by (now apply authority_query_chars).
  change (get_scheme (c_sl :: c_sl :: h ++ P ++ c_qm :: Q)) with SNone. cbv iota.
  rewrite (parse_authority_rest _ h P segs Q Hh Hok C HP HQ).
  cbn [p_scheme p_host p_path p_query]. now rewrite (resolve_path_clean P segs C).
Qed.

Lemma next_request_of_target c base t trailer u :
  contains c_gt t = false -> resolve_ref base t = ROk u -> s_path u <> [] ->
  next_request c base (c_lt :: t ++ c_gt :: trailer) = NNext (s_path u) (request_query c (s_query u) []).
Proof.
  intros Hgt Hr Hp. unfold next_request. rewrite parse_link_wellformed by exact Hgt. rewrite Hr.
  destruct (s_path u); [contradiction|reflexivity].
Qed.

(* the four absolute / host-relative / query-only forms of a link to (P, Q), whatever follows '>' *)
Inductive link_form (base : surl) (P Q : str) : str -> Prop :=
| LF_abs_path : link_form base P Q (P ++ c_qm :: Q)
| LF_query_only : P = s_path base -> link_form base P Q (c_qm :: Q)
| LF_absolute : s_scheme base = b "http" -> link_form base P Q (b "http://" ++ s_host base ++ P ++ c_qm :: Q)
| LF_scheme_rel : link_form base P Q (c_sl :: c_sl :: s_host base ++ P ++ c_qm :: Q).

Theorem next_request_link_forms c base P segs Q t trailer :
  link_form base P Q t ->
  clean_path P segs -> forallb path_char P = true -> forallb query_char Q = true ->
  forallb host_char (s_host base) = true -> host_ok (s_host base) = true ->
  contains c_gt t = false ->
  next_request c base (c_lt :: t ++ c_gt :: trailer) = NNext P (request_query c Q []).
Proof.
  intros F C HP HQ Hh Hok Hgt.
  assert (Pne : P <> []) by (destruct (clean_path_head P segs C) as (? & ? & -> & _); discriminate).
  assert (R : exists s, resolve_ref base t = ROk (mkS s (s_host base) P Q)).
  { destruct F as [| -> | |]; eexists.
    - now apply (resolve_abs_path base P segs Q).
    - now apply (resolve_query_only base segs Q).
    - now apply (resolve_absolute base _ P segs Q).
    - now apply (resolve_scheme_relative base _ P segs Q). }
  destruct R as [s R]. now rewrite (next_request_of_target c base t trailer _ Hgt R).
Qed.

Definition show (v : qval) : str := match v with VS s => s | VN n => itoa n end.

(* raw represents q: a registry reading raw (lenient parse, first match) finds what qget finds in q *)
Definition repr (raw : str) (q : query) : Prop :=
  forall k, lookup k (parse_query_lenient raw) = option_map show (qget k q).

Lemma dec_digits_all (P : N -> Prop) fuel n acc :
  (forall r, r < 10 -> P (48 + r)) -> Forall P acc -> Forall P (dec_digits fuel n acc).
Proof.
  intro HP. revert n acc. induction fuel as [|f IH]; intros n acc H; simpl; [exact H|].
  assert (A : Forall P ((48 + n mod 10) :: acc)).
  { constructor; [|exact H]. apply HP, N.mod_lt. discriminate. }
  destruct (n <? 10); [exact A|now apply IH].
Qed.

Lemma itoa_ok n : Forall byte_ok (itoa n).
Proof. apply dec_digits_all; [|constructor]. unfold byte_ok. lia. Qed.

Lemma k_n_ok : Forall byte_ok k_n. Proof. repeat constructor. Qed.
Lemma k_last_ok : Forall byte_ok k_last. Proof. repeat constructor. Qed.

(* the request the client really sends (setQueryParams on the raw query) is, for every key a
   registry may look up, the request of the association-list model (Paging.mk_request) *)
Theorem request_query_refines c p raw q last :
  Forall byte_ok last -> repr raw q ->
  repr (request_query c raw last) (u_query (mk_request c (mkUrl p q) last)).
Proof.
  intros Hl R k. unfold request_query, page_params, mk_request. cbn [u_query u_path].
  destruct (0 <? c_n c)%Z; destruct (sends_last (c_kind c) && negb (is_empty last)); cbn [app];
    try apply R; rewrite set_query_params_lookup by (repeat constructor; cbn [snd]; auto using itoa_ok);
    cbn [lookup]; rewrite !qget_qset.
  - destruct (str_eqb k_n k) eqn:En, (str_eqb k_last k) eqn:El; try reflexivity; [|apply R].
    apply str_eqb_spec in En, El. subst k. discriminate El.
  - destruct (str_eqb k_n k); [reflexivity|apply R].
  - destruct (str_eqb k_last k); [reflexivity|apply R].
Qed.

Lemma repr_nil : repr [] [].
Proof. intro k. reflexivity. Qed.

Lemma repr_referrers_q0 a : Forall byte_ok a -> repr (referrers_q0 a) (referrers_query a).
Proof.
  intros Ha k. unfold referrers_q0, referrers_query. destruct (is_empty a); [reflexivity|].
  rewrite parse_query_lenient_eq.
  assert (RP : raw_params (k_at ++ c_eq :: query_escape a) = [k_at ++ c_eq :: query_escape a]).
  { unfold raw_params. rewrite split_on_plain.
    - reflexivity.
    - rewrite contains_app. simpl. now rewrite (query_escape_no_amp a Ha). }
  rewrite RP. cbn [map]. unfold parse_param.
  rewrite cut_app by reflexivity. unfold unescape_or_raw at 2. rewrite (escape_roundtrip a Ha).
  change (unescape_or_raw k_at) with k_at. cbn [lookup qget option_map show].
  now destruct (str_eqb k_at k).
Qed.

(* url.Values-style rendering of pairs: key=value joined by '&', both escaped *)
Definition enc_pairs (l : list (str * str)) : str := join [c_amp] (map new_param l).

Theorem parse_enc_pairs l : Forall kv_ok l -> parse_query_lenient (enc_pairs l) = l.
Proof. exact (set_query_params_spec [] l). Qed.

Definition shown (q : query) : list (str * str) := map (fun kv => (fst kv, show (snd kv))) q.
Definition query_ok (q : query) : Prop := Forall (fun kv => Forall byte_ok (fst kv) /\ Forall byte_ok (show (snd kv))) q.

Lemma shown_ok q : query_ok q -> Forall kv_ok (shown q).
Proof. intro H. apply Forall_map. exact H. Qed.

Theorem repr_enc q : query_ok q -> repr (enc_pairs (shown q)) q.
Proof.
  intros H k. rewrite parse_enc_pairs.
  - induction q as [|[k' v] q IH]; simpl; [reflexivity|].
    inversion H; subst. destruct (str_eqb k' k); [reflexivity|now apply IH].
  - now apply shown_ok.
Qed.

Lemma esc_char_query_char c : esc_char c = true -> query_char c = true.
Proof.
  intro H. unfold esc_char in H.
  destruct (unreserved c) eqn:U; [now apply unreserved_query_char|].
  repeat (apply orb_true_iff in H as [H|H]); try discriminate; apply N.eqb_eq in H; now subst c.
Qed.

Lemma enc_pairs_chars (P : N -> bool) l :
  (forall c, esc_char c = true -> P c = true) -> P c_eq = true -> P c_amp = true ->
  Forall kv_ok l -> forallb P (enc_pairs l) = true.
Proof.
  intros I Pe Pa H. unfold enc_pairs. apply forallb_join; [cbn [forallb]; now rewrite Pa|].
  induction H as [|kv l' [Hk Hv] _ IH]; simpl; constructor; [|exact IH].
  unfold new_param. rewrite forallb_app. cbn [forallb].
  now rewrite (forallb_impl _ _ _ I (query_escape_chars _ Hk)), (forallb_impl _ _ _ I (query_escape_chars _ Hv)), Pe.
Qed.

Lemma enc_pairs_query_char l : Forall kv_ok l -> forallb query_char (enc_pairs l) = true.
Proof. now apply enc_pairs_chars; [exact esc_char_query_char| |]. Qed.

Lemma enc_pairs_no_gt l : Forall kv_ok l -> contains c_gt (enc_pairs l) = false.
Proof.
  intro H. apply (contains_forallb c_gt (fun c => negb (c =? c_gt))); [reflexivity|].
  apply enc_pairs_chars; auto. intros c E. destruct (N.eqb_spec c c_gt); [now subst|reflexivity].
Qed.

(* A registry answers the request [base] with a link, in one of the four forms, to path P and the
   escaped rendering of the association list q'.  Then the next request of the string level
   (parseLink, net/url resolution, re-parse, setQueryParams) goes to P and its raw query
   represents the request the association-list model builds for the target (P, q'). *)
Theorem step_simulation c base P segs q' t trailer :
  link_form base P (enc_pairs (shown q')) t -> query_ok q' ->
  clean_path P segs -> forallb path_char P = true ->
  forallb host_char (s_host base) = true -> host_ok (s_host base) = true ->
  contains c_gt t = false ->
  exists raw, next_request c base (c_lt :: t ++ c_gt :: trailer) = NNext P raw /\
              repr raw (u_query (mk_request c (mkUrl P q') [])).
Proof.
  intros F Hq C HP Hh Hok Hgt. exists (request_query c (enc_pairs (shown q')) []). split.
  - apply (next_request_link_forms c base P segs _ t trailer F C HP); auto.
    now apply enc_pairs_query_char, shown_ok.
  - apply request_query_refines; [constructor|]. now apply repr_enc.
Qed.

Section Simulation.
  Variable sch host : str.
  Variable serve_s : nat -> sreq -> response.
  Variable serve : nat -> url -> response.
  Variable resolve : url -> str -> option url.
  Variable cb_fail : nat -> bool.
  Variable c : cfg.
  Variable Rel : sreq -> url -> Prop.

  Hypothesis Hserve : forall i rs rq, Rel rs rq -> serve_s i rs = serve i rq.
  (* net/url (as modelled) and the abstract resolver of the model agree on the links served, and
     the requests for what they resolve to correspond again *)
  Hypothesis Hlink : forall i rs rq t,
    Rel rs rq -> parse_link (rs_link (serve i rq)) = LTarget t ->
    match resolve_ref (mkS sch host (sr_path rs) (sr_query rs)) t, resolve rq t with
    | ROk u, Some u' => s_path u <> [] /\ Rel (mkSR (s_path u) (request_query c (s_query u) [])) (mk_request c u' [])
    | RErr, None => True
    | _, _ => False
    end.

  Lemma loop_s_simulates :
    forall fuel i k p raw u last,
      Rel (mkSR p (request_query c raw last)) (mk_request c u last) ->
      exists ts, loop_s sch host serve_s cb_fail c fuel i k p raw last = Some ts /\
                 let t := loop serve resolve cb_fail c fuel i k u last in
                 st_pages ts = t_pages t /\ st_out ts = t_out t /\ Forall2 Rel (st_reqs ts) (t_reqs t).
  Proof.
    induction fuel as [|fuel IH]; intros i k p raw u last SR.
    { eexists. split; [reflexivity|]. simpl. repeat split; constructor. }
    cbn [loop_s loop]. cbv zeta.
    set (rs := mkSR p (request_query c raw last)) in *.
    set (rq := mk_request c u last) in *.
    assert (Stop : forall pg o, exists ts, Some (mkST [rs] pg o) = Some ts /\
              st_pages ts = pg /\ st_out ts = o /\ Forall2 Rel (st_reqs ts) [rq]).
    { intros pg o. eexists. split; [reflexivity|]. repeat split. now constructor. }
    rewrite (Hserve i rs rq SR).
    destruct (handle c (serve i rq)) as [e|page] eqn:H; [apply Stop|].
    destruct (delivered c page && cb_fail k); [apply Stop|].
    destruct (parse_link (rs_link (serve i rq))) as [| | |t] eqn:PL; try apply Stop.
    pose proof (Hlink i rs rq t SR PL) as HL.
    destruct (resolve_ref (mkS sch host (sr_path rs) (sr_query rs)) t) as [v| |] eqn:RR;
      destruct (resolve rq t) as [u'|] eqn:RA; try contradiction; [|apply Stop].
    destruct HL as (Hne & SR').
    destruct (IH (S i) (if delivered c page then S k else k) (s_path v) (s_query v) u' [] SR')
      as (ts & E & A & B0 & D).
    destruct (s_path v) eqn:SP; [contradiction|]. rewrite <- SP in *.
    rewrite E. eexists. split; [reflexivity|].
    unfold prepend. cbn [st_pages st_out st_reqs t_pages t_out t_reqs].
    rewrite A, B0. repeat split. constructor; [exact SR|exact D].
  Qed.
End Simulation.

Section Refinement.
  Variable sch host : str.
  Variable serve_s : nat -> sreq -> response.
  Variable serve : nat -> url -> response.
  Variable resolve : url -> str -> option url.
  Variable cb_fail : nat -> bool.
  Variable c : cfg.
  (* an invariant of the request paths of the run (e.g. "the listing endpoint or its sibling") *)
  Variable InvP : str -> Prop.

  (* a raw request and a model request that a registry cannot tell apart *)
  Definition same_request (rs : sreq) (rq : url) : Prop :=
    sr_path rs = u_path rq /\ repr (sr_query rs) (u_query rq).

  Hypothesis Hserve : forall i rs rq, InvP (sr_path rs) -> same_request rs rq -> serve_s i rs = serve i rq.
  Hypothesis Hlink : forall i rs rq t,
    InvP (sr_path rs) -> same_request rs rq -> parse_link (rs_link (serve i rq)) = LTarget t ->
    match resolve_ref (mkS sch host (sr_path rs) (sr_query rs)) t, resolve rq t with
    | ROk u, Some u' => s_path u <> [] /\ s_path u = u_path u' /\ repr (s_query u) (u_query u') /\ InvP (s_path u)
    | RErr, None => True
    | _, _ => False
    end.

  Theorem loop_s_refines_inv :
    forall fuel i k p raw q last,
      InvP p -> repr raw q -> Forall byte_ok last ->
      exists ts, loop_s sch host serve_s cb_fail c fuel i k p raw last = Some ts /\
                 let t := loop serve resolve cb_fail c fuel i k (mkUrl p q) last in
                 st_pages ts = t_pages t /\ st_out ts = t_out t /\
                 Forall2 same_request (st_reqs ts) (t_reqs t).
  Proof.
    intros fuel i k p raw q last Ip R Hl.
    destruct (loop_s_simulates sch host serve_s serve resolve cb_fail c
                (fun rs rq => InvP (sr_path rs) /\ same_request rs rq))
      with fuel i k p raw (mkUrl p q) last as (ts & E & A & B0 & D).
    - intros i0 rs rq [I SR]. now apply Hserve.
    - intros i0 rs rq t [I SR] PL. pose proof (Hlink i0 rs rq t I SR PL) as HL.
      destruct (resolve_ref _ t) as [v| |], (resolve rq t) as [[p' q']|]; try exact HL.
      destruct HL as (Hne & Hp & Hr & Hi).
      split; [exact Hne|]. split; [exact Hi|]. split; [exact Hp|]. now apply request_query_refines.
    - split; [exact Ip|]. split; [reflexivity|]. now apply request_query_refines.
    - exists ts. repeat split; try assumption.
      cbv zeta in D. induction D as [|rs rq l l' [_ SR] _ IH]; constructor; assumption.
  Qed.
End Refinement.

Lemma Forall2_len {A B} (R : A -> B -> Prop) l1 l2 : Forall2 R l1 l2 -> length l1 = length l2.
Proof. induction 1; simpl; congruence. Qed.

Lemma refined_done (o : option strace) t X (R : Prop) n :
  (exists ts, o = Some ts /\
              st_pages ts = t_pages t /\ st_out ts = t_out t /\ Forall2 same_request (st_reqs ts) (t_reqs t)) ->
  t_out t = Done /\ concat (t_pages t) = X /\ R /\ (length (t_reqs t) <= n)%nat ->
  exists ts, o = Some ts /\ st_out ts = Done /\ concat (st_pages ts) = X /\ (length (st_reqs ts) <= n)%nat.
Proof. intros (ts & E & A & B0 & D) (O & P & _ & N). exists ts. now rewrite A, B0, (Forall2_len _ _ _ D). Qed.

Lemma resolve_path_rel base dirs lastB ch r :
  split_on c_sl base = dirs ++ [lastB] -> dirs <> [] -> (ch =? c_sl) = false ->
  resolve_path base (ch :: r) = resolve_path (join [c_sl] dirs ++ c_sl :: ch :: r) [].
Proof.
  intros S Hd H. unfold resolve_path. rewrite H, S, drop_last_snoc.
  destruct dirs; [contradiction|]. now rewrite <- app_assoc.
Qed.

(* the request path is dirs/lastB, the target dirs/seg, the link "./seg" *)
Lemma resolve_path_dot_relative dirs lastB seg :
  Forall seg_ok dirs -> seg_ok lastB -> seg_ok seg ->
  resolve_path (c_sl :: join [c_sl] (dirs ++ [lastB])) (c_dot :: c_sl :: seg) =
  c_sl :: join [c_sl] (dirs ++ [seg]).
Proof.
  intros Hd Hb Hs. destruct (seg_ok_not_dots seg Hs) as [A B0].
  assert (CB : clean_path (c_sl :: join [c_sl] (dirs ++ [lastB])) (dirs ++ [lastB])).
  { split; [destruct dirs; discriminate|]. split; [|reflexivity]. apply Forall_app. split; [exact Hd|now constructor]. }
  rewrite (resolve_path_rel _ ([] :: dirs) lastB) by (try discriminate; try reflexivity; exact (clean_path_split _ _ CB)).
  replace (join [c_sl] ([] :: dirs) ++ c_sl :: c_dot :: c_sl :: seg) with (c_sl :: join [c_sl] (dirs ++ [dot; seg])).
  2:{ destruct dirs as [|d l]; [reflexivity|]. now rewrite (join_app_ne [c_sl] (d :: l) [dot; seg]) by discriminate. }
  assert (LS : last (dirs ++ [dot; seg]) [] = seg).
  { change (dirs ++ [dot; seg]) with (dirs ++ [dot] ++ [seg]). rewrite app_assoc. apply last_last. }
  apply resolve_path_elems.
  - destruct dirs; discriminate.
  - apply Forall_app. split; [now apply seg_ok_no_sl|]. repeat constructor. apply Hs.
  - rewrite fold_left_app, (fold_seg_plain dirs _ Hd). cbn [fold_left app].
    unfold seg_step at 2. change (str_eqb dot dot) with true. cbv iota.
    unfold seg_step. now rewrite A, B0.
  - destruct dirs; discriminate.
  - now rewrite LS.
  - now rewrite LS.
Qed.

(* form 5: <./seg?query>, relative to the directory of the request path *)
Theorem resolve_dot_relative base dirs lastB seg Q :
  s_path base = c_sl :: join [c_sl] (dirs ++ [lastB]) ->
  Forall seg_ok dirs -> seg_ok lastB -> seg_ok seg ->
  forallb path_char seg = true -> forallb query_char Q = true ->
  resolve_ref base (c_dot :: c_sl :: seg ++ c_qm :: Q) =
  ROk (mkS (s_scheme base) (s_host base) (c_sl :: join [c_sl] (dirs ++ [seg])) Q).
Proof.
  intros EB Hd Hb Hs HP HQ.
  unfold resolve_ref.
  rewrite parse_ref_judged by (cbn [forallb]; rewrite forallb_app, (path_chars_query seg HP); exact HQ).
  change (get_scheme (c_dot :: c_sl :: seg ++ c_qm :: Q)) with SNone. cbv iota.
  rewrite (parse_rest_path_query (c_dot :: c_sl :: seg) Q HP HQ eq_refl (or_intror eq_refl)
           : parse_rest None (c_dot :: c_sl :: seg ++ c_qm :: Q) = _).
  cbn [p_scheme p_host p_path p_query]. rewrite EB.
  now rewrite (resolve_path_dot_relative dirs lastB seg Hd Hb Hs).
Qed.

Theorem next_request_dot_relative c base dirs lastB seg Q trailer :
  s_path base = c_sl :: join [c_sl] (dirs ++ [lastB]) ->
  Forall seg_ok dirs -> seg_ok lastB -> seg_ok seg ->
  forallb path_char seg = true -> forallb query_char Q = true ->
  contains c_gt (c_dot :: c_sl :: seg ++ c_qm :: Q) = false ->
  next_request c base (c_lt :: (c_dot :: c_sl :: seg ++ c_qm :: Q) ++ c_gt :: trailer) =
  NNext (c_sl :: join [c_sl] (dirs ++ [seg])) (request_query c Q []).
Proof.
  intros EB Hd Hb Hs HP HQ Hgt.
  rewrite (next_request_of_target c base _ trailer
             (mkS (s_scheme base) (s_host base) (c_sl :: join [c_sl] (dirs ++ [seg])) Q)); auto.
  - now apply resolve_dot_relative with (lastB := lastB).
  - discriminate.
Qed.

(* a two-page registry with a query-only link: the hypotheses of loop_s_refines_inv are satisfiable *)
Definition exs_path : str := b "/v2/r/tags/list".
Definition exs_resp (i : nat) : response :=
  match i with
  | O => mkResp 200 false [] true 10 10 [(b "a", [])] [b "<?last=a>; rel=""next"""] [] []
  | _ => mkResp 200 false [] true 10 10 [(b "b", [])] [] [] []
  end.
Definition exs_serve_s (i : nat) (_ : sreq) : response := exs_resp i.
Definition exs_serve (i : nat) (_ : url) : response := exs_resp i.
Definition exs_resolve (rq : url) (t : str) : option url := Some (mkUrl (u_path rq) [(k_last, VS (b "a"))]).
Definition exs_inv (p : str) : Prop := p = exs_path.

Lemma exs_clean : clean_path exs_path [b "v2"; b "r"; b "tags"; b "list"].
Proof.
  split; [discriminate|]. split; [|reflexivity].
  repeat constructor; try (eexists; eexists; split; reflexivity); try reflexivity; discriminate.
Qed.

Lemma example_refinement_hypotheses :
  (forall i rs rq, exs_inv (sr_path rs) -> same_request rs rq -> exs_serve_s i rs = exs_serve i rq) /\
  (forall i rs rq t,
     exs_inv (sr_path rs) -> same_request rs rq -> parse_link (rs_link (exs_serve i rq)) = LTarget t ->
     match resolve_ref (mkS (b "http") (b "reg.test") (sr_path rs) (sr_query rs)) t, exs_resolve rq t with
     | ROk u, Some u' => s_path u <> [] /\ s_path u = u_path u' /\ repr (s_query u) (u_query u') /\ exs_inv (s_path u)
     | RErr, None => True
     | _, _ => False
     end).
Proof.
  split; [reflexivity|].
  intros i rs rq t Ip [Sp _] PL. destruct i as [|i]; [|discriminate].
  assert (Et : t = c_qm :: b "last=a") by (vm_compute in PL; now injection PL as <-).
  subst t. unfold exs_inv in Ip.
  rewrite (resolve_query_only (mkS (b "http") (b "reg.test") (sr_path rs) (sr_query rs))
             [b "v2"; b "r"; b "tags"; b "list"] (b "last=a")).
  - unfold exs_resolve. cbn [s_path s_scheme s_host s_query u_path u_query].
    rewrite <- Sp, Ip. repeat split; try discriminate.
    intro k. change (parse_query_lenient (b "last=a")) with [(b "last", b "a")].
    cbn [lookup qget option_map show]. change k_last with (b "last").
    now destruct (str_eqb (b "last") k).
  - cbn [s_path]. rewrite Ip. exact exs_clean.
  - reflexivity.
Qed.

(* known finding link-rel-ignored on the string level: the answer carries the right next link
   (last=b), but a rel="first" link-value stands before it and is the one that is followed *)
Lemma link_rel_first_string_refuted :
  exists header,
    let base := mkS (b "http") (b "reg.test") (b "/v2/r/tags/list") (b "last=a") in
    (exists pre, header = pre ++ b "<?last=b>; rel=""next""") /\
    next_request (mkCfg KTags 0 0 []) base header = NNext (b "/v2/r/tags/list") [] /\
    next_request (mkCfg KTags 0 0 []) base (b "<?last=b>; rel=""next""") = NNext (b "/v2/r/tags/list") (b "last=b").
Proof.
  exists (b "<?>; rel=""first"", <?last=b>; rel=""next"""). cbv zeta. split; [|split].
  - exists (b "<?>; rel=""first"", "). reflexivity.
  - vm_compute. reflexivity.
  - vm_compute. reflexivity.
Qed.

Definition dstep (a c : N) : N := 10 * a + (c - 48).

Lemma dec_digits_value fuel n acc :
  n < 10 ^ N.of_nat fuel -> fold_left dstep (dec_digits fuel n acc) 0 = fold_left dstep acc n.
Proof.
  revert n acc. induction fuel as [|f IH]; intros n acc H.
  - change (10 ^ N.of_nat 0) with 1 in H. now replace n with 0 by lia.
  - cbn [dec_digits].
    pose proof (N.div_mod n 10 ltac:(discriminate)) as DM. pose proof (N.mod_lt n 10 ltac:(discriminate)) as Hm.
    assert (E : dstep (n / 10) (48 + n mod 10) = n).
    { unfold dstep. revert DM. generalize (n / 10) (n mod 10). intros q r DM. lia. }
    destruct (N.ltb_spec n 10) as [Hs|Hb].
    + rewrite N.div_small in E by exact Hs. cbn [fold_left]. now rewrite E.
    + rewrite IH; [cbn [fold_left]; now rewrite E|].
      apply N.div_lt_upper_bound; [discriminate|]. now rewrite Nat2N.inj_succ, N.pow_succ_r' in H.
Qed.

Lemma dec_digits_ne fuel n acc : dec_digits (S fuel) n acc <> [].
Proof.
  revert n acc. induction fuel as [|f IH]; intros n acc; cbn [dec_digits] in *;
    destruct (n <? 10); try discriminate. apply IH.
Qed.

Theorem atoi_itoa n : n < 10 ^ 40 -> atoi (itoa n) = Some n.
Proof.
  intro H. unfold atoi. pose proof (dec_digits_ne 39 n []) as Ne. fold (itoa n) in Ne.
  destruct (itoa n) eqn:E; [contradiction|]. rewrite <- E.
  replace (forallb is_digit (itoa n)) with true.
  - f_equal. apply (dec_digits_value 40 n [] H).
  - symmetry. apply forallb_forall, Forall_forall, dec_digits_all; [|constructor].
    intros r Hr. unfold is_digit. apply andb_true_iff. split; apply N.leb_le; lia.
Qed.

(* the typed reading of a lenient parse: the value of n is a number when it is decimal *)
Definition tval (kv : str * str) : qval :=
  if str_eqb (fst kv) k_n then match atoi (snd kv) with Some n => VN n | None => VS (snd kv) end
  else VS (snd kv).
Definition vsmap (l : list (str * str)) : query := map (fun kv => (fst kv, tval kv)) l.

Definition typed_pair (kv : str * qval) : Prop :=
  (fst kv = k_n /\ exists n, snd kv = VN n /\ n < 10 ^ 40) \/ (fst kv <> k_n /\ exists s, snd kv = VS s).
Definition all_vs (q : query) : Prop := Forall typed_pair q.

Lemma vsmap_shown q : all_vs q -> vsmap (shown q) = q.
Proof.
  induction 1 as [|[k v] q H _ IH]; [reflexivity|].
  unfold vsmap, shown in *. cbn [map fst snd]. rewrite IH. f_equal. f_equal. unfold tval. cbn [fst snd].
  destruct H as [(Ek & n & Ev & Hn)|(Nk & s0 & Ev)]; cbn [fst snd] in *; subst.
  - rewrite str_eqb_refl. cbn [show]. now rewrite (atoi_itoa n Hn).
  - now rewrite (str_eqb_neq k k_n Nk).
Qed.

Lemma Forall_qdel (P : str * qval -> Prop) k q : Forall P q -> Forall P (qdel k q).
Proof.
  induction 1 as [|[k' v] q H _ IH]; simpl; [constructor|].
  destruct (str_eqb k' k); [exact IH|constructor; assumption].
Qed.

Lemma contains_app_false c s t : contains c s = false -> contains c t = false -> contains c (s ++ t) = false.
Proof. intros Hs Ht. now rewrite contains_app, Hs, Ht. Qed.

Section Concrete.
  Variable sch host : str.
  Variable P0 : str.
  Variable segs0 : list str.
  Hypothesis HP0 : clean_path P0 segs0.
  Hypothesis HP0c : forallb path_char P0 = true.
  Variable L : list item.
  Variable cap : nat.
  Variable ds : nat -> decision.
  Variable trailer : nat -> str.
  Variable vis : item -> bool.
  Variable cu : cursor.
  Variable c : cfg.
  Hypothesis Hcu : cursor_ok cu.
  Hypothesis Hcub : match cu with CLast => True | CToken k s => Forall byte_ok k /\ Forall byte_ok s end.
  Hypothesis Hnames : forall x, In x (map fst L) -> Forall byte_ok x.
  Hypothesis Hextra_vs : forall i, all_vs (d_extra (ds i)) /\ query_ok (d_extra (ds i)).
  Hypothesis Hn : (c_n c < 10 ^ 40)%Z.

  Definition render_c (i : nat) (base tgt : url) : str :=
    u_path tgt ++ c_qm :: enc_pairs (shown (u_query tgt)).
  Definition resolve_c (base : url) (t : str) : option url :=
    match resolve_ref (mkS sch host (u_path base) []) t with
    | ROk u => Some (mkUrl (s_path u) (vsmap (parse_query_lenient (s_query u))))
    | _ => None
    end.
  (* the requests of the run: to the endpoint, with a query that survives writing and reading *)
  Definition inv_c (rq : url) : Prop := u_path rq = P0 /\ all_vs (u_query rq) /\ query_ok (u_query rq).

  Lemma ckey_ok : Forall byte_ok (ckey cu).
  Proof. destruct cu; [apply k_last_ok|apply Hcub]. Qed.

  Lemma cenc_ok x : Forall byte_ok x -> Forall byte_ok (cenc cu x).
  Proof. intro H. destruct cu; [exact H|]. simpl. apply Forall_app. split; [apply Hcub|exact H]. Qed.

  Lemma target_inv i base x :
    inv_c base -> In x (map fst L) -> inv_c (link_target ds cu (fun _ p => p) i base x).
  Proof.
    intros (Ep & Av & Qo) Hx. unfold link_target, link_url, inv_c. cbn [u_path u_query]. split; [exact Ep|].
    destruct (Hextra_vs i) as [Ev Eo]. split.
    - constructor; [right; split; [now apply ckey_neq_n|now eexists]|].
      apply Forall_app. split; [exact Ev|]. now do 2 apply Forall_qdel.
    - constructor; [split; [apply ckey_ok|apply cenc_ok; now apply Hnames]|].
      apply Forall_app. split; [exact Eo|]. now do 2 apply Forall_qdel.
  Qed.

  Lemma mk_request_inv u last :
    inv_c u -> Forall byte_ok last -> inv_c (mk_request c u last).
  Proof.
    assert (S : forall q k v, typed_pair (k, v) -> Forall byte_ok k -> Forall byte_ok (show v) ->
                all_vs q /\ query_ok q -> all_vs (qset k v q) /\ query_ok (qset k v q)).
    { intros q k v T Hk Hv [Av Qo]. unfold qset.
      split; apply Forall_app; (split; [now apply Forall_qdel|]); (constructor; [|constructor]);
        [exact T|split; assumption]. }
    intros (Ep & AQ) Hl. unfold mk_request, inv_c. cbn [u_path u_query]. split; [exact Ep|].
    destruct (sends_last (c_kind c) && negb (is_empty last));
      [apply S; [right; split; [intro E; symmetry in E; now apply k_n_neq_last in E|now eexists]|apply k_last_ok|exact Hl|]|];
      (destruct (0 <? c_n c)%Z eqn:E; [|exact AQ]; apply Z.ltb_lt in E;
       apply S; [left; split; [reflexivity|]; eexists; split; [reflexivity|lia]|apply k_n_ok|apply itoa_ok|exact AQ]).
  Qed.

  Lemma next_request_inv i base x :
    inv_c base -> In x (map fst L) -> inv_c (mk_request c (link_target ds cu (fun _ p => p) i base x) []).
  Proof. intros Hi Hx. apply mk_request_inv; [now apply target_inv|constructor]. Qed.

  (* a way of writing links that keeps '>' out and that this client reads back *)
  Definition reads_back (render : nat -> url -> url -> str) : Prop :=
    forall i base tgt, u_path base = P0 -> inv_c tgt ->
      contains c_gt (render i base tgt) = false /\ resolve_c base (render i base tgt) = Some tgt.

  Lemma reads_back_target render i base x :
    reads_back render -> inv_c base -> In x (map fst L) ->
    let tgt := link_target ds cu (fun _ p => p) i base x in
    contains c_gt (render i base tgt) = false /\ resolve_c base (render i base tgt) = Some tgt.
  Proof. intros Hrb Hi Hx. apply Hrb; [apply Hi|now apply target_inv]. Qed.

  (* Tags / Repositories against a registry whose links are read back *)
  Theorem concrete_exactly_once render last0 fuel :
    reads_back render ->
    c_kind c <> KReferrers ->
    NoDup (map fst L) -> (forall it, In it L -> fst it <> []) ->
    Forall byte_ok last0 ->
    (forall i, (Z.of_N (d_doc_len (ds i)) <= eff_limit (c_limit c))%Z) ->
    (length (after last0 L) < fuel)%nat ->
    let t := loop (reg_serve (c_kind c) cu (fun _ p => p) vis L cap ds render trailer) resolve_c (fun _ => false) c
                  fuel 0 0 (mkUrl P0 []) last0 in
    t_out t = Done /\
    concat (t_pages t) = filter vis (after last0 L) /\
    (length (t_reqs t) <= S (length (after last0 L)))%nat.
  Proof.
    intros Hrb K Hnd Hne Hl Hfit Hfuel.
    apply (listing_exactly_once_inv L cap ds render trailer resolve_c c cu (fun _ p => p) vis inv_c);
      auto using next_request_inv; try congruence.
    - intros. now apply reads_back_target.
    - intros. now apply reads_back_target.
    - apply mk_request_inv; [|exact Hl]. split; [reflexivity|]. split; constructor.
  Qed.

  (* Referrers against the same kind of registry *)
  Theorem concrete_referrers render fuel :
    reads_back render ->
    c_kind c = KReferrers ->
    NoDup (map fst L) -> (forall it, In it L -> fst it <> []) ->
    Forall byte_ok (c_at c) ->
    (forall i, (Z.of_N (d_doc_len (ds i)) <= eff_limit (c_limit c))%Z) ->
    (forall i, qget k_at (d_extra (ds i)) = None) ->
    (length L < fuel)%nat ->
    let t := loop (reg_serve KReferrers cu (fun _ p => p) vis L cap ds render trailer) resolve_c (fun _ => false) c
                  fuel 0 0 (mkUrl P0 (referrers_query (c_at c))) [] in
    t_out t = Done /\
    concat (t_pages t) = filter_referrers (filter vis L) (c_at c) /\
    (length (t_reqs t) <= S (length L))%nat.
  Proof.
    intros Hrb K Hnd Hne Ha Hfit Hex Hfuel.
    apply (referrers_exactly_once_inv L cap ds render trailer resolve_c c cu (fun _ p => p) vis inv_c);
      auto using next_request_inv.
    - intros. now apply reads_back_target.
    - intros. now apply reads_back_target.
    - apply mk_request_inv; [|constructor]. split; [reflexivity|]. unfold referrers_query.
      destruct (is_empty (c_at c)); [split; constructor|]. split; (constructor; [|constructor]).
      + right. split; [intro E; symmetry in E; now apply k_n_neq_at in E|now eexists].
      + split; [repeat constructor|exact Ha].
  Qed.

  Lemma resolve_c_reads base t tgt s h :
    u_path base = P0 -> inv_c tgt ->
    resolve_ref (mkS sch host P0 []) t = ROk (mkS s h P0 (enc_pairs (shown (u_query tgt)))) ->
    resolve_c base t = Some tgt.
  Proof.
    intros Eb (Et & Av & Qo) R. unfold resolve_c. rewrite Eb, R. cbn [s_path s_query].
    rewrite (parse_enc_pairs _ (shown_ok _ Qo)), (vsmap_shown _ Av). rewrite <- Et. now destruct tgt.
  Qed.

  Lemma abs_path_no_gt Q : contains c_gt Q = false -> contains c_gt (P0 ++ c_qm :: Q) = false.
  Proof. intro HQ. apply contains_app_false; [exact (contains_forallb c_gt path_char P0 eq_refl HP0c)|exact HQ]. Qed.

  Lemma render_c_reads_back : reads_back render_c.
  Proof.
    intros i base tgt Eb Ht. pose proof Ht as (Et & _ & Qo). pose proof (shown_ok _ Qo) as KV.
    unfold render_c. rewrite Et. split; [now apply abs_path_no_gt, enc_pairs_no_gt|].
    eapply (resolve_c_reads base _ tgt); [exact Eb|exact Ht|]. apply (resolve_abs_path _ P0 segs0); auto.
    now apply enc_pairs_query_char.
  Qed.

  Hypothesis Hhostc : forallb host_char host = true.
  Hypothesis Hhostok : host_ok host = true.
  Variable fm : nat -> nat.   (* 0: </path?q>  1: <?q>  2: <http://host/path?q>  3: <//host/path?q>  4..: <./last?q> *)
  (* the last segment of the endpoint path, for the path-relative form *)
  Variable dirs0 : list str.
  Variable lastB0 : str.
  Hypothesis Hsegs0 : segs0 = dirs0 ++ [lastB0].
  Hypothesis Hlastc : forallb path_char lastB0 = true.

  Definition form_text (f : nat) (P Q : str) : str :=
    match f with
    | O => P ++ c_qm :: Q
    | S O => c_qm :: Q
    | S (S O) => b "http://" ++ host ++ P ++ c_qm :: Q
    | S (S (S O)) => c_sl :: c_sl :: host ++ P ++ c_qm :: Q
    | _ => c_dot :: c_sl :: lastB0 ++ c_qm :: Q
    end.

  Definition render_f (i : nat) (base tgt : url) : str :=
    form_text (fm i) (u_path tgt) (enc_pairs (shown (u_query tgt))).

  Lemma form_no_gt f Q : contains c_gt Q = false -> contains c_gt (form_text f P0 Q) = false.
  Proof.
    intro HQ. pose proof (abs_path_no_gt Q HQ) as T.
    assert (GQ : contains c_gt (c_qm :: Q) = false) by exact HQ.
    assert (GH : contains c_gt (host ++ P0 ++ c_qm :: Q) = false).
    { apply contains_app_false; [|exact T]. exact (contains_forallb c_gt host_char host eq_refl Hhostc). }
    destruct f as [|[|[|[|f]]]]; unfold form_text.
    - exact T.
    - exact GQ.
    - now apply contains_app_false.
    - exact GH.
    - apply (contains_app_false c_gt (c_dot :: c_sl :: lastB0)); [|exact GQ].
      exact (contains_forallb c_gt path_char lastB0 eq_refl Hlastc).
  Qed.

  Lemma form_resolves f Q :
    forallb query_char Q = true ->
    exists s h, resolve_ref (mkS sch host P0 []) (form_text f P0 Q) = ROk (mkS s h P0 Q).
  Proof.
    intro HQ. destruct f as [|[|[|[|f]]]]; unfold form_text; do 2 eexists.
    - now apply (resolve_abs_path _ P0 segs0).
    - now apply (resolve_query_only (mkS sch host P0 []) segs0).
    - now apply (resolve_absolute _ host P0 segs0).
    - now apply (resolve_scheme_relative _ host P0 segs0).
    - (* <./last?q>: the directory of the endpoint path, then its last segment again *)
      destruct HP0 as (_ & HF0 & EP0). rewrite Hsegs0 in HF0, EP0.
      apply Forall_app in HF0 as [Hd0 Hl0]. pose proof (Forall_inv Hl0) as Hlb.
      rewrite EP0 at 2. now apply (resolve_dot_relative _ dirs0 lastB0 lastB0).
  Qed.

  Lemma render_f_reads_back : reads_back render_f.
  Proof.
    intros i base tgt Eb Ht. pose proof Ht as (Et & _ & Qo). pose proof (shown_ok _ Qo) as KV.
    unfold render_f. rewrite Et. split; [now apply form_no_gt, enc_pairs_no_gt|].
    destruct (form_resolves (fm i) _ (enc_pairs_query_char _ KV)) as (s & h & R).
    exact (resolve_c_reads base _ tgt s h Eb Ht R).
  Qed.
End Concrete.

Lemma filter_filter {A} (f g : A -> bool) l : filter f (filter g l) = filter (fun x => g x && f x) l.
Proof.
  induction l as [|x l IH]; [reflexivity|]. simpl. destruct (g x); simpl; [destruct (f x); now rewrite IH|exact IH].
Qed.

Lemma qdel_app k q1 q2 : qdel k (q1 ++ q2) = qdel k q1 ++ qdel k q2.
Proof. induction q1 as [|[k' v] q1 IH]; simpl; [reflexivity|]. destruct (str_eqb k' k); simpl; now rewrite IH. Qed.

Lemma qdel_vsmap k l : qdel k (vsmap l) = vsmap (filter (fun kv => negb (str_eqb (fst kv) k)) l).
Proof.
  induction l as [|[k' v] l IH]; [reflexivity|]. unfold vsmap in *. cbn [map filter fst qdel].
  destruct (str_eqb k' k); cbn [negb]; [exact IH|]. cbn [map fst]. now rewrite IH.
Qed.

Definition typed_query (raw : str) : query := vsmap (parse_query_lenient raw).

Lemma vsmap_set l k v :
  vsmap (filter (fun kv' => not_set [(k, v)] (fst kv')) l ++ [(k, v)]) = qset k (tval (k, v)) (vsmap l).
Proof.
  unfold qset. rewrite qdel_vsmap. unfold vsmap. rewrite map_app. cbn [map fst]. do 2 f_equal.
  apply filter_ext. intros [k' v']. unfold not_set. cbn [existsb fst]. now rewrite orb_false_r.
Qed.

(* read with types (n as a number), the raw request the client sends is the request of the
   association-list model: the same list, not only the same lookups *)
Theorem request_query_exact c p raw last :
  Forall byte_ok last -> (c_n c < 10 ^ 40)%Z ->
  typed_query (request_query c raw last) = u_query (mk_request c (mkUrl p (typed_query raw)) last).
Proof.
  intros Hl Hn. unfold request_query, page_params, mk_request, typed_query. cbn [u_query].
  assert (TN : (0 < c_n c)%Z -> tval (k_n, itoa (Z.to_N (c_n c))) = VN (Z.to_N (c_n c))).
  { intro H. unfold tval. cbn [fst snd]. rewrite str_eqb_refl. now rewrite atoi_itoa by lia. }
  destruct (0 <? c_n c)%Z eqn:E0; [apply Z.ltb_lt, TN in E0|];
    (destruct (sends_last (c_kind c) && negb (is_empty last)); cbn [app]; [|try reflexivity]);
    rewrite set_query_params_spec by (repeat constructor; cbn [snd]; auto using itoa_ok).
  - (* both keys: the raw query is filtered once, the model deletes twice *)
    unfold qset. rewrite qdel_app. cbn [qdel]. rewrite (str_eqb_neq k_n k_last) by discriminate.
    rewrite !qdel_vsmap, filter_filter. unfold vsmap at 1. rewrite map_app, <- app_assoc. cbn [map fst app].
    rewrite E0. f_equal. unfold vsmap. f_equal. apply filter_ext. intros [k' v']. unfold not_set. cbn [existsb fst].
    now rewrite orb_false_r, negb_orb.
  - now rewrite vsmap_set, E0.
  - now rewrite vsmap_set.
Qed.

(* the server reads the raw query itself: no hypothesis that it answers corresponding requests alike *)
Section ExactRefinement.
  Variable sch host : str.
  Variable serve : nat -> url -> response.
  Variable resolve : url -> str -> option url.
  Variable cb_fail : nat -> bool.
  Variable c : cfg.
  Variable Inv : sreq -> Prop.
  Hypothesis Hn : (c_n c < 10 ^ 40)%Z.

  Definition typed_req (rs : sreq) : url := mkUrl (sr_path rs) (typed_query (sr_query rs)).
  Definition serve_typed (i : nat) (rs : sreq) : response := serve i (typed_req rs).

  Hypothesis Hlink : forall i rs t,
    Inv rs -> parse_link (rs_link (serve i (typed_req rs))) = LTarget t ->
    match resolve_ref (mkS sch host (sr_path rs) (sr_query rs)) t, resolve (typed_req rs) t with
    | ROk u, Some u' => s_path u <> [] /\ u' = mkUrl (s_path u) (typed_query (s_query u)) /\
                        Inv (mkSR (s_path u) (request_query c (s_query u) []))
    | RErr, None => True
    | _, _ => False
    end.

  Lemma typed_req_request p raw last :
    Forall byte_ok last ->
    typed_req (mkSR p (request_query c raw last)) = mk_request c (mkUrl p (typed_query raw)) last.
  Proof. intro Hl. unfold typed_req. cbn [sr_path sr_query]. now rewrite (request_query_exact c p raw last Hl Hn). Qed.

  Theorem loop_s_exact :
    forall fuel i k p raw last,
      Inv (mkSR p (request_query c raw last)) -> Forall byte_ok last ->
      exists ts, loop_s sch host serve_typed cb_fail c fuel i k p raw last = Some ts /\
                 let t := loop serve resolve cb_fail c fuel i k (mkUrl p (typed_query raw)) last in
                 st_pages ts = t_pages t /\ st_out ts = t_out t /\ map typed_req (st_reqs ts) = t_reqs t.
  Proof.
    intros fuel i k p raw last Hi Hl.
    destruct (loop_s_simulates sch host serve_typed serve resolve cb_fail c
                (fun rs rq => Inv rs /\ typed_req rs = rq))
      with fuel i k p raw (mkUrl p (typed_query raw)) last as (ts & E & A & B0 & D).
    - now intros i0 rs rq [_ <-].
    - intros i0 rs rq t [I <-] PL. pose proof (Hlink i0 rs t I PL) as HL.
      destruct (resolve_ref _ t) as [v| |], (resolve (typed_req rs) t) as [u'|]; try exact HL.
      destruct HL as (Hne & -> & Hi').
      split; [exact Hne|]. split; [exact Hi'|]. apply typed_req_request. constructor.
    - split; [exact Hi|]. now apply typed_req_request.
    - exists ts. repeat split; try assumption.
      cbv zeta in D. induction D as [|rs rq l l' [_ <-] _ IH]; [reflexivity|]. cbn [map]. now rewrite IH.
  Qed.
End ExactRefinement.
