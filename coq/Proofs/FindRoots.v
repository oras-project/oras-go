(* Lemmas about Model/FindRoots.v.  The walk: a loop invariant of the stack DFS of findRoots over
   any FindPredecessors function (Section DFS), restated over any relation equivalent to the
   followed-predecessor relation (Section Rel), termination.  The filters: a stack of filters
   follows exactly the predecessors whose manifest satisfies it (find_preds_exact).  Failing
   source operations refine the fault-free functions ([refines]).  What the extracted runner
   executes (the loop and the filters with the decisions re-read from the source) is the model.
   Last, example sources: the hypotheses are satisfiable, and what happens without served_ok. *)
From Oras Require Import Base.Prelude Generated.GC03 Model.FindRoots.
From Coq Require Import Lia.
Local Open Scope nat_scope.

Lemma mem_In x l : mem x l = true <-> In x l.
Proof.
  unfold mem. rewrite existsb_exists. split.
  - intros (y & Hy & E). apply Nat.eqb_eq in E. now subst.
  - intro H. exists x. split; auto. apply Nat.eqb_refl.
Qed.

Lemma mem_not_In x l : mem x l = false <-> ~ In x l.
Proof. rewrite <- mem_In. destruct (mem x l); split; congruence. Qed.

Lemma filter_true {A} (l : list A) : List.filter (fun _ => true) l = l.
Proof. induction l; simpl; congruence. Qed.

Lemma filter_filter {A} (f g : A -> bool) l :
  List.filter g (List.filter f l) = List.filter (fun x => f x && g x)%bool l.
Proof.
  induction l as [|a l IH]; simpl; auto.
  destruct (f a); simpl; [destruct (g a); simpl; congruence | exact IH].
Qed.

Lemma filter_Forall {A} (P : A -> Prop) f l : Forall P l -> Forall P (List.filter f l).
Proof. rewrite !Forall_forall. intros H x Hx. apply filter_In in Hx. apply H, Hx. Qed.

Lemma list_sum_le {A} (f g : A -> nat) l :
  (forall a, f a <= g a) -> list_sum (map f l) <= list_sum (map g l).
Proof.
  intro H. induction l as [|a l IH]; simpl; [lia|]. specialize (H a). lia.
Qed.

Definition sids (st : list frame) : list nat := map (fun f => d_id (fst f)) st.

Lemma sids_In z st : In z (sids st) <-> exists x d, In (x, d) st /\ d_id x = z.
Proof.
  unfold sids. rewrite in_map_iff. split.
  - intros ([x d] & E & H). exists x, d. auto.
  - intros (x & d & H & E). exists (x, d). auto.
Qed.

Lemma push_preds_In ps dp V : forall st x k,
  In (x, k) (push_preds ps dp V st) <->
  In (x, k) st \/ (In x ps /\ k = dp /\ ~ In (d_id x) V).
Proof.
  induction ps as [|p ps IH]; intros st x k; simpl; [tauto|].
  rewrite IH. destruct (mem (d_id p) V) eqn:Em.
  - apply mem_In in Em. split; [tauto|].
    intros [H | ([H | H] & Hk & Hv)]; [auto | subst; contradiction | auto].
  - apply mem_not_In in Em. simpl. split.
    + intros [[H | H] | H]; [|tauto..]. injection H as -> ->. auto.
    + intros [H | ([H | H] & Hk & Hv)]; [auto | subst; auto | auto].
Qed.

Lemma push_preds_length ps dp V : forall st,
  length (push_preds ps dp V st) <= length ps + length st.
Proof.
  induction ps as [|p ps IH]; intros st; simpl; [lia|].
  rewrite IH. destruct (mem (d_id p) V); simpl; lia.
Qed.

Lemma add_root_In r c R : In r (add_root c R) -> In r R \/ r = c.
Proof.
  unfold add_root. destruct (mem (d_id c) (map d_id R)); [auto|].
  rewrite in_app_iff. simpl. intros [H | [H | []]]; auto.
Qed.

Lemma add_root_ids z c R : In z (map d_id (add_root c R)) <-> z = d_id c \/ In z (map d_id R).
Proof.
  unfold add_root. destruct (mem (d_id c) (map d_id R)) eqn:Em.
  - apply mem_In in Em. split; [auto | intros [-> | H]; auto].
  - rewrite map_app, in_app_iff. simpl. intuition auto.
Qed.

Section DFS.
  Variable fp : nat -> list desc.      (* opts.FindPredecessors, by node key *)
  Variable limit : Z.                  (* opts.Depth *)
  Variable node : desc.

  (* y is a followed predecessor of x *)
  Definition E (x y : nat) : Prop := In y (map d_id (fp x)).

  (* path k x y: y is k followed-predecessor steps above x *)
  Inductive path : nat -> nat -> nat -> Prop :=
  | path0 x : path 0 x x
  | pathS k x y z : path k x y -> E y z -> path (S k) x z.

  Definition reach (x y : nat) : Prop := exists k, path k x y.

  Lemma reach_refl x : reach x x.
  Proof. exists 0. constructor. Qed.

  Lemma path_trans k1 k2 x y z : path k1 x y -> path k2 y z -> path (k2 + k1) x z.
  Proof. intros H1 H2. induction H2; simpl; auto. econstructor; eauto. Qed.

  Lemma reach_trans x y z : reach x y -> reach y z -> reach x z.
  Proof. intros (k1 & H1) (k2 & H2). exists (k2 + k1). eapply path_trans; eauto. Qed.

  Lemma E_In x p : In p (fp x) -> E x (d_id p).
  Proof. apply in_map. Qed.

  Lemma E_reach x y : E x y -> reach x y.
  Proof. exists 1. econstructor; [constructor | assumption]. Qed.

  (* content addressing: a predecessor embeds the digest of its successor, so the
     followed-predecessor relation is acyclic; stated with a rank function *)
  Variable rank : nat -> nat.
  Hypothesis Hrank : forall x p, In p (fp x) -> rank x < rank (d_id p).

  Lemma rank_path k x y : path k x y -> rank x + k <= rank y.
  Proof.
    induction 1 as [|k x y z _ IH He]; [lia|].
    apply in_map_iff in He. destruct He as (p & <- & Hp). apply Hrank in Hp. lia.
  Qed.

  Definition seen (st : list frame) (V : list nat) (z : nat) : Prop := In z V \/ In z (sids st).

  Record Inv (st : list frame) (V : list nat) (R : list desc) : Prop := {
    i_stack : forall x d, In (x, d) st ->
           path d (d_id node) (d_id x) /\ ((0 < limit)%Z -> (Z.of_nat d <= limit)%Z);
    i_roots : forall r, In r R ->
           (exists k, path k (d_id node) (d_id r) /\ ((0 < limit)%Z -> (Z.of_nat k <= limit)%Z)) /\
           (fp (d_id r) = [] \/ ((0 < limit)%Z /\ path (Z.to_nat limit) (d_id node) (d_id r)));
    i_tops : forall v, In v V -> fp v = [] -> In v (map d_id R);
    i_expanded : forall v p, In v V -> ~ In v (map d_id R) -> In p (fp v) -> seen st V (d_id p);
    i_node : seen st V (d_id node)
  }.

  Lemma inv_init : Inv [(node, 0)] [] [].
  Proof.
    constructor; try easy.
    - intros x d [H | []]. injection H as <- <-. split; [constructor | lia].
    - right. left. reflexivity.
  Qed.

  Lemma seen_pop cur d rest V V' z :
    seen ((cur, d) :: rest) V z -> In (d_id cur) V' -> (forall v, In v V -> In v V') -> seen rest V' z.
  Proof. intros [H | [<- | H]] Hc HV; [left | left | right]; auto. Qed.

  Lemma inv_pop_visited cur d rest V R :
    Inv ((cur, d) :: rest) V R -> In (d_id cur) V -> Inv rest V R.
  Proof.
    intros [Ist Irt Itp Iex Ind] Hv. constructor; auto.
    - intros x k H. apply Ist. right. exact H.
    - intros v p Hin Hnr Hp. apply (seen_pop cur d rest V); eauto.
    - apply (seen_pop cur d rest V); auto.
  Qed.

  Lemma inv_root cur d rest V R :
    Inv ((cur, d) :: rest) V R ->
    (fp (d_id cur) = [] \/ ((0 < limit)%Z /\ Z.of_nat d = limit)) ->
    Inv rest (d_id cur :: V) (add_root cur R).
  Proof.
    intros [Ist Irt Itp Iex Ind] Hwhy.
    destruct (Ist cur d (or_introl eq_refl)) as (Hpath & Hlim).
    assert (Hpop : forall z, seen ((cur, d) :: rest) V z -> seen rest (d_id cur :: V) z).
    { intros z Hz. apply (seen_pop cur d rest V); simpl; auto. }
    constructor.
    - intros x k H. apply Ist. right. exact H.
    - intros r Hr. apply add_root_In in Hr. destruct Hr as [Hr | ->]; [auto|].
      split; [exists d; auto|].
      destruct Hwhy as [H | (H1 & H2)]; [auto|]. right. split; auto.
      rewrite <- H2, Nat2Z.id. exact Hpath.
    - intros v Hv Hf. apply add_root_ids. destruct Hv as [<- | Hv]; auto.
    - intros v p [<- | Hin] Hnr Hp; [destruct Hnr; apply add_root_ids; auto|].
      apply Hpop, (Iex v p Hin); auto. intro Hc. apply Hnr, add_root_ids. auto.
    - auto.
  Qed.

  Lemma inv_push cur d rest V R :
    Inv ((cur, d) :: rest) V R ->
    ~ ((0 < limit)%Z /\ Z.of_nat d = limit) ->
    fp (d_id cur) <> [] ->
    Inv (push_preds (fp (d_id cur)) (S d) (d_id cur :: V) rest) (d_id cur :: V) R.
  Proof.
    intros [Ist Irt Itp Iex Ind] Hnl Hne.
    destruct (Ist cur d (or_introl eq_refl)) as (Hpath & Hlim).
    set (st' := push_preds (fp (d_id cur)) (S d) (d_id cur :: V) rest).
    assert (Hsub : forall z, In z (sids rest) -> In z (sids st')).
    { intros z Hz. apply sids_In in Hz. destruct Hz as (x & k & Hx & <-).
      apply sids_In. exists x, k. split; auto. apply push_preds_In. auto. }
    assert (Hpop : forall z, seen ((cur, d) :: rest) V z -> seen st' (d_id cur :: V) z).
    { intros z Hz. destruct (seen_pop cur d rest V (d_id cur :: V) z Hz); simpl; auto.
      - left. auto.
      - right. auto. }
    assert (Hnew : forall p, In p (fp (d_id cur)) -> seen st' (d_id cur :: V) (d_id p)).
    { intros p Hp. destruct (in_dec Nat.eq_dec (d_id p) (d_id cur :: V)) as [H | H]; [left; exact H|].
      right. apply sids_In. exists p, (S d). split; auto. apply push_preds_In. auto. }
    constructor.
    - intros x k H. apply push_preds_In in H. destruct H as [H | (Hp & -> & Hn)].
      + apply Ist. right. exact H.
      + split; [econstructor; [exact Hpath | apply E_In; exact Hp] | lia].
    - exact Irt.
    - intros v [<- | Hin] Hf; [congruence | auto].
    - intros v p [<- | Hin] Hnr Hp; [auto | eauto].
    - auto.
  Qed.

  Lemma dfs_inv fuel : forall st V R roots,
    Inv st V R -> dfs fuel fp limit st V R = Some roots -> exists V', Inv [] V' roots.
  Proof.
    induction fuel as [|fuel IH]; intros st V R roots I H; cbn [dfs] in H; [discriminate|].
    destruct st as [|[cur d] rest]; [injection H as <-; eauto|].
    destruct (mem (d_id cur) V) eqn:Em.
    { apply mem_In in Em. eapply IH; [|exact H]. eapply inv_pop_visited; eauto. }
    destruct ((0 <? limit)%Z && (Z.of_nat d =? limit)%Z)%bool eqn:El.
    { apply andb_true_iff in El. rewrite Z.ltb_lt, Z.eqb_eq in El.
      eapply IH; [|exact H]. apply (inv_root cur d); auto. }
    assert (Hnl : ~ ((0 < limit)%Z /\ Z.of_nat d = limit)).
    { rewrite <- Z.ltb_lt, <- Z.eqb_eq, <- andb_true_iff, El. discriminate. }
    destruct (fp (d_id cur)) as [|p0 ps] eqn:Efp; (eapply IH; [|exact H]).
    - apply (inv_root cur d); auto.
    - rewrite <- Efp. apply (inv_push cur d); auto. congruence.
  Qed.

  Lemma find_roots_inv fuel roots :
    find_roots_fp fuel fp limit node = Some roots -> exists V, Inv [] V roots.
  Proof. apply dfs_inv, inv_init. Qed.

  (* every root is an ancestor, within the depth if there is one; it is a top or lies at the
     depth (no acyclicity needed) *)
  Lemma roots_are_ancestors fuel roots :
    find_roots_fp fuel fp limit node = Some roots ->
    forall r, In r roots ->
      (exists k, path k (d_id node) (d_id r) /\ ((0 < limit)%Z -> (Z.of_nat k <= limit)%Z)) /\
      (fp (d_id r) = [] \/ ((0 < limit)%Z /\ path (Z.to_nat limit) (d_id node) (d_id r))).
  Proof. intros H r Hr. apply find_roots_inv in H. destruct H as (V & I). exact (i_roots _ _ _ I r Hr). Qed.

  (* at the end every visited node lies under a root: a visited node that is no root was expanded,
     its predecessors are visited and of higher rank, and the ranks of the visited are bounded *)
  Lemma inv_final_cover V roots v :
    Inv [] V roots -> In v V -> exists r, In r roots /\ reach v (d_id r).
  Proof.
    intros I. set (B := S (list_max (map rank V))).
    assert (HB : forall x, In x V -> rank x < B).
    { intros x Hx. apply (in_map rank) in Hx. unfold B.
      pose proof (proj1 (list_max_le _ _) (le_n (list_max (map rank V)))) as Hm.
      rewrite Forall_forall in Hm. specialize (Hm _ Hx). lia. }
    assert (Hk : forall k v, B - rank v <= k -> In v V -> exists r, In r roots /\ reach v (d_id r)).
    { induction k as [|k IH]; intros v0 Hle Hv; [specialize (HB v0 Hv); lia|].
      destruct (in_dec Nat.eq_dec v0 (map d_id roots)) as [Hr | Hnr].
      - apply in_map_iff in Hr. destruct Hr as (r & <- & Hr). exists r. split; [exact Hr | apply reach_refl].
      - destruct (fp v0) as [|p0 ps] eqn:Efp; [destruct Hnr; apply (i_tops _ _ _ I); auto|].
        assert (Hp0 : In p0 (fp v0)) by (rewrite Efp; left; reflexivity).
        destruct (i_expanded _ _ _ I v0 p0 Hv Hnr Hp0) as [Hv' | []]. pose proof (Hrank _ _ Hp0) as Hlt.
        destruct (IH (d_id p0)) as (r & Hr & Hreach); [lia | exact Hv' |].
        exists r. split; [exact Hr|]. eapply reach_trans; [apply E_reach, E_In, Hp0 | exact Hreach]. }
    apply (Hk (B - rank v)). lia.
  Qed.

  Lemma inv_final_closed V roots :
    Inv [] V roots -> (limit <= 0)%Z -> forall a, reach (d_id node) a -> In a V.
  Proof.
    intros I Hl a (k & Hp). remember (d_id node) as n0 eqn:En.
    induction Hp as [x | k x y z Hp IHp He]; subst.
    - destruct (i_node _ _ _ I) as [H | []]. exact H.
    - apply in_map_iff in He. destruct He as (p & <- & Hin).
      destruct (i_expanded _ _ _ I y p (IHp eq_refl)) as [H | []]; auto.
      intro Hy. apply in_map_iff in Hy. destruct Hy as (r & <- & Hr).
      destruct (i_roots _ _ _ I r Hr) as (_ & [Hf | (Hc & _)]); [rewrite Hf in Hin; contradiction | lia].
  Qed.

  (* Depth <= 0: the roots are exactly the tops of the upward closure and every
     member of the closure lies under a root *)
  Lemma roots_unlimited fuel roots :
    (limit <= 0)%Z ->
    find_roots_fp fuel fp limit node = Some roots ->
    (forall r, In r roots -> reach (d_id node) (d_id r) /\ fp (d_id r) = []) /\
    (forall a, reach (d_id node) a -> fp a = [] -> In a (map d_id roots)) /\
    (forall a, reach (d_id node) a -> exists r, In r roots /\ reach a (d_id r)).
  Proof.
    intros Hl H. apply find_roots_inv in H. destruct H as (V & I).
    pose proof (inv_final_closed V roots I Hl) as Hcl. repeat split.
    - destruct (i_roots _ _ _ I r H) as ((k & Hp & _) & _). exists k. exact Hp.
    - destruct (i_roots _ _ _ I r H) as (_ & [Hf | (Hc & _)]); [exact Hf | lia].
    - intros a Ha Hf. apply (i_tops _ _ _ I); auto.
    - intros a Ha. apply (inv_final_cover V); auto.
  Qed.

  Lemma roots_cover_node fuel roots :
    find_roots_fp fuel fp limit node = Some roots ->
    (exists r, In r roots /\ reach (d_id node) (d_id r)) /\
    (forall r, In r roots -> reach (d_id node) (d_id r)).
  Proof.
    intros H. split.
    - apply find_roots_inv in H. destruct H as (V & I).
      destruct (i_node _ _ _ I) as [Hv | []]. apply (inv_final_cover V); auto.
    - intros r Hr. destruct (roots_are_ancestors fuel roots H r Hr) as ((k & Hp & _) & _). exists k. exact Hp.
  Qed.

  (* Depth = d > 0: every root is an ancestor at most d steps away (and is a top
     or exactly d steps away); the given node lies under some root *)
  Lemma roots_depth fuel roots :
    (0 < limit)%Z ->
    find_roots_fp fuel fp limit node = Some roots ->
    (forall r, In r roots ->
       (exists k, Z.of_nat k <= limit /\ path k (d_id node) (d_id r))%Z /\
       (fp (d_id r) = [] \/ path (Z.to_nat limit) (d_id node) (d_id r))) /\
    (exists r, In r roots /\ reach (d_id node) (d_id r)).
  Proof.
    intros Hl H. split; [|apply (roots_cover_node fuel roots H)].
    intros r Hr. destruct (roots_are_ancestors fuel roots H r Hr) as ((k & Hp & Hk) & Hw).
    split; [eauto | tauto].
  Qed.

  (* ... and so does every direct predecessor of the given node: the node itself is never a
     root unless it has no predecessors (it is not Depth > 0 steps above itself) *)
  Lemma roots_cover_direct_preds fuel roots :
    find_roots_fp fuel fp limit node = Some roots ->
    forall p, In p (fp (d_id node)) -> exists r, In r roots /\ reach (d_id p) (d_id r).
  Proof.
    intros H p Hp. apply find_roots_inv in H. destruct H as (V & I).
    destruct (i_node _ _ _ I) as [Hv | []].
    destruct (i_expanded _ _ _ I _ p Hv) as [H | []]; [|exact Hp | apply (inv_final_cover V); auto].
    intro Hn. apply in_map_iff in Hn. destruct Hn as (r & Er & Hr).
    destruct (i_roots _ _ _ I r Hr) as (_ & [Hf | (Hl & Hpath)]); rewrite Er in *.
    - rewrite Hf in Hp. contradiction.
    - apply rank_path in Hpath. lia.
  Qed.

  Variable univ : list nat.
  Hypothesis univ_closed : forall x p, In x univ -> In p (fp x) -> In (d_id p) univ.

  (* predecessor lists not yet pushed *)
  Definition weight (U V : list nat) : nat :=
    list_sum (map (fun u => if mem u V then 0 else length (fp u)) U).

  Lemma weight_mono U x V : weight U (x :: V) <= weight U V.
  Proof.
    unfold weight, mem. induction U as [|u U IH]; simpl in *; [lia|].
    destruct (Nat.eqb u x); destruct (existsb (Nat.eqb u) V); simpl; lia.
  Qed.

  Lemma weight_drop U x V :
    In x U -> ~ In x V -> weight U (x :: V) + length (fp x) <= weight U V.
  Proof.
    intros Hin Hnv. apply mem_not_In in Hnv. revert Hnv. unfold weight, mem.
    induction U as [|u U IH]; intro Hnv; [contradiction|].
    pose proof (weight_mono U x V) as Hm. unfold weight, mem in Hm. simpl in *.
    destruct Hin as [-> | Hin].
    - rewrite Nat.eqb_refl, Hnv. simpl. lia.
    - specialize (IH Hin Hnv). destruct (Nat.eqb u x); destruct (existsb (Nat.eqb u) V); simpl; lia.
  Qed.

  Lemma dfs_terminates_gen fuel : forall st V R,
    (forall z, In z (sids st) -> In z univ) ->
    length st + weight univ V < fuel ->
    dfs fuel fp limit st V R <> None.
  Proof.
    induction fuel as [|fuel IH]; intros st V R Hst Hlt; [lia|].
    cbn [dfs]. destruct st as [|[cur d] rest]; [discriminate|].
    assert (Hcur : In (d_id cur) univ) by (apply Hst; simpl; auto).
    assert (Hrest : forall z, In z (sids rest) -> In z univ) by (intros z Hz; apply Hst; simpl; auto).
    simpl in Hlt. pose proof (weight_mono univ (d_id cur) V) as Hm.
    destruct (mem (d_id cur) V) eqn:Em; [apply IH; auto; lia|].
    apply mem_not_In in Em.
    destruct ((0 <? limit)%Z && (Z.of_nat d =? limit)%Z)%bool; [apply IH; auto; lia|].
    destruct (fp (d_id cur)) as [|p0 ps] eqn:Efp; [apply IH; auto; lia|].
    rewrite <- Efp. apply IH.
    - intros z Hz. apply sids_In in Hz. destruct Hz as (x & k & Hx & <-).
      apply push_preds_In in Hx. destruct Hx as [Hx | (Hx & _)].
      + apply Hrest. apply sids_In. eauto.
      + eapply univ_closed; eauto.
    - pose proof (push_preds_length (fp (d_id cur)) (S d) (d_id cur :: V) rest).
      pose proof (weight_drop univ (d_id cur) V Hcur Em). lia.
  Qed.

  Lemma dfs_terminates fuel :
    In (d_id node) univ ->
    S (list_sum (map (fun u => length (fp u)) univ)) < fuel ->
    exists roots, find_roots_fp fuel fp limit node = Some roots.
  Proof.
    intros Hn Hf. unfold find_roots_fp.
    destruct (dfs fuel fp limit [(node, 0)] [] []) as [roots|] eqn:Ed; [eauto|].
    exfalso. revert Ed. apply dfs_terminates_gen.
    - intros z [<- | []]. exact Hn.
    - unfold weight. simpl. lia.
  Qed.
End DFS.

(* the property's "artifact type of that manifest" *)
Definition effective_type (s : source) (id : nat) : str :=
  match s_kind s id with
  | KImage => if is_empty (s_mat s id) then s_mcfg s id else s_mat s id
  | KArtifact | KIndex => s_mat s id
  | _ => []
  end.

Definition manifest_annots (s : source) (id : nat) : annots :=
  if ann_fetch_kind (s_kind s id) then fetch_annotations s id else [].

(* does node id satisfy filter f, judged on the manifest content only *)
Definition keep_spec (s : source) (f : filter) (id : nat) : bool :=
  match f with
  | FArt None => true
  | FArt (Some re) => re (effective_type s id)
  | FAnn key re => match lookup key (manifest_annots s id) with
                   | None => false
                   | Some v => match re with None => true | Some g => g v end
                   end
  end.

(* a served descriptor does not contradict the manifest it describes: fields
   may be missing, but what is present is the manifest's *)
Definition desc_consistent (s : source) (p : desc) : Prop :=
  (d_at p = [] \/ d_at p = effective_type s (d_id p)) /\
  match d_ann p with
  | None => True
  | Some m => forall k, lookup k m = lookup k (manifest_annots s (d_id p))
  end.

(* the case lists re-read from extendedcopy.go are the ones the proofs rely on *)
Lemma at_fetch_kind_table k :
  at_fetch_kind k = match k with KArtifact | KImage | KIndex => true | _ => false end.
Proof. destruct k; vm_compute; reflexivity. Qed.

Lemma ann_fetch_kind_table k :
  ann_fetch_kind k = match k with KOther => false | _ => true end.
Proof. destruct k; vm_compute; reflexivity. Qed.

Lemma fetch_cases_table k :
  in_cases fetchArtifactType_cases k = match k with KArtifact | KImage | KIndex => true | _ => false end.
Proof. destruct k; vm_compute; reflexivity. Qed.

(* what the rules re-read from fetchArtifactType amount to (breaks when the source changes) *)
Lemma fetch_artifact_type_table s id :
  fetch_artifact_type s id =
  match s_kind s id with
  | KArtifact => s_mat s id
  | KImage => if is_empty (s_mat s id) then s_mcfg s id else s_mat s id
  | KIndex => s_mat s id
  | _ => []
  end.
Proof.
  destruct s as [sp sk sm sc sa sl]. unfold fetch_artifact_type. cbn [s_kind s_mat s_mcfg].
  destruct (sk id); vm_compute; try reflexivity.
  destruct (sm id); reflexivity.
Qed.

Lemma is_empty_true (x : str) : is_empty x = true <-> x = [].
Proof. destruct x; simpl; split; congruence. Qed.

Lemma fill_at_id s p : d_id (fill_at s p) = d_id p.
Proof.
  unfold fill_at, fill_at_gen. destruct (is_empty (d_at p)); auto.
  destruct (at_fetch_kind _); auto.
Qed.

Lemma fill_ann_id s p : d_id (fill_ann s p) = d_id p.
Proof.
  unfold fill_ann. destruct (d_ann p); auto. destruct (ann_fetch_kind _); auto.
Qed.

(* FilterArtifactType on a descriptor that does not contradict its manifest: the type is fetched
   when missing, so the regex judges the manifest's effective type *)
Lemma fill_at_spec s re p :
  desc_consistent s p ->
  d_id (fill_at s p) = d_id p /\ re (d_at (fill_at s p)) = keep_spec s (FArt (Some re)) (d_id p) /\
  desc_consistent s (fill_at s p).
Proof.
  intros (Ha & Hn).
  assert (Ht : d_at (fill_at s p) = effective_type s (d_id p)).
  { unfold fill_at, fill_at_gen. destruct (is_empty (d_at p)) eqn:Ee.
    - apply is_empty_true in Ee. rewrite at_fetch_kind_table. unfold effective_type.
      destruct (s_kind s (d_id p)) eqn:Ek; simpl; rewrite ?fetch_artifact_type_table, ?Ek; auto.
    - destruct Ha as [Ha | Ha]; [rewrite Ha in Ee; discriminate | exact Ha]. }
  split; [apply fill_at_id|]. split; [simpl; now rewrite Ht|]. split.
  - right. now rewrite fill_at_id.
  - unfold fill_at, fill_at_gen. destruct (is_empty (d_at p)); auto. destruct (at_fetch_kind _); auto.
Qed.

(* FilterAnnotation likewise: the annotations are fetched when the descriptor has none *)
Lemma fill_ann_spec s key re p :
  desc_consistent s p ->
  d_id (fill_ann s p) = d_id p /\ keep_ann key re (fill_ann s p) = keep_spec s (FAnn key re) (d_id p) /\
  desc_consistent s (fill_ann s p).
Proof.
  intros (Ha & Hn). split; [apply fill_ann_id|].
  unfold keep_ann, fill_ann, keep_spec, desc_consistent, manifest_annots in *.
  destruct (d_ann p) eqn:Ed.
  - rewrite Ed, Hn. auto.
  - destruct (ann_fetch_kind (s_kind s (d_id p))) eqn:Ek; simpl; rewrite ?Ed, ?Ek; auto.
Qed.

Lemma filter_map_spec (P : desc -> Prop) (fill : desc -> desc) (keep : desc -> bool) (g : nat -> bool) ps :
  (forall p, P p -> d_id (fill p) = d_id p /\ keep (fill p) = g (d_id p) /\ P (fill p)) ->
  Forall P ps ->
  map d_id (List.filter keep (map fill ps)) = List.filter g (map d_id ps) /\
  Forall P (List.filter keep (map fill ps)).
Proof.
  intro Hf. induction 1 as [|p ps Hp _ (IH1 & IH2)]; [split; constructor|].
  destruct (Hf p Hp) as (Hid & Hk & HP). simpl. rewrite Hk.
  destruct (g (d_id p)); simpl; [rewrite Hid, IH1|]; auto.
Qed.

Lemma apply_filter_spec s f ps :
  Forall (desc_consistent s) ps ->
  map d_id (apply_filter s f ps) = List.filter (keep_spec s f) (map d_id ps) /\
  Forall (desc_consistent s) (apply_filter s f ps).
Proof.
  destruct f as [[re|] | key re]; intro H.
  - apply filter_map_spec; [apply fill_at_spec | exact H].
  - simpl. now rewrite filter_true.
  - apply filter_map_spec; [apply fill_ann_spec | exact H].
Qed.

(* a descriptor served by a ReferrerLister (Referrers API response, referrers
   index of the tag schema) is complete: artifactType is the manifest's effective
   type and the annotations are the manifest's *)
Definition desc_complete (s : source) (p : desc) : Prop :=
  d_at p = effective_type s (d_id p) /\
  forall k, lookup k (match d_ann p with Some m => m | None => [] end) =
            lookup k (manifest_annots s (d_id p)).

Definition served_ok (s : source) (p : desc) : Prop :=
  desc_consistent s p /\ (s_lister s = true -> desc_complete s p).

Lemma keep_ann_complete s key re p :
  desc_complete s p -> keep_ann key re p = keep_spec s (FAnn key re) (d_id p).
Proof.
  intros (_ & Hn). unfold keep_ann, keep_spec. rewrite <- Hn.
  destruct (d_ann p); reflexivity.
Qed.

Lemma apply_lister_spec s f ps :
  Forall (desc_complete s) ps ->
  map d_id (apply_lister f ps) = List.filter (keep_spec s f) (map d_id ps).
Proof.
  intro H. rewrite <- (map_id ps) at 1. destruct f as [[re|] | key re]; simpl.
  - apply (filter_map_spec (desc_complete s)); [|exact H].
    intros p Hp. destruct Hp as (Ha & Hn). rewrite Ha. repeat split; auto.
  - now rewrite filter_true, map_id.
  - apply (filter_map_spec (desc_complete s)); [|exact H].
    intros p Hp. auto using keep_ann_complete.
Qed.

Lemma apply_lister_Forall (P : desc -> Prop) f ps : Forall P ps -> Forall P (apply_lister f ps).
Proof. destruct f as [[re|] | key re]; simpl; auto using filter_Forall. Qed.

Definition acc_ok (s : source) (acc : bool * list desc) : Prop :=
  Forall (desc_consistent s) (snd acc) /\
  (fst acc = true -> s_lister s = true -> Forall (desc_complete s) (snd acc)).

Lemma step_spec s f acc :
  acc_ok s acc ->
  map d_id (snd (step_gen fill_at s acc f)) = List.filter (keep_spec s f) (map d_id (snd acc)) /\
  acc_ok s (step_gen fill_at s acc f).
Proof.
  intros (Hc & Hl). unfold step_gen. destruct (is_noop f) eqn:En.
  - destruct f as [[re|] | key re]; try discriminate. simpl. rewrite filter_true.
    split; [reflexivity | split; assumption].
  - destruct (fst acc && s_lister s)%bool eqn:Eb.
    + apply andb_true_iff in Eb. destruct Eb as (E1 & E2). simpl. split.
      * apply apply_lister_spec. auto.
      * split; simpl; [apply apply_lister_Forall; exact Hc | discriminate].
    + simpl. destruct (apply_filter_spec s f (snd acc) Hc) as (H1 & H2).
      split; [exact H1 | split; simpl; [exact H2 | discriminate]].
Qed.

Lemma find_preds_fold s fs : forall acc,
  acc_ok s acc ->
  map d_id (snd (fold_left (step_gen fill_at s) fs acc)) =
  List.filter (fun id => forallb (fun f => keep_spec s f id) fs) (map d_id (snd acc)).
Proof.
  induction fs as [|f fs IH]; intros acc H; simpl.
  - now rewrite filter_true.
  - destruct (step_spec s f acc H) as (H1 & H2).
    rewrite (IH _ H2), H1. apply filter_filter.
Qed.

(* no filter installed: opts.FindPredecessors is src.Predecessors *)
Lemma find_preds_nil s x : find_preds s [] x = s_preds s x.
Proof. reflexivity. Qed.

(* opts.FindPredecessors after any stack of filters follows exactly the
   predecessors whose manifest satisfies every filter (same order, same multiplicity) *)
Lemma find_preds_exact s fs x :
  Forall (served_ok s) (s_preds s x) ->
  map d_id (find_preds s fs x) =
  List.filter (fun id => forallb (fun f => keep_spec s f id) fs) (map d_id (s_preds s x)).
Proof.
  intro H. unfold find_preds, find_preds_gen.
  apply (find_preds_fold s fs (true, s_preds s x)). split; simpl.
  - eapply Forall_impl; [|exact H]. intros p (Hp & _). exact Hp.
  - intros _ Hl. eapply Forall_impl; [|exact H]. intros p (_ & Hp). auto.
Qed.

Lemma find_preds_followed_iff s fs x y :
  Forall (served_ok s) (s_preds s x) ->
  (In y (map d_id (find_preds s fs x)) <->
   In y (map d_id (s_preds s x)) /\ forall f, In f fs -> keep_spec s f y = true).
Proof.
  intro H. rewrite (find_preds_exact s fs x H), filter_In, forallb_forall. tauto.
Qed.

(* filters stacked on a caller's own FindPredecessors follow exactly those of ITS predecessors
   whose manifest satisfies the filters (the descriptors it returns may lack fields; present
   fields must be the manifest's; no completeness needed: nothing is taken on trust) *)
Lemma find_preds_custom_exact s custom fs x :
  Forall (desc_consistent s) (custom x) ->
  map d_id (find_preds_custom s custom fs x) =
  List.filter (fun id => forallb (fun f => keep_spec s f id) fs) (map d_id (custom x)).
Proof.
  intro H. unfold find_preds_custom.
  apply (find_preds_fold s fs (false, custom x)). split; simpl; [exact H | discriminate].
Qed.

Lemma find_preds_custom_nil s custom x : find_preds_custom s custom [] x = custom x.
Proof. reflexivity. Qed.

(* A store that serves predecessors as plain descriptors (media type, digest, size only -- what a
   reloaded OCI layout does since fix fda86b1) satisfies served_ok outright: every filter fetches
   and judges the manifest itself. *)
Definition plain_desc (p : desc) : Prop := d_at p = [] /\ d_ann p = None.

Lemma plain_served_ok s p : s_lister s = false -> plain_desc p -> served_ok s p.
Proof.
  intros Hl (Ha & Hn). split.
  - split; [left; exact Ha | now rewrite Hn].
  - rewrite Hl. discriminate.
Qed.

Lemma find_preds_exact_plain s fs x :
  s_lister s = false -> Forall plain_desc (s_preds s x) ->
  map d_id (find_preds s fs x) =
  List.filter (fun id => forallb (fun f => keep_spec s f id) fs) (map d_id (s_preds s x)).
Proof.
  intros Hl H. apply find_preds_exact. eapply Forall_impl; [|exact H].
  intros p Hp. now apply plain_served_ok.
Qed.

(* whatever is served, a filter only drops descriptors and never changes a key: the followed
   relation inherits acyclicity and finiteness from the source *)
Definition shrinks (l' l : list desc) : Prop :=
  (forall p, In p l' -> In (d_id p) (map d_id l)) /\ length l' <= length l.

Lemma shrinks_refl l : shrinks l l.
Proof. split; [intros p Hp; now apply in_map | lia]. Qed.

Lemma shrinks_map (fill : desc -> desc) l : (forall q, d_id (fill q) = d_id q) -> shrinks (map fill l) l.
Proof.
  intro Hid. split; [|now rewrite map_length].
  intros p Hp. apply in_map_iff in Hp. destruct Hp as (q & <- & Hq). rewrite Hid. now apply in_map.
Qed.

Lemma shrinks_filter keep l' l : shrinks l' l -> shrinks (List.filter keep l') l.
Proof.
  intros (Hi & Hl). split.
  - intros p Hp. apply filter_In in Hp. apply Hi, Hp.
  - assert (length (List.filter keep l') <= length l'); [|lia].
    clear. induction l' as [|a l' IH]; simpl; [|destruct (keep a); simpl]; lia.
Qed.

Lemma shrinks_trans l2 l1 l0 : shrinks l2 l1 -> shrinks l1 l0 -> shrinks l2 l0.
Proof.
  intros (Hi2 & Hl2) (Hi1 & Hl1). split; [|lia].
  intros p Hp. apply Hi2, in_map_iff in Hp. destruct Hp as (q & <- & Hq). auto.
Qed.

Lemma step_gen_shrinks fill s f acc :
  (forall q, d_id (fill s q) = d_id q) -> shrinks (snd (step_gen fill s acc f)) (snd acc).
Proof.
  intro Hid. unfold step_gen. destruct (is_noop f); [apply shrinks_refl|].
  destruct (fst acc && s_lister s)%bool; destruct f as [[re|] | key re]; simpl;
    auto using shrinks_refl, shrinks_filter, shrinks_map, fill_ann_id.
Qed.

Lemma find_preds_gen_shrinks fill s fs x :
  (forall q, d_id (fill s q) = d_id q) -> shrinks (find_preds_gen fill s fs x) (s_preds s x).
Proof.
  intro Hid. unfold find_preds_gen.
  change (s_preds s x) with (snd (true, s_preds s x)) at 2.
  generalize (true, s_preds s x) as acc.
  induction fs as [|f fs IH]; intros acc; simpl.
  - apply shrinks_refl.
  - eapply shrinks_trans; [apply IH | now apply step_gen_shrinks].
Qed.

Lemma find_preds_ids s fs x p :
  In p (find_preds s fs x) -> In (d_id p) (map d_id (s_preds s x)).
Proof. apply (find_preds_gen_shrinks fill_at s fs x (fill_at_id s)). Qed.

Lemma find_preds_rank s fs (rank : nat -> nat) :
  (forall x p, In p (s_preds s x) -> rank x < rank (d_id p)) ->
  forall x p, In p (find_preds s fs x) -> rank x < rank (d_id p).
Proof.
  intros H x p Hp. apply find_preds_ids in Hp. apply in_map_iff in Hp.
  destruct Hp as (q & <- & Hq). now apply H.
Qed.

(* the filter as it was before the fix (find_preds_prefix): an image manifest that declares
   artifactType was judged on its config media type (defect F9) *)

Definition f9_source : source :=
  mkSource (fun x => match x with 0 => [mkDesc 1 [] None] | _ => [] end)
           (fun x => match x with 1 => KImage | _ => KOther end)
           (fun x => match x with 1 => b "application/vnd.example.sbom" | _ => [] end)
           (fun x => match x with 1 => b "application/vnd.oci.empty.v1+json" | _ => [] end)
           (fun _ => None) false.

Definition f9_regex : str -> bool := str_eqb (b "application/vnd.example.sbom").

Lemma find_preds_prefix_refuted :
  exists s re x,
    Forall (served_ok s) (s_preds s x) /\
    map d_id (find_preds_prefix s [FArt (Some re)] x) <>
    List.filter (fun id => re (effective_type s id)) (map d_id (s_preds s x)).
Proof.
  exists f9_source, f9_regex, 0. split.
  - constructor; [|constructor]. split; [split; simpl; auto | discriminate].
  - vm_compute. discriminate.
Qed.

(* the same manifest behind a descriptor that carries artifactType was followed:
   the pre-fix outcome depended on where the descriptor came from *)
Lemma find_preds_prefix_source_dependent :
  let s1 := f9_source in
  let s2 := mkSource (fun x => match x with
                               | 0 => [mkDesc 1 (b "application/vnd.example.sbom") None]
                               | _ => [] end)
                     (s_kind s1) (s_mat s1) (s_mcfg s1) (s_mann s1) false in
  map d_id (find_preds_prefix s1 [FArt (Some f9_regex)] 0) = [] /\
  map d_id (find_preds_prefix s2 [FArt (Some f9_regex)] 0) = [1] /\
  map d_id (find_preds s1 [FArt (Some f9_regex)] 0) = [1] /\
  map d_id (find_preds s2 [FArt (Some f9_regex)] 0) = [1].
Proof. vm_compute. repeat split. Qed.

Section Closure.
  Variable s : source.
  Variable fs : list filter.
  Variable limit : Z.
  Variable node : desc.
  Variable succ : nat -> list nat.          (* links of a node (content.Successors) *)
  Hypothesis pred_is_inverse_link : forall x p, In p (s_preds s x) -> In x (succ (d_id p)).

  Inductive down : nat -> nat -> Prop :=
  | down0 x : down x x
  | downS x y z : In y (succ x) -> down y z -> down x z.

  Lemma down_trans x y z : down x y -> down y z -> down x z.
  Proof. intros H1 H2. induction H1; auto. econstructor; eauto. Qed.

  Lemma reach_down x y : reach (find_preds s fs) x y -> down y x.
  Proof.
    intros (k & H). induction H as [x | k x y z Hp IH He]; [constructor|].
    unfold E in He. apply in_map_iff in He. destruct He as (p & <- & Hin).
    apply find_preds_ids in Hin. apply in_map_iff in Hin. destruct Hin as (q & Eq & Hq).
    apply pred_is_inverse_link in Hq. rewrite Eq in Hq.
    econstructor; [exact Hq | exact IH].
  Qed.

  Variable held : nat -> Prop.   (* the destination holds the node, byte-identical *)

  Lemma extended_closure_gen (rank : nat -> nat) fuel roots :
    (forall x p, In p (s_preds s x) -> rank x < rank (d_id p)) ->
    (limit <= 0)%Z ->
    find_roots fuel s fs limit node = Some roots ->
    (* what C01 proves about the copy phase: each root's graph arrives *)
    (forall r, In r roots -> forall x, down (d_id r) x -> held x) ->
    forall a, reach (find_preds s fs) (d_id node) a -> forall x, down a x -> held x.
  Proof.
    intros Hrank Hl Hf Hcopy a Ha x Hx.
    destruct (roots_unlimited (find_preds s fs) limit node rank
                (find_preds_rank s fs rank Hrank) fuel roots Hl Hf) as (_ & _ & H3).
    destruct (H3 a Ha) as (r & Hr & Hra).
    apply (Hcopy r Hr). eapply down_trans; [apply reach_down; exact Hra | exact Hx].
  Qed.

  Lemma depth_own_graph (rank : nat -> nat) fuel roots :
    (forall x p, In p (s_preds s x) -> rank x < rank (d_id p)) ->
    find_roots fuel s fs limit node = Some roots ->
    (forall r, In r roots -> forall x, down (d_id r) x -> held x) ->
    forall x, down (d_id node) x -> held x.
  Proof.
    intros Hrank Hf Hcopy x Hx.
    destruct (roots_cover_node (find_preds s fs) limit node rank
                (find_preds_rank s fs rank Hrank) fuel roots Hf) as ((r & Hr & Hnr) & _).
    apply (Hcopy r Hr). eapply down_trans; [apply reach_down; exact Hnr | exact Hx].
  Qed.
End Closure.

Lemma extended_copy_tags resolve ok tag_ok src_ref dst_ref tags node tags' :
  extended_copy resolve ok tag_ok src_ref dst_ref tags = Some (node, tags') ->
  resolve src_ref = Some node /\ ok node = true /\
  resolve_tag (if is_empty dst_ref then src_ref else dst_ref) tags' = Some (d_id node).
Proof.
  unfold extended_copy. destruct (resolve src_ref) as [n|]; [|discriminate].
  destruct (ok n) eqn:Eo; [|discriminate]. destruct tag_ok; [|discriminate].
  intro H. injection H as <- <-. repeat split; auto.
  simpl. now rewrite str_eqb_refl.
Qed.

Lemma extended_copy_x_spec resolve roots_ok copy_ok tag_ok src_ref dst_ref tags :
  match extended_copy_x resolve roots_ok copy_ok tag_ok src_ref dst_ref tags with
  | XOk node tags' =>
      extended_copy resolve (fun _ => (roots_ok && copy_ok)%bool) tag_ok src_ref dst_ref tags = Some (node, tags')
  | XErr op =>
      extended_copy resolve (fun _ => (roots_ok && copy_ok)%bool) tag_ok src_ref dst_ref tags = None /\
      match op with
      | OpResolve => resolve src_ref = None
      | OpFindPredecessors => resolve src_ref <> None /\ roots_ok = false
      | OpCopy => resolve src_ref <> None /\ roots_ok = true /\ copy_ok = false
      | OpTag => resolve src_ref <> None /\ roots_ok = true /\ copy_ok = true /\ tag_ok = false
      end
  end.
Proof.
  unfold extended_copy_x, extended_copy. destruct (resolve src_ref) as [n|]; [|split; reflexivity].
  destruct roots_ok, copy_ok, tag_ok; simpl; repeat split; auto; discriminate.
Qed.

Definition acyclic_source (s : source) (rank : nat -> nat) : Prop :=
  forall x p, In p (s_preds s x) -> rank x < rank (d_id p).

Definition anc (s : source) (fs : list filter) : nat -> nat -> Prop := reach (find_preds s fs).
Definition anc_steps (s : source) (fs : list filter) : nat -> nat -> nat -> Prop := path (find_preds s fs).

(* the fuel the runner uses always suffices on a finite source *)
Lemma find_roots_terminates s fs limit node n :
  (forall x p, x < n -> In p (s_preds s x) -> d_id p < n) -> d_id node < n ->
  exists roots, find_roots (fuel_for s n) s fs limit node = Some roots.
Proof.
  intros Hc Hn. unfold find_roots.
  apply (dfs_terminates (find_preds s fs) limit node (seq 0 n)).
  - intros x p Hx Hp. apply in_seq in Hx. apply in_seq.
    apply find_preds_ids in Hp. apply in_map_iff in Hp. destruct Hp as (q & <- & Hq).
    assert (d_id q < n) by (apply (Hc x q); [lia | exact Hq]). lia.
  - apply in_seq. lia.
  - unfold fuel_for.
    pose proof (list_sum_le (fun u => length (find_preds s fs u)) (fun u => length (s_preds s u)) (seq 0 n)
                  (fun u => proj2 (find_preds_gen_shrinks fill_at s fs u (fill_at_id s)))). lia.
Qed.

(* Depth = d: nothing outside the graphs of ancestors at most d steps away, given
   that the copy phase writes only what lies under a root (C01) *)
Lemma depth_upper s fs rank limit node (succ : nat -> list nat) (held initially : nat -> Prop) fuel roots :
  acyclic_source s rank -> (0 < limit)%Z ->
  find_roots fuel s fs limit node = Some roots ->
  (forall x, held x -> initially x \/ exists r, In r roots /\ down succ (d_id r) x) ->
  forall x, held x ->
    initially x \/
    exists a k, (Z.of_nat k <= limit)%Z /\ anc_steps s fs k (d_id node) a /\ down succ a x.
Proof.
  intros Hr Hl H Hc x Hx. destruct (Hc x Hx) as [Hi | (r & Hin & Hd)]; [auto|]. right.
  destruct (roots_depth (find_preds s fs) limit node rank (find_preds_rank s fs rank Hr) fuel roots Hl H)
    as (H1 & _).
  destruct (H1 r Hin) as ((k & Hk & Hp) & _). exists (d_id r), k. auto.
Qed.

(* The upward closure in terms of MANIFEST CONTENT only: y is followed from x iff the source
   lists y as a predecessor of x and y's manifest satisfies every filter. *)
Definition followed_spec (s : source) (fs : list filter) (x y : nat) : Prop :=
  In y (map d_id (s_preds s x)) /\ forall f, In f fs -> keep_spec s f y = true.

Inductive rpath (R : nat -> nat -> Prop) : nat -> nat -> nat -> Prop :=
| rpath0 x : rpath R 0 x x
| rpathS k x y z : rpath R k x y -> R y z -> rpath R (S k) x z.

Definition anc_spec (s : source) (fs : list filter) (a c : nat) : Prop :=
  exists k, rpath (followed_spec s fs) k a c.

Definition all_served_ok (s : source) : Prop := forall x, Forall (served_ok s) (s_preds s x).

Lemma E_followed_spec s fs x y :
  all_served_ok s -> (E (find_preds s fs) x y <-> followed_spec s fs x y).
Proof. intro H. unfold E, followed_spec. apply find_preds_followed_iff. apply H. Qed.

(* The walk in terms of any relation R equivalent to the followed-predecessor relation
   (manifest content: followed_spec; links of stored content: Proofs/FindRootsMem.v) *)
Section Rel.
  Variable fp : nat -> list desc.
  Variable R : nat -> nat -> Prop.
  Hypothesis HR : forall x y, E fp x y <-> R x y.

  Lemma path_rel k a c : path fp k a c <-> rpath R k a c.
  Proof. split; intro P; induction P; try constructor; econstructor; eauto; now apply HR. Qed.

  Lemma reach_rel a c : reach fp a c <-> exists k, rpath R k a c.
  Proof. split; intros (k & P); exists k; now apply path_rel. Qed.

  Lemma nil_rel x : fp x = [] <-> forall y, ~ R x y.
  Proof.
    split.
    - intros E0 y Hy. apply HR in Hy. unfold E in Hy. rewrite E0 in Hy. contradiction.
    - intro Hn. destruct (fp x) as [|p l] eqn:Ep; auto.
      destruct (Hn (d_id p)). apply HR. unfold E. rewrite Ep. left. reflexivity.
  Qed.

  Variable rank : nat -> nat.
  Hypothesis Hrank : forall x p, In p (fp x) -> rank x < rank (d_id p).

  Lemma roots_unlimited_rel limit node fuel roots :
    (limit <= 0)%Z -> find_roots_fp fuel fp limit node = Some roots ->
    let up a c := exists k, rpath R k a c in
    (forall r, In r roots -> up (d_id node) (d_id r) /\ forall y, ~ R (d_id r) y) /\
    (forall a, up (d_id node) a -> (forall y, ~ R a y) -> In a (map d_id roots)) /\
    (forall a, up (d_id node) a -> exists r, In r roots /\ up a (d_id r)).
  Proof.
    intros Hl Hf up.
    destruct (roots_unlimited fp limit node rank Hrank fuel roots Hl Hf) as (H1 & H2 & H3).
    repeat split.
    - apply reach_rel. now apply H1.
    - apply nil_rel. now apply H1.
    - intros a Ha Hn. apply H2; [now apply reach_rel | now apply nil_rel].
    - intros a Ha. destruct (H3 a) as (r & Hr & Hra); [now apply reach_rel|].
      exists r. split; auto. now apply reach_rel.
  Qed.

  Lemma roots_depth_rel limit node fuel roots :
    (0 < limit)%Z -> find_roots_fp fuel fp limit node = Some roots ->
    (forall r, In r roots -> exists k, (Z.of_nat k <= limit)%Z /\ rpath R k (d_id node) (d_id r)) /\
    (exists r, In r roots /\ exists k, rpath R k (d_id node) (d_id r)).
  Proof.
    intros Hl Hf.
    destruct (roots_depth fp limit node rank Hrank fuel roots Hl Hf) as (H1 & (r & Hr & Hnr)).
    split.
    - intros r' Hr'. destruct (H1 r' Hr') as ((k & Hk & Hp) & _). exists k. split; auto.
      now apply path_rel.
    - exists r. split; auto. now apply reach_rel.
  Qed.
End Rel.

(* Order independence (Depth <= 0): two sources that serve the same predecessor SETS (any order,
   any multiplicity, any descriptor fields as long as both are served_ok) over the same
   manifests give the same SET of roots. *)
Lemma roots_unlimited_order_independent s1 s2 fs rank1 rank2 limit node fuel1 fuel2 roots1 roots2 :
  (forall x y, In y (map d_id (s_preds s1 x)) <-> In y (map d_id (s_preds s2 x))) ->
  (forall f y, keep_spec s1 f y = keep_spec s2 f y) ->
  all_served_ok s1 -> all_served_ok s2 ->
  acyclic_source s1 rank1 -> acyclic_source s2 rank2 -> (limit <= 0)%Z ->
  find_roots fuel1 s1 fs limit node = Some roots1 ->
  find_roots fuel2 s2 fs limit node = Some roots2 ->
  forall a, In a (map d_id roots1) <-> In a (map d_id roots2).
Proof.
  intros Hp Hk Ok1 Ok2 Ac1 Ac2 Hl F1 F2.
  (* both walks are walks over the relation followed_spec s2 fs *)
  assert (HR : forall x y, E (find_preds s1 fs) x y <-> followed_spec s2 fs x y).
  { intros x y. rewrite (E_followed_spec s1 fs x y Ok1). unfold followed_spec. rewrite (Hp x y).
    split; intros (H1 & H2); split; auto; intros f Hf; [rewrite <- Hk | rewrite Hk]; auto. }
  destruct (roots_unlimited_rel (find_preds s1 fs) (followed_spec s2 fs) HR rank1
              (find_preds_rank s1 fs rank1 Ac1) limit node fuel1 roots1 Hl F1) as (A1 & A2 & _).
  destruct (roots_unlimited_rel (find_preds s2 fs) (followed_spec s2 fs)
              (fun x y => E_followed_spec s2 fs x y Ok2) rank2
              (find_preds_rank s2 fs rank2 Ac2) limit node fuel2 roots2 Hl F2) as (B1 & B2 & _).
  intro a. split; intro Ha; apply in_map_iff in Ha; destruct Ha as (r & <- & Hr).
  - destruct (A1 r Hr). now apply B2.
  - destruct (B1 r Hr). now apply A2.
Qed.

(* Failing source operations (find_roots_e and what it is built from).  Success with a fault
   armed means the fault was never reached, and the result is the fault-free one: no error is
   swallowed into a partial predecessor list or a partial root set. *)

(* [r] refines the fault-free value [v] under the countdown [k]: a success returns [v], a failure
   needs an armed fault, and no fault armed stays no fault armed *)
Definition refines {A} (r : option (A * nat)) (v : A) (k : nat) : Prop :=
  match r with Some (a, k') => a = v /\ (k = 0 -> k' = 0) | None => k <> 0 end.

Lemma refines_later {A} (r : option (A * nat)) v k k1 :
  (k = 0 -> k1 = 0) -> refines r v k1 -> refines r v k.
Proof. destruct r as [[a k']|]; simpl; intuition auto. Qed.

Lemma tick_spec k : match tick k with Some k1 => k = 0 -> k1 = 0 | None => k <> 0 end.
Proof. destruct k as [|[|k]]; simpl; auto; discriminate. Qed.

Lemma filter_e_refines need fill keep ps : forall k,
  refines (filter_e need fill keep ps k) (List.filter keep (map fill ps)) k.
Proof.
  induction ps as [|p ps IH]; intro k; simpl; [auto|].
  assert (Hk : match (if need p then tick k else Some k) with
               | Some k1 => k = 0 -> k1 = 0 | None => k <> 0 end)
    by (destruct (need p); [apply tick_spec | auto]).
  destruct (if need p then tick k else Some k) as [k1|]; [|exact Hk].
  apply (refines_later _ _ k k1 Hk). specialize (IH k1).
  destruct (filter_e need fill keep ps k1) as [[kept k2]|]; [|exact IH].
  destruct IH as (-> & H0). split; auto.
Qed.

Lemma apply_filter_e_refines s f ps k : refines (apply_filter_e s f ps k) (apply_filter s f ps) k.
Proof. destruct f as [[re|] | key re]; simpl; auto using filter_e_refines. Qed.

Lemma fold_step_e_none s fs : fold_left (step_e s) fs None = None.
Proof. induction fs; simpl; auto. Qed.

Lemma fold_step_e_refines s fs : forall acc k,
  refines (fold_left (step_e s) fs (Some (acc, k))) (fold_left (step_gen fill_at s) fs acc) k.
Proof.
  induction fs as [|f fs IH]; intros [first ps] k; simpl; [auto|].
  unfold step_gen at 2. simpl. destruct (is_noop f); [apply IH|].
  destruct (first && s_lister s)%bool; [apply IH|].
  pose proof (apply_filter_e_refines s f ps k) as Hf.
  destruct (apply_filter_e s f ps k) as [[ps1 k1]|]; simpl in Hf.
  - destruct Hf as (-> & H0). apply (refines_later _ _ k k1 H0), IH.
  - rewrite fold_step_e_none. exact Hf.
Qed.

(* opts.FindPredecessors with the countdown, from any start of the filter chain: find_preds_e
   (acc = (true, s_preds s x)) and find_preds_custom_e (acc = (false, custom x)) *)
Lemma chain_e_refines s fs acc k :
  refines match tick k with
          | None => None
          | Some k1 => match fold_left (step_e s) fs (Some (acc, k1)) with
                       | None => None
                       | Some (_, ps, k2) => Some (ps, k2)
                       end
          end (snd (fold_left (step_gen fill_at s) fs acc)) k.
Proof.
  pose proof (tick_spec k) as Hk. destruct (tick k) as [k1|]; [|exact Hk].
  apply (refines_later _ _ k k1 Hk).
  pose proof (fold_step_e_refines s fs acc k1) as Hf.
  destruct (fold_left (step_e s) fs (Some (acc, k1))) as [[[b ps] k2]|]; [|exact Hf].
  destruct Hf as (<- & H0). split; auto.
Qed.

Lemma find_preds_e_refines s fs x k : refines (find_preds_e s fs x k) (find_preds s fs x) k.
Proof. apply chain_e_refines. Qed.

Lemma find_preds_custom_e_refines s custom fs x k :
  refines (find_preds_custom_e s custom fs x k) (find_preds_custom s custom fs x) k.
Proof. apply chain_e_refines. Qed.

Lemma dfs_ef_refines fuel fpe fp limit :
  (forall x k, refines (fpe x k) (fp x) k) ->
  forall st V R k,
  match dfs_ef fuel fpe limit st V R k with
  | ROk roots => dfs fuel fp limit st V R = Some roots
  | RFuel => dfs fuel fp limit st V R = None
  | RErr => k <> 0
  end.
Proof.
  intro Href. induction fuel as [|fuel IH]; intros st V R k; cbn [dfs_ef dfs]; [reflexivity|].
  destruct st as [|[cur d] rest]; [reflexivity|].
  destruct (mem (d_id cur) V); [apply IH|].
  destruct ((0 <? limit)%Z && (Z.of_nat d =? limit)%Z)%bool; [apply IH|].
  specialize (Href (d_id cur) k). destruct (fpe (d_id cur) k) as [[ps k']|]; [|exact Href].
  destruct Href as (-> & H0).
  destruct (fp (d_id cur)) as [|p0 ps];
    [specialize (IH rest (d_id cur :: V) (add_root cur R) k')
    |specialize (IH (push_preds (p0 :: ps) (S d) (d_id cur :: V) rest) (d_id cur :: V) R k')];
    destruct (dfs_ef fuel fpe limit _ _ _ k'); auto.
Qed.

Lemma dfs_e_is_ef fuel s fs limit : forall st V R k,
  dfs_e fuel s fs limit st V R k = dfs_ef fuel (find_preds_e s fs) limit st V R k.
Proof.
  induction fuel as [|fuel IH]; intros st V R k; cbn [dfs_e dfs_ef]; [reflexivity|].
  destruct st as [|[cur d] rest]; [reflexivity|].
  destruct (mem (d_id cur) V); [apply IH|].
  destruct ((0 <? limit)%Z && (Z.of_nat d =? limit)%Z)%bool; [apply IH|].
  destruct (find_preds_e s fs (d_id cur) k) as [[[|p0 ps] k']|]; auto.
Qed.

Lemma find_roots_e_refines fuel s fs limit node k :
  match find_roots_e fuel s fs limit node k with
  | ROk roots => find_roots fuel s fs limit node = Some roots
  | RFuel => find_roots fuel s fs limit node = None
  | RErr => k <> 0
  end.
Proof.
  unfold find_roots_e. rewrite dfs_e_is_ef. apply dfs_ef_refines. intros x k0. apply find_preds_e_refines.
Qed.

Lemma find_roots_e_success fuel s fs limit node k roots :
  find_roots_e fuel s fs limit node k = ROk roots -> find_roots fuel s fs limit node = Some roots.
Proof. intro H. pose proof (find_roots_e_refines fuel s fs limit node k) as Hr. now rewrite H in Hr. Qed.

Lemma find_roots_e_nofault fuel s fs limit node :
  find_roots_e fuel s fs limit node 0 =
  match find_roots fuel s fs limit node with Some roots => ROk roots | None => RFuel end.
Proof.
  pose proof (find_roots_e_refines fuel s fs limit node 0) as Hr.
  destruct (find_roots_e fuel s fs limit node 0); [now rewrite Hr | congruence | now rewrite Hr].
Qed.

(* a reached fault is an error: the first operation failing fails the call (whatever the depth:
   the given node is never at depth Depth > 0) *)
Lemma find_roots_e_first_op fuel s fs limit node : find_roots_e (S fuel) s fs limit node 1 = RErr.
Proof.
  unfold find_roots_e. cbn [dfs_e]. simpl mem.
  assert (E : ((0 <? limit)%Z && (Z.of_nat 0 =? limit)%Z)%bool = false).
  { destruct (0 <? limit)%Z eqn:E1; [|reflexivity]. apply Z.ltb_lt in E1. apply Z.eqb_neq. simpl. lia. }
  rewrite E. reflexivity.
Qed.

Lemma find_roots_custom_e_success fuel s custom fs limit node k roots :
  find_roots_custom_e fuel s custom fs limit node k = ROk roots ->
  find_roots_fp fuel (find_preds_custom s custom fs) limit node = Some roots.
Proof.
  intro H. unfold find_roots_custom_e in H.
  pose proof (dfs_ef_refines fuel _ _ limit (find_preds_custom_e_refines s custom fs) [(node, 0)] [] [] k) as Hr.
  now rewrite H in Hr.
Qed.

Lemma find_roots_e_total s fs limit node n k :
  (forall x p, x < n -> In p (s_preds s x) -> d_id p < n) -> d_id node < n ->
  find_roots_e (fuel_for s n) s fs limit node k <> RFuel.
Proof.
  intros Hc Hn H. pose proof (find_roots_e_refines (fuel_for s n) s fs limit node k) as Hr.
  rewrite H in Hr. destruct (find_roots_terminates s fs limit node n Hc Hn). congruence.
Qed.

Lemma dfs_log_fst fuel fp limit : forall st V R calls,
  option_map fst (dfs_log fuel fp limit st V R calls) = dfs fuel fp limit st V R.
Proof.
  induction fuel as [|fuel IH]; intros st V R calls; cbn [dfs_log dfs]; [reflexivity|].
  destruct st as [|[cur d] rest]; [reflexivity|].
  destruct (mem (d_id cur) V); [apply IH|].
  destruct ((0 <? limit)%Z && (Z.of_nat d =? limit)%Z)%bool; [apply IH|].
  destruct (fp (d_id cur)); apply IH.
Qed.

(* FindPredecessors is called at most once per node: it is called on a node when the node
   enters the visited set *)
Lemma dfs_log_calls fuel fp limit : forall st V R calls roots out,
  NoDup calls -> (forall c, In c calls -> In c V) ->
  dfs_log fuel fp limit st V R calls = Some (roots, out) -> NoDup out.
Proof.
  induction fuel as [|fuel IH]; intros st V R calls roots out Hnd Hsub H; cbn [dfs_log] in H; [discriminate|].
  destruct st as [|[cur d] rest]; [injection H as _ <-; now apply NoDup_rev|].
  destruct (mem (d_id cur) V) eqn:Em; [eapply IH; eauto|].
  apply mem_not_In in Em.
  assert (Hsub' : forall c, In c calls -> In c (d_id cur :: V)) by (intros c Hc; right; auto).
  destruct ((0 <? limit)%Z && (Z.of_nat d =? limit)%Z)%bool; [eapply IH; eauto|].
  assert (Hnd' : NoDup (d_id cur :: calls)).
  { constructor; [intro Hc; apply Em; now apply Hsub | exact Hnd]. }
  assert (Hsub2 : forall c, In c (d_id cur :: calls) -> In c (d_id cur :: V)).
  { intros c [<- | Hc]; [left; reflexivity | right; auto]. }
  destruct (fp (d_id cur)); eapply IH; eauto.
Qed.

Lemma find_roots_log_spec fuel s fs limit node roots out :
  find_roots_log fuel s fs limit node = Some (roots, out) ->
  find_roots fuel s fs limit node = Some roots /\ NoDup out.
Proof.
  unfold find_roots_log, find_roots, find_roots_fp. intro H. split.
  - rewrite <- dfs_log_fst with (calls := []). now rewrite H.
  - apply (dfs_log_calls fuel (find_preds s fs) limit [(node, 0)] [] [] [] roots out);
      [constructor | intros c [] | exact H].
Qed.

Lemma findRoots_stop_spec limit d :
  findRoots_stop limit (Z.of_nat d) = ((0 <? limit)%Z && (Z.of_nat d =? limit)%Z)%bool.
Proof. unfold findRoots_stop. now rewrite Z.gtb_ltb. Qed.

Lemma findRoots_push_depth_spec limit d :
  Z.to_nat (findRoots_push_depth limit (Z.of_nat d)) = S d.
Proof. unfold findRoots_push_depth. lia. Qed.

Lemma findRoots_start_depth_spec : Z.to_nat findRoots_start_depth = 0.
Proof. reflexivity. Qed.

Lemma dfs_log_g_eq fuel fp limit : forall st V R calls,
  dfs_log_g fuel fp limit st V R calls = dfs_log fuel fp limit st V R calls.
Proof.
  induction fuel as [|fuel IH]; intros st V R calls; cbn [dfs_log_g dfs_log]; [reflexivity|].
  destruct st as [|[cur d] rest]; [reflexivity|].
  rewrite findRoots_stop_spec, findRoots_push_depth_spec.
  destruct (mem (d_id cur) V); [apply IH|].
  destruct ((0 <? limit)%Z && (Z.of_nat d =? limit)%Z)%bool; [apply IH|].
  destruct (fp (d_id cur)); apply IH.
Qed.

(* what the runner executes is the proved loop *)
Lemma find_roots_run_eq fuel s fs limit node :
  find_roots_run fuel (find_preds s fs) limit node = find_roots_log fuel s fs limit node.
Proof. unfold find_roots_run, find_roots_log. rewrite findRoots_start_depth_spec. apply dfs_log_g_eq. Qed.

Lemma keep_ann_g_eq key re p : keep_ann_g key re p = keep_ann key re p.
Proof.
  unfold keep_ann_g, keep_ann, filterAnnotation_keep.
  destruct (d_ann p) as [m|]; simpl; [|reflexivity].
  destruct (lookup key m) as [v|]; simpl; [|reflexivity].
  destruct re; reflexivity.
Qed.

Lemma keep_at_g_eq re p : keep_at_g re p = re (d_at p).
Proof. reflexivity. Qed.

Lemma fill_at_g_eq s p : fill_at_g s p = fill_at s p.
Proof. reflexivity. Qed.

Lemma fill_ann_g_eq s p : fill_ann_g s p = fill_ann s p.
Proof. unfold fill_ann_g, fill_ann, filterAnnotation_fetch_guard. destruct (d_ann p); reflexivity. Qed.

Lemma apply_filter_g_eq s f ps : apply_filter_g s f ps = apply_filter s f ps.
Proof.
  destruct f as [[re|] | key re]; unfold apply_filter, apply_filter_gen, apply_filter_g; auto.
  rewrite (map_ext _ _ (fill_ann_g_eq s)). apply filter_ext. intro a. apply keep_ann_g_eq.
Qed.

Lemma apply_lister_g_eq f ps : apply_lister_g f ps = apply_lister f ps.
Proof.
  destruct f as [[re|] | key re]; simpl; auto. apply filter_ext. intro a. apply keep_ann_g_eq.
Qed.

Lemma step_g_eq s acc f : step_g s acc f = step_gen fill_at s acc f.
Proof.
  unfold step_g, step_gen. destruct (is_noop f); auto.
  destruct (fst acc && s_lister s)%bool; [now rewrite apply_lister_g_eq|].
  now rewrite apply_filter_g_eq.
Qed.

Lemma fold_step_g_eq s fs : forall acc,
  fold_left (step_g s) fs acc = fold_left (step_gen fill_at s) fs acc.
Proof. induction fs as [|f fs IH]; intro acc; simpl; auto. now rewrite step_g_eq, IH. Qed.

(* what the runner executes for the filters is the proved function *)
Lemma find_preds_g_eq s fs x : find_preds_g s fs x = find_preds s fs x.
Proof. unfold find_preds_g, find_preds, find_preds_gen. now rewrite fold_step_g_eq. Qed.

Lemma find_preds_custom_g_eq s c fs x : find_preds_custom_g s c fs x = find_preds_custom s c fs x.
Proof. unfold find_preds_custom_g, find_preds_custom. now rewrite fold_step_g_eq. Qed.

(* 0 blob <- 1 image <- {2 artifact referrer, 3 index} ; 3 <- 4 referrer of the index *)
Definition ex_source : source :=
  mkSource (fun x => match x with
                     | 0 => [mkDesc 1 [] None]
                     | 1 => [mkDesc 2 [] None; mkDesc 3 [] None]
                     | 3 => [mkDesc 4 (b "sig") (Some [(b "k", b "v")])]
                     | _ => [] end)
           (fun x => match x with 0 => KOther | 1 => KImage | 2 => KArtifact | 3 => KIndex | _ => KImage end)
           (fun x => match x with 2 => b "sbom" | 4 => b "sig" | _ => [] end)
           (fun x => match x with 1 => b "cfg" | 4 => b "empty" | _ => [] end)
           (fun x => match x with 2 => Some [(b "k", b "w")] | 4 => Some [(b "k", b "v")] | _ => None end) false.

Definition ex_node : desc := mkDesc 0 [] None.

(* a diamond where the depth-limited DFS misses an ancestor that is 2 steps away:
   0 <- 1, 0 <- 2, 2 <- 1 (served order [1;2] pushes 2 on top), 1 <- 3 *)
Definition diamond_source : source :=
  mkSource (fun x => match x with
                     | 0 => [mkDesc 1 [] None; mkDesc 2 [] None]
                     | 2 => [mkDesc 1 [] None]
                     | 1 => [mkDesc 3 [] None]
                     | _ => [] end)
           (fun _ => KIndex) (fun _ => []) (fun _ => []) (fun _ => None) false.

Definition ex_remote : source :=
  mkSource (fun x => match x with
                     | 1 => [mkDesc 2 (b "sbom") (Some [(b "k", b "w")]); mkDesc 4 (b "sig") None]
                     | _ => [] end)
           (fun x => match x with 2 => KArtifact | _ => KImage end)
           (fun x => match x with 2 => b "sbom" | _ => [] end)
           (fun x => match x with 4 => b "sig" | _ => [] end)
           (fun x => match x with 2 => Some [(b "k", b "w")] | _ => None end) true.

Lemma ex_acyclic : acyclic_source ex_source (fun x => x).
Proof.
  intros x p H. destruct x as [|[|[|[|x]]]]; simpl in H;
    repeat (destruct H as [<- | H]; [simpl; lia|]); contradiction.
Qed.

Lemma ex_served_ok : forall x, Forall (served_ok ex_source) (s_preds ex_source x).
Proof.
  intros x. destruct x as [|[|[|[|x]]]]; simpl.
  - repeat constructor. discriminate.
  - repeat constructor; discriminate.
  - constructor.
  - constructor; [|constructor]. split; [|discriminate].
    split; [right; reflexivity | intro k; reflexivity].
  - constructor.
Qed.

Lemma ex_remote_served_ok : forall x, Forall (served_ok ex_remote) (s_preds ex_remote x).
Proof.
  intros x. destruct x as [|[|x]]; simpl; try constructor.
  - split; [split; [right; reflexivity | intro k; reflexivity]|].
    intros _. split; [reflexivity | intro k; reflexivity].
  - constructor; [|constructor].
    split; [split; [right; reflexivity | exact I]|].
    intros _. split; [reflexivity | intro k; reflexivity].
Qed.

Lemma diamond_depth_not_exact :
  option_map (map d_id) (find_roots (fuel_for diamond_source 4) diamond_source [] 2%Z (mkDesc 0 [] None))
    = Some [1] /\
  anc_steps diamond_source [] 2 0 3.
Proof.
  split; [vm_compute; reflexivity|].
  apply (pathS _ 1 0 1 3).
  - apply (pathS _ 0 0 0 1); [constructor | vm_compute; auto].
  - vm_compute. auto.
Qed.

(* served_ok is needed (audit F1).  A descriptor that carries fields which are not the
   manifest's (e.g. the annotations / artifactType of the index entry pointing to it, as a
   reloaded OCI layout served them before fix fda86b1) is judged on those fields: the filters
   do not fetch then. *)
Definition embedded_source : source :=
  mkSource (fun x => match x with
                     | 0 => [mkDesc 1 (b "application/vnd.fake.type")
                                    (Some [(b "vnd.docker.reference.type", b "attestation-manifest")])]
                     | _ => [] end)
           (fun x => match x with 1 => KImage | _ => KOther end)
           (fun _ => [])
           (fun x => match x with 1 => b "application/vnd.oci.image.config.v1+json" | _ => [] end)
           (fun _ => None) false.

Lemma filter_exact_refuted_embedded :
  let keyf := [FAnn (b "vnd.docker.reference.type") None] in
  let typf := [FArt (Some (str_eqb (b "application/vnd.oci.image.config.v1+json")))] in
  ~ Forall (served_ok embedded_source) (s_preds embedded_source 0) /\
  map d_id (find_preds embedded_source keyf 0) = [1] /\
  List.filter (fun id => forallb (fun f => keep_spec embedded_source f id) keyf)
              (map d_id (s_preds embedded_source 0)) = [] /\
  map d_id (find_preds embedded_source typf 0) = [] /\
  List.filter (fun id => forallb (fun f => keep_spec embedded_source f id) typf)
              (map d_id (s_preds embedded_source 0)) = [1].
Proof.
  split; [|vm_compute; repeat split].
  intro H. inversion H as [|p l Hp _]; subst. destruct Hp as ((Ha & _) & _).
  destruct Ha as [Ha | Ha]; vm_compute in Ha; discriminate.
Qed.
