(* Bridge between the graph abstraction of Model/OciGC.v (graph.Memory = its node set, the
   predecessor map derived) and the concrete model of internal/graph/memory.go of property C07
   (Model/GraphMem.v: nodes, predecessors map, successors map; Index and Remove statement by
   statement): on every concrete state that satisfies C07's representation invariant [Inv]
   (proved there for every history of Index / Remove / IndexAll), Predecessors, the danglings
   reported by Remove and the node sets after Index / Remove are exactly the ones the C09 model
   computes from the node set.  Descriptor keys are N there, nat here. *)
From Coq Require Import List NArith Permutation.
Import ListNotations.
From Oras Require Import Model.GraphMem Proofs.GraphMem.
From Oras Require Model.OciGC Proofs.OciGC.

Section Bridge.
Variable succ : nat -> list nat.

Definition contentN (p : N) : list N := map N.of_nat (succ (N.to_nat p)).
Definition absn (g : graph) : list nat := map N.to_nat (g_nodes g).

Lemma In_absn g x : In x (absn g) <-> In (N.of_nat x) (g_nodes g).
Proof.
  unfold absn. rewrite in_map_iff. split.
  - intros (p & <- & Hp). now rewrite N2Nat.id.
  - intro H. exists (N.of_nat x). split; [apply Nat2N.id|assumption].
Qed.

Lemma In_absn_N g p : In (N.to_nat p) (absn g) <-> In p (g_nodes g).
Proof. rewrite In_absn, N2Nat.id. tauto. Qed.

Lemma In_contentN p n : In (N.of_nat n) (contentN p) <-> In n (succ (N.to_nat p)).
Proof.
  unfold contentN. rewrite in_map_iff. split.
  - intros (m & E & Hm). apply Nat2N.inj in E. now subst.
  - intro H. exists n. split; [reflexivity|assumption].
Qed.

Lemma In_contentN_N p d : In d (contentN p) <-> In (N.to_nat d) (succ (N.to_nat p)).
Proof. rewrite <- In_contentN, N2Nat.id. tauto. Qed.

(* Memory.Predecessors = the derived predecessor set of the C09 model *)
Lemma bridge_preds g : Inv contentN g ->
  forall n p, In p (predecessors g n) <-> In (N.to_nat p) (OciGC.preds succ (absn g) (N.to_nat n)).
Proof.
  intros HI n p. destruct (exact_full contentN g HI n) as (_ & H & _). rewrite H.
  rewrite (Proofs.OciGC.preds_In succ), In_absn_N, <- In_contentN, N2Nat.id. tauto.
Qed.

(* Memory.Remove: the danglings it reports (for every iteration order of the successor set),
   the node set and the invariant afterwards *)
Lemma bridge_remove g n order : Inv contentN g -> Permutation order (getd (g_succs g) n) ->
  Inv contentN (fst (remove_ord g n order)) /\
  (forall d, In d (snd (remove_ord g n order)) <->
             In (N.to_nat d) (OciGC.danglings succ (absn g) (N.to_nat n))) /\
  (forall x, In x (absn (fst (remove_ord g n order))) <-> In x (OciGC.removeb (N.to_nat n) (absn g))).
Proof.
  intros HI P. destruct (remove_danglings_full contentN g n order HI P) as (HI' & _ & Hd).
  split; [exact HI'|]. split.
  - intro d. rewrite Hd, (Proofs.OciGC.danglings_In succ).
    rewrite !In_absn_N, In_contentN_N. split.
    + intros (A & B & C & D). repeat split; try assumption. intros p Hp Hs.
      apply In_absn in Hp.
      assert (Hs' : In d (contentN (N.of_nat p))) by (apply In_contentN_N; now rewrite Nat2N.id).
      specialize (D _ Hp Hs'). rewrite <- D. symmetry. apply Nat2N.id.
    + intros (A & B & C & D). repeat split; try assumption. intros p Hp Hs.
      apply In_absn_N in Hp. apply In_contentN_N in Hs. specialize (D _ Hp Hs).
      apply N2Nat.inj. exact D.
  - intro x. rewrite In_absn, remove_ord_nodes, Proofs.OciGC.removeb_In, In_absn. split.
    + intros [Hn Hx]. split; [assumption|]. intro E. apply Hn. subst. now rewrite N2Nat.id.
    + intros [Hx Hn]. split; [|assumption]. intro E. apply Hn. subst. now rewrite Nat2N.id.
Qed.

(* Memory.index (Push, Tag): the node joins the set *)
Lemma bridge_index g n : forall x,
  In x (absn (GraphMem.index g n (contentN n))) <-> x = N.to_nat n \/ In x (absn g).
Proof.
  intro x. rewrite In_absn, index_nodes, In_absn. split.
  - intros [E|H]; [left; subst; symmetry; apply Nat2N.id|now right].
  - intros [E|H]; [left; subst; now rewrite N2Nat.id|now right].
Qed.

End Bridge.
