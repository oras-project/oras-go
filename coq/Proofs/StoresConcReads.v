(* C06 -- reads are linearisable at EVERY reachable configuration (not only at quiescence):
   in every interleaving prefix, the content map and the tag map are those of the sequential
   execution of the commit log, whose per-goroutine projections are prefixes of the programs;
   so a Fetch / Exists / Resolve taken at that moment answers what the sequential execution of
   the operations committed so far answers. *)
From Oras Require Import Base.Prelude Model.Stores Model.StoresConc Model.StoresConcOci Model.StoresConcFile
     Proofs.Stores Proofs.StoresConc Proofs.StoresConcOci Proofs.StoresConcFile.

Theorem reads_linearisable_memory (progs : list (list op)) (sched : list nat) :
  let cf := mconf_run (mconf_init progs) sched in
  let q := fst (run mem_step mem_init (map snd (c_log cf))) in
  (forall i, exists rest, log_of i (c_log cf) ++ rest = nth i progs []) /\
  forall d r, snd (mem_step (c_store cf) (Fetch d)) = snd (mem_step q (Fetch d)) /\
              snd (mem_step (c_store cf) (Exists d)) = snd (mem_step q (Exists d)) /\
              snd (mem_step (c_store cf) (Resolve r)) = snd (mem_step q (Resolve r)).
Proof.
  intros cf q. pose proof (cinv_run progs sched _ (cinv_init progs)) as Hinv. fold cf in Hinv.
  split; [intro i; eexists; apply (si_order _ _ _ _ (ci_sched _ _ Hinv))|]. intros d r.
  pose proof (fun o => proj2 (proj2 (mem_step_cas_res _ _ o (ci_cas _ _ Hinv) (ci_res _ _ Hinv)))) as H.
  exact (conj (H (Fetch d)) (conj (H (Exists d)) (H (Resolve r)))).
Qed.

Theorem reads_linearisable_oci (U : N -> gkey) (B : N -> blob) (progs : list (list op)) (sched : list nat) :
  (forall g, k_dig (U g) = g) -> Forall (wf_op U B) (concat progs) ->
  let cf := oconf_run (oconf_init progs) sched in
  let q := fst (run oci_step oci_init (map snd (oc_log cf))) in
  (forall i, exists rest, log_of i (oc_log cf) ++ rest = nth i progs []) /\
  forall d n, snd (oci_step (oc_store cf) (Fetch d)) = snd (oci_step q (Fetch d)) /\
              snd (oci_step (oc_store cf) (Exists d)) = snd (oci_step q (Exists d)) /\
              snd (oci_step (oc_store cf) (Resolve (RName n))) = snd (oci_step q (Resolve (RName n))).
Proof.
  intros HU Hwf cf q. pose proof (oinv_run U HU B progs sched Hwf _ (oinv_init U B progs)) as Hinv.
  fold cf in Hinv. split; [intro i; eexists; apply (si_order _ _ _ _ (oi_sched _ _ _ _ Hinv))|].
  exact (oci_reads_view _ _ (oi_blobs _ _ _ _ Hinv) (oi_names _ _ _ _ Hinv)).
Qed.

Theorem reads_linearisable_file (fx ig ov : bool) (progs : list (list op)) (sched : list nat) :
  Forall untitled (concat progs) ->
  let cf := fconf_run fx ig ov (fconf_init progs) sched in
  let q := fst (runf (file_step fx ig ov) file_init (map snd (fc_log cf))) in
  (forall i, exists rest, log_of i (fc_log cf) ++ rest = nth i progs []) /\
  forall d r, snd (file_step fx ig ov (fc_store cf) (Fetch d)) = snd (file_step fx ig ov q (Fetch d)) /\
              snd (file_step fx ig ov (fc_store cf) (Exists d)) = snd (file_step fx ig ov q (Exists d)) /\
              snd (file_step fx ig ov (fc_store cf) (Resolve r)) = snd (file_step fx ig ov q (Resolve r)).
Proof.
  intros Hun cf q. pose proof (finv_run fx ig ov progs sched Hun _ (finv_init fx ig ov progs)) as Hinv.
  fold cf in Hinv. split; [intro i; eexists; apply (si_order _ _ _ _ (fi_sched _ _ _ _ _ Hinv))|].
  exact (file_reads_core fx ig ov _ _ (fi_core _ _ _ _ _ Hinv)).
Qed.

(* Tags lists exactly the names that resolve (the digest self-references are filtered out) ... *)
Lemma tags_names (idx : list (ref * desc)) n :
  In (RName n) (map fst (filter (fun e => negb (ref_eqb (fst e) (RDig (d_dig (snd e))))) idx)) <->
  get ref_eqb (RName n) idx <> None.
Proof.
  induction idx as [|[r d] idx IH]; [simpl; split; [intros [] | congruence]|].
  cbn [filter get fst snd]. destruct (ref_eqb (RName n) r) eqn:E.
  - apply ref_eqb_spec in E. subst r. cbn [ref_eqb negb map fst In]. split; [intros _; discriminate | intros _; now left].
  - assert (Hne : r <> RName n) by (intros ->; now rewrite (eqb_refl ref_eqb ref_eqb_spec) in E).
    destruct (negb (ref_eqb r (RDig (d_dig d)))); cbn [map fst In]; [|exact IH].
    split; [intros [X|X]; [congruence | now apply IH] | intro X; right; now apply IH].
Qed.

(* ... so at every reachable configuration of the OCI store the set of names Tags lists is the
   one of the sequential execution of the commit log *)
Theorem tags_linearisable_oci (U : N -> gkey) (B : N -> blob) (progs : list (list op)) (sched : list nat) :
  (forall g, k_dig (U g) = g) -> Forall (wf_op U B) (concat progs) ->
  let cf := oconf_run (oconf_init progs) sched in
  let q := fst (run oci_step oci_init (map snd (oc_log cf))) in
  forall n l l', snd (oci_step (oc_store cf) Tags) = OTags l -> snd (oci_step q Tags) = OTags l' ->
                 (In (RName n) l <-> In (RName n) l').
Proof.
  intros HU Hwf cf q. pose proof (oinv_run U HU B progs sched Hwf _ (oinv_init U B progs)) as Hinv.
  fold cf in Hinv. pose proof (oi_names _ _ _ _ Hinv) as Hnm. fold (seq_ostate (map snd (oc_log cf))) in q.
  intros n l l' H1 H2. subst q. cbn [oci_step snd] in H1, H2. injection H1 as <-. injection H2 as <-.
  specialize (Hnm n). unfold names_of in Hnm.
  split; intro X; apply tags_names; apply tags_names in X; congruence.
Qed.

(* The decision of a Push (stored / already-exists / mismatch / duplicate-name ...) is taken in one
   atomic step that reads the content map: at every reachable configuration it is the decision
   the sequential execution of the commit log takes.  (Memory store: LoadOrStore; file store:
   the name's lock section or the fallback LoadOrStore.  For the OCI store the statement is
   false -- stat and rename are two steps: C06_repush_refused_oci_racing_refuted.) *)
Theorem push_decision_linearisable_memory (progs : list (list op)) (sched : list nat) :
  let cf := mconf_run (mconf_init progs) sched in
  let q := fst (run mem_step mem_init (map snd (c_log cf))) in
  forall d c, snd (mem_step (c_store cf) (Push d c)) = snd (mem_step q (Push d c)).
Proof.
  intros cf q d c. pose proof (cinv_run progs sched _ (cinv_init progs)) as Hinv. fold cf in Hinv.
  exact (proj2 (proj2 (mem_step_cas_res _ _ (Push d c) (ci_cas _ _ Hinv) (ci_res _ _ Hinv)))).
Qed.

Theorem push_decision_linearisable_file (fx ig ov : bool) (progs : list (list op)) (sched : list nat) :
  Forall untitled (concat progs) ->
  let cf := fconf_run fx ig ov (fconf_init progs) sched in
  let q := fst (runf (file_step fx ig ov) file_init (map snd (fc_log cf))) in
  forall d c, snd (file_push_store fx ig ov (fc_store cf) d c) = snd (file_push_store fx ig ov q d c).
Proof.
  intros Hun cf q. pose proof (finv_run fx ig ov progs sched Hun _ (finv_init fx ig ov progs)) as Hinv.
  fold cf in Hinv. intros d c. exact (file_push_store_snd_core fx ig ov _ _ d c (fi_core _ _ _ _ _ Hinv)).
Qed.
