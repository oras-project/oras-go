(* NewFromTar sees the files NewFromFS(os.DirFS) sees. *)
From Coq Require Import List Arith Bool PeanoNat.
From Oras Require Import Model.TarFS.
Import ListNotations.

Section TarFS.
  Variable clean : nat -> nat.
  Notation index_entries := (index_entries clean).
  Notation tar_open := (tar_open clean true).

  Lemma tlookup_tset p q e m :
    tlookup p (tset q e m) = if Nat.eqb p q then Some e else tlookup p m.
  Proof.
    unfold tset. simpl. destruct (Nat.eqb p q) eqn:E; auto.
    induction m as [|[k v] m IH]; simpl; auto.
    destruct (Nat.eqb q k) eqn:E2; simpl.
    - apply Nat.eqb_eq in E2. subst k. rewrite E. exact IH.
    - destruct (Nat.eqb p k); auto.
  Qed.

  Definition fold_idx (tar : list tentry) (m : tindex) : tindex :=
    fold_left (fun m e => tset (clean (te_raw e)) e m) tar m.

  Lemma fold_none tar p : forall m,
    (forall e, In e tar -> clean (te_raw e) <> p) -> tlookup p (fold_idx tar m) = tlookup p m.
  Proof.
    induction tar as [|e tar IH]; intros m H; simpl; auto.
    unfold fold_idx in *. simpl. rewrite IH by (intros x I; apply H; now right).
    rewrite tlookup_tset. destruct (Nat.eqb p (clean (te_raw e))) eqn:E; auto.
    apply Nat.eqb_eq in E. exfalso. apply (H e); [now left|congruence].
  Qed.

  Lemma fold_app a b m : fold_idx (a ++ b) m = fold_idx b (fold_idx a m).
  Proof. unfold fold_idx. apply fold_left_app. Qed.

  Lemma last_wins pre e post p :
    clean (te_raw e) = p -> (forall e', In e' post -> clean (te_raw e') <> p) ->
    tlookup p (index_entries (pre ++ e :: post)) = Some e.
  Proof.
    intros E H. change (index_entries (pre ++ e :: post)) with (fold_idx (pre ++ e :: post) []).
    rewrite fold_app. change (fold_idx (e :: post) (fold_idx pre []))
      with (fold_idx post (tset (clean (te_raw e)) e (fold_idx pre []))).
    rewrite fold_none by exact H. rewrite tlookup_tset, E, Nat.eqb_refl. reflexivity.
  Qed.

  Lemma fold_in tar p : forall m e,
    tlookup p (fold_idx tar m) = Some e -> tlookup p m = Some e \/ (In e tar /\ clean (te_raw e) = p).
  Proof.
    induction tar as [|a tar IH]; intros m e H; simpl in *; auto.
    apply IH in H as [H|[I E]]; [|right; auto].
    rewrite tlookup_tset in H. destruct (Nat.eqb p (clean (te_raw a))) eqn:E.
    - injection H as <-. apply Nat.eqb_eq in E. right. auto.
    - auto.
  Qed.

  Lemma fold_some tar p : forall m,
    (tlookup p m <> None \/ exists e, In e tar /\ clean (te_raw e) = p) -> tlookup p (fold_idx tar m) <> None.
  Proof.
    induction tar as [|a tar IH]; intros m H; simpl.
    - destruct H as [H|(e & [] & _)]; auto.
    - apply IH. rewrite tlookup_tset. destruct (Nat.eqb p (clean (te_raw a))) eqn:E; [left; congruence|].
      destruct H as [H|(e & [<-|I] & Ee)]; auto.
      + apply Nat.eqb_neq in E. congruence.
      + right. eauto.
  Qed.

  (* every file of the directory, and every name that is in neither, opens alike through
     tarfs and os.DirFS; names of archived non-files are refused as unsupported *)
  Theorem tar_view tar d : archives clean tar d ->
    forall p,
      (dlookup p d <> None \/ (forall e, In e tar -> clean (te_raw e) <> p) -> tar_open tar p = dir_open d p) /\
      (dlookup p d = None -> (exists e, In e tar /\ clean (te_raw e) = p) -> tar_open tar p = FUnsupported).
  Proof.
    intros [A B] p. split.
    - intros H. unfold TarFS.tar_open, dir_open. destruct (dlookup p d) as [c|] eqn:L.
      + destruct (A p c L) as (pre & e & post & -> & E & K & Dt & Hp).
        rewrite (last_wins pre e post p E Hp), Dt. destruct (te_kind e); try discriminate; reflexivity.
      + destruct H as [H|H]; [congruence|].
        change (index_entries tar) with (fold_idx tar []). rewrite fold_none by exact H. reflexivity.
    - intros L (e & I & E). unfold TarFS.tar_open.
      change (index_entries tar) with (fold_idx tar []).
      destruct (tlookup p (fold_idx tar [])) as [t|] eqn:T.
      + apply fold_in in T as [T|[I' E']]; [discriminate|].
        rewrite (B t I') by (rewrite E'; exact L). reflexivity.
      + exfalso. apply (fold_some tar p []); [right; eauto | exact T].
  Qed.
End TarFS.

(* the hypothesis is satisfiable: "./"-style names (clean = halving), a directory entry,
   a stale earlier copy of file 1 *)
Example tar_view_example :
  let clean := fun r => Nat.div2 r in
  let tar := [mkTE 2 TReg 70; mkTE 6 TOther 0; mkTE 3 TReg 71; mkTE 4 TSparse 72] in
  let d := [(1, 71); (2, 72)] in
  archives clean tar d /\ tar_open clean true tar 1 = FData 71 /\ tar_open clean true tar 3 = FUnsupported /\
  tar_open clean true tar 5 = FNotExist /\ tar_open clean false tar 2 = FBroken /\ tar_open clean true tar 2 = FData 72.
Proof.
  split; [|vm_compute; repeat split]. split.
  - intros p c H. simpl in H. destruct p as [|[|[|p]]]; try discriminate.
    + injection H as <-. exists [mkTE 2 TReg 70; mkTE 6 TOther 0], (mkTE 3 TReg 71), [mkTE 4 TSparse 72].
      repeat split. intros e' [<-|[]]. simpl. discriminate.
    + injection H as <-. exists [mkTE 2 TReg 70; mkTE 6 TOther 0; mkTE 3 TReg 71], (mkTE 4 TSparse 72), [].
      repeat split. intros e' [].
  - intros e [<-|[<-|[<-|[<-|[]]]]]; simpl; intro H; try discriminate; reflexivity.
Qed.

(* the code as found: a file stored as a sparse member (GNU tar -S, bsdtar) does not open to
   its content although the archive holds the directory *)
Lemma tar_view_refuted_sparse :
  exists (clean : nat -> nat) (tar : list tentry) (d : dirfs) (p : nat),
    archives clean tar d /\ dlookup p d <> None /\
    tar_open clean false tar p <> dir_open d p /\ tar_open clean true tar p = dir_open d p.
Proof.
  exists (fun r => r), [mkTE 1 TSparse 7], [(1, 7)], 1. split; [split|].
  - intros p c H. simpl in H. destruct p as [|[|p]]; try discriminate. injection H as <-.
    exists [], (mkTE 1 TSparse 7), []. repeat split. intros e' [].
  - intros e [<-|[]]. simpl. discriminate.
  - vm_compute. repeat split; discriminate.
Qed.
