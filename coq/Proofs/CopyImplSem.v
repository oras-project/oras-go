(* CopyImplSem: the model of semaphore.Weighted (unit weights) conserves permits, never hands out more
   than its size, and never leaves a waiter queued while a permit is free. *)
From Coq Require Import List Arith Bool Lia Permutation.
From Oras Require Import Model.CopyImplSem.
Import ListNotations.

Lemma memb_In w l : memb w l = true <-> In w l.
Proof.
  unfold memb. rewrite existsb_exists. split.
  - intros [x [Hx He]]. apply Nat.eqb_eq in He. subst. auto.
  - intros H. exists w. split; auto. apply Nat.eqb_refl.
Qed.
Lemma remove1_In w l x : In x (remove1 w l) <-> In x l /\ x <> w.
Proof.
  unfold remove1. rewrite filter_In. split; intros [A B]; split; auto.
  - intros ->. rewrite Nat.eqb_refl in B. discriminate.
  - destruct (Nat.eqb_spec x w); auto.
Qed.
Lemma remove1_notin w l : ~ In w l -> remove1 w l = l.
Proof.
  induction l as [|a l IH]; intros H; auto. cbn. destruct (Nat.eqb_spec a w) as [->|]; cbn.
  - exfalso. apply H. left. auto.
  - f_equal. apply IH. intros Hin. apply H. right. auto.
Qed.
Lemma remove1_length w l : NoDup l -> In w l -> S (length (remove1 w l)) = length l.
Proof.
  induction l as [|a l IH]; intros Hn Hin; [contradiction|]. inversion Hn as [|? ? Hna Hnl]; subst.
  cbn. destruct (Nat.eqb_spec a w) as [->|Hne]; cbn; f_equal.
  - exact (f_equal (@length nat) (remove1_notin w l Hna)).
  - destruct Hin as [->|Hin]; [congruence | now apply IH].
Qed.
Lemma nodup_app_r (l l' : list nat) : NoDup (l ++ l') -> NoDup l'.
Proof. induction l; cbn; auto. intros H. inversion H; auto. Qed.
Lemma nodup_app_disj (l l' : list nat) x : NoDup (l ++ l') -> In x l -> ~ In x l'.
Proof.
  induction l as [|a l IH]; cbn; [contradiction|]. intros H. inversion H as [|? ? Hna Hnl]; subst.
  intros [->|Hin] Hx; [apply Hna, in_or_app; now right | now apply IH].
Qed.
Lemma nodup_remove1 w l l' : NoDup (l ++ l') -> NoDup (remove1 w l ++ remove1 w l').
Proof. intros H. unfold remove1. rewrite <- filter_app. now apply NoDup_filter. Qed.
Lemma nodup_remove1_l w l l' : NoDup (l ++ l') -> In w l -> NoDup (remove1 w l ++ l').
Proof. intros H Hin. rewrite <- (remove1_notin w l'); [now apply nodup_remove1 | now apply (nodup_app_disj l)]. Qed.
Lemma nodup_remove1_r w l l' : NoDup (l ++ l') -> In w l' -> NoDup (l ++ remove1 w l').
Proof.
  intros H Hin. rewrite <- (remove1_notin w l); [now apply nodup_remove1|]. intros Hl. now apply (nodup_app_disj l l' w).
Qed.

Lemma notify_cons k size cur w rest granted :
  notify (S k) size cur (w :: rest) granted =
  if Nat.ltb cur size
  then let '(c, ws, gs, woken) := notify k size (S cur) rest (granted ++ [w]) in (c, ws, gs, w :: woken)
  else (cur, w :: rest, granted, []).
Proof. reflexivity. Qed.

(* notifyWaiters: wakes a prefix of the queue, exactly as many as there are free tokens *)
Lemma notify_spec fuel : forall size cur wait granted c ws gs woken,
  notify fuel size cur wait granted = (c, ws, gs, woken) -> length wait <= fuel -> cur <= size ->
  wait = woken ++ ws /\ gs = granted ++ woken /\ c = cur + length woken /\ c <= size /\
  (ws <> [] -> c = size).
Proof.
  induction fuel as [|k IH]; intros size cur [|w rest] granted c ws gs woken H Hl Hc; try (cbn in Hl; lia).
  1, 2: injection H as <- <- <- <-; rewrite !app_nil_r; cbn; repeat split; auto; try lia; congruence.
  rewrite notify_cons in H. destruct (Nat.ltb_spec cur size) as [Hlt|Hge].
  - destruct (notify k size (S cur) rest (granted ++ [w])) as [[[c1 ws1] gs1] wk1] eqn:E.
    injection H as <- <- <- <-. cbn in Hl.
    destruct (IH _ _ _ _ _ _ _ _ E ltac:(lia) ltac:(lia)) as [-> [-> [-> [D F]]]].
    rewrite <- app_assoc. cbn. repeat split; auto; lia.
  - injection H as <- <- <- <-. rewrite !app_nil_r. cbn. repeat split; auto; lia.
Qed.

Record SInv (s : sem) : Prop := {
  si_cur : s_cur s = s_held s + length (s_granted s);
  si_le : s_cur s <= s_size s;
  si_nolost : s_wait s <> [] -> s_cur s = s_size s;
  si_nodup : NoDup (s_wait s ++ s_granted s) }.

Lemma sinv_init n : SInv (ssize_init n).
Proof. constructor; cbn; auto; try lia. congruence. constructor. Qed.

(* What an operation does to a semaphore that satisfies SInv.  [c]: tokens out before notifyWaiters runs;
   it wakes the prefix [woken] of the queue and leaves [ws]. *)
Inductive sstep_eff (s : sem) : sop -> sem -> sres -> Prop :=
| se_failed w : sstep_eff s (SAcquire w true) s RFailed
| se_granted w : ~ In w (s_wait s ++ s_granted s) -> s_wait s = [] -> s_cur s < s_size s ->
    sstep_eff s (SAcquire w false) (mkSem (s_size s) (S (s_cur s)) (s_wait s) (s_granted s) (S (s_held s))) RGranted
| se_blocked w : ~ In w (s_wait s ++ s_granted s) -> s_cur s = s_size s ->
    sstep_eff s (SAcquire w false) (mkSem (s_size s) (s_cur s) (s_wait s ++ [w]) (s_granted s) (s_held s)) RBlocked
| se_release h c woken ws : s_held s = S h -> s_cur s = S c -> s_wait s = woken ++ ws ->
    c + length woken <= s_size s -> (ws <> [] -> c + length woken = s_size s) ->
    sstep_eff s SRelease (mkSem (s_size s) (c + length woken) ws (s_granted s ++ woken) h) (RDone woken)
| se_wake w : In w (s_granted s) ->
    sstep_eff s (SWake w false) (mkSem (s_size s) (s_cur s) (s_wait s) (remove1 w (s_granted s)) (S (s_held s))) RGranted
| se_giveback w c woken ws : In w (s_granted s) -> s_cur s = S c -> s_wait s = woken ++ ws ->
    c + length woken <= s_size s -> (ws <> [] -> c + length woken = s_size s) ->
    sstep_eff s (SWake w true) (mkSem (s_size s) (c + length woken) ws (remove1 w (s_granted s) ++ woken) (s_held s))
              (RDone woken)
| se_cancel w : In w (s_wait s) ->
    sstep_eff s (SCancel w) (mkSem (s_size s) (s_cur s) (remove1 w (s_wait s)) (s_granted s) (s_held s)) (RDone []).

Lemma sstep_spec s o s' r : SInv s -> sstep s o = Some (s', r) -> sstep_eff s o s' r.
Proof.
  intros [Hc Hle Hnl Hnd] H. destruct o as [w [|]| |w [|]|w]; cbn [sstep] in H.
  - injection H as <- <-. constructor.
  - destruct (memb w (s_wait s) || memb w (s_granted s)) eqn:Hm; [discriminate|].
    assert (Hn : ~ In w (s_wait s ++ s_granted s)).
    { rewrite in_app_iff, <- !memb_In. apply orb_false_iff in Hm as [-> ->]. intuition discriminate. }
    destruct (Nat.ltb_spec (s_cur s) (s_size s)) as [Hlt|Hge]; cbn [andb] in H.
    + destruct (match s_wait s with [] => true | _ => false end) eqn:Hb; injection H as <- <-; constructor; auto.
      * now destruct (s_wait s).
      * apply Hnl. intros E. now rewrite E in Hb.
    + injection H as <- <-. constructor; auto. lia.
  - destruct (s_held s) as [|h] eqn:Hh; [discriminate|]. destruct (s_cur s) as [|c] eqn:Hcur; [discriminate|].
    destruct (notify _ _ _ _ _) as [[[c' ws] gs] woken] eqn:E. injection H as <- <-.
    destruct (notify_spec _ _ _ _ _ _ _ _ _ E (le_n _) ltac:(lia)) as [A [-> [-> [D F]]]]. now constructor.
  - destruct (memb w (s_granted s)) eqn:Hm; [apply memb_In in Hm|discriminate].
    destruct (s_cur s) as [|c] eqn:Hcur; [discriminate|].
    destruct (notify _ _ _ _ _) as [[[c' ws] gs] woken] eqn:E. injection H as <- <-.
    destruct (notify_spec _ _ _ _ _ _ _ _ _ E (le_n _) ltac:(lia)) as [A [-> [-> [D F]]]]. now constructor.
  - destruct (memb w (s_granted s)) eqn:Hm; [apply memb_In in Hm|discriminate]. injection H as <- <-. now constructor.
  - destruct (memb w (s_wait s)) eqn:Hm; [apply memb_In in Hm|discriminate].
    (* a waiter is queued: the semaphore is full, nobody is notified *)
    assert (Hlt : Nat.ltb (s_cur s) (s_size s) = false).
    { apply Nat.ltb_ge. rewrite Hnl; [lia|]. intros E. now rewrite E in Hm. }
    rewrite Hlt, andb_false_r in H. injection H as <- <-. now constructor.
Qed.

Lemma nodup_move (woken ws gs : list nat) : NoDup ((woken ++ ws) ++ gs) -> NoDup (ws ++ gs ++ woken).
Proof.
  rewrite <- app_assoc, (app_assoc ws gs woken). apply Permutation_NoDup, Permutation_app_comm.
Qed.

Lemma sinv_step s o s' r : SInv s -> sstep s o = Some (s', r) -> SInv s'.
Proof.
  intros I H. destruct (sstep_spec s o s' r I H) as [w|w Hn Hw Hlt|w Hn Hf|h c woken ws Hh Hcur Hw Hle' Hf|w Hin|
    w c woken ws Hin Hcur Hw Hle' Hf|w Hin]; [exact I|..]; destruct I as [Hc Hle Hnl Hnd]; constructor; cbn; auto; try lia.
  - now rewrite Hw.
  - rewrite <- app_assoc. apply (Permutation_NoDup (Permutation_middle _ _ w)). now constructor.
  - rewrite app_length. lia.
  - rewrite Hw in Hnd. now apply nodup_move.
  - pose proof (remove1_length w _ (nodup_app_r _ _ Hnd) Hin). lia.
  - now apply nodup_remove1_r.
  - pose proof (remove1_length w _ (nodup_app_r _ _ Hnd) Hin). rewrite app_length. lia.
  - apply nodup_move. rewrite <- Hw. now apply nodup_remove1_r.
  - intros _. apply Hnl. intros E. now rewrite E in Hin.
  - now apply nodup_remove1_l.
Qed.

Inductive SReach (n : nat) : sem -> Prop :=
| SR_init : SReach n (ssize_init n)
| SR_step s o s' r : SReach n s -> sstep s o = Some (s', r) -> SReach n s'.

Lemma sreach_inv n s : SReach n s -> SInv s /\ s_size s = n.
Proof.
  induction 1 as [|s o s' r Hr [IH Hs] Hst].
  - split; [apply sinv_init | reflexivity].
  - split; [eapply sinv_step; eauto|]. now destruct (sstep_spec s o s' r IH Hst).
Qed.

Theorem sem_sound n s : SReach n s ->
  s_cur s = s_held s + length (s_granted s) /\ s_held s + length (s_granted s) + sfree s = n /\
  s_held s <= n /\ (s_wait s <> [] -> sfree s = 0).
Proof.
  intros H. destruct (sreach_inv n s H) as [[Hc Hle Hnl Hnd] Hs]. unfold sfree. rewrite Hs in *.
  repeat split; auto; try lia. intros Hw. specialize (Hnl Hw). lia.
Qed.

(* an Acquire is granted (at once, or later through notifyWaiters) only when the counter abstraction
   has a free permit; a Release always frees one *)
Theorem sem_refines_counter n s o s' r : SReach n s -> sstep s o = Some (s', r) ->
  match o, r with
  | SAcquire _ _, RGranted => 0 < sfree s /\ sfree s' = sfree s - 1
  | SAcquire _ _, _ => sfree s' = sfree s
  | SRelease, RDone woken => sfree s' + length woken = S (sfree s)
  | SWake _ false, _ => sfree s' = sfree s
  | SWake _ true, RDone woken => sfree s' + length woken = S (sfree s)
  | SCancel _, RDone woken => woken = [] /\ sfree s' = sfree s
  | _, _ => True
  end.
Proof.
  intros Hr H. destruct (sreach_inv n s Hr) as [I _]. pose proof (si_le s I) as Hle. unfold sfree.
  destruct (sstep_spec s o s' r I H); cbn; auto; lia.
Qed.

Lemma notify_full fuel size wait granted : notify fuel size size wait granted = (size, wait, granted, []).
Proof.
  destruct fuel; destruct wait; cbn [notify]; auto. rewrite Nat.ltb_irrefl. reflexivity.
Qed.

(* FIFO hand-over: when waiters are queued, a Release hands the permit to the FIRST of them and to
   nobody else, and the semaphore stays full *)
Theorem sem_release_wakes_head n s w rest s' r : SReach n s -> s_wait s = w :: rest ->
  sstep s SRelease = Some (s', r) ->
  r = RDone [w] /\ s_wait s' = rest /\ s_granted s' = s_granted s ++ [w] /\ sfree s' = 0.
Proof.
  intros Hr Hw H. destruct (sreach_inv n s Hr) as [[Hc Hle Hnl Hnd] Hs].
  assert (Hfull : s_cur s = s_size s) by (apply Hnl; rewrite Hw; discriminate).
  cbn [sstep] in H. destruct (s_held s) as [|h]; [discriminate|].
  destruct (s_cur s) as [|c] eqn:Hcur; [discriminate|].
  rewrite Hw in H. cbn [length] in H. rewrite notify_cons in H.
  assert (Hlt : Nat.ltb c (s_size s) = true) by (apply Nat.ltb_lt; lia).
  rewrite Hlt in H. rewrite Hfull in H. rewrite notify_full in H. inversion H; subst. cbn.
  unfold sfree. cbn. repeat split; auto. lia.
Qed.
