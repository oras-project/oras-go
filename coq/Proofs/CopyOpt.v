(* Nil callbacks (Model/CopyOpt.v): a recorded trace accepted by run_opt is the erasure
   of a trace accepted by the transition system, so every theorem about accepted traces
   transfers; counts of the callbacks that are set are the same in both. *)
From Oras Require Import Base.Prelude Model.CopySpec Model.CopyOpt
  Proofs.CopySpec Proofs.CopyAcct.
Local Open Scope nat_scope.

(* a recorded event stands for: the nil PreCopy it implies, itself, the nil callbacks that follow *)
Lemma step_opt_inv cs g c st e st' full : step_opt cs g c st e = Some (st', full) ->
  nil_cb_event cs e = false /\
  exists s2, run g c st (pre_events cs st e ++ [e]) = Some s2 /\
             run g c s2 (post_events cs s2 e) = Some st' /\
             full = pre_events cs st e ++ [e] ++ post_events cs s2 e.
Proof.
  unfold step_opt. destruct (nil_cb_event cs e); [discriminate|].
  destruct (run g c st (pre_events cs st e ++ [e])) as [s2|]; [|discriminate].
  destruct (run g c s2 (post_events cs s2 e)) as [s3|] eqn:E2; [|discriminate].
  intro H. injection H as <- <-. eauto.
Qed.

Lemma step_opt_sound cs g c st e st' full :
  step_opt cs g c st e = Some (st', full) -> run g c st full = Some st'.
Proof.
  intro H. apply step_opt_inv in H as (_ & s2 & E1 & E2 & ->).
  rewrite app_assoc. exact (run_cat g c _ _ st s2 st' E1 E2).
Qed.

Lemma run_opt_sound cs g c tr : forall st st' full,
  run_opt cs g c st tr = Some (st', full) -> run g c st full = Some st'.
Proof.
  induction tr as [|e tr IH]; simpl; intros st st' full H.
  - injection H as <- <-. reflexivity.
  - destruct (step_opt cs g c st e) as [[s1 f1]|] eqn:E; [|discriminate].
    destruct (run_opt cs g c s1 tr) as [[s2 f2]|] eqn:E2; [|discriminate].
    injection H as <- <-. eapply run_cat; [eapply step_opt_sound; eauto | eapply IH; eauto].
Qed.

Lemma pre_events_spec cs st e x : In x (pre_events cs st e) ->
  nil_cb_event cs x = true /\ ev_node x = ev_node e.
Proof.
  unfold pre_events. destruct e; simpl; try contradiction;
  (destruct (cs CPre) eqn:Ec; simpl; [contradiction|]);
  (destruct (awaits_pre (ph st n)); simpl; [|contradiction]);
  intros [<-|[]]; simpl; now rewrite Ec.
Qed.

Lemma post_events_spec cs st e x : In x (post_events cs st e) ->
  nil_cb_event cs x = true /\ ev_node x = ev_node e.
Proof.
  unfold post_events. destruct (ev_node e) as [n|]; [|contradiction].
  destruct (ph st n); simpl; try contradiction.
  - destruct (cs CSkip) eqn:Ec; [contradiction|]. intros [<-|[]]. simpl. now rewrite Ec.
  - destruct (cs CMounted) eqn:Ec; [contradiction|]. intros [<-|[]]. simpl. now rewrite Ec.
  - destruct (cs CPost) eqn:Ec; [contradiction|]. intros [<-|[]]. simpl. now rewrite Ec.
Qed.

Lemma erase_all_nil cs l : (forall x, In x l -> nil_cb_event cs x = true) -> erase cs l = [].
Proof.
  intro H. unfold erase. induction l as [|a l IH]; simpl; auto.
  rewrite (H a (or_introl eq_refl)). simpl. apply IH. intros x Hx. apply H. now right.
Qed.

Lemma erase_app cs a b : erase cs (a ++ b) = erase cs a ++ erase cs b.
Proof. unfold erase. apply filter_app. Qed.

Lemma erase_cons cs e l :
  erase cs (e :: l) = if nil_cb_event cs e then erase cs l else e :: erase cs l.
Proof. unfold erase. simpl. destruct (nil_cb_event cs e); reflexivity. Qed.

Lemma step_opt_erase cs g c st e st' full :
  step_opt cs g c st e = Some (st', full) -> erase cs full = [e].
Proof.
  intro H. apply step_opt_inv in H as (En & s2 & _ & _ & ->).
  rewrite !erase_app, (erase_all_nil cs _ (fun x Hx => proj1 (pre_events_spec cs st e x Hx))),
    (erase_all_nil cs _ (fun x Hx => proj1 (post_events_spec cs s2 e x Hx))), erase_cons, En. reflexivity.
Qed.

Lemma run_opt_erase cs g c tr : forall st st' full,
  run_opt cs g c st tr = Some (st', full) -> erase cs full = tr.
Proof.
  induction tr as [|e tr IH]; simpl; intros st st' full H.
  - injection H as _ <-. reflexivity.
  - destruct (step_opt cs g c st e) as [[s1 f1]|] eqn:E; [|discriminate].
    destruct (run_opt cs g c s1 tr) as [[s2 f2]|] eqn:E2; [|discriminate].
    injection H as _ <-. rewrite erase_app, (step_opt_erase _ _ _ _ _ _ _ E), (IH _ _ _ E2). reflexivity.
Qed.

Lemma run_opt_app cs g c tr1 : forall tr2 st st' full,
  run_opt cs g c st (tr1 ++ tr2) = Some (st', full) ->
  exists s1 f1 f2, run_opt cs g c st tr1 = Some (s1, f1) /\
                   run_opt cs g c s1 tr2 = Some (st', f2) /\ full = f1 ++ f2.
Proof.
  induction tr1 as [|e tr1 IH]; simpl; intros tr2 st st' full H.
  - exists st, [], full. auto.
  - destruct (step_opt cs g c st e) as [[s1 f1]|] eqn:E; [|discriminate].
    destruct (run_opt cs g c s1 (tr1 ++ tr2)) as [[s2 f2]|] eqn:E2; [|discriminate].
    injection H as <- <-.
    destruct (IH _ _ _ _ E2) as [sa [fa [fb [Ha [Hb ->]]]]].
    exists sa, (f1 ++ fa), fb. rewrite Ha. repeat split; auto. now rewrite app_assoc.
Qed.

Lemma cnt_erase cs p l : (forall e, p e = true -> nil_cb_event cs e = false) ->
  cnt p (erase cs l) = cnt p l.
Proof.
  intro H. unfold cnt, erase. induction l as [|a l IH]; simpl; auto.
  destruct (nil_cb_event cs a) eqn:En; simpl.
  - destruct (p a) eqn:Ep; [rewrite (H a Ep) in En; discriminate|]. exact IH.
  - destruct (p a); simpl; now rewrite IH.
Qed.

Lemma is_cb_kept cs k n e : is_cb k n e = true -> nil_cb_event cs e = negb (cs k).
Proof. intro H. apply is_cb_inv in H as [->| ->]; reflexivity. Qed.

Lemma is_fetch_kept cs n e : is_fetch n e = true -> nil_cb_event cs e = false.
Proof. destruct e; simpl; try discriminate; reflexivity. Qed.
Lemma is_push_kept cs n e : is_push n e = true -> nil_cb_event cs e = false.
Proof. destruct e; simpl; try discriminate; reflexivity. Qed.

Lemma elaboration_lemma cs g c d0 tr st full :
  accepts_opt cs g c d0 tr = Some (st, full) ->
  accepts g c d0 full = Some st /\ erase cs full = tr.
Proof.
  intro H. split; [exact (run_opt_sound cs g c tr _ _ _ H) | exact (run_opt_erase cs g c tr _ _ _ H)].
Qed.

Lemma recorded_in_full cs g c d0 tr st full e :
  accepts_opt cs g c d0 tr = Some (st, full) -> In e tr -> In e full.
Proof.
  intros H Hin. rewrite <- (run_opt_erase cs g c tr _ _ _ H) in Hin. now apply filter_In in Hin as [Hin _].
Qed.

Lemma single_transfer_opt cs g c d0 tr st full n :
  accepts_opt cs g c d0 tr = Some (st, full) ->
  cnt (is_fetch n) tr <= 1 /\ cnt (is_push n) tr <= 1.
Proof.
  intro Ha. pose proof (run_opt_sound cs g c tr _ _ _ Ha) as Hs.
  rewrite <- (run_opt_erase cs g c tr _ _ _ Ha).
  rewrite (cnt_erase cs (is_fetch n) full (is_fetch_kept cs n)).
  rewrite (cnt_erase cs (is_push n) full (is_push_kept cs n)).
  split; [exact (fetch_once g c n full _ _ Hs) | exact (push_once g c n full _ _ Hs)].
Qed.

Lemma cnt_erase_le cs p l : cnt p (erase cs l) <= cnt p l.
Proof.
  unfold erase. induction l as [|a l IH]; simpl; [lia|]. rewrite cnt_cons.
  destruct (nil_cb_event cs a); simpl; rewrite ?cnt_cons; lia.
Qed.

Lemma transferred_opt cs g c d0 tr st full n e :
  accepts_opt cs g c d0 tr = Some (st, full) -> returned st = Some true ->
  In e tr -> is_xfer n e ->
  (cs CPre = true -> cnt (is_cb CPre n) tr = 1) /\
  (cs CPost = true -> cnt (is_cb CPost n) tr = 1) /\
  cnt (is_cb CSkip n) tr = 0.
Proof.
  intros Ha Hr Hin Hx. destruct (elaboration_lemma cs g c d0 tr st full Ha) as [Hs He].
  destruct (transferred_exactly_once g c d0 full st n e Hs Hr (recorded_in_full cs g c d0 tr st full e Ha Hin) Hx)
    as [T1 [T2 T3]].
  rewrite <- He. repeat split.
  - intro Hk. rewrite (cnt_erase cs _ full); [exact T1|]. intros e0 H0. now rewrite (is_cb_kept cs CPre n e0 H0), Hk.
  - intro Hk. rewrite (cnt_erase cs _ full); [exact T2|]. intros e0 H0. now rewrite (is_cb_kept cs CPost n e0 H0), Hk.
  - pose proof (cnt_erase_le cs (is_cb CSkip n) full). lia.
Qed.

Lemma mounted_opt cs g c d0 tr st full n :
  accepts_opt cs g c d0 tr = Some (st, full) -> returned st = Some true ->
  In (MtE n MMounted) tr -> cs CMounted = true -> cnt (is_cb CMounted n) tr = 1.
Proof.
  intros Ha Hr Hin Hk. destruct (elaboration_lemma cs g c d0 tr st full Ha) as [Hs He].
  apply (recorded_in_full cs g c d0 tr st full _ Ha) in Hin.
  rewrite <- He, (cnt_erase cs _ full); [exact (mounted_exactly_once g c d0 full st n Hs Hr Hin)|].
  intros e0 H0. now rewrite (is_cb_kept cs CMounted n e0 H0), Hk.
Qed.

Lemma nil_cb_all_set e : nil_cb_event all_set e = false.
Proof. destruct e; reflexivity. Qed.

Lemma example_default_options :
  exists st full,
    accepts_opt (fun _ => false) g_ex c_ex [0; 1; 2; 3] [ExB 3; ExE 3 true; TagB 3; TagE 3; Ret true]
      = Some (st, full) /\
    returned st = Some true /\ tag st = Some 3 /\ In (Cb CSkip 3) full.
Proof. eexists. eexists. split; [vm_compute; reflexivity|]. repeat split; simpl; auto. Qed.
