(* Proofs/RemoteClient.v -- facts about the client model that hold against ANY
   server (arbitrary responses): every emitted request is in the request grammar
   (C13_requests_allowed) and a successful call implies that the response was
   consistent with what was requested (the C13_corruption_rejected theorems).  First, what the C13
   proofs share about the association lists of the registry model. *)
From Oras Require Import Base.Prelude Generated.GC13 Model.Reference Model.Registry Model.RemoteClient
  Model.RemoteSpec Proofs.Reference.
Require Import Lia.

Lemma str_eqb_sym x y : str_eqb x y = str_eqb y x.
Proof.
  destruct (str_eqb x y) eqn:A; destruct (str_eqb y x) eqn:B; auto.
  - apply str_eqb_spec in A. subst. now rewrite str_eqb_refl in B.
  - apply str_eqb_spec in B. subst. now rewrite str_eqb_refl in A.
Qed.

Lemma str_eqb_neq x y : x <> y -> str_eqb x y = false.
Proof. intro N. destruct (str_eqb x y) eqn:E; auto. apply str_eqb_spec in E. contradiction. Qed.

Section Assoc.
  Context {V : Type}.
  Implicit Types (m : list (str * V)) (k : str) (v : V).

  Lemma lookup_cons k k' v m :
    lookup k ((k', v) :: m) = if str_eqb k' k then Some v else lookup k m.
  Proof. unfold lookup. cbn. destruct (str_eqb k' k); reflexivity. Qed.

  Lemma lookup_remove k k' m : lookup k' (remove k m) = if str_eqb k' k then None else lookup k' m.
  Proof.
    induction m as [|[k0 v0] m IH]; [now destruct (str_eqb k' k)|]. unfold remove in *. cbn [filter fst].
    destruct (str_eqb k0 k) eqn:E; cbn [negb]; rewrite ?lookup_cons, IH;
      destruct (str_eqb k' k) eqn:E1, (str_eqb k0 k') eqn:E2; try reflexivity;
      apply str_eqb_spec in E2; subst k0; congruence.
  Qed.

  Lemma lookup_insert k k' v m : lookup k' (insert k v m) = if str_eqb k' k then Some v else lookup k' m.
  Proof.
    unfold insert. rewrite lookup_cons, lookup_remove, (str_eqb_sym k k'). now destruct (str_eqb k' k).
  Qed.

  Lemma lookup_notin k m : ~ In k (map fst m) -> lookup k m = None.
  Proof.
    induction m as [|[k0 v0] m IH]; [reflexivity|]. cbn [map fst In]. intro Hn.
    rewrite lookup_cons, (str_eqb_neq k0 k) by tauto. apply IH. tauto.
  Qed.

  Lemma lookup_filter k (f : str * V -> bool) m :
    NoDup (map fst m) ->
    lookup k (filter f m) = match lookup k m with Some v => if f (k, v) then Some v else None | None => None end.
  Proof.
    induction m as [|[k0 v0] m IH]; [reflexivity|]. cbn [map fst filter]. intro Hn.
    inversion Hn as [|? ? Hk Hm]; subst. rewrite lookup_cons. destruct (str_eqb k0 k) eqn:E.
    - apply str_eqb_spec in E. subst k0. destruct (f (k, v0)); [now rewrite lookup_cons, str_eqb_refl|].
      now rewrite (IH Hm), (lookup_notin _ _ Hk).
    - rewrite <- (IH Hm). destruct (f (k0, v0)); [now rewrite lookup_cons, E|reflexivity].
  Qed.

  Lemma in_fst_filter k (f : str * V -> bool) m : In k (map fst (filter f m)) -> In k (map fst m).
  Proof.
    induction m as [|[k0 v0] m IH]; cbn [filter]; [auto|]. destruct (f (k0, v0)); cbn [map fst In]; tauto.
  Qed.

  Lemma Forall_fst_filter (Q : str -> Prop) (f : str * V -> bool) m :
    Forall Q (map fst m) -> Forall Q (map fst (filter f m)).
  Proof. rewrite !Forall_forall. eauto using in_fst_filter. Qed.

  Lemma NoDup_fst_filter (f : str * V -> bool) m : NoDup (map fst m) -> NoDup (map fst (filter f m)).
  Proof.
    induction m as [|[k0 v0] m IH]; cbn [filter map fst]; intro Hn; [constructor|].
    inversion Hn as [|? ? Hk Hm]; subst.
    destruct (f (k0, v0)); cbn [map fst]; [|auto].
    constructor; [|auto]. intro X. apply Hk. eapply in_fst_filter; eauto.
  Qed.

  Lemma NoDup_fst_insert k v m : NoDup (map fst m) -> NoDup (map fst (insert k v m)).
  Proof.
    intro Hn. unfold insert, remove. cbn [map fst]. constructor; [|now apply NoDup_fst_filter].
    clear Hn. induction m as [|[k0 v0] m IH]; cbn [filter fst]; [auto|].
    destruct (str_eqb k0 k) eqn:E; cbn [negb]; [exact IH|]. cbn [map fst In].
    intros [->|X]; [now rewrite str_eqb_refl in E|auto].
  Qed.
End Assoc.

Ltac inv_pair H := injection H; clear H; intros; subst.
(* closes a branch in which the function returns: the trace is read off the equation *)
Ltac returns := let X := fresh in intro X; inv_pair X; auto with c13.
Ltac proj := cbn [q_m q_repo q_ep q_digest q_mount q_accept q_ctype q_clen q_range q_body
                  r_status r_ctype r_clen r_dig r_loc r_ar r_subj r_refs r_body fst snd
                  g_blobs g_mans g_tags g_other g_next g_open d_mt d_dg d_sz nstr
                  t_blobs t_mans t_tags t_other].

Lemma allowed_blob m repo d :
  (m = GET \/ m = HEAD \/ m = DELETE) ->
  valid_repository repo = true -> valid_digest d = true ->
  allowed (req m repo (EBlob d)) = true.
Proof.
  intros Hm Hr Hd. unfold allowed, req; proj. rewrite Hr, Hd.
  destruct Hm as [->|[->| ->]]; reflexivity.
Qed.

Lemma allowed_man_read m repo rf acc :
  (m = GET \/ m = HEAD) ->
  valid_repository repo = true -> valid_ref rf = true ->
  allowed (mkReq m repo (EManifest rf) None None acc None None None []) = true.
Proof.
  intros Hm Hr Hd. unfold allowed; proj. rewrite Hr, Hd. destruct Hm as [->| ->]; reflexivity.
Qed.

Lemma allowed_man_delete repo rf :
  valid_repository repo = true -> valid_ref rf = true ->
  allowed (req DELETE repo (EManifest rf)) = true.
Proof. intros Hr Hd. unfold allowed, req; proj. rewrite Hr, Hd. reflexivity. Qed.

Lemma allowed_man_put repo rf mt n c :
  valid_repository repo = true -> valid_ref rf = true -> mt <> [] ->
  allowed (mkReq PUT repo (EManifest rf) None None None (Some mt) (Some n) None c) = true.
Proof.
  intros Hr Hd Hm. unfold allowed; proj. rewrite Hr, Hd. destruct mt; [congruence|reflexivity].
Qed.

Lemma allowed_post repo :
  valid_repository repo = true -> allowed (req POST repo EUploads) = true.
Proof. intros Hr. unfold allowed, req; proj. now rewrite Hr. Qed.

Lemma allowed_mount repo d from :
  valid_repository repo = true -> valid_digest d = true -> valid_repository from = true ->
  allowed (mkReq POST repo EUploads None (Some (d, from)) None None None None []) = true.
Proof. intros Hr Hd Hf. unfold allowed; proj. now rewrite Hr, Hd, Hf. Qed.

Lemma allowed_put_session repo id d n c :
  valid_repository repo = true -> valid_digest d = true ->
  allowed (mkReq PUT repo (ESession id) (Some d) None None (Some ct_octet) (Some n) None c) = true.
Proof. intros Hr Hd. unfold allowed; proj. rewrite Hr, Hd. reflexivity. Qed.

Lemma allowed_referrers repo d :
  valid_repository repo = true -> valid_digest d = true ->
  allowed (req GET repo (EReferrers d)) = true.
Proof. intros Hr Hd. unfold allowed, req; proj. now rewrite Hr, Hd. Qed.

Lemma valid_ref_digest d : valid_digest d = true -> valid_ref d = true.
Proof. intro Hd. unfold valid_ref. now rewrite Hd. Qed.

Lemma zero_digest_valid : valid_digest zero_digest = true.
Proof. vm_compute. reflexivity. Qed.

Definition all_allowed (t : trace) : Prop := Forall (fun qr => allowed (fst qr) = true) t.

Lemma all_allowed_app t1 t2 : all_allowed t1 -> all_allowed t2 -> all_allowed (t1 ++ t2).
Proof. intros A B. apply Forall_app. split; assumption. Qed.

Lemma all_allowed_cons q r t : allowed q = true -> all_allowed t -> all_allowed ((q, r) :: t).
Proof. intros A B. constructor; assumption. Qed.

Lemma all_allowed_nil : all_allowed [].
Proof. constructor. Qed.

Global Hint Resolve all_allowed_nil all_allowed_cons all_allowed_app : c13.

(* call sequences read from the source (regenerated): decodeJSON reads the body through content.ReadAll *)
Lemma decode_json_verifies_true : decode_json_verifies = true.
Proof. vm_compute. reflexivity. Qed.

Lemma referrersFromIndex_order :
  referrersFromIndex_calls = [b "r.FetchReference"; b "limitSize"; b "decodeJSON"].
Proof. vm_compute. reflexivity. Qed.

Lemma calculateDigest_bounded_read :
  calculateDigest_calls = [b "limitReader"; b "io.ReadAll"; b "digest.FromBytes"].
Proof. vm_compute. reflexivity. Qed.


Lemma verify_digest_spec r e : verify_digest r e = true <-> dig_consistent r e.
Proof.
  unfold verify_digest, dig_consistent. destruct (nstr (r_dig r)) as [|x s] eqn:E.
  - split; auto.
  - split.
    + intro V. apply andb_true_iff in V as [V1 V2]. apply str_eqb_spec in V2. subst e. auto.
    + intros [X|[X V]]; [discriminate|]. subst e. rewrite V, str_eqb_refl. reflexivity.
Qed.

Lemma len_check_spec r n :
  (match r_clen r with Some m => negb (m =? n) | None => false end) = false <-> len_consistent r n.
Proof.
  unfold len_consistent. destruct (r_clen r) as [m|]; [|split; auto].
  split.
  - intro E. apply negb_false_iff in E. apply N.eqb_eq in E. subst. auto.
  - intros [X|X]; [discriminate|]. injection X as ->. now rewrite N.eqb_refl.
Qed.

Section Consistency.
  Variable H : str -> str.
  Variable parse_mt : str -> option str.
  Variables main other : str.
  Variable user_mts : list str.
  Variable limit : N.
  Variable index_of : str -> option (list desc).
  Variable srv : Type.
  Variable exch : srv -> request -> srv * response.

  (* blobStore.Fetch: bytes are returned only from a 200 whose Content-Length and
     digest header do not contradict the descriptor *)
  Theorem blob_fetch_consistent repo s d s' t c :
    blob_fetch srv exch repo s d = (s', t, RBytes c) ->
    exists q r, t = [(q, r)] /\ r_status r = 200 /\ c = r_body r /\
                len_consistent r (d_sz d) /\ dig_consistent r (d_dg d).
  Proof.
    unfold blob_fetch. destruct (exch s _) as [s1 r]. intro X. injection X as _ <- X.
    exists (req GET repo (EBlob (d_dg d))), r.
    destruct (r_status r =? 200) eqn:Es.
    - apply N.eqb_eq in Es.
      destruct (match r_clen r with Some n => negb (n =? d_sz d) | None => false end) eqn:El; [discriminate|].
      destruct (verify_digest r (d_dg d)) eqn:Ev; [|discriminate].
      injection X as <-. apply len_check_spec in El. apply verify_digest_spec in Ev. auto.
    - destruct (r_status r =? 404); discriminate.
  Qed.

  (* manifestStore.Fetch: additionally the Content-Type must be the descriptor's media type *)
  Theorem man_fetch_consistent s d s' t c :
    man_fetch parse_mt main srv exch s d = (s', t, RBytes c) ->
    exists q r, t = [(q, r)] /\ r_status r = 200 /\ c = r_body r /\
                parse_mt (nstr (r_ctype r)) = Some (d_mt d) /\
                len_consistent r (d_sz d) /\ dig_consistent r (d_dg d).
  Proof.
    unfold man_fetch. destruct (exch s _) as [s1 r]. intro X. injection X as _ <- X.
    eexists _, r. split; [reflexivity|].
    destruct (r_status r =? 200) eqn:Es.
    - apply N.eqb_eq in Es.
      destruct (parse_mt (nstr (r_ctype r))) as [mt|] eqn:Em; [|discriminate].
      destruct (str_eqb mt (d_mt d)) eqn:Eq; cbn [negb] in X; [|discriminate].
      apply str_eqb_spec in Eq. subst mt.
      destruct (match r_clen r with Some n => negb (n =? d_sz d) | None => false end) eqn:El; [discriminate|].
      destruct (verify_digest r (d_dg d)) eqn:Ev; [|discriminate].
      injection X as <-. apply len_check_spec in El. apply verify_digest_spec in Ev. auto 10.
    - destruct (r_status r =? 404); discriminate.
  Qed.

  (* generateDescriptor: the descriptor is exactly what the response states, and it
     agrees with a digest reference; without a digest header it is the client's
     digest (HEAD, digest reference only) or the digest of the body (GET) *)
  Theorem gen_desc_consistent r rf hd d :
    gen_desc H parse_mt limit r rf hd = Some d ->
    parse_mt (nstr (r_ctype r)) = Some (d_mt d) /\ r_clen r = Some (d_sz d) /\
    (valid_digest rf = true -> d_dg d = rf) /\
    match nstr (r_dig r) with
    | [] => if hd then d_dg d = rf /\ valid_digest rf = true
            else d_dg d = H (hashed_body limit r) /\ (limit <? d_sz d) = false
    | sd => sd = d_dg d /\ valid_digest sd = true
    end.
  Proof.
    unfold gen_desc.
    destruct (parse_mt (nstr (r_ctype r))) as [mt|]; [|discriminate].
    destruct (r_clen r) as [n|]; [|discriminate].
    destruct (nstr (r_dig r)) as [|x sd] eqn:Ed.
    - destruct (valid_digest rf) eqn:Vr.
      + destruct hd.
        * destruct rf as [|y rf]; [discriminate|].
          rewrite str_eqb_refl. cbn [negb]. intro X; injection X as <-. cbn. auto.
        * destruct rf as [|y rf]; [discriminate|].
          destruct (limit <? n) eqn:El; [discriminate|].
          destruct (str_eqb (y :: rf) (H (hashed_body limit r))) eqn:Eq; cbn [negb]; [|discriminate].
          apply str_eqb_spec in Eq. intro X; injection X as <-. cbn. auto.
      + destruct hd; [discriminate|].
        destruct (limit <? n) eqn:El; [discriminate|].
        intro X; injection X as <-. cbn.
        repeat split; auto. discriminate.
    - destruct (valid_digest (x :: sd)) eqn:Vs; cbn [negb]; [|discriminate].
      destruct (valid_digest rf) eqn:Vr.
      + destruct rf as [|y rf]; [discriminate|].
        destruct (str_eqb (y :: rf) (x :: sd)) eqn:Eq; cbn [negb]; [|discriminate].
        apply str_eqb_spec in Eq. intro X; injection X as <-. cbn. auto.
      + intro X; injection X as <-. cbn. repeat split; auto. discriminate.
  Qed.

  (* generateBlobDescriptor *)
  Theorem gen_blob_desc_consistent r refd d :
    gen_blob_desc parse_mt r refd = Some d ->
    d_dg d = refd /\ r_clen r = Some (d_sz d) /\ dig_consistent r refd.
  Proof using parse_mt.
    unfold gen_blob_desc. destruct (r_clen r) as [n|]; [|discriminate].
    destruct (verify_digest r refd) eqn:Ev; [|discriminate].
    apply verify_digest_spec in Ev. intro X; injection X as <-. cbn. auto.
  Qed.

  (* Resolve / FetchReference: a descriptor is returned only for a valid reference,
     from a 200, and it is consistent with the (last) response and the reference *)
  Theorem man_resolve_consistent s rs s' t d :
    man_resolve H parse_mt main user_mts limit srv exch s rs = (s', t, RDesc d) ->
    exists rf q r, resolve_ref main rs = Some rf /\ t = [(q, r)] /\ q_ep q = EManifest rf /\
                   r_status r = 200 /\ gen_desc H parse_mt limit r rf true = Some d.
  Proof.
    unfold man_resolve. destruct (resolve_ref main rs) as [rf|]; [|discriminate].
    destruct (exch s _) as [s1 r]. intro X. injection X as _ <- X.
    eexists rf, _, r. split; [reflexivity|]. split; [reflexivity|]. split; [reflexivity|].
    destruct (r_status r =? 200) eqn:Es.
    - apply N.eqb_eq in Es. destruct (gen_desc H parse_mt limit r rf true); [|discriminate].
      injection X as <-. auto.
    - destruct (r_status r =? 404); discriminate.
  Qed.

  Theorem blob_resolve_consistent s rs s' t d :
    blob_resolve parse_mt main srv exch s rs = (s', t, RDesc d) ->
    exists rf q r, resolve_ref main rs = Some rf /\ valid_digest rf = true /\ t = [(q, r)] /\
                   r_status r = 200 /\ d_dg d = rf /\ r_clen r = Some (d_sz d) /\ dig_consistent r rf.
  Proof using parse_mt main srv exch.
    unfold blob_resolve. destruct (resolve_ref main rs) as [rf|]; [|discriminate].
    destruct (valid_digest rf) eqn:V; cbn [negb]; [|discriminate].
    destruct (exch s _) as [s1 r]. intro X. injection X as _ <- X.
    eexists rf, _, r. split; [reflexivity|]. split; [exact V|]. split; [reflexivity|].
    destruct (r_status r =? 200) eqn:Es.
    - apply N.eqb_eq in Es. destruct (gen_blob_desc parse_mt r rf) eqn:Eg; [|discriminate].
      injection X as <-. apply gen_blob_desc_consistent in Eg. destruct Eg as (A & B & C). auto.
    - destruct (r_status r =? 404); discriminate.
  Qed.

  Lemma man_resolve_shape s rs s' t res :
    man_resolve H parse_mt main user_mts limit srv exch s rs = (s', t, res) ->
    (exists d, res = RDesc d) \/ (exists e, res = RErr e).
  Proof.
    unfold man_resolve. destruct (resolve_ref main rs) as [rf|]; [|intro X; injection X as _ _ <-; eauto].
    destruct (exch s _) as [s1 r]. intro X. injection X as _ _ <-.
    destruct (r_status r =? 200); [destruct (gen_desc _ _ _ _ _); eauto|].
    destruct (r_status r =? 404); unfold status_err; eauto.
  Qed.

  Theorem man_fetchref_consistent s rs s' t d c :
    man_fetchref H parse_mt main user_mts limit srv exch s rs = (s', t, RDescBytes d c) ->
    exists rf q r rest, resolve_ref main rs = Some rf /\ t = (q, r) :: rest /\
      r_status r = 200 /\
      ((rest = [] /\ gen_desc H parse_mt limit r rf false = Some d /\
        c = match nstr (r_dig r) with [] => hashed_body limit r | _ => r_body r end) \/
       (r_clen r = None /\ c = r_body r /\ dig_consistent r (d_dg d) /\
        exists q2 r2, rest = [(q2, r2)] /\ r_status r2 = 200 /\
                      gen_desc H parse_mt limit r2 rf true = Some d)).
  Proof.
    unfold man_fetchref. destruct (resolve_ref main rs) as [rf|] eqn:ER; [|discriminate].
    destruct (exch s _) as [s1 r].
    destruct (r_status r =? 200) eqn:Es.
    - apply N.eqb_eq in Es. destruct (r_clen r) as [n|] eqn:Ec.
      + intro X. injection X as _ <- X. eexists rf, _, r, []. repeat (split; [reflexivity|]). split; [exact Es|].
        destruct (gen_desc H parse_mt limit r rf false); [|discriminate]. injection X as <- <-. auto.
      + destruct (man_resolve _ _ _ _ _ _ _ s1 rs) as [[s2 t2] res2] eqn:E2.
        intro X. injection X as _ <- X.
        destruct (man_resolve_shape _ _ _ _ _ E2) as [[d0 ->]|[e ->]]; [|discriminate].
        destruct (verify_digest r (d_dg d0)) eqn:Ev; [|discriminate].
        injection X as <- <-. apply verify_digest_spec in Ev.
        apply man_resolve_consistent in E2 as (rf' & q2 & r2 & ER' & -> & _ & Es2 & G).
        rewrite ER in ER'. injection ER' as <-.
        eexists rf, _, r, _. repeat (split; [reflexivity|]). split; [exact Es|].
        right. split; [exact Ec|]. split; [reflexivity|]. split; [exact Ev|]. eauto.
    - intro X. injection X as _ _ X. destruct (r_status r =? 404); discriminate.
  Qed.

  Lemma blob_resolve_shape s rs s' t res :
    blob_resolve parse_mt main srv exch s rs = (s', t, res) ->
    (exists d, res = RDesc d) \/ (exists e, res = RErr e).
  Proof using parse_mt main srv exch.
    unfold blob_resolve. destruct (resolve_ref main rs) as [rf|]; [|intro X; injection X as _ _ <-; eauto].
    destruct (negb (valid_digest rf)); [intro X; injection X as _ _ <-; eauto|].
    destruct (exch s _) as [s1 r]. intro X. injection X as _ _ <-.
    destruct (r_status r =? 200); [destruct (gen_blob_desc _ _ _); eauto|].
    destruct (r_status r =? 404); unfold status_err; eauto.
  Qed.

  (* blob FetchReference: the descriptor is for the digest asked for, the body is the GET's,
     and the GET's digest header does not contradict it -- also when the descriptor comes
     from a second (HEAD) request because the GET has no Content-Length *)
  Theorem blob_fetchref_consistent s rs s' t d c :
    blob_fetchref parse_mt main srv exch s rs = (s', t, RDescBytes d c) ->
    exists rf q r rest, resolve_ref main rs = Some rf /\ valid_digest rf = true /\ t = (q, r) :: rest /\
      r_status r = 200 /\ c = r_body r /\ d_dg d = rf /\ dig_consistent r rf.
  Proof using parse_mt main srv exch.
    unfold blob_fetchref. destruct (resolve_ref main rs) as [rf|] eqn:ER; [|discriminate].
    destruct (valid_digest rf) eqn:V; cbn [negb]; [|discriminate].
    destruct (exch s _) as [s1 r].
    destruct (r_status r =? 200) eqn:Es.
    - apply N.eqb_eq in Es. destruct (r_clen r) as [n|] eqn:Ec.
      + intro X. injection X as _ <- X.
        destruct (gen_blob_desc parse_mt r rf) eqn:Eg; [|discriminate]. injection X as <- <-.
        apply gen_blob_desc_consistent in Eg as (A & B & C).
        eexists rf, _, r, []. split; [reflexivity|]. split; [exact V|]. split; [reflexivity|]. auto.
      + destruct (blob_resolve _ _ _ _ s1 rs) as [[s2 t2] res2] eqn:E2.
        intro X. injection X as _ <- X.
        destruct (blob_resolve_shape _ _ _ _ _ E2) as [[d0 ->]|[e ->]]; [|discriminate].
        destruct (verify_digest r (d_dg d0)) eqn:Ev; [|discriminate].
        injection X as <- <-. apply verify_digest_spec in Ev.
        apply blob_resolve_consistent in E2 as (rf' & q2 & r2 & ER' & _ & _ & _ & Hd & _).
        rewrite ER in ER'. injection ER' as <-. rewrite Hd in Ev.
        eexists rf, _, r, _. split; [reflexivity|]. split; [exact V|]. split; [reflexivity|]. auto.
    - intro X. injection X as _ _ X. destruct (r_status r =? 404); discriminate.
  Qed.

  Lemma man_fetchref_shape s rs s' t res :
    man_fetchref H parse_mt main user_mts limit srv exch s rs = (s', t, res) ->
    (exists d c, res = RDescBytes d c) \/ (exists e, res = RErr e).
  Proof.
    unfold man_fetchref. destruct (resolve_ref main rs) as [rf|]; [|intro X; injection X as _ _ <-; eauto].
    destruct (exch s _) as [s1 r].
    destruct (r_status r =? 200).
    - destruct (r_clen r).
      + intro X. injection X as _ _ <-. destruct (gen_desc _ _ _ _ _ _); eauto.
      + destruct (man_resolve _ _ _ _ _ _ _ s1 rs) as [[s2 t2] res2] eqn:E2.
        intro X. injection X as _ _ <-.
        destruct (man_resolve_shape _ _ _ _ _ E2) as [[d0 ->]|[e ->]]; [|eauto].
        destruct (verify_digest r (d_dg d0)); eauto.
    - intro X. injection X as _ _ <-. destruct (r_status r =? 404); unfold status_err; eauto.
  Qed.

  Lemma rfi_shape s tag s' t res old :
    referrers_from_index H parse_mt main user_mts limit index_of srv exch s tag = (s', t, res, old) ->
    res = ROk \/ exists e, res = RErr e.
  Proof.
    unfold referrers_from_index.
    destruct (man_fetchref _ _ _ _ _ _ _ s tag) as [[s1 t1] res1] eqn:E.
    destruct (man_fetchref_shape _ _ _ _ _ E) as [(d0 & c0 & ->)|[e ->]]; [|intro X; injection X as _ _ <- _; eauto].
    destruct (limit <? d_sz d0); [intro X; injection X as _ _ <- _; eauto|].
    destruct (decode_json_verifies && _); [intro X; injection X as _ _ <- _; eauto|].
    destruct (index_of c0); intro X; injection X as _ _ <- _; eauto.
  Qed.

  (* the referrers index read through the referrers tag (registries without the Referrers API):
     it is used only if the body that was received is exactly what the descriptor derived from
     the same response says -- its length is the Content-Length, its digest the digest header
     (or the digest computed from it) -- and it decodes; so a digest header or Content-Length
     contradicting the body makes Referrers/Predecessors and the index update fail *)
  Theorem referrers_index_consistent s tag s' t d l :
    referrers_from_index H parse_mt main user_mts limit index_of srv exch s tag = (s', t, ROk, Some (d, l)) ->
    exists body,
      man_fetchref H parse_mt main user_mts limit srv exch s tag = (s', t, RDescBytes d body) /\
      len body = d_sz d /\ H body = d_dg d /\ d_sz d <= limit /\ index_of body = Some l.
  Proof.
    unfold referrers_from_index.
    destruct (man_fetchref _ _ _ _ _ _ _ s tag) as [[s1 t1] res1] eqn:E.
    destruct res1 as [| | | |d0 body| |]; try (intro X; discriminate X).
    destruct (limit <? d_sz d0) eqn:El; [discriminate|].
    rewrite decode_json_verifies_true. cbn [andb].
    destruct (negb (len body =? d_sz d0) || negb (str_eqb (H body) (d_dg d0))) eqn:Ev; [discriminate|].
    destruct (index_of body) as [l0|] eqn:Ei; [|discriminate].
    intro X. injection X as <- <- <- <-.
    apply orb_false_iff in Ev as [E1 E2]. apply negb_false_iff in E1, E2.
    apply N.eqb_eq in E1. apply str_eqb_spec in E2. apply N.ltb_ge in El.
    exists body. auto.
  Qed.

  Theorem tag_schema_consistent s d s' t l :
    tag_schema_referrers H parse_mt main user_mts limit index_of srv exch s d = (s', t, RDescs l) ->
    l = [] \/
    exists id body idx,
      man_fetchref H parse_mt main user_mts limit srv exch s (ref_tag (d_dg d)) = (s', t, RDescBytes id body) /\
      len body = d_sz id /\ H body = d_dg id /\ index_of body = Some idx /\ l = clean_refs [] idx.
  Proof.
    unfold tag_schema_referrers. destruct (valid_digest (d_dg d)); cbn [negb]; [|discriminate].
    destruct (referrers_from_index _ _ _ _ _ _ _ _ s _) as [[[s1 t1] res1] old] eqn:E.
    destruct (rfi_shape _ _ _ _ _ _ E) as [->|[e ->]].
    - destruct old as [[od idx]|]; [|discriminate]. intro X. injection X as <- <- <-.
      apply referrers_index_consistent in E as (body & E & A & B & _ & C). right. eauto 10.
    - destruct e; try discriminate. intro X. injection X as _ _ <-. now left.
  Qed.

  (* writes: success needs the exact status and a digest header that does not
     contradict the descriptor; a push needs the Location of the session *)
  Theorem delete_req_consistent s d man s' t :
    delete_req main srv exch s d man = (s', t, ROk) ->
    exists q r, t = [(q, r)] /\ r_status r = 202 /\ dig_consistent r (d_dg d).
  Proof.
    unfold delete_req. destruct (exch s _) as [s1 r]. intro X. injection X as _ <- X.
    eexists _, r. split; [reflexivity|].
    destruct (r_status r =? 202) eqn:Es.
    - apply N.eqb_eq in Es. destruct (verify_digest r (d_dg d)) eqn:Ev; [|discriminate].
      apply verify_digest_spec in Ev. auto.
    - destruct (r_status r =? 404); discriminate.
  Qed.

  Theorem man_put_consistent s rst d c sized rf s' rst' t :
    man_put main srv exch s rst d c sized rf = (s', rst', t, ROk) ->
    exists q r, t = [(q, r)] /\ r_status r = 201 /\ dig_consistent r (d_dg d) /\
                q_body q = c /\ q_ctype q = Some (d_mt d) /\ (sized = true -> len c = d_sz d).
  Proof.
    unfold man_put. destruct (sized && negb (len c =? d_sz d)) eqn:Esz; [discriminate|].
    destruct (exch s _) as [s1 r].
    destruct (r_status r =? 201) eqn:Es; [|discriminate].
    apply N.eqb_eq in Es. intro X. injection X as _ _ <- X.
    destruct (verify_digest r (d_dg d)) eqn:Ev; [|discriminate].
    apply verify_digest_spec in Ev. eexists _, r. repeat (split; [reflexivity|]).
    split; [exact Es|]. split; [exact Ev|]. cbn. repeat split; auto.
    intros ->. cbn in Esz. apply negb_false_iff in Esz. now apply N.eqb_eq.
  Qed.

  Theorem complete_push_consistent s r1 d c sized s' t :
    complete_push srv exch s r1 d c sized = (s', t, ROk) ->
    exists rp ep q r2, r_loc r1 = Some (rp, ep) /\ t = [(q, r2)] /\ r_status r2 = 201 /\
                       q_repo q = rp /\ q_ep q = ep /\ q_digest q = Some (d_dg d) /\ q_body q = c /\
                       (* a well-formed digest header names the pushed blob *)
                       (valid_digest (nstr (r_dig r2)) = true -> nstr (r_dig r2) = d_dg d).
  Proof.
    unfold complete_push. destruct (r_loc r1) as [[rp ep]|]; [|discriminate].
    destruct (sized && negb (len c =? d_sz d)); [discriminate|].
    destruct (exch s _) as [s2 r2]. intro X. injection X as _ <- X.
    destruct (r_status r2 =? 201) eqn:Es; [|discriminate]. apply N.eqb_eq in Es.
    destruct (valid_digest (nstr (r_dig r2)) && negb (str_eqb (nstr (r_dig r2)) (d_dg d))) eqn:Ed; [discriminate|].
    eexists rp, ep, _, r2. repeat (split; [reflexivity|]). split; [exact Es|]. cbn. repeat split; auto.
    intro V. rewrite V in Ed. cbn in Ed. apply negb_false_iff in Ed. now apply str_eqb_spec.
  Qed.

  Lemma blob_fetch_shape repo s d s' t res :
    blob_fetch srv exch repo s d = (s', t, res) ->
    (exists c, res = RBytes c) \/ (exists e, res = RErr e).
  Proof.
    unfold blob_fetch. destruct (exch s _) as [s1 r]. intro X. injection X as _ _ <-.
    destruct (r_status r =? 200).
    - destruct (match r_clen r with Some n => negb (n =? d_sz d) | None => false end); eauto.
      destruct (verify_digest r (d_dg d)); eauto.
    - destruct (r_status r =? 404); unfold status_err; eauto.
  Qed.

  Theorem blob_mount_consistent s d g s' t :
    blob_mount main other srv exch s d g = (s', t, ROk) ->
    exists q r rest, t = (q, r) :: rest /\
      ((r_status r = 201 /\ rest = [] /\ dig_consistent r (d_dg d)) \/
       (r_status r = 202 /\ rest <> [] /\ r_loc r <> None)).
  Proof.
    unfold blob_mount. destruct (exch s _) as [s1 r1].
    destruct (r_status r1 =? 201) eqn:E1.
    - apply N.eqb_eq in E1. intro X. injection X as _ <- X.
      destruct (verify_digest r1 (d_dg d)) eqn:Ev; [|discriminate]. apply verify_digest_spec in Ev.
      eexists _, r1, []. split; [reflexivity|]. left. auto.
    - destruct (r_status r1 =? 202) eqn:E2; [|discriminate]. apply N.eqb_eq in E2.
      destruct g as [c|].
      + destruct (complete_push _ _ s1 r1 d c false) as [[s2 t2] res2] eqn:Ec.
        intro X. injection X as _ <- ->.
        apply complete_push_consistent in Ec as (rp & ep & q & r2 & El & -> & _).
        eexists _, r1, _. split; [reflexivity|]. right. split; [exact E2|]. split; [discriminate|].
        rewrite El. discriminate.
      + destruct (blob_fetch _ _ other s1 d) as [[s2 t2] res2] eqn:Ef.
        destruct (blob_fetch_shape _ _ _ _ _ _ Ef) as [[c ->]|[e ->]]; [|discriminate].
        destruct (complete_push _ _ s2 r1 d c false) as [[s3 t3] res3] eqn:Ec.
        intro X. injection X as _ <- ->.
        apply complete_push_consistent in Ec as (rp & ep & q & r2 & El & -> & _).
        eexists _, r1, _. split; [reflexivity|]. right. split; [exact E2|].
        split; [destruct t2; discriminate|]. rewrite El. discriminate.
  Qed.
End Consistency.

Section ClientFacts.
  Variable H : str -> str.
  Variable parse_mt : str -> option str.
  Variable subject_of : str -> option (option desc).
  Variables main other : str.
  Variable user_mts : list str.
  Variable limit : N.
  Variable skip_gc : bool.
  Variable index_of : str -> option (list desc).
  Variable srv : Type.
  Variable exch : srv -> request -> srv * response.

  Hypothesis Hmain : valid_repository main = true.
  Hypothesis Hother : valid_repository other = true.

  Hypothesis Hloc : loc_ok srv exch.
  (* the hash function yields well-formed digests (needed where the client uses a digest it
     computed itself in a later request: deleting an old referrers index) *)
  Hypothesis HvalidH : forall c, valid_digest (H c) = true.

  Lemma resolve_ref_valid s rf : resolve_ref main s = Some rf -> valid_ref rf = true.
  Proof.
    unfold resolve_ref. destruct (repo_parse _ _ _ s) as [r|] eqn:E; [|discriminate].
    intro X. injection X as <-. apply (repo_parse_result_in_base all_algs) in E as (_ & _ & _ & [V|V]);
      unfold valid_ref, valid_digest; rewrite V; auto using orb_true_r.
  Qed.

  Lemma resolve_ref_digest d : valid_digest d = true -> resolve_ref main d = Some d.
  Proof. intro V. unfold resolve_ref, repo_parse. now rewrite (repo_parse_digest all_algs). Qed.

  Lemma resolve_ref_tag t : valid_tag t = true -> resolve_ref main t = Some t.
  Proof. intro V. unfold resolve_ref, repo_parse. now rewrite (repo_parse_tag all_algs). Qed.

  Lemma blob_fetch_allowed repo s d s' t res :
    valid_repository repo = true -> valid_digest (d_dg d) = true ->
    blob_fetch srv exch repo s d = (s', t, res) -> all_allowed t.
  Proof.
    intros Hr Hd. unfold blob_fetch. destruct (exch s _) as [s1 r].
    intro X. inv_pair X. auto using allowed_blob with c13.
  Qed.

  Lemma complete_push_allowed s r1 d c sized s' t res :
    (match r_loc r1 with
     | Some (rp, ep) => valid_repository rp = true /\ exists id, ep = ESession id
     | None => True end) ->
    valid_digest (d_dg d) = true ->
    complete_push srv exch s r1 d c sized = (s', t, res) -> all_allowed t.
  Proof.
    intros Hl Hd. unfold complete_push. destruct (r_loc r1) as [[rp ep]|].
    - destruct Hl as (Hrp & id & ->).
      destruct (sized && negb (len c =? d_sz d)).
      + returns.
      + destruct (exch s _) as [s2 r2]. intro X; inv_pair X.
        auto using allowed_put_session with c13.
    - returns.
  Qed.

  Lemma blob_push_allowed s d c s' t res :
    valid_digest (d_dg d) = true ->
    blob_push main srv exch s d c = (s', t, res) -> all_allowed t.
  Proof.
    intros Hd. unfold blob_push.
    pose proof (Hloc s (req POST main EUploads) eq_refl) as Hl.
    destruct (exch s _) as [s1 r1]. cbn [snd] in Hl.
    destruct (r_status r1 =? 202) eqn:E202.
    - apply N.eqb_eq in E202. specialize (Hl E202).
      destruct (complete_push _ _ s1 r1 d c true) as [[s2 t2] res2] eqn:E.
      intro X; inv_pair X. apply all_allowed_cons; [now apply allowed_post|].
      eapply complete_push_allowed; eauto.
    - intro X; inv_pair X. auto using allowed_post with c13.
  Qed.

  Lemma blob_mount_allowed s d g s' t res :
    valid_digest (d_dg d) = true ->
    blob_mount main other srv exch s d g = (s', t, res) -> all_allowed t.
  Proof.
    intros Hd. unfold blob_mount.
    set (q := mkReq POST main EUploads None (Some (d_dg d, other)) None None None None []).
    pose proof (Hloc s q eq_refl) as Hl.
    assert (Aq : allowed q = true) by (now apply allowed_mount).
    destruct (exch s q) as [s1 r1]. cbn [snd] in Hl.
    destruct (r_status r1 =? 201); [returns|].
    destruct (r_status r1 =? 202) eqn:E202; [|returns].
    apply N.eqb_eq in E202. specialize (Hl E202).
    destruct g as [c|].
    - destruct (complete_push _ _ s1 r1 d c false) as [[s2 t2] res2] eqn:E.
      intro X; inv_pair X. apply all_allowed_cons; auto. eapply complete_push_allowed; eauto.
    - destruct (blob_fetch _ _ other s1 d) as [[s2 t2] res2] eqn:E.
      pose proof (blob_fetch_allowed _ _ _ _ _ _ Hother Hd E) as A2.
      destruct res2; try returns.
      destruct (complete_push _ _ s2 r1 d c false) as [[s3 t3] res3] eqn:E3.
      intro X; inv_pair X. apply all_allowed_cons; auto. apply all_allowed_app; auto.
      eapply complete_push_allowed; eauto.
  Qed.

  Lemma blob_resolve_allowed s rs s' t res :
    blob_resolve parse_mt main srv exch s rs = (s', t, res) -> all_allowed t.
  Proof.
    unfold blob_resolve. destruct (resolve_ref main rs) as [rf|]; [|returns].
    destruct (valid_digest rf) eqn:V; cbn [negb]; [|returns].
    destruct (exch s _) as [s1 r]. intro X; inv_pair X. auto using allowed_blob with c13.
  Qed.

  Lemma blob_fetchref_allowed s rs s' t res :
    blob_fetchref parse_mt main srv exch s rs = (s', t, res) -> all_allowed t.
  Proof.
    unfold blob_fetchref. destruct (resolve_ref main rs) as [rf|] eqn:ER; [|returns].
    destruct (valid_digest rf) eqn:V; cbn [negb]; [|returns].
    assert (A : allowed (req GET main (EBlob rf)) = true) by auto using allowed_blob.
    destruct (exch s _) as [s1 r].
    destruct (r_status r =? 200); [|returns].
    destruct (r_clen r); [returns|].
    destruct (blob_resolve _ _ _ _ s1 rs) as [[s2 t2] res2] eqn:E.
    apply blob_resolve_allowed in E. returns.
  Qed.

  Lemma delete_req_allowed s d man s' t res :
    valid_digest (d_dg d) = true ->
    delete_req main srv exch s d man = (s', t, res) -> all_allowed t.
  Proof.
    intros Hd. unfold delete_req. destruct (exch s _) as [s1 r]. intro X; inv_pair X.
    destruct man; auto using allowed_blob, allowed_man_delete, valid_ref_digest with c13.
  Qed.

  Lemma man_fetch_allowed s d s' t res :
    valid_digest (d_dg d) = true ->
    man_fetch parse_mt main srv exch s d = (s', t, res) -> all_allowed t.
  Proof.
    intros Hd. unfold man_fetch. destruct (exch s _) as [s1 r]. intro X; inv_pair X.
    auto using allowed_man_read, valid_ref_digest with c13.
  Qed.

  Lemma man_resolve_allowed s rs s' t res :
    man_resolve H parse_mt main user_mts limit srv exch s rs = (s', t, res) -> all_allowed t.
  Proof.
    unfold man_resolve. destruct (resolve_ref main rs) as [rf|] eqn:ER; [|returns].
    apply resolve_ref_valid in ER.
    destruct (exch s _) as [s1 r]. intro X; inv_pair X. auto using allowed_man_read with c13.
  Qed.

  Lemma man_fetchref_allowed s rs s' t res :
    man_fetchref H parse_mt main user_mts limit srv exch s rs = (s', t, res) -> all_allowed t.
  Proof.
    unfold man_fetchref. destruct (resolve_ref main rs) as [rf|] eqn:ER; [|returns].
    pose proof (resolve_ref_valid _ _ ER) as V.
    assert (A : allowed (mkReq GET main (EManifest rf) None None (Some (join_comma (mts user_mts))) None None None []) = true)
      by auto using allowed_man_read.
    destruct (exch s _) as [s1 r].
    destruct (r_status r =? 200); [|returns].
    destruct (r_clen r); [returns|].
    destruct (man_resolve _ _ _ _ _ _ _ s1 rs) as [[s2 t2] res2] eqn:E.
    apply man_resolve_allowed in E. returns.
  Qed.

  Lemma man_put_allowed s rst d c sized rf s' rst' t res :
    valid_ref rf = true -> d_mt d <> [] ->
    man_put main srv exch s rst d c sized rf = (s', rst', t, res) -> all_allowed t.
  Proof.
    intros Hr Hm. unfold man_put. destruct (sized && negb (len c =? d_sz d)); [returns|].
    destruct (exch s _) as [s1 r].
    destruct (r_status r =? 201); intro X; inv_pair X; auto using allowed_man_put with c13.
  Qed.

  Lemma ping_allowed s rst s' rst' t o :
    ping_referrers main srv exch s rst = (s', rst', t, o) -> all_allowed t.
  Proof.
    unfold ping_referrers. destruct rst; try returns.
    assert (A : allowed (req GET main (EReferrers zero_digest)) = true)
      by auto using allowed_referrers, zero_digest_valid.
    destruct (exch s _) as [s1 r].
    destruct (r_status r =? 200); [returns|].
    destruct (r_status r =? 404); [destruct (str_eqb _ _)|]; returns.
  Qed.

  Lemma gen_desc_valid r rf hd d :
    gen_desc H parse_mt limit r rf hd = Some d -> valid_digest (d_dg d) = true.
  Proof.
    intro G. apply gen_desc_consistent in G as (_ & _ & _ & G).
    destruct (nstr (r_dig r)); [destruct hd|]; destruct G as [E V];
      [now rewrite E|rewrite E; apply HvalidH|now rewrite <- E].
  Qed.

  Lemma man_fetchref_desc_valid s rs s' t d c :
    man_fetchref H parse_mt main user_mts limit srv exch s rs = (s', t, RDescBytes d c) ->
    valid_digest (d_dg d) = true.
  Proof.
    intro E. apply man_fetchref_consistent in E
      as (rf & q & r & rest & _ & _ & _ & [(_ & G & _)|(_ & _ & _ & q2 & r2 & _ & _ & G)]);
      eapply gen_desc_valid; eauto.
  Qed.

  Lemma ref_tag_plain dg :
    valid_digest dg = true ->
    contains c_slash (ref_tag dg) = false /\ contains c_at (ref_tag dg) = false.
  Proof.
    intro V. apply (digest_chars all_algs) in V. unfold contains, ref_tag.
    induction dg as [|x dg IH]; [split; reflexivity|].
    cbn [forallb] in V. apply andb_true_iff in V as [A B]. destruct (IH B) as [I1 I2].
    cbn [map existsb]. rewrite I1, I2, !orb_false_r.
    unfold digest_char, c_colon, c_slash, c_at in *.
    destruct (x =? 58) eqn:E; [split; reflexivity|].
    split; apply N.eqb_neq; intros ->; vm_compute in A; discriminate.
  Qed.

  Lemma resolve_ref_plain s rf :
    contains c_slash s = false -> contains c_at s = false -> resolve_ref main s = Some rf -> rf = s.
  Proof.
    intros Hs Ha. unfold resolve_ref, repo_parse, Reference.repo_parse, repo_parse_gen.
    rewrite (parse_no_slash all_algs _ _ Hs).
    assert (E : split_first c_at s = None) by (now apply split_first_None). rewrite E.
    destruct (validate_reference all_algs s); [|discriminate]. cbn [r_reference].
    destruct s; [discriminate|]. intro X. now injection X as <-.
  Qed.

  Lemma ref_tag_valid_ref dg rf :
    valid_digest dg = true -> resolve_ref main (ref_tag dg) = Some rf -> valid_ref (ref_tag dg) = true.
  Proof.
    intros V E. destruct (ref_tag_plain dg V) as [A B].
    pose proof (resolve_ref_plain _ _ A B E) as <-. eapply resolve_ref_valid; eauto.
  Qed.

  Notation rfi := (referrers_from_index H parse_mt main user_mts limit index_of srv exch).

  Lemma rfi_allowed s tag s' t res old :
    rfi s tag = (s', t, res, old) -> all_allowed t.
  Proof.
    unfold referrers_from_index.
    destruct (man_fetchref _ _ _ _ _ _ _ s tag) as [[s1 t1] res1] eqn:E. apply man_fetchref_allowed in E.
    destruct res1; try returns.
    destruct (limit <? d_sz d); [returns|].
    destruct (decode_json_verifies && _); [returns|].
    destruct (index_of c); returns.
  Qed.

  (* the tag is only written after it was read: a referrers tag that is not a valid reference
     (sha512: longer than a tag may be) never reaches the registry *)
  Lemma rfi_ref s tag s' t res old :
    rfi s tag = (s', t, res, old) ->
    (res = ROk \/ res = RErr ENotFound) -> exists rf, resolve_ref main tag = Some rf.
  Proof.
    unfold referrers_from_index, man_fetchref.
    destruct (resolve_ref main tag) as [rf|]; [eauto|].
    intro X. injection X as _ _ <- _. intros [Y|Y]; discriminate.
  Qed.

  Lemma update_allowed s rst subj ch s' rst' t res :
    update_referrers_index H parse_mt main user_mts limit skip_gc index_of srv exch s rst subj ch = (s', rst', t, res) ->
    all_allowed t.
  Proof.
    unfold update_referrers_index. destruct (valid_digest (d_dg subj)) eqn:V; cbn [negb]; [|returns].
    destruct (rfi s (ref_tag (d_dg subj))) as [[[s1 t1] res1] old] eqn:E.
    pose proof (rfi_allowed _ _ _ _ _ _ E) as A1.
    (* [proceed]: the PUT of the new index under the tag that was read, the DELETE of the old one *)
    assert (G : forall oldd oldl,
              (exists rf, resolve_ref main (ref_tag (d_dg subj)) = Some rf) ->
              match apply_change oldl (Some ch) with
              | None => (s1, rst, t1, ROk)
              | Some upd =>
                  let '(s2, rst2, t2, res2) :=
                    if negb (is_nil upd) || skip_gc then
                      man_put main srv exch s1 rst (mkDesc mt_index (H (gen_index upd)) (len (gen_index upd))) (gen_index upd) true (ref_tag (d_dg subj))
                    else (s1, rst, [], ROk) in
                  match res2 with
                  | ROk =>
                      match oldd with
                      | Some od => if skip_gc then (s2, rst2, t1 ++ t2, ROk)
                                   else let '(s3, t3, res3) := delete_req main srv exch s2 od true in (s3, rst2, t1 ++ t2 ++ t3, res3)
                      | None => (s2, rst2, t1 ++ t2, ROk)
                      end
                  | _ => (s2, rst2, t1 ++ t2, res2)
                  end
              end = (s', rst', t, res) ->
              (forall od, oldd = Some od -> valid_digest (d_dg od) = true) -> all_allowed t).
    { intros oldd oldl [rf ER] X Hod.
      pose proof (ref_tag_valid_ref _ _ V ER) as Vt.
      destruct (apply_change oldl (Some ch)) as [upd|]; [|inv_pair X; exact A1].
      destruct (if negb (is_nil upd) || skip_gc then _ else _) as [[[s2 rst2] t2] res2] eqn:E2.
      assert (A2 : all_allowed t2).
      { destruct (negb (is_nil upd) || skip_gc); [|inv_pair E2; constructor].
        apply man_put_allowed in E2; [exact E2|exact Vt|cbn; vm_compute; discriminate]. }
      destruct res2; try (inv_pair X; auto with c13).
      destruct oldd as [od|]; [|inv_pair X; auto with c13].
      destruct skip_gc; [inv_pair X; auto with c13|].
      destruct (delete_req _ _ _ s2 od true) as [[s3 t3] res3] eqn:E3.
      apply delete_req_allowed in E3; [|now apply Hod]. inv_pair X. auto with c13. }
    destruct res1 as [| | | | | |[]]; try returns.
    - destruct old as [[od l]|]; [|returns].
      intro X. apply (G (Some od) l); [eapply rfi_ref; eauto|exact X|].
      intros od' Y. injection Y as <-. apply referrers_index_consistent in E as (body & E & _).
      eapply man_fetchref_desc_valid; eauto.
    - intro X. apply (G None []); [eapply rfi_ref; eauto|exact X|discriminate].
  Qed.

  Lemma man_push_allowed s rst d c rf s' rst' t res :
    valid_ref rf = true -> d_mt d <> [] ->
    man_push H parse_mt subject_of main user_mts limit skip_gc index_of srv exch s rst d c rf = (s', rst', t, res) -> all_allowed t.
  Proof.
    intros Hr Hm. unfold man_push.
    destruct (indexable (d_mt d) && negb (rs_supported rst)); [|apply man_put_allowed; auto].
    destruct (limit <? d_sz d); [returns|].
    destruct (negb (len c =? d_sz d) || negb (str_eqb (H c) (d_dg d))); [returns|].
    destruct (man_put _ _ _ s rst d c true rf) as [[[s1 rst1] t1] res1] eqn:E.
    apply man_put_allowed in E; auto.
    destruct res1; try returns.
    destruct (rs_supported rst1); [returns|].
    destruct (subject_of c) as [[sj|]|]; try returns.
    destruct (update_referrers_index _ _ _ _ _ _ _ _ _ s1 _ sj _) as [[[s2 rst2] t2] res2] eqn:E2.
    apply update_allowed in E2. returns.
  Qed.

  Lemma tag_schema_allowed s d s' t res :
    tag_schema_referrers H parse_mt main user_mts limit index_of srv exch s d = (s', t, res) -> all_allowed t.
  Proof.
    unfold tag_schema_referrers. destruct (negb (valid_digest (d_dg d))); [returns|].
    destruct (rfi s _) as [[[s1 t1] res1] old] eqn:E. apply rfi_allowed in E.
    destruct res1 as [| | | | | |e]; try returns.
    - destruct old as [[od l]|]; returns.
    - destruct e; returns.
  Qed.

  (* the variant that also reports "only the clean-up failed" agrees with update_referrers_index *)
  Lemma update_x_fst s rst subj ch :
    fst (update_referrers_index_x H parse_mt main user_mts limit skip_gc index_of srv exch s rst subj ch)
    = update_referrers_index H parse_mt main user_mts limit skip_gc index_of srv exch s rst subj ch.
  Proof.
    unfold update_referrers_index_x, update_referrers_index.
    destruct (negb (valid_digest (d_dg subj))); [reflexivity|].
    destruct (referrers_from_index H parse_mt main user_mts limit index_of srv exch s (ref_tag (d_dg subj))) as [[[s1 t1] res1] old].
    repeat match goal with
           | |- context [match ?x with _ => _ end] => destruct x
           end; reflexivity.
  Qed.

  Lemma man_delete_allowed s rst d s' rst' t res :
    valid_digest (d_dg d) = true ->
    man_delete H parse_mt subject_of main user_mts limit skip_gc index_of srv exch s rst d = (s', rst', t, res) -> all_allowed t.
  Proof.
    intros Hd. unfold man_delete.
    destruct (indexable_del (d_mt d) && negb (rs_supported rst)).
    - destruct (limit <? d_sz d); [returns|].
      destruct (man_fetch _ _ _ _ s d) as [[s1 t1] res1] eqn:E1.
      apply man_fetch_allowed in E1; auto.
      destruct res1; try returns.
      destruct (negb (len c =? d_sz d) || negb (str_eqb (H c) (d_dg d))); [returns|].
      destruct (subject_of c) as [[sj|]|]; [| |returns].
      + destruct (ping_referrers _ _ _ s1 rst) as [[[s2 rst2] t2] ok] eqn:E2.
        apply ping_allowed in E2.
        destruct ok as [[|]|]; try returns.
        * destruct (delete_req _ _ _ s2 d true) as [[s3 t3] res3] eqn:E3.
          apply delete_req_allowed in E3; auto. returns.
        * pose proof (update_x_fst s2 rst2 sj (RRemove d)) as Ex.
          destruct (update_referrers_index_x _ _ _ _ _ _ _ _ _ s2 rst2 sj _) as [[[[s3 rst3] t3] res3] cl].
          cbn [fst] in Ex. symmetry in Ex. apply update_allowed in Ex.
          destruct (delete_req _ _ _ s3 d true) as [[s4 t4] res4] eqn:E4.
          apply delete_req_allowed in E4; auto.
          destruct res3; try destruct cl; intro X; inv_pair X; auto 8 with c13.
      + destruct (delete_req _ _ _ s1 d true) as [[s2 t2] res2] eqn:E2.
        apply delete_req_allowed in E2; auto. returns.
    - destruct (delete_req _ _ _ s d true) as [[s1 t1] res1] eqn:E1.
      apply delete_req_allowed in E1; auto. intro X; inv_pair X. auto.
  Qed.

  Lemma man_tag_allowed s rst d rs s' rst' t res :
    valid_digest (d_dg d) = true -> d_mt d <> [] ->
    man_tag parse_mt main srv exch s rst d rs = (s', rst', t, res) -> all_allowed t.
  Proof.
    intros Hd Hm. unfold man_tag.
    destruct (resolve_ref main rs) as [rf|] eqn:ER; [|returns].
    apply resolve_ref_valid in ER.
    destruct (man_fetch _ _ _ _ s d) as [[s1 t1] res1] eqn:E1.
    apply man_fetch_allowed in E1; auto.
    destruct res1; try returns.
    destruct (man_put _ _ _ s1 rst d c false rf) as [[[s2 rst2] t2] res2] eqn:E2.
    apply man_put_allowed in E2; auto. returns.
  Qed.

  Lemma lift_eq {A} (x : A * trace * result) rst a rst' t res :
    lift A x rst = (a, rst', t, res) -> exists a0, x = (a0, t, res).
  Proof. destruct x as [[a0 t0] r0]. cbn. intro X; inv_pair X. eauto. Qed.

  Lemma predecessors_allowed s rst d s' rst' t res :
    valid_digest (d_dg d) = true ->
    predecessors H parse_mt main user_mts limit index_of srv exch s rst d = (s', rst', t, res) -> all_allowed t.
  Proof.
    intros Hd. unfold predecessors.
    assert (A : allowed (req GET main (EReferrers (d_dg d))) = true) by auto using allowed_referrers.
    assert (T : forall s0 t0 res0 s1 r,
              (let '(s2, t2, res2) := tag_schema_referrers H parse_mt main user_mts limit index_of srv exch s1 d in
               (s2, rs_set rst false, (req GET main (EReferrers (d_dg d)), r) :: t2, res2)) = (s0, rst', t0, res0) ->
              all_allowed t0).
    { intros s0 t0 res0 s1 r. destruct (tag_schema_referrers _ _ _ _ _ _ _ _ s1 d) as [[s2 t2] res2] eqn:E.
      apply tag_schema_allowed in E. returns. }
    destruct rst.
    - destruct (exch s _) as [s1 r].
      destruct (r_status r =? 200); [destruct (str_eqb _ _); [returns|apply T]|].
      destruct (r_status r =? 404); [destruct (str_eqb (r_body r) name_unknown); [returns|apply T]|].
      returns.
    - destruct (exch s _) as [s1 r].
      destruct (r_status r =? 200); [destruct (str_eqb _ _); returns|].
      destruct (r_status r =? 404); [destruct (str_eqb (r_body r) name_unknown)|]; returns.
    - intro X. apply lift_eq in X as [a X]. eapply tag_schema_allowed; eauto.
  Qed.

  Notation run_op' := (run_op H parse_mt subject_of main other user_mts limit skip_gc index_of srv exch).
  Notation run_ops' := (run_ops H parse_mt subject_of main other user_mts limit skip_gc index_of srv exch).

  Theorem run_op_allowed s rst o s' rst' t res :
    op_ok o -> run_op' s rst o = (s', rst', t, res) -> all_allowed t.
  Proof.
    destruct o; cbn [op_ok run_op]; intros Hok.
    - destruct Hok as [Hd Hm]. destruct (is_manifest user_mts d).
      + apply man_push_allowed; auto using valid_ref_digest.
      + intro X. apply lift_eq in X as [a X]. eapply blob_push_allowed; eauto.
    - destruct Hok as [Hd Hm]. intro X. apply lift_eq in X as [a X]. revert X. destruct (is_manifest user_mts d); intro X.
      + eapply man_fetch_allowed; eauto.
      + eapply blob_fetch_allowed with (repo := main); eauto.
    - destruct Hok as [Hd Hm]. destruct (is_manifest user_mts d).
      + destruct (man_resolve _ _ _ _ _ _ _ s (d_dg d)) as [[s1 t1] r1] eqn:E.
        apply man_resolve_allowed in E. intro X; inv_pair X. exact E.
      + destruct (blob_resolve _ _ _ _ s (d_dg d)) as [[s1 t1] r1] eqn:E.
        apply blob_resolve_allowed in E. intro X; inv_pair X. exact E.
    - destruct Hok as [Hd Hm]. destruct (is_manifest user_mts d).
      + apply man_delete_allowed; auto.
      + intro X. apply lift_eq in X as [a X]. eapply delete_req_allowed; eauto.
    - intro X. apply lift_eq in X as [a X]. eapply man_resolve_allowed; eauto.
    - intro X. apply lift_eq in X as [a X]. eapply man_fetchref_allowed; eauto.
    - destruct Hok as [Hd Hm]. apply man_tag_allowed; auto.
    - destruct Hok as [Hd Hm]. destruct (resolve_ref main s0) as [rf|] eqn:ER.
      + apply man_push_allowed; auto. eapply resolve_ref_valid; eauto.
      + returns.
    - destruct Hok as [Hd Hm]. intro X. apply lift_eq in X as [a X]. eapply blob_mount_allowed; eauto.
    - destruct Hok as [Hd Hm]. apply predecessors_allowed; auto.
    - intro X. apply lift_eq in X as [a X]. eapply blob_resolve_allowed; eauto.
    - intro X. apply lift_eq in X as [a X]. eapply blob_fetchref_allowed; eauto.
  Qed.

  Theorem run_ops_allowed os : forall s rst s' rst' out,
    Forall op_ok os -> run_ops' s rst os = (s', rst', out) ->
    Forall (fun tr => all_allowed (fst tr)) out.
  Proof.
    induction os as [|o os IH]; intros s rst s' rst' out Hok; cbn [run_ops].
    - intro X; inv_pair X. constructor.
    - inversion Hok as [|? ? Ho Hos]; subst.
      destruct (run_op' s rst o) as [[[s1 rst1] t] r] eqn:E1.
      destruct (run_ops' s1 rst1 os) as [[s2 rst2] out2] eqn:E2.
      intro X; inv_pair X. constructor.
      + cbn [fst]. eapply run_op_allowed; eauto.
      + eapply IH; eauto.
  Qed.
End ClientFacts.

(* the same in the words of the property, single-field corruptions: [r0] is a response that Fetch of [d] would accept; corrupting one field so that it
   contradicts the descriptor makes Fetch fail, whatever else the response says. *)
Definition contradicts_fetch (parse_mt : str -> option str) (manifest : bool) (k : corruption) (r0 : response) (d : desc) : Prop :=
  match k with
  | KDigOther x => x <> [] /\ x <> d_dg d
  | KDigGarbage => True
  | KLenInc => r_clen r0 = Some (d_sz d)
  | KStatus st => st <> 200
  | KTypeOther => manifest = true /\ parse_mt (b "application/vnd.verif.other") <> Some (d_mt d)
  | KTypeGarbage => manifest = true /\ parse_mt (b "garbage/;=") = None
  | KTypeDrop => manifest = true /\ parse_mt [] = None
  | KNameUnknown => True                         (* a 404 *)
  | KDigDrop | KLenDrop | KLocDrop => False      (* nothing the descriptor could contradict *)
  end.

Lemma garbage_invalid : valid_digest (b "garbage") = false.
Proof. vm_compute. reflexivity. Qed.

Lemma corrupt_fetch_inconsistent parse_mt manifest k r0 d :
  contradicts_fetch parse_mt manifest k r0 d ->
  let r := corrupt k r0 in
  ~ (r_status r = 200 /\ (manifest = true -> parse_mt (nstr (r_ctype r)) = Some (d_mt d)) /\
     len_consistent r (d_sz d) /\ dig_consistent r (d_dg d)).
Proof.
  intros Hc r (Hs & Hm & Hl & Hd). subst r. destruct r0 as [st ct cl dg loc ar sj rf body].
  unfold dig_consistent, len_consistent in *.
  destruct k; cbn [corrupt r_status r_ctype r_clen r_dig nstr contradicts_fetch] in *; try contradiction.
  - destruct Hc as [N1 N2]. destruct Hd as [X|[X _]]; congruence.
  - destruct Hd as [X|[X V]]; [discriminate|]. rewrite <- X, garbage_invalid in V. discriminate.
  - subst cl. destruct Hl as [X|X]; [discriminate|]. injection X as X. lia.
  - destruct Hc as [-> N1]. specialize (Hm eq_refl). congruence.
  - destruct Hc as [-> N1]. specialize (Hm eq_refl). congruence.
  - destruct Hc as [-> N1]. specialize (Hm eq_refl). congruence.
  - discriminate Hs.
Qed.

Theorem blob_fetch_corrupted (srv : Type) repo (s : srv) k r0 d :
  contradicts_fetch (fun _ => None) false k r0 d ->
  exists e, snd (blob_fetch srv (fun s _ => (s, corrupt k r0)) repo s d) = RErr e.
Proof.
  intro Hc. destruct (blob_fetch srv _ repo s d) as [[s' t] res] eqn:E. cbn [snd].
  destruct (blob_fetch_shape _ _ _ _ _ _ _ _ E) as [[c ->]|[e ->]]; [|eauto].
  exfalso. pose proof E as E'. apply blob_fetch_consistent in E as (q & r & -> & Hs & _ & Hl & Hd).
  unfold blob_fetch in E'. cbv beta iota zeta in E'. injection E' as _ _ <- _.
  eapply corrupt_fetch_inconsistent; eauto. repeat split; eauto. discriminate.
Qed.

Theorem man_fetch_corrupted parse_mt main (srv : Type) (s : srv) k r0 d :
  contradicts_fetch parse_mt true k r0 d ->
  exists e, snd (man_fetch parse_mt main srv (fun s _ => (s, corrupt k r0)) s d) = RErr e.
Proof.
  intro Hc. destruct (man_fetch parse_mt main srv _ s d) as [[s' t] res] eqn:E. cbn [snd].
  assert (Sh : (exists c, res = RBytes c) \/ (exists e, res = RErr e)).
  { unfold man_fetch in E. injection E as _ _ <-.
    destruct (r_status (corrupt k r0) =? 200).
    - destruct (parse_mt _); eauto. destruct (negb _); eauto.
      destruct (match r_clen (corrupt k r0) with Some n => negb (n =? d_sz d) | None => false end); eauto.
      destruct (verify_digest _ _); eauto.
    - destruct (r_status (corrupt k r0) =? 404); unfold status_err; eauto. }
  destruct Sh as [[c ->]|[e ->]]; [|eauto].
  exfalso. pose proof E as E'. apply man_fetch_consistent in E as (q & r & -> & Hs & _ & Hm & Hl & Hd).
  unfold man_fetch in E'. cbv beta iota zeta in E'. injection E' as _ _ <- _.
  eapply corrupt_fetch_inconsistent; eauto.
Qed.
