(* Proofs about the reference parser model (C20). *)
From Oras Require Import Base.Prelude Base.Regex Generated.GC20 Model.Reference.

Lemma split_first_Some c s a t :
  split_first c s = Some (a, t) -> s = a ++ c :: t /\ contains c a = false.
Proof.
  unfold split_first. destruct (index_of c s) as [i|] eqn:E; [|discriminate].
  intro H. injection H as <- <-. apply index_of_some in E as (A & _ & C). auto.
Qed.

Lemma split_first_app c a t :
  contains c a = false -> split_first c (a ++ c :: t) = Some (a, t).
Proof.
  intro H. unfold split_first. rewrite (index_of_app_fresh _ _ _ H).
  now rewrite firstn_app_exact, skipn_S_app.
Qed.

Lemma split_first_None c s : split_first c s = None <-> contains c s = false.
Proof.
  unfold split_first. rewrite <- index_of_none. destruct (index_of c s); split; congruence.
Qed.

Lemma repo_no c : avoids [(c, c)] repositoryRegexp = true ->
  forall s, valid_repository s = true -> contains c s = false.
Proof. intros H s V. apply matches_spec in V. eapply avoids_contains; eauto. Qed.

Lemma tag_no c : avoids [(c, c)] tagRegexp = true ->
  forall s, valid_tag s = true -> contains c s = false.
Proof. intros H s V. apply matches_spec in V. eapply avoids_contains; eauto. Qed.

Lemma repo_no_at s : valid_repository s = true -> contains c_at s = false.
Proof. apply repo_no. vm_compute. reflexivity. Qed.
Lemma repo_no_colon s : valid_repository s = true -> contains c_colon s = false.
Proof. apply repo_no. vm_compute. reflexivity. Qed.
Lemma tag_no_at s : valid_tag s = true -> contains c_at s = false.
Proof. apply tag_no. vm_compute. reflexivity. Qed.
Lemma tag_no_colon s : valid_tag s = true -> contains c_colon s = false.
Proof. apply tag_no. vm_compute. reflexivity. Qed.
Lemma tag_no_slash s : valid_tag s = true -> contains c_slash s = false.
Proof. apply tag_no. vm_compute. reflexivity. Qed.

Lemma repo_nonempty : valid_repository [] = false.
Proof. vm_compute. reflexivity. Qed.
Lemma tag_nonempty : valid_tag [] = false.
Proof. vm_compute. reflexivity. Qed.

(* everything below holds for every set of linked hash implementations *)
Section Avail.
Variable avail : str -> bool.
Notation valid_digest := (Reference.valid_digest avail).
Notation format := (Reference.format avail).
Notation validate_reference := (Reference.validate_reference avail).

Lemma valid_digest_inv d :
  valid_digest d = true ->
  exists alg n enc, d = alg ++ c_colon :: enc /\ In (alg, n) alg_table /\ avail alg = true /\
                    length enc = n /\ forallb hexlower enc = true.
Proof.
  unfold Reference.valid_digest. destruct (split_first c_colon d) as [[alg enc]|] eqn:E; [|discriminate].
  apply split_first_Some in E as [-> _].
  destruct (find _ alg_table) as [[a' n]|] eqn:F; [|discriminate].
  apply find_some in F as [Fin Feq]. simpl in Feq. apply str_eqb_spec in Feq. subst a'.
  intro H. apply andb_true_iff in H as [H H3]. apply andb_true_iff in H as [H1 H2]. apply Nat.eqb_eq in H2.
  exists alg, n, enc. auto 6.
Qed.

Lemma digest_has_colon d : valid_digest d = true -> contains c_colon d = true.
Proof.
  intro H. apply valid_digest_inv in H as (alg & n & enc & -> & _). rewrite contains_app.
  apply orb_true_iff. right. reflexivity.
Qed.

Lemma digest_nonempty : valid_digest [] = false.
Proof. reflexivity. Qed.

Lemma tag_not_digest t : valid_tag t = true -> valid_digest t = false.
Proof.
  intro H. apply tag_no_colon in H. destruct (valid_digest t) eqn:E; auto.
  apply digest_has_colon in E. congruence.
Qed.

Definition digest_char (c : N) : bool :=
  ((48 <=? c) && (c <=? 57)) || ((97 <=? c) && (c <=? 122)) || (c =? c_colon).

Lemma digest_chars d : valid_digest d = true -> forallb digest_char d = true.
Proof.
  intro H. apply valid_digest_inv in H as (alg & n & enc & -> & Fin & _ & _ & H).
  rewrite forallb_app. apply andb_true_iff. split.
  - simpl in Fin. destruct Fin as [F|[F|[F|[]]]]; injection F as <- _; vm_compute; reflexivity.
  - cbn [forallb]. apply andb_true_iff. split; [reflexivity|].
    rewrite forallb_forall in *. intros x Hx. specialize (H x Hx).
    unfold hexlower in H. unfold digest_char.
    apply orb_true_iff in H as [H|H]; apply andb_true_iff in H as [A B];
      apply N.leb_le in A, B; apply orb_true_iff; left; apply orb_true_iff.
    + left. apply andb_true_iff; split; apply N.leb_le; lia.
    + right. apply andb_true_iff; split; apply N.leb_le; lia.
Qed.

Section Grammar.
  Variable valid_registry : str -> bool.

  Definition ok_registry (reg : str) : Prop :=
    valid_registry reg = true /\ contains c_slash reg = false.

  (* The last three constructors are the documented leniency: a bare trailing
     ':' or '@' is treated as "no reference". *)
  Inductive RefGrammar : str -> reference -> Prop :=
  | GFormD reg repo :
      ok_registry reg -> valid_repository repo = true ->
      RefGrammar (reg ++ [c_slash] ++ repo) (mkRef reg repo [])
  | GFormC reg repo tag :
      ok_registry reg -> valid_repository repo = true -> valid_tag tag = true ->
      RefGrammar (reg ++ [c_slash] ++ repo ++ [c_colon] ++ tag) (mkRef reg repo tag)
  | GFormA reg repo d :
      ok_registry reg -> valid_repository repo = true -> valid_digest d = true ->
      RefGrammar (reg ++ [c_slash] ++ repo ++ [c_at] ++ d) (mkRef reg repo d)
  | GFormB reg repo junk d :
      ok_registry reg -> valid_repository repo = true -> contains c_at junk = false ->
      valid_digest d = true ->
      RefGrammar (reg ++ [c_slash] ++ repo ++ [c_colon] ++ junk ++ [c_at] ++ d) (mkRef reg repo d)
  | GLenientColon reg repo :
      ok_registry reg -> valid_repository repo = true ->
      RefGrammar (reg ++ [c_slash] ++ repo ++ [c_colon]) (mkRef reg repo [])
  | GLenientAt reg repo :
      ok_registry reg -> valid_repository repo = true ->
      RefGrammar (reg ++ [c_slash] ++ repo ++ [c_at]) (mkRef reg repo [])
  | GLenientColonAt reg repo junk :
      ok_registry reg -> valid_repository repo = true -> contains c_at junk = false ->
      RefGrammar (reg ++ [c_slash] ++ repo ++ [c_colon] ++ junk ++ [c_at]) (mkRef reg repo []).

  Notation parse := (Reference.parse avail valid_registry).

  (* the end of ParseReference *)
  Lemma parse_finish reg repo (isTag : bool) rf r :
    (if negb (valid_registry reg) then None
     else if negb (valid_repository repo) then None
     else match rf with
          | [] => Some (mkRef reg repo [])
          | _ => if (if isTag then valid_tag rf else valid_digest rf) then Some (mkRef reg repo rf) else None
          end) = Some r <->
    valid_registry reg = true /\ valid_repository repo = true /\ r = mkRef reg repo rf /\
    (rf = [] \/ (if isTag then valid_tag rf else valid_digest rf) = true).
  Proof.
    destruct (valid_registry reg), (valid_repository repo); cbn [negb];
      try (split; [discriminate | intros (A & B & _); discriminate]).
    destruct rf as [|x rf].
    - split; [intros [= <-]; auto | now intros (_ & _ & -> & _)].
    - destruct (if isTag then valid_tag (x :: rf) else valid_digest (x :: rf)).
      + split; [intros [= <-]; auto | now intros (_ & _ & -> & _)].
      + split; [discriminate | intros (_ & _ & _ & [E | E]); discriminate].
  Qed.

  Lemma parse_form_D reg repo :
    ok_registry reg -> valid_repository repo = true ->
    parse (reg ++ [c_slash] ++ repo) = Some (mkRef reg repo []).
  Proof.
    intros [Hr Hs] Hp. unfold parse. simpl app.
    rewrite (split_first_app _ _ _ Hs).
    assert (E1 : split_first c_at repo = None) by (apply split_first_None; now apply repo_no_at).
    assert (E2 : split_first c_colon repo = None) by (apply split_first_None; now apply repo_no_colon).
    rewrite E1, E2. apply (parse_finish reg repo false []). auto.
  Qed.

  Lemma parse_form_C reg repo t :
    ok_registry reg -> valid_repository repo = true ->
    (t = [] \/ valid_tag t = true) ->
    parse (reg ++ [c_slash] ++ repo ++ [c_colon] ++ t) = Some (mkRef reg repo t).
  Proof.
    intros [Hr Hs] Hp Ht. unfold parse. simpl app.
    rewrite (split_first_app _ _ _ Hs).
    assert (E1 : split_first c_at (repo ++ c_colon :: t) = None).
    { apply split_first_None. rewrite contains_app. rewrite (repo_no_at _ Hp). simpl.
      destruct Ht as [->|Ht]; [reflexivity | now apply tag_no_at]. }
    rewrite E1. rewrite (split_first_app _ _ _ (repo_no_colon _ Hp)). apply (parse_finish reg repo true t). auto.
  Qed.

  Lemma parse_form_A reg repo d :
    ok_registry reg -> valid_repository repo = true ->
    (d = [] \/ valid_digest d = true) ->
    parse (reg ++ [c_slash] ++ repo ++ [c_at] ++ d) = Some (mkRef reg repo d).
  Proof.
    intros [Hr Hs] Hp Hd. unfold parse. simpl app.
    rewrite (split_first_app _ _ _ Hs).
    rewrite (split_first_app _ _ _ (repo_no_at _ Hp)).
    assert (E2 : split_first c_colon repo = None) by (apply split_first_None; now apply repo_no_colon).
    rewrite E2. apply (parse_finish reg repo false d). auto.
  Qed.

  Lemma parse_form_B reg repo junk d :
    ok_registry reg -> valid_repository repo = true -> contains c_at junk = false ->
    (d = [] \/ valid_digest d = true) ->
    parse (reg ++ [c_slash] ++ repo ++ [c_colon] ++ junk ++ [c_at] ++ d) = Some (mkRef reg repo d).
  Proof.
    intros [Hr Hs] Hp Hj Hd. unfold parse. simpl app.
    rewrite (split_first_app _ _ _ Hs).
    replace (repo ++ c_colon :: junk ++ c_at :: d) with ((repo ++ c_colon :: junk) ++ c_at :: d)
      by (rewrite <- app_assoc; reflexivity).
    assert (Hf : contains c_at (repo ++ c_colon :: junk) = false).
    { rewrite contains_app, (repo_no_at _ Hp). simpl. exact Hj. }
    rewrite (split_first_app _ _ _ Hf).
    rewrite (split_first_app _ _ _ (repo_no_colon _ Hp)). apply (parse_finish reg repo false d). auto.
  Qed.

  Theorem parse_complete s r : RefGrammar s r -> parse s = Some r.
  Proof.
    intros G. destruct G.
    - now apply parse_form_D.
    - apply parse_form_C; auto.
    - apply parse_form_A; auto.
    - apply parse_form_B; auto.
    - apply (parse_form_C reg repo []); auto.
    - apply (parse_form_A reg repo []); auto.
    - apply (parse_form_B reg repo junk []); auto.
  Qed.

  Theorem parse_sound s r : parse s = Some r -> RefGrammar s r.
  Proof.
    unfold parse.
    destruct (split_first c_slash s) as [[reg path]|] eqn:E0; [|discriminate].
    apply split_first_Some in E0 as [-> Hs].
    destruct (split_first c_at path) as [[r0 d]|] eqn:E1.
    - apply split_first_Some in E1 as [-> Hat].
      destruct (split_first c_colon r0) as [[r1 junk]|] eqn:E2; intro H;
        [apply (parse_finish reg r1 false d) in H as (Vr & Vp & -> & Hd)
        |apply (parse_finish reg r0 false d) in H as (Vr & Vp & -> & Hd)].
      + apply split_first_Some in E2 as [-> Hc].
        rewrite contains_app in Hat. apply orb_false_iff in Hat as [_ Hat]. simpl in Hat. rewrite <- app_assoc.
        destruct Hd as [-> | Vd]; [apply (GLenientColonAt reg r1 junk) | apply (GFormB reg r1 junk d)]; auto; now split.
      + destruct Hd as [-> | Vd]; [apply (GLenientAt reg r0) | apply (GFormA reg r0 d)]; auto; now split.
    - destruct (split_first c_colon path) as [[r0 t]|] eqn:E2; intro H;
        [apply (parse_finish reg r0 true t) in H as (Vr & Vp & -> & Ht)
        |apply (parse_finish reg path false []) in H as (Vr & Vp & -> & _)].
      + apply split_first_Some in E2 as [-> Hc].
        destruct Ht as [-> | Vt]; [apply (GLenientColon reg r0) | apply (GFormC reg r0 t)]; auto; now split.
      + apply (GFormD reg path); auto. now split.
  Qed.

  Theorem parse_iff_grammar s r : parse s = Some r <-> RefGrammar s r.
  Proof. split; [apply parse_sound | apply parse_complete]. Qed.

  Definition wf_ref (r : reference) : Prop :=
    ok_registry (r_registry r) /\ valid_repository (r_repository r) = true /\
    (r_reference r = [] \/ valid_tag (r_reference r) = true \/ valid_digest (r_reference r) = true).

  Lemma grammar_wf s r : RefGrammar s r -> wf_ref r.
  Proof. destruct 1; unfold wf_ref; simpl; auto. Qed.

  Theorem parse_wf s r : parse s = Some r -> wf_ref r.
  Proof. intro H. apply parse_sound in H. eapply grammar_wf; eauto. Qed.

  Theorem format_parse r : wf_ref r -> parse (format r) = Some r.
  Proof.
    destruct r as [reg repo rf]. unfold wf_ref, Reference.format. simpl.
    intros (Hr & Hp & Hf).
    destruct repo as [|x repo]; [now rewrite repo_nonempty in Hp|].
    destruct Hf as [->|[Ht|Hd]].
    - now apply parse_form_D.
    - destruct rf as [|y rf]; [now rewrite tag_nonempty in Ht|].
      rewrite (tag_not_digest _ Ht).
      rewrite <- app_assoc. apply parse_form_C; auto.
    - destruct rf as [|y rf]; [discriminate|].
      rewrite Hd. rewrite <- app_assoc. apply parse_form_A; auto.
  Qed.

  Theorem parse_roundtrip s r : parse s = Some r -> parse (format r) = Some r.
  Proof. intro H. apply format_parse. eapply parse_wf; eauto. Qed.
End Grammar.

Lemma parse_no_slash valid_registry s : contains c_slash s = false -> Reference.parse avail valid_registry s = None.
Proof. intro H. unfold Reference.parse. apply split_first_None in H. now rewrite H. Qed.

Lemma digest_no c : digest_char c = false -> forall d, valid_digest d = true -> contains c d = false.
Proof.
  intros Hc d H. apply (Forall_contains (fun x => digest_char x = true)); [congruence|].
  apply Forall_forall, forallb_forall. now apply digest_chars.
Qed.
Definition digest_no_slash := digest_no c_slash eq_refl.

Section RepoParseAny.
  Variable valid_registry : str -> bool.
  Variables breg brepo : str.
  Notation repo_parse := (Reference.repo_parse avail valid_registry breg brepo).

  Theorem repo_parse_tag t : valid_tag t = true -> repo_parse t = Some (mkRef breg brepo t).
  Proof.
    intro H. unfold Reference.repo_parse, repo_parse_gen.
    rewrite (parse_no_slash _ _ (tag_no_slash _ H)).
    assert (E : split_first c_at t = None) by (apply split_first_None; now apply tag_no_at).
    rewrite E. unfold Reference.validate_reference.
    destruct t as [|x t]; [now rewrite tag_nonempty in H|].
    rewrite (tag_no_colon _ H), H. reflexivity.
  Qed.

  Theorem repo_parse_digest d : valid_digest d = true -> repo_parse d = Some (mkRef breg brepo d).
  Proof.
    intro H. unfold Reference.repo_parse, repo_parse_gen.
    rewrite (parse_no_slash _ _ (digest_no_slash _ H)).
    assert (E : split_first c_at d = None) by (apply split_first_None; now apply (digest_no c_at)).
    rewrite E. unfold Reference.validate_reference.
    destruct d as [|x d]; [discriminate|].
    rewrite (digest_has_colon _ H), H. reflexivity.
  Qed.

  Theorem repo_parse_tag_at_digest junk d :
    contains c_slash junk = false -> contains c_at junk = false -> valid_digest d = true ->
    repo_parse (junk ++ [c_at] ++ d) = Some (mkRef breg brepo d).
  Proof.
    intros Hs Ha H. unfold Reference.repo_parse, repo_parse_gen.
    rewrite parse_no_slash.
    2:{ rewrite contains_app, Hs. simpl. now apply digest_no_slash. }
    simpl app. rewrite (split_first_app _ _ _ Ha). rewrite Hs, H. simpl.
    destruct d; [discriminate | reflexivity].
  Qed.
End RepoParseAny.

(* Repository.ParseReference accepts EXACTLY: a tag; a digest; <dropped>@digest with a dropped part
   free of '/' and '@'; or a fully qualified reference of the base with a non-empty reference *)
Inductive RepoRefGrammar (valid_registry : str -> bool) (breg brepo : str) : str -> reference -> Prop :=
| RGTag t : valid_tag t = true -> RepoRefGrammar valid_registry breg brepo t (mkRef breg brepo t)
| RGDigest d : valid_digest d = true -> RepoRefGrammar valid_registry breg brepo d (mkRef breg brepo d)
| RGDropped junk d :
    contains c_slash junk = false -> contains c_at junk = false -> valid_digest d = true ->
    RepoRefGrammar valid_registry breg brepo (junk ++ [c_at] ++ d) (mkRef breg brepo d)
| RGFull s r :
    Reference.parse avail valid_registry s = Some r -> r_registry r = breg -> r_repository r = brepo ->
    r_reference r <> [] -> RepoRefGrammar valid_registry breg brepo s r.

Theorem repo_parse_iff_grammar (valid_registry : str -> bool) breg brepo s r :
  Reference.repo_parse avail valid_registry breg brepo s = Some r <-> RepoRefGrammar valid_registry breg brepo s r.
Proof.
  split.
  - unfold Reference.repo_parse, repo_parse_gen.
    destruct (Reference.parse avail valid_registry s) as [r0|] eqn:P.
    + destruct (str_eqb (r_registry r0) breg && str_eqb (r_repository r0) brepo) eqn:E; [|discriminate].
      apply andb_true_iff in E as [A B]. apply str_eqb_spec in A, B.
      destruct (r_reference r0) eqn:R; [discriminate|]. intro H. injection H as <-.
      apply RGFull; auto. rewrite R. discriminate.
    + destruct (split_first c_at s) as [[j d]|] eqn:E.
      * apply split_first_Some in E as [-> Hj].
        destruct (contains c_slash j) eqn:Hs; [discriminate|]. simpl.
        destruct (valid_digest d) eqn:V; [|discriminate]. simpl.
        destruct d as [|x d]; [discriminate|]. intro H. injection H as <-.
        now apply (RGDropped valid_registry breg brepo j (x :: d)).
      * destruct (validate_reference s) eqn:V; [|discriminate]. simpl.
        destruct s as [|x s]; [discriminate|]. intro H. injection H as <-.
        unfold Reference.validate_reference in V. destruct (contains c_colon (x :: s)).
        -- now apply RGDigest.
        -- now apply RGTag.
  - intros G. destruct G as [t Ht | d Hd | junk d Hs Ha Hd | s0 r0 P A B Hne].
    + now apply repo_parse_tag.
    + now apply repo_parse_digest.
    + now apply repo_parse_tag_at_digest.
    + unfold Reference.repo_parse, repo_parse_gen. rewrite P, A, B, !str_eqb_refl. simpl.
      destruct (r_reference r0); [contradiction | reflexivity].
Qed.

Section RepoParse.
  Variable valid_registry : str -> bool.
  Variables breg brepo : str.
  Hypothesis Hbase_reg : ok_registry valid_registry breg.
  Hypothesis Hbase_repo : valid_repository brepo = true.

  Notation repo_parse := (Reference.repo_parse avail valid_registry breg brepo).
  Notation parse := (Reference.parse avail valid_registry).

  Lemma repo_parse_full s rf :
    parse s = Some (mkRef breg brepo rf) -> rf <> [] -> repo_parse s = Some (mkRef breg brepo rf).
  Proof. intros P Hne. apply repo_parse_iff_grammar. now apply RGFull. Qed.

  Theorem repo_parse_full_tag t :
    valid_tag t = true ->
    repo_parse (breg ++ [c_slash] ++ brepo ++ [c_colon] ++ t) = Some (mkRef breg brepo t).
  Proof.
    intro H. apply repo_parse_full; [apply parse_form_C; auto | intros ->; now rewrite tag_nonempty in H].
  Qed.

  Theorem repo_parse_full_digest d :
    valid_digest d = true ->
    repo_parse (breg ++ [c_slash] ++ brepo ++ [c_at] ++ d) = Some (mkRef breg brepo d).
  Proof. intro H. apply repo_parse_full; [apply parse_form_A; auto | now intros ->]. Qed.

  Theorem repo_parse_full_tag_digest junk d :
    contains c_at junk = false -> valid_digest d = true ->
    repo_parse (breg ++ [c_slash] ++ brepo ++ [c_colon] ++ junk ++ [c_at] ++ d) = Some (mkRef breg brepo d).
  Proof. intros Hj H. apply repo_parse_full; [apply parse_form_B; auto | now intros ->]. Qed.

  Theorem repo_parse_other_rejected s r :
    parse s = Some r -> (r_registry r <> breg \/ r_repository r <> brepo) -> repo_parse s = None.
  Proof.
    intros H D. unfold Reference.repo_parse, repo_parse_gen. rewrite H.
    destruct (str_eqb (r_registry r) breg && str_eqb (r_repository r) brepo) eqn:E; auto.
    apply andb_true_iff in E as [A B]. apply str_eqb_spec in A, B. tauto.
  Qed.

  Theorem repo_parse_result_in_base s r :
    repo_parse s = Some r ->
    r_registry r = breg /\ r_repository r = brepo /\ r_reference r <> [] /\
    (valid_tag (r_reference r) = true \/ valid_digest (r_reference r) = true).
  Proof.
    intro H. apply repo_parse_iff_grammar in H.
    destruct H as [t Ht | d Hd | junk d _ _ Hd | s0 r0 P A B Hne]; cbn [r_registry r_repository r_reference].
    - repeat split; auto. intros ->. now rewrite tag_nonempty in Ht.
    - repeat split; auto. now intros ->.
    - repeat split; auto. now intros ->.
    - apply parse_wf in P as (_ & _ & [W|W]); [contradiction | auto].
  Qed.

  Theorem repo_parse_empty : repo_parse [] = None.
  Proof. reflexivity. Qed.

  Theorem repo_forms_agree :
    (forall t, valid_tag t = true ->
       repo_parse t = Some (mkRef breg brepo t) /\
       repo_parse (breg ++ [c_slash] ++ brepo ++ [c_colon] ++ t) = Some (mkRef breg brepo t)) /\
    (forall d, valid_digest d = true ->
       repo_parse d = Some (mkRef breg brepo d) /\
       repo_parse (breg ++ [c_slash] ++ brepo ++ [c_at] ++ d) = Some (mkRef breg brepo d) /\
       (forall junk, contains c_slash junk = false -> contains c_at junk = false ->
         repo_parse (junk ++ [c_at] ++ d) = Some (mkRef breg brepo d)) /\
       (forall junk, contains c_at junk = false ->
         repo_parse (breg ++ [c_slash] ++ brepo ++ [c_colon] ++ junk ++ [c_at] ++ d)
         = Some (mkRef breg brepo d))).
  Proof.
    split.
    - intros t Ht. split; [now apply repo_parse_tag | now apply repo_parse_full_tag].
    - intros d Hd. split; [now apply repo_parse_digest|].
      split; [now apply repo_parse_full_digest|]. split.
      + intros junk Hs Ha. now apply repo_parse_tag_at_digest.
      + intros junk Ha. now apply repo_parse_full_tag_digest.
  Qed.

  (* A string that contains a slash is accepted only as a valid fully qualified reference of the
     base: nothing else with a path in it (foreign or malformed) is ever re-targeted. *)
  Theorem repo_parse_path_is_base s r :
    repo_parse s = Some r -> contains c_slash s = true ->
    parse s = Some r /\ r_registry r = breg /\ r_repository r = brepo.
  Proof.
    intros H Hs. apply repo_parse_iff_grammar in H.
    destruct H as [t Ht | d Hd | junk d Hj _ Hd | s0 r0 P A B Hne]; [exfalso .. | auto].
    - apply tag_no_slash in Ht. congruence.
    - apply digest_no_slash in Hd. congruence.
    - apply digest_no_slash in Hd. rewrite contains_app, Hj in Hs. simpl in Hs. congruence.
  Qed.

  Theorem repo_parse_path_prefix s r :
    repo_parse s = Some r -> contains c_slash s = true ->
    exists c t, s = breg ++ [c_slash] ++ brepo ++ c :: t /\ (c = c_colon \/ c = c_at).
  Proof.
    intros H Hs. pose proof (repo_parse_result_in_base s r H) as (_ & _ & Hne & _).
    destruct (repo_parse_path_is_base s r H Hs) as (P & A & B).
    apply parse_sound in P. destruct P; simpl in *; subst; try congruence.
    - exists c_colon, tag. split; [reflexivity | now left].
    - exists c_at, d. split; [reflexivity | now right].
    - exists c_colon, (junk ++ [c_at] ++ d). split; [reflexivity | now left].
  Qed.
End RepoParse.

Theorem repo_rejects_other_paths (valid_registry : str -> bool) breg brepo s r :
  Reference.repo_parse avail valid_registry breg brepo s = Some r -> contains c_slash s = true ->
  (Reference.parse avail valid_registry s = Some r /\ r_registry r = breg /\ r_repository r = brepo) /\
  exists c t, s = breg ++ [c_slash] ++ brepo ++ c :: t /\ (c = c_colon \/ c = c_at).
Proof.
  intros H Hs. split; [now apply repo_parse_path_is_base | now apply (repo_parse_path_prefix valid_registry breg brepo s r)].
Qed.

(* bytes that would change the structure of a URL path or need escaping:
   controls and space, double quote, hash, percent, question mark, backslash
   and everything >= 127 *)
Definition url_bad : list (N * N) :=
  [(0, 32); (34, 35); (37, 37); (63, 63); (92, 92); (127, 1114111)].

Definition url_clean (s : str) : Prop := Forall (fun c => in_ranges url_bad c = false) s.
Definition seg_clean (s : str) : Prop :=
  Forall (fun c => in_ranges ((c_slash, c_slash) :: url_bad) c = false) s.

Theorem repository_url_clean s : valid_repository s = true -> url_clean s.
Proof.
  intro H. apply matches_spec in H. eapply avoids_spec; [|exact H]. vm_compute. reflexivity.
Qed.

Theorem tag_seg_clean s : valid_tag s = true -> seg_clean s.
Proof.
  intro H. apply matches_spec in H. eapply avoids_spec; [|exact H]. vm_compute. reflexivity.
Qed.

Theorem digest_seg_clean s : valid_digest s = true -> seg_clean s.
Proof.
  intro H. apply Forall_forall. intros c Hc.
  assert (D : digest_char c = true) by (apply (proj1 (forallb_forall _ _) (digest_chars s H)), Hc).
  assert (R : 48 <= c <= 57 \/ 97 <= c <= 122 \/ c = 58).
  { revert D. unfold digest_char, c_colon. rewrite !orb_true_iff, !andb_true_iff, !N.leb_le, N.eqb_eq. tauto. }
  unfold in_ranges, url_bad, c_slash. cbn [existsb fst snd].
  repeat (apply orb_false_iff; split); try reflexivity; apply not_true_is_false; rewrite andb_true_iff, !N.leb_le; lia.
Qed.

Fixpoint after_last (c : N) (s : str) : str :=
  match s with
  | [] => []
  | x :: s' => if contains c s' then after_last c s'
               else if x =? c then s' else x :: s'
  end.

Lemma after_last_app c a t : contains c t = false -> after_last c (a ++ c :: t) = t.
Proof.
  intro H. induction a as [|x a IH]; simpl.
  - now rewrite H, N.eqb_refl.
  - rewrite contains_app. simpl. rewrite N.eqb_refl. rewrite orb_true_r. simpl. exact IH.
Qed.

Lemma seg_clean_no_slash s : seg_clean s -> contains c_slash s = false.
Proof. apply Forall_contains. discriminate. Qed.

Lemma seg_clean_url_clean s : seg_clean s -> url_clean s.
Proof.
  unfold seg_clean, url_clean. intro H. eapply Forall_impl; [|exact H].
  intros c Hc. simpl in Hc. apply orb_false_iff in Hc as [_ Hc]. exact Hc.
Qed.

Lemma wf_ref_seg_clean valid_registry r :
  wf_ref valid_registry r -> r_reference r <> [] -> seg_clean (r_reference r).
Proof.
  intros (_ & _ & [E|[T|D]]) Hne; [contradiction | now apply tag_seg_clean | now apply digest_seg_clean].
Qed.

(* Every accepted reference with a non-empty reference part yields URLs whose
   last path segment is literally the reference, with clean repository and
   reference characters (no question mark, hash, percent, backslash, space, control or non-ASCII). *)
Theorem url_slot valid_registry plain r :
  wf_ref valid_registry r -> r_reference r <> [] ->
  url_clean (r_repository r) /\ seg_clean (r_reference r) /\
  after_last c_slash (url_manifest plain r) = r_reference r /\
  after_last c_slash (url_blob plain r) = r_reference r /\
  after_last c_slash (url_referrers plain r) = r_reference r.
Proof.
  intros W Hne. pose proof (wf_ref_seg_clean _ _ W Hne) as Hs. destruct W as (_ & Hp & _).
  split; [now apply repository_url_clean|]. split; [exact Hs|].
  pose proof (seg_clean_no_slash _ Hs) as Hn.
  assert (K : forall base seg, after_last c_slash (base ++ seg ++ [c_slash] ++ r_reference r) = r_reference r).
  { intros base seg. rewrite !app_assoc, <- app_assoc. now apply after_last_app. }
  repeat split; apply (K _ (b "/manifests")) || apply (K _ (b "/blobs")) || apply (K _ (b "/referrers")).
Qed.

End Avail.

(* before the fix: a malformed foreign path in front of a digest was re-targeted to the base *)
Theorem repo_parse_prefix_retargets :
  exists avail vr breg brepo s r,
    ok_registry vr breg /\ valid_repository brepo = true /\
    repo_parse_prefix avail vr breg brepo s = Some r /\ contains c_slash s = true /\ parse avail vr s = None.
Proof.
  pose (d := b "sha256:e3b0c44298fc1c149afbf4c8996fb92427ae41e4649b934ca495991b7852b855").
  exists (fun _ => true), (fun _ => true), (b "docker.io"), (b "library/x"), (b "ghcr.io/Org/app@" ++ d),
         (mkRef (b "docker.io") (b "library/x") d).
  unfold ok_registry. repeat split; vm_compute; reflexivity.
Qed.

Definition word_char (c : N) : bool :=
  ((48 <=? c) && (c <=? 57)) || ((65 <=? c) && (c <=? 90)) || (c =? 95) || ((97 <=? c) && (c <=? 122)).
Definition tag_char (c : N) : bool := word_char c || (c =? 45) || (c =? 46).

Lemma in_ranges_word c : in_ranges [(48, 57); (65, 90); (95, 95); (97, 122)] c = word_char c.
Proof. unfold word_char. ranges_lia. Qed.

Lemma in_ranges_tagc c :
  in_ranges [(45, 46); (48, 57); (65, 90); (95, 95); (97, 122)] c = tag_char c.
Proof. unfold tag_char, word_char. ranges_lia. Qed.

(* The documented tag rule. *)
Theorem tag_grammar s :
  valid_tag s = true <->
  exists c t, s = c :: t /\ word_char c = true /\ (length t <= 127)%nat /\
              Forall (fun x => tag_char x = true) t.
Proof.
  unfold valid_tag. rewrite matches_spec. apply Lang_cls_rep; [apply in_ranges_word | apply in_ranges_tagc].
Qed.
