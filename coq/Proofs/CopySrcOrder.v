(* C04: what the translator reads from the Go sources (Generated/GC04.v) against what the
   hand-written transition system assumes: the limiter sizes of copyGraph and ExtendedCopyGraph are
   the model's eff_K; the source order of the calls inside each function (kind callseq); and the
   per-node order of visible events that the transition system enforces for a plain blob copy is
   that source order: PreCopy, src.Fetch, dst.Push, (deferred) Close, PostCopy. *)
From Oras Require Import Base.Prelude Generated.GC04 Model.CopySpec Model.CopyTop
  Proofs.CopySpec Proofs.CopyAcct.
Local Open Scope nat_scope.

Lemma limiter_sizes_lemma opt :
  Z.to_nat (copyGraph_limiter_size opt) = eff_K defaultConcurrency opt /\
  Z.to_nat (ExtendedCopyGraph_limiter_size opt) = eff_K defaultConcurrency opt /\
  ((0 < opt)%Z -> copyGraph_limiter_size opt = opt) /\
  ((opt <= 0)%Z -> copyGraph_limiter_size opt = 3%Z).
Proof.
  split; [reflexivity|]. split; [reflexivity|].
  unfold copyGraph_limiter_size, defaultConcurrency. split; intro H.
  - destruct (opt <=? 0)%Z eqn:E; [apply Z.leb_le in E; lia | reflexivity].
  - apply Z.leb_le in H. now rewrite H.
Qed.

Lemma source_call_order :
  (* copyGraph.fn: claim, (deferred) close(done), probe, skip callback, successors, release the permit,
     dispatch, wait (TryCommit of each successor), re-acquire, copy; then the top-level dispatch *)
  c04_calls_copyGraph =
    [b "tracker.TryCommit"; b "close"; b "dst.Exists"; b "opts.OnCopySkipped"; b "opts.FindSuccessors";
     b "removeForeignLayers"; b "region.End"; b "syncutil.Go"; b "tracker.TryCommit"; b "region.Start";
     b "proxy.Cache.Exists"; b "copyNode"; b "mountOrCopyNode"; b "syncutil.Go"]%string /\
  c04_calls_copyNode = [b "opts.PreCopy"; b "doCopyNode"; b "opts.PostCopy"]%string /\
  (* rc.Close is deferred: it runs after dst.Push returned *)
  c04_calls_doCopyNode = [b "src.Fetch"; b "rc.Close"; b "dst.Push"]%string /\
  c04_calls_mountOrCopyNode =
    [b "copyNode"; b "copyNode"; b "opts.MountFrom"; b "copyNode"; b "opts.PreCopy"; b "src.Fetch";
     b "mounter.Mount"; b "opts.OnMounted"; b "opts.PostCopy"]%string /\
  (* one limiter, one tracker for all roots; the closure releases its permit around copyGraph *)
  c04_calls_ExtendedCopyGraph =
    [b "findRoots"; b "semaphore.NewWeighted"; b "status.NewTracker"; b "syncutil.Go"; b "region.End";
     b "copyGraph"; b "region.Start"]%string /\
  (* syncutil.Go: acquire before spawning, release in the goroutine's defer *)
  c04_calls_Go =
    [b "LimitRegion"; b "region.Start"; b "eg.Go"; b "lr.End"; b "fn"; b "eg.Wait"; b "context.Cause"]%string /\
  c04_calls_Start = [b "lr.limiter.Acquire"]%string /\
  c04_calls_End = [b "lr.limiter.Release"]%string.
Proof. repeat split; reflexivity. Qed.

Definition mfetch_ph (p : phase) : bool :=
  match p with NeedFetch | MF1 | MF2 => true | _ => false end.
Definition inpush_ph (p : phase) : bool :=
  match p with Pushing _ _ | Closing _ => true | _ => false end.

Section Order.
Variable g : graph.
Variable c : cfg.
Variable d0 : list node.

Lemma mfetch_ismf tr st n : accepts g c d0 tr = Some st -> mfetch_ph (ph st n) = true -> g_ismf g n = true.
Proof.
  intros Ha Hn.
  destruct (phase_history g c d0 mfetch_ph (fun _ _ => False) (fun n => g_ismf g n = true) eq_refl)
    with (tr := tr) (st := st) (n := n) as [[e [_ []]]|Hm]; auto.
  intros s e m p q _ _ M Hq. move_cases M; try discriminate Hq; auto.
Qed.

(* root_refpush c n = false: the re-push of a present / mounted ReferencePusher root has no PreCopy *)
Lemma fetch_after_precopy tr1 n tr2 st :
  accepts g c d0 (tr1 ++ SFB n :: tr2) = Some st ->
  g_ismf g n = false -> root_refpush c n = false -> In (Cb CPre n) tr1.
Proof.
  intros Ha Hm Hr. apply accepts_mid in Ha as (st1 & s2 & H1 & I1 & E & _).
  apply (prep_history g c d0 tr1 st1 n H1).
  destruct (step_move g c st1 _ s2 n E eq_refl) as (p & q & Hp & M & _). rewrite Hp.
  pose proof (mfetch_ismf tr1 st1 n H1) as MF. pose proof (i_skflag g c d0 st1 I1 n) as SK.
  rewrite Hp in MF, SK. move_inv M; try reflexivity.
  - specialize (MF eq_refl). congruence.
  - destruct sk; [specialize (SK eq_refl); congruence | reflexivity].
Qed.

Lemma push_after_fetch tr1 n r tr2 st :
  accepts g c d0 (tr1 ++ PuB n r :: tr2) = Some st ->
  exists st1, accepts g c d0 tr1 = Some st1 /\
              (memb n (cached st1) = false -> In (SFB n) tr1 /\ In (SFE n) tr1).
Proof.
  intro Ha. apply accepts_mid in Ha as (st1 & s2 & H1 & _ & E & _).
  exists st1. split; [exact H1|]. intro Hc.
  destruct (step_move g c st1 _ s2 n E eq_refl) as (p & q & Hp & M & _).
  assert (Hf : exists sk, ph st1 n = F2 sk) by (move_inv M; [congruence | eauto]).
  destruct Hf as [sk Hf]. split.
  - apply (entered_by g c d0 (fun p => match p with F1 _ | F2 _ => true | _ => false end) SFB tr1 st1 n eq_refl);
      [|exact H1|now rewrite Hf].
    intros s e m a b M' Hq. move_cases M'; try discriminate Hq; auto.
  - apply (entered_by g c d0 (fun p => match p with F2 _ => true | _ => false end) SFE tr1 st1 n eq_refl);
      [|exact H1|now rewrite Hf].
    intros s e m a b M' Hq. move_cases M'; try discriminate Hq; auto.
Qed.

Lemma close_after_push tr1 n tr2 st :
  accepts g c d0 (tr1 ++ SFC n :: tr2) = Some st ->
  g_ismf g n = false -> c_mount c = false -> In (PuB n (root_refpush c n)) tr1.
Proof.
  intros Ha Hm Hmt. apply accepts_mid in Ha as (st1 & s2 & H1 & I1 & E & _).
  apply (entered_by g c d0 inpush_ph (fun n => PuB n (root_refpush c n)) tr1 st1 n eq_refl); [|exact H1|].
  - intros s e m a b M' Hq. move_cases M'; try discriminate Hq; auto.
  - destruct (step_move g c st1 _ s2 n E eq_refl) as (p & q & Hp & M & _). rewrite Hp.
    pose proof (mfetch_ismf tr1 st1 n H1) as MF. pose proof (i_mt g c d0 st1 I1 n) as MT.
    rewrite Hp in MF, MT. move_inv M; try reflexivity.
    + specialize (MF eq_refl). congruence.
    + destruct (MT eq_refl). congruence.
Qed.
End Order.
