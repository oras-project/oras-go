(* C12: the tar written by Store.Add does not depend on the order in which a directory
   lists its entries: filepath.Walk's sort makes the children list canonical. *)
From Coq Require Import Permutation Sorted.
From Oras Require Import Base.Prelude Model.TarRoundTrip Proofs.TarRoundTrip Proofs.TarWalkOrder.

Lemma str_ltb_cons c x d y :
  str_ltb (c :: x) (d :: y) = true <-> c < d \/ (c = d /\ str_ltb x y = true).
Proof.
  simpl. destruct (N.ltb_spec c d) as [Hcd|Hcd]; [split; auto|].
  destruct (N.ltb_spec d c) as [Hdc|Hdc].
  - split; [discriminate|]. intros [?|[? _]]; lia.
  - assert (c = d) by lia. split; [auto|]. intros [?|[_ ?]]; [lia|assumption].
Qed.

Lemma str_ltb_trans : forall x y z, str_ltb x y = true -> str_ltb y z = true -> str_ltb x z = true.
Proof.
  induction x as [|c x IH]; intros [|d y] [|e z] H1 H2; simpl in H1, H2; try discriminate; try reflexivity.
  apply str_ltb_cons in H1. apply str_ltb_cons in H2. apply str_ltb_cons.
  destruct H1 as [H1|[-> H1]], H2 as [H2|[-> H2]].
  - left; lia.
  - left; lia.
  - left; lia.
  - right. split; [reflexivity|]. eapply IH; eauto.
Qed.

Lemma str_ltb_asym : forall x y, str_ltb x y = true -> str_ltb y x = true -> False.
Proof.
  induction x as [|c x IH]; intros [|d y] H1 H2; simpl in H1, H2; try discriminate.
  apply str_ltb_cons in H1. apply str_ltb_cons in H2.
  destruct H1 as [H1|[-> H1]], H2 as [H2|[E2 H2]]; try lia. eapply IH; eauto.
Qed.

Lemma str_ltb_total : forall x y, str_ltb x y = false -> str_ltb y x = false -> x = y.
Proof.
  induction x as [|c x IH]; intros [|d y] H1 H2; simpl in H1, H2; try discriminate; try reflexivity.
  destruct (N.ltb_spec c d); [discriminate|]. destruct (N.ltb_spec d c); [discriminate|].
  assert (c = d) by lia. subst d. f_equal. now apply IH.
Qed.

Definition name_lt (a b : name * tree) : Prop := str_ltb (fst a) (fst b) = true.

Lemma insert_child_sorted x l :
  StronglySorted name_lt l -> (forall y, In y l -> fst y <> fst x) ->
  StronglySorted name_lt (insert_child x l).
Proof.
  induction l as [|a l IH]; simpl; intros Hs Hd.
  - constructor; constructor.
  - inversion Hs as [|? ? Hs' Ha]; subst.
    destruct (str_ltb (fst a) (fst x)) eqn:E.
    + constructor.
      * apply IH; [exact Hs'|]. intros y Hy. apply Hd. now right.
      * apply (Permutation_Forall (Permutation_sym (insert_child_perm x l))).
        constructor; [exact E|exact Ha].
    + assert (Hxa : name_lt x a).
      { unfold name_lt. destruct (str_ltb (fst x) (fst a)) eqn:E'; [reflexivity|].
        exfalso. apply (Hd a); [now left|]. symmetry. now apply str_ltb_total. }
      constructor; [exact Hs|]. constructor; [exact Hxa|].
      eapply Forall_impl; [|exact Ha]. intros y Hy. unfold name_lt in *. eapply str_ltb_trans; eauto.
Qed.

Lemma sort_children_sorted l : NoDup (map fst l) -> StronglySorted name_lt (sort_children l).
Proof.
  induction l as [|x l IH]; intro Hnd.
  - constructor.
  - inversion Hnd as [|? ? Hni Hnd']; subst. unfold sort_children in *. simpl.
    apply insert_child_sorted; [now apply IH|].
    intros y Hy E. apply Hni. rewrite <- E. apply in_map.
    eapply Permutation_in; [apply sort_children_perm|exact Hy].
Qed.

Lemma sorted_perm_eq : forall l l',
  StronglySorted name_lt l -> StronglySorted name_lt l' -> Permutation l l' -> l = l'.
Proof.
  induction l as [|a l IH]; intros l' Hs Hs' Hp.
  - apply Permutation_nil in Hp. now subst.
  - destruct l' as [|b l']; [apply Permutation_sym, Permutation_nil in Hp; discriminate|].
    inversion Hs as [|? ? Hs1 Ha]; inversion Hs' as [|? ? Hs2 Hb]; subst.
    assert (a = b).
    { assert (Ia : In a (b :: l')) by (eapply Permutation_in; [exact Hp|now left]).
      assert (Ib : In b (a :: l)) by (eapply Permutation_in; [apply Permutation_sym; exact Hp|now left]).
      destruct Ia as [Ia|Ia]; [now symmetry|]. destruct Ib as [Ib|Ib]; [assumption|].
      exfalso. rewrite Forall_forall in Ha, Hb.
      exact (str_ltb_asym _ _ (Ha b Ib) (Hb a Ia)). }
    subst b. f_equal. apply IH; auto. eapply Permutation_cons_inv; eauto.
Qed.

Lemma names_nodupb_NoDup l : names_nodupb l = true -> NoDup l.
Proof.
  induction l as [|x l IH]; simpl; intro Hn; [constructor|].
  apply andb_true_iff in Hn as [H1 H2]. constructor; [|now apply IH].
  intro Hin. apply existsb_str_in in Hin. rewrite Hin in H1. discriminate.
Qed.

Theorem sort_children_canonical l l' :
  Permutation l l' -> names_nodupb (map fst l) = true -> sort_children l = sort_children l'.
Proof.
  intros Hp Hn. apply names_nodupb_NoDup in Hn.
  apply sorted_perm_eq.
  - now apply sort_children_sorted.
  - apply sort_children_sorted. eapply Permutation_NoDup; [apply Permutation_map; exact Hp|exact Hn].
  - rewrite sort_children_perm, Hp. symmetry. apply sort_children_perm.
Qed.

(* the same tree, every directory possibly listing its children in another order *)
Inductive same_tree : tree -> tree -> Prop :=
| st_file c m t : same_tree (File c m t) (File c m t)
| st_link g t : same_tree (Link g t) (Link g t)
| st_dir m t ch ch' ch'' :
    Forall2 (fun a b => fst a = fst b /\ same_tree (snd a) (snd b)) ch ch' ->
    Permutation ch' ch'' ->
    same_tree (Dir m t ch) (Dir m t ch'').

Lemma same_tree_sort : forall t t', same_tree t t' -> wf_treeb t = true -> sort_tree t = sort_tree t'.
Proof.
  induction t as [c m mt|tg mt|m mt ch IH] using tree_ind'; intros t' Hst Hwf; inversion Hst; subst; try reflexivity.
  rename ch' into ch1, ch'' into ch2. rewrite !sort_tree_dir. f_equal.
  simpl in Hwf. apply andb_true_iff in Hwf as [Hnd Hwf]. apply andb_true_iff in Hnd as [Hnd Hnok].
  assert (Hmap : map sortg ch = map sortg ch1).
  { clear - IH H3 Hwf. induction H3 as [|a b0 l l' [Hab Hs] HF IHF]; [reflexivity|].
    inversion IH as [|? ? IHa IHl]; subst. simpl in Hwf. apply andb_true_iff in Hwf as [Hwa Hwl].
    simpl. f_equal; [|now apply IHF].
    unfold sortg. rewrite Hab. f_equal. now apply IHa. }
  rewrite Hmap. apply sort_children_canonical.
  - now apply Permutation_map.
  - rewrite <- Hmap, map_fst_sortg. exact Hnd.
Qed.

Theorem listing_order_irrelevant pre repro t t' :
  same_tree t t' -> wf_treeb t = true -> tar_entries pre repro t = tar_entries pre repro t'.
Proof. intros Hst Hwf. exact (walk_order_irrelevant pre repro t t' (same_tree_sort t t' Hst Hwf)). Qed.

Lemma strip_times_idem : forall t, strip_times (strip_times t) = strip_times t.
Proof.
  induction t as [c m mt|tg mt|m mt ch IH] using tree_ind'; simpl; try reflexivity.
  f_equal. rewrite map_map. simpl. apply map_ext_Forall.
  eapply Forall_impl; [|exact IH]. intros nc H. simpl. now rewrite H.
Qed.

(* reproducible tars: neither the timestamps nor the listing order of any directory matter *)
Theorem reproducible_any_listing pre t1 t2 :
  same_tree (strip_times t1) (strip_times t2) -> wf_treeb (strip_times t1) = true ->
  tar_entries pre true t1 = tar_entries pre true t2.
Proof.
  intros Hst Hwf.
  rewrite (reproducible_entries pre t1 (strip_times t1)) by (symmetry; apply strip_times_idem).
  rewrite (reproducible_entries pre t2 (strip_times t2)) by (symmetry; apply strip_times_idem).
  now apply listing_order_irrelevant.
Qed.
