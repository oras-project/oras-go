(* C18 -- every concurrent execution of Get/Put/Delete callers on one store is
   equal to a sequential order of the operations (Model/CredConc.v). *)
From Coq Require Import Lia.
From Oras Require Import Base.Prelude Generated.GC18 Model.CredFile Model.CredConc Proofs.CredFile.

Section ConcProofs.
  Variable enc : str -> str.
  Variable dec : str -> option str.

  Notation step := (step enc dec).
  Notation run := (run enc dec).
  Notation cstep := (cstep enc dec).
  Notation creach := (creach enc dec).
  Notation cache_update := (cache_update enc).
  Notation seq_results := (seq_results enc dec).

  Lemma upd_same ts i t : upd ts i t i = t.
  Proof. unfold upd. now rewrite Nat.eqb_refl. Qed.

  Lemma upd_other ts i j t : j <> i -> upd ts i t j = ts j.
  Proof. intro N. unfold upd. destruct (Nat.eqb_spec j i); [contradiction|reflexivity]. Qed.

  (* the two half steps of a writer compose to the atomic step *)
  Lemma writer_step st o :
    writer_op o ->
    snd (step st o) = ROk /\
    fst (step st o) = (if needs_save (st_mem st) o then save (cache_update (st_mem st) o) else st) /\
    (needs_save (st_mem st) o = false -> cache_update (st_mem st) o = st_mem st).
  Proof.
    destruct o as [a|a c|a|s']; cbn [CredFile.step writer_op needs_save CredConc.cache_update]; intro W;
      [contradiction| | |repeat split; discriminate].
    - rewrite W. repeat split. discriminate.
    - destruct (lookup a (m_cache (st_mem st))); repeat split. discriminate.
  Qed.

  Lemma run_snoc h : forall st o, run st (h ++ [o]) = fst (step (run st h) o).
  Proof. induction h as [|x h IH]; intros st o; simpl; [reflexivity|apply IH]. Qed.

  Lemma seq_results_snoc h : forall st o,
    seq_results st (h ++ [o]) = seq_results st h ++ [snd (step (run st h) o)].
  Proof. induction h as [|x h IH]; intros st o; simpl; [reflexivity|]. now rewrite IH. Qed.

  (* the abstraction: the store once a half-done write is completed *)
  Definition abs (g : gstate) : state :=
    match g_writer g with
    | Some i => match t_pc (g_threads g i) with
                | WCached _ true => save (st_mem (g_store g))
                | _ => g_store g
                end
    | None => g_store g
    end.

  Definition lock_inv (g : gstate) : Prop :=
    (forall i, in_write_cs (t_pc (g_threads g i)) <-> g_writer g = Some i) /\
    (forall j, in_read_cs (t_pc (g_threads g j)) -> g_writer g = None) /\
    (forall i o, t_pc (g_threads g i) = WLocked o -> writer_op o).

  Lemma lock_initial g : initial g -> lock_inv g.
  Proof.
    intros (W & T). repeat split.
    - intro H. destruct (T i) as [P _]. rewrite P in H. contradiction.
    - intro H. rewrite W in H. discriminate.
    - intros j H. destruct (T j) as [P _]. rewrite P in H. contradiction.
    - intros i o H. destruct (T i) as [P _]. rewrite P in H. discriminate.
  Qed.

  Ltac thread_cases j i :=
    let E := fresh "E" in let NE := fresh "NE" in
    destruct (Nat.eq_dec j i) as [E|NE];
    [subst j; rewrite ?upd_same in *|rewrite ?(upd_other _ _ _ _ NE) in *].

  Lemma lock_update g s w i t :
    lock_inv g ->
    (in_write_cs (t_pc t) <-> w = Some i) ->
    (in_read_cs (t_pc t) -> w = None) ->
    (forall o, t_pc t = WLocked o -> writer_op o) ->
    (forall k, k <> i -> (g_writer g = Some k <-> w = Some k) /\
                         (in_read_cs (t_pc (g_threads g k)) -> w = None)) ->
    lock_inv {| g_store := s; g_writer := w; g_threads := upd (g_threads g) i t |}.
  Proof.
    intros (LW & LR & LO) H1 H2 H3 H4. unfold lock_inv. cbn [g_writer g_threads].
    split; [|split]; intro k; thread_cases k i; try assumption.
    - rewrite (LW k). now apply H4.
    - now apply H4.
    - apply LO.
  Qed.

  Lemma lock_update_same g s i t :
    lock_inv g ->
    (in_write_cs (t_pc t) <-> in_write_cs (t_pc (g_threads g i))) ->
    (in_read_cs (t_pc t) -> g_writer g = None) ->
    (forall o, t_pc t = WLocked o -> writer_op o) ->
    lock_inv {| g_store := s; g_writer := g_writer g; g_threads := upd (g_threads g) i t |}.
  Proof.
    intros L H1 H2 H3. apply lock_update; try assumption.
    - rewrite H1. apply L.
    - intros k _. split; [reflexivity|apply L].
  Qed.

  Lemma lock_step g l g' : lock_inv g -> cstep g l g' -> lock_inv g'.
  Proof.
    intros L S. pose proof L as (LW & LR & LO).
    inversion S as [? i a rest P T W|? i a P|? i a r P|? i a c rest P T A|? i o rest P T WO W NR|? i o P|? i o sv P|? i o P];
      subst; clear S.
    (* acq_r, read, rel_r, refuse, wcache, wfile leave the lock as it is; a reader enters or stays
       only when there is no writer *)
    1-4, 6-7: apply lock_update_same; rewrite ?P; cbn [t_pc in_write_cs in_read_cs]; [exact L|tauto|try tauto|discriminate].
    - (* read *) intros _. apply (LR i). now rewrite P.
    - (* acq_w *)
      apply lock_update; cbn [t_pc in_write_cs in_read_cs]; [exact L|tauto|tauto|congruence|].
      intros k N. rewrite W. split; [split; congruence|]. intro R. elim (NR k R).
    - (* rel_w *)
      pose proof (proj1 (LW i)) as WI. rewrite P in WI. specialize (WI I).
      apply lock_update; cbn [t_pc in_write_cs in_read_cs]; [exact L|now split|tauto|discriminate|].
      intros k N. rewrite WI. split; [split; congruence|reflexivity].
  Qed.

  (* linearisation: the abstraction follows the sequential run *)
  Definition lin_inv (g0 g : gstate) (lin : list label) : Prop :=
    abs g = run (g_store g0) (map lab_op lin) /\
    map lab_res lin = seq_results (g_store g0) (map lab_op lin).

  Lemma abs_no_writer g : g_writer g = None -> abs g = g_store g.
  Proof. intro H. unfold abs. now rewrite H. Qed.

  Lemma lin_snoc g0 g g' lin i o r :
    lin_inv g0 g lin ->
    step (abs g) o = (abs g', r) ->
    lin_inv g0 g' (lin ++ [(i, o, r)]).
  Proof.
    intros (A & B) E. unfold lin_inv. rewrite !map_app. cbn [map lab_op lab_res fst snd].
    rewrite run_snoc, seq_results_snoc, <- A, <- B, E. split; reflexivity.
  Qed.

  Lemma lin_same g0 g g' lin : lin_inv g0 g lin -> abs g' = abs g -> lin_inv g0 g' (lin ++ []).
  Proof. intros (A & B) E. rewrite app_nil_r. split; [now rewrite E|exact B]. Qed.

  Lemma abs_with_thread g i t : g_writer g <> Some i -> abs (with_thread g i t) = abs g.
  Proof.
    intro N. unfold abs, with_thread. cbn [g_store g_writer g_threads].
    destruct (g_writer g) as [k|]; [|reflexivity]. rewrite upd_other by congruence. reflexivity.
  Qed.

  Lemma lin_step g0 g l g' lin :
    lock_inv g -> lin_inv g0 g lin -> cstep g l g' ->
    lin_inv g0 g' (lin ++ match l with Some x => [x] | None => [] end).
  Proof.
    intros (LW & LR & LO) L S.
    inversion S; subst; clear S.
    - (* acq_r *)
      apply (lin_same g0 g); [exact L|]. apply abs_with_thread. congruence.
    - (* read *)
      assert (WN : g_writer g = None) by (apply (LR i); rewrite H; exact I).
      apply (lin_snoc g0 g); [exact L|].
      rewrite abs_with_thread, abs_no_writer by congruence. reflexivity.
    - (* rel_r *)
      assert (WN : g_writer g = None) by (apply (LR i); rewrite H; exact I).
      apply (lin_same g0 g); [exact L|]. apply abs_with_thread. congruence.
    - (* refuse *)
      apply (lin_snoc g0 g); [exact L|]. rewrite abs_with_thread; [now apply put_refused|].
      intro X. apply LW in X. rewrite H in X. exact X.
    - (* acq_w *)
      apply (lin_same g0 g); [exact L|].
      rewrite (abs_no_writer g) by assumption.
      unfold abs. cbn [g_store g_writer g_threads]. now rewrite upd_same.
    - (* wcache *)
      assert (WI : g_writer g = Some i) by (apply LW; rewrite H; exact I).
      apply (lin_snoc g0 g); [exact L|].
      assert (AG : abs g = g_store g).
      { unfold abs. now rewrite WI, H. }
      rewrite AG.
      destruct (writer_step (g_store g) o (LO i o H)) as (R & F & N).
      rewrite (surjective_pairing (step (g_store g) o)), R, F. f_equal.
      unfold abs. cbn [g_store g_writer g_threads]. rewrite WI, upd_same. cbn [t_pc st_mem].
      subst m. destruct (needs_save (st_mem (g_store g)) o) eqn:NS; [reflexivity|].
      rewrite (N eq_refl). now destruct (g_store g).
    - (* wfile *)
      assert (WI : g_writer g = Some i) by (apply LW; rewrite H; exact I).
      apply (lin_same g0 g); [exact L|].
      unfold abs. cbn [g_store g_writer g_threads]. rewrite WI, upd_same, H. cbn [t_pc].
      destruct sv; reflexivity.
    - (* rel_w *)
      assert (WI : g_writer g = Some i) by (apply LW; rewrite H; exact I).
      apply (lin_same g0 g); [exact L|].
      unfold abs. cbn [g_store g_writer g_threads]. now rewrite WI, H.
  Qed.

  (* the file at EVERY reachable state (hence at a crash at any moment of a
     concurrent execution) is the file of a sequential prefix of the linearisation *)
  Definition file_inv (g0 g : gstate) (lin : list label) : Prop :=
    exists n, (n <= length lin)%nat /\
              st_file (g_store g) = st_file (run (g_store g0) (map lab_op (firstn n lin))).

  Lemma file_keep g0 g g' lin x :
    file_inv g0 g lin -> st_file (g_store g') = st_file (g_store g) -> file_inv g0 g' (lin ++ x).
  Proof.
    intros (n & LE & F) E. exists n. split; [rewrite app_length; lia|].
    rewrite E, F, firstn_app. replace (n - length lin)%nat with 0%nat by lia. cbn [firstn]. now rewrite app_nil_r.
  Qed.

  Lemma file_step g0 g l g' lin :
    lock_inv g -> lin_inv g0 g lin -> file_inv g0 g lin -> cstep g l g' ->
    file_inv g0 g' (lin ++ match l with Some x => [x] | None => [] end).
  Proof.
    intros (LW & LR & LO) (A & _) FI S.
    inversion S; subst; clear S; try (apply (file_keep g0 g); [exact FI|reflexivity]).
    (* wfile *)
    destruct sv; [|apply (file_keep g0 g); [exact FI|reflexivity]].
    assert (WI : g_writer g = Some i) by (apply LW; rewrite H; exact I).
    exists (length lin). rewrite app_nil_r. split; [lia|].
    rewrite firstn_all, <- A. unfold abs. rewrite WI, H. reflexivity.
  Qed.

  Definition pending (p : pc) : list (op * result) :=
    match p with
    | RDone a r => [(Get a, r)]
    | WCached o _ | WDone o => [(o, ROk)]
    | _ => []
    end.
  Definition inflight (p : pc) : list op :=
    match p with
    | Idle => []
    | RLocked a | RDone a _ => [Get a]
    | WLocked o | WCached o _ | WDone o => [o]
    end.

  (* thread t, started as t0, against its part of the log *)
  Definition thread_ok (t0 t : thread) (log : list (op * result)) : Prop :=
    log = rev (t_done t) ++ pending (t_pc t) /\
    map fst (rev (t_done t)) ++ inflight (t_pc t) ++ t_todo t = t_todo t0.

  Definition prog_inv (g0 g : gstate) (lin : list label) : Prop :=
    forall i, thread_ok (g_threads g0 i) (g_threads g i) (of_thread i lin).

  Lemma of_thread_snoc_same i lin o r :
    of_thread i (lin ++ [(i, o, r)]) = of_thread i lin ++ [(o, r)].
  Proof.
    unfold of_thread. rewrite filter_app, map_app. cbn [filter lab_thread fst].
    rewrite Nat.eqb_refl. reflexivity.
  Qed.

  Lemma of_thread_snoc_other i j lin o r :
    j <> i -> of_thread j (lin ++ [(i, o, r)]) = of_thread j lin.
  Proof.
    intro N. unfold of_thread. rewrite filter_app, map_app. cbn [filter lab_thread fst].
    destruct (Nat.eqb_spec i j); [congruence|]. cbn [map]. now rewrite app_nil_r.
  Qed.

  Lemma prog_initial g0 : initial g0 -> prog_inv g0 g0 [].
  Proof.
    intros (_ & T) i. destruct (T i) as [P D]. unfold thread_ok. rewrite P, D. split; reflexivity.
  Qed.

  Lemma prog_update g0 g lin s w i t (x : option (op * result)) :
    prog_inv g0 g lin ->
    thread_ok (g_threads g0 i) t (of_thread i lin ++ match x with Some y => [y] | None => [] end) ->
    prog_inv g0 {| g_store := s; g_writer := w; g_threads := upd (g_threads g) i t |}
             (lin ++ match x with Some (o, r) => [(i, o, r)] | None => [] end).
  Proof.
    intros P T k. cbn [g_threads]. destruct x as [[o r]|].
    - thread_cases k i; [now rewrite of_thread_snoc_same|rewrite of_thread_snoc_other by assumption; apply P].
    - rewrite app_nil_r in *. thread_cases k i; [exact T|apply P].
  Qed.

  Lemma prog_step g0 g l g' lin :
    prog_inv g0 g lin -> cstep g l g' ->
    prog_inv g0 g' (lin ++ match l with Some x => [x] | None => [] end).
  Proof.
    intros P S.
    inversion S as [? i a rest C T W|? i a C|? i a r C|? i a c rest C T A|? i o rest C T WO W NR|? i o C|? i o sv C|? i o C];
      subst; clear S; destruct (P i) as [P1 P2]; rewrite C in *; cbn [pending inflight app] in *.
    - (* acq_r *)
      apply (prog_update g0 g lin _ _ i _ None P). rewrite T in P2. split; [now rewrite app_nil_r|exact P2].
    - (* read *)
      apply (prog_update g0 g lin _ _ i _ (Some (Get a, _)) P). split; [now rewrite P1, app_nil_r|exact P2].
    - (* rel_r *)
      apply (prog_update g0 g lin _ _ i _ None P). split; cbn [t_pc t_done t_todo pending inflight rev app].
      + now rewrite !app_nil_r.
      + rewrite map_app, <- app_assoc. exact P2.
    - (* refuse *)
      apply (prog_update g0 g lin _ _ i _ (Some (Put a c, RErrBadCred)) P). rewrite T in P2.
      split; cbn [t_pc t_done t_todo pending inflight rev app].
      + now rewrite P1, !app_nil_r.
      + rewrite map_app, <- app_assoc. exact P2.
    - (* acq_w *)
      apply (prog_update g0 g lin _ _ i _ None P). rewrite T in P2. split; [now rewrite app_nil_r|exact P2].
    - (* wcache *)
      apply (prog_update g0 g lin _ _ i _ (Some (o, ROk)) P). split; [now rewrite P1, app_nil_r|exact P2].
    - (* wfile *)
      apply (prog_update g0 g lin _ _ i _ None P). split; [now rewrite app_nil_r|exact P2].
    - (* rel_w *)
      apply (prog_update g0 g lin _ _ i _ None P). split; cbn [t_pc t_done t_todo pending inflight rev app].
      + now rewrite !app_nil_r.
      + rewrite map_app, <- app_assoc. exact P2.
  Qed.

  Lemma creach_inv g0 g lin :
    initial g0 -> creach g0 g lin ->
    lock_inv g /\ lin_inv g0 g lin /\ file_inv g0 g lin /\ prog_inv g0 g lin.
  Proof.
    intros I R. induction R as [|g g' lin l _ (LI & LN & FI & PR) S].
    - split; [now apply lock_initial|]. split; [|split; [|now apply prog_initial]].
      + split; [|reflexivity]. apply abs_no_writer. apply I.
      + exists 0%nat. split; [apply Nat.le_refl|reflexivity].
    - split; [now apply (lock_step g l)|]. split; [now apply (lin_step g0 g)|].
      split; [now apply (file_step g0 g)|now apply (prog_step g0 g)].
  Qed.

  Lemma lock_reach g0 g lin : initial g0 -> creach g0 g lin -> lock_inv g.
  Proof. intros I R. apply (creach_inv g0 g lin I R). Qed.

  Lemma file_always_sequential g0 g lin :
    initial g0 -> creach g0 g lin ->
    exists n, (n <= length lin)%nat /\
              st_file (g_store g) = st_file (run (g_store g0) (map lab_op (firstn n lin))).
  Proof. intros I R. apply (creach_inv g0 g lin I R). Qed.

  (* C18_serialisable *)
  Lemma serialisable g0 g lin :
    initial g0 -> creach g0 g lin -> quiescent g ->
    g_store g = run (g_store g0) (map lab_op lin) /\
    map lab_res lin = seq_results (g_store g0) (map lab_op lin) /\
    (* the order contains exactly each caller's program, in program order, with
       the results that caller received *)
    (forall i, of_thread i lin = rev (t_done (g_threads g i)) /\
               map fst (rev (t_done (g_threads g i))) = t_todo (g_threads g0 i)).
  Proof.
    intros I R Q. destruct (creach_inv g0 g lin I R) as (_ & (A & B) & _ & P).
    split; [|split; [exact B|]].
    - rewrite <- A. unfold abs. destruct (g_writer g) as [k|]; [|reflexivity].
      destruct (Q k) as [PK _]. now rewrite PK.
    - intro i. destruct (P i) as [P1 P2]. destruct (Q i) as [QP QT].
      rewrite QP, QT in *. cbn [pending inflight] in *. rewrite !app_nil_r in *. split; assumption.
  Qed.
End ConcProofs.
