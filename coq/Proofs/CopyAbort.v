(* C04: what "aborts the copy" means on the transition system, and the
   terminal notification / upload of a node counted over ALL three ways it can end.
     - a node one of whose callbacks failed never completes, so no (direct) predecessor is
       ever copied: none of its PreCopy / PostCopy / MountFrom / OnMounted / Mount events
       occurs anywhere in the trace (copyGraph.fn closes the tracker channel only on success
       and a predecessor passes its successor wait only through closed channels);
     - per node at most one terminal notification among PostCopy, OnCopySkipped, OnMounted,
       and exactly one for every node a successful copy visited;
     - per node at most one upload, counting the upload inside Mount.  *)
From Oras Require Import Base.Prelude Model.CopySpec Model.CopyOpt
  Proofs.CopySpec Proofs.CopyAcct Proofs.CopyOpt.
Local Open Scope nat_scope.

Definition is_term (n : node) (e : event) : bool :=
  is_cb CPost n e || is_cb CSkip n e || is_cb CMounted n e.

(* an upload of n begins: Push / PushReference called, or Mount fell back to uploading *)
Definition is_upload (n : node) (e : event) : bool :=
  match e with
  | PuB m _ => Nat.eqb m n
  | MtE m MCopied => Nat.eqb m n
  | _ => false
  end.

Lemma cnt_term_sum n tr :
  cnt (is_term n) tr = cnt (is_cb CPost n) tr + cnt (is_cb CSkip n) tr + cnt (is_cb CMounted n) tr.
Proof.
  induction tr as [|e tr IH]; [reflexivity|]. rewrite !cnt_cons, IH. unfold is_term.
  destruct e as [| | | | | | |k m|k m| | | | |]; simpl; try lia;
    destruct k, (Nat.eqb m n); simpl; lia.
Qed.

Lemma term_once_lemma (g : graph) (c : cfg) (d0 : list node) tr st n :
  accepts g c d0 tr = Some st ->
  cnt (is_cb CPost n) tr + cnt (is_cb CSkip n) tr + cnt (is_cb CMounted n) tr <= 1.
Proof.
  rewrite <- cnt_term_sum. unfold accepts.
  apply (one_shot_ph g c (is_term n) termpast_ph n (cbpast_closed CPost)); [reflexivity|].
  (* each of the three takes the node from before [termpast_ph] into it *)
  intros s e m a b M Pe. unfold is_term in Pe.
  apply orb_true_iff in Pe as [Pe|Pe]; [apply orb_true_iff in Pe as [Pe|Pe]|];
    exact (cb_move_past g c _ n s e m a b M Pe).
Qed.

Lemma upload_once_lemma (g : graph) (c : cfg) (d0 : list node) tr st n :
  accepts g c d0 tr = Some st -> cnt (is_upload n) tr <= 1.
Proof.
  unfold accepts. apply (one_shot_ph g c (is_upload n) uploaded_ph n uploaded_closed); [reflexivity|].
  intros s e m a b M Pe. move_cases M; try discriminate Pe; apply Nat.eqb_eq in Pe; auto.
Qed.

Section Terminal.
Variable g : graph.
Variable c : cfg.
Variable d0 : list node.

Lemma cnt_ge1_in (p : event -> bool) tr : 1 <= cnt p tr -> exists e, In e tr /\ p e = true.
Proof.
  unfold cnt. induction tr as [|e tr IH]; simpl; [lia|].
  destruct (p e) eqn:E.
  - intros _. exists e. auto.
  - intro H. destruct (IH H) as [x [Hx Px]]. exists x. auto.
Qed.

(* every node that a successful copy visited (dst.Exists was called on it) got exactly one terminal
   notification: PostCopy, OnCopySkipped or OnMounted -- except the already-present root of a
   ReferencePusher copy, which prepareCopy re-pushes with the reference instead *)
Lemma exactly_one_terminal tr st n :
  accepts g c d0 tr = Some st -> returned st = Some true -> In (ExB n) tr ->
  cnt (is_cb CPost n) tr + cnt (is_cb CSkip n) tr + cnt (is_cb CMounted n) tr = 1 \/
  (root_refpush c n = true /\
   cnt (is_cb CPost n) tr + cnt (is_cb CSkip n) tr + cnt (is_cb CMounted n) tr = 0).
Proof.
  intros Ha Hr Hin. pose proof (term_once_lemma g c d0 tr st n Ha) as Hle.
  (* visited, so in the end done, so notified *)
  assert (Hv : visited_ph (ph st n) = true).
  { apply (event_phase g c d0 visited_ph (fun x e => e = ExB x) visited_closed) with (tr := tr) (e := ExB n); auto.
    - intros s e m p q x _ _ M ->. now move_inv M.
    - discriminate. }
  assert (Hd : notified_ph (ph st n) = true)
    by (destruct (ret_true_phase g c d0 tr st n Ha Hr) as [Z|Z]; rewrite Z in *; [discriminate Hv|reflexivity]).
  destruct (notified_history g c d0 tr st n Ha Hd) as [[Hn|[Hn|Hn]]|Hrp].
  - left. pose proof (cb_counted _ _ _ Hn). lia.
  - left. pose proof (cb_counted _ _ _ Hn). lia.
  - left. pose proof (cb_counted _ _ _ Hn). lia.
  - destruct (cnt (is_cb CPost n) tr + cnt (is_cb CSkip n) tr + cnt (is_cb CMounted n) tr) as [|[|]];
      [now right | now left | lia].
Qed.
End Terminal.

(* the events of p's own copy: everything p does after it waited for its successors *)
Definition copy_ev (p : node) (e : event) : bool :=
  match e with
  | Cb k m | CbFail k m => Nat.eqb m p && match k with CSkip => false | _ => true end
  | MtB m | MtE m _ => Nat.eqb m p
  | _ => false
  end.

Section Abort.
Variable g : graph.
Variable c : cfg.
Variable d0 : list node.

Lemma copy_ev_succ_done st e st' p : Inv g c d0 st -> step g c st e = Some st' -> copy_ev p e = true ->
  forall x, In x (succ' g p) -> ph st x = Done.
Proof.
  intros I H Hc x Hx. apply step_cases in H as [_ S]. destruct S as [n a b Ha M | ok -> _]; [|discriminate Hc].
  pose proof (i_settled g c d0 st I n) as IS. rewrite Ha in IS.
  move_cases M; try discriminate Hc; simpl in Hc;
    try (apply andb_true_iff in Hc as [Hc Hk]; try discriminate Hk);
    apply Nat.eqb_eq in Hc; subst; auto.
Qed.

(* a node never is Done at one instant and fails a callback at another: both phases are final *)
Lemma no_copy_above_failed tr st k n p e :
  accepts g c d0 tr = Some st -> In (CbFail k n) tr -> In n (succ' g p) ->
  In e tr -> copy_ev p e = true -> False.
Proof.
  intros Ha Hf Hs He Hc. pose proof (cbfail_dead g c d0 tr st k n Ha Hf) as Hdead.
  apply in_split in He as [t1 [t2 ->]]. apply accepts_mid in Ha as (s1 & s2 & _ & I1 & E & H2).
  pose proof (copy_ev_succ_done s1 e s2 p I1 E Hc n Hs) as Hdone.
  assert (Hd : is_done (ph st n) = true).
  { apply (closed_ph_run is_done g c (e :: t2) s1 st n done_closed); [simpl; now rewrite E|now rewrite Hdone]. }
  now rewrite Hdead in Hd.
Qed.

Lemma failed_successor_blocks_parent tr st k n p :
  accepts g c d0 tr = Some st -> In (CbFail k n) tr -> In n (succ' g p) ->
  (forall k', k' <> CSkip -> ~ In (Cb k' p) tr /\ ~ In (CbFail k' p) tr) /\
  ~ In (MtB p) tr /\ (forall r, ~ In (MtE p r) tr).
Proof.
  intros Ha Hf Hs.
  assert (N : forall e, copy_ev p e = true -> ~ In e tr)
    by (intros e Hc Hin; exact (no_copy_above_failed tr st k n p e Ha Hf Hs Hin Hc)).
  split; [|split].
  - intros k' Hk. split; apply N; simpl; rewrite Nat.eqb_refl; destruct k'; simpl; congruence.
  - apply N. simpl. apply Nat.eqb_refl.
  - intro r. apply N. simpl. apply Nat.eqb_refl.
Qed.

(* the push itself: a predecessor that was probed and found absent is never pushed, whichever
   callbacks are set -- read on the elaborated trace, where the invocation point of a nil PreCopy
   stands right before the node's Fetch / Push *)
Lemma failed_successor_blocks_parent_opt cs tr st full k n p :
  accepts_opt cs g c d0 tr = Some (st, full) -> In (CbFail k n) tr -> In n (succ' g p) ->
  forall e, In e full -> copy_ev p e = false.
Proof.
  intros Ha Hf Hs e He.
  apply (recorded_in_full cs g c d0 tr st full _ Ha) in Hf.
  destruct (copy_ev p e) eqn:Hc; [|reflexivity].
  exfalso. exact (no_copy_above_failed full st k n p e (run_opt_sound cs g c tr _ _ _ Ha) Hf Hs He Hc).
Qed.

(* no upload of such a predecessor: the only push of p that can still occur is the re-push,
   with the reference, of a root that the destination already holds *)
Lemma failed_successor_parent_not_pushed cs tr st full k n p r f1 f2 :
  accepts_opt cs g c d0 tr = Some (st, full) -> In (CbFail k n) tr -> In n (succ' g p) ->
  full = f1 ++ PuB p r :: f2 ->
  exists st1, accepts g c d0 f1 = Some st1 /\ has g (dst st1) p = true.
Proof.
  intros Ha Hf Hs ->.
  pose proof (run_opt_sound cs g c tr _ _ _ Ha) as Hsnd.
  destruct (pre_before_push_begin g c d0 f1 p r f2 st Hsnd) as [st1 [H1 Hpre]].
  exists st1. split; [exact H1|].
  destruct (has g (dst st1) p) eqn:Hh; [reflexivity|exfalso].
  specialize (Hpre eq_refl).
  assert (Hin : In (Cb CPre p) (f1 ++ PuB p r :: f2)) by (apply in_or_app; left; exact Hpre).
  pose proof (failed_successor_blocks_parent_opt cs tr st _ k n p Ha Hf Hs _ Hin) as Hc.
  simpl in Hc. rewrite Nat.eqb_refl in Hc. discriminate.
Qed.
End Abort.

(* hypotheses satisfiable: index 2 -> {0, 1}; PreCopy of 0 fails while 1 is copied; the index is
   never copied and the call fails *)
Definition g_ab : graph :=
  mkGraph 3 (fun n => match n with 2 => [0; 1] | _ => [] end) (fun _ => false)
          (fun n => Nat.eqb n 2) (fun n => n).
Definition c_ab : cfg := mkCfg 2 MGraph 2 false true [] [].
Definition tr_ab : list event :=
  [ExB 2; ExE 2 false; SFB 2; SFE 2; SFC 2;
   ExB 0; ExB 1; ExE 0 false; ExE 1 false;
   CbFail CPre 0;
   Cb CPre 1; SFB 1; SFE 1; PuB 1 false; PuE 1 false POk; SFC 1; Cb CPost 1;
   Ret false].

(* the seeded change "defer close(done) unconditionally" (a failed node wakes the predecessors that
   wait for it) produces traces like this one, which the transition system rejects at the PreCopy of
   the index: *)
Definition tr_ab_bad : list event :=
  [ExB 2; ExE 2 false; SFB 2; SFE 2; SFC 2;
   ExB 0; ExB 1; ExE 0 false; ExE 1 false;
   CbFail CPre 0;
   Cb CPre 1; SFB 1; SFE 1; PuB 1 false; PuE 1 false POk; SFC 1; Cb CPost 1;
   Cb CPre 2].

Lemma copy_past_failure_rejected : accepts g_ab c_ab [] tr_ab_bad = None.
Proof. vm_compute. reflexivity. Qed.
