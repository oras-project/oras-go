(* The file a first Put writes on a missing config, read back from its BYTES. *)
From Oras Require Import Base.Prelude Generated.GC18 Model.Utf8 Model.Json Model.Base64 Model.CredFile
  Model.JsonDoc Model.JsonRead Base.FlatFS Model.CredSave Proofs.Json Proofs.Base64 Proofs.CredFile Proofs.CredJson Proofs.JsonRead Proofs.CredSave.

Lemma indent_quoted u : quoted u -> forall R need d,
  indent_from true need d (u ++ dq :: R) = u ++ dq :: indent_from false need d R.
Proof.
  induction 1 as [|c u D B _ IH|e u _ IH]; intros R need d; cbn [app indent_from].
  - reflexivity.
  - apply N.eqb_neq in D, B. now rewrite D, B, IH.
  - change (bs =? bs) with true. cbv iota. now rewrite IH.
Qed.

(* the compact value text c, met where a value stands at depth d, comes out as t *)
Definition indents (d : nat) (c t : str) : Prop :=
  forall rest, indent_from false false d (c ++ rest) = t ++ indent_from false false d rest.

Lemma indents_string d q : quoted q -> indents d ([dq] ++ q ++ [dq]) ([dq] ++ q ++ [dq]).
Proof.
  intros Q rest. rewrite <- !app_assoc. cbn [app indent_from N.eqb Pos.eqb dq andb orb negb].
  now rewrite (indent_quoted q Q).
Qed.

(* Go's layout of an object at depth d *)
Definition indented_object (d : nat) (ms : list (str * str)) : str :=
  match ms with
  | [] => [123; 125]
  | _ => laid_object (newline (S d)) [32] (newline d) ms
  end.

Definition member_indents (d : nat) (c m : str * str) : Prop :=
  fst c = fst m /\ indents d (snd c) (snd m).

Lemma indent_member d c m T :
  member_indents d c m ->
  newline d ++ indent_from false false d (laid_member [] [] c ++ T) =
  laid_member (newline d) [32] m ++ indent_from false false d T.
Proof.
  destruct c as [k c], m as [k' t]. intros [E I]. cbn [fst snd] in *. subst k'.
  unfold laid_member. cbn [fst snd]. rewrite <- !app_assoc. f_equal.
  cbn [app indent_from N.eqb Pos.eqb dq andb orb negb].
  rewrite (indent_quoted _ (quoted_json_quote k)).
  cbn [app indent_from N.eqb Pos.eqb dq andb orb negb]. now rewrite I.
Qed.

Lemma indent_members d cs ms : Forall2 (member_indents d) cs ms -> cs <> [] -> forall rest,
  newline d ++ indent_from false false d (join_comma (map (laid_member [] []) cs) ++ 125 :: rest) =
  join_comma (map (laid_member (newline d) [32]) ms) ++
  newline (pred d) ++ 125 :: indent_from false false (pred d) rest.
Proof.
  induction 1 as [|c m cs ms M F IH]; intros NE rest; [congruence|].
  destruct F as [|c2 m2 cs ms M2 F].
  - cbn [map join_comma]. now rewrite (indent_member d c m _ M).
  - cbn [map] in *. rewrite !join_cons2, <- !app_assoc, (indent_member d c m _ M).
    cbn [app indent_from N.eqb Pos.eqb andb orb negb].
    rewrite <- (IH ltac:(discriminate)). reflexivity.
Qed.

Lemma indents_object d cs ms :
  Forall2 (member_indents (S d)) cs ms -> indents d (laid_object [] [] [] cs) (indented_object d ms).
Proof.
  intros F rest. destruct F as [|c m cs ms M F]; [reflexivity|].
  pose proof (indent_members (S d) (c :: cs) (m :: ms) (Forall2_cons _ _ M F) ltac:(discriminate) rest) as I.
  unfold indented_object, laid_object. rewrite <- !app_assoc. cbn [app pred] in *. rewrite <- I.
  destruct cs; reflexivity.
Qed.

Lemma all_ws_newline d : all_ws (newline d).
Proof. constructor; [reflexivity|]. induction d; constructor; [reflexivity|assumption]. Qed.

Lemma parses_indented d ms :
  Forall member_parses ms -> parses (indented_object d (map member_text ms)) (JObj ms).
Proof.
  intro F. destruct ms as [|m ms].
  - exact (parses_object [] [] [] all_ws_nil all_ws_nil all_ws_nil [] F).
  - apply parses_object; try apply all_ws_newline; [repeat constructor|exact F].
Qed.

Lemma indents_strings d l :
  let ms := map member_text (map member_jval l) in indents d (laid_object [] [] [] ms) (indented_object d ms).
Proof.
  apply indents_object. induction l; constructor; [|assumption].
  split; [reflexivity|apply indents_string, quoted_json_quote].
Qed.

Definition one_entry_doc (a A I R : str) : fdoc := [(configFieldAuths, TAuths [(a, Fresh A I R)])].

Lemma one_entry_compact a A I R :
  render_object (render_top [] []) (one_entry_doc a A I R) =
  laid_object [] [] [] [(configFieldAuths, laid_object [] [] [] [(a, render_fresh A I R)])].
Proof. reflexivity. Qed.

Lemma read_one_entry text a v src src' :
  parse_first text = Some (JObj [(configFieldAuths, (JObj [(a, (v, src))], src'))]) ->
  exists l, read_config text = Some l /\
            l_doc l = [(configFieldAuths, TAuths [(a, Old src (view_of_jval v))])] /\ l_helpers l = [].
Proof. intro P. unfold read_config. rewrite P. eexists. repeat split. Qed.

Lemma one_entry_reads_back a A I R :
  valid_utf8 a = true -> valid_utf8 A = true -> valid_utf8 I = true -> valid_utf8 R = true ->
  exists l src, read_config (render_file [] [] (one_entry_doc a A I R)) = Some l /\
                l_doc l = [(configFieldAuths, TAuths [(a, Old src (VFields A I R [] []))])] /\
                l_helpers l = [].
Proof.
  intros Va VA VI VR.
  set (ms := map member_jval (fresh_members A I R)).
  set (e := (a, (JObj ms, indented_object 2 (map member_text ms)))).
  set (t := (configFieldAuths, (JObj [e], indented_object 1 (map member_text [e])))).
  assert (P3 : member_parses e).
  { split; [exact Va|]. apply parses_indented. now apply fresh_members_parse. }
  assert (P2 : member_parses t).
  { split; [reflexivity|]. apply parses_indented. now constructor. }
  assert (RF : render_file [] [] (one_entry_doc a A I R) = indented_object 0 (map member_text [t])).
  { unfold render_file, indent_json. rewrite one_entry_compact, render_fresh_laid, <- member_text_jval.
    rewrite <- (app_nil_r (laid_object _ _ _ _)), (indents_object 0 _ (map member_text [t])); [apply app_nil_r|].
    repeat constructor. apply (indents_object 1 _ (map member_text [e])).
    repeat constructor. apply indents_strings. }
  destruct (read_one_entry _ a (JObj ms) _ _ (proj1 (parses_text _ _ (parses_indented 0 [t] ltac:(now constructor)))))
    as (l & RC & LD & LH).
  exists l. eexists. rewrite RF, RC, LD. unfold ms. rewrite fresh_view. repeat split. exact LH.
Qed.

Lemma open_one_entry a e :
  exists st, open_store (Some ([(configFieldAuths, TAuths [(a, e)])] : fdoc)) = Some st /\ lookup a (cache_of st) = Some e.
Proof. eexists. split; [reflexivity|exact (lookup_set_eq a e [])]. Qed.

(* NewFileStore on those bytes: Get answers the stored credential (every candidate) *)
Lemma one_entry_reopen a c :
  put_accepts a c = true -> bytes (c_user c ++ colon :: c_pass c) ->
  exists st2 tops ents,
    open_bytes (Some (render_file [] [] (one_entry_doc a (encode_auth b64_encode (c_user c) (c_pass c))
                                                       (c_refresh c) (c_access c)))) = Some (st2, tops, ents) /\
    get_candidates b64_decode (cache_of st2) a = [RCred c].
Proof.
  intros ACC B. destruct (put_fields_valid a c ACC B) as (VA & VE & VR & VT).
  destruct (one_entry_reads_back a _ _ _ VA VE VR VT) as (l & src & RC & LD & _).
  unfold open_bytes. rewrite RC. cbv beta iota. rewrite LD.
  destruct (open_one_entry a (Old src (VFields (encode_auth b64_encode (c_user c) (c_pass c)) (c_refresh c) (c_access c) [] [])))
    as (st & OS & LK).
  exists st. do 2 eexists. rewrite OS. split; [reflexivity|].
  rewrite (candidates_exact b64_decode _ a _ LK). cbn [cred_of_entry]. f_equal. exact (put_cred_decodes a c ACC B).
Qed.

Definition fresh_store : state := {| st_mem := empty_mem; st_file := None |}.

(* any number of Puts for ONE address on a missing config (login, token
   refresh, re-login ...): the file always reopens to the last credential *)
Definition one_entry_mem (a : str) (e : entry) : mem :=
  {| m_content := [(configFieldAuths, TAuths [(a, e)])]; m_cache := [(a, e)]; m_cs := [] |}.

Definition one_addr_shape (a : str) (st : state) : Prop :=
  st = fresh_store \/ exists e, st_mem st = one_entry_mem a e.

Lemma one_addr_put a c st :
  one_addr_shape a st -> put_accepts a c = true ->
  let st' := fst (step b64_encode b64_decode st (Put a c)) in
  st_file st' = Some (one_entry_doc a (encode_auth b64_encode (c_user c) (c_pass c)) (c_refresh c) (c_access c)) /\
  one_addr_shape a st'.
Proof.
  intros SH ACC. cbn [step]. rewrite ACC. cbn [negb fst].
  destruct SH as [->|[e M]].
  - split; [reflexivity|]. right. eexists. reflexivity.
  - rewrite M. unfold one_entry_mem. cbn [m_content m_cache m_cs save saved_doc st_file st_mem].
    assert (D1 : del a [(a, e)] = []).
    { unfold del. cbn [filter fst]. rewrite str_eqb_refl. reflexivity. }
    unfold saved_doc, set. cbn [m_content m_cache m_cs]. rewrite D1.
    split; [reflexivity|]. right. eexists. unfold one_entry_mem. reflexivity.
Qed.

Lemma repeated_put_reopen a : forall (cs : list cred) c st,
  one_addr_shape a st ->
  Forall (fun c => put_accepts a c = true /\ bytes (c_user c ++ colon :: c_pass c)) (cs ++ [c]) ->
  let stf := run b64_encode b64_decode st (map (Put a) (cs ++ [c])) in
  exists d, st_file stf = Some d /\
  exists st2 tops ents,
    open_bytes (Some (render_file [] [] d)) = Some (st2, tops, ents) /\
    get_candidates b64_decode (cache_of st2) a = [RCred c].
Proof.
  induction cs as [|c0 cs IH]; intros c st SH F; inversion F as [|? ? [ACC B] F']; subst; cbn [app map run].
  - eexists. split; [exact (proj1 (one_addr_put a c st SH ACC))|now apply one_entry_reopen].
  - exact (IH c _ (proj2 (one_addr_put a c0 st SH ACC)) F').
Qed.

Lemma first_put_doc a c :
  put_accepts a c = true ->
  st_file (fst (step b64_encode b64_decode fresh_store (Put a c))) =
    Some (one_entry_doc a (encode_auth b64_encode (c_user c) (c_pass c)) (c_refresh c) (c_access c)).
Proof. intro ACC. exact (proj1 (one_addr_put a c fresh_store (or_introl eq_refl) ACC)). Qed.

Lemma first_put_reopen a c :
  put_accepts a c = true -> bytes (c_user c ++ colon :: c_pass c) ->
  exists d, st_file (fst (step b64_encode b64_decode fresh_store (Put a c))) = Some d /\
  exists st2 tops ents,
    open_bytes (Some (render_file [] [] d)) = Some (st2, tops, ents) /\
    get_candidates b64_decode (cache_of st2) a = [RCred c].
Proof.
  intros ACC B. exact (repeated_put_reopen a [] c fresh_store (or_introl eq_refl) (Forall_cons _ (conj ACC B) (Forall_nil _))).
Qed.

(* the JSON premise of C18_atomic_op, discharged for the first Put with the
   model's REAL writer and reader *)
Definition entry_view (e : entry) : view :=
  match e with Fresh a i r => VFields a i r [] [] | Old _ v => v end.
Definition tview (kv : str * tval) : str * option (list (str * view)) :=
  (fst kv, match snd kv with
           | TAuths l => Some (map (fun ae => (fst ae, entry_view (snd ae))) l)
           | _ => None
           end).
(* same keys, and the same AuthConfig view of every auths entry *)
Definition views_eq (d' d : fdoc) : Prop := map tview d' = map tview d.

Definition file_writer (d : fdoc) : str := render_file [] [] d.
Definition file_reader (text : str) : option fdoc :=
  match read_config text with Some l => Some (l_doc l) | None => None end.

Lemma first_put_reads_back a c :
  put_accepts a c = true -> bytes (c_user c ++ colon :: c_pass c) ->
  reads_back b64_encode b64_decode file_writer file_reader views_eq fresh_store (Put a c).
Proof.
  intros ACC B d E. rewrite (first_put_doc a c ACC) in E. injection E as <-.
  destruct (put_fields_valid a c ACC B) as (VA & VE & VR & VT).
  destruct (one_entry_reads_back a _ _ _ VA VE VR VT) as (l & src & RC & LD & _).
  exists (l_doc l). unfold file_reader, file_writer. rewrite RC, LD. split; reflexivity.
Qed.
(* the first Put on a machine without a config file, crash at any point (between two
   system calls or inside a write): the config path is still absent, or it holds
   bytes that the reader reads as the document with the stored entry, mode 0600 *)
Lemma first_put_crash_bytes a c (chunking : str -> list str) (dir : list path) (p t : path) s pre :
  (forall x, concat (chunking x) = x) ->
  put_accepts a c = true -> bytes (c_user c ++ colon :: c_pass c) ->
  t <> p -> fget t s = None -> fget p s = None ->
  crash_cut (op_steps b64_encode b64_decode file_writer chunking dir p t fresh_store (Put a c)) pre ->
  let d := one_entry_doc a (encode_auth b64_encode (c_user c) (c_pass c)) (c_refresh c) (c_access c) in
  let s' := exec_all s pre in
  (fget p s' = None \/
   disk_is file_reader views_eq p s' (Some d) /\ exists f, fget p s' = Some f /\ f_mode f = mode_file) /\
  (pre = op_steps b64_encode b64_decode file_writer chunking dir p t fresh_store (Put a c) ->
   disk_is file_reader views_eq p s' (Some d)).
Proof.
  intros CH ACC B NE FT FP C d s'.
  pose proof (atomic_op b64_encode b64_decode file_writer file_reader views_eq chunking CH dir p t
                        fresh_store (Put a c) s pre NE FT (first_put_reads_back a c ACC B) FP C) as (X & Y & _).
  rewrite (first_put_doc a c ACC) in X, Y. fold d in X, Y. fold s' in X, Y.
  split; [|exact Y].
  destruct X as [X|[X1 X2]]; [left; exact X|right].
  split; [exact X1|]. apply X2. cbn [saves]. exact ACC.
Qed.
