(* What can be read back from the stored manifest bytes: encoding/json coerces strings to valid
   UTF-8 (Model/Pack.v utf8_san), so the stored document is [san_manifest m]. *)
From Oras Require Import Base.Prelude Generated.GC19 Model.Pack Proofs.Pack.

Definition ascii (s : str) : Prop := Forall (fun c => c < 128) s.
Definition utf8_clean (s : str) : Prop := utf8_san s = s.

Lemma ascii_clean s : ascii s -> utf8_clean s.
Proof.
  unfold utf8_clean. induction 1 as [|c s C F IH]; [reflexivity|].
  simpl. apply N.ltb_lt in C. now rewrite C, IH.
Qed.

Lemma is_alnum_ascii c : is_alnum c = true -> c < 128.
Proof.
  unfold is_alnum. rewrite !orb_true_iff, !andb_true_iff, !N.leb_le. lia.
Qed.

Lemma rn_char_ascii c : rn_char c = true -> c < 128.
Proof.
  unfold rn_char. rewrite !orb_true_iff, !N.eqb_eq. intros H.
  repeat (destruct H as [H|H]; [|lia]). now apply is_alnum_ascii.
Qed.

Lemma restricted_name_ascii t : restricted_name t -> ascii t.
Proof.
  intros (c & r & -> & A & _ & F). constructor; [now apply is_alnum_ascii|].
  eapply Forall_impl; [|exact F]. intros x. apply rn_char_ascii.
Qed.

(* a media type that passes validateMediaType survives json.Marshal unchanged *)
Theorem valid_media_type_clean s : valid_media_type s = true -> utf8_clean s.
Proof.
  intro V. apply media_type_grammar in V as (t & u & -> & T & U). apply ascii_clean.
  apply Forall_app. split; [now apply restricted_name_ascii|].
  constructor; [lia | now apply restricted_name_ascii].
Qed.

Definition clean_manifest (m : manifest) : Prop := san_manifest m = m.

Section JsonProofs.
  Variable marshal : manifest -> str.
  Variable H : str -> str.
  Variable unmarshal : str -> option manifest.
  Hypothesis H_empty : H empty_json = empty_json_digest.
  Hypothesis H_inj : forall x y, H x = H y -> x = y.
  (* encoding/json: decoding what was encoded gives the document with every string coerced to UTF-8 *)
  Hypothesis json_roundtrip : forall m, unmarshal (marshal m) = Some (san_manifest m).

  Theorem stored_parses f tc fa s at_ o now s' d m :
    wf_store H (s_store s) ->
    pack marshal H f tc fa s at_ o now = (s', Ok d m) ->
    exists e, In e (s_store s') /\ same_key (t_key tc) d e = true /\
              unmarshal (e_bytes e) = Some (san_manifest m) /\
              (clean_manifest m -> unmarshal (e_bytes e) = Some m) /\
              (forall m', unmarshal (e_bytes e) = Some m' -> kind_mt (m_kind m') = d_mt d).
  Proof.
    intros W P.
    assert (MT : d_mt d = kind_mt (m_kind m)).
    { apply (ok_consistent marshal H H_empty) in P as (ann & evs & _ & _ & -> & _). reflexivity. }
    destruct (ok_descriptor_describes_stored marshal H H_empty _ _ _ _ _ _ _ _ _ _ W P)
      as (_ & _ & _ & e & I & K & _ & B).
    destruct (B H_inj) as (EB & _). exists e. split; auto. split; auto.
    rewrite EB, json_roundtrip. split; auto. split; [intros C; now rewrite C|].
    intros m' [= <-]. now rewrite MT.
  Qed.

  (* PackManifest: the media types it validated are clean, whatever the caller passed *)
  Theorem pack_manifest_media_types_clean f tc fa s at_ o now s' d m :
    f = FV10 \/ f = FV11 ->
    pack marshal H f tc fa s at_ o now = (s', Ok d m) ->
    utf8_clean (m_at m) /\ forall c, m_config m = Some c -> utf8_clean (d_mt c).
  Proof.
    intros F P. pose proof (ok_not_rejected marshal H H_empty _ _ _ _ _ _ _ _ _ _ P) as MR.
    apply (ok_consistent marshal H H_empty) in P as (ann & evs & _ & -> & _).
    unfold requested_manifest, requested_config, invented_config.
    destruct F as [-> | ->]; unfold must_reject, invalid_config, config_is_empty_or_nil in MR;
      destruct (o_config o) as [c|] eqn:OC; cbn [m_at m_config is_some negb andb orb] in *.
    - (* v1.0, config given *)
      apply orb_false_iff in MR as [MR _]. apply orb_false_iff in MR as [_ MR].
      apply negb_false_iff in MR. split; [reflexivity|]. intros c' [= <-]. now apply valid_media_type_clean.
    - (* v1.0, invented config *)
      apply orb_false_iff in MR as [_ MR]. split; [reflexivity|]. intros c' [= <-]. cbn [with_ann desc_from_bytes d_mt].
      destruct at_ as [|a0 at_]; cbn [is_empty] in *; [apply valid_media_type_clean; apply valid_unknown_config|].
      apply negb_false_iff in MR. now apply valid_media_type_clean.
    - (* v1.1, config given *)
      apply orb_false_iff in MR as [MR MC]. apply orb_false_iff in MR as [_ MA].
      apply negb_false_iff in MC. split.
      + destruct at_ as [|a0 at_]; [reflexivity|]. cbn [is_empty negb andb] in MA.
        apply negb_false_iff in MA. now apply valid_media_type_clean.
      + intros c' [= <-]. now apply valid_media_type_clean.
    - (* v1.1, empty config *)
      apply orb_false_iff in MR as [MR _]. apply orb_false_iff in MR as [ME MA]. split.
      + destruct at_ as [|a0 at_]; [reflexivity|]. cbn [is_empty negb andb] in MA.
        apply negb_false_iff in MA. now apply valid_media_type_clean.
      + intros c' [= <-]. cbn [with_ann DescriptorEmptyJSON d_mt]. apply valid_media_type_clean. apply valid_empty_json.
  Qed.
End JsonProofs.

Definition lossy_marshal (m : manifest) : str := m_at m.
Definition lossy_H (s : str) : str := if str_eqb s empty_json then empty_json_digest else 120 :: s.

(* Pack (image manifest, rc2) with a config media type that is not valid UTF-8 succeeds, pushes the
   config blob under the raw media type, and the manifest that can be read back names a config
   descriptor that is NOT in the target (memory store: keyed by media type + digest + size):
   the invented blob is not reachable from the stored manifest, the result cannot be copied. *)
Theorem lossy_json_refuted :
  exists at_ o s' d m c,
    pack lossy_marshal lossy_H FRC2 (mkTcfg true KFull) None (init_state []) at_ o [50] = (s', Ok d m) /\
    m_config (san_manifest m) = Some c /\
    stored KFull (s_store s') c = false /\
    (exists c0, m_config m = Some c0 /\ stored KFull (s_store s') c0 = true).
Proof.
  exists [97; 255; 47; 98], (mkOpts None None [(AnnotationCreated, b "2006-01-02T15:04:05Z")] None []).
  eexists _, _, _, _. split; [vm_compute; reflexivity|].
  split; [vm_compute; reflexivity|]. split; [vm_compute; reflexivity|].
  eexists. split; vm_compute; reflexivity.
Qed.

(* Pack (deprecated) validates nothing: it succeeds with a media type that violates RFC 6838, pushing
   the config blob under that type and writing it into the manifest. *)
Theorem pack_accepts_invalid_media_type :
  exists at_ o s' d m c,
    ~ RFC6838 at_ /\
    pack lossy_marshal lossy_H FRC2 (mkTcfg true KFull) None (init_state []) at_ o [50] = (s', Ok d m) /\
    m_config m = Some c /\ d_mt c = at_ /\ d_at d = at_ /\
    In (EvPush RBlob c empty_json) (s_events s').
Proof.
  exists (b "not a type"), (mkOpts None None [(AnnotationCreated, b "2006-01-02T15:04:05Z")] None []).
  eexists _, _, _, _.
  split; [intro R; apply media_type_grammar in R; vm_compute in R; discriminate|].
  split; [vm_compute; reflexivity|]. split; [reflexivity|]. split; [reflexivity|]. split; [reflexivity|].
  vm_compute. right. left. reflexivity.
Qed.

Lemma lossy_H_empty : lossy_H empty_json = empty_json_digest.
Proof. reflexivity. Qed.

Lemma lossy_H_injective x y : lossy_H x = lossy_H y -> x = y.
Proof.
  unfold lossy_H.
  destruct (str_eqb x empty_json) eqn:Ex; destruct (str_eqb y empty_json) eqn:Ey.
  - apply str_eqb_spec in Ex, Ey. congruence.
  - discriminate.
  - discriminate.
  - now intros [= ->].
Qed.

Definition ex_titled_ann : list kv := [(AnnotationTitle, b "cfg.json")].
Definition ex_named_entry (content_digest : str) : entry :=
  mkEntry (b "application/octet-stream") content_digest 2 [] (b "cfg.json").

(* the premise "not a file store" of the idempotence theorem is needed: a file store refuses to write
   the named manifest a second time (ErrDuplicateName is not ErrAlreadyExists) *)
Lemma repeat_call_file_store_refuted :
  exists o s1 d m s2,
    ann_get (created_key FArtifact) (o_ann o) = Some (b "2021-07-01T12:00:00Z") /\
    pack lossy_marshal lossy_H FArtifact (mkTcfg true KFile) None (init_state []) [] o [50] = (s1, Ok d m) /\
    pack lossy_marshal lossy_H FArtifact (mkTcfg true KFile) None s1 [] o [50] = (s2, Err EInjected).
Proof.
  exists (mkOpts None None [(AnnotationArtifactCreated, b "2021-07-01T12:00:00Z"); (AnnotationTitle, b "manifest.json")] None []).
  eexists _, _, _, _. split; [reflexivity|]. split; vm_compute; reflexivity.
Qed.
