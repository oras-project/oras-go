(* C06 -- quiescent serialisability of the OCI layout store (content map, names, graph). *)
From Oras Require Import Base.Prelude Model.Stores Model.StoresConc Model.StoresConcOci
     Proofs.Stores Proofs.StoresConc.
From Coq Require Import Permutation.

Lemma oci_reads_view s1 s2 :
  o_blobs s1 = o_blobs s2 ->
  (forall n, names_of (r_index (o_res s1)) n = names_of (r_index (o_res s2)) n) ->
  forall d n, snd (oci_step s1 (Fetch d)) = snd (oci_step s2 (Fetch d)) /\
              snd (oci_step s1 (Exists d)) = snd (oci_step s2 (Exists d)) /\
              snd (oci_step s1 (Resolve (RName n))) = snd (oci_step s2 (Resolve (RName n))).
Proof.
  intros Hb Hn d n. specialize (Hn n). unfold names_of in Hn. cbn [oci_step]. rewrite Hb, Hn. repeat split.
  - now destruct (get N.eqb (d_dig d) (o_blobs s2)).
  - now destruct (get ref_eqb (RName n) (r_index (o_res s2))).
Qed.

Lemma oconf_step_cases cf i :
  oconf_step cf i = cf \/
  exists l1 t l2 s' t' lg ix un,
    oc_threads cf = l1 ++ t :: l2 /\
    othread_step (others_idle_at (length l1) (oc_threads cf)) (oc_store cf) t = Some (s', t', lg, ix, un) /\
    oconf_step cf i = mkOC s' (l1 ++ t' :: l2) (oc_log cf ++ map (pair (length l1)) lg)
                           (ix ++ match un with
                                  | Some k => set_del gkey_eqb k (oc_indexed cf)
                                  | None => oc_indexed cf
                                  end).
Proof.
  unfold oconf_step. destruct (nth_error (oc_threads cf) i) as [t|] eqn:En; [|now left].
  apply nth_error_split in En as (l1 & l2 & Hth & <-).
  destruct (othread_step _ (oc_store cf) t) as [[[[[s' t'] lg] ix] un]|] eqn:Es; [right | now left].
  exists l1, t, l2, s', t', lg, ix, un. rewrite Hth at 3. now rewrite upd_nth_split.
Qed.

Section OciConc.
  Variable U : N -> gkey.
  Hypothesis U_dig : forall g, k_dig (U g) = g.
  (* collision freedom: the bytes a digest stands for *)
  Variable B : N -> blob.

  Definition wf_op (o : op) : Prop :=
    canon_op_all U o /\ match o with Push d c => verify d c = true -> c = B (d_dig d) | _ => True end.

  Definition oremaining (t : othread) : list op :=
    match ot_pc t with
    | OPush2 d c => [Push d c]
    | OTagIx d r | OTag2 d r | OTag3 d r => [Tag d r]
    | OUntag2 r => [Untag r]
    | _ => []
    end ++ ot_ops t.

  Definition S_ixo (blobs : list (N * blob)) (J : list gkey) : gkey -> option (list gkey) :=
    fun k => if mem gkey_eqb k J then S_oci U blobs k else None.

  Definition present (s : oci_store) (g : N) : Prop := get N.eqb g (o_blobs s) <> None.

  Definition othread_ok (s : oci_store) (t : othread) : Prop :=
    match ot_pc t with
    | OPush2 d c => verify d c = true /\ canon_desc U d /\ c = B (d_dig d)
    | OPush3 d => canon_desc U d /\ present s (d_dig d)
    | OTagIx d r => canon_desc U d /\ present s (d_dig d)
    | OTag2 d r | OTag3 d r => present s (d_dig d)
    | _ => True
    end.

  (* goroutine t has renamed the blob of digest g into place and not indexed it yet *)
  Definition oindexing (g : N) (t : othread) : Prop := exists d, ot_pc t = OPush3 d /\ d_dig d = g.

  Definition seq_ostate (L : list op) : oci_store := fst (run oci_step oci_init L).

  Lemma seq_ostate_snoc L o : seq_ostate (L ++ [o]) = fst (oci_step (seq_ostate L) o).
  Proof. unfold seq_ostate. rewrite run_app. cbn [fst]. rewrite run_cons. reflexivity. Qed.

  Lemma seq_ostate_nodup L : NoDup (map fst (r_index (o_res (seq_ostate L)))).
  Proof. apply oci_run_index_nodup. constructor. Qed.

  (* the part of the invariant that ties blobs, graph and the ghost set of indexed keys *)
  Record ograph_inv (s : oci_store) (ths : list othread) (J : list gkey) : Prop := mkOG {
    og_B : forall g c, get N.eqb g (o_blobs s) = Some c -> c = B g;
    og_threads : Forall (othread_ok s) ths;
    og_graph : graph_inv (S_ixo (o_blobs s) J) (o_graph s);
    og_indexed : forall g, present s g -> In (U g) J \/ exists t, In t ths /\ oindexing g t;
    og_ix_sub : forall k, In k J -> k = U (k_dig k) /\ present s (k_dig k) }.

  Record oinv (progs : list (list op)) (cf : oconf) : Prop := mkOInv {
    oi_sched : sched_inv oremaining progs (oc_log cf) (oc_threads cf);
    oi_blobs : o_blobs (oc_store cf) = o_blobs (seq_ostate (map snd (oc_log cf)));
    oi_names : forall n, names_of (r_index (o_res (oc_store cf))) n =
                         names_of (r_index (o_res (seq_ostate (map snd (oc_log cf))))) n;
    oi_nodup : NoDup (map fst (r_index (o_res (oc_store cf))));
    oi_graph : ograph_inv (oc_store cf) (oc_threads cf) (oc_indexed cf) }.

  Lemma oinv_init progs : oinv progs (oconf_init progs).
  Proof.
    constructor; simpl; [now apply sched_inv_init | reflexivity | reflexivity | constructor |].
    constructor; simpl.
    - intros; discriminate.
    - apply Forall_forall. intros t Ht. apply in_map_iff in Ht as (p & <- & _). exact I.
    - eapply graph_inv_ext; [|exact graph_inv_init]. intro k. reflexivity.
    - intros g H. exfalso. apply H. reflexivity.
    - tauto.
  Qed.

  (* A goroutine between operations finishes [o] with its first step when [o] is a read or
     that step sees it refused ... *)
  Definition odone (s : oci_store) (o : op) : Prop :=
    match o with
    | Push d c => present s (d_dig d) \/ verify d c = false
    | Tag d r => r = REmpty \/ foreign_digest_ref d r = true \/ ~ present s (d_dig d)
    | Untag r => r = REmpty \/ match get ref_eqb r (r_index (o_res s)) with
                               | Some d0 => ref_eqb r (RDig (d_dig d0)) = true
                               | None => True
                               end
    | Delete _ => False
    | _ => True
    end.

  (* ... or it enters [o]: what it has checked when it leaves with program counter [pc] *)
  Definition otagging (s : oci_store) (d : desc) (r : ref) : Prop :=
    r <> REmpty /\ foreign_digest_ref d r = false /\ present s (d_dig d).

  Definition obegun (s : oci_store) (o : op) (pc : opc) : Prop :=
    match pc with
    | OPush2 d c => o = Push d c /\ verify d c = true
    | OTagIx d r => o = Tag d r /\ otagging s d r /\ is_manifest (d_mt d) = true
    | OTag2 d r => o = Tag d r /\ otagging s d r /\ ref_eqb r (RDig (d_dig d)) = false
    | OTag3 d r => o = Tag d r /\ otagging s d r /\ ref_eqb r (RDig (d_dig d)) = true
    | OUntag2 r => o = Untag r /\ r <> REmpty /\
                   exists d0, get ref_eqb r (r_index (o_res s)) = Some d0 /\ ref_eqb r (RDig (d_dig d0)) = false
    | _ => False
    end.

  Lemma ostep_idle b s o rest x :
    othread_step b s (mkOT OIdle (o :: rest)) = Some x ->
    (s, mkOT OIdle rest, [o], [], None) = x /\ odone s o \/
    (exists pc, (s, mkOT pc rest, [], [], None) = x /\ obegun s o pc) \/
    (exists d, o = Delete d /\ b = true /\ (fst (oci_step s o), mkOT OIdle rest, [o], [], Some (gk d)) = x).
  Proof.
    destruct o; cbn [othread_step ot_pc ot_ops odone];
      try (intro H; injection H as <-; left; split; [reflexivity | exact I]).
    - (* Push *)
      unfold present. destruct (get N.eqb (d_dig d) (o_blobs s)).
      + intro H; injection H as <-. left. split; [reflexivity | left; discriminate].
      + destruct (verify d c) eqn:V; intro H; injection H as <-.
        * right. left. exists (OPush2 d c). repeat split. exact V.
        * left. split; [reflexivity | now right].
    - (* Tag *)
      destruct r as [m|g|]; [| |intro H; injection H as <-; left; split; [reflexivity | now left]];
        (destruct (foreign_digest_ref d _) eqn:F;
         [intro H; injection H as <-; left; split; [reflexivity | right; now left]|];
         unfold present; destruct (get N.eqb (d_dig d) (o_blobs s)) eqn:E; cbn [is_some]; intro H; injection H as <-;
         [right; left; eexists; split; [reflexivity|] | left; split; [reflexivity | right; right; congruence]]).
      + assert (Hp : otagging s d (RName m)) by (split; [discriminate | split; [exact F | congruence]]).
        destruct (is_manifest (d_mt d)) eqn:M; (split; [reflexivity | split; [exact Hp | assumption || reflexivity]]).
      + assert (Hp : otagging s d (RDig g)) by (split; [discriminate | split; [exact F | congruence]]).
        destruct (is_manifest (d_mt d)) eqn:M; [|destruct (g =? d_dig d) eqn:G];
          (split; [reflexivity | split; [exact Hp | assumption]]).
    - (* Untag *)
      destruct r as [m|g|]; [| |intro H; injection H as <-; left; split; [reflexivity | now left]];
        (destruct (get ref_eqb _ (r_index (o_res s))) as [d0|] eqn:E;
         [|intro H; injection H as <-; left; split; [reflexivity | right; exact I]];
         destruct (ref_eqb _ (RDig (d_dig d0))) eqn:R; intro H; injection H as <-;
         [left; split; [reflexivity | now right] | right; left; eexists; split; [reflexivity|]];
         split; [reflexivity | split; [discriminate | eauto]]).
    - (* Delete *)
      destruct b; [|discriminate]. intro H; injection H as <-. right. right. exists d. auto.
  Qed.

  Lemma odone_noop s o : odone s o -> fst (oci_step s o) = s.
  Proof.
    destruct o; cbn [odone oci_step]; unfold present; try reflexivity.
    - destruct (get N.eqb (d_dig d) (o_blobs s)); [reflexivity|]. intros [H| ->]; [congruence | reflexivity].
    - now destruct (get N.eqb (d_dig d) (o_blobs s)).
    - intros [->|[F|H]]; [reflexivity | |].
      + destruct r; [| |reflexivity]; now rewrite F.
      + destruct r; [| |reflexivity]; (destruct (foreign_digest_ref d _); [reflexivity|]);
          (destruct (get N.eqb (d_dig d) (o_blobs s)); [exfalso; apply H; discriminate | reflexivity]).
    - destruct r; [| |reflexivity]; destruct (get ref_eqb _ (r_index (o_res s))); try reflexivity.
      now destruct (get N.eqb g (o_blobs s)).
    - intros [->|H]; [reflexivity|]. destruct r; [| |reflexivity];
        (destruct (get ref_eqb _ (r_index (o_res s))); [now rewrite H | reflexivity]).
    - contradiction.
  Qed.

  Lemma obegun_remaining s o pc rest : obegun s o pc -> oremaining (mkOT pc rest) = o :: rest.
  Proof. destruct pc; cbn; try contradiction; now intros [-> _]. Qed.

  Lemma obegun_ok s o pc rest : wf_op o -> obegun s o pc -> othread_ok s (mkOT pc rest).
  Proof.
    unfold othread_ok, obegun, otagging. destruct pc; cbn [ot_pc]; auto; intros [Hc Hb]; try tauto.
    - intros [-> V]. cbn in Hc, Hb. auto.
    - intros (-> & (_ & _ & Hp) & _). split; [exact Hc | exact Hp].
  Qed.

  Lemma ostep_remaining b s t s' t' lg ix un :
    othread_step b s t = Some (s', t', lg, ix, un) -> oremaining t = lg ++ oremaining t'.
  Proof.
    destruct t as [[|d c|d|d|d r|d r|d r|r] ops].
    - destruct ops as [|o rest]; [discriminate|]. intro H.
      apply ostep_idle in H as [[H _]|[(pc & H & Hb)|(d & -> & _ & H)]]; injection H as <- <- <- <- <-;
        [reflexivity | now rewrite (obegun_remaining _ _ _ _ Hb) | reflexivity].
    - intro H; injection H as <- <- <- <- <-; reflexivity.
    - cbn. destruct (get N.eqb (d_dig d) (o_blobs s)); intro H; injection H as <- <- <- <- <-;
        now destruct (is_manifest (d_mt d)).
    - intro H; injection H as <- <- <- <- <-; reflexivity.
    - cbn. destruct (get N.eqb (d_dig d) (o_blobs s)); intro H; injection H as <- <- <- <- <-;
        [now destruct (ref_eqb r (RDig (d_dig d))) | reflexivity].
    - intro H; injection H as <- <- <- <- <-; reflexivity.
    - intro H; injection H as <- <- <- <- <-; reflexivity.
    - intro H; injection H as <- <- <- <- <-; reflexivity.
  Qed.

  Lemma ostep_view b s t s' t' lg ix un :
    othread_ok s t -> NoDup (map fst (r_index (o_res s))) ->
    (forall g c, get N.eqb g (o_blobs s) = Some c -> c = B g) ->
    othread_step b s t = Some (s', t', lg, ix, un) ->
    NoDup (map fst (r_index (o_res s'))) /\
    ((lg = [] /\ o_blobs s' = o_blobs s /\
      forall n, names_of (r_index (o_res s')) n = names_of (r_index (o_res s)) n) \/
     (exists o, lg = [o] /\ o_blobs s' = vmap N.eqb d_dig true (o_blobs s) o /\
                forall n, names_of (r_index (o_res s')) n = vnames (o_blobs s) (names_of (r_index (o_res s))) o n)).
  Proof.
    intros Hok Hnd HB. destruct t as [[|d c|d|d|d r|d r|d r|r] ops]; unfold othread_ok in Hok; cbn [ot_pc] in Hok.
    - destruct ops as [|o rest]; [discriminate|]. intro H.
      destruct (oci_step_view s o Hnd) as [V1 V2].
      apply ostep_idle in H as [[H Hd]|[(pc & H & _)|(d & -> & _ & H)]]; injection H as <- <- <- <- <-.
      + rewrite (odone_noop _ _ Hd) in V1, V2. split; [exact Hnd|]. right. exists o. auto.
      + split; [exact Hnd|]. left. auto.
      + split; [exact (oci_index_nodup s (Delete d) Hnd)|]. right. exists (Delete d). auto.
    - (* rename *)
      destruct Hok as (V & Hc & ->). intro H. injection H as <- <- <- <- <-. cbn [o_blobs o_res]. split; auto.
      right. exists (Push d (B (d_dig d))). split; auto. split; [|intro; reflexivity].
      cbn [vmap]. unfold put_new. destruct (get N.eqb (d_dig d) (o_blobs s)) as [c0|] eqn:E.
      + rewrite (HB _ _ E) in E. now apply (put_same N.eqb Neqb_spec).
      + now rewrite V.
    - (* graph.index *)
      cbn. destruct (get N.eqb (d_dig d) (o_blobs s)); intro H; injection H as <- <- <- <- <-; split; auto.
    - (* tag by digest *)
      intro H. injection H as <- <- <- <- <-. cbn [o_blobs o_res]. rewrite r_index_tag. split.
      + now apply (NoDup_put ref_eqb ref_eqb_spec).
      + left. repeat split; auto. intro n. apply names_put_dig.
    - (* Tag: graph.index of the manifest *)
      cbn. destruct (get N.eqb (d_dig d) (o_blobs s)) as [c|] eqn:E; intro H; injection H as <- <- <- <- <-.
      + cbn [o_blobs o_res]. split; auto.
      + split; auto. right. exists (Tag d r). split; auto. split; auto. intro n.
        destruct r as [m|g|]; simpl; auto. now rewrite E.
    - intro H. injection H as <- <- <- <- <-. cbn [o_blobs o_res]. rewrite r_index_tag. split.
      + now apply (NoDup_put ref_eqb ref_eqb_spec).
      + left. repeat split; auto. intro n. apply names_put_dig.
    - (* Tag commit *)
      intro H. injection H as <- <- <- <- <-. cbn [o_blobs o_res]. rewrite r_index_tag. split.
      + now apply (NoDup_put ref_eqb ref_eqb_spec).
      + right. exists (Tag d r). split; auto. split; auto. intro n.
        destruct r as [m|g|]; simpl.
        * rewrite names_put_name.
          unfold present in Hok. destruct (get N.eqb (d_dig d) (o_blobs s)) eqn:E; [reflexivity | congruence].
        * apply names_put_dig.
        * unfold names_of. apply (get_put_neq ref_eqb ref_eqb_spec). discriminate.
    - (* Untag commit *)
      intro H. injection H as <- <- <- <- <-. cbn [o_blobs o_res]. rewrite r_index_untag. split.
      + now apply NoDup_del.
      + right. exists (Untag r). split; auto. split; auto. intro n.
        destruct r as [m|g|]; simpl.
        * apply names_del_name.
        * apply names_del_dig.
        * unfold names_of. apply (get_del_neq ref_eqb ref_eqb_spec). discriminate.
  Qed.

  Lemma othread_ok_mono s1 s2 t :
    (forall g, present s1 g -> present s2 g) -> othread_ok s1 t -> othread_ok s2 t.
  Proof.
    unfold othread_ok. intro H. destruct (ot_pc t); auto; intros [A B0]; split; auto.
  Qed.

  Lemma ostep_kind b s t s' t' lg ix un :
    othread_ok s t -> (forall o, In o (oremaining t) -> wf_op o) ->
    othread_step b s t = Some (s', t', lg, ix, un) ->
    (o_blobs s' = o_blobs s /\ o_graph s' = o_graph s /\ ix = [] /\ un = None /\ othread_ok s t' /\
     forall d, ot_pc t <> OPush3 d)
    \/ (exists d c, ot_pc t = OPush2 d c /\ canon_desc U d /\ c = B (d_dig d) /\
                    s' = mkOci (put N.eqb (d_dig d) c (o_blobs s)) (o_res s) (o_graph s) /\
                    ot_pc t' = OPush3 d /\ ix = [] /\ un = None)
    \/ (exists d c, (ot_pc t = OPush3 d \/ exists r, ot_pc t = OTagIx d r) /\ canon_desc U d /\
                    get N.eqb (d_dig d) (o_blobs s) = Some c /\
                    s' = mkOci (o_blobs s) (o_res s) (g_index d (succ_of (gk d) c) (o_graph s)) /\
                    (forall d', ot_pc t' <> OPush3 d') /\ othread_ok s t' /\ ix = [gk d] /\ un = None)
    \/ (exists d, b = true /\ canon_desc U d /\ s' = fst (oci_step s (Delete d)) /\
                  ot_pc t' = OIdle /\ ot_pc t = OIdle /\ ix = [] /\ un = Some (gk d)).
  Proof.
    destruct t as [[|d c|d|d|d r|d r|d r|r] ops]; unfold othread_ok at 1; cbn [ot_pc]; intros Hok Hwf.
    - destruct ops as [|o rest]; [discriminate|]. intro H.
      assert (Hwfo : wf_op o) by (apply Hwf; now left).
      apply ostep_idle in H as [[H _]|[(pc & H & Hb)|(d & -> & -> & H)]]; injection H as <- <- <- <- <-.
      + left. repeat split; auto; discriminate.
      + left. repeat split; auto; [now apply (obegun_ok _ o) | discriminate].
      + right. right. right. exists d. repeat split; auto. apply Hwfo.
    - destruct Hok as (V & Hc & Hb). intro H. injection H as <- <- <- <- <-.
      right. left. exists d, c. repeat split; auto.
    - destruct Hok as (Hc & Hp). unfold present in Hp. cbn.
      destruct (get N.eqb (d_dig d) (o_blobs s)) as [c|] eqn:E; [|congruence].
      intro H. injection H as <- <- <- <- <-. right. right. left. exists d, c. cbn [ot_pc].
      repeat split; auto; destruct (is_manifest (d_mt d)); try discriminate; exact I.
    - intro H. injection H as <- <- <- <- <-. left. repeat split; auto; discriminate.
    - (* Tag: index step *)
      destruct Hok as (Hc & Hp). unfold present in Hp. cbn.
      destruct (get N.eqb (d_dig d) (o_blobs s)) as [c|] eqn:E; [|congruence].
      intro H. injection H as <- <- <- <- <-. right. right. left. exists d, c. cbn [ot_pc].
      split; [right; eauto|]. repeat split; auto; try (destruct (ref_eqb r (RDig (d_dig d))); discriminate).
      unfold othread_ok, present. cbn [ot_pc]. destruct (ref_eqb r (RDig (d_dig d))); rewrite E; discriminate.
    - intro H. injection H as <- <- <- <- <-. left. repeat split; auto; discriminate.
    - intro H. injection H as <- <- <- <- <-. left. repeat split; auto; discriminate.
    - intro H. injection H as <- <- <- <- <-. left. repeat split; auto; discriminate.
  Qed.

  Lemma others_idle_split l1 t l2 :
    others_idle_at (length l1) (l1 ++ t :: l2) = true ->
    forall x, In x (l1 ++ l2) -> ot_pc x = OIdle.
  Proof.
    assert (Hidle : forall x, othread_idle x = true -> ot_pc x = OIdle).
    { intro x. unfold othread_idle. now destruct (ot_pc x). }
    induction l1 as [|y l1 IH]; simpl.
    - intros H x Hx. rewrite forallb_forall in H. auto.
    - intro H. apply andb_true_iff in H as [Hy H]. intros x [<-|Hx]; auto.
  Qed.

  Lemma canon_gk d : canon_desc U d -> gk d = U (d_dig d).
  Proof. auto. Qed.

  Lemma present_put s g g' c :
    present s g -> present (mkOci (put N.eqb g' c (o_blobs s)) (o_res s) (o_graph s)) g.
  Proof. apply (get_put_mono N.eqb Neqb_spec). Qed.

  Lemma ograph_quiet s s' l1 t t' l2 J :
    o_blobs s' = o_blobs s -> o_graph s' = o_graph s -> othread_ok s t' -> (forall d, ot_pc t <> OPush3 d) ->
    ograph_inv s (l1 ++ t :: l2) J -> ograph_inv s' (l1 ++ t' :: l2) J.
  Proof.
    intros Hb Hgr Hok' Hn [HB Hthr Hg Hix Hsub].
    assert (Hp : forall g, present s' g <-> present s g) by (intro g; unfold present; now rewrite Hb).
    constructor; rewrite ?Hb, ?Hgr; auto.
    - eapply Forall_mid; [|apply (othread_ok_mono s); [|exact Hok']|exact Hthr]; [intro x; apply othread_ok_mono|];
        intro g; apply Hp.
    - intros g Hg'. destruct (Hix g (proj1 (Hp g) Hg')) as [H|H]; [now left | right].
      destruct (ex_in_mid _ _ _ t' _ H) as [(d & E & _)|H']; [now apply Hn in E | exact H'].
    - intros k Hk. destruct (Hsub k Hk). split; [|apply Hp]; auto.
  Qed.

  (* rename: the blob of a canonical descriptor appears (or is replaced by the same bytes) *)
  Lemma ograph_rename s l1 t t' l2 J d :
    canon_desc U d -> ot_pc t' = OPush3 d -> (forall d', ot_pc t <> OPush3 d') ->
    ograph_inv s (l1 ++ t :: l2) J ->
    ograph_inv (mkOci (put N.eqb (d_dig d) (B (d_dig d)) (o_blobs s)) (o_res s) (o_graph s)) (l1 ++ t' :: l2) J.
  Proof.
    intros Hc Hpc' Hn [HB Hthr Hg Hix Hsub]. constructor; cbn [o_blobs o_graph].
    - now apply (put_all N.eqb Neqb_spec (fun g c0 => c0 = B g)).
    - eapply Forall_mid; [| |exact Hthr].
      + intro x. apply othread_ok_mono. intro g. apply present_put.
      + unfold othread_ok, present. rewrite Hpc'. cbn [o_blobs]. rewrite (get_put_eq N.eqb Neqb_spec).
        split; [exact Hc | discriminate].
    - (* an indexed key that gets its blob replaced had the same bytes before *)
      eapply graph_inv_ext; [|exact Hg]. intro k. unfold S_ixo.
      destruct (mem gkey_eqb k J) eqn:Em; auto. apply (mem_In gkey_eqb gkey_eqb_spec) in Em.
      destruct (Hsub k Em) as [Hk Hp]. unfold S_oci. destruct (gkey_eqb k (U (k_dig k))); auto.
      destruct (N.eq_dec (k_dig k) (d_dig d)) as [E|Hne].
      + rewrite E. rewrite (get_put_eq N.eqb Neqb_spec). unfold present in Hp. rewrite E in Hp.
        destruct (get N.eqb (d_dig d) (o_blobs s)) as [c0|] eqn:E0; [|congruence].
        now rewrite (HB _ _ E0).
      + now rewrite (get_put_neq N.eqb Neqb_spec).
    - intros g Hp. unfold present in Hp. cbn [o_blobs] in Hp. destruct (N.eq_dec g (d_dig d)) as [->|Hne].
      + right. exists t'. split; [apply in_elt | exists d; auto].
      + rewrite (get_put_neq N.eqb Neqb_spec) in Hp by exact Hne.
        destruct (Hix g Hp) as [H|H]; [now left | right].
        destruct (ex_in_mid _ _ _ t' _ H) as [(d0 & E & _)|H']; [now apply Hn in E | exact H'].
    - intros k Hk. destruct (Hsub k Hk) as [A Hp]. split; [exact A | now apply present_put].
  Qed.

  (* graph.index of a stored blob under its canonical descriptor *)
  Lemma ograph_index s l1 t t' l2 J d c :
    canon_desc U d -> get N.eqb (d_dig d) (o_blobs s) = Some c ->
    (forall d', ot_pc t = OPush3 d' -> d' = d) -> othread_ok s t' ->
    ograph_inv s (l1 ++ t :: l2) J ->
    ograph_inv (mkOci (o_blobs s) (o_res s) (g_index d (succ_of (gk d) c) (o_graph s))) (l1 ++ t' :: l2) (gk d :: J).
  Proof.
    intros Hc Hpres Hpc Hok' [HB Hthr Hg Hix Hsub].
    assert (HS : S_oci U (o_blobs s) (gk d) = Some (succ_of (gk d) c)).
    { unfold S_oci. now rewrite k_dig_gk, <- Hc, (eqb_refl gkey_eqb gkey_eqb_spec), Hpres. }
    constructor; cbn [o_blobs o_graph]; auto.
    - eapply Forall_mid; [|apply (othread_ok_mono s); [|exact Hok']|exact Hthr]; [intro x; apply othread_ok_mono|]; auto.
    - eapply graph_inv_ext; [|apply g_index_inv; [exact Hg|]].
      + intro k. unfold upd, S_ixo. cbn [mem existsb].
        destruct (gkey_eqb k (gk d)) eqn:Ek; cbn [orb]; auto.
        apply gkey_eqb_spec in Ek. subst k. now rewrite HS.
      + unfold S_ixo. destruct (mem gkey_eqb (gk d) J); [now right | now left].
    - intros g Hp. destruct (Hix g Hp) as [H|H]; [left; now right|].
      destruct (ex_in_mid _ _ _ t' _ H) as [(d0 & E & <-)|H']; [left; left | right; exact H'].
      now rewrite (Hpc _ E).
    - intros k [<-|Hk]; [|now apply Hsub]. split; [exact Hc|]. unfold present. cbn [o_blobs]. rewrite k_dig_gk, Hpres. discriminate.
  Qed.

  Lemma mem_set_del_neq (k x : gkey) J : k <> x -> mem gkey_eqb k (set_del gkey_eqb x J) = mem gkey_eqb k J.
  Proof.
    intro Hne. apply eq_true_iff_eq.
    rewrite !(mem_In gkey_eqb gkey_eqb_spec), (In_set_del gkey_eqb gkey_eqb_spec). tauto.
  Qed.

  (* Delete: nobody else is inside an operation *)
  Lemma ograph_delete s l1 t t' l2 J d :
    canon_desc U d -> ot_pc t = OIdle -> ot_pc t' = OIdle -> (forall x, In x (l1 ++ l2) -> ot_pc x = OIdle) ->
    ograph_inv s (l1 ++ t :: l2) J ->
    ograph_inv (fst (oci_step s (Delete d))) (l1 ++ t' :: l2) (set_del gkey_eqb (gk d) J).
  Proof.
    intros Hc Hpc Hpc' Hall [HB Hthr Hg Hix Hsub].
    assert (Hbl : forall g, get N.eqb g (o_blobs (fst (oci_step s (Delete d)))) =
                            if d_dig d =? g then None else get N.eqb g (o_blobs s)).
    { intro g. now rewrite oci_step_blobs, (get_vmap N.eqb d_dig true Neqb_spec). }
    assert (Hgr : o_graph (fst (oci_step s (Delete d))) = g_remove d (o_graph s)).
    { cbn [oci_step]. now destruct (get N.eqb (d_dig d) (o_blobs s)). }
    (* another canonical key has another digest *)
    assert (Hkey : forall k, k = U (k_dig k) -> k <> gk d -> (d_dig d =? k_dig k) = false).
    { intros k Hk Hne. apply N.eqb_neq. intro E. apply Hne. now rewrite Hk, <- E, <- Hc. }
    constructor; unfold present.
    - intros g c0. rewrite Hbl. destruct (d_dig d =? g); [discriminate | apply HB].
    - apply Forall_forall. intros x Hx. unfold othread_ok.
      apply in_elt_inv in Hx as [<-|Hx]; [now rewrite Hpc' | now rewrite (Hall x Hx)].
    - rewrite Hgr. eapply graph_inv_ext; [|exact (g_remove_inv _ _ d Hg)]. intro k. unfold upd, S_ixo.
      destruct (gkey_eqb k (gk d)) eqn:Ek.
      + apply gkey_eqb_spec in Ek. subst k.
        destruct (mem gkey_eqb (gk d) (set_del gkey_eqb (gk d) J)) eqn:Em; auto.
        apply (mem_In gkey_eqb gkey_eqb_spec), (In_set_del gkey_eqb gkey_eqb_spec) in Em as [_ Em]. congruence.
      + assert (Hkne : k <> gk d) by (intros ->; rewrite (eqb_refl gkey_eqb gkey_eqb_spec) in Ek; discriminate).
        rewrite (mem_set_del_neq _ _ _ Hkne). destruct (mem gkey_eqb k J) eqn:Em; auto.
        apply (mem_In gkey_eqb gkey_eqb_spec) in Em. destruct (Hsub k Em) as [Hk _].
        unfold S_oci. now rewrite Hbl, (Hkey k Hk Hkne).
    - intros g Hp. rewrite Hbl in Hp. destruct (d_dig d =? g) eqn:Eg; [congruence|]. left.
      destruct (Hix g Hp) as [H|(x & Hin & d0 & E & _)].
      + apply (In_set_del gkey_eqb gkey_eqb_spec). split; auto.
        intro E. apply N.eqb_neq in Eg. apply Eg. now rewrite <- (U_dig g), E.
      + exfalso. apply in_elt_inv in Hin as [<-|Hin]; [congruence | rewrite (Hall x Hin) in E; discriminate].
    - intros k Hk. apply (In_set_del gkey_eqb gkey_eqb_spec) in Hk as [Hk Hkne].
      destruct (Hsub k Hk) as [A Hp]. split; auto. now rewrite Hbl, (Hkey k A Hkne).
  Qed.

  Lemma oinv_step progs cf i :
    Forall wf_op (concat progs) -> oinv progs cf -> oinv progs (oconf_step cf i).
  Proof.
    intros Hwfall Hinv.
    destruct (oconf_step_cases cf i) as [->|(l1 & t & l2 & s' & t' & lg & ix & un & Hth & Es & ->)]; [exact Hinv|].
    destruct cf as [s ths L J]. cbn [oc_store oc_threads oc_log oc_indexed] in *. subst ths.
    destruct Hinv as [Hsched Hbl Hnm Hnd Hgi]. cbn [oc_store oc_threads oc_log oc_indexed] in *.
    pose proof (Forall_elt _ _ _ (og_threads _ _ _ Hgi)) as Hokt.
    assert (Hwft : forall o, In o (oremaining t) -> wf_op o).
    { intro o. apply (proj2 (sched_inv_Forall _ _ _ _ _ Hsched Hwfall)), in_elt. }
    destruct (ostep_view _ _ _ _ _ _ _ _ Hokt Hnd (og_B _ _ _ Hgi) Es) as [Hnd' Hview].
    assert (Hrel : o_blobs s' = o_blobs (seq_ostate (map snd (L ++ map (pair (length l1)) lg))) /\
                   forall n, names_of (r_index (o_res s')) n =
                             names_of (r_index (o_res (seq_ostate (map snd (L ++ map (pair (length l1)) lg))))) n).
    { rewrite map_app, map_snd_pair. destruct Hview as [(-> & A & C)|(o & -> & A & C)].
      - rewrite app_nil_r. split; [congruence|]. intro n. now rewrite C.
      - rewrite seq_ostate_snoc.
        destruct (oci_step_view (seq_ostate (map snd L)) o (seq_ostate_nodup _)) as [V1 V2].
        split; [rewrite V1, A; now rewrite Hbl|].
        intro n. rewrite V2, C, <- Hbl. now apply vnames_ext. }
    constructor; cbn [oc_store oc_threads oc_log oc_indexed]; [|apply Hrel..|exact Hnd'|].
    - exact (sched_inv_step _ _ _ _ _ _ _ _ (ostep_remaining _ _ _ _ _ _ _ _ Es) Hsched).
    - destruct (ostep_kind _ _ _ _ _ _ _ _ Hokt Hwft Es) as
          [(Hb & Hgr & -> & -> & Hok' & Hnot3)
          |[(d & c & Hpc & Hc & -> & -> & Hpc' & -> & ->)
           |[(d & c & Hpc & Hc & Hpres & -> & _ & Hok' & -> & ->)
            |(d & Hidle & Hc & -> & Hpc' & Hpc & -> & ->)]]]; cbn [app].
      + now apply (ograph_quiet s _ _ t).
      + apply (ograph_rename _ _ t); auto. intros d' E. congruence.
      + apply (ograph_index _ _ t); auto. intros d' E. destruct Hpc as [Hpc|(r & Hpc)]; congruence.
      + apply (ograph_delete _ _ t); auto. exact (others_idle_split l1 t l2 Hidle).
  Qed.

  Lemma oinv_run progs sched :
    Forall wf_op (concat progs) -> forall cf, oinv progs cf -> oinv progs (oconf_run cf sched).
  Proof.
    intro Hwf. apply fold_left_invariant. intros cf i. now apply oinv_step.
  Qed.

  Lemma othread_done_spec t : othread_done t = true -> ot_pc t = OIdle /\ oremaining t = [].
  Proof.
    unfold othread_done, oremaining. destruct (ot_pc t); try discriminate.
    destruct (ot_ops t); [auto|discriminate].
  Qed.

  Lemma oinv_quiescent progs cf :
    Forall wf_op (concat progs) -> oinv progs cf -> oquiescent cf = true ->
    Permutation (map snd (oc_log cf)) (concat progs) /\
    (forall i, log_of i (oc_log cf) = nth i progs []) /\
    forall n k, In k (map gk (g_predecessors n (o_graph (oc_store cf)))) <->
                In k (map gk (g_predecessors n (o_graph (seq_ostate (map snd (oc_log cf)))))).
  Proof.
    intros Hwf [Hsched Hbl _ _ [_ _ Hg Hix _]] Hq.
    assert (Hdone : forall t, In t (oc_threads cf) -> ot_pc t = OIdle /\ oremaining t = []).
    { intros t Ht. apply othread_done_spec. unfold oquiescent in Hq. rewrite forallb_forall in Hq. auto. }
    destruct (sched_inv_done _ _ _ _ (fun t Ht => proj2 (Hdone t Ht)) Hsched) as [Hperm Hord].
    split; [exact Hperm|]. split; [exact Hord|].
    assert (Hcan : Forall (canon_op U) (map snd (oc_log cf))).
    { eapply Forall_impl; [|exact (Permutation_Forall (Permutation_sym Hperm) Hwf)].
      intros o [A _]. now apply canon_op_all_weaken. }
    pose proof (run_invariant oci_step (oci_inv U) (canon_op U) (oci_step_inv U) (map snd (oc_log cf)) oci_init Hcan (oci_inv_init U)) as [_ Hg2 _].
    fold (seq_ostate (map snd (oc_log cf))) in Hg2. rewrite <- Hbl in Hg2.
    assert (Hg1 : graph_inv (S_oci U (o_blobs (oc_store cf))) (o_graph (oc_store cf))).
    { eapply graph_inv_ext; [|exact Hg]. intro k0. unfold S_ixo.
      destruct (mem gkey_eqb k0 (oc_indexed cf)) eqn:Em; auto.
      unfold S_oci. destruct (gkey_eqb k0 (U (k_dig k0))) eqn:Ec; auto.
      destruct (get N.eqb (k_dig k0) (o_blobs (oc_store cf))) eqn:E; auto. exfalso.
      assert (Hp : present (oc_store cf) (k_dig k0)) by (unfold present; congruence).
      destruct (Hix _ Hp) as [H|(tw & Hin & dw & Hpc & _)].
      - apply gkey_eqb_spec in Ec. rewrite <- Ec in H.
        apply (mem_In gkey_eqb gkey_eqb_spec) in H. congruence.
      - destruct (Hdone tw Hin). congruence. }
    intros n k. rewrite (g_predecessors_spec _ _ _ _ Hg1), (g_predecessors_spec _ _ _ _ Hg2). tauto.
  Qed.

  (* Every interleaving of the atomic steps of the OCI store (Delete exclusive), run to
     quiescence, ends with the content map, the named references and the answers of
     Predecessors of a sequential execution of the same operations that keeps every
     goroutine's program order.  (Digest-string entries of the resolver are not compared.) *)
  Theorem quiescent_serialisable_oci (progs : list (list op)) (sched : list nat) :
    Forall wf_op (concat progs) ->
    let cf := oconf_run (oconf_init progs) sched in
    oquiescent cf = true ->
    exists order : list (nat * op),
      Permutation (map snd order) (concat progs) /\
      (forall i, log_of i order = nth i progs []) /\
      let q := fst (run oci_step oci_init (map snd order)) in
      o_blobs (oc_store cf) = o_blobs q /\
      (forall n, get ref_eqb (RName n) (r_index (o_res (oc_store cf))) =
                 get ref_eqb (RName n) (r_index (o_res q))) /\
      forall n k, In k (map gk (g_predecessors n (o_graph (oc_store cf)))) <->
                  In k (map gk (g_predecessors n (o_graph q))).
  Proof.
    intros Hwf cf Hq. pose proof (oinv_run progs sched Hwf _ (oinv_init progs)) as Hinv. fold cf in Hinv.
    destruct (oinv_quiescent progs cf Hwf Hinv Hq) as (Hperm & Hord & Hpreds).
    exists (oc_log cf). split; [exact Hperm|]. split; [exact Hord|].
    split; [exact (oi_blobs _ _ Hinv)|]. split; [exact (oi_names _ _ Hinv) | exact Hpreds].
  Qed.
End OciConc.

(* non-vacuity: a universe, two goroutines (racing pushes of one manifest, a delete, an untag)
   and a schedule that runs them to quiescence *)
Definition ox_B (g : N) : blob :=
  if g =? 1 then mkBlob 1 10 [(6, 2, 5)] 1 [(6, 2, 5)] else mkBlob 2 5 [] 2 [].
Definition ox_progs : list (list op) :=
  [ [Push ex_man (ox_B 1); Tag ex_man (RName 1); Fetch ex_layer];
    [Push ex_man (ox_B 1); Push ex_layer (ox_B 2); Delete ex_layer; Untag (RName 1)] ].
Definition ox_sched : list nat :=
  [0; 1; 1; 0; 0; 1; 0; 1; 1; 0; 0; 1; 1; 1; 0; 1; 1; 0; 1; 0; 1; 0; 1; 0; 1; 0; 1; 0; 1; 0; 1]%nat.

Lemma ox_wf : Forall (wf_op ex_U ox_B) (concat ox_progs).
Proof.
  repeat (constructor; [split; [reflexivity | try exact I; try (intros _; reflexivity)] |]). constructor.
Qed.

Lemma ox_quiescent : oquiescent (oconf_run (oconf_init ox_progs) ox_sched) = true.
Proof. vm_compute. reflexivity. Qed.

Theorem conc_fetch_matches_oci (U : N -> gkey) (B : N -> blob) (progs : list (list op)) (sched : list nat) d hash len :
  (forall g, k_dig (U g) = g) -> Forall (wf_op U B) (concat progs) ->
  snd (oci_step (oc_store (oconf_run (oconf_init progs) sched)) (Fetch d)) = OBytes hash len ->
  hash = d_dig d.
Proof.
  intros HU Hwf. pose proof (oinv_run U HU B progs sched Hwf _ (oinv_init U B progs)) as Hinv.
  destruct (oci_reads_view _ _ (oi_blobs _ _ _ _ Hinv) (oi_names _ _ _ _ Hinv) d 0) as (-> & _).
  apply oci_fetch_matches.
Qed.

(* known finding oci-racing-pushes-all-succeed, on the model: a schedule after which both
   goroutines have passed the stat check and renamed their temp file onto the blob path --
   both Push calls return nil, whereas in every sequential order the second is refused *)
Definition orace_progs : list (list op) := [[Push ex_layer (ox_B 2)]; [Push ex_layer (ox_B 2)]].
Lemma orace_both_renamed :
  map ot_pc (oc_threads (oconf_run (oconf_init orace_progs) [0; 1; 0; 1]%nat)) = [OPush3 ex_layer; OPush3 ex_layer] /\
  snd (run oci_step oci_init (concat orace_progs)) = [OOk; OErr EAlreadyExists].
Proof. vm_compute. split; reflexivity. Qed.
