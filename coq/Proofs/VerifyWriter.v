(* ioutil.CopyBuffer into a destination that may fail or short-write: nil is returned
   only when the destination took every byte, and then it holds exactly the
   descriptor's bytes. *)
From Oras Require Import Base.Prelude Model.Verify Proofs.Verify.
From Coq Require Import Lia ZArith.

Local Open Scope nat_scope.

Section Writer.
  Variable H : str -> str -> str.
  Variable comb : bool.

  Definition write_fault (e : option rerr) : Prop := e = Some EWrite \/ e = Some EShortWrite.

  Lemma w_write_spec w bs acc we w' :
    w_write w bs = ((acc, we), w') ->
    (we = None /\ acc = bs /\ w_mode w' = w_mode w /\
     (w_mode w <> None -> length bs <= w_left w /\ w_left w' = w_left w - length bs)) \/
    (write_fault we /\ w_left w < length bs).
  Proof.
    unfold w_write. destruct (w_mode w) as [m|] eqn:Em.
    - destruct (length bs <=? w_left w) eqn:L.
      + apply Nat.leb_le in L. intro E; inversion E; subst; simpl. left. repeat split; auto; lia.
      + apply Nat.leb_gt in L. intro E; inversion E; subst. right. split; auto.
        destruct m; [left|right]; reflexivity.
    - intro E; inversion E; subst. left. repeat split; auto; congruence.
  Qed.

  (* the loop with a destination either ends in a write fault or is the loop of the
     fault-free model, and then the destination had room for everything *)
  Lemma copy_loop_w_rel bufsz fuel : forall v out w e out' v' w',
    copy_loop_w comb fuel v bufsz out w = (((e, out'), v'), w') ->
    write_fault e \/
    (copy_loop comb fuel v bufsz out = ((e, out'), v') /\
     (w_mode w <> None -> length out' - length out <= w_left w)).
  Proof.
    induction fuel as [|f IH]; intros v out w e out' v' w'; simpl.
    - intro E; inversion E; subst. right. split; auto. intros _. lia.
    - (* a Read that ends the loop ends both loops alike *)
      assert (Stop : forall e0 o vv ww,
                match e0 with EEof => (((None, o), vv), ww) | _ => (((Some e0, o), vv), ww) end = (((e, out'), v'), w') ->
                match e0 with EEof => ((None, o), vv) | _ => ((Some e0, o), vv) end = ((e, out'), v') /\ out' = o).
      { intros e0 o vv ww. destruct e0; intro E; injection E as <- <- <- _; auto. }
      destruct (vr_read comb v bufsz) as [[bs e0] v1] eqn:Er.
      destruct bs as [|c bs'].
      + (* nothing read: nothing written *)
        rewrite !app_nil_r.
        destruct e0 as [e0|].
        * intro E. apply Stop in E as [E ->]. right. split; [exact E|intros _; lia].
        * intro E. apply IH in E as [F|[E1 E2]]; [left; exact F|]. right. split; auto.
      + destruct (w_write w (c :: bs')) as [[acc we] w1] eqn:Ew.
        apply w_write_spec in Ew as [(-> & -> & Wm & Wl)|(F & _)].
        * destruct e0 as [e0|].
          -- intro E. apply Stop in E as [E ->]. right. split; [exact E|].
             intro Nn. destruct (Wl Nn) as [L1 _]. rewrite app_length. simpl in *. lia.
          -- intro E. apply IH in E as [F|[E1 E2]]; [left; exact F|]. right. split; auto.
             intro Nn. destruct (Wl Nn) as [L1 L2].
             assert (Nn1 : w_mode w1 <> None) by congruence. specialize (E2 Nn1).
             rewrite app_length in E2. simpl in *. lia.
        * intro E. destruct F as [-> | ->]; inversion E; subst; left; [left|right]; reflexivity.
  Qed.

  Theorem copy_buffer_w_sound fuel src bufsz dg sz w out v w' :
    copy_buffer_w H comb true fuel src bufsz dg sz w = (((None, out), v), w') ->
    copy_buffer H comb true fuel src bufsz dg sz = ((None, out), v) /\
    (w_mode w <> None -> length out <= w_left w) /\
    matches_desc H dg sz out /\
    (b_lim src = None -> neof (b_evs src) = 0 -> stream (b_evs src) = out).
  Proof.
    unfold copy_buffer_w, copy_buffer.
    destruct (copy_loop_w comb fuel (new_vr true src dg sz) bufsz [] w) as [[[e o] v0] w0] eqn:Ec.
    apply copy_loop_w_rel in Ec as [F|[E1 E2]].
    - destruct F as [-> | ->]; discriminate.
    - rewrite E1. destruct e as [e|]; [discriminate|].
      destruct (vr_verify H comb fuel dg v0) as [r v1] eqn:Ev.
      intro X; inversion X; subst. split; [reflexivity|]. split.
      + intro Nn. specialize (E2 Nn). simpl in E2. lia.
      + assert (Cb : copy_buffer H comb true fuel src bufsz dg sz = ((None, out), v)).
        { unfold copy_buffer. rewrite E1, Ev. reflexivity. }
        apply copy_buffer_sound in Cb as (A & _ & C). split; auto.
  Qed.

  Corollary copy_buffer_w_short_dest fuel src bufsz dg sz m left out v w' :
    (Z.of_nat left < sz)%Z ->
    copy_buffer_w H comb true fuel src bufsz dg sz (mkW (Some m) left) <> (((None, out), v), w').
  Proof.
    intros L E. apply copy_buffer_w_sound in E as (_ & B & (A1 & _) & _).
    simpl in B. assert (X : Some m <> None) by discriminate. specialize (B X). lia.
  Qed.
End Writer.
