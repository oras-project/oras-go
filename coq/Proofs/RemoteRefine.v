(* Proofs/RemoteRefine.v -- the client run against the registry model.  One lemma per client
   function says what it returns in terms of the registry's state ([*_reg]); from these, operation
   by operation, client o registry refines the content store with tags for every history,
   capability profile and referrers state (C13_refines_store_partial).  Against a registry
   without the Referrers API: the referrers tag schema, from one index update to histories
   (C13_tag_schema_*, C13_push/delete_subject_then_predecessors).  Then: the registry model meets
   [loc_ok], the witnesses, and the sweep over all capability profiles. *)
From Oras Require Import Base.Prelude Model.Reference Model.Registry Model.RemoteClient Model.RemoteSpec
  Proofs.RemoteClient.
Require Import Lia.

Lemma valid_digest_nil : valid_digest [] = false.
Proof. reflexivity. Qed.

Lemma nil_not_name_unknown : str_eqb [] name_unknown = false.
Proof. reflexivity. Qed.

Lemma up_dig_ok (c : bool) d :
  valid_digest (nstr (opt_if c d)) && negb (str_eqb (nstr (opt_if c d)) d) = false.
Proof.
  destruct c; cbn [opt_if nstr].
  - now rewrite str_eqb_refl, andb_false_r.
  - now rewrite valid_digest_nil.
Qed.

Lemma vd_opt st ct cl (c : bool) d loc ar sj rf body :
  valid_digest d = true ->
  verify_digest (mkResp st ct cl (opt_if c d) loc ar sj rf body) d = true.
Proof.
  intro V. apply verify_digest_spec. unfold dig_consistent. destruct c; cbn; auto.
Qed.

Lemma take_n_all (l : str) : forall n, len l <= n -> take_n l n = l.
Proof.
  induction l as [|x l IH]; intros n Hn; [reflexivity|]. cbn [take_n].
  unfold len in *. cbn [length] in Hn.
  destruct (n =? 0) eqn:E; [apply N.eqb_eq in E; lia|]. f_equal. apply IH. lia.
Qed.

Lemma store_of_fields g st :
  store_of g = st ->
  g_blobs g = t_blobs st /\ g_mans g = t_mans st /\ g_tags g = t_tags st /\ g_other g = t_other st.
Proof. intros <-. auto. Qed.

Section Refine.
  Variable H : str -> str.
  Variable parse_mt : str -> option str.
  Variable subject_of : str -> option (option desc).
  Variables main other : str.
  Variable user_mts : list str.
  Variable limit : N.
  Variable skip_gc : bool.
  Variable index_of : str -> option (list desc).
  Variable p : profile.

  Hypothesis Hneq : str_eqb main other = false.
  Hypothesis Hoct : parse_mt ct_octet = Some ct_octet.

  Notation ex0 := (cexch H subject_of main other p None).
  Notation S := (reg * N)%type.

  Lemma ex0_eq g n q :
    ex0 (g, n) q = ((fst (handle H (subj_of subject_of) main other p g q), n + 1),
                    snd (handle H (subj_of subject_of) main other p g q)).
  Proof. unfold cexch. destruct (handle _ _ _ _ _ g q). reflexivity. Qed.

  (* generateDescriptor on the registry's own 200 answer *)
  Lemma gen_desc_honest mt n (c : bool) d ar body rf hd :
    parse_mt mt = Some mt -> valid_digest d = true ->
    (rf = d \/ valid_digest rf = false) ->
    (c = true \/ (hd = true /\ rf = d) \/ (hd = false /\ H body = d /\ len body <= limit /\ n <= limit)) ->
    gen_desc H parse_mt limit (mkResp 200 (Some mt) (Some n) (opt_if c d) None ar None [] body) rf hd
    = Some (mkDesc mt d n).
  Proof.
    intros Hm Vd Hrf Hc. unfold gen_desc. proj. rewrite Hm.
    destruct d as [|x t]; [now rewrite valid_digest_nil in Vd|].
    destruct c; cbn [opt_if nstr].
    - rewrite Vd. cbn [negb].
      destruct Hrf as [->|Vr]; [rewrite Vd, str_eqb_refl|rewrite Vr]; reflexivity.
    - destruct Hc as [X|[[-> ->]|(-> & Hb & Hl & Hn)]]; [discriminate| |].
      + rewrite Vd, str_eqb_refl. reflexivity.
      + assert (El : (limit <? n) = false) by (apply N.ltb_ge; exact Hn).
        rewrite El. unfold hashed_body. proj. rewrite take_n_all by exact Hl. rewrite Hb.
        destruct Hrf as [->|Vr]; [rewrite Vd, str_eqb_refl|rewrite Vr]; reflexivity.
  Qed.

  Hypothesis Hvalid : forall c, valid_digest (H c) = true.

  Lemma other_main : str_eqb other main = false.
  Proof. now rewrite str_eqb_sym. Qed.

  Lemma blob_resp_none hd d c :
    blob_resp p hd d (Some c) None =
    mkResp 200 (Some ct_octet) (opt_if (p_clen p || hd) (len c)) (opt_if (p_dighdr p) d) None
           (p_range p) None [] (if hd then [] else c).
  Proof. unfold blob_resp. destruct (p_range p && negb hd); reflexivity. Qed.

  Lemma hx_get_blob g n d :
    ex0 (g, n) (req GET main (EBlob d)) = ((g, n + 1), blob_resp p false d (lookup d (g_blobs g)) None).
  Proof. unfold cexch, handle, req. proj. now rewrite str_eqb_refl. Qed.

  Lemma hx_get_blob_other g n d :
    ex0 (g, n) (req GET other (EBlob d)) = ((g, n + 1), blob_resp p false d (lookup d (g_other g)) None).
  Proof. unfold cexch, handle, req. proj. now rewrite other_main, str_eqb_refl. Qed.

  Lemma hx_head_blob g n d :
    ex0 (g, n) (req HEAD main (EBlob d)) = ((g, n + 1), blob_resp p true d (lookup d (g_blobs g)) None).
  Proof. unfold cexch, handle, req. proj. now rewrite str_eqb_refl. Qed.

  Lemma hx_get_man g n rf acc :
    ex0 (g, n) (mkReq GET main (EManifest rf) None None acc None None None [])
    = ((g, n + 1), man_resp p false g rf).
  Proof. unfold cexch, handle. proj. now rewrite str_eqb_refl. Qed.

  Lemma hx_head_man g n rf acc :
    ex0 (g, n) (mkReq HEAD main (EManifest rf) None None acc None None None [])
    = ((g, n + 1), man_resp p true g rf).
  Proof. unfold cexch, handle. proj. now rewrite str_eqb_refl. Qed.

  Ltac st := repeat match goal with
    | |- context [N.pos ?a =? N.pos ?b] =>
        let v := eval compute in (N.pos a =? N.pos b) in change (N.pos a =? N.pos b) with v
    end.
  Ltac simp := unfold resp_err, resp0; cbv beta iota zeta; proj; st; cbv beta iota; proj.

  (* blobStore.Fetch from the repository whose blobs are [src]: [main], or [other] during a mount *)
  Lemma blob_fetch_reg repo src g n d :
    ex0 (g, n) (req GET repo (EBlob (d_dg d)))
    = ((g, n + 1), blob_resp p false (d_dg d) (lookup (d_dg d) src) None) ->
    valid_digest (d_dg d) = true -> acc_blob src d ->
    exists t, blob_fetch S ex0 repo (g, n) d
              = ((g, n + 1), t, match lookup (d_dg d) src with Some c => RBytes c | None => RErr ENotFound end).
  Proof.
    intros Hx V Ha. unfold blob_fetch. rewrite Hx. destruct (lookup (d_dg d) src) as [c|] eqn:L.
    - rewrite blob_resp_none. simp. eexists. f_equal. rewrite vd_opt by exact V.
      destruct (p_clen p); cbn [orb opt_if]; proj; rewrite <- ?(Ha _ L), ?N.eqb_refl; reflexivity.
    - unfold blob_resp. simp. eauto.
  Qed.

  Notation sinv := (sinv H parse_mt subject_of limit p).
  Notation inv := (inv H parse_mt subject_of limit p).
  Notation minv := (minv H parse_mt limit).

  Lemma inv_minv g : inv g -> minv g.
  Proof. intros [I _] d mt c L. destruct (I _ _ _ L) as (A & _ & B & C). auto. Qed.

  Lemma minv_insert g g' d mt c :
    minv g -> g_mans g' = insert d (mt, c) (g_mans g) ->
    d = H c -> parse_mt mt = Some mt -> len c <= limit -> minv g'.
  Proof.
    intros I Gm Hd Pm Hl d' mt' c' L. rewrite Gm, lookup_insert in L.
    destruct (str_eqb d' d) eqn:E; [|eauto]. apply str_eqb_spec in E. injection L as <- <-. subst d'. auto.
  Qed.

  Lemma minv_remove g g' k : minv g -> g_mans g' = remove k (g_mans g) -> minv g'.
  Proof.
    intros I Gm d mt c L. rewrite Gm, lookup_remove in L. destruct (str_eqb d k); [discriminate|eauto].
  Qed.

  Lemma man_resp_eq hd g rf :
    man_resp p hd g rf =
    match man_lookup (store_of g) rf with
    | Some (d, (mt, c)) =>
        mkResp 200 (Some mt) (opt_if (p_clen p || hd) (len c)) (opt_if (p_dighdr p) d) None false None []
               (if hd then [] else c)
    | None => resp_err 404
    end.
  Proof.
    unfold man_resp, man_lookup, man_digest. change (t_tags (store_of g)) with (g_tags g).
    destruct (if valid_digest rf then Some rf else lookup rf (g_tags g)) as [d|]; [|reflexivity].
    change (t_mans (store_of g)) with (g_mans g). destruct (lookup d (g_mans g)) as [[mt c]|]; reflexivity.
  Qed.

  Lemma man_lookup_digest g d :
    valid_digest d = true ->
    man_lookup (store_of g) d =
    match lookup d (g_mans g) with Some mc => Some (d, mc) | None => None end.
  Proof. intro V. unfold man_lookup. now rewrite V. Qed.

  Lemma man_lookup_key g rf d mc :
    man_lookup (store_of g) rf = Some (d, mc) -> lookup d (g_mans g) = Some mc /\ (valid_digest rf = true -> d = rf).
  Proof.
    unfold man_lookup. change (t_mans (store_of g)) with (g_mans g). destruct (valid_digest rf).
    - destruct (lookup rf (g_mans g)) eqn:E; [|discriminate]. intro X. injection X as <- <-. auto.
    - destruct (lookup rf (t_tags (store_of g))) as [d'|]; [|discriminate].
      destruct (lookup d' (g_mans g)) eqn:E; [|discriminate]. intro X. injection X as <- <-.
      split; auto. discriminate.
  Qed.

  Lemma acc_man_of g d c :
    lookup (d_dg d) (g_mans g) = Some (d_mt d, c) -> len c = d_sz d -> acc_man (store_of g) d.
  Proof. intros L Hs mt' c' L'. cbn in L'. rewrite L in L'. now injection L' as <- <-. Qed.

  Lemma man_fetch_reg g n d :
    minv g -> valid_digest (d_dg d) = true -> acc_man (store_of g) d ->
    exists t, man_fetch parse_mt main S ex0 (g, n) d
              = ((g, n + 1), t,
                 match lookup (d_dg d) (g_mans g) with Some (_, c) => RBytes c | None => RErr ENotFound end).
  Proof.
    intros I V Ha. unfold man_fetch. rewrite hx_get_man, man_resp_eq, (man_lookup_digest g _ V).
    destruct (lookup (d_dg d) (g_mans g)) as [[mt c]|] eqn:L; [|simp; eauto].
    destruct (Ha _ _ L) as [-> Hs]. destruct (I _ _ _ L) as (_ & Pm & _).
    simp. rewrite Pm, str_eqb_refl. cbn [negb]. eexists. f_equal. rewrite vd_opt by exact V.
    destruct (p_clen p); cbn [orb opt_if]; proj; rewrite <- ?Hs, ?N.eqb_refl; reflexivity.
  Qed.

  Lemma man_resolve_reg g n rs rf :
    minv g -> resolve_ref main rs = Some rf -> (p_dighdr p = true \/ valid_digest rf = true) ->
    exists t, man_resolve H parse_mt main user_mts limit S ex0 (g, n) rs
              = ((g, n + 1), t,
                 match man_lookup (store_of g) rf with
                 | Some (d, (mt, c)) => RDesc (mkDesc mt d (len c))
                 | None => RErr ENotFound
                 end).
  Proof.
    intros I ER Hd. unfold man_resolve. rewrite ER, hx_head_man, man_resp_eq.
    destruct (man_lookup (store_of g) rf) as [[d [mt c]]|] eqn:L; [|simp; eauto].
    destruct (man_lookup_key _ _ _ _ L) as [Lk Hk]. destruct (I _ _ _ Lk) as (Ed & Pm & Hlim).
    simp. rewrite orb_true_r. cbn [opt_if]. rewrite gen_desc_honest; [eauto|exact Pm| | |].
    - subst d. apply Hvalid.
    - destruct (valid_digest rf) eqn:V; auto. left. symmetry. auto.
    - destruct Hd as [->|V]; auto. right. left. split; auto. symmetry. auto.
  Qed.

  Lemma man_fetchref_reg g n rs rf :
    minv g -> resolve_ref main rs = Some rf ->
    (p_clen p = true \/ p_dighdr p = true \/ valid_digest rf = true) ->
    exists n' t, man_fetchref H parse_mt main user_mts limit S ex0 (g, n) rs
                 = ((g, n'), t,
                    match man_lookup (store_of g) rf with
                    | Some (d, (mt, c)) => RDescBytes (mkDesc mt d (len c)) c
                    | None => RErr ENotFound
                    end).
  Proof.
    intros I ER Hd. unfold man_fetchref. rewrite ER, hx_get_man, man_resp_eq.
    destruct (man_lookup (store_of g) rf) as [[d [mt c]]|] eqn:L; [|simp; eauto].
    destruct (man_lookup_key _ _ _ _ L) as [Lk Hk]. destruct (I _ _ _ Lk) as (Ed & Pm & Hlim).
    assert (Vd : valid_digest d = true) by (subst d; apply Hvalid).
    simp. rewrite orb_false_r. destruct (p_clen p) eqn:Ec; cbn [opt_if].
    - rewrite gen_desc_honest; auto.
      + assert (Eb : match nstr (opt_if (p_dighdr p) d) with
                     | [] => hashed_body limit (mkResp 200 (Some mt) (Some (len c)) (opt_if (p_dighdr p) d) None false None [] c)
                     | _ => c end = c).
        { destruct (nstr (opt_if (p_dighdr p) d)); auto. unfold hashed_body. proj. now apply take_n_all. }
        rewrite Eb. eauto.
      + destruct (valid_digest rf) eqn:V; auto. left. symmetry. auto.
      + destruct (p_dighdr p); auto. right. right. auto.
    - (* no Content-Length on the GET: the descriptor comes from a HEAD *)
      destruct Hd as [X|Hd]; [discriminate|].
      destruct (man_resolve_reg g (n + 1) rs rf I ER Hd) as [t E]. rewrite E, L.
      cbn [d_dg]. rewrite vd_opt by exact Vd. eauto.
  Qed.

  Lemma ct_octet_cons : exists x t, ct_octet = x :: t.
  Proof. vm_compute. eauto. Qed.

  Lemma gen_blob_honest n (c : bool) d ar body :
    valid_digest d = true ->
    gen_blob_desc parse_mt (mkResp 200 (Some ct_octet) (Some n) (opt_if c d) None ar None [] body) d
    = Some (mkDesc ct_octet d n).
  Proof.
    intro V. unfold gen_blob_desc. proj. rewrite Hoct.
    destruct ct_octet_cons as (x & t & E). rewrite E at 1. rewrite <- E.
    rewrite vd_opt by exact V. reflexivity.
  Qed.

  Lemma blob_resolve_reg g n rs rf :
    resolve_ref main rs = Some rf -> valid_digest rf = true ->
    exists t, blob_resolve parse_mt main S ex0 (g, n) rs
              = ((g, n + 1), t,
                 match lookup rf (g_blobs g) with
                 | Some c => RDesc (mkDesc ct_octet rf (len c))
                 | None => RErr ENotFound
                 end).
  Proof.
    intros ER V. unfold blob_resolve. rewrite ER, V. cbn [negb]. rewrite hx_head_blob.
    destruct (lookup rf (g_blobs g)) as [c|]; [|unfold blob_resp; simp; eauto].
    rewrite blob_resp_none. simp. rewrite orb_true_r. cbn [opt_if].
    rewrite gen_blob_honest by exact V. eauto.
  Qed.

  Lemma blob_fetchref_reg g n rs rf :
    resolve_ref main rs = Some rf -> valid_digest rf = true ->
    exists n' t, blob_fetchref parse_mt main S ex0 (g, n) rs
                 = ((g, n'), t,
                    match lookup rf (g_blobs g) with
                    | Some c => RDescBytes (mkDesc ct_octet rf (len c)) c
                    | None => RErr ENotFound
                    end).
  Proof.
    intros ER V. unfold blob_fetchref. rewrite ER, V. cbn [negb]. rewrite hx_get_blob.
    destruct (lookup rf (g_blobs g)) as [c|] eqn:L; [|unfold blob_resp; simp; eauto].
    rewrite blob_resp_none. simp. rewrite orb_false_r. destruct (p_clen p); cbn [opt_if].
    - rewrite gen_blob_honest by exact V. eauto.
    - destruct (blob_resolve_reg g (n + 1) rs rf ER V) as [t E]. rewrite E, L.
      cbn [d_dg]. rewrite vd_opt by exact V. eauto.
  Qed.

  (* the reader blob FetchReference returns is opened with the blob's true size in EVERY
     profile -- also when the GET carries no Content-Length and the descriptor comes from
     the HEAD -- so C13_seek (size = len content) applies to it *)
  Theorem fetchref_seeker g n rs rf c :
    resolve_ref main rs = Some rf -> valid_digest rf = true -> lookup rf (g_blobs g) = Some c ->
    exists n' t res, blob_fetchref parse_mt main S ex0 (g, n) rs = ((g, n'), t, res) /\
                     seeker_of res 0 = Some (rsc_open c (len c)).
  Proof.
    intros ER V L. destruct (blob_fetchref_reg g n rs rf ER V) as (n' & t & E). rewrite L in E.
    eexists _, _, _. split; [exact E|reflexivity].
  Qed.

  Theorem fetch_seeker g n d c :
    lookup (d_dg d) (g_blobs g) = Some c -> len c = d_sz d -> valid_digest (d_dg d) = true ->
    exists t res, blob_fetch S ex0 main (g, n) d = ((g, n + 1), t, res) /\
                  seeker_of res (d_sz d) = Some (rsc_open c (len c)).
  Proof.
    intros L Hs V.
    destruct (blob_fetch_reg main (g_blobs g) g n d (hx_get_blob g n _) V) as (t & E).
    { intros c' L'. congruence. }
    rewrite L in E. eexists _, _. split; [exact E|]. cbn. now rewrite Hs.
  Qed.

  Lemma delete_man_hit g n d mc :
    lookup (d_dg d) (g_mans g) = Some mc -> valid_digest (d_dg d) = true ->
    exists g' t, delete_req main S ex0 (g, n) d true = ((g', n + 1), t, ROk) /\
                 g_blobs g' = g_blobs g /\ g_mans g' = remove (d_dg d) (g_mans g) /\
                 g_tags g' = filter (fun t => negb (str_eqb (snd t) (d_dg d))) (g_tags g) /\
                 g_other g' = g_other g.
  Proof.
    intros L V. unfold delete_req, cexch, handle, req. proj. rewrite str_eqb_refl. proj. rewrite V, L.
    simp. rewrite vd_opt by exact V. eexists _, _. repeat split.
  Qed.

  Lemma delete_man_miss g n d :
    lookup (d_dg d) (g_mans g) = None -> valid_digest (d_dg d) = true ->
    exists t, delete_req main S ex0 (g, n) d true = ((g, n + 1), t, RErr ENotFound).
  Proof.
    intros L V. unfold delete_req, cexch, handle, req. proj. rewrite str_eqb_refl. proj. rewrite V, L.
    simp. eauto.
  Qed.

  Definition sess_resp (id : N) : response :=
    mkResp 202 None (Some 0) None (Some (main, ESession id)) false None [] [].
  Definition opened (g : reg) : reg :=
    mkReg (g_blobs g) (g_mans g) (g_tags g) (g_other g) (g_next g + 1) (g_next g :: g_open g).

  Lemma sess_status id : r_status (sess_resp id) = 202.
  Proof. reflexivity. Qed.

  Lemma opened_store g : store_of (opened g) = store_of g.
  Proof. reflexivity. Qed.

  Lemma hx_post g n : ex0 (g, n) (req POST main EUploads) = ((opened g, n + 1), sess_resp (g_next g)).
  Proof. unfold cexch, handle, req. proj. now rewrite str_eqb_refl. Qed.

  Lemma mem_opened g : mem_n (g_next g) (g_open (opened g)) = true.
  Proof. unfold opened, mem_n. proj. cbn [existsb]. now rewrite N.eqb_refl. Qed.

  Lemma hx_put_session g n id d c :
    mem_n id (g_open g) = true -> valid_digest (d_dg d) = true ->
    ex0 (g, n) (mkReq PUT main (ESession id) (Some (d_dg d)) None None (Some ct_octet) (Some (d_sz d)) None c)
    = if matches_desc H d c
      then ((mkReg (insert (d_dg d) c (g_blobs g)) (g_mans g) (g_tags g) (g_other g) (g_next g)
                   (filter (fun x => negb (x =? id)) (g_open g)), n + 1),
            mkResp 201 None (Some 0) (opt_if (p_dighdr p) (d_dg d)) (Some (main, EBlob (d_dg d))) false None [] [])
      else ((g, n + 1), resp_err 400).
  Proof.
    intros M V. unfold cexch, handle, matches_desc. proj. rewrite str_eqb_refl. proj. rewrite M, V. cbn [andb].
    rewrite (N.eqb_sym (d_sz d)), andb_comm. now destruct ((len c =? d_sz d) && str_eqb (H c) (d_dg d)).
  Qed.

  (* completePushAfterInitialPost into an open session: the blob is stored exactly when the content
     is what the descriptor says (the client checks a known length, the registry length and digest) *)
  Lemma complete_push_reg g n id d c sized :
    mem_n id (g_open g) = true -> valid_digest (d_dg d) = true ->
    exists g' n' t,
      complete_push S ex0 (g, n) (sess_resp id) d c sized
      = ((g', n'), t, if matches_desc H d c then ROk else RErr EOther) /\
      store_of g' = if matches_desc H d c then with_blobs (store_of g) (insert (d_dg d) c (g_blobs g))
                    else store_of g.
  Proof.
    intros M V. unfold complete_push, sess_resp. proj.
    destruct (sized && negb (len c =? d_sz d)) eqn:Es.
    - apply andb_true_iff in Es as [_ Es]. apply negb_true_iff in Es.
      unfold matches_desc. rewrite Es. eexists _, _, _. split; reflexivity.
    - rewrite hx_put_session by assumption.
      destruct (matches_desc H d c); simp; rewrite ?up_dig_ok; eexists _, _, _; split; reflexivity.
  Qed.

  Lemma blob_push_reg g n d c :
    valid_digest (d_dg d) = true ->
    exists g' n' t,
      blob_push main S ex0 (g, n) d c = ((g', n'), t, if matches_desc H d c then ROk else RErr EOther) /\
      store_of g' = if matches_desc H d c then with_blobs (store_of g) (insert (d_dg d) c (g_blobs g))
                    else store_of g.
  Proof.
    intros V. unfold blob_push. rewrite hx_post. cbv beta iota zeta. rewrite sess_status. simp.
    destruct (complete_push_reg (opened g) (n + 1) (g_next g) d c true (mem_opened g) V) as (g' & n' & t & E & St).
    rewrite E. eauto 6.
  Qed.

  Lemma hx_mount g n d :
    ex0 (g, n) (mkReq POST main EUploads None (Some (d, other)) None None None None []) =
    match (if p_mount p then lookup d (g_other g) else None) with
    | Some c => ((set_blobs g (insert d c (g_blobs g)), n + 1),
                 mkResp 201 None (Some 0) (opt_if (p_dighdr p) d) (Some (main, EBlob d)) false None [] [])
    | None => ((opened g, n + 1), sess_resp (g_next g))
    end.
  Proof.
    unfold cexch, handle. proj. rewrite !str_eqb_refl. proj. rewrite andb_true_r.
    destruct (if p_mount p then lookup d (g_other g) else None); reflexivity.
  Qed.

  Lemma matches_desc_true d c : matches_desc H d c = true -> len c = d_sz d /\ H c = d_dg d.
  Proof.
    unfold matches_desc. intro M. apply andb_true_iff in M as [A B].
    apply N.eqb_eq in A. apply str_eqb_spec in B. auto.
  Qed.

  (* mounted by the registry, or -- when it opens an upload session instead -- uploaded from [c]:
     the content the caller supplies, or what the sibling repository holds *)
  Lemma blob_mount_reg g n d getc c :
    match getc with
    | Some c' => c' = c /\ forall c', lookup (d_dg d) (g_other g) = Some c' -> c' = c
    | None => lookup (d_dg d) (g_other g) = Some c
    end ->
    matches_desc H d c = true -> valid_digest (d_dg d) = true ->
    exists g' n' t, blob_mount main other S ex0 (g, n) d getc = ((g', n'), t, ROk) /\
                    store_of g' = with_blobs (store_of g) (insert (d_dg d) c (g_blobs g)).
  Proof.
    intros Hc M V.
    assert (Hsame : forall c', lookup (d_dg d) (g_other g) = Some c' -> c' = c).
    { destruct getc; [apply Hc|]. intros c' L. congruence. }
    unfold blob_mount. rewrite hx_mount.
    destruct (if p_mount p then lookup (d_dg d) (g_other g) else None) as [c'|] eqn:E.
    - assert (c' = c) as -> by (destruct (p_mount p); [now apply Hsame|discriminate]).
      simp. rewrite vd_opt by exact V. eexists _, _, _. split; reflexivity.
    - cbv beta iota zeta. rewrite sess_status. simp.
      assert (Hpush : forall n1, exists g' n' t,
                 complete_push S ex0 (opened g, n1) (sess_resp (g_next g)) d c false = ((g', n'), t, ROk) /\
                 store_of g' = with_blobs (store_of g) (insert (d_dg d) c (g_blobs g))).
      { intro n1. destruct (complete_push_reg (opened g) n1 (g_next g) d c false (mem_opened g) V)
          as (g' & n' & t & E2 & St). rewrite M in E2, St. eauto 6. }
      destruct getc as [c'|].
      + destruct Hc as [-> _]. destruct (Hpush (n + 1)) as (g' & n' & t & E2 & St). rewrite E2. eauto 6.
      + destruct (blob_fetch_reg other (g_other g) (opened g) (n + 1) d (hx_get_blob_other _ _ _) V) as [t1 E1].
        { intros c' L. apply matches_desc_true in M as [<- _]. f_equal. now apply Hsame. }
        rewrite Hc in E1. rewrite E1.
        destruct (Hpush (n + 1 + 1)) as (g' & n' & t & E2 & St). rewrite E2. eauto 6.
  Qed.

  Lemma blob_mount_miss g n d :
    lookup (d_dg d) (g_other g) = None -> valid_digest (d_dg d) = true ->
    exists g' n' t, blob_mount main other S ex0 (g, n) d None = ((g', n'), t, RErr ENotFound) /\
                    store_of g' = store_of g.
  Proof.
    intros L V. unfold blob_mount. rewrite hx_mount, L.
    assert ((if p_mount p then @None str else None) = None) as -> by (destruct (p_mount p); reflexivity).
    cbv beta iota zeta. rewrite sess_status. simp.
    destruct (blob_fetch_reg other (g_other g) (opened g) (n + 1) d (hx_get_blob_other _ _ _) V) as [t1 E1].
    { intros c L'. congruence. }
    rewrite L in E1. rewrite E1. eexists _, _, _. split; reflexivity.
  Qed.

  Notation sub_ok := (sub_ok subject_of p).
  Notation rst_ok := (rst_ok p).

  (* the referrers state after a successful PUT of [c] (checkOCISubjectHeader): the registry
     answers OCI-Subject when it has the Referrers API and the manifest a subject *)
  Definition rst_put (rst : rstate) (c : str) : rstate :=
    match nstr (if p_referrers p
                then match subj_of subject_of c with Some s => Some (d_dg s) | None => None end
                else None) with
    | [] => rst
    | _ => rs_set rst true
    end.
  Definition rst_of (res : result) (rst : rstate) (c : str) : rstate :=
    match res with ROk => rst_put rst c | _ => rst end.

  Lemma rst_put_same rst c : p_referrers p = false \/ subject_of c = Some None -> rst_put rst c = rst.
  Proof. unfold rst_put, subj_of. intros [-> | ->]; [|destruct (p_referrers p)]; reflexivity. Qed.

  Lemma rst_put_subject rst c s :
    p_referrers p = true -> subject_of c = Some (Some s) -> d_dg s <> [] -> rst_put rst c = rs_set rst true.
  Proof. unfold rst_put, subj_of. intros -> -> Ne. cbn [nstr]. now destruct (d_dg s). Qed.

  Lemma rst_unknown rst : rst_ok rst -> p_referrers p = true -> rs_supported rst = false -> rst = RSUnknown.
  Proof. intros [Hr|Hr] Pr Ns; [|congruence]. destruct rst; cbn in Ns; congruence. Qed.

  Lemma rst_of_ok res rst c : rst_ok rst -> rst_ok (rst_of res rst c).
  Proof.
    intro Hr. destruct res; cbn [rst_of]; auto. unfold rst_put.
    destruct (nstr _); auto. destruct Hr as [Hr|Hr]; [left|now right]. destruct rst; cbn; congruence.
  Qed.

  Lemma man_put_reg g n rst d c sized rf :
    valid_ref rf = true -> len c = d_sz d -> H c = d_dg d -> valid_digest (d_dg d) = true ->
    exists g' n' t,
      man_put main S ex0 (g, n) rst d c sized rf
      = ((g', n'), rst_of (snd (put_manifest (store_of g) (d_dg d) (d_mt d) c rf)) rst c, t,
         snd (put_manifest (store_of g) (d_dg d) (d_mt d) c rf)) /\
      store_of g' = fst (put_manifest (store_of g) (d_dg d) (d_mt d) c rf).
  Proof.
    intros Vr Hs Hh V. unfold man_put.
    rewrite Hs, N.eqb_refl. cbn [negb]. rewrite andb_false_r.
    unfold cexch, handle. proj. rewrite str_eqb_refl. proj.
    rewrite <- Hs, N.eqb_refl. cbn [negb]. rewrite Hh.
    unfold put_manifest, valid_ref in *.
    destruct (valid_digest rf) eqn:Vd; cbn [negb andb orb] in *.
    - destruct (str_eqb rf (d_dg d)); cbn [negb]; simp; rewrite ?vd_opt by exact V;
        eexists _, _, _; split; reflexivity.
    - rewrite Vr. cbn [negb]. simp. rewrite vd_opt by exact V. eexists _, _, _. split; reflexivity.
  Qed.

  Lemma man_put_bad g n rst d c :
    matches_desc H d c = false -> valid_digest (d_dg d) = true ->
    exists g' n' t, man_put main S ex0 (g, n) rst d c true (d_dg d) = ((g', n'), rst, t, RErr EOther) /\
                    store_of g' = store_of g.
  Proof.
    unfold matches_desc. intros M V. unfold man_put.
    destruct (len c =? d_sz d) eqn:El; cbn [negb andb] in *; [|eexists _, _, _; split; reflexivity].
    unfold cexch, handle. proj. rewrite str_eqb_refl. proj.
    apply N.eqb_eq in El. rewrite <- El, N.eqb_refl. cbn [negb]. rewrite V. cbn [andb].
    rewrite str_eqb_sym, M. cbn [negb]. simp. eexists _, _, _. split; reflexivity.
  Qed.

  Lemma put_manifest_result st dg mt c rf :
    snd (put_manifest st dg mt c rf) = ROk \/ snd (put_manifest st dg mt c rf) = RErr EOther.
  Proof.
    unfold put_manifest. destruct (valid_digest rf); [destruct (str_eqb rf dg)|]; cbn; auto.
  Qed.

  Lemma man_push_reg g n rst d c rf :
    valid_ref rf = true -> len c = d_sz d -> H c = d_dg d -> sub_ok c -> rst_ok rst ->
    valid_digest (d_dg d) = true -> len c <= limit ->
    exists g' n' t,
      man_push H parse_mt subject_of main user_mts limit skip_gc index_of S ex0 (g, n) rst d c rf
      = ((g', n'), rst_of (snd (put_manifest (store_of g) (d_dg d) (d_mt d) c rf)) rst c, t,
         snd (put_manifest (store_of g) (d_dg d) (d_mt d) c rf)) /\
      store_of g' = fst (put_manifest (store_of g) (d_dg d) (d_mt d) c rf).
  Proof.
    intros Vr Hs Hh Sj Hr V Hl. unfold man_push.
    destruct (man_put_reg g n rst d c true rf Vr Hs Hh V) as (g' & n' & t & E & St).
    destruct (indexable (d_mt d) && negb (rs_supported rst)) eqn:Ei; [|rewrite E; eauto 6].
    assert (El : (limit <? d_sz d) = false) by (apply N.ltb_ge; rewrite <- Hs; exact Hl).
    rewrite El, Hs, N.eqb_refl, Hh, str_eqb_refl. cbn [negb orb]. rewrite E.
    destruct (put_manifest_result (store_of g) (d_dg d) (d_mt d) c rf) as [R|R]; rewrite R in *; [|eauto 6].
    apply andb_true_iff in Ei as [_ Ns]. apply negb_true_iff in Ns.
    (* a manifest with a subject goes only to a registry that answers OCI-Subject: the client
       then knows the API is there and leaves the referrers index alone *)
    cbn [rst_of]. destruct Sj as [Sj|(Pr & s & Sj & Ne)]; rewrite Sj.
    - rewrite rst_put_same, Ns by auto. eauto 6.
    - rewrite (rst_put_subject _ _ _ Pr Sj Ne), (rst_unknown rst Hr Pr Ns). cbn [rs_set rs_supported]. eauto 6.
  Qed.

  Lemma man_push_bad g n rst d c :
    matches_desc H d c = false -> valid_digest (d_dg d) = true ->
    exists g' n' t, man_push H parse_mt subject_of main user_mts limit skip_gc index_of S ex0 (g, n) rst d c (d_dg d) = ((g', n'), rst, t, RErr EOther) /\
                    store_of g' = store_of g.
  Proof.
    intros M V. unfold man_push.
    destruct (indexable (d_mt d) && negb (rs_supported rst)); [|now apply man_put_bad].
    assert (X : negb (len c =? d_sz d) || negb (str_eqb (H c) (d_dg d)) = true).
    { unfold matches_desc in M. destruct (len c =? d_sz d); cbn [andb negb orb] in *; [now rewrite M|reflexivity]. }
    rewrite X. destruct (limit <? d_sz d); eexists _, _, _; split; reflexivity.
  Qed.

  Lemma hx_referrers g n d :
    ex0 (g, n) (req GET main (EReferrers d))
    = ((g, n + 1), if p_referrers p
                   then mkResp 200 (Some mt_index) None None None false None (referrers_of (subj_of subject_of) g d) []
                   else resp_err 404).
  Proof. unfold cexch, handle, req. proj. rewrite str_eqb_refl. proj. now destruct (p_referrers p). Qed.

  Lemma man_delete_hit g n rst d c :
    inv g -> rst_ok rst -> lookup (d_dg d) (g_mans g) = Some (d_mt d, c) -> len c = d_sz d ->
    valid_digest (d_dg d) = true ->
    exists g' n' rst' t,
      man_delete H parse_mt subject_of main user_mts limit skip_gc index_of S ex0 (g, n) rst d = ((g', n'), rst', t, ROk) /\
      rst_ok rst' /\
      store_of g' = mkStore (g_blobs g) (remove (d_dg d) (g_mans g))
                      (filter (fun t => negb (str_eqb (snd t) (d_dg d))) (g_tags g)) (g_other g).
  Proof.
    intros Hi Hr L Hs V. pose proof Hi as [I _]. destruct (I _ _ _ L) as (Hh & Sj & _ & Hlim).
    assert (Hdel : forall n1, exists g' t,
               delete_req main S ex0 (g, n1) d true = ((g', n1 + 1), t, ROk) /\
               store_of g' = mkStore (g_blobs g) (remove (d_dg d) (g_mans g))
                               (filter (fun t => negb (str_eqb (snd t) (d_dg d))) (g_tags g)) (g_other g)).
    { intro n1. destruct (delete_man_hit g n1 d _ L V) as (g' & t & E & Gb & Gm & Gt & Go).
      exists g', t. split; [exact E|]. unfold store_of. now rewrite Gb, Gm, Gt, Go. }
    unfold man_delete. destruct (indexable_del (d_mt d) && negb (rs_supported rst)) eqn:Ei.
    2: { destruct (Hdel n) as (g' & t2 & E2 & St). rewrite E2. eauto 8. }
    assert (El : (limit <? d_sz d) = false) by (apply N.ltb_ge; rewrite <- Hs; exact Hlim).
    destruct (man_fetch_reg g n d (inv_minv _ Hi) V (acc_man_of _ _ _ L Hs)) as [t1 E1].
    rewrite L in E1. rewrite El, E1, Hs, N.eqb_refl, <- Hh, str_eqb_refl. cbn [negb orb].
    destruct Sj as [Sj|(Pr & s & Sj & Ne)]; rewrite Sj.
    - destruct (Hdel (n + 1)) as (g' & t2 & E2 & St). rewrite E2. eauto 8.
    - (* a stored manifest with a subject: the registry has the API, the ping finds it *)
      apply andb_true_iff in Ei as [_ Ns]. apply negb_true_iff in Ns.
      rewrite (rst_unknown rst Hr Pr Ns). unfold ping_referrers. rewrite hx_referrers, Pr. simp. rewrite str_eqb_refl. cbn [rs_set].
      destruct (Hdel (n + 1 + 1)) as (g' & t2 & E2 & St). rewrite E2.
      eexists _, _, _, _. split; [reflexivity|]. split; [left; discriminate|exact St].
  Qed.

  Lemma man_delete_miss g n rst d :
    minv g -> lookup (d_dg d) (g_mans g) = None -> valid_digest (d_dg d) = true -> d_sz d <= limit ->
    exists n' t, man_delete H parse_mt subject_of main user_mts limit skip_gc index_of S ex0 (g, n) rst d = ((g, n'), rst, t, RErr ENotFound).
  Proof.
    intros I L V Hl. assert (El : (limit <? d_sz d) = false) by (apply N.ltb_ge; exact Hl).
    unfold man_delete. destruct (indexable_del (d_mt d) && negb (rs_supported rst)).
    - destruct (man_fetch_reg g n d I V) as [t1 E1]; [intros mt c L'; cbn in L'; congruence|].
      rewrite L in E1. rewrite El, E1. eauto.
    - destruct (delete_man_miss g n d L V) as [t1 E1]. rewrite E1. eauto.
  Qed.

  Theorem predecessors_reflect g n rst d :
    p_referrers p = true -> rst <> RSUnsupported ->
    predecessors H parse_mt main user_mts limit index_of S ex0 (g, n) rst d
    = ((g, n + 1), RSSupported,
       [(req GET main (EReferrers (d_dg d)),
         mkResp 200 (Some mt_index) None None None false None
                (referrers_of (subj_of subject_of) g (d_dg d)) [])],
       RDescs (referrers_of (subj_of subject_of) g (d_dg d))).
  Proof.
    intros Pr Hr. unfold predecessors.
    destruct rst; try congruence; rewrite hx_referrers, Pr; simp; rewrite str_eqb_refl; reflexivity.
  Qed.

  Notation wf_op := (wf_op H parse_mt subject_of main user_mts limit p).
  Notation wf_hist := (wf_hist H parse_mt subject_of main user_mts limit p).
  Notation spec_op' := (spec_op H subject_of main user_mts).
  Notation run_op' := (run_op H parse_mt subject_of main other user_mts limit skip_gc index_of S ex0).

  Definition refines (x : S * rstate * trace * result) (y : store * result) : Prop :=
    exists g' n' rst' t, x = ((g', n'), rst', t, snd y) /\ rst_ok rst' /\ store_of g' = fst y.

  Lemma refines_intro g' n' rst' t res st :
    rst_ok rst' -> store_of g' = st -> refines ((g', n'), rst', t, res) (st, res).
  Proof. intros Hr St. now exists g', n', rst', t. Qed.

  Section Ops.
    Variables (g : reg) (n : N) (rst : rstate).
    Hypothesis Hi : inv g.
    Hypothesis Hr : rst_ok rst.
    Notation refines_op o := (wf_op (store_of g) o -> refines (run_op' (g, n) rst o) (spec_op' (store_of g) o)).

    Lemma push_refines d c : refines_op (OPush d c).
    Proof.
      intros [V Hm]. cbn [run_op spec_op]. destruct (is_manifest user_mts d).
      - destruct (matches_desc H d c) eqn:M.
        + destruct (matches_desc_true _ _ M) as [Hs Hh]. destruct (Hm eq_refl) as (Sj & Pm & Hl).
          destruct (man_push_reg g n rst d c (d_dg d) (valid_ref_digest _ V) Hs Hh Sj Hr V Hl) as (g' & n' & t & E & St).
          unfold put_manifest in E, St. rewrite V, str_eqb_refl in E, St. rewrite E.
          apply refines_intro; [now apply rst_of_ok|exact St].
        + destruct (man_push_bad g n rst d c M V) as (g' & n' & t & E & St). rewrite E. now apply refines_intro.
      - destruct (blob_push_reg g n d c V) as (g' & n' & t & E & St). rewrite E. cbn [lift].
        revert St. destruct (matches_desc H d c); intro St; now apply refines_intro.
    Qed.

    Lemma fetch_refines d : refines_op (OFetch d).
    Proof.
      intros [V Ha]. cbn [run_op spec_op]. destruct (is_manifest user_mts d).
      - destruct (man_fetch_reg g n d (inv_minv _ Hi) V Ha) as [t E]. rewrite E. cbn [lift].
        change (t_mans (store_of g)) with (g_mans g).
        destruct (lookup (d_dg d) (g_mans g)) as [[mt c]|]; now apply refines_intro.
      - destruct (blob_fetch_reg main (g_blobs g) g n d (hx_get_blob _ _ _) V Ha) as [t E]. rewrite E. cbn [lift].
        change (t_blobs (store_of g)) with (g_blobs g).
        destruct (lookup (d_dg d) (g_blobs g)); now apply refines_intro.
    Qed.

    Lemma exists_refines d : refines_op (OExists d).
    Proof.
      intros V. cbn [run_op spec_op wf_op] in *. pose proof (resolve_ref_digest main _ V) as ER.
      destruct (is_manifest user_mts d).
      - destruct (man_resolve_reg g n _ _ (inv_minv _ Hi) ER (or_intror V)) as [t E].
        rewrite E, (man_lookup_digest g _ V). change (t_mans (store_of g)) with (g_mans g).
        destruct (lookup (d_dg d) (g_mans g)) as [[mt c]|]; now apply refines_intro.
      - destruct (blob_resolve_reg g n _ _ ER V) as [t E]. rewrite E.
        change (t_blobs (store_of g)) with (g_blobs g).
        destruct (lookup (d_dg d) (g_blobs g)); now apply refines_intro.
    Qed.

    Lemma delete_refines d : refines_op (ODelete d).
    Proof.
      intros [V Ha]. cbn [run_op spec_op]. destruct (is_manifest user_mts d).
      - destruct Ha as [Ha Hl]. change (t_mans (store_of g)) with (g_mans g) in *.
        destruct (lookup (d_dg d) (g_mans g)) as [[mt c]|] eqn:L.
        + destruct (Ha _ _ L) as [-> Hs].
          destruct (man_delete_hit g n rst d c Hi Hr L Hs V) as (g' & n' & rst' & t & E & Hr' & St).
          rewrite E. now apply refines_intro.
        + destruct (man_delete_miss g n rst d (inv_minv _ Hi) L V Hl) as (n' & t & E). rewrite E.
          now apply refines_intro.
      - unfold delete_req, cexch, handle, req. proj. rewrite str_eqb_refl. proj.
        change (t_blobs (store_of g)) with (g_blobs g).
        destruct (lookup (d_dg d) (g_blobs g)); simp; rewrite ?vd_opt by exact V; now apply refines_intro.
    Qed.

    Lemma resolve_refines rs : refines_op (OResolve rs).
    Proof.
      intros Hw. cbn [run_op spec_op wf_op] in *. destruct (resolve_ref main rs) as [rf|] eqn:ER.
      - destruct (man_resolve_reg g n rs rf (inv_minv _ Hi) ER (Hw _ eq_refl)) as [t E]. rewrite E. cbn [lift].
        destruct (man_lookup (store_of g) rf) as [[dg [mt c]]|]; now apply refines_intro.
      - unfold man_resolve. rewrite ER. now apply refines_intro.
    Qed.

    Lemma fetchref_refines rs : refines_op (OFetchRef rs).
    Proof.
      intros Hw. cbn [run_op spec_op wf_op] in *. destruct (resolve_ref main rs) as [rf|] eqn:ER.
      - destruct (man_fetchref_reg g n rs rf (inv_minv _ Hi) ER (Hw _ eq_refl)) as (n' & t & E). rewrite E. cbn [lift].
        destruct (man_lookup (store_of g) rf) as [[dg [mt c]]|]; now apply refines_intro.
      - unfold man_fetchref. rewrite ER. now apply refines_intro.
    Qed.

    Lemma tag_refines d rs : refines_op (OTag d rs).
    Proof.
      intros [V Ha]. cbn [run_op spec_op]. unfold man_tag.
      destruct (resolve_ref main rs) as [rf|] eqn:ER; [|now apply refines_intro].
      destruct (man_fetch_reg g n d (inv_minv _ Hi) V Ha) as [t1 E1]. rewrite E1.
      change (t_mans (store_of g)) with (g_mans g).
      destruct (lookup (d_dg d) (g_mans g)) as [[mt c]|] eqn:L; [|now apply refines_intro].
      destruct (Ha _ _ L) as [-> Hs]. destruct Hi as [I _]. destruct (I _ _ _ L) as (Hh & _).
      destruct (man_put_reg g (n + 1) rst d c false rf (resolve_ref_valid _ _ _ ER) Hs (eq_sym Hh) V)
        as (g' & n' & t2 & E2 & St).
      rewrite E2. rewrite (surjective_pairing (put_manifest _ _ _ _ _)) at 3.
      apply refines_intro; [now apply rst_of_ok|exact St].
    Qed.

    Lemma pushref_refines d c rs : refines_op (OPushRef d c rs).
    Proof.
      intros (V & M & Sj & Pm & Hl). cbn [run_op spec_op]. rewrite M. destruct (matches_desc_true _ _ M) as [Hs Hh].
      destruct (resolve_ref main rs) as [rf|] eqn:ER; [|now apply refines_intro].
      destruct (man_push_reg g n rst d c rf (resolve_ref_valid _ _ _ ER) Hs Hh Sj Hr V Hl) as (g' & n' & t & E & St).
      rewrite E. rewrite (surjective_pairing (put_manifest _ _ _ _ _)) at 3.
      apply refines_intro; [now apply rst_of_ok|exact St].
    Qed.

    Lemma mount_refines d getc : refines_op (OMount d getc).
    Proof.
      intros Hw. cbn [run_op spec_op]. change (t_other (store_of g)) with (g_other g) in *.
      destruct getc as [c|]; [destruct Hw as (V & M & Hsame)|destruct Hw as (V & Ha)].
      - destruct (blob_mount_reg g n d (Some c) c (conj eq_refl Hsame) M V) as (g' & n' & t & E & St).
        rewrite E. now apply refines_intro.
      - destruct (lookup (d_dg d) (g_other g)) as [c|] eqn:L.
        + assert (M : matches_desc H d c = true).
          { unfold matches_desc. destruct Hi as [_ Io]. rewrite (Ha _ L), <- (Io _ _ L), N.eqb_refl. apply str_eqb_refl. }
          destruct (blob_mount_reg g n d None c L M V) as (g' & n' & t & E & St). rewrite E. now apply refines_intro.
        + destruct (blob_mount_miss g n d L V) as (g' & n' & t & E & St). rewrite E. now apply refines_intro.
    Qed.

    Lemma preds_refines d : refines_op (OPreds d).
    Proof.
      intros Hw. cbn [run_op spec_op wf_op] in *.
      assert (Hn : rst <> RSUnsupported) by (destruct Hr as [X|X]; [exact X|congruence]).
      rewrite (predecessors_reflect g n rst d Hw Hn). apply refines_intro; [left; discriminate|reflexivity].
    Qed.

    Lemma blob_resolve_refines rs : refines_op (OBlobResolve rs).
    Proof.
      intros _. cbn [run_op spec_op]. destruct (resolve_ref main rs) as [rf|] eqn:ER.
      - destruct (valid_digest rf) eqn:V.
        + destruct (blob_resolve_reg g n rs rf ER V) as [t E]. rewrite E. cbn [lift].
          change (t_blobs (store_of g)) with (g_blobs g). destruct (lookup rf (g_blobs g)); now apply refines_intro.
        + unfold blob_resolve. rewrite ER, V. now apply refines_intro.
      - unfold blob_resolve. rewrite ER. now apply refines_intro.
    Qed.

    Lemma blob_fetchref_refines rs : refines_op (OBlobFetchRef rs).
    Proof.
      intros _. cbn [run_op spec_op]. destruct (resolve_ref main rs) as [rf|] eqn:ER.
      - destruct (valid_digest rf) eqn:V.
        + destruct (blob_fetchref_reg g n rs rf ER V) as (n' & t & E). rewrite E. cbn [lift].
          change (t_blobs (store_of g)) with (g_blobs g). destruct (lookup rf (g_blobs g)); now apply refines_intro.
        + unfold blob_fetchref. rewrite ER, V. now apply refines_intro.
      - unfold blob_fetchref. rewrite ER. now apply refines_intro.
    Qed.

    Lemma run_op_refines o : refines_op o.
    Proof.
      destruct o; [apply push_refines|apply fetch_refines|apply exists_refines|apply delete_refines
                  |apply resolve_refines|apply fetchref_refines|apply tag_refines|apply pushref_refines
                  |apply mount_refines|apply preds_refines|apply blob_resolve_refines|apply blob_fetchref_refines].
    Qed.
  End Ops.

  Lemma sinv_insert_man st dg mt c tags :
    sinv st -> dg = H c -> sub_ok c -> parse_mt mt = Some mt -> len c <= limit ->
    sinv (mkStore (t_blobs st) (insert dg (mt, c) (t_mans st)) tags (t_other st)).
  Proof.
    intros [I Io] Hd Sj Pm Hl. split; proj; [|exact Io].
    intros d' mt' c' L. rewrite lookup_insert in L. destruct (str_eqb d' dg) eqn:E; [|eauto].
    apply str_eqb_spec in E. injection L as <- <-. subst d'. auto.
  Qed.

  Lemma sinv_blobs st x : sinv st -> sinv (with_blobs st x).
  Proof. intros [I Io]. split; assumption. Qed.

  Lemma put_manifest_sinv st dg mt c rf :
    sinv st -> dg = H c -> sub_ok c -> parse_mt mt = Some mt -> len c <= limit ->
    sinv (fst (put_manifest st dg mt c rf)).
  Proof.
    intros Hi Hd Sj Pm Hl. unfold put_manifest.
    destruct (valid_digest rf); [destruct (str_eqb rf dg)|]; cbn [fst]; auto;
      apply sinv_insert_man; auto.
  Qed.

  Lemma spec_op_sinv st o : sinv st -> wf_op st o -> sinv (fst (spec_op' st o)).
  Proof.
    intros Hi Hw. pose proof Hi as [I Io].
    destruct o as [d c|d|d|d|rs|rs|d rs|d c rs|d getc|d|rs|rs]; cbn [spec_op wf_op] in *.
    - destruct Hw as [V Hm]. destruct (matches_desc H d c) eqn:M; [|exact Hi].
      destruct (matches_desc_true _ _ M) as [Hs Hh].
      destruct (is_manifest user_mts d); cbn [fst]; [|now apply sinv_blobs].
      destruct (Hm eq_refl) as (Sj & Pm & Hl). apply sinv_insert_man; auto.
    - destruct (is_manifest user_mts d).
      + destruct (lookup (d_dg d) (t_mans st)) as [[? ?]|]; exact Hi.
      + destruct (lookup (d_dg d) (t_blobs st)); exact Hi.
    - exact Hi.
    - destruct (is_manifest user_mts d).
      + destruct (lookup (d_dg d) (t_mans st)); [|exact Hi]. cbn [fst]. split; proj; [|exact Io].
        intros d' mt' c' L. rewrite lookup_remove in L. destruct (str_eqb d' (d_dg d)); [discriminate|eauto].
      + destruct (lookup (d_dg d) (t_blobs st)); [|exact Hi]. cbn [fst]. now apply sinv_blobs.
    - destruct (resolve_ref main rs); [|exact Hi]. destruct (man_lookup st s) as [[? [? ?]]|]; exact Hi.
    - destruct (resolve_ref main rs); [|exact Hi]. destruct (man_lookup st s) as [[? [? ?]]|]; exact Hi.
    - destruct (resolve_ref main rs); [|exact Hi].
      destruct (lookup (d_dg d) (t_mans st)) as [[mt c]|] eqn:L; [|exact Hi].
      destruct (I _ _ _ L) as (Hd & Sj & Pm & Hlim). apply put_manifest_sinv; auto.
    - destruct Hw as (V & M & Sj & Pm & Hl). rewrite M. destruct (matches_desc_true _ _ M) as [Hs Hh].
      destruct (resolve_ref main rs); [|exact Hi]. apply put_manifest_sinv; auto.
    - destruct getc as [c|]; [cbn [fst]; now apply sinv_blobs|].
      destruct (lookup (d_dg d) (t_other st)); [cbn [fst]; now apply sinv_blobs|exact Hi].
    - exact Hi.
    - destruct (resolve_ref main rs); [|exact Hi]. destruct (valid_digest s); [|exact Hi].
      destruct (lookup s (t_blobs st)); exact Hi.
    - destruct (resolve_ref main rs); [|exact Hi]. destruct (valid_digest s); [|exact Hi].
      destruct (lookup s (t_blobs st)); exact Hi.
  Qed.

  Notation run_ops' := (run_ops H parse_mt subject_of main other user_mts limit skip_gc index_of S ex0).
  Notation spec_run' := (spec_run H subject_of main user_mts).

  Lemma run_ops_refines os : forall g n rst,
    inv g -> rst_ok rst -> wf_hist (store_of g) os ->
    exists g' n' rst' out,
      run_ops' (g, n) rst os = ((g', n'), rst', out) /\
      map snd out = snd (spec_run' (store_of g) os) /\
      store_of g' = fst (spec_run' (store_of g) os).
  Proof.
    induction os as [|o os IH]; intros g n rst Hi Hr Hw.
    - exists g, n, rst, []. repeat split.
    - destruct Hw as [Hw Hrest]. cbn [run_ops spec_run].
      destruct (run_op_refines g n rst Hi Hr o Hw) as (g1 & n1 & rst1 & t & E & Hr1 & St). rewrite E.
      assert (Hi1 : inv g1) by (unfold inv; rewrite St; now apply spec_op_sinv).
      rewrite <- St in Hrest.
      destruct (IH g1 n1 rst1 Hi1 Hr1 Hrest) as (g2 & n2 & rst2 & out & E2 & Ro & St2). rewrite E2.
      destruct (spec_op' (store_of g) o) as [st1 r1] eqn:Es. cbn [fst snd] in *.
      rewrite St in *. destruct (spec_run' st1 os) as [st2 rs] eqn:Er. cbn [fst snd] in *.
      eexists _, _, _, _. split; [reflexivity|]. cbn [map snd fst]. split; [now rewrite Ro|exact St2].
  Qed.

  Theorem run_history_refines other_blobs rst os g out :
    (forall d c, lookup d other_blobs = Some c -> d = H c) ->
    rst_ok rst ->
    wf_hist (mkStore [] [] [] other_blobs) os ->
    run_history H parse_mt subject_of main other user_mts limit skip_gc index_of p None other_blobs rst os = (g, out) ->
    map snd out = snd (spec_run' (mkStore [] [] [] other_blobs) os) /\
    store_of g = fst (spec_run' (mkStore [] [] [] other_blobs) os).
  Proof.
    intros Ho Hr Hw. unfold run_history.
    assert (Hi : inv (reg0 other_blobs)).
    { split; proj; [intros d mt c L; discriminate L|exact Ho]. }
    destruct (run_ops_refines os (reg0 other_blobs) 0 rst Hi Hr Hw) as (g' & n' & rst' & out' & E & Ro & St).
    rewrite E. intro X. injection X as <- <-. auto.
  Qed.

  (* The referrers tag schema: an indexed referrer is found again.  Registry without the Referrers
     API (or a client told so).  The referrers tag of [subj] is absent or points to an index the
     client wrote before (gen_index l).  After updateReferrersIndex(subj, add r) -- what Push of a
     manifest with that subject does -- Predecessors over the tag schema lists the old referrers
     and r.  Hypotheses: JSON round trip of an index, a registry the tag can be resolved against
     (Docker-Content-Digest or Content-Length present: the known finding otherwise), no digest
     collision between the old and the new index, the new index within MaxMetadataBytes. *)
  (* JSON decoding of an index is the parameter index_of; the theorems ask it to invert gen_index on
     the PARTICULAR indexes they read (a hypothesis for all lists would be unsatisfiable: gen_index
     does not escape, so it is not injective on descriptors whose strings contain quotes) *)
  Definition json_ok (l : list desc) : Prop := index_of (gen_index l) = Some l.
  Definition json_ok_st (st : option (str * list desc)) : Prop :=
    match st with Some (_, l) => json_ok l | None => True end.
  Hypothesis Hidx_subj : forall l, subject_of (gen_index l) = Some None.
  Hypothesis Hidx_mt : parse_mt mt_index = Some mt_index.

  Definition ix_list (st : option (str * list desc)) : list desc :=
    match st with Some (_, l) => l | None => [] end.
  Definition ix_post (upd : list desc) : option (str * list desc) :=
    if is_nil upd && negb skip_gc then None else Some (H (gen_index upd), upd).

  Lemma json_ok_post upd : json_ok upd -> json_ok_st (ix_post upd).
  Proof. intro Hj. unfold ix_post. now destruct (is_nil upd && negb skip_gc). Qed.

  Lemma clean_ix_post upd : clean_refs [] (ix_list (ix_post upd)) = clean_refs [] upd.
  Proof. unfold ix_post. destruct upd; [destruct skip_gc|]; reflexivity. Qed.

  (* referrersFromIndex reads what the referrers tag points to *)
  Lemma rfi_reg g n tag st :
    minv g -> resolve_ref main tag = Some tag -> valid_digest tag = false ->
    (p_clen p = true \/ p_dighdr p = true) -> index_state g tag st -> json_ok_st st ->
    exists n' t, referrers_from_index H parse_mt main user_mts limit index_of S ex0 (g, n) tag
                 = ((g, n'), t, match st with Some _ => ROk | None => RErr ENotFound end,
                    match st with
                    | Some (od, l) => Some (mkDesc mt_index od (len (gen_index l)), l)
                    | None => None
                    end).
  Proof.
    intros Hi ER Vt Hp Hst Hj.
    destruct (man_fetchref_reg g n tag tag Hi ER) as (n' & t & E); [tauto|].
    unfold referrers_from_index. rewrite E. unfold man_lookup. rewrite Vt.
    change (t_tags (store_of g)) with (g_tags g). change (t_mans (store_of g)) with (g_mans g).
    destruct st as [[od l]|]; cbn [index_state] in Hst; [|rewrite Hst; eauto].
    destruct Hst as [Lt Lm]. rewrite Lt, Lm. destruct (Hi _ _ _ Lm) as (Hd & _ & Hlim). cbn [d_sz d_dg].
    assert (El : (limit <? len (gen_index l)) = false) by (apply N.ltb_ge; exact Hlim).
    rewrite El, N.eqb_refl, <- Hd, str_eqb_refl, andb_false_r, Hj. eauto.
  Qed.

  Lemma rfi_on_index g n tag od l :
    inv g -> resolve_ref main tag = Some tag -> valid_digest tag = false ->
    index_state g tag (Some (od, l)) -> (p_clen p = true \/ p_dighdr p = true) -> json_ok l ->
    exists n' t, referrers_from_index H parse_mt main user_mts limit index_of S ex0 (g, n) tag
                 = ((g, n'), t, ROk, Some (mkDesc mt_index od (len (gen_index l)), l)).
  Proof.
    intros Hi ER Vt Hst Hp Hj. exact (rfi_reg g n tag (Some (od, l)) (inv_minv _ Hi) ER Vt Hp Hst Hj).
  Qed.

  (* what an index update does to the registry: manifests only go away, except for the new index [j];
     every other manifest but the old index stays as it is *)
  Definition ts_step (g g' : reg) (j : str) (old : option (str * list desc)) : Prop :=
    (forall d mt c, lookup d (g_mans g') = Some (mt, c) ->
        lookup d (g_mans g) = Some (mt, c) \/ (d = H j /\ mt = mt_index /\ c = j)) /\
    g_other g' = g_other g /\
    (forall k, k <> H j -> (forall od l0, old = Some (od, l0) -> k <> od) ->
               lookup k (g_mans g') = lookup k (g_mans g)).

  Lemma ts_step_refl g j old : ts_step g g j old.
  Proof. repeat split; auto. Qed.

  Lemma ts_step_put g g2 j old :
    g_mans g2 = insert (H j) (mt_index, j) (g_mans g) -> g_other g2 = g_other g -> ts_step g g2 j old.
  Proof.
    intros Gm Go. split; [|split; [exact Go|]].
    - intros d mt c L. rewrite Gm, lookup_insert in L. destruct (str_eqb d (H j)) eqn:E; [right|now left].
      apply str_eqb_spec in E. injection L as <- <-. auto.
    - intros k K _. now rewrite Gm, lookup_insert, (str_eqb_neq _ _ K).
  Qed.

  Lemma ts_step_delete g g2 g3 j od l0 :
    ts_step g g2 j (Some (od, l0)) -> g_mans g3 = remove od (g_mans g2) -> g_other g3 = g_other g2 ->
    ts_step g g3 j (Some (od, l0)).
  Proof.
    intros (A & B & C) Gm Go. split; [|split; [congruence|]].
    - intros d mt c L. rewrite Gm, lookup_remove in L. destruct (str_eqb d od); [discriminate|auto].
    - intros k K1 K2. rewrite Gm, lookup_remove, (str_eqb_neq k od) by (eapply K2; eauto). now apply C.
  Qed.

  Lemma ts_step_minv g g' j old : minv g -> len j <= limit -> ts_step g g' j old -> minv g'.
  Proof.
    intros I Hl [A _] d mt c L. destruct (A _ _ _ L) as [L0|(-> & -> & ->)]; [eauto|]. auto.
  Qed.

  Lemma ts_step_inv g g' l old : inv g -> len (gen_index l) <= limit -> ts_step g g' (gen_index l) old -> inv g'.
  Proof.
    intros [I Io] Hl (A & B & _). split.
    - intros d mt c L. change (t_mans (store_of g')) with (g_mans g') in L.
      destruct (A _ _ _ L) as [L0|(-> & -> & ->)]; [exact (I _ _ _ L0)|].
      repeat split; auto. left. apply Hidx_subj.
    - change (t_other (store_of g')) with (g_other g'). rewrite B. exact Io.
  Qed.

  Lemma index_put g n rst tag upd :
    valid_ref tag = true -> valid_digest tag = false ->
    let j := gen_index upd in
    exists g2 n2 t2,
      man_put main S ex0 (g, n) rst (mkDesc mt_index (H j) (len j)) j true tag = ((g2, n2), rst, t2, ROk) /\
      g_mans g2 = insert (H j) (mt_index, j) (g_mans g) /\ g_tags g2 = insert tag (H j) (g_tags g) /\
      g_other g2 = g_other g.
  Proof.
    intros Vr Vt j.
    destruct (man_put_reg g n rst (mkDesc mt_index (H j) (len j)) j true tag Vr eq_refl eq_refl (Hvalid j))
      as (g2 & n2 & t2 & E & St).
    cbn [d_dg d_mt] in E, St. unfold put_manifest in E, St. rewrite Vt in E, St. cbn [fst snd rst_of] in E, St.
    rewrite rst_put_same in E by (right; apply Hidx_subj). apply store_of_fields in St as (_ & Gm & Gt & Go). eauto 8.
  Qed.

  Section Subject.
    Variable subj : desc.
    Notation tag := (ref_tag (d_dg subj)).
    Hypothesis Vs : valid_digest (d_dg subj) = true.
    Hypothesis ER : resolve_ref main tag = Some tag.
    Hypothesis Vt : valid_digest tag = false.
    Hypothesis Hp : p_clen p = true \/ p_dighdr p = true.

    Lemma tag_schema_read g n st :
      minv g -> index_state g tag st -> json_ok_st st ->
      exists n' t, tag_schema_referrers H parse_mt main user_mts limit index_of S ex0 (g, n) subj
                   = ((g, n'), t, RDescs (clean_refs [] (ix_list st))).
    Proof.
      intros Hi Hst Hj. unfold tag_schema_referrers. rewrite Vs. cbn [negb].
      destruct (rfi_reg g n tag st Hi ER Vt Hp Hst Hj) as (n' & t & E). rewrite E.
      destruct st as [[od l]|]; eauto.
    Qed.

    (* the general step: whatever the change, if applyReferrerChanges yields [upd] the referrers
       tag afterwards points to an index listing [upd] (or is gone with the last referrer) *)
    Lemma tag_schema_update_m g n rst old ch upd :
      minv g -> index_state g tag old -> json_ok_st old -> NoDup (map fst (g_tags g)) ->
      apply_change (ix_list old) (Some ch) = Some upd ->
      len (gen_index upd) <= limit ->
      (skip_gc = true \/ forall od l0, old = Some (od, l0) -> od <> H (gen_index upd)) ->
      exists g' n' t,
        update_referrers_index H parse_mt main user_mts limit skip_gc index_of S ex0 (g, n) rst subj ch
        = ((g', n'), rst, t, ROk) /\
        ts_step g g' (gen_index upd) old /\ index_state g' tag (ix_post upd) /\ NoDup (map fst (g_tags g')).
    Proof.
      intros Hi Hst Hjo Hu Hch Hlim Hcol. set (j := gen_index upd).
      destruct (rfi_reg g n tag old Hi ER Vt Hp Hst Hjo) as (n1 & t1 & E1).
      destruct (index_put g n1 rst tag upd (resolve_ref_valid _ _ _ ER) Vt) as (g2 & n2 & t2 & E2 & Gm2 & Gt2 & Go2).
      fold j in E2, Gm2, Gt2.
      pose proof (ts_step_put g g2 j old Gm2 Go2) as S2.
      assert (I2 : index_state g2 tag (Some (H j, upd)))
        by (split; [rewrite Gt2|rewrite Gm2]; now rewrite lookup_insert, str_eqb_refl).
      assert (U2 : NoDup (map fst (g_tags g2))) by (rewrite Gt2; now apply NoDup_fst_insert).
      unfold update_referrers_index. rewrite Vs. cbn [negb]. rewrite E1.
      destruct old as [[od l0]|]; cbn [ix_list] in Hch; rewrite Hch; fold j; unfold ix_post; fold j.
      - destruct Hst as [Lt Lm]. destruct (Hi _ _ _ Lm) as (Hod & _).
        assert (Vod : valid_digest od = true) by (rewrite Hod; apply Hvalid).
        set (dold := mkDesc mt_index od (len (gen_index l0))).
        destruct (negb (is_nil upd) || skip_gc) eqn:Epush.
        + rewrite E2. destruct skip_gc eqn:Eg; [rewrite andb_false_r; eauto 10|].
          destruct Hcol as [X|Hcol]; [discriminate|]. specialize (Hcol od l0 eq_refl).
          assert (Hne : str_eqb (H j) od = false) by (apply str_eqb_neq; intro X; now apply Hcol).
          rewrite orb_false_r in Epush. apply negb_true_iff in Epush. rewrite Epush. cbn [andb].
          destruct (delete_man_hit g2 n2 dold (mt_index, gen_index l0)) as (g3 & t3 & E3 & _ & Gm3 & Gt3 & Go3);
            [cbn [dold d_dg]; now rewrite Gm2, lookup_insert, (str_eqb_neq od (H j)) by exact Hcol|exact Vod|].
          cbn [dold d_dg] in Gm3, Gt3. rewrite E3. destruct I2 as [Lt2 Lm2].
          exists g3, (n2 + 1), (t1 ++ t2 ++ t3). split; [reflexivity|].
          split; [exact (ts_step_delete _ _ _ _ _ _ S2 Gm3 Go3)|]. split; [split|].
          * rewrite Gt3, lookup_filter, Lt2 by exact U2. cbn [snd]. now rewrite Hne.
          * now rewrite Gm3, lookup_remove, Hne.
          * rewrite Gt3. now apply NoDup_fst_filter.
        + (* nothing left and the old index is garbage-collected: only the delete *)
          apply orb_false_iff in Epush as [En Eg]. rewrite Eg. apply negb_false_iff in En. rewrite En. cbn [negb andb].
          destruct (delete_man_hit g n1 dold _ Lm Vod) as (g3 & t3 & E3 & _ & Gm3 & Gt3 & Go3).
          cbn [dold d_dg] in Gm3, Gt3. rewrite E3.
          exists g3, (n1 + 1), (t1 ++ [] ++ t3). split; [reflexivity|].
          split; [exact (ts_step_delete _ _ _ _ _ _ (ts_step_refl g j _) Gm3 Go3)|]. split.
          * cbn [index_state]. rewrite Gt3, lookup_filter, Lt by exact Hu. cbn [snd]. now rewrite str_eqb_refl.
          * rewrite Gt3. now apply NoDup_fst_filter.
      - destruct (negb (is_nil upd) || skip_gc) eqn:Epush.
        + rewrite E2.
          assert ((is_nil upd && negb skip_gc) = false) as -> by (destruct (is_nil upd), skip_gc; auto).
          eauto 10.
        + apply orb_false_iff in Epush as [En Eg]. apply negb_false_iff in En. rewrite En, Eg. cbn [negb andb].
          exists g, n1, (t1 ++ []). split; [reflexivity|]. split; [apply ts_step_refl|]. split; [exact Hst|exact Hu].
    Qed.

    Lemma tag_schema_update g n rst old ch upd :
      inv g -> index_state g tag old -> json_ok_st old -> json_ok upd -> NoDup (map fst (g_tags g)) ->
      apply_change (ix_list old) (Some ch) = Some upd ->
      len (gen_index upd) <= limit ->
      (skip_gc = true \/ forall od l0, old = Some (od, l0) -> od <> H (gen_index upd)) ->
      exists g' n' t,
        update_referrers_index H parse_mt main user_mts limit skip_gc index_of S ex0 (g, n) rst subj ch
        = ((g', n'), rst, t, ROk) /\
        inv g' /\
        exists n'' t', tag_schema_referrers H parse_mt main user_mts limit index_of S ex0 (g', n') subj
                       = ((g', n''), t', RDescs (clean_refs [] upd)).
    Proof.
      intros Hi Hst Hjo Hju Hu Hch Hlim Hcol.
      destruct (tag_schema_update_m g n rst old ch upd (inv_minv _ Hi) Hst Hjo Hu Hch Hlim Hcol)
        as (g' & n' & t & E & St & Ist & _).
      exists g', n', t. split; [exact E|]. split; [eapply ts_step_inv; eauto|].
      rewrite <- clean_ix_post.
      exact (tag_schema_read g' n' _ (ts_step_minv _ _ _ _ (inv_minv _ Hi) Hlim St) Ist (json_ok_post _ Hju)).
    Qed.

    (* Predecessors against a registry without the API: the API request is answered 404, the client
       falls back to the tag schema (and remembers); the registry is left as it is *)
    Lemma preds_noapi g n rst st :
      minv g -> p_referrers p = false -> rst <> RSSupported ->
      index_state g tag st -> json_ok_st st ->
      exists n' t, run_op' (g, n) rst (OPreds subj)
                   = ((g, n'), RSUnsupported, t, RDescs (clean_refs [] (ix_list st))).
    Proof.
      intros Hi Pr Hrs Hst Hj. cbn [run_op]. unfold predecessors.
      destruct rst; [|congruence|].
      - rewrite hx_referrers, Pr.
        destruct (tag_schema_read g (n + 1) st Hi Hst Hj) as (n' & t & R).
        simp. rewrite nil_not_name_unknown.
        rewrite R. cbn [rs_set]. eauto.
      - destruct (tag_schema_read g n st Hi Hst Hj) as (n' & t & R). rewrite R. cbn [lift]. eauto.
    Qed.
  End Subject.

  Fixpoint run_changes (s : S) (rst : rstate) (subj : desc) (chs : list rchange) : S * list result :=
    match chs with
    | [] => (s, [])
    | ch :: r =>
        let '(s1, rst1, _, res) :=
          update_referrers_index H parse_mt main user_mts limit skip_gc index_of S ex0 s rst subj ch in
        let '(s2, rs) := run_changes s1 rst1 subj r in (s2, res :: rs)
    end.

  Fixpoint spec_changes (st : option (str * list desc)) (chs : list rchange) : option (str * list desc) :=
    match chs with
    | [] => st
    | ch :: r => match apply_change (ix_list st) (Some ch) with
                 | Some upd => spec_changes (ix_post upd) r
                 | None => spec_changes st r
                 end
    end.
  (* side conditions, per step: the change is effective, the index read decodes, the new index fits
     the limit and does not collide with the old one *)
  Fixpoint changes_ok (st : option (str * list desc)) (chs : list rchange) : Prop :=
    match chs with
    | [] => True
    | ch :: r => exists upd, apply_change (ix_list st) (Some ch) = Some upd /\
                 json_ok_st st /\ len (gen_index upd) <= limit /\
                 (skip_gc = true \/ forall od l0, st = Some (od, l0) -> od <> H (gen_index upd)) /\
                 changes_ok (ix_post upd) r
    end.

  Theorem tag_schema_changes rst subj chs : forall g n st,
    minv g -> rst_ok rst ->
    valid_digest (d_dg subj) = true ->
    let tag := ref_tag (d_dg subj) in
    resolve_ref main tag = Some tag -> valid_digest tag = false ->
    (p_clen p = true \/ p_dighdr p = true) ->
    index_state g tag st -> NoDup (map fst (g_tags g)) ->
    changes_ok st chs ->
    exists g' n',
      run_changes (g, n) rst subj chs = ((g', n'), map (fun _ => ROk) chs) /\
      minv g' /\ index_state g' tag (spec_changes st chs) /\ NoDup (map fst (g_tags g')) /\
      (json_ok_st (spec_changes st chs) ->
       exists n'' t', tag_schema_referrers H parse_mt main user_mts limit index_of S ex0 (g', n') subj
                      = ((g', n''), t', RDescs (clean_refs [] (ix_list (spec_changes st chs))))).
  Proof.
    induction chs as [|ch chs IH]; intros g n st Hi Hr Vs tag ER Vt Hp Hst Hu Hok.
    - exists g, n. cbn [run_changes map spec_changes].
      split; [reflexivity|]. split; [exact Hi|]. split; [exact Hst|]. split; [exact Hu|].
      exact (tag_schema_read subj Vs ER Vt Hp g n st Hi Hst).
    - destruct Hok as (upd & Hch & Hjo & Hlim & Hcol & Hrest).
      destruct (tag_schema_update_m subj Vs ER Vt Hp g n rst st ch upd Hi Hst Hjo Hu Hch Hlim Hcol)
        as (g1 & n1 & t1 & E1 & St1 & Ist1 & Hu1).
      destruct (IH g1 n1 (ix_post upd) (ts_step_minv _ _ _ _ Hi Hlim St1) Hr Vs ER Vt Hp Ist1 Hu1 Hrest)
        as (g' & n' & E & R).
      exists g', n'. cbn [run_changes map spec_changes]. rewrite E1, E, Hch. split; [reflexivity|exact R].
  Qed.

  (* Push of a manifest with subject [subj]: referrer r is added *)
  Theorem tag_schema_add_then_listed g n rst subj old r :
    inv g -> rst_ok rst ->
    valid_digest (d_dg subj) = true ->
    let tag := ref_tag (d_dg subj) in
    resolve_ref main tag = Some tag -> valid_digest tag = false ->
    (p_clen p = true \/ p_dighdr p = true) ->
    index_state g tag old -> json_ok_st old -> NoDup (map fst (g_tags g)) ->
    let l := match old with Some (_, l) => l | None => [] end in
    let upd := clean_refs [] l ++ [r] in
    existsb (desc_eqb r) (clean_refs [] l) = false ->
    len (gen_index upd) <= limit -> json_ok upd ->
    (skip_gc = true \/ forall od l0, old = Some (od, l0) -> od <> H (gen_index upd)) ->
    exists g' n' t,
      update_referrers_index H parse_mt main user_mts limit skip_gc index_of S ex0 (g, n) rst subj (RAdd r)
      = ((g', n'), rst, t, ROk) /\
      inv g' /\
      exists n'' t', tag_schema_referrers H parse_mt main user_mts limit index_of S ex0 (g', n') subj
                     = ((g', n''), t', RDescs (clean_refs [] upd)).
  Proof.
    intros Hi Hr Vs tag ER Vt Hp Hst Hjo Hu l upd Hnew Hlim Hju Hcol.
    apply (tag_schema_update subj Vs ER Vt Hp g n rst old (RAdd r) upd); auto.
    change (ix_list old) with l. unfold apply_change. now rewrite Hnew.
  Qed.

  (* Delete of a manifest with subject [subj]: referrer r is removed; when nothing is left the
     index and the tag go away (unless SkipReferrersGC keeps an empty index) *)
  Theorem tag_schema_remove_then_absent g n rst subj od l r :
    inv g -> rst_ok rst ->
    valid_digest (d_dg subj) = true ->
    let tag := ref_tag (d_dg subj) in
    resolve_ref main tag = Some tag -> valid_digest tag = false ->
    (p_clen p = true \/ p_dighdr p = true) ->
    index_state g tag (Some (od, l)) -> json_ok l -> NoDup (map fst (g_tags g)) ->
    let upd := filter (fun x => negb (desc_eqb r x)) (clean_refs [] l) in
    existsb (desc_eqb r) (clean_refs [] l) = true ->
    len (gen_index upd) <= limit -> json_ok upd ->
    (skip_gc = true \/ od <> H (gen_index upd)) ->
    exists g' n' t,
      update_referrers_index H parse_mt main user_mts limit skip_gc index_of S ex0 (g, n) rst subj (RRemove r)
      = ((g', n'), rst, t, ROk) /\
      inv g' /\
      exists n'' t', tag_schema_referrers H parse_mt main user_mts limit index_of S ex0 (g', n') subj
                     = ((g', n''), t', RDescs (clean_refs [] upd)).
  Proof.
    intros Hi Hr Vs tag ER Vt Hp Hst Hjo Hu upd Hin Hlim Hju Hcol.
    apply (tag_schema_update subj Vs ER Vt Hp g n rst (Some (od, l)) (RRemove r) upd); auto.
    - cbn [ix_list]. unfold apply_change. now rewrite Hin.
    - destruct Hcol as [X|X]; [now left|right]. intros od' l' Y. injection Y as <- <-. exact X.
  Qed.

  Theorem push_subject_then_predecessors g n rst d c sj old :
    minv g -> p_referrers p = false -> rst <> RSSupported ->
    is_manifest user_mts d = true -> indexable (d_mt d) = true ->
    len c = d_sz d -> H c = d_dg d -> valid_digest (d_dg d) = true ->
    parse_mt (d_mt d) = Some (d_mt d) -> len c <= limit ->
    subject_of c = Some (Some sj) -> valid_digest (d_dg sj) = true ->
    let tag := ref_tag (d_dg sj) in
    resolve_ref main tag = Some tag -> valid_digest tag = false ->
    (p_clen p = true \/ p_dighdr p = true) ->
    index_state g tag old -> json_ok_st old -> NoDup (map fst (g_tags g)) ->
    (forall od l0, old = Some (od, l0) -> od <> d_dg d) ->
    let l := match old with Some (_, l) => l | None => [] end in
    let upd := clean_refs [] l ++ [d] in
    existsb (desc_eqb d) (clean_refs [] l) = false ->
    len (gen_index upd) <= limit -> json_ok upd ->
    (skip_gc = true \/ forall od l0, old = Some (od, l0) -> od <> H (gen_index upd)) ->
    exists g' n' t,
      run_op' (g, n) rst (OPush d c) = ((g', n'), RSUnsupported, t, ROk) /\
      minv g' /\
      index_state g' tag (Some (H (gen_index upd), upd)) /\ NoDup (map fst (g_tags g')) /\
      (d_dg d <> H (gen_index upd) -> lookup (d_dg d) (g_mans g') = Some (d_mt d, c)) /\
      exists n'' t', run_op' (g', n') RSUnsupported (OPreds sj)
                     = ((g', n''), RSUnsupported, t', RDescs (clean_refs [] upd)).
  Proof.
    intros Hi Pr Hrs Him Hix Hs Hh V Pm Hl Sj Vs tag ER Vt Hp Hst Hjo Hu Hod l upd Hnew Hlim Hju Hcol.
    destruct (man_put_reg g n rst d c true (d_dg d) (valid_ref_digest _ V) Hs Hh V) as (g1 & n1 & t1 & E1 & St1).
    unfold put_manifest in E1, St1. rewrite V, str_eqb_refl in E1, St1. cbn [rst_of fst snd] in E1, St1.
    rewrite rst_put_same in E1 by now left.
    apply store_of_fields in St1 as (_ & Gm & Gt & _). cbn [t_mans t_tags with_mans store_of] in Gm, Gt.
    assert (Hi1 : minv g1) by (eapply minv_insert; eauto).
    assert (Hst1 : index_state g1 tag old).
    { destruct old as [[od l0]|]; cbn [index_state] in *; rewrite Gt; [|exact Hst].
      destruct Hst as [Lt Lm]. split; [exact Lt|].
      now rewrite Gm, lookup_insert, (str_eqb_neq od (d_dg d)) by (eapply Hod; eauto). }
    destruct (tag_schema_update_m sj Vs ER Vt Hp g1 n1 RSUnsupported old (RAdd d) upd Hi1 Hst1 Hjo)
      as (g' & n' & t2 & E2 & St2 & Ist & Hu'); [now rewrite Gt|change (ix_list old) with l; unfold apply_change; now rewrite Hnew|exact Hlim|exact Hcol|].
    assert (Hi' : minv g') by (eapply ts_step_minv; eauto).
    assert (Nn : is_nil upd = false) by (unfold upd; destruct (clean_refs [] l); reflexivity).
    unfold ix_post in Ist. rewrite Nn in Ist. cbn [andb] in Ist.
    destruct (preds_noapi sj Vs ER Vt Hp g' n' RSUnsupported _ Hi' Pr ltac:(discriminate) Ist Hju) as (n'' & t' & R).
    exists g', n', (t1 ++ t2). split; [|split; [exact Hi'|split; [exact Ist|split; [exact Hu'|split; [|eauto]]]]].
    - cbn [run_op]. rewrite Him. unfold man_push. rewrite Hix.
      assert (Ns : rs_supported rst = false) by (destruct rst; cbn; congruence).
      rewrite Ns. cbn [negb andb].
      assert (El : (limit <? d_sz d) = false) by (apply N.ltb_ge; rewrite <- Hs; exact Hl).
      rewrite El, Hs, N.eqb_refl, Hh, str_eqb_refl. cbn [negb orb]. rewrite E1, Ns, Sj.
      assert (rs_set rst false = RSUnsupported) as -> by (destruct rst; cbn; congruence).
      now rewrite E2.
    - intro Hne. destruct St2 as (_ & _ & K). rewrite K, Gm, lookup_insert, str_eqb_refl; auto.
      intros od l0 Y X. eapply Hod; eauto.
  Qed.

  Lemma ping_noapi g n rst :
    p_referrers p = false -> rst <> RSSupported ->
    exists n' t, ping_referrers main S ex0 (g, n) rst = ((g, n'), RSUnsupported, t, Some false).
  Proof.
    intros Pr Hrs. destruct rst; [|congruence|cbn [ping_referrers]; eauto].
    unfold ping_referrers. rewrite hx_referrers, Pr. simp.
    rewrite nil_not_name_unknown.
    cbn [rs_set]. eauto.
  Qed.

  (* Delete of a stored manifest with a subject: the referrer leaves the index first, then
     the manifest is deleted; afterwards Predecessors does not list it *)
  Theorem delete_subject_then_predecessors g n rst d c sj od l :
    minv g -> p_referrers p = false -> rst <> RSSupported ->
    is_manifest user_mts d = true -> indexable_del (d_mt d) = true ->
    lookup (d_dg d) (g_mans g) = Some (d_mt d, c) -> len c = d_sz d -> valid_digest (d_dg d) = true ->
    subject_of c = Some (Some sj) -> valid_digest (d_dg sj) = true ->
    let tag := ref_tag (d_dg sj) in
    resolve_ref main tag = Some tag -> valid_digest tag = false ->
    (p_clen p = true \/ p_dighdr p = true) ->
    index_state g tag (Some (od, l)) -> json_ok l -> NoDup (map fst (g_tags g)) ->
    od <> d_dg d ->
    let upd := filter (fun x => negb (desc_eqb d x)) (clean_refs [] l) in
    existsb (desc_eqb d) (clean_refs [] l) = true ->
    len (gen_index upd) <= limit -> json_ok upd ->
    H (gen_index upd) <> d_dg d ->
    (skip_gc = true \/ od <> H (gen_index upd)) ->
    exists g' n' t,
      run_op' (g, n) rst (ODelete d) = ((g', n'), RSUnsupported, t, ROk) /\
      minv g' /\ lookup (d_dg d) (g_mans g') = None /\
      index_state g' tag (if is_nil upd && negb skip_gc then None else Some (H (gen_index upd), upd)) /\
      NoDup (map fst (g_tags g')) /\
      exists n'' t', run_op' (g', n') RSUnsupported (OPreds sj)
                     = ((g', n''), RSUnsupported, t', RDescs (clean_refs [] upd)).
  Proof.
    intros Hi Pr Hrs Him Hix L Hs V Sj Vs tag ER Vt Hp Hst Hjo Hu Hod upd Hin Hlim Hju Hj Hcol.
    destruct (Hi _ _ _ L) as (Hh & Pm & Hl).
    destruct (man_fetch_reg g n d Hi V (acc_man_of _ _ _ L Hs)) as (t1 & E1). rewrite L in E1.
    destruct (ping_noapi g (n + 1) rst Pr Hrs) as (n2 & t2 & E2).
    destruct (tag_schema_update_m sj Vs ER Vt Hp g n2 RSUnsupported (Some (od, l)) (RRemove d) upd Hi Hst Hjo Hu)
      as (g3 & n3 & t3 & E3 & St3 & Ist & Hu3); [cbn [ix_list]; unfold apply_change; now rewrite Hin|exact Hlim| |].
    { destruct Hcol as [X|X]; [now left|right]. intros od' l' Y. injection Y as <- <-. exact X. }
    fold tag in Ist.
    assert (L3 : lookup (d_dg d) (g_mans g3) = Some (d_mt d, c)).
    { destruct St3 as (_ & _ & K3). rewrite K3; [exact L|auto|]. intros od' l' Y. injection Y as <- <-. auto. }
    destruct (delete_man_hit g3 n3 d _ L3 V) as (g4 & t4 & E4 & _ & Gm4 & Gt4 & _).
    assert (Hi4 : minv g4) by exact (minv_remove _ _ _ (ts_step_minv _ _ _ _ Hi Hlim St3) Gm4).
    assert (Hne : str_eqb (H (gen_index upd)) (d_dg d) = false) by now apply str_eqb_neq.
    assert (Ist4 : index_state g4 tag (ix_post upd)).
    { unfold ix_post in *. destruct (is_nil upd && negb skip_gc); cbn [index_state] in *;
        rewrite Gt4, lookup_filter by exact Hu3; [now rewrite Ist|].
      destruct Ist as [Lt Lm]. rewrite Lt. cbn [snd]. rewrite Hne. split; [reflexivity|].
      now rewrite Gm4, lookup_remove, Hne. }
    destruct (preds_noapi sj Vs ER Vt Hp g4 (n3 + 1) RSUnsupported _ Hi4 Pr ltac:(discriminate) Ist4 (json_ok_post _ Hju))
      as (n'' & t' & R). rewrite clean_ix_post in R.
    exists g4, (n3 + 1), (t1 ++ t2 ++ t3 ++ t4).
    split; [|split; [exact Hi4|split; [|split; [exact Ist4|split; [rewrite Gt4; now apply NoDup_fst_filter|eauto]]]]].
    - cbn [run_op]. rewrite Him. unfold man_delete. rewrite Hix.
      assert (Ns : rs_supported rst = false) by (destruct rst; cbn; congruence).
      rewrite Ns. cbn [negb andb].
      assert (El : (limit <? d_sz d) = false) by (apply N.ltb_ge; rewrite <- Hs; exact Hl).
      rewrite El, E1, Hs, N.eqb_refl, <- Hh, str_eqb_refl. cbn [negb orb]. rewrite Sj, E2.
      rewrite <- update_x_fst in E3.
      destruct (update_referrers_index_x _ _ _ _ _ _ _ _ _ (g, n2) RSUnsupported sj (RRemove d)) as [[[[a3 b3] c3] e3] cl].
      cbn [fst] in E3. injection E3 as -> -> -> ->. now rewrite E4.
    - now rewrite Gm4, lookup_remove, str_eqb_refl.
  Qed.

  Inductive tsop := TPush (d : desc) (c : str) | TDelete (d : desc) (c : str) | TPreds.
  Definition ts_op (sj : desc) (o : tsop) : op :=
    match o with TPush d c => OPush d c | TDelete d _ => ODelete d | TPreds => OPreds sj end.
  (* what the referrers index lists after the operation (applyReferrerChanges) *)
  Definition ts_next (l : list desc) (o : tsop) : list desc :=
    match o with
    | TPush d _ => clean_refs [] l ++ [d]
    | TDelete d _ => filter (fun x => negb (desc_eqb d x)) (clean_refs [] l)
    | TPreds => l
    end.
  Definition ts_post (st : option (str * list desc)) (o : tsop) : option (str * list desc) :=
    match o with TPreds => st | _ => ix_post (ts_next (ix_list st) o) end.
  Definition ts_res (st : option (str * list desc)) (o : tsop) : result :=
    match o with TPreds => RDescs (clean_refs [] (ix_list st)) | _ => ROk end.
  (* the local side conditions of one operation in the state it meets: an accurate, indexable
     manifest with subject sj that is new to / listed in the index; the indexes read and written
     decode and fit the limit; no digest collision between manifest, old index and new index *)
  Definition ts_step_ok (sj : desc) (g : reg) (st : option (str * list desc)) (o : tsop) : Prop :=
    let upd := ts_next (ix_list st) o in
    json_ok_st st /\
    match o with TPreds => True | _ =>
      json_ok upd /\ len (gen_index upd) <= limit /\
      (skip_gc = true \/ forall od l0, st = Some (od, l0) -> od <> H (gen_index upd)) end /\
    match o with
    | TPreds => True
    | TPush d c =>
        is_manifest user_mts d = true /\ indexable (d_mt d) = true /\
        len c = d_sz d /\ H c = d_dg d /\ valid_digest (d_dg d) = true /\
        parse_mt (d_mt d) = Some (d_mt d) /\ len c <= limit /\
        subject_of c = Some (Some sj) /\
        (forall od l0, st = Some (od, l0) -> od <> d_dg d) /\
        existsb (desc_eqb d) (clean_refs [] (ix_list st)) = false
    | TDelete d c =>
        is_manifest user_mts d = true /\ indexable_del (d_mt d) = true /\
        lookup (d_dg d) (g_mans g) = Some (d_mt d, c) /\ len c = d_sz d /\ valid_digest (d_dg d) = true /\
        subject_of c = Some (Some sj) /\
        (exists od l, st = Some (od, l) /\ od <> d_dg d) /\
        existsb (desc_eqb d) (clean_refs [] (ix_list st)) = true /\
        H (gen_index upd) <> d_dg d
    end.
  Fixpoint ts_hist_ok (sj : desc) (s : S) (rst : rstate) (st : option (str * list desc)) (os : list tsop) : Prop :=
    match os with
    | [] => True
    | o :: r =>
        ts_step_ok sj (fst s) st o /\
        let '(s1, rst1, _, _) := run_op' s rst (ts_op sj o) in
        ts_hist_ok sj s1 rst1 (ts_post st o) r
    end.
  Fixpoint ts_final (st : option (str * list desc)) (os : list tsop) : option (str * list desc) :=
    match os with [] => st | o :: r => ts_final (ts_post st o) r end.
  Fixpoint ts_results (st : option (str * list desc)) (os : list tsop) : list result :=
    match os with [] => [] | o :: r => ts_res st o :: ts_results (ts_post st o) r end.

  Theorem tag_schema_history sj os : forall g n rst st,
    minv g -> p_referrers p = false -> rst <> RSSupported ->
    valid_digest (d_dg sj) = true ->
    let tag := ref_tag (d_dg sj) in
    resolve_ref main tag = Some tag -> valid_digest tag = false ->
    (p_clen p = true \/ p_dighdr p = true) ->
    index_state g tag st -> NoDup (map fst (g_tags g)) ->
    ts_hist_ok sj (g, n) rst st os ->
    exists g' n' rst' out,
      run_ops' (g, n) rst (map (ts_op sj) os) = ((g', n'), rst', out) /\
      map snd out = ts_results st os /\ rst' <> RSSupported /\
      minv g' /\ index_state g' tag (ts_final st os) /\ NoDup (map fst (g_tags g')) /\
      (json_ok_st (ts_final st os) ->
       exists n'' t', tag_schema_referrers H parse_mt main user_mts limit index_of S ex0 (g', n') sj
                      = ((g', n''), t', RDescs (clean_refs [] (ix_list (ts_final st os))))).
  Proof.
    induction os as [|o os IH]; intros g n rst st Hi Pr Hrs Vs tag ER Vt Hp Hst Hu Hok.
    - exists g, n, rst, []. cbn [run_ops map ts_final ts_results].
      split; [reflexivity|]. split; [reflexivity|]. split; [exact Hrs|]. split; [exact Hi|]. split; [exact Hst|].
      split; [exact Hu|]. exact (tag_schema_read sj Vs ER Vt Hp g n st Hi Hst).
    - cbn [ts_hist_ok] in Hok. destruct Hok as [(Hjo & Hupd & Hop) Hrest]. cbn [fst] in Hop.
      assert (Step : exists g1 n1 t1,
                 run_op' (g, n) rst (ts_op sj o) = ((g1, n1), RSUnsupported, t1, ts_res st o) /\ minv g1 /\
                 index_state g1 tag (ts_post st o) /\ NoDup (map fst (g_tags g1))).
      { destruct o as [d c|d c|]; cbn [ts_op ts_next ts_post ts_res] in *.
        - destruct Hupd as (Hju & Hlim & Hcol).
          destruct Hop as (Him & Hix & Hs & Hh & V & Pm & Hl & Sj & Hod & Hnew).
          destruct (push_subject_then_predecessors g n rst d c sj st Hi Pr Hrs Him Hix Hs Hh V Pm Hl Sj Vs ER Vt Hp Hst Hjo Hu Hod Hnew Hlim Hju Hcol)
            as (g1 & n1 & t1 & E1 & Hi1 & Ist1 & Hu1 & _).
          exists g1, n1, t1. split; [exact E1|]. split; [exact Hi1|]. split; [|exact Hu1].
          unfold ix_post. now replace (is_nil (clean_refs [] (ix_list st) ++ [d])) with false by now destruct (clean_refs [] (ix_list st)).
        - destruct Hupd as (Hju & Hlim & Hcol).
          destruct Hop as (Him & Hix & L & Hs & V & Sj & (od & l & -> & Hod) & Hin & Hj).
          cbn [ix_list] in *.
          assert (Hcol' : skip_gc = true \/ od <> H (gen_index (filter (fun x => negb (desc_eqb d x)) (clean_refs [] l)))).
          { destruct Hcol as [X|X]; [now left|right; eapply X; eauto]. }
          destruct (delete_subject_then_predecessors g n rst d c sj od l Hi Pr Hrs Him Hix L Hs V Sj Vs ER Vt Hp Hst Hjo Hu Hod Hin Hlim Hju Hj Hcol')
            as (g1 & n1 & t1 & E1 & Hi1 & _ & Ist1 & Hu1 & _).
          eauto 8.
        - destruct (preds_noapi sj Vs ER Vt Hp g n rst st Hi Pr Hrs Hst Hjo) as (n1 & t1 & E1). eauto 8. }
      destruct Step as (g1 & n1 & t1 & E1 & Hi1 & Ist1 & Hu1).
      rewrite E1 in Hrest.
      destruct (IH g1 n1 RSUnsupported _ Hi1 Pr ltac:(discriminate) Vs ER Vt Hp Ist1 Hu1 Hrest)
        as (g' & n' & rst' & out & E & Ho & R).
      exists g', n', rst', ((t1, ts_res st o) :: out). cbn [run_ops map ts_final ts_results snd]. rewrite E1, E.
      split; [reflexivity|]. split; [now rewrite Ho|exact R].
  Qed.

  (* Without Docker-Content-Digest, a HEAD for a TAG that exists is answered with an error:
     in every registry state, whatever the manifest. *)
  Lemma man_resolve_tag_nohdr g n rs rf d mt c :
    resolve_ref main rs = Some rf -> valid_digest rf = false ->
    man_lookup (store_of g) rf = Some (d, (mt, c)) -> p_dighdr p = false ->
    exists t, man_resolve H parse_mt main user_mts limit S ex0 (g, n) rs = ((g, n + 1), t, RErr EOther).
  Proof.
    intros ER Vr L Pd. unfold man_resolve.
    rewrite ER, hx_head_man, man_resp_eq, L. simp.
    rewrite orb_true_r, Pd. cbn [opt_if]. unfold gen_desc. proj.
    destruct (parse_mt mt); [rewrite Vr|]; eauto.
  Qed.

  Theorem resolve_tag_needs_header g n rst rs rf d mt c :
    resolve_ref main rs = Some rf -> valid_digest rf = false ->
    man_lookup (store_of g) rf = Some (d, (mt, c)) -> p_dighdr p = false ->
    snd (run_op' (g, n) rst (OResolve rs)) = RErr EOther /\
    snd (spec_op' (store_of g) (OResolve rs)) = RDesc (mkDesc mt d (len c)).
  Proof.
    intros ER Vr L Pd. cbn [run_op spec_op].
    destruct (man_resolve_tag_nohdr g n rs rf d mt c ER Vr L Pd) as [t E]. rewrite E, ER, L. split; reflexivity.
  Qed.

  Theorem fetchref_tag_needs_header g n rst rs rf d mt c :
    resolve_ref main rs = Some rf -> valid_digest rf = false ->
    man_lookup (store_of g) rf = Some (d, (mt, c)) -> p_dighdr p = false -> p_clen p = false ->
    snd (run_op' (g, n) rst (OFetchRef rs)) = RErr EOther /\
    snd (spec_op' (store_of g) (OFetchRef rs)) = RDescBytes (mkDesc mt d (len c)) c.
  Proof.
    intros ER Vr L Pd Pc. cbn [run_op spec_op]. rewrite ER, L. split; [|reflexivity].
    unfold man_fetchref. rewrite ER, hx_get_man, man_resp_eq, L. simp.
    rewrite orb_false_r, Pc. cbn [opt_if].
    destruct (man_resolve_tag_nohdr g (n + 1) rs rf d mt c ER Vr L Pd) as [t E]. rewrite E. reflexivity.
  Qed.
End Refine.

Definition no_status_corruption (kor : option (N * corruption)) : Prop :=
  match kor with Some (_, KStatus _) | Some (_, KNameUnknown) => False | _ => True end.

Lemma corrupt_keeps k r :
  match k with KStatus _ | KNameUnknown => False | _ => True end ->
  r_status (corrupt k r) = r_status r /\ (r_loc (corrupt k r) = r_loc r \/ r_loc (corrupt k r) = None).
Proof. destruct r, k; cbn; intro X; try contradiction; auto. Qed.

Lemma handle_post_loc H sj main other p g q :
  valid_repository main = true -> q_m q = POST ->
  let r := snd (handle H sj main other p g q) in
  r_status r = 202 ->
  match r_loc r with
  | Some (rp, ep) => valid_repository rp = true /\ exists id, ep = ESession id
  | None => True
  end.
Proof.
  intros Vm Hq. destruct q as [m repo ep dg mnt acc ct cl rg body]. cbn in Hq. subst m.
  unfold handle. proj.
  destruct (str_eqb repo main).
  - destruct ep; try (cbn; discriminate).
    destruct mnt as [[d from]|]; [|cbn; eauto].
    destruct (if p_mount p && str_eqb from other then lookup d (g_other g) else None); cbn; [discriminate|eauto].
  - destruct (str_eqb repo other); [destruct ep|]; cbn; discriminate.
Qed.

Theorem registry_loc_ok H subject_of main other p kor :
  valid_repository main = true -> no_status_corruption kor ->
  loc_ok (reg * N) (cexch H subject_of main other p kor).
Proof.
  intros Vm Hk [g n] q Hq. unfold cexch.
  pose proof (handle_post_loc H (subj_of subject_of) main other p g q Vm Hq) as Hh.
  destruct (handle H (subj_of subject_of) main other p g q) as [g1 r]. cbn [snd] in *.
  destruct kor as [[k c]|]; [|exact Hh].
  destruct (n =? k); [|exact Hh].
  assert (Hc : match c with KStatus _ | KNameUnknown => False | _ => True end) by (destruct c; auto).
  destruct (corrupt_keeps c r Hc) as [Es [El|El]]; rewrite Es, El; auto.
Qed.

(* every request of every history against the registry model is allowed, also when one
   response is corrupted in any field but the status *)
Theorem run_history_allowed H parse_mt subject_of main other user_mts limit skip_gc index_of p kor other_blobs rst os g out :
  valid_repository main = true -> valid_repository other = true ->
  (forall c, valid_digest (H c) = true) ->
  no_status_corruption kor -> Forall op_ok os ->
  run_history H parse_mt subject_of main other user_mts limit skip_gc index_of p kor other_blobs rst os = (g, out) ->
  Forall (fun tr => Forall (fun qr => allowed (fst qr) = true) (fst tr)) out.
Proof.
  intros Vm Vo Hv Hk Hok. unfold run_history.
  destruct (run_ops _ _ _ _ _ _ _ _ _ _ _ _ rst os) as [[s rst'] out'] eqn:E.
  intro X. injection X as _ <-.
  eapply (run_ops_allowed H parse_mt subject_of main other user_mts limit skip_gc index_of (reg * N)
            (cexch H subject_of main other p kor) Vm Vo (registry_loc_ok _ _ _ _ _ _ Vm Hk) Hv); eauto.
Qed.

(* A registry that omits the optional Docker-Content-Digest header: after a successful
   PushReference under a tag, Resolve of that tag fails although the store holds it. *)
Definition w_H (_ : str) : str := zero_digest.
Definition w_limit : N := 4194304.
Definition w_index_of (_ : str) : option (list desc) := Some [].
Definition w_profile := mkProfile false true true false false.
Definition w_content := b "{}".
Definition w_desc := mkDesc mt_oci_manifest zero_digest 2.
Definition w_ops := [OPushRef w_desc w_content (b "v1"); OResolve (b "v1")].

Lemma resolve_tag_without_digest_header_refuted :
  map snd (snd (run_history w_H (fun s => Some s) (fun _ => Some None) (b "app") (b "src") [] w_limit false w_index_of
                            w_profile None [] RSUnknown w_ops))
  = [ROk; RErr EOther] /\
  snd (spec_run w_H (fun _ => Some None) (b "app") [] (mkStore [] [] [] []) w_ops)
  = [ROk; RDesc w_desc].
Proof. vm_compute. split; reflexivity. Qed.

Definition ex_profile := mkProfile true false false true true.
Definition ex_blob := b "layer".
Definition ex_bdesc := mkDesc ct_octet zero_digest 5.
Definition ex_ref := b "{subject:w}".
Definition ex_rdesc := mkDesc mt_oci_manifest zero_digest 11.
Definition ex_subject (c : str) : option (option desc) :=
  if str_eqb c ex_ref then Some (Some w_desc) else Some None.
Definition ex_ops : list op :=
  [OPushRef w_desc w_content (b "v1"); OResolve (b "v1"); OFetchRef (b "v1"); OFetch w_desc;
   OTag w_desc (b "v2"); OExists w_desc; OMount ex_bdesc None; OFetch ex_bdesc;
   OPreds w_desc; ODelete w_desc; OResolve (b "v2");
   OPushRef ex_rdesc ex_ref (b "r1"); OPreds w_desc].
Lemma refines_store_nonvacuous :
  wf_hist w_H (fun s => Some s) ex_subject (b "app") [] w_limit ex_profile
          (mkStore [] [] [] [(zero_digest, ex_blob)]) ex_ops /\
  rst_ok ex_profile RSUnknown /\
  snd (spec_run w_H ex_subject (b "app") [] (mkStore [] [] [] [(zero_digest, ex_blob)]) ex_ops)
  = [ROk; RDesc w_desc; RDescBytes w_desc w_content; RBytes w_content; ROk; RBool true; ROk;
     RBytes ex_blob; RDescs []; ROk; RErr ENotFound; ROk; RDescs [ex_rdesc]].
Proof.
  split; [|split; [left; discriminate|vm_compute; reflexivity]].
  vm_compute. repeat split; auto; intros;
    repeat match goal with
           | X : Some _ = Some _ |- _ => injection X; clear X; intros; subst
           | X : None = Some _ |- _ => discriminate X
           end; auto.
  all: try discriminate.
  all: try (right; split; [reflexivity|]; eexists; split; [reflexivity|discriminate]).
Qed.

Definition all_profiles : list profile :=
  flat_map (fun a => flat_map (fun b0 => flat_map (fun c => flat_map (fun d => map (fun e => mkProfile a b0 c d e)
    [false; true]) [false; true]) [false; true]) [false; true]) [false; true].

Definition desc_eqb (x y : desc) : bool :=
  str_eqb (d_mt x) (d_mt y) && str_eqb (d_dg x) (d_dg y) && (d_sz x =? d_sz y).
Fixpoint descs_eqb (x y : list desc) : bool :=
  match x, y with
  | [], [] => true
  | a :: x', c :: y' => desc_eqb a c && descs_eqb x' y'
  | _, _ => false
  end.
Definition result_eqb (x y : result) : bool :=
  match x, y with
  | ROk, ROk => true
  | RBool a, RBool c => Bool.eqb a c
  | RDesc a, RDesc c => desc_eqb a c
  | RBytes a, RBytes c => str_eqb a c
  | RDescBytes a a', RDescBytes c c' => desc_eqb a c && str_eqb a' c'
  | RDescs a, RDescs c => descs_eqb a c
  | RErr ENotFound, RErr ENotFound | RErr EInvalidRef, RErr EInvalidRef | RErr EOther, RErr EOther => true
  | _, _ => false
  end.
Fixpoint results_eqb (x y : list result) : bool :=
  match x, y with
  | [], [] => true
  | a :: x', c :: y' => result_eqb a c && results_eqb x' y'
  | _, _ => false
  end.

(* the history of the non-vacuity example, with a tag resolved by HEAD only where the
   hypothesis of C13_refines_store_partial admits it; everything else in every profile *)
Definition cover_ops (p : profile) : list op :=
  [OPushRef w_desc w_content (b "v1")]
  ++ (if p_dighdr p then [OResolve (b "v1")] else [OResolve zero_digest])
  ++ (if p_clen p || p_dighdr p then [OFetchRef (b "v1")] else [OFetchRef zero_digest])
  ++ [OFetch w_desc; OTag w_desc (b "v2"); OExists w_desc; OMount ex_bdesc None; OMount ex_bdesc (Some ex_blob);
      OFetch ex_bdesc; OBlobResolve zero_digest; OBlobFetchRef zero_digest; OPush ex_bdesc ex_blob]
  ++ (if p_referrers p then [OPreds w_desc; OPushRef ex_rdesc ex_ref (b "r1"); OPreds w_desc] else [])
  ++ [ODelete w_desc; OResolve (b "bad!"); ODelete ex_bdesc; OExists ex_bdesc].

Definition covered (p : profile) (rst : rstate) : bool :=
  results_eqb
    (map snd (snd (run_history w_H (fun s => Some s) ex_subject (b "app") (b "src") [] w_limit false w_index_of p None
                               [(zero_digest, ex_blob)] rst (cover_ops p))))
    (snd (spec_run w_H ex_subject (b "app") [] (mkStore [] [] [] [(zero_digest, ex_blob)]) (cover_ops p))).

Lemma all_profiles_covered :
  length all_profiles = 32%nat /\
  forallb (fun p => covered p RSUnknown && covered p RSSupported
                    && (p_referrers p || covered p RSUnsupported)) all_profiles = true.
Proof.
  split; [reflexivity|].
  (* [covered] unfolded, with the store's results, which are the same for the three referrers
     states, evaluated once per profile: a checker that evaluates lazily then shares them *)
  change (forallb (fun p =>
            let want := snd (spec_run w_H ex_subject (b "app") [] (mkStore [] [] [] [(zero_digest, ex_blob)])
                                      (cover_ops p)) in
            let got rst := map snd (snd (run_history w_H (fun s => Some s) ex_subject (b "app") (b "src") [] w_limit
                                                     false w_index_of p None [(zero_digest, ex_blob)] rst (cover_ops p))) in
            results_eqb (got RSUnknown) want && results_eqb (got RSSupported) want
            && (p_referrers p || results_eqb (got RSUnsupported) want)) all_profiles = true).
  vm_compute. reflexivity.
Qed.

Definition hex_digit (n : N) : N := if n <? 10 then 48 + n else 87 + n.
(* a toy hash: the hex of the last 32 bytes (enough to tell the few contents below apart) *)
Definition toy_H (c : str) : str :=
  b "sha256:" ++ firstn 64 (flat_map (fun x => [hex_digit (x / 16); hex_digit (x mod 16)]) (rev c) ++ repeat 48 64).
Definition ts_m0 := b "{0}".
Definition ts_m1 := b "{1}".
Definition ts_d0 := mkDesc mt_oci_manifest (toy_H ts_m0) 3.
Definition ts_d1 := mkDesc mt_oci_manifest (toy_H ts_m1) 3.
Definition ts_subject (c : str) : option (option desc) := if str_eqb c ts_m1 then Some (Some ts_d0) else Some None.
Definition ts_index_of (c : str) : option (list desc) := if str_eqb c (gen_index [ts_d1]) then Some [ts_d1] else Some [].
Definition ts_profile := mkProfile true false true false false.     (* no Referrers API *)
Definition ts_ops := [OPush ts_d0 ts_m0; OPreds ts_d0; OPush ts_d1 ts_m1; OPreds ts_d0; OResolve (ref_tag (toy_H ts_m0));
                      ODelete ts_d1; OPreds ts_d0; OResolve (ref_tag (toy_H ts_m0))].

Lemma tag_schema_example :
  map snd (snd (run_history toy_H (fun s => Some s) ts_subject (b "app") (b "src") [] w_limit false ts_index_of
                            ts_profile None [] RSUnknown ts_ops))
  = [ROk; RDescs []; ROk; RDescs [ts_d1];
     RDesc (mkDesc mt_index (toy_H (gen_index [ts_d1])) (len (gen_index [ts_d1])));
     ROk; RDescs []; RErr ENotFound] /\
  ts_index_of (gen_index [ts_d1]) = Some [ts_d1] /\ ts_subject (gen_index [ts_d1]) = Some None /\
  gen_index [ts_d1] = b "{""schemaVersion"":2,""mediaType"":""application/vnd.oci.image.index.v1+json"",""manifests"":[{""mediaType"":""application/vnd.oci.image.manifest.v1+json"",""digest"":""sha256:7d317b0000000000000000000000000000000000000000000000000000000000"",""size"":3}]}".
Proof. vm_compute. repeat split; reflexivity. Qed.

Definition sat_c := b "{1}".
Definition sat_sj := mkDesc mt_oci_manifest zero_digest 3.
Definition sat_d := mkDesc mt_oci_manifest zero_digest 3.
Definition sat_subject (c : str) : option (option desc) := if str_eqb c sat_c then Some (Some sat_sj) else Some None.
Definition sat_index_of (c : str) : option (list desc) := if str_eqb c (gen_index [sat_d]) then Some [sat_d] else Some [].

Lemma push_subject_satisfiable :
  exists g' n' t,
    run_op w_H (fun s => Some s) sat_subject (b "app") (b "src") [] w_limit false sat_index_of (reg * N)
           (cexch w_H sat_subject (b "app") (b "src") ts_profile None) (reg0 [], 0) RSUnknown (OPush sat_d sat_c)
    = ((g', n'), RSUnsupported, t, ROk) /\
    minv w_H (fun s => Some s) w_limit g' /\
    index_state g' (ref_tag zero_digest) (Some (w_H (gen_index [sat_d]), [sat_d])) /\
    exists n'' t',
      run_op w_H (fun s => Some s) sat_subject (b "app") (b "src") [] w_limit false sat_index_of (reg * N)
             (cexch w_H sat_subject (b "app") (b "src") ts_profile None) (g', n') RSUnsupported (OPreds sat_sj)
      = ((g', n''), RSUnsupported, t', RDescs [sat_d]).
Proof.
  destruct (push_subject_then_predecessors w_H (fun s => Some s) sat_subject (b "app") (b "src") [] w_limit false sat_index_of ts_profile
              ltac:(intro c; vm_compute; reflexivity)
              ltac:(intro l; reflexivity)
              ltac:(reflexivity)
              (reg0 []) 0 RSUnknown sat_d sat_c sat_sj None)
    as (g' & n' & t & E & Hi & Ist & _ & _ & R);
    [ intros ? ? ? L; discriminate L | try (vm_compute; reflexivity); try discriminate .. | ].
  - right. reflexivity.
  - constructor.
  - right. discriminate.
  - exists g', n', t. split; [exact E|]. split; [exact Hi|]. split; [exact Ist|]. exact R.
Qed.

(* the side conditions of tag_schema_changes are satisfiable: two referrers added, the first removed *)
Definition sat_a := mkDesc mt_oci_manifest zero_digest 3.
Definition sat_b := mkDesc mt_oci_manifest zero_digest 4.
Definition sat_changes := [RAdd sat_a; RAdd sat_b; RRemove sat_a].
Definition sat_index_of2 (c : str) : option (list desc) :=
  if str_eqb c (gen_index [sat_a]) then Some [sat_a]
  else if str_eqb c (gen_index [sat_a; sat_b]) then Some [sat_a; sat_b]
  else if str_eqb c (gen_index [sat_b]) then Some [sat_b] else Some [].
Lemma tag_schema_changes_satisfiable :
  changes_ok w_H w_limit true sat_index_of2 None sat_changes /\
  spec_changes w_H true None sat_changes = Some (w_H (gen_index [sat_b]), [sat_b]) /\
  json_ok_st sat_index_of2 (spec_changes w_H true None sat_changes).
Proof.
  split; [|split; vm_compute; reflexivity].
  unfold sat_changes. cbn [changes_ok].
  exists [sat_a]. split; [reflexivity|]. split; [exact I|]. split; [vm_compute; discriminate|]. split; [now left|].
  exists [sat_a; sat_b]. split; [vm_compute; reflexivity|]. split; [vm_compute; reflexivity|].
  split; [vm_compute; discriminate|]. split; [now left|].
  exists [sat_b]. split; [vm_compute; reflexivity|]. split; [vm_compute; reflexivity|].
  split; [vm_compute; discriminate|]. split; [now left|]. exact I.
Qed.

(* the side conditions of tag_schema_history are satisfiable: push a referrer, then delete it *)
Definition sat3_D1 := b "sha256:1111111111111111111111111111111111111111111111111111111111111111".
Definition sat3_D2 := b "sha256:2222222222222222222222222222222222222222222222222222222222222222".
Definition sat3_D3 := b "sha256:3333333333333333333333333333333333333333333333333333333333333333".
Definition sat3_d := mkDesc mt_oci_manifest sat3_D1 3.
Definition sat3_H (c : str) : str :=
  if str_eqb c sat_c then sat3_D1 else if str_eqb c (gen_index [sat3_d]) then sat3_D2 else sat3_D3.
Definition sat3_index_of (c : str) : option (list desc) :=
  if str_eqb c (gen_index [sat3_d]) then Some [sat3_d] else Some [].
Definition sat3_ops := [TPush sat3_d sat_c; TPreds; TDelete sat3_d sat_c].
Lemma tag_schema_history_satisfiable :
  (forall c, valid_digest (sat3_H c) = true) /\
  ts_hist_ok sat3_H (fun s => Some s) sat_subject (b "app") (b "src") [] w_limit false sat3_index_of ts_profile
             sat_sj (reg0 [], 0) RSUnknown None sat3_ops /\
  ts_final sat3_H false None sat3_ops = None /\
  ts_results sat3_H false None sat3_ops = [ROk; RDescs [sat3_d]; ROk].
Proof.
  split; [|split; [|split; vm_compute; reflexivity]].
  - intro c. unfold sat3_H. destruct (str_eqb c sat_c); [|destruct (str_eqb c (gen_index [sat3_d]))];
      vm_compute; reflexivity.
  - (* evaluated: the side conditions of the three operations become equations between values *)
    vm_compute. repeat split; try reflexivity; try discriminate; try (right; discriminate).
    + right. intros od l0 E. injection E as <- <-. discriminate.
    + eexists _, _. split; [reflexivity|discriminate].
Qed.
