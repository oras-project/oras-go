(* C10 -- goroutines that make several calls one after the other (Model/OciCrashConc.v, gstep):
   all invariants of the concurrent model survive the start of a call, so every result about
   batches of single calls holds for goroutines with queues of calls, the program of each call
   being decided when it starts. *)
From Oras Require Import Base.Prelude Model.OciCrash Model.OciCrashSpec Model.OciCrashConc
  Proofs.OciCrash Proofs.OciCrashConc Proofs.OciCrashSync.

Section Go.
Variable H : list N -> N.
Variable shuffle : nat -> list entry -> list entry.
Hypothesis shuffle_In : forall c l e, In e (shuffle c l) <-> In e l.

Notation stepN := (sched_step shuffle).
Notation gstepN := (gstep H shuffle).

Record GInv (s : st) (c : conf) : Prop := {
  g_c : CInv H c;
  g_l : LInv c;
  g_s : Sy c;
  g_k : KInv s c;
  g_w : WfInv c
}.

Lemma ginv_step s c i : GInv s c -> GInv s (stepN c i).
Proof.
  intros [C L S K W]. constructor.
  - now apply step_inv.
  - now apply lstep_inv.
  - now apply sstep_inv.
  - now apply kstep_inv.
  - now apply (wstep_inv shuffle shuffle_In s).
Qed.

Definition begin (c : conf) (i : nat) (x : ccall) : conf :=
  mkConf (cfs c) (ctags c) (cdigs c) (clock c) (ccnt c)
         (set_nth i (mkThread (call_prog H (cfs c) (ctags c) x) [] None false) (cthreads c)).

Lemma ginv_begin s c i t x :
  nth_error (cthreads c) i = Some t -> tprog t = [] -> GInv s c -> GInv s (begin c i x).
Proof.
  intros En Ep [C L S K W]. unfold begin.
  set (t' := mkThread (call_prog H (cfs c) (ctags c) x) [] None false).
  constructor.
  - pose proof C as [CL CB CI CT CD _]. apply cinv_update; try assumption; [intros d Hd; exact Hd|].
    split; cbn [tsnap ttmp tprog]; [intros l E; discriminate|apply call_prog_safe].
  - apply (linv_update c i t t'); [exact L|exact En| | |].
    + cbn [tholds tprog]. apply call_prog_shape.
    + cbn [tholds]. intro E. discriminate.
    + intro E. split; [reflexivity|now left].
  - destruct S as [A|[F E]]; unfold Sy; cbn [cfs ctags cdigs cthreads].
    + left. destruct A as (u & Hin & Hl). destruct (in_keep _ i t t' u En Hin) as [->|Hin'].
      * rewrite Ep in Hl. destruct Hl.
      * exists u. now split.
    + right. split.
      * apply fpub_keep; [intro Hu; discriminate Hu|exact F].
      * destruct E as [(u & Hin & Hu & Hp)|Sn]; [|now right].
        left. destruct (in_keep _ i t t' u En Hin) as [->|Hin'].
        -- rewrite Ep in Hp. destruct Hp.
        -- exists u. now split.
  - destruct K as [KT KC KF]. constructor; cbn [cfs ctags ccnt]; assumption.
  - destruct W as [WD WT]. split; cbn [cfs cthreads]; [exact WD|].
    intros u Hin l E. apply In_set_nth in Hin as [->|Hin]; [discriminate E|exact (WT u Hin l E)].
Qed.

Lemma idle_nil t : idle t = true -> tprog t = [].
Proof. unfold idle. destruct (tprog t); [reflexivity|discriminate]. Qed.

Lemma ginv_gstep s g i : GInv s (gc g) -> GInv s (gc (gstepN g i)).
Proof.
  intro G. unfold gstep.
  destruct (nth_error (cthreads (gc g)) i) as [t|] eqn:En; [|exact G].
  destruct (nth_error (gq g) i) as [q|]; [|exact G].
  destruct (idle t) eqn:Ei.
  - destruct q as [|x r]; [exact G|]. cbn [gc]. exact (ginv_begin s (gc g) i t x En (idle_nil t Ei) G).
  - cbn [gc]. now apply ginv_step.
Qed.

Lemma ginv_gsched s is : forall g, GInv s (gc g) -> GInv s (gc (gsched H shuffle g is)).
Proof. induction is as [|i is IH]; intros g G; [exact G|]. cbn [gsched fold_left]. apply IH. now apply ginv_gstep. Qed.

Lemma gstep_grows g i : grows (cfs (gc g)) (cfs (gc (gstepN g i))).
Proof.
  unfold gstep.
  destruct (nth_error (cthreads (gc g)) i) as [t|]; [|intros d Hd; exact Hd].
  destruct (nth_error (gq g) i) as [q|]; [|intros d Hd; exact Hd].
  destruct (idle t).
  - destruct q as [|x r]; intros d Hd; exact Hd.
  - cbn [gc]. apply step_grows.
Qed.

Lemma gsched_grows is : forall g, grows (cfs (gc g)) (cfs (gc (gsched H shuffle g is))).
Proof.
  induction is as [|i is IH]; intros g d Hd; [exact Hd|].
  cbn [gsched fold_left]. apply IH. now apply gstep_grows.
Qed.

Lemma gstart_inv s qs : Inv H s -> Agree s -> GInv s (gc (gstart s qs)).
Proof.
  intros I A. cbn [gstart gc]. set (ths := map (fun _ : list ccall => mkThread [] [] None false) qs).
  assert (Ht : forall t, In t ths -> t = mkThread [] [] None false).
  { intros t Hin. apply in_map_iff in Hin as (x & <- & _). reflexivity. }
  destruct (entry_sync s ths A) as [L S]; [intros t Hin; now rewrite (Ht t Hin)|].
  constructor; [|exact L|exact S|now apply (entry_kinv H)|].
  - apply entry_cinv; [exact I|]. intros t Hin. now rewrite (Ht t Hin).
  - apply (entry_wfinv H); [exact I|exact A|]. intros t Hin. now rewrite (Ht t Hin).
Qed.

(* every prefix of every schedule of goroutines with queues of calls; and when all calls of all
   goroutines have returned, index.json is the index of the resolver *)
Theorem go_crash_safe s qs is :
  Inv H s -> Agree s ->
  let g := gsched H shuffle (gstart s qs) is in
  layout_ok (cfs (gc g)) /\ blob_ok H (cfs (gc g)) /\ index_ok (cfs (gc g)) /\
  (forall d, has (sfs s) (FBlob d) -> has (cfs (gc g)) (FBlob d)) /\
  (gquietb g = true -> Agree (st_of (gc g))).
Proof.
  intros I A g. destruct (ginv_gsched s is _ (gstart_inv s qs I A)) as [[L B Ix _ _ _] _ S _ _]. fold g in L, B, Ix, S.
  repeat split; try assumption; [exact (gsched_grows is (gstart s qs))|].
  intro Q. unfold gquietb in Q. apply andb_true_iff in Q as [Q _]. rewrite forallb_forall in Q.
  apply (sy_quiet _ S). intros t Hin. exact (idle_nil t (Q t Hin)).
Qed.

End Go.

(* the hypotheses are satisfiable, and the program of a call is decided when it starts: goroutine 1
   tags blob 1, which goroutine 0 pushes in the same batch -- a no-op if it starts before the
   push has published the blob, effective if it starts after *)
Lemma go_example :
  let H := fun _ : list N => 1 in
  let id := fun (_ : nat) (l : list entry) => l in
  let g1 := gsched H id (gstart init [[CPush 1 [5] true; CTag 1 10]; [CUntag 10]]) [1; 0; 0; 0; 0; 0; 0; 0; 0; 0; 0; 0; 0; 0]%nat in
  let g2 := gsched H id (gstart init [[CPush 1 [5] true]; [CTag 1 10]]) [1; 0; 0; 0; 0; 0; 0; 0; 1]%nat in
  gquietb g1 = true /\ read_index (cfs (gc g1)) = Some [(1, Some 10)] /\
  gquietb g2 = true /\ read_index (cfs (gc g2)) = Some [(1, None)].
Proof. vm_compute. repeat split; reflexivity. Qed.
