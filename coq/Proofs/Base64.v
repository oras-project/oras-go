(* C18 -- the concrete base64 codec of Model/Base64.v round-trips every byte string. *)
From Coq Require Import Lia ZifyClasses ZifyInst.
From Oras Require Import Base.Prelude Model.Base64.

Ltac Zify.zify_post_hook ::= Z.to_euclidean_division_equations.

Definition is_byte (c : N) : Prop := c < 256.
Definition bytes (s : str) : Prop := Forall is_byte s.

Lemma list_ind3 {A} (P : list A -> Prop) :
  P [] -> (forall x, P [x]) -> (forall x y, P [x; y]) ->
  (forall x y z r, P r -> P (x :: y :: z :: r)) -> forall l, P l.
Proof.
  intros H0 H1 H2 H3. fix IH 1. intros [|x [|y [|z r]]]; [exact H0|apply H1|apply H2|apply H3; apply IH].
Qed.

(* the alphabet: checked for all 64 values *)
Definition sextets : list N := map N.of_nat (seq 0 64).

Lemma sextet_in v : v < 64 -> In v sextets.
Proof.
  intro H. unfold sextets. apply in_map_iff. exists (N.to_nat v). split; [lia|].
  apply in_seq. lia.
Qed.

Lemma alphabet_ok :
  forallb (fun v => match b64_val (b64_char v) with Some w => w =? v | None => false end
                    && negb (b64_char v =? pad) && negb (is_crlf (b64_char v)) && (b64_char v <? 128)) sextets = true.
Proof. vm_compute. reflexivity. Qed.

Lemma char_val v : v < 64 ->
  b64_val (b64_char v) = Some v /\ (b64_char v =? pad) = false /\ is_crlf (b64_char v) = false /\ b64_char v < 128.
Proof.
  intro H. pose proof (proj1 (forallb_forall _ _) alphabet_ok v (sextet_in v H)) as X.
  apply andb_true_iff in X as [X A]. apply andb_true_iff in X as [X C]. apply andb_true_iff in X as [X P].
  apply negb_true_iff in C, P. apply N.ltb_lt in A.
  destruct (b64_val (b64_char v)) as [w|]; [|discriminate].
  apply N.eqb_eq in X. subst w. auto.
Qed.

Lemma encode_chars s : bytes s -> Forall (fun c => is_crlf c = false /\ c < 128) (b64_encode s).
Proof.
  unfold bytes, is_byte. induction s using list_ind3; intro B; cbn [b64_encode];
    repeat apply Forall_cons_iff in B as [? B].
  - constructor.
  - repeat (constructor; [first [now split|apply char_val; lia]|]). constructor.
  - repeat (constructor; [first [now split|apply char_val; lia]|]). constructor.
  - repeat (constructor; [apply char_val; lia|]). now apply IHs.
Qed.

Lemma encode_no_crlf s : bytes s -> filter (fun c => negb (is_crlf c)) (b64_encode s) = b64_encode s.
Proof.
  intro B. induction (encode_chars s B) as [|c l [C _] _ IH]; [reflexivity|].
  cbn [filter]. rewrite C. cbn [negb]. now rewrite IH.
Qed.

Lemma b64_encode_ascii s : bytes s -> Forall (fun c => c < 128) (b64_encode s).
Proof. intro B. generalize (encode_chars s B). apply Forall_impl. now intros c [_ A]. Qed.

Lemma decode_clean_encode s : bytes s -> b64_decode_clean (b64_encode s) = Some s.
Proof.
  unfold bytes, is_byte. induction s using list_ind3; intro B; cbn [b64_encode b64_decode_clean];
    repeat apply Forall_cons_iff in B as [? B].
  - reflexivity.
  - destruct (char_val (x / 4)) as (-> & _); [lia|].
    destruct (char_val ((x mod 4) * 16)) as (-> & _); [lia|].
    rewrite N.eqb_refl. do 2 f_equal. lia.
  - destruct (char_val (x / 4)) as (-> & _); [lia|].
    destruct (char_val ((x mod 4) * 16 + y / 16)) as (-> & _); [lia|].
    destruct (char_val ((y mod 16) * 4)) as (-> & -> & _); [lia|].
    rewrite N.eqb_refl. f_equal. f_equal; [lia|f_equal; lia].
  - destruct (char_val (x / 4)) as (-> & _); [lia|].
    destruct (char_val ((x mod 4) * 16 + y / 16)) as (-> & _); [lia|].
    destruct (char_val ((y mod 16) * 4 + z / 64)) as (-> & -> & _); [lia|].
    destruct (char_val (z mod 64)) as (-> & -> & _); [lia|].
    rewrite (IHs B). f_equal. f_equal; [lia|f_equal; [lia|f_equal; lia]].
Qed.

Lemma b64_roundtrip s : bytes s -> b64_decode (b64_encode s) = Some s.
Proof.
  intro B. unfold b64_decode. rewrite encode_no_crlf by exact B. now apply decode_clean_encode.
Qed.

Lemma b64_encode_nonempty s : b64_encode s = [] -> s = [].
Proof. destruct s as [|x [|y [|z r]]]; [reflexivity|discriminate..]. Qed.
