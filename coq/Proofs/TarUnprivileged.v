(* C12: an unprivileged user unpacks exactly what root unpacks.  With restoreDirModes every
   directory exists with owner write+search permission while entries are created (mode | 0700
   under a umask without owner write/search bits), so the kernel's check on creating an entry
   never fails -- for EVERY archive, not only those written by Add.  The code before the fix
   fails on a read-only directory. *)
From Oras Require Import Base.Prelude Model.TarRoundTrip Proofs.TarRoundTrip Proofs.TarModeSweep.

Definition all_dirs_wx (f : fs) : Prop :=
  forall p m, fs_lookup f p = Some (NDir m) -> has_wx m = true.

Definition umask_keeps_wx (umask : N) : Prop := N.land umask owner_wx = 0.

Lemma all_dirs_wx_init umask : umask_keeps_wx umask -> all_dirs_wx (fs_init umask).
Proof.
  intros Hu p m E. unfold fs_init in E. destruct p; simpl in E; [|discriminate].
  injection E as <-. exact (has_wx_created umask 511 Hu).
Qed.

Lemma set_wx f p n :
  all_dirs_wx f -> (forall m, n = NDir m -> has_wx m = true) -> all_dirs_wx (fs_set f p n).
Proof.
  intros Hf Hn q m. rewrite lookup_set. destruct (path_eqb p q).
  - intro E. injection E as ->. now apply Hn.
  - apply Hf.
Qed.

Lemma mkdir_all_wx umask m : umask_keeps_wx umask -> forall rp f f',
  all_dirs_wx f -> mkdir_all umask (N.lor m owner_rwx) f rp = Ok f' -> all_dirs_wx f'.
Proof.
  intro Hu. induction rp as [|x rp IH]; intros f f' Hf E; simpl in E.
  - destruct (fs_lookup f []) as [[| |]|]; try discriminate; injection E as <-; [exact Hf|].
    apply set_wx; [exact Hf|]. intros m0 E0. injection E0 as <-. now apply has_wx_created.
  - destruct (fs_lookup f (rev rp ++ [x])) as [[| |]|]; try discriminate; [injection E as <-; exact Hf|].
    destruct (mkdir_all umask (N.lor m owner_rwx) f rp) as [f1|] eqn:E1; [|discriminate].
    injection E as <-. apply set_wx; [eapply IH; eauto|].
    intros m0 E0. injection E0 as <-. apply has_wx_lor. now apply has_wx_created.
Qed.

Lemma step_wx pre umask preserve f e f' :
  umask_keeps_wx umask -> all_dirs_wx f ->
  extract_entry pre umask preserve f e = Ok f' -> all_dirs_wx f'.
Proof.
  intros Hu Hf E. destruct (extract_entry_ok _ _ _ _ _ _ E) as (rel & [M|(n & B & Hn & _)]).
  - exact (mkdir_all_wx umask _ Hu _ f f' Hf M).
  - exact (binds_dirs _ f f' rel n B Hn Hf).
Qed.

Lemma ancestor_wx_true f : all_dirs_wx f -> forall rp, ancestor_wx f rp = true.
Proof.
  intros Hf. induction rp as [|x rp IH]; simpl.
  - destruct (fs_lookup f []) as [[| m |]|] eqn:E; try reflexivity. exact (Hf _ _ E).
  - destruct (fs_lookup f (rev rp ++ [x])) as [[| m |]|] eqn:E; try reflexivity; [exact (Hf _ _ E)|exact IH].
Qed.

Lemma perm_ok_true priv pre f e : all_dirs_wx f -> perm_ok priv pre f e = true.
Proof.
  intro Hf. unfold perm_ok. destruct priv; [reflexivity|]. simpl.
  destruct (strip_prefix pre (e_name e)) as [rel|]; [|reflexivity].
  destruct (e_kind e), (fs_lookup f rel) as [[| |]|]; try reflexivity; now apply ancestor_wx_true.
Qed.

Lemma extract_list_p_inv priv pre umask preserve (Q : fs -> Prop) :
  (forall f e, Q f -> perm_ok priv pre f e = true) ->
  (forall f e f', Q f -> extract_entry pre umask preserve f e = Ok f' -> Q f') ->
  forall es f, Q f ->
  extract_list_p priv pre umask preserve f es = extract_list pre umask preserve f es.
Proof.
  intros HP HQ. induction es as [|e es IH]; intros f Hf; simpl; [reflexivity|].
  unfold extract_entry_p. rewrite (HP f e Hf).
  destruct (extract_entry pre umask preserve f e) as [f'|] eqn:E; [|reflexivity].
  apply IH. eapply HQ; eauto.
Qed.

Lemma extract_list_p_eq priv pre umask preserve es :
  umask_keeps_wx umask ->
  extract_list_p priv pre umask preserve (fs_init umask) es = extract_list pre umask preserve (fs_init umask) es.
Proof.
  intro Hu. apply (extract_list_p_inv priv pre umask preserve all_dirs_wx).
  - intros f e. apply perm_ok_true.
  - intros f e f'. now apply step_wx.
  - now apply all_dirs_wx_init.
Qed.

Theorem unprivileged_same_as_root priv pre umask preserve es :
  umask_keeps_wx umask ->
  extract_p priv pre umask preserve es = extract pre umask preserve es.
Proof. intro Hu. unfold extract_p, extract. now rewrite extract_list_p_eq. Qed.

Lemma extract_p_root es pre umask preserve :
  extract_p true pre umask preserve es = extract pre umask preserve es.
Proof.
  unfold extract_p, extract.
  now rewrite (extract_list_p_inv true pre umask preserve (fun _ => True)).
Qed.

(* the code before restoreDirModes: a read-only directory cannot be filled by its owner *)
Definition readonly_dir_witness : tree :=
  Dir 493 0 [(b "ro", Dir 365 0 [(b "f", File (b "x") 292 0)])].

Theorem readonly_dir_prefix_refuted :
  extract_prefix_p false [b "d"] 18 false (tar_entries [b "d"] true readonly_dir_witness) = Err XPerm /\
  extract_prefix_p false [b "d"] 18 true (tar_entries [b "d"] true readonly_dir_witness) = Err XPerm /\
  (exists f, extract_prefix_p true [b "d"] 18 false (tar_entries [b "d"] true readonly_dir_witness) = Ok f) /\
  exists f', extract_p false [b "d"] 18 false (tar_entries [b "d"] true readonly_dir_witness) = Ok f' /\
    fs_lookup f' [b "ro"] = Some (NDir 365) /\ fs_lookup f' [b "ro"; b "f"] = Some (NFile (b "x") 292).
Proof.
  split; [vm_compute; reflexivity|]. split; [vm_compute; reflexivity|].
  split; [eexists; vm_compute; reflexivity|].
  eexists. split; [vm_compute; reflexivity|]. split; vm_compute; reflexivity.
Qed.

From Oras Require Import Proofs.TarWalkOrder Proofs.TarRootMode.

Theorem roundtrip_unprivileged pre umask preserve repro T :
  umask_keeps_wx umask -> (preserve = false -> umask <= 511) ->
  is_dir T = true -> wf_treeb T = true -> modes_okb T = true -> benign_tree pre T = true ->
  exists f', extract_p false pre umask preserve (tar_entries pre repro T) = Ok f' /\
    forall p, fs_lookup f' p = expected umask preserve T p.
Proof.
  intros Hw Hu Hd Hwf Hmo Hbe. rewrite (unprivileged_same_as_root false pre umask preserve _ Hw).
  now apply roundtrip_walk_full.
Qed.

Lemma extract_list_partial_spec priv pre umask preserve : forall es f,
  extract_list_p priv pre umask preserve f es =
  match extract_list_partial priv pre umask preserve f es with
  | (f', None) => Ok f'
  | (_, Some x) => Err x
  end.
Proof.
  induction es as [|e es IH]; intro f; simpl; [reflexivity|].
  destruct (extract_entry_p priv pre umask preserve f e); [apply IH|reflexivity].
Qed.

Theorem extract_partial_spec priv pre umask preserve es :
  extract_p priv pre umask preserve es =
  match extract_partial priv pre umask preserve es with
  | (f, None) => Ok f
  | (_, Some x) => Err x
  end.
Proof.
  unfold extract_p, extract_partial. rewrite extract_list_partial_spec.
  destruct (extract_list_partial priv pre umask preserve (fs_init umask) es) as [f [x|]]; reflexivity.
Qed.

Lemma partial_is_prefix_run priv pre umask preserve : forall es f x f',
  extract_list_partial priv pre umask preserve f es = (f', Some x) ->
  exists done rest e, es = done ++ e :: rest /\
    extract_list_p priv pre umask preserve f done = Ok f' /\
    extract_entry_p priv pre umask preserve f' e = Err x.
Proof.
  induction es as [|e es IH]; intros f x f' E; simpl in E; [discriminate|].
  destruct (extract_entry_p priv pre umask preserve f e) as [f1|x1] eqn:E1.
  - destruct (IH f1 x f' E) as (done & rest & e0 & -> & Hd & He).
    exists (e :: done), rest, e0. split; [reflexivity|]. split; [|exact He]. simpl. now rewrite E1.
  - injection E as <- <-. exists [], es, e. split; [reflexivity|]. split; [reflexivity|exact E1].
Qed.

Section Residue.
  Variable digest : Type.
  Variable H : str -> digest.
  Variable digest_eqb : digest -> digest -> bool.
  Variable enc : list entry -> str.
  Variable dec : str -> option (list entry).
  Variable gz : str -> str.
  Variable gunz : str -> option str.
  Hypothesis digest_eqb_spec : forall a b, digest_eqb a b = true <-> a = b.
  Hypothesis dec_enc : forall es, dec (enc es) = Some es.
  Hypothesis gunz_gz : forall s, gunz (gz s) = Some s.

  Theorem residue_of_success umask preserve d blob f :
    unpack digest H digest_eqb dec gunz umask preserve d blob = Ok f ->
    unpack_residue digest H digest_eqb dec gunz umask preserve d blob = f.
  Proof.
    unfold unpack, unpack_residue.
    destruct (negb _); [discriminate|]. destruct (gunz blob) as [tarb|]; [|discriminate].
    destruct (dec tarb) as [es|]; [|discriminate].
    rewrite <- (extract_p_root es (d_title digest d) umask preserve).
    rewrite (extract_partial_spec true).
    destruct (extract_partial true (d_title digest d) umask preserve es) as [f0 [x|]]; [discriminate|].
    simpl. destruct (d_checksum digest d) as [c|]; [destruct (digest_eqb (H tarb) c)|]; congruence.
  Qed.

  (* "verified on unpack" does not protect the directory: with a wrong recorded tar digest Push
     fails, and the whole tree of the archive is on disk nevertheless *)
  Theorem wrong_checksum_residue pre umask preserve repro T c :
    (preserve = false -> umask <= 511) ->
    is_dir T = true -> wf_treeb T = true -> modes_okb T = true -> benign_tree pre T = true ->
    c <> H (enc (tar_entries pre repro T)) ->
    let d0 := dir_descriptor digest H enc gz pre repro T in
    let d := mkDesc digest (d_digest digest d0) (d_size digest d0) pre true (Some c) in
    let blob := dir_blob enc gz pre repro T in
    unpack digest H digest_eqb dec gunz umask preserve d blob = Err XDigest /\
    forall p, fs_lookup (unpack_residue digest H digest_eqb dec gunz umask preserve d blob) p
              = expected umask preserve T p.
  Proof.
    intros Hu Hd Hwf Hmo Hbe Hc. simpl.
    destruct (roundtrip_walk_full pre umask preserve repro T Hu Hd Hwf Hmo Hbe) as (f' & E & L).
    unfold unpack, unpack_residue, dir_blob. simpl.
    rewrite (proj2 (digest_eqb_spec _ _) eq_refl), N.eqb_refl. simpl.
    rewrite gunz_gz, dec_enc, E. split.
    - destruct (digest_eqb (H (enc (tar_entries pre repro T))) c) eqn:Ec; [|reflexivity].
      apply digest_eqb_spec in Ec. congruence.
    - rewrite <- (extract_p_root (tar_entries pre repro T) pre umask preserve) in E.
      rewrite (extract_partial_spec true) in E.
      destruct (extract_partial true pre umask preserve (tar_entries pre repro T)) as [f0 [x|]]; [discriminate|].
      injection E as ->. exact L.
  Qed.

  Theorem wrong_blob_residue umask preserve d blob :
    H blob <> d_digest digest d \/ N.of_nat (length blob) <> d_size digest d ->
    unpack_residue digest H digest_eqb dec gunz umask preserve d blob = fs_init umask.
  Proof.
    intro Hne. unfold unpack_residue.
    destruct (digest_eqb (H blob) (d_digest digest d)) eqn:E1; simpl; [|reflexivity].
    destruct (N.of_nat (length blob) =? d_size digest d) eqn:E2; simpl; [|reflexivity].
    apply digest_eqb_spec in E1. apply N.eqb_eq in E2. destruct Hne; contradiction.
  Qed.

End Residue.

(* link-through-file-rejected: a dangling relative link whose target passes through a regular
   file of the tree.  Before the fix it was refused when the file had been extracted before it
   (resolveRelToBase returned the ENOTDIR of its Lstat walk, [check_dirs_prefix]); with the fix
   it restores whatever the order *)
Definition through_file_tree (file : string) : tree :=
  Dir 493 0 [ (b file, File (b "x") 420 0); (b "l", Link (b file ++ b "/x/y") 0) ].

(* the user's own umask can take the owner's permissions away: under umask 0300 the pre-created
   directory is 0477 and its owner cannot create anything in it (not a defect of the store) *)
Example owner_bit_umask_refuses :
  extract_p false [b "d"] 192 false (tar_entries [b "d"] true readonly_dir_witness) = Err XPerm /\
  exists f, extract_p true [b "d"] 192 false (tar_entries [b "d"] true readonly_dir_witness) = Ok f.
Proof. split; [vm_compute; reflexivity|eexists; vm_compute; reflexivity]. Qed.
