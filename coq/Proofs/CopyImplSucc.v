(* CopyImplSucc: the invariants Inv4, which tie the tracker to the tasks and frames: the node of a task that is past
   TryCommit is tracked, the items of a frame are dispatched or run by its tasks, a task past its wait loop has its
   successors Done, a copied node has its successors Done.  One preservation lemma for each clause; then what a nil
   return of the top-level call guarantees: every root is Done in the tracker and nothing is left InProgress. *)
From Coq Require Import List Arith Bool Lia.
From Oras Require Import Model.CopyImpl Proofs.CopyImplBase Proofs.CopyImplInv Proofs.CopyImplInv2 Proofs.CopyImplLive
  Proofs.CopyImplFault.
Import ListNotations.

Definition started_pc (p : pc) : bool := match p with TSpawned | TTry => false | _ => true end.
Definition outer_late_pc (p : pc) : bool := match p with TStart | TFin _ => true | _ => false end.
(* from here on the task's node has been committed: by the task itself (copyGraph.fn), or inside the copyGraph
   call of the outer closure *)
Definition committed_pc (k : kind) (p : pc) : bool := match k with KFn => started_pc p | KOuter => outer_late_pc p end.

Section Proofs.
Variable succ : nat -> list nat.
Variable K : nat.
Variable ext : bool.
Variable roots : list nat.
Local Notation Inv1 := (Inv1 K).

Definition I_donecl s := forall n, tracker s n = DoneCopied -> forall m, In m (succ n) -> is_done (tracker s m) = true.
(* a task of copyGraph.fn in its wait loop still waits for every successor that is not Done; past the loop all are Done *)
Definition waitd_at (trk : nat -> status) (tk : task) := forall m, In m (succ (t_node tk)) ->
  match t_pc tk with
  | TWait l => In m l \/ is_done (trk m) = true
  | TStart | TPush => is_done (trk m) = true
  | _ => True
  end.
Definition I_waitd s := forall t, t_kind (tasks s t) = KFn -> waitd_at (tracker s) (tasks s t).
Definition I_tracked s := failed s = false -> forall t, t < ntasks s ->
  committed_pc (t_kind (tasks s t)) (t_pc (tasks s t)) = true -> tracker s (t_node (tasks s t)) <> Untracked.
Definition I_cover s := failed s = false -> forall f i, In i (f_all (frames s f)) ->
  In i (f_items (frames s f)) \/
  exists t, t < ntasks s /\ t_frame (tasks s t) = f /\ t_node (tasks s t) = i /\ t_kind (tasks s t) = f_kind (frames s f).
Definition I_shape s :=
  (forall f p, f_parent (frames s f) = Some p -> f_all (frames s f) = go_items succ (tasks s p) /\ f_kind (frames s f) = KFn) /\
  (forall f, f_pc (frames s f) <> FDispatch -> f_items (frames s f) = []) /\
  (f_all (frames s 0) = roots /\ f_kind (frames s 0) = if ext then KOuter else KFn).
Record Inv4 (s : state) : Prop := {
  i4_donecl : I_donecl s; i4_waitd : I_waitd s; i4_tracked : I_tracked s; i4_cover : I_cover s; i4_shape : I_shape s }.

Lemma inv4_init : Inv4 (init K ext roots).
Proof.
  constructor.
  - intros n Hn. discriminate Hn.
  - intros t _ m _. exact I.
  - intros _ t Hlt. inversion Hlt.
  - intros _ f i. cbn. unfold upd. destruct (Nat.eqb f 0); cbn; [auto | contradiction].
  - split; [|split; [|split; reflexivity]]; intros f; cbn; unfold upd; destruct (Nat.eqb f 0); cbn; congruence.
Qed.

Lemma inv4_shape s l s' : Inv1 s -> I_nfpos s -> I_parent s -> I_shape s -> step succ s l = Some s' -> I_shape s'.
Proof.
  intros I1 Hnf Hpar [Hsh1 [Hsh2 Hsh3]] Hs.
  assert (Hgo : forall p, p < ntasks s -> go_items succ (tasks s' p) = go_items succ (tasks s p)).
  { intros p Hp. destruct (step_task_ident succ s l s' p Hs Hp) as [_ [En [Ek _]]]. unfold go_items. now rewrite En, Ek. }
  split; [|split].
  - intros f p Hp. destruct (step_frame succ s l s' f Hs) as [Ep Ek Ea _|t -> Hpc E].
    + rewrite Ep in Hp. rewrite Ea, Ek, Hgo; [now apply Hsh1 | apply (Hpar f p Hp)].
    + rewrite E in *. injection Hp as <-. split; [|reflexivity].
      symmetry. apply Hgo, (live_lt s t _ (i1_wf _ _ I1) Hpc eq_refl).
  - intros f Hpc. destruct (step_frame succ s l s' f Hs) as [_ _ _ [Ei Ep|i _ Ep|_ _ Ei _|_ _ Ei _]|t _ _ E]; try assumption.
    + rewrite Ei. apply Hsh2. now rewrite <- Ep.
    + contradiction.
    + rewrite E in Hpc. now contradiction Hpc.
  - destruct (step_frame succ s l s' 0 Hs) as [_ Ek Ea _|t H0 _ _]; [now rewrite Ea, Ek | red in Hnf; lia].
Qed.

Lemma inv4_donecl s l s' : I_kfn s -> I_donecl s -> I_waitd s -> step succ s l = Some s' -> I_donecl s'.
Proof.
  intros Hkfn Hdc Hwd Hs n Hn m Hm. apply (done_mono succ s l s' Hs).
  destruct (step_tracker succ s l s' Hs) as [E|n0 _ E|t _ E|t _ Hp E]; rewrite E in Hn.
  - now apply (Hdc n).
  - upd_at n n0; [discriminate Hn | now apply (Hdc n)].
  - upd_at n (t_node (tasks s t)); [discriminate Hn | now apply (Hdc n)].
  - upd_at n (t_node (tasks s t)); [|now apply (Hdc n)].
    (* the successful push of t: t was past its wait loop *)
    assert (Hk : t_kind (tasks s t) = KFn) by (apply Hkfn; now rewrite Hp).
    specialize (Hwd t Hk m Hm). now rewrite Hp in Hwd.
Qed.

Lemma inv4_waitd s l s' : I_waitd s -> step succ s l = Some s' -> I_waitd s'.
Proof.
  intros Hwd Hs t Hk m Hm. pose proof (done_mono succ s l s' Hs) as Hmono.
  assert (Hkeep : t_kind (tasks s t) = KFn -> In m (succ (t_node (tasks s t))) ->
            match t_pc (tasks s t) with TWait l => In m l \/ is_done (tracker s' m) = true
                          | TStart | TPush => is_done (tracker s' m) = true | _ => True end).
  { intros Hk' Hm'. specialize (Hwd t Hk' m Hm'). destruct (t_pc (tasks s t)); intuition. }
  destruct (step_Step succ s l s' Hs) as [| f i rest k _ _ _ | | | f p _ _ _ Hq _ | f p _ _ _ _ _ | t0 _
                                          | l0 t0 q p h k trk Hm0 Hq | l0 t0 q e trk _ _]; cbn [tasks] in Hk, Hm |- *.
  1, 3, 4: now apply Hkeep.
  - upd_at t (ntasks s); [exact I | now apply Hkeep].
  - (* back from syncutil.Go: the wait loop starts with all successors *)
    upd_at t p; [|now apply Hkeep]. cbn [t_kind t_node t_pc set_pc_holds] in *.
    unfold wait_list. rewrite Hk. destruct (succ (t_node (tasks s p))); [contradiction | now left].
  - upd_at t p; [exact I | now apply Hkeep].
  - upd_at t t0; [exact I | now apply Hkeep].
  - upd_at t t0; [|now apply Hkeep]. cbn [t_kind t_node t_pc set_pc_holds] in *.
    specialize (Hwd t0 Hk m Hm). rewrite Hq in Hwd. destruct Hm0 as [| | | | |m0 rest Hd|]; try rewrite Hk; cbn; auto.
    + destruct (succ (t_node (tasks s t0))); [contradiction | exact I].
    + (* the first successor waited for is Done *)
      destruct Hwd as [[<-|Hin]|Hd']; destruct rest; cbn; auto.
  - upd_at t t0; [exact I | now apply Hkeep].
Qed.

(* each item of a Go frame whose tasks are done was run by a task of copyGraph.fn that has finished, hence was
   committed *)
Lemma returned_items_tracked s f p : Inv1 s -> Inv4 s -> failed s = false -> f_parent (frames s f) = Some p ->
  f_pc (frames s f) = FWait -> frame_tasks_done s f = true ->
  forall i, In i (go_items succ (tasks s p)) -> tracker s i <> Untracked.
Proof.
  intros I1 [_ _ Htr Hcov [Hsh1 [Hsh2 _]]] Hfl Hpar Hpc Hdone i Hi.
  destruct (Hsh1 f p Hpar) as [Hall Hkind].
  destruct (Hcov Hfl f i) as [Hin|[c [Hc1 [Hc2 [Hc3 Hc4]]]]]; [now rewrite Hall | |].
  - rewrite (Hsh2 f) in Hin by congruence. contradiction.
  - rewrite <- Hc3. apply Htr; auto. rewrite Hc4, Hkind.
    pose proof (ftd_spec s f (i1_wf _ _ I1) Hdone c Hc2) as Hfin. now destruct (t_pc (tasks s c)).
Qed.

Lemma inv4_tracked s l s' : Inv1 s -> I_ingo s -> Inv3 s -> Inv4 s -> step succ s l = Some s' -> I_tracked s'.
Proof.
  intros I1 Hingo [Hcf _ _ Hkfn] I4 Hs Hfl t Hlt Hst.
  pose proof (unfailed_before succ s l s' Hs Hfl) as Hfl0. pose proof (tracked_mono succ s l s' Hs) as Hmono.
  assert (Hkeep : t < ntasks s -> committed_pc (t_kind (tasks s t)) (t_pc (tasks s t)) = true ->
                  tracker s' (t_node (tasks s t)) <> Untracked).
  { intros Ht Hc. now apply Hmono, (i4_tracked _ I4 Hfl0). }
  destruct (step_Step succ s l s' Hs) as [| f i rest k _ _ _ | | | f p Hpc Hd _ Hq _ | | t0 Hq
                                          | l0 t0 q p h k trk Hm Hq | l0 t0 q e trk Hf Hq];
    cbn [tasks ntasks failed] in Hfl, Hlt, Hst |- *; try discriminate Hfl; try (now apply Hkeep).
  - (* LDispatchAcq: a spawned task is not committed *)
    upd_at t (ntasks s); [|apply Hkeep; auto; lia]. cbn [t_kind t_pc] in Hst. now destruct (f_kind _).
  - (* LGoReturn, nil *) upd_at t p; [|now apply Hkeep]. cbn [t_kind t_node t_pc set_pc_holds] in *.
    destruct (t_kind (tasks s p)) eqn:Hk; [apply Hkeep; auto; now rewrite Hq|].
    (* the outer closure is back from copyGraph, where a task of the Go frame ran its root *)
    apply Hmono, (returned_items_tracked s f p I1 I4 Hfl0 (proj1 (Hingo p f Hq)) Hpc Hd).
    unfold go_items. rewrite Hk. now left.
  - (* LGo *) upd_at t t0; [|now apply Hkeep]. cbn [t_kind t_node t_pc set_pc_holds] in *.
    apply Hkeep; auto. rewrite Hq. now destruct (t_kind _).
  - (* move: fn commits its node; no other move takes a task to a committed pc *)
    upd_at t t0; [|now apply Hkeep]. cbn [t_kind t_node t_pc set_pc_holds tracker] in *.
    specialize (Hkeep Hlt). pose proof (Hkfn t0) as Hfn. rewrite Hq in Hkeep, Hfn.
    destruct Hm; destruct (t_kind (tasks s t0)) eqn:Hk; try (now apply Hkeep); try discriminate Hst;
      try discriminate (Hfn eq_refl).
    rewrite upd_same. discriminate.
  - (* fin: fn finds its node committed; the other endings without error come from a committed pc *)
    upd_at t t0; [|now apply Hkeep]. cbn [t_kind t_node t_pc set_pc_holds tracker] in *.
    destruct e; [rewrite orb_true_r in Hfl; discriminate Hfl|].
    specialize (Hkeep Hlt). pose proof (Hkfn t0) as Hfn. rewrite Hq in Hkeep, Hfn. clear Hq.
    inversion Hf; subst; destruct (t_kind (tasks s t0)) eqn:Hk; try (now apply Hkeep);
      try discriminate (Hfn eq_refl); try (now apply Hmono).
    all: rewrite (Hcf _ ltac:(eassumption)) in Hfl0; discriminate Hfl0.
Qed.

Lemma inv4_cover s l s' : I_cancf s -> I_shape s -> I_cover s -> step succ s l = Some s' -> I_cover s'.
Proof.
  intros Hcf [_ [Hsh2 _]] Hcov Hs Hfl f i Hi.
  pose proof (unfailed_before succ s l s' Hs Hfl) as Hfl0.
  destruct (step_frame succ s l s' f Hs) as [_ Ek Ea M|t _ _ E]; [|left; rewrite E in *; exact Hi].
  rewrite Ea in Hi. destruct (Hcov Hfl0 f i Hi) as [Hin|[c [Hc1 [Hc2 [Hc3 Hc4]]]]].
  2: { right. exists c. destruct (step_task_ident succ s l s' c Hs Hc1) as [? [-> [-> ->]]]. rewrite Ek. auto. }
  destruct M as [Ei _|i0 _ _ Ei Et En|_ [Hnil|Hc] _ _|_ Hp _ _].
  - left. now rewrite Ei.
  - (* the dispatch loop hands the first item to a new task *)
    rewrite Ei in Hin. destruct Hin as [<-|Hin]; [right; exists (ntasks s); rewrite Et, En, Ek; cbn; auto | now left].
  - rewrite Hnil in Hin. contradiction.
  - rewrite (Hcf f Hc) in Hfl0. discriminate.
  - rewrite (Hsh2 f) in Hin by congruence. contradiction.
Qed.

End Proofs.

Section Reach.
Variable succ : nat -> list nat.
Variable K : nat.
Variable ext : bool.
Variable roots : list nat.
Hypothesis succ_dec : forall n m, In m (succ n) -> m < n.
Local Notation Reachable := (Reachable succ K ext roots).
Local Notation Inv1 := (Inv1 K).
Local Notation Inv2 := (Inv2 succ).
Local Notation Inv4 := (Inv4 succ ext roots).

Lemma inv4_step s l s' : Inv1 s -> Inv2 s -> Inv3 s -> Inv4 s -> step succ s l = Some s' -> Inv4 s'.
Proof.
  intros I1 I2 I3 I4 Hs. constructor.
  - apply (inv4_donecl succ s l s'); auto; apply I3 || apply I4.
  - apply (inv4_waitd succ s l s'); auto; apply I4.
  - apply (inv4_tracked succ K ext roots s l s'); auto; apply I2.
  - apply (inv4_cover succ ext roots s l s'); auto; apply I3 || apply I4.
  - apply (inv4_shape succ K ext roots s l s'); auto; apply I2 || apply I4.
Qed.

Lemma inv1234_reach s : Reachable s -> Inv1 s /\ Inv2 s /\ Inv3 s /\ Inv4 s.
Proof.
  induction 1 as [|s l s' Hr [I1 [I2 [I3 I4]]] Hs].
  - split; [apply inv1_init | split; [apply inv2_init | split; [apply inv3_init | apply inv4_init]]].
  - split; [eapply inv1_step; eauto | split; [eapply inv2_step; eauto | split; [eapply inv3_step; eauto | eapply inv4_step; eauto]]].
Qed.

(* result s = Some false: the top-level syncutil.Go returned nil *)
Theorem success_tracker s : Reachable s -> result s = Some false ->
  failed s = false /\
  (forall t, is_fin (t_pc (tasks s t)) = true /\ t_holds (tasks s t) = false) /\
  (forall r, In r roots -> is_done (tracker s r) = true) /\
  (forall n, tracker s n = DoneCopied -> forall m, In m (succ n) -> is_done (tracker s m) = true) /\
  (forall n, tracker s n <> InProgress).
Proof.
  intros Hr Hres. destruct (inv1234_reach s Hr) as [I1 [I2 [I3 I4]]].
  assert (Hfin : is_final s = true).
  { unfold is_final, result in *. destruct (f_pc (frames s 0)); try discriminate; reflexivity. }
  assert (Hfl : failed s = false).
  { destruct (failed s) eqn:Hf; auto. pose proof (failed_final_error succ K ext roots succ_dec s Hr Hf Hfin). congruence. }
  pose proof (final_all_finished succ s I2 Hfin) as Hall.
  assert (Hnip : forall n, tracker s n <> InProgress).
  { intros n Hn. destruct (i3_own _ I3 Hfl n Hn) as [o [_ [_ Ho]]]. specialize (Hall o).
    destruct (t_pc (tasks s o)); discriminate. }
  split; auto. split.
  { intros t. split; auto. destruct (permits_conserved succ K ext roots s Hr) as [_ [_ Hh]]. auto. }
  split; [|split; [apply I4 | auto]].
  intros r Hin.
  destruct I4 as [Hdc Hwd Htr Hcov [Hsh1 [Hsh2 [Hsh3 Hsh4]]]].
  assert (Hnu : tracker s r <> Untracked).
  { destruct (Hcov Hfl 0 r) as [Hi|[c [Hc1 [Hc2 [Hc3 Hc4]]]]].
    - rewrite Hsh3. auto.
    - rewrite (Hsh2 0) in Hi. contradiction. unfold is_final in Hfin. destruct (f_pc (frames s 0)); discriminate.
    - rewrite <- Hc3. specialize (Hall c). apply Htr; auto.
      destruct (t_kind (tasks s c)), (t_pc (tasks s c)); try discriminate; reflexivity. }
  specialize (Hnip r). destruct (tracker s r); try congruence; reflexivity.
Qed.

End Reach.
