(* CopyImplLive: the failure-propagation invariants Inv3 of the protocol LTS; at the end `fires`, what deadlock
   freedom says of a state. *)
From Coq Require Import List Arith Bool Lia.
From Oras Require Import Model.CopyImpl Proofs.CopyImplBase Proofs.CopyImplInv Proofs.CopyImplInv2.
Import ListNotations.

Definition owner_pc (p : pc) : bool :=
  match p with TExists | TFind | TEnd | TGo | TInGo _ | TWait _ | TStart | TPush => true | _ => false end.

Definition I_cancf s := forall f, f_cancelled (frames s f) = true -> failed s = true.
Definition I_failw s := failed s = true ->
  (exists f, f_cancelled (frames s f) = true /\ is_ret (f_pc (frames s f)) = false) \/ f_pc (frames s 0) = FRet true.
Definition I_own s := failed s = false -> forall m, tracker s m = InProgress ->
  exists t, t_node (tasks s t) = m /\ t_kind (tasks s t) = KFn /\ owner_pc (t_pc (tasks s t)) = true.
Definition fn_pc (p : pc) : bool := match p with TTry | TExists | TFind | TPush | TWait _ => true | _ => false end.
Definition I_kfn s := forall t, fn_pc (t_pc (tasks s t)) = true -> t_kind (tasks s t) = KFn.
Record Inv3 (s : state) : Prop := { i3_cancf : I_cancf s; i3_failw : I_failw s; i3_own : I_own s; i3_kfn : I_kfn s }.

Section Proofs.
Variable succ : nat -> list nat.
Variable K : nat.
Variable ext : bool.
Variable roots : list nat.
Hypothesis succ_dec : forall n m, In m (succ n) -> m < n.
Local Notation Reachable := (Reachable succ K ext roots).
Local Notation Inv1 := (Inv1 K).
Local Notation Inv2 := (Inv2 succ).
Local Notation I_wait := (I_wait succ).

Lemma inv3_init : Inv3 (init K ext roots).
Proof.
  constructor; red; cbn; intros; try discriminate.
  unfold upd in *. destruct (Nat.eqb f 0); cbn in *; discriminate.
Qed.

Lemma inv3_failing s' : failed s' = true -> I_kfn s' ->
  (exists f, f_cancelled (frames s' f) = true /\ is_ret (f_pc (frames s' f)) = false) -> Inv3 s'.
Proof.
  intros Hfl Hk Hw. constructor; auto; red; auto. rewrite Hfl. discriminate.
Qed.
Lemma cancel_witness x fs : In x (f_anc (fs x)) -> is_ret (f_pc (fs x)) = false ->
  exists f, f_cancelled (cancel_frames x fs f) = true /\ is_ret (f_pc (cancel_frames x fs f)) = false.
Proof.
  intros Hx Hr. exists x. rewrite cf_cancelled, (cf_proj f_pc) by reflexivity. split; [|exact Hr].
  apply orb_true_iff. left. now apply existsb_eqb_in.
Qed.

Lemma cancf_frame s g its q ts nt nf k trk tc : I_cancf s ->
  I_cancf (mkState ts nt (upd (frames s) g (set_fpc (frames s g) its q)) nf k trk tc (failed s)).
Proof. intros Hcf f. cbn [frames failed]. rewrite (upd_proj f_cancelled) by reflexivity. apply Hcf. Qed.

Lemma failw_frame s g its q ts nt k trk tc : I_failw s -> is_ret (f_pc (frames s g)) = false ->
  (is_ret q = true -> q = FRet (f_cancelled (frames s g)) /\ (f_cancelled (frames s g) = true -> g = 0)) ->
  I_failw (mkState ts nt (upd (frames s) g (set_fpc (frames s g) its q)) (nframes s) k trk tc (failed s)).
Proof.
  intros Hfw Hg Hq Hfl. cbn [frames failed] in *.
  destruct (Hfw Hfl) as [[w [Hc Hr]]|Ht].
  - destruct (Nat.eq_dec w g) as [->|Hne].
    + destruct (is_ret q) eqn:Hrq.
      * destruct (Hq eq_refl) as [-> Hz]. specialize (Hz Hc) as ->. right. rewrite upd_same, Hc. reflexivity.
      * left. exists g. rewrite (upd_proj f_cancelled), upd_same by reflexivity. auto.
    + left. exists w. rewrite (upd_proj f_cancelled), upd_other by (auto; reflexivity). auto.
  - right. rewrite upd_other; auto. intros <-. now rewrite Ht in Hg.
Qed.

Lemma own_task s u q h nt fs nf k trk tc : I_own s -> failed s = false ->
  (forall m, trk m = InProgress -> tracker s m = InProgress \/
     m = t_node (tasks s u) /\ t_kind (tasks s u) = KFn /\ owner_pc q = true) ->
  (owner_pc (t_pc (tasks s u)) = true -> t_kind (tasks s u) = KFn ->
     owner_pc q = true \/ trk (t_node (tasks s u)) <> InProgress) ->
  I_own (mkState (upd (tasks s) u (set_pc_holds (tasks s u) q h)) nt fs nf k trk tc (failed s)).
Proof.
  intros Hown Hfl Hnew Hkeep _ m Hm. cbn [tasks tracker] in *.
  destruct (Hnew m Hm) as [Ho|[-> [Hk Hq]]].
  - destruct (Hown Hfl m Ho) as [t [Ht1 [Ht2 Ht3]]].
    destruct (Nat.eq_dec t u) as [->|Hne].
    + exists u. rewrite upd_same. cbn. destruct (Hkeep Ht3 Ht2) as [Hq|Hq]; [auto | congruence].
    + exists t. rewrite upd_other; auto.
  - exists u. rewrite upd_same. auto.
Qed.

Lemma kfn_task s u q h nt fs nf k trk tc fl : I_kfn s -> (fn_pc q = true -> t_kind (tasks s u) = KFn) ->
  I_kfn (mkState (upd (tasks s) u (set_pc_holds (tasks s u) q h)) nt fs nf k trk tc fl).
Proof.
  intros Hk Hq t. cbn [tasks]. rewrite (upd_proj t_kind) by reflexivity.
  destruct (Nat.eq_dec t u) as [->|Hne]; [now rewrite upd_same | rewrite upd_other; auto].
Qed.

Lemma inv3_step s l s' : Inv1 s -> Inv2 s -> Inv3 s -> step succ s l = Some s' -> Inv3 s'.
Proof.
  intros [Hwf Hperm Hmust Hmay] [Hwff Hnf Htf Hunf Hingo Hpar Htop Hself Hanc Hrank Hwait] [Hcf Hfw Hown Hkfn] Hs.
  destruct (step_Step succ s l s' Hs) as [Htc Hr0 | f i rest k Hpc Hit Hfr | l f Hpc _ | f Hpc Hd Hp | f p Hpc Hd Hp Hq Hc
                                          | f p Hpc Hd Hp Hq Hc | t Hp | l t q p h k trk Hm Hq | l t q e trk Hf Hq].
  - (* LCancelTop *) apply inv3_failing; auto. apply cancel_witness; [apply Hself, Hnf | exact Hr0].
  - (* LDispatchAcq *) constructor.
    + now apply cancf_frame.
    + apply failw_frame; auto; [now rewrite Hpc | discriminate].
    + intros Hfl m Hm. destruct (Hown Hfl m Hm) as [o [Ho1 [Ho2 Ho3]]]. exists o. cbn [tasks].
      rewrite upd_other; auto. intros ->. rewrite Hwf in Ho3 by lia. discriminate.
    + intros t. cbn [tasks]. upd_at t (ntasks s); [discriminate | auto].
  - (* LDispatchEnd, LDispatchFail *) constructor; auto.
    + now apply cancf_frame.
    + apply failw_frame; auto; [now rewrite Hpc | discriminate].
  - (* LGoReturn, top-level frame *) constructor; auto.
    + now apply cancf_frame.
    + apply failw_frame; auto; [now rewrite Hpc|]. intros _. split; auto. intros _.
      pose proof (flive s f _ Hwff Hpc eq_refl). destruct (Htop f Hp); [auto | lia].
  - (* LGoReturn, nil *) constructor.
    + now apply cancf_frame.
    + apply failw_frame; auto; [now rewrite Hpc|]. rewrite Hc. split; [auto | discriminate].
    + intros Hfl. apply own_task; auto; rewrite Hq; intros _; left; unfold wait_pc; now destruct (wait_list _ _).
    + apply kfn_task; auto. unfold wait_pc, wait_list. destruct (t_kind _); [auto|discriminate].
  - (* LGoReturn, error: the caller fails and cancels its own frame *)
    apply inv3_failing; [reflexivity | apply kfn_task; auto; discriminate |].
    cbn [frames]. assert (Hne : t_frame (tasks s p) <> f) by (destruct (Hpar f p Hp) as [[? _] _]; lia).
    apply cancel_witness; rewrite upd_other by auto; [apply Hself, Htf | apply Hunf; now rewrite Hq].
  - (* LGo: the new frame inherits the flag *) constructor.
    + intros g. cbn [frames failed]. upd_at g (nframes s); apply Hcf.
    + intros Hfl. destruct (Hfw Hfl) as [[w [Hc Hr]]|Ht]; cbn [frames]; [left; exists w|right]; rewrite upd_other; auto.
      * pose proof (flive s w _ Hwff eq_refl Hr). lia.
      * red in Hnf. lia.
    + intros Hfl. apply own_task; auto; rewrite Hp; auto.
    + apply kfn_task; auto. discriminate.
  - (* move *) pose proof (Hkfn t) as Hk. rewrite Hq in Hk. constructor; auto.
    + intros Hfl. apply own_task; auto; rewrite ?Hq; destruct Hm; auto; try discriminate.
      all: cbn [owner_pc]; try (intros _ _; left; first [now destruct (succ _) | now destruct rest]).
      intros m Hm. upd_at m (t_node (tasks s t)); [right; auto | now left].
    + apply kfn_task; auto. destruct Hm; try discriminate; auto.
      destruct (t_kind _); [auto|discriminate].
  - (* fin *) pose proof (fin_running s t l q e trk Hf) as Hrun. destruct e.
    + apply inv3_failing; [apply orb_true_r | apply kfn_task; auto; discriminate |].
      apply cancel_witness; [apply Hself, Htf | apply Hunf; rewrite Hq; now apply running_alive].
    + rewrite orb_false_r. constructor; auto; [|apply kfn_task; auto; discriminate].
      (* a task that ends without error owns nothing any more: it marks its node Done, or was not its owner *)
      intros Hfl. apply own_task; auto; rewrite ?Hq; clear Hq.
      * intros m Hm. left. inversion Hf; subst; auto; try (destruct ok; [|easy]);
          (upd_at m (t_node (tasks s t)); [discriminate | exact Hm]).
      * intros Ho Hk. right. inversion Hf; subst; try discriminate Ho; try congruence;
          try (destruct ok; [|easy]); rewrite upd_same; discriminate.
Qed.

Lemma inv123_reach s : Reachable s -> Inv1 s /\ Inv2 s /\ Inv3 s.
Proof.
  induction 1 as [|s l s' Hr [I1 [I2 I3]] Hs].
  - split; [apply inv1_init | split; [apply inv2_init | apply inv3_init]].
  - split; [eapply inv1_step; eauto | split; [eapply inv2_step; eauto | eapply inv3_step; eauto]].
Qed.

(* deadlock freedom (CopyImplDeadlock): some protocol step, not a choice of the environment, is enabled *)
Definition fires s : Prop :=
  exists l s', progress_label l = true /\ step succ s l = Some s' /\ In l (enabled succ s).

End Proofs.
