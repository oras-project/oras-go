(* Reading back the decimal numbers json.Marshal writes. *)
From Oras Require Import Base.Prelude Model.Pack Model.PackEnc Proofs.PackTime Proofs.PackEnc.

Definition val (a : N) (ds : str) : N := fold_left (fun x d => x * 10 + (d - 48)) ds a.

Fixpoint pow10 (k : nat) : N := match k with O => 1 | S k' => 10 * pow10 k' end.

Lemma val_app a ds d : val a (ds ++ [d]) = val a ds * 10 + (d - 48).
Proof. unfold val. now rewrite fold_left_app. Qed.

Lemma dec_digits_S f n acc :
  dec_digits (S f) n acc = if n / 10 =? 0 then (48 + n mod 10) :: acc else dec_digits f (n / 10) ((48 + n mod 10) :: acc).
Proof. reflexivity. Qed.

Lemma single_digit n l :
  n / 10 = 0 ->
  exists ds, (48 + n mod 10) :: l = ds ++ l /\ ds <> [] /\
             Forall (fun c => is_digit c = true) ds /\ forall a, val a ds = a * pow10 (length ds) + n.
Proof.
  intro Z. pose proof (N.div_mod n 10 ltac:(discriminate)) as DM. pose proof (N.mod_lt n 10 ltac:(discriminate)) as ML.
  exists [48 + n mod 10]. split; [reflexivity|]. split; [discriminate|].
  split; [constructor; [apply dig_of; lia | constructor]|].
  intro a. unfold val. cbn [fold_left length pow10]. rewrite add48. lia.
Qed.

Lemma dec_digits_spec f : forall n l, n < pow10 (S f) ->
  exists ds, dec_digits (S f) n l = ds ++ l /\ ds <> [] /\
             Forall (fun c => is_digit c = true) ds /\ forall a, val a ds = a * pow10 (length ds) + n.
Proof.
  induction f as [|f IH]; intros n l L; rewrite dec_digits_S.
  - simpl in L. assert (Z : n / 10 = 0) by (apply N.div_small; lia). rewrite Z. now apply single_digit.
  - destruct (n / 10 =? 0) eqn:Z; [apply N.eqb_eq in Z; now apply single_digit|].
    pose proof (N.div_mod n 10 ltac:(discriminate)) as DM. pose proof (N.mod_lt n 10 ltac:(discriminate)) as ML.
    assert (Lq : n / 10 < pow10 (S f)).
    { apply N.div_lt_upper_bound; [discriminate|]. change (pow10 (S (S f))) with (10 * pow10 (S f)) in L. exact L. }
    destruct (IH (n / 10) ((48 + n mod 10) :: l) Lq) as (ds & E & NE & F & V).
    exists (ds ++ [48 + n mod 10]). split; [rewrite E, <- app_assoc; reflexivity|].
    split; [destruct ds; discriminate|]. split; [apply Forall_app; split; auto; constructor; [apply dig_of; lia | constructor]|].
    intro a. rewrite val_app, V, add48, app_length. simpl length. rewrite Nat.add_1_r.
    change (pow10 (S (length ds))) with (10 * pow10 (length ds)). set (p := pow10 (length ds)). lia.
Qed.

Lemma read_digits_app ds rest a :
  Forall (fun c => is_digit c = true) ds ->
  match rest with c :: _ => is_digit c = false | [] => True end ->
  read_digits (ds ++ rest) a = (val a ds, rest).
Proof.
  intros F R. revert a. induction F as [|d ds D F IH]; intro a; cbn [app read_digits val fold_left].
  - destruct rest as [|c r]; auto. cbn [read_digits]. now rewrite R.
  - rewrite D. apply IH.
Qed.

Theorem read_json_nat n rest :
  n < pow10 40 ->
  match rest with c :: _ => is_digit c = false | [] => True end ->
  read_digits (json_nat n ++ rest) 0 = (n, rest).
Proof.
  intros L R. unfold json_nat. destruct (dec_digits_spec 39 n [] L) as (ds & E & _ & F & V).
  rewrite E, app_nil_r, (read_digits_app ds rest 0 F R), V. f_equal; lia.
Qed.


Lemma json_int_of_N n : json_int (Z.of_N n) = json_nat n.
Proof. destruct n; reflexivity. Qed.

Lemma desc_head c n : d_sz c = Z.of_N n ->
  exists t, json_desc c = 123 :: field "mediaType" (json_string (d_mt c)) ++ comma ++
                          field "digest" (json_string (d_dg c)) ++ comma ++
                          json_string (b "size") ++ 58 :: json_nat n ++ t /\
            exists ch t', t = ch :: t' /\ is_digit ch = false.
Proof.
  intro SZ. unfold json_desc. cbn [app].
  match goal with |- context [json_obj (?a :: ?b' :: ?c' :: ?l)] => destruct (join_head c' l) as (t & E & T) end.
  exists (t ++ [125]). split.
  - unfold json_obj. rewrite !join_cons, E. rewrite SZ, json_int_of_N. unfold field at 3.
    cbn [app]. rewrite <- !app_assoc. cbn [app]. reflexivity.
  - destruct T as [-> | (t' & ->)]; eexists _, _; split; reflexivity.
Qed.

Lemma read_config_head_json c n tail :
  d_sz c = Z.of_N n -> n < pow10 40 ->
  read_config_head (field "config" (json_desc c) ++ tail) = Some (utf8_san (d_mt c), utf8_san (d_dg c), n).
Proof.
  intros SZ L. destruct (desc_head c n SZ) as (t & ED & ch & t' & -> & ND).
  unfold read_config_head, field at 1. rewrite ED.
  assert (E : (json_string (b "config") ++ 58 :: 123 :: field "mediaType" (json_string (d_mt c)) ++ comma ++
               field "digest" (json_string (d_dg c)) ++ comma ++ json_string (b "size") ++ 58 :: json_nat n ++ ch :: t') ++ tail
              = (json_string (b "config") ++ [58; 123]) ++ field "mediaType" (json_string (d_mt c)) ++ comma ++
                field "digest" (json_string (d_dg c)) ++
                (comma ++ json_string (b "size") ++ [58]) ++ json_nat n ++ (ch :: t') ++ tail).
  { unfold comma. repeat (progress (repeat rewrite <- app_assoc; cbn [app])). reflexivity. }
  rewrite E, strip_prefix_app, read_field_json, strip_prefix_app, read_field_json, strip_prefix_app.
  rewrite read_json_nat; auto.
Qed.

Theorem doc_config_head_json m c n :
  m_kind m = KImage -> m_config m = Some c -> d_sz c = Z.of_N n -> n < pow10 40 ->
  doc_config_head (json_manifest m) = Some (utf8_san (d_mt c), utf8_san (d_dg c), n).
Proof.
  intros K C SZ L. destruct (json_manifest_head m) as (rest & ->). rewrite K, C. unfold doc_config_head.
  cbn [strip_prefix N.eqb Pos.eqb]. rewrite strip_prefix_app, read_field_json, strip_prefix_app.
  destruct (m_at m); cbn [app]; [|rewrite <- app_assoc, read_field_json, strip_prefix_app];
    now apply read_config_head_json.
Qed.
