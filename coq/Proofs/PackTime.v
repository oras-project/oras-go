(* The created-annotation recogniser of Model/Pack.v against RFC 3339 section 5.6. *)
From Oras Require Import Base.Prelude Base.StrCheck Generated.GC19 Model.Pack Proofs.Pack.

Definition dig (c : N) : Prop := is_digit c = true.
Definition two (a c : N) : N := dval a * 10 + dval c.
Definition four (a c d e : N) : N := ((dval a * 10 + dval c) * 10 + dval d) * 10 + dval e.

(* date-time = full-date ("T"/"t") partial-time time-offset, with the field ranges of 5.6/5.7.
   [tseps]: admissible separators, [zs]: admissible spellings of "Z", [maxsec]: 60 admits the
   leap second. *)
Definition frac_ok (frac : str) : Prop :=
  frac = [] \/ exists f fs, frac = 46 :: f :: fs /\ Forall dig (f :: fs).

Definition zone_ok (zs : list N) (zone : str) : Prop :=
  (exists z, zone = [z] /\ In z zs) \/
  exists sg a1 a2 c1 c2, zone = [sg; a1; a2; 58; c1; c2] /\ (sg = 43 \/ sg = 45) /\
    Forall dig [a1; a2; c1; c2] /\ two a1 a2 <= 23 /\ two c1 c2 <= 59.

Definition DateTime (tseps zs : list N) (maxsec : N) (s : str) : Prop :=
  exists y1 y2 y3 y4 o1 o2 d1 d2 tsep h1 h2 m1 m2 s1 s2 frac zone,
    s = [y1; y2; y3; y4; 45; o1; o2; 45; d1; d2; tsep; h1; h2; 58; m1; m2; 58; s1; s2] ++ frac ++ zone /\
    Forall dig [y1; y2; y3; y4; o1; o2; d1; d2; h1; h2; m1; m2; s1; s2] /\
    In tsep tseps /\
    1 <= two o1 o2 <= 12 /\
    1 <= two d1 d2 <= days_in (two o1 o2) (four y1 y2 y3 y4) /\
    two h1 h2 <= 23 /\ two m1 m2 <= 59 /\ two s1 s2 <= maxsec /\
    frac_ok frac /\ zone_ok zs zone.

(* RFC 3339 section 5.6 *)
Definition RFC3339 : str -> Prop := DateTime [84; 116] [90; 122] 60.
(* its subset with upper-case "T" and "Z" and without leap second (what Go reads) *)
Definition RFC3339_go : str -> Prop := DateTime [84] [90] 59.

Lemma DateTime_mono t1 z1 m1 t2 z2 m2 s :
  incl t1 t2 -> incl z1 z2 -> m1 <= m2 -> DateTime t1 z1 m1 s -> DateTime t2 z2 m2 s.
Proof.
  intros It Iz Im (y1 & y2 & y3 & y4 & o1 & o2 & d1 & d2 & tsep & h1 & h2 & mi1 & mi2 & s1 & s2 & frac & zone &
                   E & D & T & Mo & Da & Ho & Mi & Se & Fr & Zo).
  exists y1, y2, y3, y4, o1, o2, d1, d2, tsep, h1, h2, mi1, mi2, s1, s2, frac, zone.
  repeat (split; [assumption || (apply It; assumption) || lia|]).
  destruct Zo as [(z & -> & I) | Z]; [left; exists z; split; auto | right; exact Z].
Qed.

Lemma go_is_rfc s : RFC3339_go s -> RFC3339 s.
Proof.
  apply DateTime_mono; try lia; intros x [<-|[]]; simpl; auto.
Qed.

Lemma num4_inv s v r :
  num4 s = Some (v, r) ->
  exists a c d e, s = a :: c :: d :: e :: r /\ dig a /\ dig c /\ dig d /\ dig e /\ v = four a c d e.
Proof.
  unfold num4. destruct s as [|a [|c [|d [|e s]]]]; try discriminate.
  destruct (is_digit a) eqn:A; [|discriminate]. destruct (is_digit c) eqn:C; [|discriminate].
  destruct (is_digit d) eqn:D; [|discriminate]. destruct (is_digit e) eqn:E; [|discriminate].
  simpl. intros [= <- <-]. exists a, c, d, e. auto 10.
Qed.

Lemma num2_inv s v r :
  num2 s = Some (v, r) -> exists a c, s = a :: c :: r /\ dig a /\ dig c /\ v = two a c.
Proof.
  unfold num2. destruct s as [|a [|c s]]; try discriminate.
  destruct (is_digit a) eqn:A; [|discriminate]. destruct (is_digit c) eqn:C; [|discriminate].
  simpl. intros [= <- <-]. exists a, c. auto.
Qed.

Lemma num12_inv s v r :
  num12 s = Some (v, r) ->
  exists a, dig a /\
    ((exists c, s = a :: c :: r /\ dig c /\ v = two a c) \/ (s = a :: r /\ v = dval a)).
Proof.
  unfold num12. destruct s as [|a s]; [discriminate|].
  destruct (is_digit a) eqn:A; [|discriminate]. intro E. exists a. split; [exact A|].
  destruct s as [|c s]; [|destruct (is_digit c) eqn:C]; injection E as <- <-; eauto.
Qed.

Lemma lit_inv c s r : lit c s = Some r -> s = c :: r.
Proof.
  unfold lit. destruct s as [|x s]; [discriminate|]. destruct (x =? c) eqn:E; [|discriminate].
  apply N.eqb_eq in E. now intros [= <-]; subst.
Qed.

Lemma skip_digits_split s : exists ds, s = ds ++ skip_digits s /\ Forall dig ds.
Proof.
  induction s as [|c s (ds & E & F)]; simpl.
  - exists []. split; auto.
  - destruct (is_digit c) eqn:C.
    + exists (c :: ds). split; [simpl; now f_equal | constructor; auto].
    + exists []. split; auto.
Qed.

Lemma skip_digits_app ds z : Forall dig ds -> skip_digits z = z -> skip_digits (ds ++ z) = z.
Proof.
  induction 1 as [|c ds C F IH]; simpl; auto. intro Z. unfold dig in C. now rewrite C, IH.
Qed.

(* the zone both recognisers read; they differ in the bounds *)
Definition zone_b (hmax mmax : N) (zone : str) : Prop :=
  zone = [90] \/
  exists sg a1 a2 c1 c2, zone = [sg; a1; a2; 58; c1; c2] /\ (sg = 43 \/ sg = 45) /\
    Forall dig [a1; a2; c1; c2] /\ two a1 a2 <= hmax /\ two c1 c2 <= mmax.

(* ... and the fraction; time.Parse also takes a comma *)
Definition frac_b (strict : bool) (frac : str) : Prop :=
  frac = [] \/ exists sep f fs, frac = sep :: f :: fs /\ (sep = 46 \/ strict = false /\ sep = 44) /\ Forall dig (f :: fs).

Lemma tz_ok_spec strict z :
  tz_ok strict z = true <-> zone_b (if strict then 23 else 24) (if strict then 59 else 60) z.
Proof.
  unfold tz_ok, zone_b, two. split.
  - destruct z as [|sg r]; [discriminate|]. destruct (sg =? 90) eqn:E.
    + apply N.eqb_eq in E. subst. destruct r; [now left | discriminate].
    + destruct r as [|h1 [|h2 [|col [|m1 [|m2 [|]]]]]]; try discriminate; [|now rewrite andb_false_r].
      rewrite andb_true_r, !andb_true_iff, orb_true_iff, !N.eqb_eq, !N.leb_le.
      intros (((((((-> & H1) & H2) & M1) & M2) & Sg) & Hh) & Mm).
      right. exists sg, h1, h2, m1, m2. repeat split; auto.
  - intros [-> | (sg & a1 & a2 & c1 & c2 & -> & Sg & Dg & Hh & Mm)]; [reflexivity|].
    inversion Dg as [|? ? A1 Dg1]; subst. inversion Dg1 as [|? ? A2 Dg2]; subst.
    inversion Dg2 as [|? ? C1 Dg3]; subst. inversion Dg3 as [|? ? C2 _]; subst.
    apply N.leb_le in Hh, Mm. unfold dig in *. rewrite A1, A2, C1, C2, Hh, Mm.
    destruct Sg as [-> | ->]; reflexivity.
Qed.

Lemma skip_frac_split strict r : exists frac, r = frac ++ skip_frac strict r /\ frac_b strict frac.
Proof.
  unfold skip_frac. destruct r as [|p [|d r]]; try (exists []; split; [reflexivity | now left]).
  destruct (((p =? 46) || (negb strict && (p =? 44))) && is_digit d) eqn:G; [|exists []; split; [reflexivity | now left]].
  apply andb_true_iff in G as [Sep D]. destruct (skip_digits_split r) as (ds & E & F).
  exists (p :: d :: ds). split; [simpl; now rewrite <- E|]. right. exists p, d, ds. split; [reflexivity|].
  split; [|constructor; auto].
  apply orb_true_iff in Sep as [S|S]; [left; now apply N.eqb_eq|].
  apply andb_true_iff in S as [S1 S2]. right. apply N.eqb_eq in S2. destruct strict; [discriminate | auto].
Qed.

(* what both recognisers read: date, 'T', a two-digit hour (time.Parse: one digit will do),
   minute, second -- with the field ranges -- then an optional fraction and a zone *)
Lemma gen_inv strict s :
  rfc3339_gen strict s = true ->
  exists y1 y2 y3 y4 o1 o2 d1 d2 hh m1 m2 s1 s2 frac zone,
    s = [y1; y2; y3; y4; 45; o1; o2; 45; d1; d2; 84] ++ hh ++ [58; m1; m2; 58; s1; s2] ++ frac ++ zone /\
    Forall dig [y1; y2; y3; y4; o1; o2; d1; d2; m1; m2; s1; s2] /\
    ((exists h1 h2, hh = [h1; h2] /\ dig h1 /\ dig h2 /\ two h1 h2 <= 23) \/
     (strict = false /\ exists h, hh = [h])) /\
    1 <= two o1 o2 <= 12 /\ 1 <= two d1 d2 <= days_in (two o1 o2) (four y1 y2 y3 y4) /\
    two m1 m2 <= 59 /\ two s1 s2 <= 59 /\
    frac_b strict frac /\ zone_b (if strict then 23 else 24) (if strict then 59 else 60) zone.
Proof.
  unfold rfc3339_gen.
  destruct (num4 s) as [[year r1]|] eqn:E1; [|discriminate].
  apply num4_inv in E1 as (y1 & y2 & y3 & y4 & -> & Y1 & Y2 & Y3 & Y4 & ->).
  destruct (lit 45 r1) as [r2|] eqn:E2; [|discriminate]. apply lit_inv in E2 as ->.
  destruct (num2 r2) as [[month r3]|] eqn:E3; [|discriminate].
  apply num2_inv in E3 as (o1 & o2 & -> & O1 & O2 & ->).
  destruct (lit 45 r3) as [r4|] eqn:E4; [|discriminate]. apply lit_inv in E4 as ->.
  destruct (num2 r4) as [[day r5]|] eqn:E5; [|discriminate].
  apply num2_inv in E5 as (d1 & d2 & -> & D1 & D2 & ->).
  destruct (lit 84 r5) as [r6|] eqn:E6; [|discriminate]. apply lit_inv in E6 as ->.
  destruct (if strict then num2 r6 else num12 r6) as [[hour r7]|] eqn:E7; [|discriminate].
  destruct (lit 58 r7) as [r8|] eqn:E8; [|discriminate]. apply lit_inv in E8 as ->.
  destruct (num2 r8) as [[minute r9]|] eqn:E9; [|discriminate].
  apply num2_inv in E9 as (m1 & m2 & -> & M1 & M2 & ->).
  destruct (lit 58 r9) as [r10|] eqn:E10; [|discriminate]. apply lit_inv in E10 as ->.
  destruct (num2 r10) as [[sec r11]|] eqn:E11; [|discriminate].
  apply num2_inv in E11 as (s1 & s2 & -> & S1 & S2 & ->).
  intro T. apply andb_true_iff in T as [T Tz]. apply tz_ok_spec in Tz.
  destruct (skip_frac_split strict r11) as (frac & Er & Fr).
  repeat (apply andb_true_iff in T as [T ?]).
  repeat match goal with
         | Hx : (_ <=? _) = true |- _ => apply N.leb_le in Hx
         | Hx : (_ <? _) = true |- _ => apply N.ltb_lt in Hx
         end.
  assert (HH : exists hh, r6 = hh ++ 58 :: m1 :: m2 :: 58 :: s1 :: s2 :: r11 /\
                ((exists h1 h2, hh = [h1; h2] /\ dig h1 /\ dig h2 /\ two h1 h2 <= 23) \/
                 (strict = false /\ exists h, hh = [h]))).
  { destruct strict.
    - apply num2_inv in E7 as (h1 & h2 & -> & A1 & A2 & ->). exists [h1; h2]. split; [reflexivity|].
      left. exists h1, h2. repeat split; auto. lia.
    - apply num12_inv in E7 as (h1 & A1 & [(h2 & -> & A2 & ->) | (-> & _)]).
      + exists [h1; h2]. split; [reflexivity|]. left. exists h1, h2. repeat split; auto. lia.
      + exists [h1]. split; [reflexivity|]. right. eauto. }
  destruct HH as (hh & -> & Hh).
  exists y1, y2, y3, y4, o1, o2, d1, d2, hh, m1, m2, s1, s2, frac, (skip_frac strict r11).
  split; [now rewrite <- Er|]. split; [repeat constructor; assumption|]. split; [exact Hh|].
  repeat split; try assumption; lia.
Qed.

Lemma skip_frac_app strict frac zone hm mm :
  frac_b strict frac -> zone_b hm mm zone -> skip_frac strict (frac ++ zone) = zone.
Proof.
  intros Fr Zo.
  assert (Z : skip_digits zone = zone /\ skip_frac strict zone = zone).
  { destruct Zo as [-> | (sg & a1 & a2 & c1 & c2 & -> & [-> | ->] & _)]; destruct strict; split; reflexivity. }
  destruct Z as [Zd Zf]. destruct Fr as [-> | (sep & f & fs & -> & Sep & F)]; [exact Zf|].
  inversion F as [|? ? F1 F2]; subst. unfold dig in F1. cbn [app skip_frac]. rewrite F1, andb_true_r.
  rewrite skip_digits_app by assumption.
  destruct Sep as [-> | [-> ->]]; reflexivity.
Qed.

Lemma zone_b_mono h m h' m' z : h <= h' -> m <= m' -> zone_b h m z -> zone_b h' m' z.
Proof.
  intros Lh Lm [-> | (sg & a1 & a2 & c1 & c2 & E & Sg & Dg & Hh & Mm)]; [now left | right].
  exists sg, a1, a2, c1, c2. repeat split; auto; lia.
Qed.

Lemma zone_b_ok zone : zone_b 23 59 zone <-> zone_ok [90] zone.
Proof.
  unfold zone_b, zone_ok. split; (intros [Z | Z]; [left | right; exact Z]).
  - exists 90. rewrite Z. simpl. auto.
  - destruct Z as (z & -> & [<-|[]]). reflexivity.
Qed.

Lemma frac_b_ok frac : frac_b true frac <-> frac_ok frac.
Proof.
  unfold frac_b, frac_ok. split; (intros [F | F]; [now left | right]).
  - destruct F as (sep & f & fs & -> & [-> | [[=] _]] & F). eauto.
  - destruct F as (f & fs & -> & F). exists 46, f, fs. auto.
Qed.

Lemma Forall_insert2 {A} (P : A -> Prop) l1 l2 a c : Forall P (l1 ++ l2) -> P a -> P c -> Forall P (l1 ++ a :: c :: l2).
Proof. intros F Pa Pc. apply Forall_app in F as [F1 F2]. apply Forall_app. auto. Qed.

Theorem strict_sound s : rfc3339_gen true s = true -> RFC3339_go s.
Proof.
  intro G. apply gen_inv in G as (y1 & y2 & y3 & y4 & o1 & o2 & d1 & d2 & hh & m1 & m2 & s1 & s2 & frac & zone & -> & D &
    [(h1 & h2 & -> & H1 & H2 & Hh) | ([=] & _)] & Mo & Da & Mi & Se & Fr & Zo).
  apply frac_b_ok in Fr. apply zone_b_ok in Zo.
  exists y1, y2, y3, y4, o1, o2, d1, d2, 84, h1, h2, m1, m2, s1, s2, frac, zone.
  split; [reflexivity|]. split; [|simpl; auto 12].
  exact (Forall_insert2 dig [y1; y2; y3; y4; o1; o2; d1; d2] _ h1 h2 D H1 H2).
Qed.

Theorem go_accepted strict s : RFC3339_go s -> rfc3339_gen strict s = true.
Proof.
  intros (y1 & y2 & y3 & y4 & o1 & o2 & d1 & d2 & tsep & h1 & h2 & m1 & m2 & s1 & s2 & frac & zone &
          -> & D & T & Mo & Da & Ho & Mi & Se & Fr & Zo).
  destruct T as [<-|[]]. apply frac_b_ok in Fr. apply zone_b_ok in Zo.
  assert (Tl : tz_ok strict (skip_frac strict (frac ++ zone)) = true).
  { rewrite (skip_frac_app strict frac zone 23 59); [| |exact Zo].
    - apply tz_ok_spec. apply (zone_b_mono 23 59); [destruct strict; lia ..| exact Zo].
    - destruct Fr as [-> | (sep & f & fs & -> & [-> | [[=] _]] & F)]; [now left | right; eauto 8]. }
  repeat match goal with Hf : Forall dig (_ :: _) |- _ => inversion Hf; subst; clear Hf end.
  unfold dig in *.
  destruct strict; unfold rfc3339_gen, num4, num2, num12, lit; cbn [app].
  all: repeat (cbn [andb N.eqb Pos.eqb];
               match goal with Hd : is_digit ?x = true |- context [is_digit ?x] => rewrite Hd end).
  all: cbn [andb N.eqb Pos.eqb]; rewrite Tl, andb_true_r.
  all: fold (two o1 o2) (two d1 d2) (two h1 h2) (two m1 m2) (two s1 s2) (four y1 y2 y3 y4).
  all: repeat (apply andb_true_iff; split); try (apply N.leb_le; lia); apply N.ltb_lt; lia.
Qed.

(* The code is: time.Parse(time.RFC3339, v), then reject a ':' at offset 12 (one-digit hour), a ','
   at offset 19 (comma before the fraction) and, when the last byte is not 'Z', an offset hour
   >= 24 or an offset minute >= 60.  C19_created_validation_as_in_source pins the
   translated source (gosrc2v kind "strictchecks") to that reading: a changed strict check changes
   the generated term and breaks it; the lemmas below prove that this reading is exactly
   [rfc3339_gen true]. *)
Definition expected_strict_checks : list (scond * list scond) :=
  [ (CByte (FromStart 12) OpEq 58, [CTrue]);
    (CByte (FromStart 19) OpEq 44, [CTrue]);
    (CByte (FromEnd 1) OpNe 90, [CNum2 (FromEnd 5) OpGe 24; CNum2 (FromEnd 2) OpGe 60]) ].

Lemma dig_range c : dig c -> 48 <= c <= 57.
Proof.
  unfold dig, is_digit. intro D. apply andb_true_iff in D as [A B]. apply N.leb_le in A, B. lia.
Qed.

Lemma nth_from_end (pre z : str) k :
  (k <= length z)%nat -> nth (length (pre ++ z) - k) (pre ++ z) 0 = nth (length z - k) z 0.
Proof.
  intro L. rewrite app_length, app_nth2 by lia. f_equal. lia.
Qed.

Lemma rejects_eval P frac zone hm mm :
  length P = 19%nat -> dig (nth 12 P 0) -> zone_b hm mm zone ->
  switch_rejects (P ++ frac ++ zone) expected_strict_checks =
  (nth 0 (frac ++ zone) 0 =? 44) ||
  match zone with [_; a1; a2; _; c1; c2] => (24 <=? two a1 a2) || (60 <=? two c1 c2) | _ => false end.
Proof.
  intros L D Zo. unfold expected_strict_checks, switch_rejects, scond_eval, byte_at, cmp_eval.
  rewrite app_nth1 by lia. apply dig_range in D.
  assert (E12 : (nth 12 P 0 =? 58) = false) by (apply N.eqb_neq; lia). rewrite E12.
  rewrite app_nth2, L by lia. cbn [Nat.sub]. destruct (nth 0 (frac ++ zone) 0 =? 44); [reflexivity|].
  rewrite app_assoc. cbn [orb existsb]. unfold num2_at, next_idx, byte_at. cbn [Nat.sub].
  destruct Zo as [-> | (sg & a1 & a2 & c1 & c2 & -> & _ & Dg & _)].
  - rewrite nth_from_end by (simpl; lia). reflexivity.
  - rewrite !nth_from_end by (simpl; lia). cbn [length Nat.sub nth].
    assert (D2 : dig c2) by (inversion Dg as [|? ? _ D1]; inversion D1 as [|? ? _ D2]; inversion D2 as [|? ? _ D3]; now inversion D3).
    apply dig_range in D2. assert (E90 : (c2 =? 90) = false) by (apply N.eqb_neq; lia).
    rewrite E90, orb_false_r. reflexivity.
Qed.

Lemma no_reject_of_go s : RFC3339_go s -> switch_rejects s expected_strict_checks = false.
Proof.
  intros (y1 & y2 & y3 & y4 & o1 & o2 & d1 & d2 & tsep & h1 & h2 & m1 & m2 & s1 & s2 & frac & zone &
          -> & D & _ & _ & _ & _ & _ & _ & Fr & Zo).
  apply zone_b_ok in Zo. rewrite (rejects_eval _ _ _ 23 59); [|reflexivity| |exact Zo].
  - apply orb_false_iff. split.
    + destruct Fr as [-> | (f & fs & -> & _)]; [|reflexivity].
      destruct Zo as [-> | (sg & a1 & a2 & c1 & c2 & -> & [-> | ->] & _)]; reflexivity.
    + destruct Zo as [-> | (sg & a1 & a2 & c1 & c2 & -> & _ & _ & Hh & Mm)]; [reflexivity|].
      apply orb_false_iff. split; apply N.leb_gt; lia.
  - cbn [nth]. rewrite Forall_forall in D. apply D. simpl. auto 12.
Qed.

Lemma lenient_unrejected_go s :
  rfc3339_gen false s = true -> switch_rejects s expected_strict_checks = false -> RFC3339_go s.
Proof.
  intros G R. apply gen_inv in G as (y1 & y2 & y3 & y4 & o1 & o2 & d1 & d2 & hh & m1 & m2 & s1 & s2 & frac & zone & -> & D &
    [(h1 & h2 & -> & H1 & H2 & Hh) | (_ & h & ->)] & Mo & Da & Mi & Se & Fr & Zo).
  2:{ (* one-digit hour: the ':' sits at offset 12 and the first check rejects *) discriminate R. }
  change (switch_rejects ([y1; y2; y3; y4; 45; o1; o2; 45; d1; d2; 84; h1; h2; 58; m1; m2; 58; s1; s2] ++ frac ++ zone)
                         expected_strict_checks = false) in R.
  rewrite (rejects_eval _ _ _ 24 60) in R; [|reflexivity | exact H2 | exact Zo]. apply orb_false_iff in R as [R1 R2].
  exists y1, y2, y3, y4, o1, o2, d1, d2, 84, h1, h2, m1, m2, s1, s2, frac, zone.
  split; [reflexivity|]. split; [exact (Forall_insert2 dig [y1; y2; y3; y4; o1; o2; d1; d2] _ h1 h2 D H1 H2)|].
  split; [simpl; auto|]. do 5 (split; [assumption|]). split.
  - (* the fraction separator is not a comma *)
    apply frac_b_ok. destruct Fr as [-> | (sep & f & fs & -> & [-> | [_ ->]] & F)]; [now left | right; eauto 8 | discriminate R1].
  - apply zone_b_ok. destruct Zo as [-> | (sg & a1 & a2 & c1 & c2 & -> & Sg & Dg & _)]; [now left | right].
    apply orb_false_iff in R2 as [Ra Rb]. apply N.leb_gt in Ra, Rb.
    exists sg, a1, a2, c1, c2. repeat split; auto; lia.
Qed.

(* Go would panic on an index out of range where [nth] answers 0: on every string time.Parse
   accepts, every index the three checks evaluate (in Go's evaluation order) is in range. *)
Lemma strict_checks_in_range s :
  rfc3339_gen false s = true -> switch_safe s expected_strict_checks = true.
Proof.
  intro G. apply gen_inv in G as (y1 & y2 & y3 & y4 & o1 & o2 & d1 & d2 & hh & m1 & m2 & s1 & s2 & frac & zone & -> & _ &
    [(h1 & h2 & -> & _ & H2 & _) | (_ & h & ->)] & _ & _ & _ & _ & _ & Zo); [|reflexivity].
  set (P := [y1; y2; y3; y4; 45; o1; o2; 45; d1; d2; 84; h1; h2; 58; m1; m2; 58; s1; s2]).
  change (switch_safe (P ++ frac ++ zone) expected_strict_checks = true).
  assert (IE : forall k, (1 <= k <= length zone)%nat -> idx_ok (P ++ frac ++ zone) (FromEnd k) = true).
  { intros k K. unfold idx_ok. apply andb_true_iff. split; apply Nat.leb_le; [lia|]. rewrite !app_length. lia. }
  assert (I19 : idx_ok (P ++ frac ++ zone) (FromStart 19) = true).
  { unfold idx_ok. apply Nat.ltb_lt. rewrite !app_length. destruct Zo as [-> | (sg & a1 & a2 & c1 & c2 & -> & _)]; simpl; lia. }
  assert (E1 : scond_eval (P ++ frac ++ zone) (CByte (FromStart 12) OpEq 58) = false).
  { simpl. apply N.eqb_neq. apply dig_range in H2. lia. }
  unfold expected_strict_checks. cbn [switch_safe scond_safe body_safe next_idx Nat.sub].
  rewrite I19, E1. change (idx_ok (P ++ frac ++ zone) (FromStart 12)) with true. cbn [andb].
  destruct (scond_eval (P ++ frac ++ zone) (CByte (FromStart 19) OpEq 44)); [reflexivity|].
  destruct Zo as [-> | (sg & a1 & a2 & c1 & c2 & -> & _)]; rewrite (IE 1%nat) by (simpl; lia); cbn [andb].
  - assert (E3 : scond_eval (P ++ frac ++ [90]) (CByte (FromEnd 1) OpNe 90) = false).
    { rewrite app_assoc. cbn [scond_eval byte_at cmp_eval]. rewrite nth_from_end by (simpl; lia). reflexivity. }
    now rewrite E3.
  - destruct (scond_eval _ (CByte (FromEnd 1) OpNe 90)); [|reflexivity].
    rewrite (IE 5%nat), (IE 4%nat), (IE 2%nat) by (simpl; lia). cbn [andb].
    destruct (scond_eval _ (CNum2 (FromEnd 5) OpGe 24)); [reflexivity|].
    destruct (scond_eval _ (CNum2 (FromEnd 2) OpGe 60)); reflexivity.
Qed.

(* the model of validateRFC3339 (time.Parse, then the translated checks) is the strict recogniser *)
Theorem rfc3339_ok_is_strict s : rfc3339_ok s = rfc3339_gen true s.
Proof.
  unfold rfc3339_ok. change validateRFC3339_checks with expected_strict_checks.
  destruct (rfc3339_gen true s) eqn:S.
  - apply strict_sound in S. now rewrite (go_accepted false s S), (no_reject_of_go s S).
  - destruct (rfc3339_gen false s) eqn:L; auto.
    destruct (switch_rejects s expected_strict_checks) eqn:R; auto.
    apply (lenient_unrejected_go s L), (go_accepted true) in R. congruence.
Qed.

Theorem rfc3339_ok_spec s : rfc3339_ok s = true <-> RFC3339_go s.
Proof. rewrite rfc3339_ok_is_strict. split; [apply strict_sound | apply go_accepted]. Qed.

Corollary accepted_is_rfc3339 s : rfc3339_ok s = true -> RFC3339 s.
Proof. intro A. apply go_is_rfc. now apply rfc3339_ok_spec. Qed.

Corollary malformed_refused s : ~ RFC3339 s -> rfc3339_ok s = false.
Proof.
  intro N. destruct (rfc3339_ok s) eqn:E; auto. elim N. now apply accepted_is_rfc3339.
Qed.

Lemma RFC3339_shape s : RFC3339 s -> nth_error s 13 = Some 58.
Proof.
  intros (y1 & y2 & y3 & y4 & o1 & o2 & d1 & d2 & tsep & h1 & h2 & m1 & m2 & s1 & s2 & frac & zone & -> & _).
  reflexivity.
Qed.

(* the pre-fix validation, time.Parse(time.RFC3339, _) alone, took strings that are not
   RFC 3339: here a one-digit hour *)
Theorem prefix_refuted : exists s, rfc3339_ok_prefix s = true /\ ~ RFC3339 s.
Proof.
  exists (b "2006-01-02T1:04:05Z"). split; [vm_compute; reflexivity|].
  intro R. apply RFC3339_shape in R. vm_compute in R. discriminate.
Qed.

(* the created clause of the property in terms of RFC 3339 itself *)
Theorem malformed_created_no_manifest (marshal : manifest -> str) (H : str -> str)
        (H_empty : H empty_json = empty_json_digest) f tc fa s at_ o now s' r v :
  ann_get (created_key f) (o_ann o) = Some v -> ~ RFC3339 v ->
  pack marshal H f tc fa s at_ o now = (s', r) ->
  (exists e, r = Err e /\ (must_reject f at_ o = false -> fa = None -> t_key tc <> KFile -> e = EInvalidDateTime)) /\
  (exists evs, steps s s' evs /\ Forall (blob_ev H) evs) /\
  only_empty_blob_added H (s_store s) (s_store s').
Proof.
  intros G N P. eapply bad_created_no_manifest; eauto. now apply malformed_refused.
Qed.


(* the calendar shared by recogniser and grammar, read independently *)
Definition month_table : list N := [31; 28; 31; 30; 31; 30; 31; 31; 30; 31; 30; 31].

Lemma days_in_table m y :
  1 <= m <= 12 ->
  days_in m y = nth (N.to_nat m - 1) month_table 0 + (if (m =? 2) && is_leap y then 1 else 0).
Proof.
  intro R.
  assert (Hm : m = 1 \/ m = 2 \/ m = 3 \/ m = 4 \/ m = 5 \/ m = 6 \/ m = 7 \/ m = 8 \/ m = 9 \/ m = 10 \/
               m = 11 \/ m = 12) by lia.
  repeat (destruct Hm as [-> | Hm]); try subst m; unfold days_in; simpl; destruct (is_leap y); reflexivity.
Qed.

Lemma year_length y :
  days_in 1 y + days_in 2 y + days_in 3 y + days_in 4 y + days_in 5 y + days_in 6 y + days_in 7 y +
  days_in 8 y + days_in 9 y + days_in 10 y + days_in 11 y + days_in 12 y = if is_leap y then 366 else 365.
Proof. unfold days_in. simpl. destruct (is_leap y); reflexivity. Qed.

Lemma is_leap_gregorian y :
  is_leap y = true <-> (y mod 4 = 0 /\ (y mod 100 <> 0 \/ y mod 400 = 0)).
Proof.
  unfold is_leap. rewrite andb_true_iff, orb_true_iff, negb_true_iff, !N.eqb_eq, N.eqb_neq. reflexivity.
Qed.

Lemma leap_years : is_leap 2000 = true /\ is_leap 1900 = false /\ is_leap 2024 = true /\
                   is_leap 2023 = false /\ is_leap 2100 = false /\ is_leap 0 = true.
Proof. vm_compute. repeat split; reflexivity. Qed.

Lemma dig_of n : n < 10 -> dig (48 + n).
Proof. intro L. unfold dig, is_digit. apply andb_true_iff. split; apply N.leb_le; lia. Qed.

Lemma add48 x : 48 + x - 48 = x.
Proof. rewrite N.add_comm. apply N.add_sub. Qed.

Lemma two_dig2 n : n < 100 -> two (48 + n / 10) (48 + n mod 10) = n.
Proof.
  intro L. unfold two, dval. rewrite !add48.
  rewrite (N.div_mod n 10) at 3 by discriminate. rewrite N.mul_comm. reflexivity.
Qed.

Lemma four_dig4 n : n < 10000 ->
  four (48 + n / 1000) (48 + (n / 100) mod 10) (48 + (n / 10) mod 10) (48 + n mod 10) = n.
Proof.
  intro L. unfold four, dval. rewrite !add48.
  pose proof (N.div_mod n 10 ltac:(discriminate)) as E1.
  pose proof (N.div_mod (n / 10) 10 ltac:(discriminate)) as E2.
  pose proof (N.div_mod (n / 100) 10 ltac:(discriminate)) as E3.
  rewrite N.div_div in E2 by discriminate. change (10 * 10) with 100 in E2.
  assert (E4 : n / 100 / 10 = n / 1000) by (rewrite N.div_div by discriminate; reflexivity).
  rewrite E4 in E3.
  set (a := n / 1000) in *. set (b' := (n / 100) mod 10) in *. set (c := (n / 10) mod 10) in *.
  set (d := n mod 10) in *. set (q1 := n / 10) in *. set (q2 := n / 100) in *. lia.
Qed.

(* the created value Pack writes itself always passes its own validation *)
Theorem format_accepted y mo d h mi s :
  civil_ok y mo d h mi s = true -> rfc3339_ok (format_rfc3339_utc y mo d h mi s) = true.
Proof.
  unfold civil_ok. intro C. repeat (apply andb_true_iff in C as [C ?]).
  repeat match goal with Hx : (_ <=? _) = true |- _ => apply N.leb_le in Hx end.
  assert (Dm : days_in mo y <= 31).
  { unfold days_in. destruct (mo =? 2); [destruct (is_leap y); lia|].
    destruct ((mo =? 4) || (mo =? 6) || (mo =? 9) || (mo =? 11)); lia. }
  apply rfc3339_ok_spec. unfold format_rfc3339_utc, dig4, dig2.
  exists (48 + y / 1000), (48 + (y / 100) mod 10), (48 + (y / 10) mod 10), (48 + y mod 10),
         (48 + mo / 10), (48 + mo mod 10), (48 + d / 10), (48 + d mod 10), 84,
         (48 + h / 10), (48 + h mod 10), (48 + mi / 10), (48 + mi mod 10), (48 + s / 10), (48 + s mod 10),
         [], [90].
  split; [reflexivity|].
  assert (M10 : forall n, n mod 10 < 10) by (intro n; apply N.mod_lt; lia).
  assert (D10 : forall n, n < 100 -> n / 10 < 10) by (intros n Hn; apply N.div_lt_upper_bound; lia).
  split.
  { repeat constructor; apply dig_of; auto; try (apply D10; lia).
    apply N.div_lt_upper_bound; lia. }
  split; [simpl; auto|].
  rewrite !two_dig2 by lia. rewrite four_dig4 by lia.
  repeat split; try lia; [left; reflexivity | left; exists 90; simpl; auto].
Qed.

(* "a created timestamp filled in": with the clock's value written as Pack writes it, no premise about
   the timestamp is left *)
Theorem ok_created_clock (marshal : manifest -> str) (H : str -> str)
        (H_empty : H empty_json = empty_json_digest) f tc fa s at_ o y mo d h mi sec s' dd m :
  civil_ok y mo d h mi sec = true ->
  pack marshal H f tc fa s at_ o (format_rfc3339_utc y mo d h mi sec) = (s', Ok dd m) ->
  (exists v, ann_get (created_key f) (m_ann m) = Some v /\ rfc3339_ok v = true /\ RFC3339 v /\
             (ann_get (created_key f) (o_ann o) = Some v \/
              ann_get (created_key f) (o_ann o) = None /\ v = format_rfc3339_utc y mo d h mi sec)) /\
  (forall k, k <> created_key f -> ann_get k (m_ann m) = ann_get k (o_ann o)) /\
  d_ann dd = m_ann m.
Proof.
  intros C P.
  destruct (ok_created marshal H H_empty _ _ _ _ _ _ _ _ _ _ (format_accepted _ _ _ _ _ _ C) P)
    as ((v & G & R & W) & O & D).
  split; [|split; assumption]. exists v. repeat split; auto. now apply accepted_is_rfc3339.
Qed.
