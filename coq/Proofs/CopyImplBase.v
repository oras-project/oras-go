(* CopyImplBase: the protocol LTS (Model/CopyImpl.v) step by step.  The relation Step says what each group of
   labels changes (step_Step); the lemmas after it say what a step does to one component of the state: the tracker,
   the identity of a task, [failed], one frame. *)
From Coq Require Import List Arith Bool Lia.
From Oras Require Import Model.CopyImpl.
Import ListNotations.

Lemma upd_same {A} (f : nat -> A) i x : upd f i x i = x.
Proof. unfold upd. now rewrite Nat.eqb_refl. Qed.
Lemma upd_other {A} (f : nat -> A) i x j : j <> i -> upd f i x j = f j.
Proof. intro H. unfold upd. destruct (Nat.eqb_spec j i); congruence. Qed.
Lemma upd_proj {A B} (g : A -> B) (f : nat -> A) i x j : g x = g (f i) -> g (upd f i x j) = g (f j).
Proof. intro H. unfold upd. destruct (Nat.eqb_spec j i); congruence. Qed.

(* `upd_at j i`: is j the updated index i (then i is written for j everywhere) or not?  The lookups at j of maps
   updated at i are simplified. *)
Ltac upd_at j i :=
  let E := fresh "E" in
  destruct (Nat.eq_dec j i) as [E|E];
  [ first [subst j | rewrite ?E in *]; rewrite ?upd_same in * | rewrite ?(upd_other _ i _ j E) in * ].

Definition b2n (b : bool) : nat := if b then 1 else 0.

Lemma count_upto_ext p q n : (forall i, i < n -> p i = q i) -> count_upto p n = count_upto q n.
Proof.
  induction n; intros H; simpl; auto. rewrite H by lia. rewrite IHn; auto.
Qed.
Lemma count_upto_upd_ge {A} (g : A -> bool) (f : nat -> A) i x n : n <= i ->
  count_upto (fun t => g (upd f i x t)) n = count_upto (fun t => g (f t)) n.
Proof. intros H. apply count_upto_ext. intros j Hj. rewrite upd_other by lia. reflexivity. Qed.
Lemma count_upto_upd {A} (g : A -> bool) (f : nat -> A) i x n : i < n ->
  count_upto (fun t => g (upd f i x t)) n + b2n (g (f i)) = count_upto (fun t => g (f t)) n + b2n (g x).
Proof.
  induction n; intros H; [lia|]. simpl.
  destruct (Nat.eq_dec i n) as [->|Hne].
  - rewrite upd_same. rewrite count_upto_upd_ge by lia. unfold b2n. destruct (g x), (g (f n)); lia.
  - rewrite upd_other by lia. assert (Hi : i < n) by lia. specialize (IHn Hi). lia.
Qed.
Lemma count_upto_le p q n : (forall i, p i = true -> q i = true) -> count_upto p n <= count_upto q n.
Proof.
  intros H. induction n; simpl; auto. specialize (H n). destruct (p n), (q n); try lia.
Qed.
Lemma count_upto_bound p n : count_upto p n <= n.
Proof. induction n; simpl; auto. destruct (p n); lia. Qed.
Lemma count_upto_pos p n : 0 < count_upto p n -> exists i, i < n /\ p i = true.
Proof.
  induction n; cbn; intros H; [lia|]. destruct (p n) eqn:Hp.
  - exists n. auto.
  - destruct (IHn H) as [i [Hi Hpi]]. exists i. auto.
Qed.
Lemma count_upto_false p n : (forall i, i < n -> p i = false) -> count_upto p n = 0.
Proof.
  induction n as [|n IH]; simpl; intro H; [reflexivity|].
  rewrite (H n) by lia. rewrite IH; auto.
Qed.

Lemma cf_proj {B} (g : frame -> B) x fs j : (forall fr, g (set_cancelled fr) = g fr) -> g (cancel_frames x fs j) = g (fs j).
Proof. intros H. unfold cancel_frames. destruct (existsb _ _); auto. Qed.
Lemma cf_cancelled x fs j :
  f_cancelled (cancel_frames x fs j) = existsb (Nat.eqb x) (f_anc (fs j)) || f_cancelled (fs j).
Proof. unfold cancel_frames. destruct (existsb _ _); reflexivity. Qed.
Lemma cf_dframe x fs j : fs j = dframe -> cancel_frames x fs j = dframe.
Proof. unfold cancel_frames. intros ->. reflexivity. Qed.
Lemma existsb_eqb_in x l : existsb (Nat.eqb x) l = true <-> In x l.
Proof.
  rewrite existsb_exists. split.
  - intros [y [Hy He]]. apply Nat.eqb_eq in He. subst. auto.
  - intros H. exists x. split; auto. apply Nat.eqb_refl.
Qed.

Lemma live_lt s t q : (forall t, ntasks s <= t -> tasks s t = dtask) ->
  t_pc (tasks s t) = q -> is_fin q = false -> t < ntasks s.
Proof.
  intros Hwf <- Hp. destruct (Nat.lt_ge_cases t (ntasks s)); auto. rewrite Hwf in Hp by auto. discriminate.
Qed.

Lemma ftd_spec s f : (forall t, ntasks s <= t -> tasks s t = dtask) -> frame_tasks_done s f = true ->
  forall t, t_frame (tasks s t) = f -> is_fin (t_pc (tasks s t)) = true.
Proof.
  intros Hwf H t Ht. destruct (Nat.lt_ge_cases t (ntasks s)) as [Hlt|Hge].
  - unfold frame_tasks_done in H. rewrite forallb_forall in H. specialize (H t).
    rewrite Ht, Nat.eqb_refl in H. apply H. apply in_seq. lia.
  - rewrite Hwf by auto. reflexivity.
Qed.

Lemma forallb_false {A} (g : A -> bool) l : forallb g l = false -> exists x, In x l /\ g x = false.
Proof.
  induction l as [|a l IH]; cbn; intros H; [discriminate|].
  destruct (g a) eqn:Ha; cbn in H.
  - destruct (IH H) as [x [Hx Hg]]. exists x. auto.
  - exists a. auto.
Qed.
Lemma ftd_false s f : frame_tasks_done s f = false ->
  exists t, t < ntasks s /\ t_frame (tasks s t) = f /\ is_fin (t_pc (tasks s t)) = false.
Proof.
  intros H. apply forallb_false in H. destruct H as [t [Hin Ht]].
  apply in_seq in Hin. exists t. destruct (Nat.eqb_spec (t_frame (tasks s t)) f); try discriminate.
  repeat split; auto; lia.
Qed.

Section Defs.
Variable succ : nat -> list nat.
Variable K : nat.
Variable ext : bool.
Variable roots : list nat.

Inductive Reachable : state -> Prop :=
| R_init : Reachable (init K ext roots)
| R_step s l s' : Reachable s -> step succ s l = Some s' -> Reachable s'.

(* What a step does, by groups of labels (step_Step).  `move s t l q p h k trk`: under l task t, at pc q, goes on
   to pc p holding h, leaving k free permits and the tracker trk; `fin s t l q e trk`: under l the goroutine of t,
   at pc q, ends with error e (`finish`). *)
Inductive move (s : state) (t : nat) : label -> pc -> pc -> bool -> nat -> (nat -> status) -> Prop :=
| M_run : move s t (LChildRun t) TSpawned (match t_kind (tasks s t) with KFn => TTry | KOuter => TEnd end)
               (t_holds (tasks s t)) (free s) (tracker s)
| M_commit : tracker s (t_node (tasks s t)) = Untracked ->
    move s t (LTryCommit t) TTry TExists (t_holds (tasks s t)) (free s) (upd (tracker s) (t_node (tasks s t)) InProgress)
| M_absent : move s t (LExists t ExFalse) TExists TFind (t_holds (tasks s t)) (free s) (tracker s)
| M_found : move s t (LFind t true) TFind (match succ (t_node (tasks s t)) with [] => TPush | _ => TEnd end)
                 (t_holds (tasks s t)) (free s) (tracker s)
| M_end : move s t (LEnd t) TEnd TGo false (if t_holds (tasks s t) then S (free s) else free s) (tracker s)
| M_waited m rest : is_done (tracker s m) = true ->
    move s t (LWaitDone t) (TWait (m :: rest)) (wait_pc rest) (t_holds (tasks s t)) (free s) (tracker s)
| M_start k : t_kind (tasks s t) = KFn -> (if t_holds (tasks s t) then k = free s else free s = S k) ->
    move s t (LStart t) TStart TPush true k (tracker s).

Inductive fin (s : state) (t : nat) : label -> pc -> bool -> (nat -> status) -> Prop :=
| F_skip : f_cancelled (frames s (t_frame (tasks s t))) = true -> fin s t (LChildSkip t) TSpawned false (tracker s)
| F_dup : tracker s (t_node (tasks s t)) <> Untracked -> fin s t (LTryCommit t) TTry false (tracker s)
| F_exists : fin s t (LExists t ExTrue) TExists false (upd (tracker s) (t_node (tasks s t)) DoneSkipped)
| F_exfail : fin s t (LExists t ExFail) TExists true (tracker s)
| F_findfail : fin s t (LFind t false) TFind true (tracker s)
| F_uncommitted m rest : tracker s m = Untracked ->
    fin s t (LWaitDone t) (TWait (m :: rest)) true (upd (tracker s) m InProgress)
| F_waitcancel l : f_cancelled (frames s (t_frame (tasks s t))) = true -> fin s t (LWaitCancel t) (TWait l) true (tracker s)
| F_outer : t_kind (tasks s t) = KOuter -> (t_holds (tasks s t) = false -> free s <> 0) ->
    fin s t (LStart t) TStart false (tracker s)
| F_startfail : t_holds (tasks s t) = false -> f_cancelled (frames s (t_frame (tasks s t))) = true ->
    fin s t (LStartFail t) TStart true (tracker s)
| F_push ok : fin s t (LPush t ok) TPush (negb ok) (if ok then upd (tracker s) (t_node (tasks s t)) DoneCopied else tracker s).

Inductive Step (s : state) : label -> state -> Prop :=
| St_cancel : top_cancelled s = false -> is_ret (f_pc (frames s 0)) = false ->
    Step s LCancelTop (mkState (tasks s) (ntasks s) (cancel_frames 0 (frames s)) (nframes s) (free s) (tracker s) true true)
| St_acq f i rest k : f_pc (frames s f) = FDispatch -> f_items (frames s f) = i :: rest -> free s = S k ->
    Step s (LDispatchAcq f)
         (mkState (upd (tasks s) (ntasks s) (mkTask i (f_kind (frames s f)) f TSpawned true)) (S (ntasks s))
                  (upd (frames s) f (set_fpc (frames s f) rest FDispatch)) (nframes s) k (tracker s)
                  (top_cancelled s) (failed s))
| St_dispatched l f : f_pc (frames s f) = FDispatch ->
    (l = LDispatchEnd f /\ f_items (frames s f) = [] \/
     l = LDispatchFail f /\ f_items (frames s f) <> [] /\ f_cancelled (frames s f) = true) ->
    Step s l (mkState (tasks s) (ntasks s) (upd (frames s) f (set_fpc (frames s f) [] FWait)) (nframes s) (free s)
                      (tracker s) (top_cancelled s) (failed s))
| St_ret_top f : f_pc (frames s f) = FWait -> frame_tasks_done s f = true -> f_parent (frames s f) = None ->
    Step s (LGoReturn f)
         (mkState (tasks s) (ntasks s) (upd (frames s) f (set_fpc (frames s f) [] (FRet (f_cancelled (frames s f)))))
                  (nframes s) (free s) (tracker s) (top_cancelled s) (failed s))
| St_ret_ok f p : f_pc (frames s f) = FWait -> frame_tasks_done s f = true -> f_parent (frames s f) = Some p ->
    t_pc (tasks s p) = TInGo f -> f_cancelled (frames s f) = false ->
    Step s (LGoReturn f)
         (mkState (upd (tasks s) p (set_pc_holds (tasks s p) (wait_pc (wait_list succ (tasks s p))) (t_holds (tasks s p))))
                  (ntasks s) (upd (frames s) f (set_fpc (frames s f) [] (FRet false)))
                  (nframes s) (free s) (tracker s) (top_cancelled s) (failed s))
| St_ret_err f p : f_pc (frames s f) = FWait -> frame_tasks_done s f = true -> f_parent (frames s f) = Some p ->
    t_pc (tasks s p) = TInGo f -> f_cancelled (frames s f) = true ->
    Step s (LGoReturn f)
         (mkState (upd (tasks s) p (set_pc_holds (tasks s p) (TFin true) false)) (ntasks s)
                  (cancel_frames (t_frame (tasks s p)) (upd (frames s) f (set_fpc (frames s f) [] (FRet true))))
                  (nframes s) (if t_holds (tasks s p) then S (free s) else free s) (tracker s)
                  (top_cancelled s) true)
| St_go t : t_pc (tasks s t) = TGo ->
    Step s (LGo t)
         (mkState (upd (tasks s) t (set_pc_holds (tasks s t) (TInGo (nframes s)) (t_holds (tasks s t)))) (ntasks s)
                  (upd (frames s) (nframes s)
                       (mkFrame (Some t) (nframes s :: f_anc (frames s (t_frame (tasks s t)))) KFn
                                (go_items succ (tasks s t)) (go_items succ (tasks s t)) FDispatch
                                (f_cancelled (frames s (t_frame (tasks s t))))))
                  (S (nframes s)) (free s) (tracker s) (top_cancelled s) (failed s))
| St_move l t q p h k trk : move s t l q p h k trk -> t_pc (tasks s t) = q ->
    Step s l (mkState (upd (tasks s) t (set_pc_holds (tasks s t) p h)) (ntasks s) (frames s) (nframes s) k trk
                      (top_cancelled s) (failed s))
| St_fin l t q e trk : fin s t l q e trk -> t_pc (tasks s t) = q ->
    Step s l (mkState (upd (tasks s) t (set_pc_holds (tasks s t) (TFin e) false)) (ntasks s)
                      (if e then cancel_frames (t_frame (tasks s t)) (frames s) else frames s) (nframes s)
                      (if t_holds (tasks s t) then S (free s) else free s) trk
                      (top_cancelled s) (failed s || e)).

Definition running (p : pc) : bool := match p with TFin _ | TInGo _ => false | _ => true end.
Lemma running_alive p : running p = true -> is_fin p = false.
Proof. now destruct p. Qed.
Lemma running_not_ingo p f : running p = true -> p <> TInGo f.
Proof. now intros H ->. Qed.
Lemma move_running s t l q p h k trk : move s t l q p h k trk -> running q = true /\ running p = true.
Proof.
  destruct 1; split; try reflexivity.
  - now destruct (t_kind _).
  - now destruct (succ _).
  - now destruct rest.
Qed.
Lemma fin_running s t l q e trk : fin s t l q e trk -> running q = true.
Proof. now destruct 1. Qed.

Lemma step_Step s l s' : step succ s l = Some s' -> Step s l s'.
Proof.
  intros Hs. destruct l; cbn [step] in Hs; cbv zeta in Hs;
    (* the matches that decide whether the step is enabled *)
    repeat match type of Hs with
           | match ?x with _ => _ end = Some _ => destruct x eqn:?; try discriminate Hs
           end;
    injection Hs as <-.
  all: unfold finish, with_tasks; cbn [tasks ntasks free frames nframes tracker failed top_cancelled].
  all: try match goal with H : Nat.eqb _ _ = true |- _ => apply Nat.eqb_eq in H; subst end.
  all: try (econstructor; eassumption).
  all: try (eapply St_move; [econstructor; eassumption | eassumption]).
  all: try (eapply St_fin; [econstructor; first [eassumption | congruence] | eassumption]).
  - apply orb_false_iff in Heqb as []. now constructor.
  - constructor; auto. right. rewrite Heql. repeat split; auto. discriminate.
  - constructor; auto.
  - rewrite orb_true_r. now constructor.
  - eapply St_move; [apply M_waited; now rewrite Heqs0 | eassumption].
  - eapply St_move; [apply M_waited; now rewrite Heqs0 | eassumption].
  - eapply St_move; [apply M_start; auto; now rewrite Heqb | eassumption].
  - generalize (St_fin _ _ _ _ _ _ (F_outer s t Heqk ltac:(congruence)) Heqp).
    now rewrite Heqb, orb_false_r.
  - eapply St_move; [apply M_start; auto; now rewrite Heqb | eassumption].
  - generalize (St_fin _ _ _ _ _ _ (F_outer s t Heqk ltac:(congruence)) Heqp).
    now rewrite Heqb, Heqn, orb_false_r.
  - apply andb_true_iff in Heqb as [Hh Hc]. apply negb_true_iff in Hh. eapply St_fin; [now constructor | eassumption].
  - eapply St_fin; [|eassumption]. destruct ok; constructor.
Qed.

Inductive trk_eff (s : state) (l : label) (s' : state) : Prop :=
| tr_keep : tracker s' = tracker s -> trk_eff s l s'
| tr_commit n : tracker s n = Untracked -> tracker s' = upd (tracker s) n InProgress -> trk_eff s l s'
| tr_skip t : l = LExists t ExTrue -> tracker s' = upd (tracker s) (t_node (tasks s t)) DoneSkipped -> trk_eff s l s'
| tr_copy t : l = LPush t true -> t_pc (tasks s t) = TPush ->
    tracker s' = upd (tracker s) (t_node (tasks s t)) DoneCopied -> trk_eff s l s'.

Lemma step_tracker s l s' : step succ s l = Some s' -> trk_eff s l s'.
Proof.
  intros Hs. destruct (step_Step s l s' Hs) as [| | | | | | |l t q p h k trk [] Hq|l t q e trk [] Hq];
    try (apply tr_keep; reflexivity).
  - eapply tr_commit; [eassumption | reflexivity].
  - eapply tr_skip; reflexivity.
  - eapply tr_commit; [eassumption | reflexivity].
  - destruct ok; [eapply tr_copy; [reflexivity | assumption | reflexivity] | now apply tr_keep].
Qed.

Lemma done_mono s l s' : step succ s l = Some s' -> forall m, is_done (tracker s m) = true -> is_done (tracker s' m) = true.
Proof.
  intros Hs m Hm. destruct (step_tracker s l s' Hs) as [E|n Hn E|t _ E|t _ _ E]; rewrite E; auto.
  - upd_at m n; [rewrite Hn in Hm; discriminate | exact Hm].
  - upd_at m (t_node (tasks s t)); auto.
  - upd_at m (t_node (tasks s t)); auto.
Qed.
Lemma tracked_mono s l s' : step succ s l = Some s' -> forall m, tracker s m <> Untracked -> tracker s' m <> Untracked.
Proof.
  intros Hs m Hm. destruct (step_tracker s l s' Hs) as [E|n Hn E|t _ E|t _ _ E]; rewrite E; auto.
  - upd_at m n; [discriminate | exact Hm].
  - upd_at m (t_node (tasks s t)); [discriminate | exact Hm].
  - upd_at m (t_node (tasks s t)); [discriminate | exact Hm].
Qed.

Lemma step_task_ident s l s' t : step succ s l = Some s' -> t < ntasks s ->
  t < ntasks s' /\ t_node (tasks s' t) = t_node (tasks s t) /\ t_kind (tasks s' t) = t_kind (tasks s t) /\
  t_frame (tasks s' t) = t_frame (tasks s t).
Proof.
  intros Hs Ht. destruct (step_Step s l s' Hs); cbn [tasks ntasks]; auto.
  1: now rewrite upd_other by lia; auto.
  all: now rewrite !(upd_proj _ (tasks s)) by reflexivity.
Qed.

Lemma failed_mono s l s' : step succ s l = Some s' -> failed s = true -> failed s' = true.
Proof.
  intros Hs Hf. destruct (step_Step s l s' Hs); cbn [failed]; rewrite ?Hf; auto.
Qed.
Lemma unfailed_before s l s' : step succ s l = Some s' -> failed s' = false -> failed s = false.
Proof. intros Hs Hfl. destruct (failed s) eqn:F; [rewrite (failed_mono s l s' Hs F) in Hfl; discriminate | reflexivity]. Qed.
Lemma fault_sets_failed s l s' : step succ s l = Some s' -> is_fault l = true -> failed s' = true.
Proof.
  intros Hs Hl.
  destruct (step_Step s l s' Hs) as [| | l f _ [[-> _]|[-> _]] | | | | | l t q p h k trk Hm _ | l t q e trk Hf _];
    try reflexivity; try discriminate.
  - destruct Hm; discriminate.
  - cbn [failed]. destruct Hf; try discriminate; try apply orb_true_r. destruct ok; [discriminate | apply orb_true_r].
Qed.
Lemma step_failed s l s' : step succ s l = Some s' -> failed s' = true ->
  failed s = true \/ is_fault l = true \/ (exists f, f_cancelled (frames s f) = true) \/
  (exists t m rest, t_pc (tasks s t) = TWait (m :: rest) /\ tracker s m = Untracked).
Proof.
  intros Hs. destruct (step_Step s l s' Hs) as [| | | | |f p _ _ _ _ Hc| | |l t q e trk Hf Hq]; cbn [failed]; auto.
  - right; right; left. now exists f.
  - destruct Hf; cbn [is_fault]; rewrite ?orb_false_r; auto.
    + right; right; right. eauto.
    + right; right; left. eauto.
    + right; right; left. eauto.
    + destruct ok; cbn; rewrite ?orb_false_r; auto.
Qed.

(* What a step does to one frame: its dispatch loop hands the items to new tasks one by one, then ends or gives up
   (FWait); the frame returns (FRet) with error = cancelled.  Parent, kind and the list of all items stay. *)
Inductive fmove (s : state) (l : label) (s' : state) (f : nat) : Prop :=
| fm_keep : f_items (frames s' f) = f_items (frames s f) -> f_pc (frames s' f) = f_pc (frames s f) -> fmove s l s' f
| fm_spawn i : f_pc (frames s f) = FDispatch -> f_pc (frames s' f) = FDispatch ->
    f_items (frames s f) = i :: f_items (frames s' f) ->
    tasks s' (ntasks s) = mkTask i (f_kind (frames s f)) f TSpawned true -> ntasks s' = S (ntasks s) -> fmove s l s' f
| fm_wait : f_pc (frames s f) = FDispatch -> f_items (frames s f) = [] \/ f_cancelled (frames s f) = true ->
    f_items (frames s' f) = [] -> f_pc (frames s' f) = FWait -> fmove s l s' f
| fm_ret : l = LGoReturn f -> f_pc (frames s f) = FWait -> f_items (frames s' f) = [] ->
    f_pc (frames s' f) = FRet (f_cancelled (frames s f)) -> fmove s l s' f.

Inductive frame_eff (s : state) (l : label) (s' : state) (f : nat) : Prop :=
| fe_old : f_parent (frames s' f) = f_parent (frames s f) -> f_kind (frames s' f) = f_kind (frames s f) ->
    f_all (frames s' f) = f_all (frames s f) -> fmove s l s' f -> frame_eff s l s' f
| fe_new t : f = nframes s -> t_pc (tasks s t) = TGo ->
    frames s' f = mkFrame (Some t) (f :: f_anc (frames s (t_frame (tasks s t)))) KFn (go_items succ (tasks s t))
                          (go_items succ (tasks s t)) FDispatch (f_cancelled (frames s (t_frame (tasks s t)))) ->
    frame_eff s l s' f.

(* computes the fields of a frame of the state after the step; Hne : f <> f0 says which frame it is not *)
Ltac frame_fields :=
  cbn [frames tasks ntasks]; unfold cancel_frames; rewrite ?upd_same, ?upd_other by assumption;
  try destruct (existsb _ _); cbn [set_cancelled set_fpc f_parent f_kind f_all f_items f_pc].

Lemma step_frame s l s' f : step succ s l = Some s' -> frame_eff s l s' f.
Proof.
  intros Hs.
  destruct (step_Step s l s' Hs) as [| f0 i rest k Hpc Hit _ | l0 f0 Hpc Hc | f0 Hpc _ _ | f0 p Hpc _ _ _ Hc
                                     | f0 p Hpc _ _ _ Hc | t Hq | | l0 t q e trk _ _].
  1, 8: apply fe_old, fm_keep; frame_fields; reflexivity.
  1-5: destruct (Nat.eq_dec f f0) as [->|Hne]; [|apply fe_old, fm_keep; frame_fields; reflexivity].
  - apply fe_old; [..|eapply fm_spawn]; frame_fields; eauto.
  - apply fe_old, fm_wait; frame_fields; auto. destruct Hc as [[_ ?]|[_ [_ ?]]]; auto.
  - apply fe_old, fm_ret; frame_fields; auto.
  - apply fe_old, fm_ret; frame_fields; auto. now rewrite Hc.
  - apply fe_old, fm_ret; frame_fields; auto; now rewrite Hc.
  - destruct (Nat.eq_dec f (nframes s)) as [->|Hne]; [|apply fe_old, fm_keep; frame_fields; reflexivity].
    eapply fe_new; [reflexivity | eassumption | apply upd_same].
  - destruct e; apply fe_old, fm_keep; frame_fields; reflexivity.
Qed.

End Defs.

(* the program counters at which a task certainly holds a permit (Inv1 in CopyImplInv.v); Proofs/CopyHold.v maps the
   phases of the specification-level model to them *)
Definition must_hold (p : pc) : bool :=
  match p with TSpawned | TTry | TExists | TFind | TPush => true | _ => false end.
