(* CopyImplNoFault: an execution of the protocol LTS in which no storage step / callback fails and the
   caller's context is not cancelled never sets [failed]; hence, when it has ended, the top-level
   syncutil.Go has returned nil.  The non-trivial arm is "successor not committed" (copy.go: a parent
   finds a successor untracked after its syncutil.Go returned nil): excluded by I_waittr. *)
From Coq Require Import List Arith Bool Lia.
From Oras Require Import Model.CopyImpl Proofs.CopyImplBase Proofs.CopyImplInv Proofs.CopyImplInv2
  Proofs.CopyImplLive Proofs.CopyImplFault Proofs.CopyImplSucc.
Import ListNotations.

Section Proofs.
Variable succ : nat -> list nat.
Variable K : nat.
Variable ext : bool.
Variable roots : list nat.
Hypothesis succ_dec : forall n m, In m (succ n) -> m < n.
Local Notation Reachable := (Reachable succ K ext roots).
Local Notation Inv1 := (Inv1 K).
Local Notation Inv4 := (Inv4 succ ext roots).

Definition I_waittr s := failed s = false ->
  forall t l, t_pc (tasks s t) = TWait l -> forall m, In m l -> tracker s m <> Untracked.
Definition I_reterr s := forall f, f_pc (frames s f) = FRet true -> failed s = true.

Lemma waittr_step s l s' : Inv1 s -> I_ingo s -> I_cancf s -> Inv4 s -> I_waittr s ->
  step succ s l = Some s' -> I_waittr s'.
Proof.
  intros I1 Hingo Hcf I4 Hw Hs Hfl t ll Hp0 m Hm. apply (tracked_mono succ s l s' Hs).
  pose proof (unfailed_before succ s l s' Hs Hfl) as Hfl0. specialize (Hw Hfl0).
  destruct (step_Step succ s l s' Hs) as [| f i rest k _ _ _ | | | f p Hpc Hd _ Hq _ | f p _ _ _ _ _ | t0 _
                                          | l0 t0 q0 q h k trk Hm0 Hq | l0 t0 q e trk _ _]; cbn [tasks] in Hp0.
  1, 3, 4: now apply (Hw t ll).
  - upd_at t (ntasks s); [discriminate Hp0 | now apply (Hw t ll)].
  - (* back from syncutil.Go with nil: the wait loop starts with all successors, which are the items of the frame *)
    upd_at t p; [|now apply (Hw t ll)]. cbn [t_pc set_pc_holds] in Hp0.
    apply (returned_items_tracked succ K ext roots s f p I1 I4 Hfl0 (proj1 (Hingo p f Hq)) Hpc Hd).
    unfold go_items, wait_list, wait_pc in *. destruct (t_kind (tasks s p)); [|discriminate Hp0].
    destruct (succ (t_node (tasks s p))); [discriminate Hp0 | now injection Hp0 as <-].
  - upd_at t p; [discriminate Hp0 | now apply (Hw t ll)].
  - upd_at t t0; [discriminate Hp0 | now apply (Hw t ll)].
  - upd_at t t0; [|now apply (Hw t ll)]. cbn [t_pc set_pc_holds] in Hp0.
    destruct Hm0 as [| | | | |m0 rest _|]; try discriminate Hp0.
    + now destruct (t_kind _).
    + now destruct (succ _).
    + (* the wait list only shrinks *)
      apply (Hw t0 _ Hq). right. unfold wait_pc in Hp0. destruct rest; [discriminate Hp0 | now injection Hp0 as <-].
  - upd_at t t0; [discriminate Hp0 | now apply (Hw t ll)].
Qed.

Lemma nofault_step s l s' : I_cancf s -> I_waittr s ->
  step succ s l = Some s' -> is_fault l = false -> failed s = false -> failed s' = false.
Proof.
  intros Hcf Hw Hs Hnf Hfl. destruct (failed s') eqn:F; [|reflexivity].
  destruct (step_failed succ s l s' Hs F) as [H|[H|[[f Hc]|[t [m [rest [Hp Hm]]]]]]]; try congruence.
  - rewrite (Hcf f Hc) in Hfl. discriminate.
  - exfalso. apply (Hw Hfl t _ Hp m); [now left | exact Hm].
Qed.

Lemma reterr_step s l s' : I_cancf s -> I_reterr s -> step succ s l = Some s' -> I_reterr s'.
Proof.
  intros Hcf Hre Hs f Hp. destruct (step_frame succ s l s' f Hs) as [_ _ _ M|t _ _ E]; [|rewrite E in Hp; discriminate Hp].
  destruct M as [_ Ep|? _ Ep|_ _ _ Ep|_ _ _ Ep]; rewrite Ep in Hp; try discriminate Hp.
  - apply (failed_mono succ s l s' Hs), (Hre f Hp).
  - injection Hp as Hc. apply (failed_mono succ s l s' Hs), (Hcf f Hc).
Qed.

Lemma waittr_reterr_reach s : Reachable s -> I_waittr s /\ I_reterr s.
Proof.
  induction 1 as [|s l s' Hr [Hw Hre] Hs].
  - split; [intros _ t l; cbn; discriminate|]. intros f. cbn. unfold upd. destruct (Nat.eqb f 0); cbn; discriminate.
  - destruct (inv1234_reach succ K ext roots succ_dec s Hr) as [I1 [I2 [I3 I4]]]. split.
    + apply (waittr_step s l s'); auto; apply I2 || apply I3.
    + apply (reterr_step s l s'); auto; apply I3.
Qed.

Lemma nofault_run ls : forall s s', Reachable s -> failed s = false ->
  run succ s ls = Some s' -> existsb is_fault ls = false -> failed s' = false.
Proof.
  induction ls as [|l ls IH]; cbn; intros s s' Hr Hfl H Hf.
  - now injection H as <-.
  - destruct (step succ s l) as [s1|] eqn:Hs; [|discriminate].
    apply orb_false_iff in Hf as [Hf1 Hf2]. apply (IH s1); auto; [econstructor; eauto|].
    apply (nofault_step s l s1); auto; [apply (inv123_reach succ K ext roots succ_dec s Hr) | apply (waittr_reterr_reach s Hr)].
Qed.

(* no failing storage step / callback and no cancellation of the caller's context: when the execution has
   ended, the top-level syncutil.Go has returned nil *)
Theorem nofault_returns_nil ls s : run succ (init K ext roots) ls = Some s ->
  existsb is_fault ls = false -> is_final s = true -> failed s = false /\ result s = Some false.
Proof.
  intros Hrun Hf Hfin.
  assert (Hfl : failed s = false) by (apply (nofault_run ls _ s (R_init _ _ _ _)); auto).
  split; [exact Hfl|]. unfold is_final, result in *.
  destruct (f_pc (frames s 0)) as [| |[|]] eqn:Hp; try discriminate; [|reflexivity].
  assert (Hr : Reachable s) by (eapply run_reachable; [apply R_init | exact Hrun]).
  rewrite (proj2 (waittr_reterr_reach s Hr) 0 Hp) in Hfl. discriminate.
Qed.

End Proofs.
