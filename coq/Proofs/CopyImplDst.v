(* CopyImplDst: the destination of the protocol LTS is link-closed at every reachable state; a push is
   enabled only when the successors are in the destination; success means the closure of the roots is
   there; a fault-free rerun from whatever a first call left completes the graph. *)
From Coq Require Import List Arith Bool Lia.
From Oras Require Import Model.CopyImpl Model.CopyImplDst Proofs.CopyImplBase Proofs.CopyImplSucc
  Proofs.CopyImplOrder Proofs.CopyImplNoFault.
Import ListNotations.

Lemma dmem_In n l : dmem n l = true <-> In n l.
Proof. apply existsb_eqb_in. Qed.

Section Proofs.
Variable succ : nat -> list nat.
Variable K : nat.
Variable ext : bool.
Variable roots : list nat.
Variable d0 : list nat.
Hypothesis succ_dec : forall n m, In m (succ n) -> m < n.
Local Notation Reachable := (Reachable succ K ext roots).

Inductive DReachable : dstate -> Prop :=
| DR_init : DReachable (dinit K ext roots d0)
| DR_step x l x' : DReachable x -> dstep succ x l = Some x' -> DReachable x'.

Definition dclosed (d : list nat) : Prop := forall n, In n d -> forall m, In m (succ n) -> In m d.

Lemma dstep_inv x dl x' : dstep succ x dl = Some x' ->
  step succ (ds x) (dlab dl) = Some (ds x') /\
  ((exists t, (dl = DL (LPush t true) \/ dl = DPushFailStored t) /\ dd x' = t_node (tasks (ds x) t) :: dd x) \/
   (dd x' = dd x /\ forall t, dl <> DL (LPush t true))) /\
  (forall t, dl = DL (LExists t ExTrue) -> In (t_node (tasks (ds x) t)) (dd x)).
Proof.
  unfold dstep. destruct (step succ (ds x) (dlab dl)) as [s'|]; [|discriminate].
  destruct dl as [[| | | | | | | |t []|t []| | | | | | |t []]|t];
    try destruct (dmem _ _) eqn:Hd; intros [= <-]; cbn [ds dd]; (split; [reflexivity|]);
    (split; [first [left; eauto; fail | right; split; [reflexivity | discriminate]] | try discriminate]).
  intros t' [= <-]. now apply dmem_In.
Qed.

Lemma dstep_step x dl x' : dstep succ x dl = Some x' -> step succ (ds x) (dlab dl) = Some (ds x').
Proof. intros H. apply (dstep_inv x dl x' H). Qed.

Lemma dreach_proj x : DReachable x -> Reachable (ds x).
Proof.
  induction 1 as [|x l x' Hr IH Hs].
  - constructor.
  - econstructor; [exact IH | eapply dstep_step; eauto].
Qed.

Lemma dstep_mono x dl x' : dstep succ x dl = Some x' -> forall n, In n (dd x) -> In n (dd x').
Proof. intros H n Hn. destruct (dstep_inv x dl x' H) as [_ [[[t [_ ->]]|[-> _]] _]]; [right|]; exact Hn. Qed.

Lemma done_origin s l s' n : step succ s l = Some s' -> is_done (tracker s' n) = true ->
  is_done (tracker s n) = true \/
  (exists t, (l = LPush t true \/ l = LExists t ExTrue) /\ n = t_node (tasks s t)).
Proof.
  intros Hs Hd. destruct (step_tracker succ s l s' Hs) as [E|n0 Hn E|t -> E|t -> _ E]; rewrite E in Hd; auto.
  - upd_at n n0; [discriminate Hd | auto].
  - upd_at n (t_node (tasks s t)); eauto.
  - upd_at n (t_node (tasks s t)); eauto.
Qed.

Definition J (x : dstate) : Prop := forall n, is_done (tracker (ds x) n) = true -> In n (dd x).

Lemma J_init : J (dinit K ext roots d0).
Proof. intros n. cbn. discriminate. Qed.

Lemma J_step x dl x' : J x -> dstep succ x dl = Some x' -> J x'.
Proof.
  intros HJ Hs n Hn. destruct (dstep_inv x dl x' Hs) as [Hst [Hdd Hex]].
  destruct (done_origin _ _ _ n Hst Hn) as [Hold|[t [Hl ->]]].
  - eapply dstep_mono; eauto.
  - destruct dl as [l|t']; cbn [dlab] in Hl; [|destruct Hl; discriminate].
    destruct Hl as [->| ->].
    + destruct Hdd as [[t' [[[= <-]|[=]] ->]]|[_ Hno]]; [now left | now contradiction (Hno t)].
    + eapply dstep_mono; eauto.
Qed.

Lemma J_reach x : DReachable x -> J x.
Proof. induction 1; [apply J_init | eapply J_step; eauto]. Qed.

Lemma dpush_after_successors x dl x' t :
  DReachable x -> dstep succ x dl = Some x' ->
  (exists ok, dl = DL (LPush t ok)) \/ dl = DPushFailStored t ->
  forall m, In m (succ (t_node (tasks (ds x) t))) -> In m (dd x).
Proof.
  intros Hr Hs Hl m Hm. apply (J_reach x Hr).
  pose proof (dstep_step _ _ _ Hs) as Hst.
  destruct Hl as [[ok ->]| ->]; cbn [dlab] in Hst;
    eapply (push_after_done succ K ext roots succ_dec); eauto using dreach_proj.
Qed.

Lemma dclosed_step x dl x' : DReachable x -> dclosed (dd x) -> dstep succ x dl = Some x' -> dclosed (dd x').
Proof.
  intros Hr Hc Hs.
  destruct (dstep_inv x dl x' Hs) as [_ [[[t [Hl ->]]|[-> _]] _]]; [|exact Hc].
  intros n [<-|Hn] m Hm; right; [|eapply Hc; eauto].
  eapply dpush_after_successors; eauto. destruct Hl as [->| ->]; eauto.
Qed.

Theorem dclosed_always x : dclosed d0 -> DReachable x -> dclosed (dd x).
Proof.
  intros Hc Hr. induction Hr as [|x l x' Hr IH Hs]; [exact Hc|].
  eapply dclosed_step; eauto.
Qed.

Inductive dreach : nat -> nat -> Prop :=
| dreach_refl a : dreach a a
| dreach_step a m b : In m (succ a) -> dreach m b -> dreach a b.

Lemma dclosed_reach d a b : dclosed d -> dreach a b -> In a d -> In b d.
Proof. intros Hc Hr. induction Hr; auto. intro Ha. apply IHHr. eapply Hc; eauto. Qed.

Theorem dsuccess_complete x : dclosed d0 -> DReachable x -> result (ds x) = Some false ->
  forall r n, In r roots -> dreach r n -> In n (dd x).
Proof.
  intros Hc Hr Hres r n Hin Hrn.
  destruct (success_tracker succ K ext roots succ_dec (ds x) (dreach_proj x Hr) Hres) as [_ [_ [Hroots _]]].
  eapply dclosed_reach; eauto using dclosed_always.
  apply (J_reach x Hr). now apply Hroots.
Qed.

Lemma drun_reach ls : forall x x', DReachable x -> drun succ x ls = Some x' -> DReachable x'.
Proof.
  induction ls as [|l ls IH]; cbn; intros x x' Hr H.
  - now injection H as <-.
  - destruct (dstep succ x l) as [x1|] eqn:E; [|discriminate]. eapply IH; [econstructor; eauto | exact H].
Qed.

Lemma drun_run ls : forall x x', drun succ x ls = Some x' -> run succ (ds x) (map dlab ls) = Some (ds x').
Proof.
  induction ls as [|l ls IH]; cbn; intros x x' H.
  - now injection H as <-.
  - destruct (dstep succ x l) as [x1|] eqn:E; [|discriminate].
    rewrite (dstep_step _ _ _ E). now apply IH.
Qed.

End Proofs.

(* retry: whatever a first call left (any reachable state, failed / cancelled / unfinished), a second
   call in which nothing fails and which has ended returned nil and holds the closure of its roots *)
Theorem drerun_completes (succ : nat -> list nat) K1 ext1 roots1 K2 ext2 roots2 d0 :
  (forall n m, In m (succ n) -> m < n) -> dclosed succ d0 ->
  forall x1, DReachable succ K1 ext1 roots1 d0 x1 ->
  forall ls x2, drun succ (dinit K2 ext2 roots2 (dd x1)) ls = Some x2 ->
  existsb is_fault (map dlab ls) = false -> is_final (ds x2) = true ->
  result (ds x2) = Some false /\
  dclosed succ (dd x2) /\
  forall r n, In r roots2 -> dreach succ r n -> In n (dd x2).
Proof.
  intros Hdec Hc x1 Hr1 ls x2 Hrun Hnf Hfin.
  pose proof (dclosed_always succ K1 ext1 roots1 d0 Hdec x1 Hc Hr1) as Hc1.
  assert (Hr2 : DReachable succ K2 ext2 roots2 (dd x1) x2).
  { eapply drun_reach; eauto. constructor. }
  pose proof (drun_run succ ls _ _ Hrun) as Hrun0. cbn [dinit ds] in Hrun0.
  destruct (nofault_returns_nil succ K2 ext2 roots2 Hdec _ _ Hrun0 Hnf Hfin) as [_ Hres].
  split; [exact Hres|]. split.
  - eapply dclosed_always; eauto.
  - eapply dsuccess_complete; eauto.
Qed.
