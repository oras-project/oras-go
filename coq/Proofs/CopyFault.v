(* Lemmas about the fault-extended copyGraph transition system (Model/CopyFault.v):
   the invariant of Proofs/CopySpec.v survives every fault event, hence the destination
   is link-closed at every instant of every run (successful, failed, cancelled); a fault
   or cancellation excludes the successful return; a rerun completes the graph (C02).
   The steps of the extended system are characterised once ([fstep_shape], with the table
   [kills] of the fault events that kill a task); every invariant is proved through that. *)
From Oras Require Import Base.Prelude Model.CopySpec Model.CopyTop Model.CopyOpt Model.CopyFault Proofs.CopySpec.
Local Open Scope nat_scope.

Section StepFacts.
Variable g : graph.
Variable c : cfg.

Lemma move_dead st e n p q : move g c st e n p q ->
  p <> Dead /\ (q = Dead <-> exists k, e = CbFail k n).
Proof.
  intro M. move_cases M; (split; [discriminate|]);
    (split; [try discriminate; eauto | intros [k0 E]; try discriminate E; reflexivity]).
Qed.

Lemma step_frame st e st' x : step g c st e = Some st' -> ev_node e <> Some x -> ph st' x = ph st x.
Proof.
  intros H Hn. destruct (step_ph g c _ _ _ x H) as [E|(p & q & _ & _ & M)]; [exact E|].
  now rewrite (move_node _ _ _ _ _ _ _ M) in Hn.
Qed.

Lemma step_no_new_dead st e st' x : step g c st e = Some st' -> (forall k n, e <> CbFail k n) ->
  ph st' x = Dead -> ph st x = Dead.
Proof.
  intros H Hn Hx. destruct (step_ph g c _ _ _ x H) as [E|(p & q & _ & Hq & M)]; [congruence|].
  destruct (move_dead _ _ _ _ _ M) as [_ [Hd _]]. destruct Hd as [k ->]; [congruence|]. now destruct (Hn k x).
Qed.

Lemma step_cbfail_dead st k n st' : step g c st (CbFail k n) = Some st' -> ph st' n = Dead.
Proof.
  intro H. destruct (step_move g c _ _ _ n H eq_refl) as (p & q & _ & M & ->).
  cbn [moved ph]. rewrite upd_same. apply (move_dead _ _ _ _ _ M). eauto.
Qed.

Lemma pue_pushing st n ref r st' : step g c st (PuE n ref r) = Some st' ->
  exists sk rd, ph st n = Pushing sk rd.
Proof.
  intro H. destruct (step_move g c _ _ _ n H eq_refl) as (p & q & Hp & M & _). rewrite Hp.
  move_inv M; eauto.
Qed.

Lemma mte_settled st n r st' : step g c st (MtE n r) = Some st' -> settled_ph (ph st n) = true.
Proof.
  intro H. destruct (step_move g c _ _ _ n H eq_refl) as (p & q & Hp & M & _). rewrite Hp.
  now move_inv M.
Qed.

End StepFacts.

Section F.
Variable g : graph.
Variable c : cfg.
Variable ext : bool.
Variable d0 : list node.

Notation Inv := (Inv g c d0).

Lemma inv_fault st n d' t' :
  Inv st -> ph st n <> Idle -> ph st n <> Done ->
  (d' = dst st \/ (d' = n :: dst st /\ settled_ph (ph st n) = true /\ has g (dst st) n = false)) ->
  (t' = tag st \/ (t' = Some n /\ n = c_root c)) ->
  Inv (mkState (upd (ph st) n Dead) d' (cached st) t' (returned st)).
Proof.
  intros I Hni Hnd Hd Ht.
  assert (Hmono : forall x, has g (dst st) x = true -> has g d' x = true).
  { intros x Hx. destruct Hd as [->|[-> _]]; auto using has_mono. }
  (* Dead is in none of the phase sets of the invariant: a clause "f (ph m) = true -> ..." is asked only
     of nodes that did not move *)
  assert (K : forall (f : phase -> bool) m, f Dead = false ->
            f (upd (ph st) n Dead m) = true -> f (ph st m) = true).
  { intros f m Hf. unfold upd. destruct (Nat.eqb m n); congruence. }
  assert (KI : forall m, upd (ph st) n Dead m <> Idle -> ph st m <> Idle).
  { intros m. unfold upd. destruct (Nat.eqb_spec m n) as [->|_]; auto. }
  constructor; cbn [ph dst cached tag returned].
  - intro Hc0. destruct Hd as [->|[-> [Hs _]]]; [now apply (i_closed _ _ _ st I)|].
    intros m x [<-|Hm] Hx; apply has_mono.
    + apply (i_present _ _ _ st I). now rewrite (i_settled _ _ _ st I n Hs x Hx).
    + exact (i_closed _ _ _ st I Hc0 m x Hm Hx).
  - intros m Hm. apply Hmono, (i_present _ _ _ st I), (K present_ph); auto.
  - intros m Hm x Hx.
    pose proof (i_settled _ _ _ st I m (K settled_ph m eq_refl Hm) x Hx) as Hxd.
    rewrite upd_other; [exact Hxd | congruence].
  - intros m Hm. apply (i_bound _ _ _ st I), KI, Hm.
  - intros m Hm. apply (i_dp _ _ _ st I), KI, Hm.
  - intros m Hm. apply (i_absent _ _ _ st I), (K absent_ph); auto.
  - intros m Hm. apply Hmono, (i_mono _ _ _ st I), Hm.
  - intros m Hm. destruct Hd as [->|[-> [Hs _]]]; [now apply (i_orig _ _ _ st I)|].
    destruct Hm as [<-|Hm]; [|now apply (i_orig _ _ _ st I)].
    right. split; [now apply (i_dp _ _ _ st I) | apply (i_absent _ _ _ st I); now apply settled_absent].
  - intros m Hm. apply (i_skflag _ _ _ st I), (K skflag_ph); auto.
  - intros m Hm. apply (i_tagging _ _ _ st I), (K tagging_ph); auto.
  - intros Hr Hs. apply (i_noskip _ _ _ st I Hr). revert Hs. unfold upd. destruct (Nat.eqb _ n); [discriminate | auto].
  - intros m Hm. apply (i_mt _ _ _ st I), (K mt_ph); auto.
  - destruct Ht as [->|[-> ->]]; [apply (i_tagroot _ _ _ st I) | now right].
  - intros m Hm. apply (i_mtfb _ _ _ st I), (K mtfb_ph); auto.
  - intros Hmode Hok Hph.
    assert (E : c_root c <> n).
    { intros <-. rewrite upd_same in Hph. destruct Hph as [H|[H|[_ [sk H]]]]; discriminate. }
    rewrite upd_other in Hph by exact E.
    destruct Ht as [->|[-> _]]; [exact (i_tagged _ _ _ st I Hmode Hok Hph) | discriminate].
Qed.

Lemma inv_ret st b : Inv st -> Inv (mkState (ph st) (dst st) (cached st) (tag st) (Some b)).
Proof. intros I. destruct I. constructor; cbn [ph dst cached tag returned]; assumption. Qed.

(* The fault events that kill the task of one node, with the phases of the node in which each is enabled. *)
Inductive kills : fevent -> node -> phase -> Prop :=
| k_exx n was : kills (ExX n) n (ExQ was)
| k_sfx_mf n : kills (SFX n) n MF1
| k_sfx n sk : kills (SFX n) n (F1 sk)
| k_sfx_mt n : kills (SFX n) n MtF1
| k_srx n : kills (SRX n) n MF2
| k_fsx_fetch n : on_virtual c ext (ExB n) = false -> kills (FSX n) n NeedFetch
| k_fsx_wait n : on_virtual c ext (ExB n) = false -> kills (FSX n) n Waiting
| k_pux n stored sk rd : kills (PuX n (root_refpush c n) stored) n (Pushing sk rd)
| k_tagx n set sk : kills (TagX n set) n (TagP1 sk)
| k_mtx n stored : kills (MtX n stored) n Mounting
| k_mtx_up n stored : kills (MtX n stored) n MtC.

(* What such an event leaves behind beside the dead task: the destination had stored the content / set the
   reference before it returned the error; the task's source reader is still open. *)
Definition x_stored (fe : fevent) : bool :=
  match fe with PuX _ _ stored | MtX _ stored => stored | _ => false end.
Definition x_tagged (fe : fevent) : bool :=
  match fe with PuX _ ref stored => ref && stored | TagX _ set => set | _ => false end.
Definition x_reader (fe : fevent) (p : phase) : bool :=
  match fe, p with SRX _, _ => true | PuX _ _ _, Pushing _ rd => rd | _, _ => false end.

Definition killed (fs : fstate) (fe : fevent) (n : node) (p : phase) : fstate :=
  let st := fb fs in
  mkF (mkState (upd (ph st) n Dead)
               (if x_stored fe && negb (has g (dst st) n) then n :: dst st else dst st)
               (cached st) (if x_tagged fe then Some n else tag st) (returned st))
      (f_cancelled fs) (f_aborted fs) true (if x_reader fe p then n :: f_rd fs else f_rd fs).

Lemma kills_fault fe n p : kills fe n p -> is_fault fe = true.
Proof. destruct 1; reflexivity. Qed.

Lemma killed_dst fs fe n p :
  dst (fb (killed fs fe n p)) = dst (fb fs) \/ dst (fb (killed fs fe n p)) = n :: dst (fb fs).
Proof. cbn [killed fb dst]. destruct (_ && _); auto. Qed.

Inductive fstep_shape (fs : fstate) : fevent -> fstate -> Prop :=
| fs_ret_true :
    tainted g fs = false -> ret_ok_guard g c ext (fb fs) = true ->
    fstep_shape fs (Ev (Ret true)) (set_ret fs true)
| fs_ret_false :
    tainted g fs = true -> fstep_shape fs (Ev (Ret false)) (set_ret fs false)
| fs_cancel :
    fstep_shape fs Cancel (mkF (fb fs) true (f_aborted fs) (f_started fs) (f_rd fs))
| fs_deadclose n :
    f_aborted fs = false -> ph (fb fs) n = Dead -> memb n (f_rd fs) = true ->
    fstep_shape fs (Ev (SFC n)) (mkF (fb fs) (f_cancelled fs) (f_aborted fs) true (remove_node n (f_rd fs)))
| fs_base e st' :
    f_aborted fs = false -> (forall b, e <> Ret b) -> step g c (fb fs) e = Some st' ->
    on_virtual c ext e = false ->
    fstep_shape fs (Ev e) (with_base fs st')
| fs_kill fe n p :
    f_aborted fs = false -> ph (fb fs) n = p -> kills fe n p -> fstep_shape fs fe (killed fs fe n p)
| fs_prook :
    f_aborted fs = false -> f_started fs = false -> fstep_shape fs ProOk fs
| fs_prox :
    f_aborted fs = false -> f_started fs = false ->
    fstep_shape fs ProX (mkF (fb fs) (f_cancelled fs) true (f_started fs) (f_rd fs)).

Lemma fstep_after_ret fs fe b : returned (fb fs) = Some b -> fstep g c ext fs fe = None.
Proof. intro H. unfold fstep. rewrite H. reflexivity. Qed.

Lemma if_none_else {A} (b : bool) (x : option A) y : (if b then None else x) = Some y -> b = false /\ x = Some y.
Proof. destruct b; [discriminate | auto]. Qed.

Lemma none_else {A B} (o : option A) (x : option B) y :
  match o with Some _ => None | None => x end = Some y -> o = None /\ x = Some y.
Proof. destruct o; [discriminate | auto]. Qed.

(* [H] is the rule of the fault event fe of node n, read off [fstep]: the phase of n decides, and [kills] has
   a constructor for each accepting case *)
Local Ltac kill_case fs fe n H Hab :=
  let Hp := fresh "Hp" in let Hv := fresh "Hv" in
  destruct (ph (fb fs) n) eqn:Hp; try discriminate H; try apply if_none_else in H as [Hv H];
  injection H as <-; apply (fs_kill fs fe n _ Hab Hp); now constructor.

Lemma fstep_inv fs fe fs' : fstep g c ext fs fe = Some fs' ->
  returned (fb fs) = None /\ fstep_shape fs fe fs'.
Proof.
  intro H.
  assert (Hr : returned (fb fs) = None).
  { destruct (returned (fb fs)) as [b|] eqn:Hr; [now rewrite (fstep_after_ret fs fe b Hr) in H | reflexivity]. }
  split; [exact Hr|].
  (* the rule of an event of CopySpec that is neither a return nor the close of a dead task's reader *)
  assert (B : forall e, (forall b, e <> Ret b) -> f_aborted fs = false ->
            match step g c (fb fs) e with
            | Some st' => if on_virtual c ext e then None else Some (with_base fs st')
            | None => None
            end = Some fs' -> fstep_shape fs (Ev e) fs').
  { intros e He Hab H1. destruct (step g c (fb fs) e) as [st'|] eqn:Hs; [|discriminate].
    destruct (on_virtual c ext e) eqn:Hv; [discriminate|]. injection H1 as <-. now apply fs_base. }
  destruct fe as [e|n|n|n|n|n ref stored|n set|n stored| | |];
    [destruct e as [| | | |n| | | | | | | | |[|]]|..];
    (* [fstep] is unfolded after the case split: each case then carries its own rule only *)
    unfold fstep in H; apply none_else in H as [_ H];
    try apply if_none_else in H as [Hab H]; try (apply B; [discriminate | exact Hab | exact H]).
  - (* SFC *)
    destruct (is_dead (ph (fb fs) n)) eqn:Hd; [|apply B; [discriminate | exact Hab | exact H]].
    destruct (memb n (f_rd fs)) eqn:Hm; [|discriminate].
    injection H as <-. apply fs_deadclose; auto. destruct (ph (fb fs) n); simpl in Hd; congruence.
  - destruct (tainted g fs) eqn:Hg; [discriminate|].
    destruct (ret_ok_guard g c ext (fb fs)) eqn:Hg2; [|discriminate].
    injection H as <-. now apply fs_ret_true.
  - destruct (tainted g fs) eqn:Hg; [|discriminate].
    injection H as <-. now apply fs_ret_false.
  - kill_case fs (ExX n) n H Hab.
  - kill_case fs (SFX n) n H Hab.
  - kill_case fs (SRX n) n H Hab.
  - kill_case fs (FSX n) n H Hab.
  - apply if_none_else in H as [Hre H]. apply negb_false_iff, eqb_prop in Hre. subst ref.
    kill_case fs (PuX n (root_refpush c n) stored) n H Hab.
  - kill_case fs (TagX n set) n H Hab.
  - kill_case fs (MtX n stored) n H Hab.
  - apply if_none_else in H as [Hst H]. injection H as <-. now apply fs_prook.
  - apply if_none_else in H as [Hst H]. injection H as <-. now apply fs_prox.
  - injection H as <-. apply fs_cancel.
Qed.

Lemma fstep_ev fs e st' : f_aborted fs = false -> (forall b, e <> Ret b) -> on_virtual c ext e = false ->
  step g c (fb fs) e = Some st' -> fstep g c ext fs (Ev e) = Some (with_base fs st').
Proof.
  intros Ha Hb Hv Hs. destruct (step_cases _ _ _ _ _ Hs) as [Hr _]. unfold fstep. rewrite Hr.
  destruct e; try (rewrite Ha; cbv iota beta; rewrite Hs, Hv; reflexivity); [|now destruct (Hb ok)].
  (* SFC: the reader of a live task *)
  rewrite Ha. cbv iota beta. destruct (ph (fb fs) n) eqn:Hp; try (rewrite Hs, Hv; reflexivity).
  unfold step in Hs. rewrite Hr, Hp in Hs. discriminate.
Qed.

Lemma fstep_ret fs b fs' : fstep g c ext fs (Ev (Ret b)) = Some fs' ->
  fs' = set_ret fs b /\ tainted g fs = negb b /\ (b = true -> ret_ok_guard g c ext (fb fs) = true).
Proof.
  intro H. apply fstep_inv in H as [_ H].
  inversion H as [Ht Hg|Ht| | |e st' _ He|fe n p _ _ K| |]; subst; auto.
  - repeat split; auto. discriminate.
  - now destruct (He b).
  - inversion K.
Qed.

(* a killed task meets the hypotheses of inv_fault *)
Lemma kills_spec fs fe n p : Inv (fb fs) -> ph (fb fs) n = p -> kills fe n p ->
  p <> Idle /\ p <> Done /\
  (dst (fb (killed fs fe n p)) = dst (fb fs) \/
   (dst (fb (killed fs fe n p)) = n :: dst (fb fs) /\ settled_ph p = true /\ has g (dst (fb fs)) n = false)) /\
  (tag (fb (killed fs fe n p)) = tag (fb fs) \/ (tag (fb (killed fs fe n p)) = Some n /\ n = c_root c)).
Proof.
  intros I Hp K. cbn [killed fb dst tag].
  assert (St : forall stored, settled_ph p = true ->
    let d := dst (fb fs) in let d' := if stored && negb (has g d n) then n :: d else d in
    d' = d \/ (d' = n :: d /\ settled_ph p = true /\ has g d n = false)).
  { intros stored Hs. cbv zeta. destruct stored; [|now left].
    destruct (has g (dst (fb fs)) n) eqn:E; [now left | right; auto]. }
  destruct K; cbn [x_stored x_tagged andb]; repeat split; try discriminate; try (now left);
    try (apply St; reflexivity).
  - destruct sk; [left | apply St; reflexivity].
    (* the present root of a ReferencePusher copy is held already *)
    rewrite (i_present _ _ _ _ I n), andb_false_r; [reflexivity | now rewrite Hp].
  - destruct (root_refpush c n && stored) eqn:E; [|now left].
    right. apply andb_true_iff in E as [E _]. split; [reflexivity | now apply root_refpush_root].
  - destruct set; [|now left]. right. split; [reflexivity|].
    apply root_tagger_root, (i_tagging _ _ _ _ I). now rewrite Hp.
Qed.

Lemma fstep_preserves_inv fs fe fs' :
  Inv (fb fs) -> fstep g c ext fs fe = Some fs' -> Inv (fb fs').
Proof.
  intros I H. apply fstep_inv in H as [_ H].
  destruct H as [| | | |e st' _ _ Hs _|fe n p _ Hp K| |]; cbn [fb set_ret with_base]; auto using inv_ret.
  - exact (step_preserves_inv _ _ _ _ _ _ I Hs).
  - destruct (kills_spec _ _ _ _ I Hp K) as [Hi [Hd [Hd' Ht']]]. subst p. cbn [killed fb] in *.
    now apply inv_fault.
Qed.

Lemma frun_preserves (P : fstate -> Prop) :
  (forall fs fe fs', P fs -> fstep g c ext fs fe = Some fs' -> P fs') ->
  forall tr fs fs', P fs -> frun g c ext fs tr = Some fs' -> P fs'.
Proof.
  intros HP. induction tr as [|e tr IH]; simpl; intros fs fs' I H.
  - now injection H as <-.
  - destruct (fstep g c ext fs e) as [fs1|] eqn:E; [|discriminate]. eauto.
Qed.

Lemma frun_nofault_preserves (P : fstate -> Prop) :
  (forall fs fe fs', P fs -> fstep g c ext fs fe = Some fs' -> is_fault fe = false -> P fs') ->
  forall tr fs fs', P fs -> frun g c ext fs tr = Some fs' -> existsb is_fault tr = false -> P fs'.
Proof.
  intros HP. induction tr as [|e tr IH]; simpl; intros fs fs' I H Hf.
  - now injection H as <-.
  - destruct (fstep g c ext fs e) as [fs1|] eqn:E; [|discriminate].
    apply orb_false_iff in Hf as [Hf1 Hf2]. eauto.
Qed.

Lemma frun_inv tr fs fs' : Inv (fb fs) -> frun g c ext fs tr = Some fs' -> Inv (fb fs').
Proof. apply (frun_preserves (fun fs => Inv (fb fs))). exact fstep_preserves_inv. Qed.

(* the virtual super-root is a node of the universe that no store holds *)
Definition ext_ok : Prop := ext = true -> c_root c < g_n g /\ has g d0 (c_root c) = false.

Lemma finit_inv : ext_ok -> Inv (fb (finit c ext d0)).
Proof.
  intro Hx. unfold finit. destruct ext eqn:Hext; [|apply init_inv].
  destruct (Hx Hext) as [Hb Ha]. unfold set_ph, init.
  (* every node is idle, but the virtual super-root, which waits: a clause about a node speaks of that one *)
  constructor; cbn [fb ph dst cached tag returned]; auto;
    try (intros n; unfold upd; destruct (Nat.eqb_spec n (c_root c)) as [->|_]; try discriminate; try congruence).
  - intros _. constructor.
  - rewrite upd_same. discriminate.
  - rewrite upd_same. intros _ _ [H|[H|[_ [sk H]]]]; discriminate H.
Qed.

Lemma finit_returned : returned (fb (finit c ext d0)) = None.
Proof. unfold finit. destruct ext; reflexivity. Qed.

Lemma finit_ph n : let p := ph (fb (finit c ext d0)) n in p = Idle \/ (ext = true /\ n = c_root c /\ p = Waiting).
Proof.
  unfold finit. destruct ext; cbn [fb set_ph init ph]; [|now left].
  unfold upd. destruct (Nat.eqb_spec n (c_root c)); auto.
Qed.

Lemma faccepts_inv tr fs : ext_ok -> faccepts g c ext d0 tr = Some fs -> Inv (fb fs).
Proof. intros Hx. apply frun_inv, finit_inv, Hx. Qed.

Lemma frun_app tr1 : forall tr2 fs fs', frun g c ext fs (tr1 ++ tr2) = Some fs' ->
  exists fs1, frun g c ext fs tr1 = Some fs1 /\ frun g c ext fs1 tr2 = Some fs'.
Proof.
  induction tr1 as [|e tr1 IH]; simpl; intros tr2 fs fs' H.
  - eauto.
  - destruct (fstep g c ext fs e) as [fs1|] eqn:E; [|discriminate]. eauto.
Qed.

Lemma frun_join tr1 : forall tr2 fs fs1 fs2, frun g c ext fs tr1 = Some fs1 ->
  frun g c ext fs1 tr2 = Some fs2 -> frun g c ext fs (tr1 ++ tr2) = Some fs2.
Proof.
  induction tr1 as [|e tr1 IH]; simpl; intros tr2 fs fs1 fs2 H1 H2.
  - injection H1 as <-. exact H2.
  - destruct (fstep g c ext fs e) as [fsx|]; [|discriminate]. eauto.
Qed.

Lemma fclosed_always tr fs :
  ext_ok -> closed_nodes g d0 -> faccepts g c ext d0 tr = Some fs -> closed_nodes g (dst (fb fs)).
Proof. intros Hx Hc Ha. exact (i_closed _ _ _ _ (faccepts_inv tr fs Hx Ha) Hc). Qed.

(* closure at the level of KEYS (what a digest-keyed store answers): whatever node the destination
   "holds" by key has all its successors held -- needs mt_consistent (one digest, one successor set) *)
Lemma fclosed_keys tr fs :
  ext_ok -> closed_nodes g d0 -> mt_consistent g -> faccepts g c ext d0 tr = Some fs ->
  forall n x, has g (dst (fb fs)) n = true -> In x (succ' g n) -> has g (dst (fb fs)) x = true.
Proof.
  intros Hx Hc Hmt Ha n x. exact (key_closed g _ n x (fclosed_always tr fs Hx Hc Ha) Hmt).
Qed.

Lemma fclosed_every_prefix tr1 tr2 fs :
  ext_ok -> closed_nodes g d0 -> faccepts g c ext d0 (tr1 ++ tr2) = Some fs ->
  exists fs1, faccepts g c ext d0 tr1 = Some fs1 /\ closed_nodes g (dst (fb fs1)).
Proof.
  intros Hx Hc Ha. apply frun_app in Ha as [fs1 [H1 _]].
  exists fs1. split; [exact H1|]. exact (fclosed_always tr1 fs1 Hx Hc H1).
Qed.

Lemma settled_successors st n :
  Inv st -> settled_ph (ph st n) = true -> forall x, In x (succ' g n) -> has g (dst st) x = true.
Proof.
  intros I Hs x Hx. apply (i_present _ _ _ st I).
  rewrite (i_settled _ _ _ st I n Hs x Hx). reflexivity.
Qed.

Lemma pushing_successors st n sk rd :
  Inv st -> closed_nodes g d0 -> mt_consistent g ->
  ph st n = Pushing sk rd -> forall x, In x (succ' g n) -> has g (dst st) x = true.
Proof.
  intros I Hc Hmt Hp. destruct sk.
  - (* the present root of a ReferencePusher copy: the destination is closed *)
    intro x. apply (key_closed g _ n x (i_closed _ _ _ st I Hc) Hmt).
    apply (i_present _ _ _ st I). now rewrite Hp.
  - apply settled_successors; [exact I | now rewrite Hp].
Qed.

(* the events that complete the storing of node n in the destination: a push / push with reference
   (stored now or already there), a push or Mount that reports an error after the content was stored,
   a Mount that mounted the blob or uploaded it *)
Definition push_done (fe : fevent) (n : node) : Prop :=
  (exists ref r, fe = Ev (PuE n ref r)) \/ (exists ref, fe = PuX n ref true) \/
  fe = Ev (MtE n MMounted) \/ fe = Ev (MtE n MCopied) \/ fe = MtX n true.

Lemma fpush_after_successors tr1 fe tr2 fs n :
  ext_ok -> closed_nodes g d0 -> mt_consistent g ->
  faccepts g c ext d0 (tr1 ++ fe :: tr2) = Some fs -> push_done fe n ->
  exists fs1, faccepts g c ext d0 tr1 = Some fs1 /\
    forall x, In x (succ' g n) -> has g (dst (fb fs1)) x = true.
Proof.
  intros Hx Hc Hmt Ha Hpd. apply frun_app in Ha as [fs1 [H1 H2]].
  exists fs1. split; [exact H1|].
  pose proof (faccepts_inv tr1 fs1 Hx H1) as I.
  simpl in H2. destruct (fstep g c ext fs1 fe) as [fs2|] eqn:E; [|discriminate].
  apply fstep_inv in E as [_ E].
  destruct Hpd as [[ref [r ->]] | [[ref ->] | [-> | [-> | ->]]]];
    inversion E as [| | | |e st' _ _ Hs _|fe' n' p _ Hp K| |]; subst; try solve [inversion K].
  - destruct (pue_pushing _ _ _ _ _ _ _ Hs) as [sk [rd Hp]]. exact (pushing_successors _ _ _ _ I Hc Hmt Hp).
  - inversion K; subst. eapply pushing_successors; eauto.
  - apply (settled_successors _ _ I), (mte_settled _ _ _ _ _ _ Hs).
  - apply (settled_successors _ _ I), (mte_settled _ _ _ _ _ _ Hs).
  - apply (settled_successors _ _ I). inversion K; reflexivity.
Qed.

Lemma any_dead_intro st n : n < g_n g -> ph st n = Dead -> any_dead g st = true.
Proof.
  intros Hn Hp. unfold any_dead. apply existsb_exists. exists n. split.
  - apply in_seq. lia.
  - now rewrite Hp.
Qed.

Lemma any_dead_elim st : any_dead g st = true -> exists n, n < g_n g /\ ph st n = Dead.
Proof.
  intro Hd. apply existsb_exists in Hd as [n [Hin Hn]]. exists n. split.
  - apply in_seq in Hin. lia.
  - destruct (ph st n); simpl in Hn; congruence.
Qed.

Lemma any_dead_mono st st' : (forall x, is_dead (ph st x) = true -> is_dead (ph st' x) = true) ->
  any_dead g st = true -> any_dead g st' = true.
Proof.
  intros H Hd. apply existsb_exists in Hd as [n [Hin Hn]]. apply existsb_exists. exists n. auto.
Qed.

Lemma tainted_mono fs fe fs' : fstep g c ext fs fe = Some fs' ->
  tainted g fs = true -> tainted g fs' = true.
Proof.
  intros H Ht. apply fstep_inv in H as [_ H]. unfold tainted in *.
  assert (KD : forall st', (forall x, is_dead (ph (fb fs) x) = true -> is_dead (ph st' x) = true) ->
            f_cancelled fs || f_aborted fs || any_dead g st' = true).
  { intros st' Hst. apply orb_true_iff in Ht as [->|Ht]; [reflexivity|].
    rewrite (any_dead_mono _ st' Hst Ht). apply orb_true_r. }
  destruct H as [| | | |e st' _ _ Hs _|fe n p _ _ _| |];
    cbn [fb f_cancelled f_aborted set_ret with_base killed]; auto.
  - apply KD. intro x. exact (closed_ph_step is_dead g c _ _ _ x dead_closed Hs).
  - apply KD. intro x. cbn [ph]. unfold upd. destruct (Nat.eqb x n); auto.
  - rewrite orb_true_r. reflexivity.
Qed.

Lemma fault_taints fs fe fs' : Inv (fb fs) -> fstep g c ext fs fe = Some fs' ->
  is_fault fe = true -> tainted g fs' = true.
Proof.
  intros I H Hf. pose proof (fstep_preserves_inv _ _ _ I H) as I'.
  (* the fault events that leave the flags alone leave their node dead *)
  assert (D : forall n, ph (fb fs') n = Dead -> tainted g fs' = true).
  { intros n Hd. unfold tainted. rewrite (any_dead_intro _ n); [apply orb_true_r | | exact Hd].
    apply (i_bound _ _ _ _ I'). congruence. }
  apply fstep_inv in H as [_ H].
  destruct H as [| | | |e st' _ _ Hs _|fe n p _ _ _| |]; try discriminate Hf.
  - reflexivity.
  - destruct e; try discriminate Hf. apply (D n), (step_cbfail_dead g c _ _ _ _ Hs).
  - apply (D n), upd_same.
  - unfold tainted. cbn [f_aborted]. now rewrite orb_true_r.
Qed.

Lemma frun_returned tr : forall fs fs' b, frun g c ext fs tr = Some fs' ->
  returned (fb fs) = None -> returned (fb fs') = Some b ->
  exists tr0 fs0, tr = tr0 ++ [Ev (Ret b)] /\ frun g c ext fs tr0 = Some fs0 /\
    fstep g c ext fs0 (Ev (Ret b)) = Some fs'.
Proof.
  induction tr as [|fe tr IH]; simpl; intros fs fs' b H Hn Hr.
  - injection H as <-. congruence.
  - destruct (fstep g c ext fs fe) as [fs1|] eqn:E; [|discriminate].
    destruct (returned (fb fs1)) as [b1|] eqn:Hr1.
    + (* fe was the return: nothing follows *)
      destruct tr as [|fe2 tr2]; [|simpl in H; now rewrite (fstep_after_ret fs1 fe2 b1 Hr1) in H].
      injection H as <-. exists [], fs.
      assert (fe = Ev (Ret b)); [|subst; auto].
      apply fstep_inv in E as [_ E].
      destruct E as [| | | |e st' _ He Hs _| | |]; cbn [fb set_ret with_base killed returned] in *; try congruence.
      rewrite (step_keeps_returned _ _ _ _ _ Hs He) in Hr1. congruence.
    + destruct (IH fs1 fs' b H Hr1 Hr) as [tr0 [fs0 [-> [H0 Hs]]]].
      exists (fe :: tr0), fs0. simpl. rewrite E. auto.
Qed.

Lemma frun_tainted tr : forall fs fs', Inv (fb fs) -> frun g c ext fs tr = Some fs' ->
  (tainted g fs = true \/ existsb is_fault tr = true) -> tainted g fs' = true.
Proof.
  induction tr as [|fe tr IH]; simpl; intros fs fs' I H Hor.
  - injection H as <-. destruct Hor; [assumption | discriminate].
  - destruct (fstep g c ext fs fe) as [fs1|] eqn:E; [|discriminate].
    apply (IH fs1 fs' (fstep_preserves_inv _ _ _ I E) H).
    destruct Hor as [Ht|Hf]; [left; exact (tainted_mono _ _ _ E Ht)|].
    apply orb_true_iff in Hf as [Hf|Hf]; [left; exact (fault_taints _ _ _ I E Hf) | now right].
Qed.

Lemma no_ok_after_fault tr fs fs' : Inv (fb fs) -> frun g c ext fs tr = Some fs' ->
  (tainted g fs = true \/ existsb is_fault tr = true) -> returned (fb fs) = None ->
  returned (fb fs') <> Some true.
Proof.
  intros I H Hor Hn Hr.
  destruct (frun_returned tr fs fs' true H Hn Hr) as [tr0 [fs0 [-> [H0 Hs]]]].
  (* the successful return was made in an untainted state, after a tainted start or a fault *)
  apply fstep_ret in Hs as [_ [Hnt _]].
  rewrite (frun_tainted tr0 fs fs0 I H0) in Hnt; [discriminate|].
  rewrite existsb_app in Hor. cbn in Hor. now rewrite orb_false_r in Hor.
Qed.

Lemma ffault_surfaces tr fs :
  ext_ok -> faccepts g c ext d0 tr = Some fs -> existsb is_fault tr = true ->
  returned (fb fs) <> Some true.
Proof.
  intros Hx Ha Hf.
  exact (no_ok_after_fault tr _ fs (finit_inv Hx) Ha (or_intror Hf) finit_returned).
Qed.

Lemma fret_ok_disabled fs : tainted g fs = true -> fstep g c ext fs (Ev (Ret true)) = None.
Proof.
  intro H. unfold fstep. destruct (returned (fb fs)); auto. now rewrite H.
Qed.

Lemma fret_err_enabled fs : tainted g fs = true -> returned (fb fs) = None ->
  fstep g c ext fs (Ev (Ret false)) = Some (set_ret fs false).
Proof. intros H Hr. unfold fstep. now rewrite Hr, H. Qed.

Lemma ftainted_after_fault tr1 fe fs :
  ext_ok -> faccepts g c ext d0 (tr1 ++ [fe]) = Some fs -> is_fault fe = true ->
  tainted g fs = true.
Proof.
  intros Hx Ha Hf. apply (frun_tainted _ _ fs (finit_inv Hx) Ha). right.
  rewrite existsb_app. cbn. now rewrite Hf, orb_true_r.
Qed.

Lemma untainted_step fs fe fs' : fstep g c ext fs fe = Some fs' -> is_fault fe = false ->
  tainted g fs = false -> tainted g fs' = false.
Proof.
  intros H Hf Ht. apply fstep_inv in H as [_ H]. unfold tainted in *.
  destruct H as [| | | |e st' _ _ Hs _|fe n p _ _ K| |]; simpl in Hf; try discriminate;
    cbn [fb f_cancelled f_aborted set_ret with_base]; auto;
    [|rewrite (kills_fault _ _ _ K) in Hf; discriminate].
  apply orb_false_iff in Ht as [-> Hd]. apply Bool.not_true_is_false. intro Hd'.
  apply any_dead_elim in Hd' as [x [Hx Hxd]].
  rewrite (any_dead_intro (fb fs) x Hx) in Hd; [discriminate|].
  apply (step_no_new_dead g c _ _ _ x Hs); [|exact Hxd]. intros k n ->. discriminate.
Qed.

Lemma frun_untainted tr fs fs' : frun g c ext fs tr = Some fs' ->
  existsb is_fault tr = false -> tainted g fs = false -> tainted g fs' = false.
Proof.
  intros H Hf Ht. revert tr fs fs' Ht H Hf. apply frun_nofault_preserves.
  intros fs fe fs' Ht H Hf. exact (untainted_step fs fe fs' H Hf Ht).
Qed.

Lemma finit_untainted : tainted g (finit c ext d0) = false.
Proof.
  unfold tainted. cbn [finit f_cancelled f_aborted orb].
  apply Bool.not_true_is_false. intro Hd. apply any_dead_elim in Hd as [x [_ Hx]].
  destruct (finit_ph x) as [E|[_ [_ E]]]; congruence.
Qed.

Lemma fnofault_no_error tr fs :
  faccepts g c ext d0 tr = Some fs -> existsb is_fault tr = false ->
  tainted g fs = false /\ returned (fb fs) <> Some false.
Proof.
  intros Ha Hf. split; [exact (frun_untainted tr _ fs Ha Hf finit_untainted)|]. intro Hr.
  destruct (frun_returned tr _ fs false Ha finit_returned Hr) as [tr0 [fs0 [-> [H0 Hs]]]].
  (* the error return was made in a tainted state *)
  apply fstep_ret in Hs as [_ [Ht _]].
  rewrite existsb_app in Hf. apply orb_false_iff in Hf as [Hf _].
  rewrite (frun_untainted tr0 _ fs0 H0 Hf finit_untainted) in Ht. discriminate.
Qed.

Definition is_call_root (r : node) : Prop :=
  if ext then In r (succ' g (c_root c)) else (r = c_root c \/ In r (c_xroots c)).

Lemma guard_roots_done st r : ret_ok_guard g c ext st = true -> is_call_root r -> ph st r = Done.
Proof.
  unfold ret_ok_guard, is_call_root. destruct ext; intros H Hr.
  - apply andb_true_iff in H as [H _]. apply andb_true_iff in H as [_ H].
    eapply forallb_done; eauto.
  - apply andb_true_iff in H as [H Hxr]. apply andb_true_iff in H as [H _].
    destruct Hr as [->|Hr].
    + destruct (ph st (c_root c)); simpl in H; congruence.
    + eapply forallb_done; eauto.
Qed.

Lemma guard_complete st : Inv st -> closed_nodes g d0 -> mt_consistent g ->
  ret_ok_guard g c ext st = true ->
  forall r n, is_call_root r -> reach g r n -> has g (dst st) n = true.
Proof.
  intros I Hc Hmt Hg r n Hroot Hn.
  apply (reach_closed g _ r n (i_closed _ _ _ _ I Hc) Hmt Hn), (i_present _ _ _ _ I).
  now rewrite (guard_roots_done _ r Hg Hroot).
Qed.

Lemma fclosure tr fs :
  ext_ok -> closed_nodes g d0 -> mt_consistent g ->
  faccepts g c ext d0 tr = Some fs -> returned (fb fs) = Some true ->
  forall r n, is_call_root r -> reach g r n -> has g (dst (fb fs)) n = true.
Proof.
  intros Hx Hc Hmt Ha Hr. apply (guard_complete _ (faccepts_inv tr fs Hx Ha) Hc Hmt).
  destruct (frun_returned tr _ fs true Ha finit_returned Hr) as [tr0 [fs0 [_ [_ Hs]]]].
  apply fstep_ret in Hs as [-> [_ Hg]]. exact (Hg eq_refl).
Qed.

End F.

(* first call: any outcome; second call (possibly another API / root / concurrency)
   on the destination as the first one left it *)
Lemma fretry_completes (g : graph) (c1 c2 : cfg) (ext1 ext2 : bool) (d0 : list node)
      tr1 fs1 tr2 fs2 :
  ext_ok g c1 ext1 d0 -> closed_nodes g d0 -> mt_consistent g ->
  faccepts g c1 ext1 d0 tr1 = Some fs1 ->
  ext_ok g c2 ext2 (dst (fb fs1)) ->
  faccepts g c2 ext2 (dst (fb fs1)) tr2 = Some fs2 -> returned (fb fs2) = Some true ->
  forall r n, is_call_root g c2 ext2 r -> reach g r n -> has g (dst (fb fs2)) n = true.
Proof.
  intros Hx1 Hc Hmt Ha1 Hx2 Ha2 Hr r n Hroot Hn.
  eapply (fclosure g c2 ext2 (dst (fb fs1))); eauto.
  eapply (fclosed_always g c1 ext1 d0); eauto.
Qed.

(* the same with the rerun as a run of the fault-free system of C01 (Model/CopySpec.v):
   the hypothesis of C01_closure holds for the destination the first call left *)
Lemma fretry_completes_spec (g : graph) (c1 c2 : cfg) (ext1 : bool) (d0 : list node)
      tr1 fs1 tr2 st2 :
  ext_ok g c1 ext1 d0 -> closed_nodes g d0 -> mt_consistent g ->
  faccepts g c1 ext1 d0 tr1 = Some fs1 ->
  accepts g c2 (dst (fb fs1)) tr2 = Some st2 -> returned st2 = Some true ->
  forall n, reach g (c_root c2) n -> has g (dst st2) n = true.
Proof.
  intros Hx1 Hc Hmt Ha1 Ha2 Hr.
  apply (closure_lemma g c2 (dst (fb fs1)) tr2 st2); auto.
  exact (fclosed_always g c1 ext1 d0 tr1 fs1 Hx1 Hc Ha1).
Qed.

(* without fault events the extended system IS the system of C01/C04: on states without
   cancellation / prologue failure / dangling readers, [Ev e] is accepted exactly when
   CopySpec accepts e, with the same successor state *)
Definition plain (fs : fstate) : Prop :=
  f_cancelled fs = false /\ f_aborted fs = false /\ f_rd fs = [].

Lemma fstep_conservative (g : graph) (c : cfg) fs e : plain fs ->
  match step g c (fb fs) e with
  | Some st' => exists fs', fstep g c false fs (Ev e) = Some fs' /\ fb fs' = st' /\ plain fs'
  | None => fstep g c false fs (Ev e) = None
  end.
Proof.
  intros [Hc [Ha Hr]].
  assert (Hp : forall st', plain (with_base fs st')) by (repeat split; assumption).
  assert (He : (forall b, e <> Ret b) \/ exists b, e = Ret b)
    by (destruct e; try (left; discriminate); eauto).
  destruct He as [He|[b ->]].
  - destruct (step g c (fb fs) e) as [st'|] eqn:Hs.
    + exists (with_base fs st'). split; [now apply fstep_ev|]. split; [reflexivity | apply Hp].
    + destruct (fstep g c false fs (Ev e)) as [fs'|] eqn:E; [|reflexivity].
      apply (fstep_inv g c false) in E as [_ E].
      inversion E as [| | |n _ _ Hm|e' st' _ _ Hs' _|fe n p _ _ K| |]; subst.
      * now destruct (He true).
      * now destruct (He false).
      * rewrite Hr in Hm. discriminate.
      * congruence.
      * inversion K.
  - (* the return: no cancellation, no prologue failure, so the guards are those of CopySpec *)
    unfold fstep, step, tainted, ret_ok_guard, any_dead. rewrite Hc, Ha.
    destruct (returned (fb fs)); [reflexivity|]. cbn [orb].
    destruct b.
    + destruct (is_done _ && forallb _ _ && forallb _ _) eqn:Hg; [|now rewrite andb_false_r].
      apply andb_true_iff in Hg as [Hg _]. apply andb_true_iff in Hg as [_ Hf].
      (* nothing in flight: in particular nothing dead *)
      assert (Hd : existsb (fun n => is_dead (ph (fb fs) n)) (seq 0 (g_n g)) = false).
      { apply Bool.not_true_is_false. intro Hd. apply existsb_exists in Hd as [n [Hin Hn]].
        rewrite forallb_forall in Hf. specialize (Hf n Hin). destruct (ph (fb fs) n); discriminate. }
      rewrite Hd. eexists. split; [reflexivity|]. split; [reflexivity | repeat split; assumption].
    + destruct (existsb _ _); [|reflexivity].
      eexists. split; [reflexivity|]. split; [reflexivity | repeat split; assumption].
Qed.

Lemma frun_conservative (g : graph) (c : cfg) tr : forall fs, plain fs ->
  match run g c (fb fs) tr with
  | Some st' => exists fs', frun g c false fs (map Ev tr) = Some fs' /\ fb fs' = st' /\ plain fs'
  | None => frun g c false fs (map Ev tr) = None
  end.
Proof.
  induction tr as [|e tr IH]; intros fs Hp; simpl.
  - eauto.
  - pose proof (fstep_conservative g c fs e Hp) as H.
    destruct (step g c (fb fs) e) as [st1|] eqn:E.
    + destruct H as [fs1 [H1 [H2 H3]]]. rewrite H1. subst st1. now apply IH.
    + now rewrite H.
Qed.

Lemma faccepts_conservative (g : graph) (c : cfg) (d0 : list node) tr :
  match accepts g c d0 tr with
  | Some st => exists fs, faccepts g c false d0 (map Ev tr) = Some fs /\ fb fs = st
  | None => faccepts g c false d0 (map Ev tr) = None
  end.
Proof.
  unfold accepts, faccepts.
  pose proof (frun_conservative g c tr (finit c false d0)) as H.
  assert (Hp : plain (finit c false d0)) by (repeat split; reflexivity).
  specialize (H Hp). cbn [finit fb] in H.
  destruct (run g c (init c d0) tr) as [st|].
  - destruct H as [fs [H1 [H2 _]]]. eauto.
  - exact H.
Qed.

(* Witnesses for the examples of Properties/C02.v. *)

(* R = 4 -> A = 2, B = 3;  A -> C = 0, D = 1;  B -> C.  The push of C fails AFTER the content
   was stored while D is still in flight; B and A stay Waiting; the call returns an error;
   the destination {C, D} is closed.  Then the rerun completes. *)
Definition g_sh : graph :=
  mkGraph 5 (fun n => match n with 2 => [0; 1] | 3 => [0] | 4 => [2; 3] | _ => [] end)
          (fun _ => false) (fun n => Nat.leb 2 n) (fun n => n).
Definition c_sh : cfg := mkCfg 3 MGraph 4 false true [] [].
Definition tr_sh1 : list fevent :=
  [Ev (ExB 4); Ev (ExE 4 false); Ev (SFB 4); Ev (SFE 4); Ev (SFC 4);
   Ev (ExB 2); Ev (ExB 3); Ev (ExE 2 false); Ev (ExE 3 false);
   Ev (SFB 2); Ev (SFE 2); Ev (SFC 2); Ev (SFB 3); Ev (SFE 3); Ev (SFC 3);
   Ev (ExB 0); Ev (ExB 1); Ev (ExE 0 false); Ev (ExE 1 false);
   Ev (Cb CPre 0); Ev (SFB 0); Ev (SFE 0); Ev (PuB 0 false);
   Ev (Cb CPre 1); Ev (SFB 1);
   PuX 0 false true; Ev (SFC 0);
   Ev (SFE 1); Ev (PuB 1 false); Ev (PuE 1 false POk); Ev (SFC 1); Ev (Cb CPost 1);
   Ev (Ret false)].
Definition tr_sh2 : list fevent :=
  [Ev (ExB 4); Ev (ExE 4 false); Ev (SFB 4); Ev (SFE 4); Ev (SFC 4);
   Ev (ExB 2); Ev (ExB 3); Ev (ExE 2 false); Ev (ExE 3 false);
   Ev (SFB 2); Ev (SFE 2); Ev (SFC 2); Ev (SFB 3); Ev (SFE 3); Ev (SFC 3);
   Ev (ExB 0); Ev (ExB 1); Ev (ExE 0 true); Ev (ExE 1 true); Ev (Cb CSkip 0); Ev (Cb CSkip 1);
   Ev (Cb CPre 2); Ev (PuB 2 false); Ev (PuE 2 false POk); Ev (Cb CPost 2);
   Ev (Cb CPre 3); Ev (PuB 3 false); Ev (PuE 3 false POk); Ev (Cb CPost 3);
   Ev (Cb CPre 4); Ev (PuB 4 false); Ev (PuE 4 false POk); Ev (Cb CPost 4);
   Ev (Ret true)].

(* ExtendedCopyGraph: the virtual super-root 3 over the roots 1 (a referrer of 0) and 2
   (another referrer of 0); the context is cancelled while the first root is in flight *)
Definition g_x : graph :=
  mkGraph 4 (fun n => match n with 1 => [0] | 2 => [0] | 3 => [1; 2] | _ => [] end)
          (fun _ => false) (fun n => Nat.leb 1 n && Nat.leb n 2) (fun n => n).
Definition c_x : cfg := mkCfg 2 MGraph 3 false true [] [].
Definition tr_x1 : list fevent :=
  [ProOk; ProOk; ProOk; Ev (ExB 1); Ev (ExB 2); Ev (ExE 1 false); Cancel; Ev (ExE 2 false);
   Ev (SFB 1); Ev (SFE 1); Ev (SFC 1); Ev (Ret false)].
Definition tr_x2 : list fevent :=
  [ProOk; ProOk; ProOk; Ev (ExB 1); Ev (ExB 2); Ev (ExE 1 false); Ev (ExE 2 false);
   Ev (SFB 1); Ev (SFE 1); Ev (SFC 1); Ev (SFB 2); Ev (SFE 2); Ev (SFC 2);
   Ev (ExB 0); Ev (ExE 0 false); Ev (Cb CPre 0); Ev (SFB 0); Ev (SFE 0); Ev (PuB 0 false);
   Ev (PuE 0 false POk); Ev (SFC 0); Ev (Cb CPost 0);
   Ev (Cb CPre 2); Ev (PuB 2 false); Ev (Cb CPre 1); Ev (PuB 1 false);
   Ev (PuE 2 false POk); Ev (PuE 1 false POk); Ev (Cb CPost 1); Ev (Cb CPost 2); Ev (Ret true)].

(* on g_sh the push of C = 0 fails (nothing stored) while D = 1 is in flight; B = 3, whose only
   successor is C, is still Waiting: its PreCopy as the next event is rejected *)
Definition tr_sh_pre : list fevent :=
  [Ev (ExB 4); Ev (ExE 4 false); Ev (SFB 4); Ev (SFE 4); Ev (SFC 4);
   Ev (ExB 2); Ev (ExB 3); Ev (ExE 2 false); Ev (ExE 3 false);
   Ev (SFB 2); Ev (SFE 2); Ev (SFC 2); Ev (SFB 3); Ev (SFE 3); Ev (SFC 3);
   Ev (ExB 0); Ev (ExB 1); Ev (ExE 0 false); Ev (ExE 1 false);
   Ev (Cb CPre 0); Ev (SFB 0); Ev (SFE 0); Ev (PuB 0 false);
   Ev (Cb CPre 1); Ev (SFB 1);
   PuX 0 false false; Ev (SFC 0)].

