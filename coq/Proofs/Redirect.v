(* C16 -- witnesses of the two known findings in the redirect policy model. *)
From Oras Require Import Base.Prelude Model.Redirect.

(* redirect-other-port-keeps-authorization: two registries that the auth client
   keeps apart (different cache/credential keys: the host strings differ) are the
   same for the redirect policy *)
Lemma other_port_keeps_authorization :
  let a := b "reg0.test" in let c := b "reg0.test:443" in
  a <> c /\ keeps_authorization a c = true /\ keeps_authorization c a = true /\
  keeps_authorization a (b "reg1.test:5000") = false /\ keeps_authorization a (b "blobs.reg0.test") = true.
Proof. vm_compute. repeat split; auto; discriminate. Qed.

(* redirect-token-request-resent: 307/308 keep the POST body (the password grant) *)
Lemma token_post_resent : keeps_body 307 = true /\ keeps_body 308 = true /\ keeps_body 302 = false /\ keeps_body 303 = false.
Proof. vm_compute. auto. Qed.

Lemma same_host_keeps h : keeps_authorization h h = true.
Proof. unfold keeps_authorization, is_domain_or_subdomain. now rewrite str_eqb_refl. Qed.
