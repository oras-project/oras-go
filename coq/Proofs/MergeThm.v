(* C14 — the theorems about the Merge transition system, derived from the
   invariants of Proofs/Merge.v and Proofs/MergeLin.v; capability CAS; several
   tags as a product of independent copies. *)
From Oras Require Import Base.Prelude Generated.GC14 Model.Referrers Proofs.Referrers Model.Merge Proofs.Merge Proofs.MergeLin.

Lemma single_main sg r0 st0 tr s :
  run sg (init r0 st0) tr = Some s ->
  (forall t1 t2, is_main (pcs s t1) = true -> is_main (pcs s t2) = true -> t1 = t2) /\
  (forall t, is_main (pcs s t) = true -> token s = false) /\
  (exists hs, NoDup hs /\ (forall t, In t hs <-> holding (pcs s t) = true) /\
     match pool s with None => hs = [] | Some rc => rc = length hs /\ hs <> [] end) /\
  (pool s = None -> (forall t, holding (pcs s t) = false) /\ items s = [] /\ pending s = []).
Proof.
  intro H. destruct (reachable_inv _ _ _ _ _ H) as [I _].
  split; [apply (i_main_unique s I)|]. split.
  - intros t Hm. now destruct (i_main_in s I t Hm).
  - split; [apply (i_pool s I)|]. intro Hp. now apply pool_none.
Qed.

Lemma no_lost_update sg r0 st0 tr s :
  run sg (init r0 st0) tr = Some s -> quiescent s ->
  NoDup (lin s) /\
  (forall t, In t (lin s) <-> exists r, pcs s t = Done r /\ r <> RErr) /\
  (forall k, memb (reg s) k = member_after k (memb r0 k) (map (arg s) (lin s))).
Proof.
  intros H Q. destruct (reachable_inv _ _ _ _ _ H) as [I V].
  split; [apply (v_nd _ _ V)|]. split; [|apply (v_set _ _ V)].
  intro t. split.
  - intro Hin. destruct (Q t) as [E|(r & E)].
    + destruct (v_idle _ _ V t Hin). congruence.
    + exists r. split; auto. apply (v_ret _ _ V t r); auto.
  - intros (r & E & Hr). apply (v_ret _ _ V t r); auto.
Qed.

(* at every instant: a call that has returned took effect iff it did not return a
   plain error; an index-delete error is reported only after the update took effect *)
Lemma returned_effect sg r0 st0 tr s t r :
  run sg (init r0 st0) tr = Some s -> (pcs s t = Ret r \/ pcs s t = Done r) ->
  (In t (lin s) <-> r <> RErr) /\
  (forall k, memb (reg s) k = member_after k (memb r0 k) (map (arg s) (lin s))).
Proof.
  intros H E. destruct (reachable_inv _ _ _ _ _ H) as [I V].
  split; [apply (v_ret _ _ V t r E)|apply (v_set _ _ V)].
Qed.

Lemma arg_set sg s t c s' : step sg s (EGet t c) = Some s' -> arg s' t = c /\ pcs s' t = Got c.
Proof.
  simpl. destruct (pcs s t); try discriminate. destruct (is_empty (cdesc c)); try discriminate.
  destruct (pool s); intro H; injection H as <-; simpl; now rewrite !upd_eq.
Qed.

Ltac step_inv H :=
  repeat match type of H with
         | match ?x with _ => _ end = Some _ => destruct x eqn:?; try discriminate
         | (if ?x then _ else _) = Some _ => destruct x eqn:?; try discriminate
         end;
  try (injection H as <-);
  unfold set_pc, add_lin, set_reg, set_committed; simpl;
  repeat match goal with |- context [if ?b then _ else _] => destruct b; simpl end.

Lemma arg_stable sg s e s' t : step sg s e = Some s' -> pcs s t <> Idle -> arg s' t = arg s t.
Proof.
  intros H Hn. destruct e; simpl in H; step_inv H; auto.
  all: try (destruct (Nat.eq_dec t t0) as [->|Hne]; [congruence|now rewrite upd_neq]).
Qed.

Lemma gc_store sg r0 st0 tr s :
  run sg (init r0 st0) tr = Some s -> (forall t, is_main (pcs s t) = false) ->
  forall x, In x (store s) -> reg s = Some x \/ In x (junk s).
Proof.
  intros H Hn x Hx. destruct (reachable_inv _ _ _ _ _ H) as [I V].
  destruct (g_store _ _ V x Hx) as [E|[E|(t & a & E)]]; auto.
  specialize (Hn t). rewrite E in Hn. discriminate.
Qed.

Definition del_failed (e : event) : bool := match e with EDel _ true => true | _ => false end.

(* a PUT that took effect although the client saw an error leaves the old index behind *)
Definition put_lost (e : event) : bool := match e with EPutLost _ => true | _ => false end.
Definition gc_ok (e : event) : bool := negb (del_failed e) && negb (put_lost e).

Lemma junk_step s e s' : step false s e = Some s' -> gc_ok e = true -> junk s' = junk s.
Proof.
  unfold gc_ok. intros H Hd. destruct e; simpl in H; step_inv H; auto; try discriminate.
Qed.

Lemma junk_run tr : forall s s',
  run false s tr = Some s' -> forallb gc_ok tr = true -> junk s' = junk s.
Proof.
  induction tr as [|e tr IH]; intros s s' H F; simpl in *.
  - now injection H as <-.
  - destruct (step false s e) as [s1|] eqn:E; [|discriminate].
    apply andb_true_iff in F as [F1 F2].
    rewrite (IH s1 s' H F2). eapply junk_step; eauto.
Qed.

(* without SkipReferrersGC and without a failed deletion: when nobody is updating, every
   index manifest of the tag in the registry is the current one, or was ALREADY dangling
   at the start (it is not the initial index: that one has been deleted) *)
Lemma gc_clean r0 st0 tr s :
  run false (init r0 st0) tr = Some s ->
  forallb gc_ok tr = true ->
  (forall t, is_main (pcs s t) = false) ->
  forall x, In x (store s) -> reg s = Some x \/ (In x st0 /\ r0 <> Some x).
Proof.
  intros H F Hn x Hx. destruct (gc_store _ _ _ _ _ H Hn x Hx) as [E|E]; auto.
  right. rewrite (junk_run _ _ _ H F) in E. simpl in E. apply filter_In in E as [E1 E2].
  split; auto. intro Er. subst r0. simpl in E2. rewrite index_eqb_refl in E2. discriminate.
Qed.

(* junk grows by exactly one entry per failed index deletion *)
Lemma junk_count_step s e s' :
  step false s e = Some s' -> put_lost e = false ->
  length (junk s') = (length (junk s) + (if del_failed e then 1 else 0))%nat.
Proof.
  intros H L. destruct e; simpl in H; step_inv H; simpl; auto; try lia; try discriminate.
Qed.

Lemma junk_count tr : forall s s',
  run false s tr = Some s' -> forallb (fun e => negb (put_lost e)) tr = true ->
  length (junk s') = (length (junk s) + length (filter del_failed tr))%nat.
Proof.
  induction tr as [|e tr IH]; intros s s' H L; simpl in *.
  - injection H as <-. lia.
  - destruct (step false s e) as [s1|] eqn:E; [|discriminate].
    apply andb_true_iff in L as [L1 L2]. apply negb_true_iff in L1.
    rewrite (IH s1 s' H L2), (junk_count_step _ _ _ E L1). destruct (del_failed e); simpl; lia.
Qed.

Lemma set_cap_known s b : s <> CapUnknown -> fst (set_cap s b) = s.
Proof. destruct s; simpl; congruence. Qed.

Lemma set_cap_leaves s b : fst (set_cap s b) <> CapUnknown.
Proof. destruct s, b; simpl; discriminate. Qed.

Lemma set_cap_error s b : snd (set_cap s b) = true <-> s <> CapUnknown /\ s <> cap_of b.
Proof. destruct s, b; simpl; split; intro H; try discriminate; try (split; discriminate); destruct H; congruence. Qed.

Lemma set_caps_monotone l : forall s, s <> CapUnknown ->
  Forall (fun r => fst r = s) (set_caps s l).
Proof.
  induction l as [|b l IH]; intros s H; simpl; constructor.
  - now apply set_cap_known.
  - rewrite set_cap_known by auto. now apply IH.
Qed.

Lemma capability_monotone b l :
  let r := set_cap CapUnknown b in
  fst r = cap_of b /\ snd r = false /\ Forall (fun x => fst x = cap_of b) (set_caps (fst r) l).
Proof.
  simpl. repeat split. apply set_caps_monotone. destruct b; discriminate.
Qed.

(* several tags: independent copies of the one-tag system *)
Definition gstate := nat -> state.
Definition gstep (sg : bool) (S : gstate) (ge : nat * event) : option gstate :=
  match step sg (S (fst ge)) (snd ge) with
  | Some s' => Some (upd S (fst ge) s')
  | None => None
  end.
Fixpoint grun (sg : bool) (S : gstate) (tr : list (nat * event)) : option gstate :=
  match tr with
  | [] => Some S
  | ge :: tr' => match gstep sg S ge with Some S' => grun sg S' tr' | None => None end
  end.

Lemma grun_project sg tr : forall S S',
  grun sg S tr = Some S' -> forall g, exists trg, run sg (S g) trg = Some (S' g).
Proof.
  induction tr as [|[g0 e] tr IH]; intros S S' H g; simpl in H.
  - injection H as <-. exists []. reflexivity.
  - unfold gstep in H. simpl in H. destruct (step sg (S g0) e) as [s1|] eqn:E; [|discriminate].
    destruct (IH _ _ H g) as [trg Hr].
    destruct (Nat.eq_dec g g0) as [->|Hne].
    + rewrite upd_eq in Hr. exists (e :: trg). simpl. now rewrite E.
    + rewrite upd_neq in Hr by auto. exists trg. exact Hr.
Qed.

(* events of the environment: a new call, another tag's update dropping a shared index *)
Definition is_env (e : event) : bool := match e with EGet _ _ | EExtDrop => true | _ => false end.

Definition can_move (sg : bool) (s : state) : Prop :=
  exists e s', is_env e = false /\ step sg s e = Some s'.

Lemma main_enabled sg s t : is_main (pcs s t) = true -> can_move sg s.
Proof.
  intro H. unfold can_move. destruct (pcs s t) as [|c0| | |old|nw o|oi ap|r|r|r] eqn:Hpc; try discriminate.
  - exists (EPrepare t false). simpl. rewrite Hpc. eauto.
  - exists (ECommit t). simpl. rewrite Hpc. destruct old as [o|]; [|eauto].
    destruct (apply_changes (idx o) (map snd (items s))) as [|new]; [eauto|].
    destruct (negb (is_nil new) || sg); [eauto|]. destruct o; eauto.
  - exists (EPut t true). simpl. rewrite Hpc. eauto.
  - exists (EDel t true). simpl. rewrite Hpc. eauto.
  - exists (EComplete t). simpl. rewrite Hpc. eauto.
Qed.

Lemma progress sg s :
  InvS s -> (exists t, holding (pcs s t) = true) -> can_move sg s.
Proof.
  intros I (t & Ht).
  destruct (pcs s t) as [|c0| | |old|nw o|oi ap|r|r|r] eqn:Hpc; try discriminate;
    try (apply (main_enabled sg s t); rewrite Hpc; reflexivity).
  - exists (EAssign t). simpl. rewrite Hpc. destruct (committed s); eauto.
  - assert (Hni : items s <> []).
    { destruct (i_wait s I t Hpc) as [Hb|Hp].
      - unfold batch in Hb. destruct (items s); [destruct Hb|discriminate].
      - intro E. destruct (i_nomain s I E) as (_ & _ & Ep & _). rewrite Ep in Hp. destruct Hp. }
    destruct (i_token_or_main s I Hni) as [Htok|(t' & Hm)]; [|eapply main_enabled; eauto].
    destruct (items s) as [|[t1 c1] rest] eqn:Ei; [congruence|].
    assert (Hin : In (t1, c1) (items s)) by (rewrite Ei; now left).
    destruct (i_items s I t1 c1 Hin) as [[Hw|Hm] _].
    + exists (ERecvMain t1). simpl. rewrite Hw, Htok. simpl.
      assert (Hmem : mem t1 (batch s) = true) by (apply mem_In; unfold batch; rewrite Ei; now left).
      rewrite Hmem. eauto.
    + destruct (i_main_in s I t1 Hm). congruence.
  - exists (EDone t). simpl. rewrite Hpc.
    destruct (i_pool s I) as (hs & _ & Hin & Hp).
    destruct (pool s) as [rc|]; [eauto|]. subst hs.
    assert (Hx : In t []) by (apply Hin; rewrite Hpc; reflexivity). destruct Hx.
Qed.

(* in every reachable state in which a caller is inside, an event OTHER than a new call
   (EGet) is enabled *)
Lemma no_deadlock sg r0 st0 tr s :
  run sg (init r0 st0) tr = Some s -> (exists t, holding (pcs s t) = true) ->
  exists e s', is_env e = false /\ step sg s e = Some s'.
Proof. intros H Hh. destruct (reachable_inv _ _ _ _ _ H) as [I _]. now apply progress. Qed.

Lemma step_decreases sg s e s' L :
  InvS s -> step sg s e = Some s' -> is_env e = false ->
  (forall t, holding (pcs s t) = true -> In t L) ->
  (wsum weight L (pcs s') < wsum weight L (pcs s))%nat /\ (forall t, holding (pcs s' t) = true -> In t L).
Proof.
  intros I H Hg HL. destruct (step_pcs sg s e s' H) as [(t & p' & Hs & ->)|[(t & r & -> & Hpc & ->)|[-> _]]]; [| |discriminate].
  - (* a caller inside moves down *)
    destruct (pc_step_inside e t _ p' Hs) as (Hh & _ & Hw); [intros c ->; discriminate|].
    split; [apply wsum_upd; auto|apply (upd_keep holding); auto].
  - (* the members of the batch return *)
    assert (Hin : In t L) by (apply HL; rewrite Hpc; reflexivity).
    assert (Hw : forall x, (weight (complete_pcs s t r x) <= weight (pcs s x))%nat /\
                           (holding (complete_pcs s t r x) = true -> holding (pcs s x) = true)).
    { intro x. destruct (complete_pcs_cases s t r x) as [[[E0|E0] E]|(_ & _ & E)]; rewrite E; [| |auto].
      - subst x. rewrite Hpc. simpl. split; [lia|auto].
      - destruct (batch_member s x I E0) as [Ew|Em]; [rewrite Ew; simpl; split; [lia|auto]|].
        split; [|intros _; now apply main_holding]. destruct (pcs s x); try discriminate; simpl; lia. }
    split.
    + apply (wsum_lt weight L (pcs s) (complete_pcs s t r) t); auto; [apply Hw|].
      destruct (complete_pcs_cases s t r t) as [[_ E]|(A & _)]; [|congruence].
      rewrite E, Hpc. simpl. lia.
    + intros x Hx. apply HL. now apply Hw.
Qed.

Lemma bounded_run sg L tr : forall s s',
  InvS s -> (forall t, holding (pcs s t) = true -> In t L) ->
  forallb (fun e => negb (is_env e)) tr = true -> run sg s tr = Some s' ->
  (length tr + wsum weight L (pcs s') <= wsum weight L (pcs s))%nat.
Proof.
  induction tr as [|e tr IH]; intros s s' I HL F H; simpl in *.
  - injection H as <-. lia.
  - destruct (step sg s e) as [s1|] eqn:E; [|discriminate].
    apply andb_true_iff in F as [F1 F2]. apply negb_true_iff in F1.
    destruct (step_decreases sg s e s1 L I E F1 HL) as [Hlt HL1].
    assert (I1 : InvS s1) by (eapply stepS; eauto).
    specialize (IH s1 s' I1 HL1 F2 H). lia.
Qed.

(* from every reachable state: there is a bound such that every continuation
   without new calls is at most that long *)
Lemma bounded_completion sg r0 st0 tr s :
  run sg (init r0 st0) tr = Some s ->
  exists bound, forall tr' s',
    forallb (fun e => negb (is_env e)) tr' = true -> run sg s tr' = Some s' ->
    (length tr' <= bound)%nat.
Proof.
  intro H. destruct (reachable_inv _ _ _ _ _ H) as [I _].
  destruct (i_pool s I) as (hs & _ & Hin & _).
  exists (wsum weight hs (pcs s)). intros tr' s' F R.
  assert (HL : forall t, holding (pcs s t) = true -> In t hs) by (intros t Ht; now apply Hin).
  pose proof (bounded_run sg hs tr' s s' I HL F R). lia.
Qed.

(* an event of a caller whose manifest names the subject [fst se] acts on the
   component selected by buildReferrersTag *)
Definition sstep (sg : bool) (S : gstate) (se : subject * event) : option gstate :=
  gstep sg S (N.to_nat (tag_of (fst se)), snd se).

Lemma tag_by_digest a b :
  s_digest a = s_digest b ->
  tag_of a = tag_of b /\ forall sg S e, sstep sg S (a, e) = sstep sg S (b, e).
Proof. unfold sstep, tag_of. simpl. intros ->. auto. Qed.

Lemma tag_distinct a b : s_digest a <> s_digest b -> tag_of a <> tag_of b.
Proof. unfold tag_of. auto. Qed.

(* "exactly the live manifests" fails for Push(A) || Delete(A) *)
Definition race_A := mkDesc 1 0 0.
Definition race_trace : list mevent :=
  [MPut 1;                                   (* Push(A): manifest PUT (A was live already) *)
   MIdx (EGet 0 (Remove race_A)); MIdx (EAssign 0);   (* Delete(A) fetched A and enters the index update *)
   MIdx (EGet 1 (Add race_A)); MIdx (EAssign 1);      (* Push(A) joins the same batch *)
   MIdx (ERecvMain 0); MIdx (EPrepare 0 false); MIdx (ECommit 0);   (* [Remove A; Add A] on [A]: no update *)
   MIdx (EComplete 0); MIdx (EDone 0); MIdx (EDone 1);
   MDel 1]%nat.                              (* Delete(A): manifest DELETE *)

Lemma listing_is_live_refuted :
  exists m, mrun false (init (Some [race_A]) [], [1]) race_trace = Some m /\
    quiescent (fst m) /\
    pcs (fst m) 0%nat = Done ROk /\ pcs (fst m) 1%nat = Done ROk /\
    memb (reg (fst m)) 1 = true /\ is_live 1 m = false.
Proof.
  eexists. split; [vm_compute; reflexivity|]. split.
  - intro t. do 2 (destruct t as [|t]; [right; eexists; reflexivity|]). left. reflexivity.
  - repeat split.
Qed.

(* what Referrers() returns through the tag schema *)
Lemma listing_is_fold sg r0 st0 tr s :
  run sg (init r0 st0) tr = Some s ->
  NoDup (keys (list_referrers (reg s) 0)) /\
  Forall (fun d => nonempty d = true) (list_referrers (reg s) 0) /\
  (forall k, In k (keys (list_referrers (reg s) 0)) <->
             member_after k (memb r0 k) (map (arg s) (lin s)) = true) /\
  (forall art d, In d (list_referrers (reg s) art) -> art = 0 \/ dart d = art).
Proof.
  intro H. destruct (reachable_inv _ _ _ _ _ H) as [I V].
  destruct (list_referrers_spec (reg s) 0) as (A & B & _ & D).
  split; auto. split; auto. split.
  - intro k. rewrite D. rewrite <- (v_set _ _ V k). unfold memb, idx. reflexivity.
  - intros art d Hd. destruct (list_referrers_spec (reg s) art) as (_ & _ & C & _). auto.
Qed.

(* sequential histories: the index lists exactly the live referrers *)
Definition tracks (st : option index * list N) : Prop :=
  forall k, memb (fst st) k = negb (k =? 0) && existsb (N.eqb k) (snd st).

Lemma existsb_filter_neq k x l :
  existsb (N.eqb k) (filter (fun y => negb (y =? x)) l) = negb (k =? x) && existsb (N.eqb k) l.
Proof.
  induction l as [|h t IH]; simpl; [now rewrite andb_false_r|].
  destruct (h =? x) eqn:E; simpl.
  - apply N.eqb_eq in E. subst h. rewrite IH. destruct (k =? x); reflexivity.
  - rewrite IH. destruct (k =? h) eqn:E2; simpl; [|reflexivity].
    apply N.eqb_eq in E2. subst h. now rewrite E.
Qed.

Lemma seq_op_tracks st c : dkey (cdesc c) <> 0 -> tracks st -> tracks (seq_op st c).
Proof.
  intros Hz T k. destruct st as [r live]. unfold tracks in T. simpl in T.
  assert (F : changes_nonempty [c]) by (constructor; [exact Hz|constructor]).
  assert (Hm : memb (match apply_changes (idx r) [c] with Updated l => Some l | NoUpdate => r end) k
               = member_step k (memb r k) c).
  { pose proof (apply_effect (idx r) [c] F k) as H. destruct (apply_changes (idx r) [c]); exact H. }
  unfold seq_op. destruct c as [d|d]; simpl in *; rewrite Hm, (T k); simpl.
  - destruct (dkey d =? k) eqn:E.
    + apply N.eqb_eq in E. subst k. rewrite N.eqb_refl. simpl. apply N.eqb_neq in Hz. now rewrite Hz.
    + rewrite (N.eqb_sym k (dkey d)), E. reflexivity.
  - rewrite existsb_filter_neq. rewrite (N.eqb_sym k (dkey d)).
    destruct (dkey d =? k); simpl; [now rewrite andb_false_r|reflexivity].
Qed.

Lemma sequential_listing_is_live cs : forall st,
  changes_nonempty cs -> tracks st -> tracks (fold_left seq_op cs st).
Proof.
  induction cs as [|c t IH]; intros st F T; simpl; auto.
  inversion F; subst. apply IH; auto. now apply seq_op_tracks.
Qed.

(* regenerated from the Go sources (tools/gosrc2v kind c14_field_uses): Repository.referrersState
   is only ever read with atomic.LoadInt32 and written by
   atomic.CompareAndSwapInt32(&r.referrersState, referrersStateUnknown, _) *)
Lemma capability_single_writer :
  GC14.referrersState_other = 0%Z /\ (0 < GC14.referrersState_cas_from_unknown)%Z.
Proof. split; [reflexivity|reflexivity]. Qed.

(* hence, whatever pingReferrers / Referrers() / checkOCISubjectHeader / indexReferrersForPush
   request and in whatever order their compare-and-swaps are linearised, the state follows
   set_caps: it takes the first requested value and keeps it *)
Lemma capability_all_paths :
  GC14.referrersState_other = 0%Z /\
  forall (requests : list bool),
    match set_caps CapUnknown requests with
    | [] => requests = []
    | (s0, e0) :: rest => e0 = false /\ s0 <> CapUnknown /\ Forall (fun x => fst x = s0) rest
    end.
Proof.
  split; [reflexivity|]. intros [|b l]; simpl; auto.
  repeat split; [destruct b; discriminate|]. apply set_caps_monotone. destruct b; discriminate.
Qed.

(* a caller that got a plain error after a lost response: the ghost result RLost *)
Definition has_lost (p : pc) : bool :=
  match p with Completing RLost | Ret RLost | Done RLost => true | _ => false end.

(* an index exchange that took effect although the client saw an error *)
Definition resp_lost (e : event) : bool := match e with EPutLost _ | EDelLost _ => true | _ => false end.

Lemma lost_step sg s e s' :
  step sg s e = Some s' -> resp_lost e = false ->
  (forall t, has_lost (pcs s t) = false) -> forall t, has_lost (pcs s' t) = false.
Proof.
  intros H L A x. destruct e; try discriminate; simpl in H.
  all: try (destruct (pcs s t) as [|c0| | |old|nw o|oi ap|r|r|r] eqn:Hpc; try discriminate).
  all: try (assert (Hr : has_lost (pcs s t) = false) by apply A; rewrite Hpc in Hr).
  all: step_inv H; auto.
  all: try solve [unfold upd; destruct (Nat.eqb x t); auto; try apply A].
  all: try solve [unfold upd; destruct (Nat.eqb x t); [|apply A]; destruct r; auto; discriminate].
  all: try solve [destruct (Nat.eqb x t); [destruct r; auto; discriminate|];
                  destruct (mem x (batch s)); [destruct r; auto; discriminate|apply A]].
  unfold upd, after_put. destruct (Nat.eqb x t); [|apply A]. destruct sg; auto. destruct o; auto.
Qed.

Lemma lost_run sg tr : forall s s',
  run sg s tr = Some s' -> forallb (fun e => negb (resp_lost e)) tr = true ->
  (forall t, has_lost (pcs s t) = false) -> forall t, has_lost (pcs s' t) = false.
Proof.
  induction tr as [|e tr IH]; intros s s' H L A; simpl in *.
  - now injection H as <-.
  - destruct (step sg s e) as [s1|] eqn:E; [|discriminate].
    apply andb_true_iff in L as [L1 L2]. apply negb_true_iff in L1.
    apply (IH s1 s' H L2). eapply lost_step; eauto.
Qed.

(* 1. a registry that answers truthfully (no lost response): a call that returned a plain
      error had NO effect - the index is the fold of exactly the calls that did not *)
Lemma plain_error_no_effect sg r0 st0 tr s t r :
  run sg (init r0 st0) tr = Some s -> forallb (fun e => negb (resp_lost e)) tr = true ->
  (pcs s t = Ret r \/ pcs s t = Done r) ->
  (In t (lin s) <-> seen r <> RErr).
Proof.
  intros H L E. destruct (returned_effect sg r0 st0 tr s t r H E) as [A _].
  assert (Hl : has_lost (pcs s t) = false) by (eapply lost_run; eauto).
  destruct E as [E|E]; rewrite E in Hl; destruct r; simpl in *; try discriminate; exact A.
Qed.

(* 2. with lost responses: a call that returned nil or the index-delete error took effect
      (never lost); a call that returned a plain error may or may not have taken effect, and
      it did iff the response of its batch's PUT was lost *)
Lemma seen_effect sg r0 st0 tr s t r :
  run sg (init r0 st0) tr = Some s -> (pcs s t = Ret r \/ pcs s t = Done r) ->
  (seen r <> RErr -> In t (lin s)) /\ (seen r = RErr -> (In t (lin s) <-> r = RLost)).
Proof.
  intros H E. destruct (returned_effect sg r0 st0 tr s t r H E) as [A _].
  split.
  - intro Hs. apply A. destruct r; simpl in *; congruence.
  - intros Hs. rewrite A. destruct r; simpl in *; split; congruence.
Qed.

(* every step moves the [pool] field as pool_get / pool_put say; a fresh entry is a zero Merge *)
Lemma pool_is_refcount sg s e s' :
  step sg s e = Some s' ->
  match e with
  | EGet _ _ => pool s' = fst (pool_get (pool s)) /\
                (snd (pool_get (pool s)) = true ->
                 items s' = [] /\ pending s' = [] /\ committed s' = false /\ token s' = false)
  | EDone _ => pool s' = pool_put (pool s)
  | _ => pool s' = pool s
  end.
Proof.
  intro H. destruct e; simpl in H; step_inv H; simpl; auto; try discriminate.
  split; auto. discriminate.
Qed.

(* two holders never see two entries: while somebody holds the entry, Get does not create one *)
Lemma pool_shared sg r0 st0 tr s t c s' :
  run sg (init r0 st0) tr = Some s -> (exists x, holding (pcs s x) = true) ->
  step sg s (EGet t c) = Some s' -> snd (pool_get (pool s)) = false.
Proof.
  intros H (x & Hx) Hs. destruct (reachable_inv _ _ _ _ _ H) as [I _].
  destruct (pool s) eqn:Ep; [reflexivity|]. exfalso.
  destruct (pool_none s I Ep) as (Hn & _). rewrite Hn in Hx. discriminate.
Qed.

(* with lost PUT responses too: at most one more dangling index per failed deletion or lost PUT *)
Lemma junk_bound_step s e s' :
  step false s e = Some s' ->
  (length (junk s') <= length (junk s) + (if del_failed e || put_lost e then 1 else 0))%nat.
Proof.
  intros H. destruct e; simpl in H; step_inv H; simpl; auto; try lia; try discriminate.
  all: repeat match goal with |- context [match ?o with Some _ => _ | None => _ end] => destruct o; simpl end; lia.
Qed.

Lemma junk_bound tr : forall s s',
  run false s tr = Some s' ->
  (length (junk s') <= length (junk s) + length (filter (fun e => del_failed e || put_lost e) tr))%nat.
Proof.
  induction tr as [|e tr IH]; intros s s' H; simpl in *.
  - injection H as <-. lia.
  - destruct (step false s e) as [s1|] eqn:E; [|discriminate].
    pose proof (IH s1 s' H). pose proof (junk_bound_step _ _ _ E).
    destruct (del_failed e || put_lost e); simpl; lia.
Qed.
