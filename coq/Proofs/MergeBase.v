(* C14 — the structural invariant InvS of the Merge / Pool / updateReferrersIndex transition
   system of Model/Merge.v, and what is shared by its preservation proofs: the Pool entry as a
   count of the callers inside (also used at channel level, Proofs/MergeFine.v), and the
   lemma for a step in which one caller changes its own state. *)
From Oras Require Import Base.Prelude Model.Referrers Proofs.Referrers Model.Merge.

Lemma upd_eq {A} (f : nat -> A) k v : upd f k v k = v.
Proof. unfold upd. now rewrite Nat.eqb_refl. Qed.

Lemma upd_neq {A} (f : nat -> A) k v x : x <> k -> upd f k v x = f x.
Proof. unfold upd. intro H. apply Nat.eqb_neq in H. now rewrite H. Qed.

Lemma mem_In t l : mem t l = true <-> In t l.
Proof.
  unfold mem. rewrite existsb_exists. split.
  - intros (x & Hx & E). apply Nat.eqb_eq in E. now subst.
  - intro H. exists t. split; auto. apply Nat.eqb_refl.
Qed.

Lemma mem_false t l : mem t l = false <-> ~ In t l.
Proof. rewrite <- mem_In. destruct (mem t l); split; congruence. Qed.

(* is t' the caller t that moves? *)
Ltac tcase t' t :=
  let Hne := fresh "Hne" in
  destruct (Nat.eq_dec t' t) as [->|Hne];
  [rewrite ?upd_eq in * | rewrite ?upd_neq in * by exact Hne].

Lemma in_map_fst_snoc {A B} (l : list (A * B)) x y z :
  In z (map fst (l ++ [(x, y)])) <-> In z (map fst l) \/ z = x.
Proof. rewrite map_app, in_app_iff. simpl. intuition. Qed.

Lemma in_snoc {A} (l : list A) x z : In z (l ++ [x]) <-> In z l \/ z = x.
Proof. rewrite in_app_iff. simpl. intuition. Qed.

Lemma NoDup_map_fst_snoc {A B} (l : list (A * B)) x y :
  NoDup (map fst l) -> ~ In x (map fst l) -> NoDup (map fst (l ++ [(x, y)])).
Proof. intros. rewrite map_app. simpl. now apply NoDup_app_one. Qed.

Lemma snoc_not_nil {A} (l : list A) x : l ++ [x] <> [].
Proof. destruct l; discriminate. Qed.

Lemma in_fst {A B} (l : list (A * B)) x y : In (x, y) l -> In x (map fst l).
Proof. intro H. apply in_map_iff. exists (x, y). auto. Qed.

Definition post_commit (p : pc) : bool :=
  match p with NeedPut _ _ | NeedDel _ _ | Completing _ => true | _ => false end.

Lemma main_holding p : is_main p = true -> holding p = true.
Proof. destruct p; simpl; congruence. Qed.
Lemma post_commit_main p : post_commit p = true -> is_main p = true.
Proof. destruct p; simpl; congruence. Qed.

(* the Pool entry counts the callers inside (h: who is inside) *)
Definition pool_ok {PC} (h : PC -> bool) (pl : option nat) (pcs : tid -> PC) : Prop :=
  exists hs, NoDup hs /\ (forall t, In t hs <-> h (pcs t) = true) /\
    match pl with None => hs = [] | Some rc => rc = length hs /\ hs <> [] end.

Section PoolOk.
  Context {PC : Type} (h : PC -> bool).

  Lemma pool_ok_ext pl (pcs pcs' : tid -> PC) :
    (forall x, h (pcs' x) = h (pcs x)) -> pool_ok h pl pcs -> pool_ok h pl pcs'.
  Proof.
    intros E (hs & N & Hin & Hp). exists hs. repeat split; auto; intro Hx.
    - rewrite E. now apply Hin.
    - apply Hin. now rewrite <- E.
  Qed.

  Lemma pool_ok_same pl pcs t p : h p = h (pcs t) -> pool_ok h pl pcs -> pool_ok h pl (upd pcs t p).
  Proof.
    intro E. apply pool_ok_ext. intro x. destruct (Nat.eq_dec x t) as [->|Hne]; [now rewrite upd_eq|now rewrite upd_neq].
  Qed.

  Lemma pool_ok_none pcs : pool_ok h None pcs -> forall t, h (pcs t) = false.
  Proof.
    intros (hs & _ & Hin & ->) t. destruct (h (pcs t)) eqn:E; auto. now apply Hin in E.
  Qed.

  Lemma pool_ok_get pl pcs t p :
    h (pcs t) = false -> h p = true -> pool_ok h pl pcs -> pool_ok h (fst (pool_get pl)) (upd pcs t p).
  Proof.
    intros Ht Hp (hs & N & Hin & Hpl). exists (t :: hs).
    assert (Hn : ~ In t hs) by (intro Hx; apply Hin in Hx; congruence).
    split; [now constructor|]. split.
    - intro x. destruct (Nat.eq_dec x t) as [->|Hne].
      + rewrite upd_eq. simpl. tauto.
      + rewrite upd_neq by auto. specialize (Hin x). simpl. intuition congruence.
    - destruct pl as [rc|]; simpl; [destruct Hpl as [-> _]|subst hs]; split; auto; discriminate.
  Qed.

  Lemma pool_ok_put pl pcs t p :
    h (pcs t) = true -> h p = false -> pool_ok h pl pcs -> pool_ok h (pool_put pl) (upd pcs t p).
  Proof.
    intros Ht Hp (hs & N & Hin & Hpl). apply Hin in Ht.
    destruct (in_split _ _ Ht) as (l1 & l2 & ->). apply NoDup_remove in N as [N Hn].
    exists (l1 ++ l2). split; [exact N|]. split.
    - intro x. destruct (Nat.eq_dec x t) as [->|Hne].
      + rewrite upd_eq, Hp. split; [tauto|discriminate].
      + rewrite upd_neq by auto. specialize (Hin x). rewrite in_app_iff in *. simpl in Hin. intuition congruence.
    - destruct pl as [rc|]; [|now destruct l1]. destruct Hpl as [-> _]. simpl.
      rewrite app_length in *. simpl.
      replace (length l1 + S (length l2) - 1)%nat with (length (l1 ++ l2)) by (rewrite app_length; lia).
      destruct (l1 ++ l2); simpl; [reflexivity|]. split; [lia|discriminate].
  Qed.
End PoolOk.

Section Measure.
  Context {PC : Type} (w : PC -> nat).

  Definition wsum (L : list tid) (f : tid -> PC) : nat := list_sum (map (fun t => w (f t)) L).

  Lemma wsum_le L f g : (forall x, w (g x) <= w (f x))%nat -> (wsum L g <= wsum L f)%nat.
  Proof. intro H. unfold wsum. induction L as [|h l IH]; simpl; [lia|]. specialize (H h). lia. Qed.

  Lemma wsum_lt L f g t :
    (forall x, w (g x) <= w (f x))%nat -> In t L -> (w (g t) < w (f t))%nat -> (wsum L g < wsum L f)%nat.
  Proof.
    intros H Hin Hlt. unfold wsum. induction L as [|h l IH]; simpl; [destruct Hin|].
    destruct Hin as [->|Hin].
    - pose proof (wsum_le l f g H) as Hle. unfold wsum in Hle. lia.
    - specialize (IH Hin). specialize (H h). lia.
  Qed.

  Lemma wsum_upd L f t p : In t L -> (w p < w (f t))%nat -> (wsum L (upd f t p) < wsum L f)%nat.
  Proof.
    intros Hin Hlt. apply (wsum_lt L f (upd f t p) t); auto.
    - intro x. destruct (Nat.eq_dec x t) as [->|Hne]; [rewrite upd_eq; lia|rewrite upd_neq; auto].
    - now rewrite upd_eq.
  Qed.
End Measure.

Lemma upd_keep {PC} (h : PC -> bool) (f : tid -> PC) t p (L : list tid) :
  In t L -> (forall x, h (f x) = true -> In x L) -> forall x, h (upd f t p x) = true -> In x L.
Proof.
  intros Hin H x Hx. destruct (Nat.eq_dec x t) as [->|Hne]; auto. rewrite upd_neq in Hx; auto.
Qed.

Record InvS (s : state) : Prop := {
  i_items : forall t c, In (t, c) (items s) ->
      (pcs s t = Wait \/ is_main (pcs s t) = true) /\ arg s t = c;
  i_items_nd : NoDup (batch s);
  i_pend : forall t c, In (t, c) (pending s) ->
      pcs s t = Wait /\ arg s t = c /\ ~ In t (batch s);
  i_pend_nd : NoDup (map fst (pending s));
  i_main_in : forall t, is_main (pcs s t) = true -> In t (batch s) /\ token s = false;
  i_main_unique : forall t1 t2, is_main (pcs s t1) = true -> is_main (pcs s t2) = true -> t1 = t2;
  i_token : token s = true -> items s <> [] /\ committed s = false;
  i_nomain : items s = [] ->
      token s = false /\ committed s = false /\ pending s = [] /\ applied s = false;
  i_committed : forall t, post_commit (pcs s t) = true -> committed s = true;
  i_applied : applied s = true -> committed s = true;
  i_got : forall t c, pcs s t = Got c -> arg s t = c;
  i_wait : forall t, pcs s t = Wait -> In t (batch s) \/ In t (map fst (pending s));
  i_token_or_main : items s <> [] -> token s = true \/ exists t, is_main (pcs s t) = true;
  i_pool : exists hs, NoDup hs /\ (forall t, In t hs <-> holding (pcs s t) = true) /\
      match pool s with None => hs = [] | Some rc => rc = length hs /\ hs <> [] end
}.

Lemma invS_init r0 st0 : InvS (init r0 st0).
Proof.
  constructor; simpl; intros; try discriminate; try tauto; try (now constructor).
  exists []. repeat split; try constructor; simpl; try tauto; discriminate.
Qed.

Lemma batch_member s t : InvS s -> In t (batch s) -> pcs s t = Wait \/ is_main (pcs s t) = true.
Proof.
  intros I Hin. apply in_map_iff in Hin as ((t', c) & E & Hin). simpl in E. subst t'.
  now destruct (i_items s I t c Hin).
Qed.

Lemma not_in_batch s t : InvS s -> pcs s t <> Wait -> is_main (pcs s t) = false -> ~ In t (batch s).
Proof. intros I H1 H2 Hin. destruct (batch_member s t I Hin); congruence. Qed.

Lemma not_in_pending s t : InvS s -> pcs s t <> Wait -> ~ In t (map fst (pending s)).
Proof.
  intros I H1 Hin. apply in_map_iff in Hin as ((t', c) & E & Hin). simpl in E. subst t'.
  destruct (i_pend s I t c Hin) as [H _]. congruence.
Qed.

Lemma main_items s t : InvS s -> is_main (pcs s t) = true -> items s <> [].
Proof. intros I Hm E. destruct (i_main_in s I t Hm) as [Hin _]. unfold batch in Hin. now rewrite E in Hin. Qed.

Lemma other_not_main s t x : InvS s -> is_main (pcs s t) = true -> x <> t -> is_main (pcs s x) = false.
Proof. intros I Hm Hne. destruct (is_main (pcs s x)) eqn:E; auto. now apply (i_main_unique s I x t) in E. Qed.

Lemma pool_none s : InvS s -> pool s = None ->
  (forall t, holding (pcs s t) = false) /\ items s = [] /\ pending s = [].
Proof.
  intros I Hp. pose proof (i_pool s I) as P. rewrite Hp in P.
  pose proof (pool_ok_none holding _ P) as Hh. split; [exact Hh|].
  assert (Hi : items s = []).
  { destruct (items s) as [|[t c] l] eqn:E; auto. exfalso.
    assert (Hb : In t (batch s)) by (unfold batch; rewrite E; now left).
    specialize (Hh t). destruct (batch_member s t I Hb) as [H|H]; [rewrite H in Hh; discriminate|apply main_holding in H; congruence]. }
  split; [exact Hi|]. now destruct (i_nomain s I Hi) as (_ & _ & ? & _).
Qed.

(* [p'] can stand where [p] stood: the clauses of InvS do not tell them apart; [a] is the
   caller's argument, [cm] says whether the batch is committed *)
Record smoves (cm : bool) (a : change) (p p' : pc) : Prop := {
  sm_wait : p' = Wait <-> p = Wait;
  sm_main : is_main p' = is_main p;
  sm_post : post_commit p' = true -> cm = true;
  sm_got : forall c, p' = Got c -> a = c
}.

Lemma smoves_main cm a p p' :
  is_main p = true -> is_main p' = true -> (post_commit p' = true -> cm = true) -> smoves cm a p p'.
Proof.
  intros Hp Hp' Hc. constructor; auto.
  - split; intros ->; discriminate.
  - congruence.
  - intros c ->. discriminate.
Qed.

(* the registry cell and the ghost fields lin, junk are not read by InvS; while the caller is the
   main caller the batch may be committed and may take effect *)
Lemma invS_move s t p' pl cm r st l j ap :
  InvS s -> smoves cm (arg s t) (pcs s t) p' -> pool_ok holding pl (upd (pcs s) t p') ->
  is_main (pcs s t) = true \/ cm = committed s /\ ap = applied s ->
  (committed s = true -> cm = true) -> (ap = true -> cm = true) ->
  InvS (mkSt pl cm (items s) (token s) (pending s) (upd (pcs s) t p') r st (arg s) l j ap).
Proof.
  intros I M Hpl Hm Hc1 Hc3.
  assert (Wt : forall x, upd (pcs s) t p' x = Wait <-> pcs s x = Wait)
    by (intro x; tcase x t; [apply (sm_wait _ _ _ _ M)|tauto]).
  assert (Mn : forall x, is_main (upd (pcs s) t p' x) = is_main (pcs s x))
    by (intro x; tcase x t; [apply (sm_main _ _ _ _ M)|reflexivity]).
  constructor; simpl; try apply I.
  - intros x c Hin. destruct (i_items s I x c Hin) as [A B]. split; [|exact B].
    destruct A as [A|A]; [left; now apply Wt|right; now rewrite Mn].
  - intros x c Hin. destruct (i_pend s I x c Hin) as (A & B). split; [now apply Wt|exact B].
  - intros x Hx. rewrite Mn in Hx. now apply (i_main_in s I).
  - intros x1 x2 H1 H2. rewrite Mn in H1, H2. now apply (i_main_unique s I).
  - intro Ht. destruct (i_token s I Ht) as [A B]. split; [exact A|].
    destruct Hm as [Hm|[-> _]]; [|exact B]. destruct (i_main_in s I t Hm). congruence.
  - intro E. destruct Hm as [Hm|[-> ->]]; [now apply (main_items s t I) in Hm|now apply (i_nomain s I)].
  - intros x Hx. tcase x t; [exact (sm_post _ _ _ _ M Hx)|]. apply Hc1. now apply (i_committed s I x).
  - exact Hc3.
  - intros x c Hx. tcase x t; [exact (sm_got _ _ _ _ M c Hx)|now apply (i_got s I)].
  - intros x Hx. apply Wt in Hx. now apply (i_wait s I).
  - intro Hi. destruct (i_token_or_main s I Hi) as [A|(x & A)]; [now left|right]. exists x. now rewrite Mn.
  - exact Hpl.
Qed.
