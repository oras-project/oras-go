(* C14 — structural invariant InvF of the channel-level Merge system (Model/MergeFine.v), for every
   interleaving of lock regions, channel operations and HTTP exchanges.  Every step is one caller
   changing its own state plus at most one of: a channel operation, the commit, the swap; there is
   one preservation lemma for each of these. *)
From Oras Require Import Base.Prelude Model.Referrers Proofs.Referrers Model.Merge Proofs.Merge Model.MergeFine.

Definition fmain (p : fpc) : bool :=
  match p with FPrep | FPrepared _ | FNeedPut _ _ | FNeedDel _ _ | FNotify _ _ | FSwap _ => true | _ => false end.
Definition fwindow (p : fpc) : bool := match p with FNotify _ _ | FSwap _ => true | _ => false end.
Definition fpre (p : fpc) : bool :=
  match p with FPrep | FPrepared _ | FNeedPut _ _ | FNeedDel _ _ => true | _ => false end.
Definition fpost (p : fpc) : bool :=
  match p with FNeedPut _ _ | FNeedDel _ _ | FNotify _ _ | FSwap _ => true | _ => false end.
Definition fholding (p : fpc) : bool := match p with FIdle | FDone _ => false | _ => true end.
Definition fbatch (s : fstate) : list tid := map fst (f_items s).
Definition fres (p : fpc) : option result := match p with FNotify r _ | FSwap r => Some r | _ => None end.

Record InvF (s : fstate) : Prop := {
  f_it : forall t c, In (t, c) (f_items s) ->
      f_pcs s t = FWait (f_gen s) \/ fmain (f_pcs s t) = true \/
      ((exists tm, fwindow (f_pcs s tm) = true) /\ exists r, f_pcs s t = FRet r \/ f_pcs s t = FDone r);
  f_it_nd : NoDup (fbatch s);
  f_pe : forall t c, In (t, c) (f_pending s) -> f_pcs s t = FWait (S (f_gen s)) /\ ~ In t (fbatch s);
  f_pe_nd : NoDup (map fst (f_pending s));
  f_mn : forall t, fmain (f_pcs s t) = true -> In t (fbatch s);
  f_mu : forall t1 t2, fmain (f_pcs s t1) = true -> fmain (f_pcs s t2) = true -> t1 = t2;
  f_wt : forall t g, f_pcs s t = FWait g ->
      (g <= S (f_gen s))%nat /\ (g = f_gen s -> In t (fbatch s)) /\ (g = S (f_gen s) -> In t (map fst (f_pending s)));
  f_tok : fbuf (f_chans s (f_gen s)) = Some FMain ->
      f_items s <> [] /\ f_committed s = false /\ forall t, fmain (f_pcs s t) = false;
  f_tom : f_items s <> [] -> fbuf (f_chans s (f_gen s)) = Some FMain \/ exists t, fmain (f_pcs s t) = true;
  f_emp : f_items s = [] -> f_committed s = false /\ f_pending s = [];
  f_com : forall t, fpost (f_pcs s t) = true -> f_committed s = true;
  f_qt : forall t, fpre (f_pcs s t) = true ->
      fbuf (f_chans s (f_gen s)) = None /\ fclosed (f_chans s (f_gen s)) = false /\ f_verdict s (f_gen s) = None;
  f_fut : forall g, (f_gen s < g)%nat ->
      fbuf (f_chans s g) = None /\ fclosed (f_chans s g) = false /\ f_verdict s g = None;
  f_vb : forall g r, fbuf (f_chans s g) = Some (FRes r) -> f_verdict s g = Some r;
  f_vc : forall g, fclosed (f_chans s g) = true -> f_verdict s g = Some ROk;
  f_vm : forall g, fbuf (f_chans s g) = Some FMain -> g = f_gen s;
  f_vw : forall t r, fres (f_pcs s t) = Some r -> f_verdict s (f_gen s) = Some r;
  f_vn : forall r, f_verdict s (f_gen s) = Some r -> exists t, fres (f_pcs s t) = Some r;
  f_pl : exists hs, NoDup hs /\ (forall t, In t hs <-> fholding (f_pcs s t) = true) /\
      match f_pool s with None => hs = [] | Some rc => rc = length hs /\ hs <> [] end
}.

Lemma invF_init r0 st0 : InvF (finit r0 st0).
Proof.
  constructor; simpl; intros; try discriminate; try tauto; try (now constructor); auto.
  exists []. repeat split; try constructor; simpl; try tauto; discriminate.
Qed.

Lemma fmain_holding p : fmain p = true -> fholding p = true.
Proof. destruct p; simpl; congruence. Qed.
Lemma fwindow_main p : fwindow p = true -> fmain p = true.
Proof. destruct p; simpl; congruence. Qed.
Lemma fpre_main p : fpre p = true -> fmain p = true.
Proof. destruct p; simpl; congruence. Qed.
Lemma fpost_main p : fpost p = true -> fmain p = true.
Proof. destruct p; simpl; congruence. Qed.
Lemma fres_window p r : fres p = Some r -> fwindow p = true.
Proof. destruct p; simpl; congruence. Qed.
Lemma fpre_not_window p : fpre p = true -> fwindow p = false.
Proof. destruct p; simpl; congruence. Qed.
Lemma fwindow_post p : fwindow p = true -> fpost p = true.
Proof. destruct p; simpl; congruence. Qed.

Lemma f_member s t : InvF s -> In t (fbatch s) -> fholding (f_pcs s t) = true \/ (exists tm, fwindow (f_pcs s tm) = true).
Proof.
  intros I Hin. unfold fbatch in Hin. apply in_map_iff in Hin as ((t', c) & E & Hin). simpl in E. subst t'.
  destruct (f_it s I t c Hin) as [H|[H|[H _]]]; auto.
  - left. now rewrite H.
  - left. now apply fmain_holding.
Qed.

Lemma fpool_none s : InvF s -> f_pool s = None ->
  (forall t, fholding (f_pcs s t) = false) /\ f_items s = [] /\ f_pending s = [].
Proof.
  intros I Hp. pose proof (f_pl s I) as P. rewrite Hp in P. pose proof (pool_ok_none fholding _ P) as Hh.
  assert (Hi : f_items s = []).
  { destruct (f_items s) as [|[t c] l] eqn:E; auto. exfalso.
    assert (Hb : In t (fbatch s)) by (unfold fbatch; rewrite E; now left).
    destruct (f_member s t I Hb) as [H|(tm & H)].
    - now rewrite Hh in H.
    - apply fwindow_main, fmain_holding in H. now rewrite Hh in H. }
  split; auto. split; auto. now destruct (f_emp s I Hi).
Qed.

Lemma not_in_fbatch s t : InvF s -> fholding (f_pcs s t) = false -> ~ In t (fbatch s) \/ (exists tm, fwindow (f_pcs s tm) = true).
Proof.
  intros I H. destruct (in_dec Nat.eq_dec t (fbatch s)) as [Hin|]; auto.
  destruct (f_member s t I Hin) as [E|E]; auto. congruence.
Qed.

Lemma fother_not_main s t x : InvF s -> fmain (f_pcs s t) = true -> x <> t -> fmain (f_pcs s x) = false.
Proof. intros I Ht Hne. destruct (fmain (f_pcs s x)) eqn:E; auto. now destruct Hne; apply (f_mu s I). Qed.

Lemma fother_not_window s t x : InvF s -> fmain (f_pcs s t) = true -> x <> t -> fwindow (f_pcs s x) = false.
Proof.
  intros I Ht Hne. destruct (fwindow (f_pcs s x)) eqn:E; auto.
  apply fwindow_main in E. now rewrite (fother_not_main s t x) in E.
Qed.

Lemma no_window_of_pre s t : InvF s -> fpre (f_pcs s t) = true -> forall x, fwindow (f_pcs s x) = false.
Proof.
  intros I Hp x. destruct (Nat.eq_dec x t) as [->|Hne]; [now apply fpre_not_window|].
  apply (fother_not_window s t); auto. now apply fpre_main.
Qed.

Lemma fmain_no_token s t : InvF s -> fmain (f_pcs s t) = true -> fbuf (f_chans s (f_gen s)) <> Some FMain.
Proof. intros I Hm E. destruct (f_tok s I E) as (_ & _ & H). rewrite H in Hm. discriminate. Qed.

Lemma fmain_items s t : InvF s -> fmain (f_pcs s t) = true -> f_items s <> [].
Proof. intros I Hm E. apply (f_mn s I) in Hm. unfold fbatch in Hm. now rewrite E in Hm. Qed.

(* [p'] can stand where [p] stood: no clause of InvF tells them apart, except that [p'] may be
   past the commit point ([cm]: the batch is committed) *)
Record moves (cm : bool) (p p' : fpc) : Prop := {
  mv_wait : forall g, p' = FWait g <-> p = FWait g;
  mv_main : fmain p' = fmain p;
  mv_win : fwindow p = true -> fwindow p' = true;
  mv_back : (exists r, p = FRet r \/ p = FDone r) -> exists r, p' = FRet r \/ p' = FDone r;
  mv_post : fpost p' = true -> cm = true;
  mv_pre : fpre p' = true -> fpre p = true;
  mv_res : fres p' = fres p
}.

Lemma invF_move s t p' pl rg st :
  InvF s -> moves (f_committed s) (f_pcs s t) p' -> pool_ok fholding pl (upd (f_pcs s) t p') ->
  InvF (mkF pl (f_committed s) (f_items s) (f_pending s) (f_gen s) (f_chans s) (upd (f_pcs s) t p') rg st (f_verdict s)).
Proof.
  intros I M Hpl.
  assert (Wt : forall x g, upd (f_pcs s) t p' x = FWait g <-> f_pcs s x = FWait g)
    by (intros x g; tcase x t; [apply (mv_wait _ _ _ M)|tauto]).
  assert (Mn : forall x, fmain (upd (f_pcs s) t p' x) = fmain (f_pcs s x))
    by (intro x; tcase x t; [apply (mv_main _ _ _ M)|reflexivity]).
  assert (Rs : forall x, fres (upd (f_pcs s) t p' x) = fres (f_pcs s x))
    by (intro x; tcase x t; [apply (mv_res _ _ _ M)|reflexivity]).
  constructor; simpl; try apply I.
  - intros x c Hin. destruct (f_it s I x c Hin) as [A|[A|[(tm & A) B]]].
    + left. now apply Wt.
    + right; left. now rewrite Mn.
    + right; right. split.
      * exists tm. tcase tm t; [now apply (mv_win _ _ _ M)|exact A].
      * tcase x t; [now apply (mv_back _ _ _ M)|exact B].
  - intros x c Hin. destruct (f_pe s I x c Hin) as [A B]. split; [now apply Wt|exact B].
  - intros x Hx. rewrite Mn in Hx. now apply (f_mn s I).
  - intros x1 x2 H1 H2. rewrite Mn in H1, H2. now apply (f_mu s I).
  - intros x g Hx. apply Wt in Hx. now apply (f_wt s I).
  - intro Hb. destruct (f_tok s I Hb) as (A & B & C). repeat split; auto. intro x. now rewrite Mn.
  - intro Hx. destruct (f_tom s I Hx) as [A|(x & A)]; [now left|right]. exists x. now rewrite Mn.
  - intros x Hx. tcase x t; [exact (mv_post _ _ _ M Hx)|now apply (f_com s I x)].
  - intros x Hx. apply (f_qt s I x). tcase x t; [exact (mv_pre _ _ _ M Hx)|exact Hx].
  - intros x r Hx. rewrite Rs in Hx. now apply (f_vw s I x).
  - intros r Hr. destruct (f_vn s I r Hr) as (x & Hx). exists x. now rewrite Rs.
  - exact Hpl.
Qed.

Lemma invF_move_pc s t p' :
  InvF s -> moves (f_committed s) (f_pcs s t) p' -> fholding p' = fholding (f_pcs s t) -> InvF (fset_pc s t p').
Proof. intros I M Hh. apply invF_move; auto. apply pool_ok_same; [exact Hh|apply (f_pl s I)]. Qed.

Lemma moves_get cm c : moves cm FIdle (FGot c).
Proof. constructor; simpl; try reflexivity; try discriminate. - split; discriminate. - intros (r & [E|E]); discriminate. Qed.

Lemma moves_done cm r : moves cm (FRet r) (FDone r).
Proof. constructor; simpl; try reflexivity; try discriminate. - split; discriminate. - eauto. Qed.

Lemma moves_pre cm p p' : fpre p = true -> fpre p' = true -> (fpost p' = true -> cm = true) -> moves cm p p'.
Proof.
  intros Hp Hp' Hc. constructor; auto.
  - intro g. split; intros ->; discriminate.
  - now rewrite !fpre_main.
  - now rewrite fpre_not_window.
  - intros (r & [E|E]); subst p; discriminate.
  - destruct p; try discriminate; destruct p'; try discriminate; reflexivity.
Qed.

Lemma moves_window p p' : fwindow p = true -> fwindow p' = true -> fres p' = fres p -> moves true p p'.
Proof.
  intros Hp Hp' Hr. constructor; auto.
  - intro g. split; intros ->; discriminate.
  - now rewrite !fwindow_main.
  - intros (r & [E|E]); subst p; discriminate.
  - intro E. destruct p'; discriminate.
Qed.

Definition fwith (s : fstate) (cm : bool) (rg : option index) (st : list index) : fstate :=
  mkF (f_pool s) cm (f_items s) (f_pending s) (f_gen s) (f_chans s) (f_pcs s) rg st (f_verdict s).

Definition fset_chan (s : fstate) (g : nat) (c : fchan) : fstate :=
  mkF (f_pool s) (f_committed s) (f_items s) (f_pending s) (f_gen s) (upd (f_chans s) g c) (f_pcs s)
      (f_reg s) (f_store s) (f_verdict s).

Lemma invF_reg s rg st : InvF s -> InvF (fset_reg s rg st).
Proof. intro I. destruct I. constructor; auto. Qed.

Lemma invF_with s t cm rg st :
  InvF s -> fmain (f_pcs s t) = true -> (f_committed s = true -> cm = true) -> InvF (fwith s cm rg st).
Proof.
  intros I Hm Hc. destruct cm.
  - constructor; simpl; try apply I.
    + intro Hb. now apply (fmain_no_token s t I) in Hb.
    + intro Hi. now apply (fmain_items s t I) in Hi.
    + reflexivity.
  - destruct (f_committed s) eqn:E; [discriminate (Hc eq_refl)|]. rewrite <- E. now apply invF_reg.
Qed.

(* the main caller learns the result of its batch and enters complete() *)
Lemma invF_enter s t r :
  InvF s -> fpre (f_pcs s t) = true -> f_committed s = true -> InvF (fnotify s t r).
Proof.
  intros I Hp Hcm.
  assert (Hm : fmain (f_pcs s t) = true) by now apply fpre_main.
  destruct (f_qt s I t Hp) as (Q1 & Q2 & Q3).
  set (p' := FNotify r (length (f_items s) - 1)).
  assert (Mn : forall x, fmain (upd (f_pcs s) t p' x) = fmain (f_pcs s x)) by (intro x; tcase x t; [now rewrite Hm|reflexivity]).
  pose proof (fun x => fother_not_main s t x I Hm) as Ho. pose proof (no_window_of_pre s t I Hp) as Hnw.
  constructor; simpl; fold p'; try apply I.
  - intros x c Hin. destruct (f_it s I x c Hin) as [A|[A|[(tm & A) _]]].
    + left. tcase x t; [rewrite A in Hp; discriminate|exact A].
    + right; left. now rewrite Mn.
    + now rewrite Hnw in A.
  - intros x c Hin. destruct (f_pe s I x c Hin) as [A B]. split; [|exact B].
    tcase x t; [rewrite A in Hp; discriminate|exact A].
  - intros x Hx. rewrite Mn in Hx. now apply (f_mn s I).
  - intros x1 x2 H1 H2. rewrite Mn in H1, H2. now apply (f_mu s I).
  - intros x g Hx. tcase x t; [discriminate|now apply (f_wt s I)].
  - intro Hb. congruence.
  - intros _. right. exists t. now rewrite upd_eq.
  - intros _ _. exact Hcm.
  - intros x Hx. tcase x t; [discriminate|]. apply fpre_main in Hx. now rewrite Ho in Hx.
  - intros g Hg. rewrite upd_neq by lia. now apply (f_fut s I).
  - intros g r0 Hb. tcase g (f_gen s); [congruence|now apply (f_vb s I)].
  - intros g Hc. tcase g (f_gen s); [congruence|now apply (f_vc s I)].
  - intros x r0 Hx. rewrite upd_eq. tcase x t; [exact Hx|]. apply fres_window in Hx. now rewrite Hnw in Hx.
  - intros r0 Hr. rewrite upd_eq in Hr. exists t. now rewrite upd_eq.
  - apply pool_ok_same; [now rewrite (fmain_holding _ Hm)|apply (f_pl s I)].
Qed.

(* a channel operation that neither takes nor puts the main status: a receive of a result
   status, or a close or send by the main caller in complete() *)
Lemma invF_chan s g c :
  InvF s -> (g <= f_gen s)%nat -> fbuf (f_chans s g) <> Some FMain -> fbuf c <> Some FMain ->
  (g = f_gen s -> fbuf (f_chans s g) <> None \/ exists t, fwindow (f_pcs s t) = true) ->
  (forall r, fbuf c = Some (FRes r) -> f_verdict s g = Some r) ->
  (fclosed c = true -> f_verdict s g = Some ROk) ->
  InvF (fset_chan s g c).
Proof.
  intros I Hle Hb Hb' Hcur Hvb Hvc.
  assert (Hnp : g = f_gen s -> forall x, fpre (f_pcs s x) = false).
  { intros -> x. destruct (fpre (f_pcs s x)) eqn:E; auto. destruct (Hcur eq_refl) as [A|(t & A)].
    - now destruct (f_qt s I x E).
    - now rewrite (no_window_of_pre s x I E) in A. }
  constructor; simpl; try apply I.
  - destruct (Nat.eq_dec g (f_gen s)) as [->|Hne]; [rewrite upd_eq; intro E; contradiction|].
    rewrite upd_neq by auto. apply (f_tok s I).
  - intro Hi. destruct (Nat.eq_dec g (f_gen s)) as [->|Hne]; [|rewrite upd_neq by auto; now apply (f_tom s I)].
    destruct (f_tom s I Hi) as [A|A]; [contradiction|now right].
  - intros x Hx. destruct (Nat.eq_dec g (f_gen s)) as [->|Hne]; [now rewrite Hnp in Hx|].
    rewrite upd_neq by auto. now apply (f_qt s I x).
  - intros g' Hg. rewrite upd_neq by lia. now apply (f_fut s I).
  - intros g' r E. tcase g' g; [now apply Hvb|now apply (f_vb s I)].
  - intros g' E. tcase g' g; [now apply Hvc|now apply (f_vc s I)].
  - intros g' E. tcase g' g; [contradiction|now apply (f_vm s I)].
Qed.

Lemma invF_wake s t g r :
  InvF s -> f_pcs s t = FWait g -> (g <= f_gen s)%nat ->
  (g = f_gen s -> exists tm, fwindow (f_pcs s tm) = true) ->
  InvF (fset_pc s t (FRet r)).
Proof.
  intros I Hpc Hg Hwin.
  assert (Ho : forall (P : fpc -> bool) x, P (FRet r) = P (FWait g) -> P (upd (f_pcs s) t (FRet r) x) = P (f_pcs s x))
    by (intros P x E; tcase x t; [now rewrite Hpc|reflexivity]).
  assert (Hnp : forall c, ~ In (t, c) (f_pending s)).
  { intros c Hin. destruct (f_pe s I t c Hin) as [E _]. rewrite Hpc in E. injection E as ->. lia. }
  constructor; simpl; try apply I.
  - intros x c Hin. destruct (f_it s I x c Hin) as [A|[A|[(tm & A) B]]].
    + tcase x t; [|now left]. right; right. rewrite Hpc in A. injection A as ->.
      destruct (Hwin eq_refl) as (tm & Htm). split; [exists tm|eauto]. now rewrite Ho.
    + right; left. now rewrite Ho.
    + right; right. split; [exists tm; now rewrite Ho|]. tcase x t; [eauto|exact B].
  - intros x c Hin. tcase x t; [now apply Hnp in Hin|now apply (f_pe s I x c)].
  - intros x Hx. rewrite Ho in Hx by reflexivity. now apply (f_mn s I).
  - intros x1 x2 H1 H2. rewrite Ho in H1, H2 by reflexivity. now apply (f_mu s I).
  - intros x g' Hx. tcase x t; [discriminate|now apply (f_wt s I)].
  - intro Hb. destruct (f_tok s I Hb) as (A & B & C). repeat split; auto. intro x. now rewrite Ho.
  - intro Hi. destruct (f_tom s I Hi) as [A|(x & A)]; [now left|right]. exists x. now rewrite Ho.
  - intros x Hx. rewrite Ho in Hx by reflexivity. now apply (f_com s I x).
  - intros x Hx. rewrite Ho in Hx by reflexivity. now apply (f_qt s I x).
  - intros x r0 Hx. tcase x t; [discriminate|now apply (f_vw s I x)].
  - intros r0 Hr. destruct (f_vn s I r0 Hr) as (x & Hx). exists x. tcase x t; [now rewrite Hpc in Hx|exact Hx].
  - apply pool_ok_same; [now rewrite Hpc|apply (f_pl s I)].
Qed.

Lemma open_batch s : InvF s -> f_committed s = false ->
  (forall x, fpost (f_pcs s x) = false) /\ (forall x, fwindow (f_pcs s x) = false) /\ f_verdict s (f_gen s) = None.
Proof.
  intros I Hc. assert (Hn : forall x, fpost (f_pcs s x) = false).
  { intro x. destruct (fpost (f_pcs s x)) eqn:E; auto. apply (f_com s I) in E. congruence. }
  assert (Hw : forall x, fwindow (f_pcs s x) = false).
  { intro x. destruct (fwindow (f_pcs s x)) eqn:E; auto. apply fwindow_post in E. now rewrite Hn in E. }
  repeat split; auto. destruct (f_verdict s (f_gen s)) as [r|] eqn:Ev; auto.
  destruct (f_vn s I r Ev) as (x & Hx). apply fres_window in Hx. now rewrite Hw in Hx.
Qed.

Lemma token_fresh s : InvF s -> fbuf (f_chans s (f_gen s)) = Some FMain ->
  fclosed (f_chans s (f_gen s)) = false /\ f_verdict s (f_gen s) = None.
Proof.
  intros I E. destruct (f_tok s I E) as (_ & _ & Hn).
  assert (Hv : f_verdict s (f_gen s) = None).
  { destruct (f_verdict s (f_gen s)) as [r|] eqn:Ev; auto. destruct (f_vn s I r Ev) as (t & Ht).
    apply fres_window, fwindow_main in Ht. now rewrite Hn in Ht. }
  split; auto. destruct (fclosed (f_chans s (f_gen s))) eqn:Ec; auto.
  apply (f_vc s I) in Ec. congruence.
Qed.

Lemma invF_take s t :
  InvF s -> f_pcs s t = FWait (f_gen s) -> fbuf (f_chans s (f_gen s)) = Some FMain ->
  InvF (fset_chan (fset_pc s t FPrep) (f_gen s) (mkFC None (fclosed (f_chans s (f_gen s))))).
Proof.
  intros I Hpc Hb.
  destruct (f_tok s I Hb) as (Hni & Hcm & Hnm). destruct (token_fresh s I Hb) as (Hcl & Hv).
  destruct (f_wt s I t _ Hpc) as (_ & Hin & _). specialize (Hin eq_refl).
  assert (Hm : forall x, fmain (upd (f_pcs s) t FPrep x) = true -> x = t).
  { intros x Hx. tcase x t; [reflexivity|]. now rewrite Hnm in Hx. }
  constructor; simpl; try apply I.
  - intros x c Hi. tcase x t; [now right; left|]. destruct (f_it s I x c Hi) as [A|[A|[(tm & A) _]]]; auto.
    apply fwindow_main in A. now rewrite Hnm in A.
  - intros x c Hi. destruct (f_pe s I x c Hi) as [A B]. split; [|exact B].
    tcase x t; [|exact A]. rewrite Hpc in A. injection A as A. lia.
  - intros x Hx. now rewrite (Hm x Hx).
  - intros x1 x2 H1 H2. now rewrite (Hm x1 H1), (Hm x2 H2).
  - intros x g Hx. tcase x t; [discriminate|now apply (f_wt s I)].
  - rewrite upd_eq. discriminate.
  - intros _. right. exists t. now rewrite upd_eq.
  - intros x Hx. tcase x t; [discriminate|]. apply fpost_main in Hx. now rewrite Hnm in Hx.
  - intros _ _. now rewrite upd_eq.
  - intros g Hg. rewrite upd_neq by lia. now apply (f_fut s I).
  - intros g r E. tcase g (f_gen s); [discriminate|now apply (f_vb s I)].
  - intros g E. tcase g (f_gen s); [simpl in E; congruence|now apply (f_vc s I)].
  - intros g E. tcase g (f_gen s); [reflexivity|now apply (f_vm s I)].
  - intros x r Hx. tcase x t; [discriminate|now apply (f_vw s I x)].
  - intros r Hr. congruence.
  - apply pool_ok_same; [now rewrite Hpc|apply (f_pl s I)].
Qed.

Lemma fgot_outside s t c : InvF s -> f_pcs s t = FGot c -> ~ In t (fbatch s) /\ ~ In t (map fst (f_pending s)).
Proof.
  intros I Hpc. split; intro Hin; apply in_map_iff in Hin as ((t', c0) & E & Hin); simpl in E; subst t'.
  - destruct (f_it s I t c0 Hin) as [A|[A|[_ (r & [A|A])]]]; rewrite Hpc in A; discriminate.
  - destruct (f_pe s I t c0 Hin) as [A _]. rewrite Hpc in A. discriminate.
Qed.

Lemma invF_pend s t c :
  InvF s -> f_pcs s t = FGot c -> f_committed s = true ->
  InvF (mkF (f_pool s) true (f_items s) (f_pending s ++ [(t, c)]) (f_gen s) (f_chans s)
            (upd (f_pcs s) t (FWait (S (f_gen s)))) (f_reg s) (f_store s) (f_verdict s)).
Proof.
  intros I Hpc Hcm. destruct (fgot_outside s t c I Hpc) as [Hnb Hnp].
  set (p' := FWait (S (f_gen s))).
  assert (Ho : forall (P : fpc -> bool) x, P p' = P (FGot c) -> P (upd (f_pcs s) t p' x) = P (f_pcs s x))
    by (intros P x E; tcase x t; [now rewrite Hpc|reflexivity]).
  constructor; simpl; fold p'; try apply I.
  - intros x c0 Hin. assert (x <> t) by (intros ->; eauto using in_fst). rewrite upd_neq by auto.
    destruct (f_it s I x c0 Hin) as [A|[A|[(tm & A) B]]]; auto. right; right. split; [exists tm; now rewrite Ho|exact B].
  - intros x c0 Hin. apply in_snoc in Hin as [Hin|Hin].
    + assert (x <> t) by (intros ->; eauto using in_fst). rewrite upd_neq by auto. now apply (f_pe s I x c0).
    + injection Hin as -> ->. now rewrite upd_eq.
  - apply NoDup_map_fst_snoc; [apply (f_pe_nd s I)|exact Hnp].
  - intros x Hx. rewrite Ho in Hx by reflexivity. now apply (f_mn s I).
  - intros x1 x2 H1 H2. rewrite Ho in H1, H2 by reflexivity. now apply (f_mu s I).
  - intros x g Hx. rewrite in_map_fst_snoc. tcase x t.
    + injection Hx as <-. repeat split; auto. lia.
    + destruct (f_wt s I x g Hx) as (A & B & C). auto.
  - intro Hb. destruct (f_tok s I Hb) as (A & B & C). congruence.
  - intro Hi. destruct (f_tom s I Hi) as [A|(x & A)]; [now left|right]. exists x. now rewrite Ho.
  - intro Hi. destruct (f_emp s I Hi). congruence.
  - reflexivity.
  - intros x Hx. rewrite Ho in Hx by reflexivity. now apply (f_qt s I x).
  - intros x r Hx. tcase x t; [discriminate|now apply (f_vw s I x)].
  - intros r Hr. destruct (f_vn s I r Hr) as (x & Hx). exists x. tcase x t; [now rewrite Hpc in Hx|exact Hx].
  - apply pool_ok_same; [now rewrite Hpc|apply (f_pl s I)].
Qed.

Lemma invF_join s t c :
  InvF s -> f_pcs s t = FGot c -> f_committed s = false ->
  InvF (mkF (f_pool s) false (f_items s ++ [(t, c)]) (f_pending s) (f_gen s)
            (if is_nil (f_items s) then upd (f_chans s) (f_gen s) (mkFC (Some FMain) false) else f_chans s)
            (upd (f_pcs s) t (FWait (f_gen s))) (f_reg s) (f_store s) (f_verdict s)).
Proof.
  intros I Hpc Hcm. destruct (fgot_outside s t c I Hpc) as [Hnb Hnp].
  set (p' := FWait (f_gen s)).
  assert (Ho : forall (P : fpc -> bool) x, P p' = P (FGot c) -> P (upd (f_pcs s) t p' x) = P (f_pcs s x))
    by (intros P x E; tcase x t; [now rewrite Hpc|reflexivity]).
  destruct (open_batch s I Hcm) as (Hnpost & _ & Hv).
  set (ch' := if is_nil (f_items s) then upd (f_chans s) (f_gen s) (mkFC (Some FMain) false) else f_chans s).
  assert (Hbuf : forall g, ch' g = f_chans s g \/ g = f_gen s /\ ch' g = mkFC (Some FMain) false).
  { intro g. unfold ch'. destruct (is_nil (f_items s)); auto. tcase g (f_gen s); auto. }
  assert (Hcur : f_items s <> [] /\ ch' = f_chans s \/
                 (forall x, fmain (f_pcs s x) = false) /\ ch' (f_gen s) = mkFC (Some FMain) false).
  { unfold ch'. destruct (f_items s) eqn:Ei; [right|left; split; [discriminate|reflexivity]].
    split; [|apply upd_eq]. intro x. destruct (fmain (f_pcs s x)) eqn:E; auto.
    apply (f_mn s I) in E. unfold fbatch in E. now rewrite Ei in E. }
  constructor; unfold fbatch; simpl; fold p' ch'; try apply I.
  - intros x c0 Hin. apply in_snoc in Hin as [Hin|Hin].
    + assert (x <> t) by (intros ->; eauto using in_fst). rewrite upd_neq by auto.
      destruct (f_it s I x c0 Hin) as [A|[A|[(tm & A) B]]]; auto. right; right. split; [exists tm; now rewrite Ho|exact B].
    + injection Hin as -> ->. left. now rewrite upd_eq.
  - apply NoDup_map_fst_snoc; [apply (f_it_nd s I)|exact Hnb].
  - intros x c0 Hin. assert (x <> t) by (intros ->; eauto using in_fst). rewrite upd_neq by auto.
    destruct (f_pe s I x c0 Hin) as [A B]. split; [exact A|]. rewrite in_map_fst_snoc. tauto.
  - intros x Hx. rewrite Ho in Hx by reflexivity. apply in_map_fst_snoc. left. now apply (f_mn s I).
  - intros x1 x2 H1 H2. rewrite Ho in H1, H2 by reflexivity. now apply (f_mu s I).
  - intros x g Hx. rewrite in_map_fst_snoc. tcase x t.
    + injection Hx as <-. repeat split; auto. lia.
    + destruct (f_wt s I x g Hx) as (A & B & C). auto.
  - intro Hb. repeat split; [apply snoc_not_nil|]. intro x. rewrite Ho by reflexivity.
    destruct Hcur as [[_ E]|[A _]]; [|apply A]. rewrite E in Hb. now destruct (f_tok s I Hb) as (_ & _ & A).
  - intros _. destruct Hcur as [[Hi E]|[_ E]]; [|left; now rewrite E]. rewrite E.
    destruct (f_tom s I Hi) as [A|(x & A)]; [now left|right]. exists x. now rewrite Ho.
  - intro Hi. now apply snoc_not_nil in Hi.
  - intros x Hx. rewrite Ho, Hnpost in Hx by reflexivity. discriminate.
  - intros x Hx. rewrite Ho in Hx by reflexivity. destruct Hcur as [[_ ->]|[A _]]; [now apply (f_qt s I x)|].
    apply fpre_main in Hx. now rewrite A in Hx.
  - intros g Hg. destruct (Hbuf g) as [->|[-> _]]; [now apply (f_fut s I)|lia].
  - intros g r E. destruct (Hbuf g) as [Eg|[_ Eg]]; rewrite Eg in E; [now apply (f_vb s I)|discriminate].
  - intros g E. destruct (Hbuf g) as [Eg|[_ Eg]]; rewrite Eg in E; [now apply (f_vc s I)|discriminate].
  - intros g E. destruct (Hbuf g) as [Eg|[-> _]]; [rewrite Eg in E; now apply (f_vm s I)|reflexivity].
  - intros x r Hx. tcase x t; [discriminate|now apply (f_vw s I x)].
  - intros r Hr. congruence.
  - apply pool_ok_same; [now rewrite Hpc|apply (f_pl s I)].
Qed.

(* the locked part of complete(): the pending batch becomes the current one *)
Lemma invF_swap s t r :
  InvF s -> f_pcs s t = FSwap r ->
  InvF (mkF (f_pool s) false (f_pending s) [] (S (f_gen s))
            (if is_nil (f_pending s) then f_chans s
             else upd (f_chans s) (S (f_gen s)) (mkFC (Some FMain) (fclosed (f_chans s (S (f_gen s))))))
            (upd (f_pcs s) t (FRet r)) (f_reg s) (f_store s) (f_verdict s)).
Proof.
  intros I Hpc.
  assert (Hm : fmain (f_pcs s t) = true) by now rewrite Hpc.
  assert (Hnm : forall x, fmain (upd (f_pcs s) t (FRet r) x) = false).
  { intro x. tcase x t; [reflexivity|now apply (fother_not_main s t)]. }
  destruct (f_fut s I (S (f_gen s)) (Nat.lt_succ_diag_r _)) as (F1 & F2 & F3).
  set (ch' := if is_nil (f_pending s) then f_chans s
              else upd (f_chans s) (S (f_gen s)) (mkFC (Some FMain) (fclosed (f_chans s (S (f_gen s)))))).
  assert (Hch : forall g, ch' g = f_chans s g \/ g = S (f_gen s) /\ ch' g = mkFC (Some FMain) false).
  { intro g. unfold ch'. destruct (is_nil (f_pending s)); auto. rewrite F2. tcase g (S (f_gen s)); auto. }
  assert (Hnew : fclosed (ch' (S (f_gen s))) = false /\
                 (f_pending s = [] /\ fbuf (ch' (S (f_gen s))) = None \/
                  f_pending s <> [] /\ fbuf (ch' (S (f_gen s))) = Some FMain)).
  { unfold ch'. destruct (f_pending s); simpl; [auto|]. rewrite upd_eq. split; [exact F2|right]. split; [discriminate|reflexivity]. }
  destruct Hnew as [Hcl Hbuf].
  constructor; unfold fbatch; simpl; fold ch'; try apply I.
  - intros x c Hin. left. destruct (f_pe s I x c Hin) as [A _].
    tcase x t; [congruence|exact A].
  - intros x c [].
  - constructor.
  - intros x Hx. now rewrite Hnm in Hx.
  - intros x1 x2 Hx. now rewrite Hnm in Hx.
  - intros x g Hx. tcase x t; [discriminate|]. destruct (f_wt s I x g Hx) as (A & B & C).
    repeat split; [lia|auto|intro; lia].
  - intro Hb. destruct Hbuf as [[_ E]|[E _]]; [congruence|]. auto.
  - intro Hp. left. destruct Hbuf as [[E _]|[_ E]]; [contradiction|exact E].
  - auto.
  - intros x Hx. apply fpost_main in Hx. now rewrite Hnm in Hx.
  - intros x Hx. apply fpre_main in Hx. now rewrite Hnm in Hx.
  - intros g Hg. destruct (Hch g) as [->|[-> _]]; [apply (f_fut s I)|]; lia.
  - intros g r0 E. destruct (Hch g) as [Eg|[_ Eg]]; rewrite Eg in E; [now apply (f_vb s I)|discriminate].
  - intros g E. destruct (Hch g) as [Eg|[_ Eg]]; rewrite Eg in E; [now apply (f_vc s I)|discriminate].
  - intros g E. destruct (Hch g) as [Eg|[-> _]]; [|reflexivity].
    rewrite Eg in E. pose proof (f_vm s I g E) as ->. destruct (fmain_no_token s t I Hm E).
  - intros x r0 Hx. apply fres_window, fwindow_main in Hx. now rewrite Hnm in Hx.
  - intros r0 Hr. congruence.
  - apply pool_ok_same; [now rewrite Hpc|apply (f_pl s I)].
Qed.

(* the events of the main caller before complete() *)
Definition pre_event (e : fevent) : option tid :=
  match e with
  | FEPrepare t _ | FECommit t | FEPut t _ | FEPutLost t | FEDel t _ | FEDelLost t => Some t
  | _ => None
  end.

(* what such a step does: the batch may get committed, the registry cell may change; the caller
   goes on, or it has the result of the batch and enters complete() *)
Inductive pre_step (s : fstate) (t : tid) (cm : bool) (rg : option index) (st : list index) : fstate -> Prop :=
| ps_stay p' : fpre p' = true -> (fpost p' = true -> fpost (f_pcs s t) = true \/ cm = true) -> pre_step s t cm rg st (fset_pc (fwith s cm rg st) t p')
| ps_enter r : fpost (f_pcs s t) = true \/ cm = true -> pre_step s t cm rg st (fnotify (fwith s cm rg st) t r).

Lemma fstep_pre sg s e s' t :
  pre_event e = Some t -> fstep sg s e = Some s' ->
  fpre (f_pcs s t) = true /\ exists cm rg st, (f_committed s = true -> cm = true) /\ pre_step s t cm rg st s'.
Proof.
  intros He H.
  assert (Stay : forall p', fpre p' = true -> fpost p' = false -> pre_step s t (f_committed s) (f_reg s) (f_store s) (fset_pc s t p')).
  { intros p' Hp Hq. apply (ps_stay s t (f_committed s) (f_reg s) (f_store s) p' Hp). congruence. }
  destruct e; try discriminate; injection He as ->; unfold fstep in H;
    destruct (f_pcs s t) as [|c0|g| |old|nw o|oi ap|r k|r|r|r] eqn:Hpc; try discriminate; (split; [reflexivity|]);
    assert (Hq := f_equal fpost Hpc); simpl in Hq.
  - injection H as <-. exists (f_committed s), (f_reg s), (f_store s). split; [auto|]. now apply Stay.
  - exists true, (f_reg s), (f_store s). split; [auto|].
    destruct old as [o|]; [|injection H as <-; apply (ps_enter s t); auto].
    destruct (apply_changes (idx o) (map snd (f_items s))) as [|new]; [injection H as <-; apply (ps_enter s t); auto|].
    destruct (negb (is_nil new) || sg); [injection H as <-; apply (ps_stay s t true _ _ (FNeedPut new o)); auto|].
    destruct o; injection H as <-; [apply (ps_stay s t true _ _ (FNeedDel i false)); auto|apply (ps_enter s t); auto].
  - destruct fail; injection H as <-.
    + exists (f_committed s), (f_reg s), (f_store s). split; [auto|]. apply (ps_enter s t). auto.
    + exists (f_committed s), (Some nw), (nw :: f_store s). split; [auto|]. unfold fafter_put.
      destruct sg; [apply (ps_enter s t); auto|].
      destruct o; [apply (ps_stay s t _ _ _ (FNeedDel i true)); auto|apply (ps_enter s t); auto].
  - injection H as <-. exists (f_committed s), (Some nw), (nw :: f_store s). split; [auto|]. apply (ps_enter s t). auto.
  - destruct fail; injection H as <-; eexists (f_committed s), _, _; (split; [auto|]); apply (ps_enter s t); auto.
  - injection H as <-. eexists (f_committed s), _, _. split; [auto|]. apply (ps_enter s t). auto.
Qed.

Lemma stepF_pre sg s e s' t : InvF s -> pre_event e = Some t -> fstep sg s e = Some s' -> InvF s'.
Proof.
  intros I He H. destruct (fstep_pre sg s e s' t He H) as (Hp & cm & rg & st & Hc & Hs).
  apply fpre_main in Hp as Hm. pose proof (invF_with s t cm rg st I Hm Hc) as I'.
  assert (Hcm : fpost (f_pcs s t) = true \/ cm = true -> cm = true).
  { intros [E|E]; [|exact E]. apply Hc. now apply (f_com s I t). }
  destruct Hs as [p' Hp' Hq|r Hq].
  - apply invF_move_pc; [exact I'| |simpl; now rewrite !fmain_holding by now apply fpre_main].
    apply moves_pre; auto.
  - apply invF_enter; auto.
Qed.

(* with the invariant, Get on a fresh (zero) Merge is no special case: the fields that are reset
   had these values *)
Lemma fstep_get sg s t c s' : InvF s -> fstep sg s (FEGet t c) = Some s' ->
  f_pcs s t = FIdle /\
  s' = mkF (fst (pool_get (f_pool s))) (f_committed s) (f_items s) (f_pending s) (f_gen s) (f_chans s)
           (upd (f_pcs s) t (FGot c)) (f_reg s) (f_store s) (f_verdict s).
Proof.
  intros I H. simpl in H.
  destruct (f_pcs s t) eqn:Hpc; try discriminate. destruct (is_empty (cdesc c)); try discriminate.
  split; [reflexivity|]. destruct (f_pool s) eqn:Hpool; injection H as <-; [reflexivity|].
  destruct (fpool_none s I Hpool) as (_ & Ei & Ep). destruct (f_emp s I Ei) as [Ec _]. now rewrite Ei, Ep, Ec.
Qed.

Lemma stepF_get sg s t c s' : InvF s -> fstep sg s (FEGet t c) = Some s' -> InvF s'.
Proof.
  intros I H. destruct (fstep_get sg s t c s' I H) as (Hpc & ->).
  apply invF_move; [exact I|rewrite Hpc; apply moves_get|].
  apply pool_ok_get; [now rewrite Hpc|reflexivity|apply (f_pl s I)].
Qed.

Lemma stepF_done sg s t s' : InvF s -> fstep sg s (FEDone t) = Some s' -> InvF s'.
Proof.
  intros I H. simpl in H.
  destruct (f_pcs s t) as [|c|g| |old|nw o|oi ap|r k|r|r|r] eqn:Hpc; try discriminate.
  destruct (f_pool s) as [rc|] eqn:Hpool; try discriminate. injection H as <-.
  apply invF_move; [exact I|rewrite Hpc; apply moves_done|].
  change (pool_ok fholding (pool_put (Some rc)) (upd (f_pcs s) t (FDone r))). rewrite <- Hpool.
  apply pool_ok_put; [now rewrite Hpc|reflexivity|apply (f_pl s I)].
Qed.

Lemma stepF_assign sg s t s' : InvF s -> fstep sg s (FEAssign t) = Some s' -> InvF s'.
Proof.
  intros I H. simpl in H.
  destruct (f_pcs s t) as [|c|g| |old|nw o|oi ap|r k|r|r|r] eqn:Hpc; try discriminate.
  destruct (f_committed s) eqn:Hc; injection H as <-; [now apply invF_pend|now apply invF_join].
Qed.

Lemma stepF_recv sg s t s' : InvF s -> fstep sg s (FERecv t) = Some s' -> InvF s'.
Proof.
  intros I H. simpl in H.
  destruct (f_pcs s t) as [|c|g| |old|nw o|oi ap|r k|r|r|r] eqn:Hpc; try discriminate.
  destruct (f_wt s I t g Hpc) as (Hg1 & Hg2 & Hg3).
  assert (Hv : forall r, f_verdict s g = Some r ->
            (g <= f_gen s)%nat /\ (g = f_gen s -> exists tm, fwindow (f_pcs s tm) = true)).
  { intros r Hv. split.
    - destruct (Nat.le_gt_cases g (f_gen s)) as [|Hgt]; auto. destruct (f_fut s I g Hgt) as (_ & _ & A). congruence.
    - intros ->. destruct (f_vn s I r Hv) as (tm & Htm). exists tm. eapply fres_window; eauto. }
  destruct (fbuf (f_chans s g)) as [[|r]|] eqn:Hb.
  - injection H as <-. pose proof (f_vm s I g Hb) as ->. now apply (invF_take s t).
  - injection H as <-. destruct (Hv r) as [Hle Hw]; [now apply (f_vb s I)|].
    apply (invF_chan (fset_pc s t (FRet r)) g); simpl;
      [now apply (invF_wake s t g)|exact Hle|congruence|discriminate|left; congruence|discriminate|now apply (f_vc s I)].
  - destruct (fclosed (f_chans s g)) eqn:Hc; [|discriminate]. injection H as <-.
    destruct (Hv ROk) as [Hle Hw]; [now apply (f_vc s I)|]. now apply (invF_wake s t g).
Qed.

Lemma stepF_notify sg s t s' : InvF s -> fstep sg s (FENotify t) = Some s' -> InvF s'.
Proof.
  intros I H. simpl in H.
  destruct (f_pcs s t) as [|c|g| |old|nw o|oi ap|r k|r|r|r] eqn:Hpc; try discriminate.
  assert (Hw : fwindow (f_pcs s t) = true) by now rewrite Hpc.
  assert (Hv : f_verdict s (f_gen s) = Some r) by (apply (f_vw s I t); now rewrite Hpc).
  assert (Hcm : f_committed s = true) by (apply (f_com s I t); now rewrite Hpc).
  assert (Hpc' : forall p', fwindow p' = true -> fres p' = Some r -> InvF (fset_pc s t p')).
  { intros p' Hp' Hr. apply invF_move_pc; [exact I| |rewrite Hpc; now destruct p'].
    rewrite Hcm. apply moves_window; auto. now rewrite Hpc. }
  assert (Hop : forall p' c, fwindow p' = true -> fres p' = Some r ->
            fbuf c = fbuf (f_chans s (f_gen s)) /\ r = ROk \/ fbuf c = Some (FRes r) /\ fclosed c = fclosed (f_chans s (f_gen s)) ->
            InvF (fset_chan (fset_pc s t p') (f_gen s) c)).
  { pose proof (fmain_no_token s t I (fwindow_main _ Hw)) as Hnt.
    intros p' c Hp' Hr Hc. apply (invF_chan (fset_pc s t p') (f_gen s)); simpl; [now apply Hpc'|apply le_n|exact Hnt| | | |].
    - destruct Hc as [[-> _]|[-> _]]; [exact Hnt|discriminate].
    - intros _. right. exists t. now rewrite upd_eq.
    - intros r0 E. destruct Hc as [[Ec _]|[Ec _]]; [rewrite Ec in E; now apply (f_vb s I)|congruence].
    - intro E. destruct Hc as [[_ ->]|[_ Ec]]; [exact Hv|]. rewrite Ec in E. now apply (f_vc s I). }
  destruct r; [injection H as <-; apply (Hop (FSwap ROk)); auto| | |].
  all: destruct k as [|k']; [injection H as <-; now apply Hpc'|].
  all: destruct (fbuf (f_chans s (f_gen s))) eqn:Hb; [discriminate|]; injection H as <-.
  all: apply (Hop (FNotify _ k')); auto.
Qed.

Lemma stepF sg s e s' : InvF s -> fstep sg s e = Some s' -> InvF s'.
Proof.
  intros I H. destruct (pre_event e) as [t|] eqn:He; [now apply (stepF_pre sg s e s' t)|].
  destruct e; try discriminate.
  - now apply (stepF_get sg s t c).
  - now apply (stepF_assign sg s t).
  - now apply (stepF_recv sg s t).
  - now apply (stepF_notify sg s t).
  - simpl in H. destruct (f_pcs s t) eqn:Hpc; try discriminate. injection H as <-. now apply invF_swap.
  - now apply (stepF_done sg s t).
  - simpl in H. destruct (f_reg s) as [x|]; [|discriminate].
    destruct (forallb is_empty x); [|discriminate]. injection H as <-. now apply invF_reg.
Qed.

Lemma frun_inv sg tr : forall s s', InvF s -> frun sg s tr = Some s' -> InvF s'.
Proof.
  induction tr as [|e tr IH]; intros s s' I H; simpl in H.
  - now injection H as <-.
  - destruct (fstep sg s e) as [s1|] eqn:E; [|discriminate]. apply (IH s1 s'); auto. eapply stepF; eauto.
Qed.
