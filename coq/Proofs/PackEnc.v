(* Lemmas about the executable json.Marshal model (Model/PackEnc.v). *)
From Coq Require Import Sorting.Permutation.
From Oras Require Import Base.Prelude Base.Regex Generated.GC19 Model.Pack Model.PackEnc Proofs.Pack.

(* str_ltb is the bytewise order of strings.Compare *)
Lemma str_ltb_irrefl x : str_ltb x x = false.
Proof. induction x as [|c x IH]; simpl; auto. now rewrite N.ltb_irrefl, N.eqb_refl, IH. Qed.

Lemma str_ltb_trans x y z : str_ltb x y = true -> str_ltb y z = true -> str_ltb x z = true.
Proof.
  revert y z. induction x as [|c x IH]; intros [|d y] [|e z]; simpl; auto; try discriminate.
  intros A B. apply orb_true_iff in A, B. apply orb_true_iff.
  destruct A as [A | A]; destruct B as [B | B].
  - left. apply N.ltb_lt in A, B. apply N.ltb_lt. lia.
  - apply andb_true_iff in B as [B _]. apply N.eqb_eq in B. subst. now left.
  - apply andb_true_iff in A as [A _]. apply N.eqb_eq in A. subst. now left.
  - apply andb_true_iff in A as [A1 A2]. apply andb_true_iff in B as [B1 B2].
    apply N.eqb_eq in A1, B1. subst. right. rewrite N.eqb_refl. simpl. eapply IH; eauto.
Qed.

Lemma str_ltb_asym x y : str_ltb x y = true -> str_ltb y x = false.
Proof.
  intro A. destruct (str_ltb y x) eqn:B; auto.
  pose proof (str_ltb_trans _ _ _ A B) as C. now rewrite str_ltb_irrefl in C.
Qed.

Lemma str_ltb_total x y : x <> y -> str_ltb x y = true \/ str_ltb y x = true.
Proof.
  revert y. induction x as [|c x IH]; intros [|d y] N; simpl; auto; try congruence.
  destruct (N.lt_trichotomy c d) as [L | [E | G]].
  - left. apply N.ltb_lt in L. now rewrite L.
  - subst d. rewrite N.ltb_irrefl, N.eqb_refl. simpl.
    apply IH. intro E. apply N. now subst.
  - right. apply N.ltb_lt in G. now rewrite G.
Qed.

Lemma kv_insert_comm p q l :
  fst p <> fst q -> kv_insert p (kv_insert q l) = kv_insert q (kv_insert p l).
Proof.
  intro N. induction l as [|x l IH]; simpl.
  - destruct (str_ltb_total _ _ N) as [A | A]; rewrite A, (str_ltb_asym _ _ A); reflexivity.
  - destruct (str_ltb (fst q) (fst x)) eqn:Q; destruct (str_ltb (fst p) (fst x)) eqn:P; simpl.
    + destruct (str_ltb_total _ _ N) as [A | A]; rewrite A, (str_ltb_asym _ _ A); simpl.
      * now rewrite Q.
      * now rewrite P.
    + rewrite Q.
      destruct (str_ltb (fst p) (fst q)) eqn:A.
      * rewrite (str_ltb_trans _ _ _ A Q) in P. discriminate.
      * simpl. now rewrite P.
    + rewrite P.
      destruct (str_ltb (fst q) (fst p)) eqn:A.
      * rewrite (str_ltb_trans _ _ _ A P) in Q. discriminate.
      * simpl. now rewrite Q.
    + rewrite P, Q. now rewrite IH.
Qed.

Lemma kv_sort_perm l l' :
  NoDup (map fst l) -> Permutation l l' -> kv_sort l = kv_sort l'.
Proof.
  intros N P. induction P as [| x l l' P IH | x y l | l l' l'' P1 IH1 P2 IH2].
  - reflexivity.
  - simpl. rewrite IH; auto. now inversion N.
  - simpl. apply kv_insert_comm. simpl in N. inversion N as [|? ? NI _]. intro E. apply NI. simpl. auto.
  - rewrite IH1 by exact N. apply IH2.
    eapply Permutation_NoDup; [|exact N]. now apply Permutation_map.
Qed.

Theorem json_ann_perm l l' :
  NoDup (map fst l) -> Permutation l l' -> json_ann l = json_ann l'.
Proof. intros N P. unfold json_ann. now rewrite (kv_sort_perm l l' N P). Qed.

Lemma nonempty_perm {A} (l l' : list A) : Permutation l l' -> nonempty l = nonempty l'.
Proof.
  intro P. destruct l, l'; auto.
  - apply Permutation_nil in P. discriminate.
  - apply Permutation_sym, Permutation_nil in P. discriminate.
Qed.

Theorem json_manifest_perm k c l sj a ann ann' :
  NoDup (map fst ann) -> Permutation ann ann' ->
  json_manifest (mkManifest k c l sj a ann) = json_manifest (mkManifest k c l sj a ann').
Proof.
  intros N P. pose proof (nonempty_perm _ _ P) as E.
  unfold json_manifest. cbn [m_kind m_config m_layers m_subject m_at m_ann].
  rewrite (json_ann_perm _ _ N P).
  destruct ann; destruct ann'; simpl in E; try discriminate; reflexivity.
Qed.

Lemma json_manifest_shape m : exists body, json_manifest m = 123 :: body ++ [125].
Proof. unfold json_manifest, json_obj. destruct (m_kind m); eexists; reflexivity. Qed.

(* with the executable json.Marshal the order independence needs no premise about marshalling *)
Theorem deterministic_perm_json (H : str -> str) (H_empty : H empty_json = empty_json_digest)
        f at_ o o' v tc1 fa1 s1 now1 s1' d1 m1 tc2 fa2 s2 now2 s2' d2 m2 :
  NoDup (map fst (o_ann o)) -> Permutation (o_ann o) (o_ann o') -> same_but_ann o o' ->
  ann_get (created_key f) (o_ann o) = Some v ->
  pack json_manifest H f tc1 fa1 s1 at_ o now1 = (s1', Ok d1 m1) ->
  pack json_manifest H f tc2 fa2 s2 at_ o' now2 = (s2', Ok d2 m2) ->
  d_dg d1 = d_dg d2 /\ d_sz d1 = d_sz d2 /\ d_mt d1 = d_mt d2 /\ d_at d1 = d_at d2 /\
  d_extra d1 = d_extra d2 /\ Permutation (d_ann d1) (d_ann d2) /\
  json_manifest m1 = json_manifest m2.
Proof.
  intros N P S G P1 P2.
  assert (G' : ann_get (created_key f) (o_ann o') = Some v) by (rewrite <- (ann_get_perm _ _ _ N P); exact G).
  destruct (supplied_calls json_manifest H H_empty _ _ _ _ _ _ _ _ _ _ _ _ _ _ _ _ _ _ _ _ S G G' P1 P2)
    as (k & c & l & sj & a & -> & -> & -> & ->).
  unfold result_desc. cbn [m_kind m_ann m_config m_at d_dg d_sz d_mt d_at d_ann d_extra].
  rewrite (json_manifest_perm k c l sj a _ _ N P). repeat split; auto.
Qed.

Lemma unesc_raw c t : 128 <= c -> json_unesc (c :: t) = option_map (cons c) (json_unesc t).
Proof.
  intro G. simpl.
  assert (E1 : (c =? 92) = false) by (apply N.eqb_neq; lia).
  assert (E2 : (c =? 34) = false) by (apply N.eqb_neq; lia).
  assert (E3 : (c <? 32) = false) by (apply N.ltb_ge; lia).
  now rewrite E1, E2, E3.
Qed.

Lemma unesc_fffd t : json_unesc (esc_fffd ++ t) = option_map (app ufffd) (json_unesc t).
Proof. reflexivity. Qed.

Lemma unesc_2028 b2 t :
  b2 = 168 \/ b2 = 169 ->
  json_unesc (esc_2028 b2 ++ t) = option_map (app [226; 128; b2]) (json_unesc t).
Proof. intros [-> | ->]; reflexivity. Qed.

Lemma unhex_hex_digit n : n < 16 -> unhex (hex_digit n) = Some n.
Proof.
  intro L. unfold hex_digit, unhex, in_rng.
  destruct (n <? 10) eqn:A.
  - apply N.ltb_lt in A.
    assert (E : (48 <=? 48 + n) && (48 + n <=? 57) = true)
      by (apply andb_true_iff; split; apply N.leb_le; lia).
    rewrite E. f_equal. lia.
  - apply N.ltb_ge in A.
    assert (E0 : (48 <=? 87 + n) && (87 + n <=? 57) = false)
      by (apply andb_false_iff; right; apply N.leb_gt; lia).
    assert (E : (97 <=? 87 + n) && (87 + n <=? 102) = true)
      by (apply andb_true_iff; split; apply N.leb_le; lia).
    rewrite E0, E. f_equal. lia.
Qed.

Lemma unesc_u00 c t : c < 128 -> json_unesc (esc_u00 c ++ t) = option_map (cons c) (json_unesc t).
Proof.
  intro L. unfold esc_u00. cbn [app json_unesc N.eqb Pos.eqb].
  change (unhex 48) with (Some 0).
  rewrite (unhex_hex_digit (c / 16)) by (apply N.div_lt_upper_bound; lia).
  rewrite (unhex_hex_digit (c mod 16)) by (apply N.mod_lt; lia).
  assert (E : ((0 * 16 + 0) * 16 + c / 16) * 16 + c mod 16 = c).
  { rewrite (N.div_mod c 16) at 3 by lia. lia. }
  rewrite E. unfold utf8_enc. apply N.ltb_lt in L. now rewrite L.
Qed.

Lemma unesc_ascii c t : c < 128 -> json_unesc (esc_ascii c ++ t) = option_map (cons c) (json_unesc t).
Proof.
  intro L. unfold esc_ascii.
  destruct ((c =? 34) || (c =? 92)) eqn:Q.
  { apply orb_true_iff in Q as [Q | Q]; apply N.eqb_eq in Q; subst; reflexivity. }
  apply orb_false_iff in Q as [Q1 Q2].
  destruct (c =? 8) eqn:E8; [apply N.eqb_eq in E8; subst; reflexivity|].
  destruct (c =? 12) eqn:E12; [apply N.eqb_eq in E12; subst; reflexivity|].
  destruct (c =? 10) eqn:E10; [apply N.eqb_eq in E10; subst; reflexivity|].
  destruct (c =? 13) eqn:E13; [apply N.eqb_eq in E13; subst; reflexivity|].
  destruct (c =? 9) eqn:E9; [apply N.eqb_eq in E9; subst; reflexivity|].
  destruct ((c <? 32) || (c =? 60) || (c =? 62) || (c =? 38)) eqn:U; [now apply unesc_u00|].
  apply orb_false_iff in U as [U _]. apply orb_false_iff in U as [U _]. apply orb_false_iff in U as [U _].
  simpl. now rewrite Q2, Q1, U.
Qed.

Lemma cont_ge c : utf8_cont c = true -> 128 <= c.
Proof. unfold utf8_cont, in_rng. intro E. apply andb_true_iff in E as [E _]. now apply N.leb_le in E. Qed.

Lemma three_ge b0 b1 : utf8_three b0 b1 = true -> 128 <= b1.
Proof.
  unfold utf8_three, utf8_cont, in_rng.
  rewrite !orb_true_iff, !andb_true_iff, !N.leb_le, !N.eqb_eq. lia.
Qed.

Lemma four_ge b0 b1 : utf8_four b0 b1 = true -> 128 <= b1.
Proof.
  unfold utf8_four, utf8_cont, in_rng.
  rewrite !orb_true_iff, !andb_true_iff, !N.leb_le, !N.eqb_eq. lia.
Qed.

Lemma unesc_esc_n n : forall s, (length s <= n)%nat -> json_unesc (json_esc s) = Some (utf8_san s).
Proof.
  induction n as [|n IH]; intros s L.
  { destruct s; [reflexivity | simpl in L; lia]. }
  destruct s as [|b0 r1]; [reflexivity|].
  assert (IH1 : json_unesc (json_esc r1) = Some (utf8_san r1)) by (apply IH; simpl in L; lia).
  cbn [json_esc utf8_san].
  destruct (b0 <? 128) eqn:A.
  { apply N.ltb_lt in A. now rewrite unesc_ascii, IH1. }
  apply N.ltb_ge in A.
  destruct r1 as [|b1 r2]; [reflexivity|].
  assert (IH2 : json_unesc (json_esc r2) = Some (utf8_san r2)) by (apply IH; simpl in L; lia).
  destruct (in_rng 194 223 b0 && utf8_cont b1) eqn:B.
  { apply andb_true_iff in B as [_ B]. apply cont_ge in B.
    now rewrite (unesc_raw b0) by lia; rewrite (unesc_raw b1) by lia; rewrite IH2. }
  destruct r2 as [|b2 r3]; [now rewrite unesc_fffd, IH1|].
  assert (IH3 : json_unesc (json_esc r3) = Some (utf8_san r3)) by (apply IH; simpl in L; lia).
  destruct (utf8_three b0 b1 && utf8_cont b2) eqn:C.
  { apply andb_true_iff in C as [C1 C2]. apply three_ge in C1. apply cont_ge in C2.
    destruct ((b0 =? 226) && (b1 =? 128) && ((b2 =? 168) || (b2 =? 169))) eqn:S.
    - apply andb_true_iff in S as [S S3]. apply andb_true_iff in S as [S1 S2].
      apply N.eqb_eq in S1, S2. subst b0 b1.
      rewrite unesc_2028, IH3; [reflexivity|].
      apply orb_true_iff in S3 as [S3 | S3]; apply N.eqb_eq in S3; auto.
    - now rewrite (unesc_raw b0) by lia; rewrite (unesc_raw b1) by lia; rewrite (unesc_raw b2) by lia; rewrite IH3. }
  destruct r3 as [|b3 r4]; [now rewrite unesc_fffd, IH1|].
  assert (IH4 : json_unesc (json_esc r4) = Some (utf8_san r4)) by (apply IH; simpl in L; lia).
  destruct (utf8_four b0 b1 && utf8_cont b2 && utf8_cont b3) eqn:D.
  { apply andb_true_iff in D as [D D3]. apply andb_true_iff in D as [D1 D2].
    apply four_ge in D1. apply cont_ge in D2, D3.
    now rewrite (unesc_raw b0) by lia; rewrite (unesc_raw b1) by lia; rewrite (unesc_raw b2) by lia;
      rewrite (unesc_raw b3) by lia; rewrite IH4. }
  now rewrite unesc_fffd, IH1.
Qed.

(* json.Marshal then Unmarshal of a Go string gives its UTF-8 coercion: for strings, the premise
   json_roundtrip of C19_stored_parses is a theorem *)
Theorem json_string_roundtrip s : json_unesc (json_esc s) = Some (utf8_san s).
Proof. apply (unesc_esc_n (length s)). lia. Qed.

Corollary json_string_roundtrip_clean s : utf8_san s = s -> json_unesc (json_esc s) = Some s.
Proof. intro C. now rewrite json_string_roundtrip, C. Qed.

Corollary json_esc_injective_clean s t :
  utf8_san s = s -> utf8_san t = t -> json_esc s = json_esc t -> s = t.
Proof.
  intros Cs Ct E. pose proof (json_string_roundtrip_clean s Cs) as A.
  rewrite E, (json_string_roundtrip_clean t Ct) in A. congruence.
Qed.

From Oras Require Import Model.PackSha.

(* the one hypothesis about the digest function holds for the modelled SHA-256, by computation *)
Lemma digest_of_empty_json : digest_of empty_json = empty_json_digest.
Proof. vm_compute. reflexivity. Qed.

(* so every theorem of C19 applies to the fully executable model; e.g. the descriptor it returns *)
Theorem executable_instance_consistent f tc fa s at_ o now s' d m :
  pack json_manifest digest_of f tc fa s at_ o now = (s', Ok d m) ->
  exists ann,
    ensure_created (o_ann o) (created_key f) now = Some ann /\
    m = requested_manifest digest_of f at_ o ann /\
    d_dg d = digest_of (json_manifest m) /\
    d_sz d = Z.of_nat (length (json_manifest m)) /\
    d_mt d = kind_mt (m_kind m) /\ d_ann d = m_ann m /\
    stored (t_key tc) (s_store s') d = true.
Proof.
  intro P. destruct (ok_consistent json_manifest digest_of digest_of_empty_json _ _ _ _ _ _ _ _ _ _ P)
    as (ann & evs & EC & -> & -> & _ & _ & St & _).
  exists ann. repeat split; auto.
Qed.

(* read_body is json_unesc that stops at the closing quote *)
Lemma read_body_unesc n : forall s x rest,
  (length s <= n)%nat -> json_unesc s = Some x -> read_body (s ++ 34 :: rest) = Some (x, rest).
Proof.
  induction n as [|n IH]; intros [|c r] x rest L; try (simpl in L; lia); try (intros [= <-]; reflexivity).
  cbn [json_unesc read_body app]. destruct (c =? 92) eqn:E92.
  - apply N.eqb_eq in E92. subst c. cbn [N.eqb Pos.eqb]. destruct r as [|e r']; [discriminate|]. cbn [app].
    destruct (e =? 117).
    + destruct r' as [|h1 [|h2 [|h3 [|h4 r'']]]]; try discriminate. cbn [app].
      destruct (unhex h1), (unhex h2), (unhex h3), (unhex h4); try discriminate.
      destruct (json_unesc r'') as [y|] eqn:U; [|discriminate]. intros [= <-].
      rewrite (IH r'' y rest); [reflexivity | simpl in L; lia | exact U].
    + destruct (simple_esc e); [|discriminate].
      destruct (json_unesc r') as [y|] eqn:U; [|discriminate]. intros [= <-].
      rewrite (IH r' y rest); [reflexivity | simpl in L; lia | exact U].
  - destruct (c =? 34); [discriminate|]. destruct (c <? 32); [discriminate|]. cbn [orb].
    destruct (json_unesc r) as [y|] eqn:U; [|discriminate]. intros [= <-].
    rewrite (IH r y rest); [reflexivity | simpl in L; lia | exact U].
Qed.

Lemma read_string_json s rest : read_string (json_string s ++ rest) = Some (utf8_san s, rest).
Proof.
  unfold json_string, read_string. cbn [app]. rewrite <- app_assoc.
  apply (read_body_unesc (length (json_esc s))); [lia | apply json_string_roundtrip].
Qed.

Definition json_pair (p : kv) : str := json_string (fst p) ++ 58 :: json_string (snd p).

Lemma read_pair_json p rest :
  read_pair (json_pair p ++ rest) = Some ((utf8_san (fst p), utf8_san (snd p)), rest).
Proof.
  unfold read_pair, json_pair. rewrite <- app_assoc. rewrite read_string_json. cbn [app].
  now rewrite read_string_json.
Qed.

Fixpoint obj_tail (l : list kv) : str :=
  match l with
  | [] => [125]
  | p :: l' => 44 :: json_pair p ++ obj_tail l'
  end.

Lemma read_more_obj_tail l : forall fuel rest, (length l < fuel)%nat ->
  read_more fuel (obj_tail l ++ rest) = Some (san_ann l, rest).
Proof.
  induction l as [|p l IH]; intros fuel rest L; destruct fuel as [|f]; try (simpl in L; lia).
  - reflexivity.
  - cbn [obj_tail app read_more]. rewrite <- app_assoc, read_pair_json.
    rewrite IH by (simpl in L; lia). reflexivity.
Qed.

Lemma json_obj_pairs p l : json_obj (map json_pair (p :: l)) = 123 :: json_pair p ++ obj_tail l.
Proof.
  unfold json_obj. f_equal. revert p. induction l as [|q l IH]; intro p.
  - simpl. reflexivity.
  - change (join comma (map json_pair (p :: q :: l))) with (json_pair p ++ comma ++ join comma (map json_pair (q :: l))).
    rewrite <- app_assoc. f_equal. rewrite <- app_assoc. unfold comma. cbn [app obj_tail]. f_equal. apply IH.
Qed.

Lemma obj_tail_length l : (length l < length (obj_tail l))%nat.
Proof.
  induction l as [|p l IH]; simpl; [lia|]. rewrite app_length. lia.
Qed.

Lemma read_obj_pairs l rest :
  read_obj (json_obj (map json_pair l) ++ rest) = Some (san_ann l, rest).
Proof.
  destruct l as [|p l]; [reflexivity|].
  rewrite json_obj_pairs. cbn [app]. rewrite <- app_assoc.
  remember (json_pair p ++ obj_tail l ++ rest) as body eqn:EB.
  assert (HB : exists Z, body = 34 :: Z).
  { subst body. unfold json_pair, json_string. cbn [app]. eexists. reflexivity. }
  destruct HB as (Z & EZ).
  unfold read_obj. rewrite EZ. cbv beta iota. rewrite <- EZ, EB.
  rewrite read_pair_json. rewrite read_more_obj_tail; [reflexivity|].
  simpl. rewrite !app_length. pose proof (obj_tail_length l). lia.
Qed.

Theorem json_ann_roundtrip l rest :
  read_obj (json_ann l ++ rest) = Some (san_ann (kv_sort l), rest).
Proof. unfold json_ann. apply (read_obj_pairs (kv_sort l) rest). Qed.

Lemma strip_prefix_app p t : strip_prefix p (p ++ t) = Some t.
Proof. induction p as [|c p IH]; simpl; auto. now rewrite N.eqb_refl. Qed.

Lemma join_head x l : exists t, join comma (x :: l) = x ++ t /\ (t = [] \/ exists t', t = 44 :: t').
Proof.
  destruct l as [|y l]; [exists []; split; [simpl; now rewrite app_nil_r | now left]|].
  exists (comma ++ join comma (y :: l)). split; [reflexivity | right; eexists; reflexivity].
Qed.

Lemma join_cons x y l : join comma (x :: y :: l) = x ++ comma ++ join comma (y :: l).
Proof. reflexivity. Qed.

Lemma read_field_json name v rest :
  read_field name (field name (json_string v) ++ rest) = Some (utf8_san v, rest).
Proof.
  unfold read_field, field.
  assert (E : (json_string (b name) ++ 58 :: json_string v) ++ rest
              = (json_string (b name) ++ [58]) ++ json_string v ++ rest)
    by (rewrite <- !app_assoc; reflexivity).
  rewrite E, strip_prefix_app. apply read_string_json.
Qed.

Lemma json_manifest_head m :
  exists rest,
    json_manifest m =
    match m_kind m with
    | KImage =>
        123 :: (field "schemaVersion" [50] ++ comma) ++ field "mediaType" (json_string (kind_mt KImage)) ++ comma ++
        match m_at m with [] => [] | a => field "artifactType" (json_string a) ++ comma end ++
        field "config" (json_desc (match m_config m with Some c => c | None => zero_desc end)) ++ comma ++ rest
    | KArtifact =>
        123 :: field "mediaType" (json_string (kind_mt KArtifact)) ++ comma ++
        field "artifactType" (json_string (m_at m)) ++ rest
    end.
Proof.
  unfold json_manifest, json_obj. destruct (m_kind m).
  - destruct (m_at m); cbn [nonempty opt_field app]; rewrite !join_cons; eexists;
      repeat rewrite <- app_assoc; cbn [app]; reflexivity.
  - cbn [app]. rewrite join_cons.
    match goal with |- context [join comma (?x :: ?l)] => destruct (join_head x l) as (t & -> & _) end.
    eexists. repeat rewrite <- app_assoc. cbn [app]. reflexivity.
Qed.

Lemma no_schema_version k t :
  strip_prefix (field "schemaVersion" [50] ++ comma) (field "mediaType" (json_string (kind_mt k)) ++ t) = None.
Proof. destruct k; reflexivity. Qed.

Theorem doc_media_type_json m : doc_media_type (json_manifest m) = Some (kind_mt (m_kind m)).
Proof.
  destruct (json_manifest_head m) as (rest & ->). unfold doc_media_type.
  destruct (m_kind m); cbn [strip_prefix N.eqb Pos.eqb]; rewrite ?strip_prefix_app, ?no_schema_version, read_field_json;
    reflexivity.
Qed.

Theorem doc_artifact_type_json m :
  doc_artifact_type (json_manifest m) =
  match m_kind m, m_at m with
  | KImage, [] => None
  | _, a => Some (utf8_san a)
  end.
Proof.
  destruct (json_manifest_head m) as (rest & ->). unfold doc_artifact_type.
  destruct (m_kind m); cbn [strip_prefix N.eqb Pos.eqb]; rewrite ?strip_prefix_app, ?no_schema_version, read_field_json.
  - destruct (m_at m); cbn [app]; rewrite strip_prefix_app, <- ?app_assoc, ?read_field_json; reflexivity.
  - rewrite strip_prefix_app, read_field_json. now destruct (m_at m).
Qed.

(* "those bytes parse as a manifest of the returned media type": with the modelled json.Marshal, the
   document stored under the returned descriptor declares that descriptor's media type, and the artifact
   type of the requested manifest (coerced to UTF-8) exactly when the manifest has one *)
Theorem stored_document_declares (H : str -> str) (H_empty : H empty_json = empty_json_digest)
        (H_inj : forall x y, H x = H y -> x = y) f tc fa s at_ o now s' d m :
  wf_store H (s_store s) ->
  pack json_manifest H f tc fa s at_ o now = (s', Ok d m) ->
  exists e, In e (s_store s') /\ same_key (t_key tc) d e = true /\
            doc_media_type (e_bytes e) = Some (d_mt d) /\
            doc_artifact_type (e_bytes e) =
              match m_kind m, m_at m with KImage, [] => None | _, a => Some (utf8_san a) end.
Proof.
  intros W P.
  destruct (ok_descriptor_describes_stored json_manifest H H_empty _ _ _ _ _ _ _ _ _ _ W P)
    as (_ & _ & MT & e & I & K & _ & B).
  destruct (B H_inj) as (EB & _). exists e. split; auto. split; auto.
  rewrite EB, doc_media_type_json, doc_artifact_type_json, MT. auto.
Qed.
