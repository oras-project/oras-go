(* C12: restoreDirModes in its real order.  chmod(2) by the owner needs search permission on
   every directory above; because the directories are handled deepest first, every directory
   above the one being changed still has its creation mode (mode | 0700): no chmod is refused,
   and the result is the one of [finish_dirs] (which ignores the order). *)
From Coq Require Import Permutation Sorted.
From Oras Require Import Base.Prelude Model.TarRoundTrip Proofs.TarRoundTrip Proofs.TarModeSweep
  Proofs.TarRootMode Proofs.TarUnprivileged.

Definition proper_prefix (q p : path) : Prop := exists r, r <> [] /\ p = q ++ r.

Lemma proper_prefix_shorter q p : proper_prefix q p -> (length q < length p)%nat.
Proof. intros (r & Hr & ->). rewrite app_length. destruct r; [contradiction|simpl; lia]. Qed.

Definition all_dirs_x (f : fs) : Prop := forall p m, fs_lookup f p = Some (NDir m) -> has_x m = true.

Lemma ancestors_x_prefixes f : forall p,
  (forall q, proper_prefix q p -> forall m, fs_lookup f q = Some (NDir m) -> has_x m = true) ->
  ancestors_x f (rev p) = true.
Proof.
  induction p as [|x p IH] using rev_ind; intro H; [reflexivity|].
  rewrite rev_app_distr. simpl. rewrite rev_involutive, IH.
  - destruct (fs_lookup f p) as [[| m |]|] eqn:E; try reflexivity.
    rewrite (H p) with (m := m); [reflexivity | exists [x]; split; [discriminate | reflexivity] | exact E].
  - intros q (r & Hr & ->). apply H. exists (r ++ [x]). split; [now destruct r | now rewrite app_assoc].
Qed.

Definition settled (pre : path) (preserve : bool) (es : list entry) (f0 : fs) (q : path) : option node :=
  match last_dir_mode pre q es, fs_lookup f0 q with
  | Some m, Some (NDir cur) => Some (NDir (final_dir_mode preserve cur m))
  | _, _ => fs_lookup f0 q
  end.

Lemma existsb_path_in q l : existsb (path_eqb q) l = true <-> In q l.
Proof.
  rewrite existsb_exists. split.
  - intros (x & Hx & E). apply path_eqb_spec in E. now subst.
  - intro H. exists q. split; [exact H|apply path_eqb_refl].
Qed.

Lemma path_eqb_sym p q : path_eqb p q = path_eqb q p.
Proof.
  destruct (path_eqb q p) eqn:E; [apply path_eqb_spec in E; subst; apply path_eqb_refl|].
  apply path_eqb_neq. intros ->. rewrite path_eqb_refl in E. discriminate.
Qed.

Lemma restore_step_ok priv pre preserve es f p :
  priv || ancestors_x f (rev p) = true ->
  exists f1, restore_step priv pre preserve es f p = Ok f1 /\
    forall q, fs_lookup f1 q = if path_eqb p q then settled pre preserve es f p else fs_lookup f q.
Proof.
  intro Hx. unfold restore_step, settled.
  assert (Same : exists f1, Ok f = Ok f1 /\
            forall q, fs_lookup f1 q = if path_eqb p q then fs_lookup f p else fs_lookup f q).
  { exists f. split; [reflexivity|]. intro q. destruct (path_eqb p q) eqn:E; [|reflexivity].
    apply path_eqb_spec in E. now subst. }
  destruct (last_dir_mode pre p es) as [m|]; [|destruct (fs_lookup f p) as [[]|]; exact Same].
  destruct (fs_lookup f p) as [[c m0|cur|g]|]; try exact Same.
  rewrite Hx. eexists. split; [reflexivity|]. intro q. apply lookup_set.
Qed.

Lemma restore_in_order_ok priv pre preserve es f0 : all_dirs_x f0 -> forall order f done,
  (forall q, ~ In q done -> fs_lookup f q = fs_lookup f0 q) ->
  NoDup (done ++ order) ->
  (forall l1 p l2, order = l1 ++ p :: l2 -> forall q, In q (done ++ l1) -> ~ proper_prefix q p) ->
  exists f', restore_in_order priv pre preserve es f order = Ok f' /\
    forall q, fs_lookup f' q = if existsb (path_eqb q) order then settled pre preserve es f0 q else fs_lookup f q.
Proof.
  intro Hx. induction order as [|p order IH]; intros f done Hag Hnd Hanc.
  - exists f. split; [reflexivity|]. intro q. reflexivity.
  - assert (Hp : ~ In p done).
    { intro Hin. apply NoDup_remove_2 in Hnd. apply Hnd. apply in_or_app. now left. }
    destruct (restore_step_ok priv pre preserve es f p) as (f1 & E1 & L1).
    { apply orb_true_iff. right. apply ancestors_x_prefixes. intros q Hq m1 Hm1. apply (Hx q m1).
      rewrite <- Hag; [exact Hm1|]. intro Hin.
      apply (Hanc [] p order eq_refl q); [rewrite app_nil_r; exact Hin|exact Hq]. }
    assert (Es : settled pre preserve es f p = settled pre preserve es f0 p)
      by (unfold settled; now rewrite (Hag p Hp)).
    destruct (IH f1 (done ++ [p])) as (f' & E' & L').
    + intros q Hq. rewrite L1. destruct (path_eqb p q) eqn:Eq.
      * apply path_eqb_spec in Eq. subst q. exfalso. apply Hq. apply in_or_app. right. now left.
      * apply Hag. intro Hin. apply Hq. apply in_or_app. now left.
    + rewrite <- app_assoc. exact Hnd.
    + intros l1 p' l2 E q Hq. apply (Hanc (p :: l1) p' l2); [simpl; now rewrite E|].
      rewrite <- app_assoc in Hq. exact Hq.
    + exists f'. split; [simpl; rewrite E1; exact E'|]. intro q. rewrite L'. simpl.
      destruct (existsb (path_eqb q) order); [now rewrite orb_true_r|].
      rewrite orb_false_r, L1, (path_eqb_sym q p). destruct (path_eqb p q) eqn:Eq; [|reflexivity].
      apply path_eqb_spec in Eq. now subst q.
Qed.

Lemma insert_by_depth_perm p l : Permutation (insert_by_depth p l) (p :: l).
Proof.
  induction l as [|q l IH]; simpl; [reflexivity|].
  destruct (length q <=? length p)%nat; [|reflexivity]. rewrite IH. apply perm_swap.
Qed.

Lemma sort_by_depth_perm l : Permutation (sort_by_depth l) l.
Proof.
  induction l as [|p l IH]; [reflexivity|]. unfold sort_by_depth in *. simpl.
  rewrite insert_by_depth_perm. now constructor.
Qed.

Definition depth_le (a c : path) : Prop := (length a <= length c)%nat.

Lemma insert_by_depth_sorted p l : StronglySorted depth_le l -> StronglySorted depth_le (insert_by_depth p l).
Proof.
  induction l as [|q l IH]; simpl; intro Hs; [repeat constructor|].
  inversion Hs as [|? ? Hs' Hq]; subst.
  destruct (length q <=? length p)%nat eqn:E.
  - apply Nat.leb_le in E. constructor; [now apply IH|].
    apply (Permutation_Forall (Permutation_sym (insert_by_depth_perm p l))). constructor; [exact E|exact Hq].
  - apply Nat.leb_gt in E. constructor; [exact Hs|]. constructor; [unfold depth_le; lia|].
    eapply Forall_impl; [|exact Hq]. unfold depth_le. intros; lia.
Qed.

Lemma sort_by_depth_sorted l : StronglySorted depth_le (sort_by_depth l).
Proof.
  induction l as [|p l IH]; [constructor|]. unfold sort_by_depth in *. simpl. now apply insert_by_depth_sorted.
Qed.

Lemma sorted_after a : forall l x c, StronglySorted depth_le (l ++ x :: c) -> In a c -> depth_le x a.
Proof.
  induction l as [|y l IH]; intros x c Hs Hin; simpl in Hs; inversion Hs as [|? ? Hs' Hf]; subst.
  - rewrite Forall_forall in Hf. now apply Hf.
  - eapply IH; eauto.
Qed.

Lemma rev_sorted_no_ancestor l : StronglySorted depth_le l ->
  forall l1 p l2, rev l = l1 ++ p :: l2 -> forall q, In q l1 -> ~ proper_prefix q p.
Proof.
  intros Hs l1 p l2 E q Hq Hpp.
  assert (El : l = rev l2 ++ p :: rev l1).
  { rewrite <- (rev_involutive l), E, rev_app_distr. simpl. now rewrite <- app_assoc. }
  rewrite El in Hs. pose proof (sorted_after q (rev l2) p (rev l1) Hs (proj1 (in_rev l1 q) Hq)) as Hd.
  apply proper_prefix_shorter in Hpp. unfold depth_le in Hd. lia.
Qed.

Lemma dedup_in l p : In p (dedup l) <-> In p l.
Proof.
  induction l as [|q l IH]; simpl; [tauto|].
  destruct (existsb (path_eqb q) (dedup l)) eqn:E.
  - apply existsb_path_in in E. split.
    + intro H. right. now apply IH.
    + intros [<-|H]; [exact E|now apply IH].
  - simpl. rewrite IH. tauto.
Qed.

Lemma dedup_nodup l : NoDup (dedup l).
Proof.
  induction l as [|q l IH]; simpl; [constructor|].
  destruct (existsb (path_eqb q) (dedup l)) eqn:E; [exact IH|].
  constructor; [|exact IH]. intro Hin. apply existsb_path_in in Hin. rewrite Hin in E. discriminate.
Qed.

Lemma last_dir_mode_in pre es p m : last_dir_mode pre p es = Some m -> In p (dir_paths pre es).
Proof.
  revert m. induction es as [|e es IH]; intro m; simpl; [discriminate|].
  destruct (last_dir_mode pre p es) as [m'|] eqn:El.
  - intros _. specialize (IH m' eq_refl).
    destruct (e_kind e); try exact IH. destruct (strip_prefix pre (e_name e)); [now right|exact IH].
  - destruct (e_kind e); try discriminate.
    destruct (strip_prefix pre (e_name e)) as [rel|]; [|discriminate].
    destruct (path_eqb rel p) eqn:E; [|discriminate]. apply path_eqb_spec in E. subst. intros _. now left.
Qed.

Lemma restore_order_in pre es p m : last_dir_mode pre p es = Some m -> In p (restore_order pre es).
Proof.
  intro H. unfold restore_order. apply -> in_rev.
  apply (Permutation_in _ (Permutation_sym (sort_by_depth_perm _))). apply dedup_in.
  eapply last_dir_mode_in; eauto.
Qed.

Lemma restore_order_nodup pre es : NoDup (restore_order pre es).
Proof.
  unfold restore_order. apply NoDup_rev.
  apply (Permutation_NoDup (Permutation_sym (sort_by_depth_perm _))). apply dedup_nodup.
Qed.

Theorem restore_order_ok priv pre preserve es f0 :
  all_dirs_x f0 ->
  exists f', restore_in_order priv pre preserve es f0 (restore_order pre es) = Ok f' /\
    forall q, fs_lookup f' q = fs_lookup (finish_dirs pre preserve es f0) q.
Proof.
  intro Hx.
  destruct (restore_in_order_ok priv pre preserve es f0 Hx (restore_order pre es) f0 []) as (f' & E & L).
  - reflexivity.
  - simpl. apply restore_order_nodup.
  - intros l1 p l2 Eo q Hq. simpl in Hq.
    exact (rev_sorted_no_ancestor _ (sort_by_depth_sorted _) l1 p l2 Eo q Hq).
  - exists f'. split; [exact E|]. intro q. rewrite L. unfold finish_dirs. rewrite finish_lookup. unfold settled.
    destruct (existsb (path_eqb q) (restore_order pre es)) eqn:Eo; [reflexivity|].
    destruct (last_dir_mode pre q es) as [m|] eqn:El; [|destruct (fs_lookup f0 q) as [[]|]; reflexivity].
    exfalso. apply (restore_order_in pre es q m) in El. apply existsb_path_in in El. rewrite El in Eo. discriminate.
Qed.

Lemma extract_list_wx pre umask preserve : umask_keeps_wx umask -> forall es f f',
  all_dirs_wx f -> extract_list pre umask preserve f es = Ok f' -> all_dirs_wx f'.
Proof.
  intro Hu. induction es as [|e es IH]; intros f f' Hf E; simpl in E; [injection E as <-; exact Hf|].
  destruct (extract_entry pre umask preserve f e) as [f1|] eqn:E1; [|discriminate].
  eapply IH; [|exact E]. eapply step_wx; eauto.
Qed.

(* the extraction with restoreDirModes step by step in its real order and with the kernel's
   check on every chmod gives what [extract] gives, for root and for an unprivileged owner,
   for every archive *)
Theorem extract_po_ok priv pre umask preserve es :
  umask_keeps_wx umask ->
  match extract pre umask preserve es with
  | Ok f => exists f', extract_po priv pre umask preserve es = Ok f' /\
                       forall q, fs_lookup f' q = fs_lookup f q
  | Err x => extract_po priv pre umask preserve es = Err x
  end.
Proof.
  intro Hu. unfold extract, extract_po.
  rewrite (extract_list_p_eq priv pre umask preserve es Hu).
  destruct (extract_list pre umask preserve (fs_init umask) es) as [f|x] eqn:E; [|reflexivity].
  apply restore_order_ok. intros p m Hm. apply has_wx_x.
  exact (extract_list_wx pre umask preserve Hu es _ f (all_dirs_wx_init umask Hu) E p m Hm).
Qed.

(* the order matters: handling a directory before the ones below it fails for the owner as soon
   as its recorded mode has no search permission *)
Definition order_witness : list entry :=
  [ mkEntry [b "d"] EDir 493 0; mkEntry [b "d"; b "p"] EDir 384 0; mkEntry [b "d"; b "p"; b "c"] EDir 493 0 ].

Theorem roundtrip_unprivileged_ordered pre umask preserve repro T :
  umask_keeps_wx umask -> (preserve = false -> umask <= 511) ->
  is_dir T = true -> wf_treeb T = true -> modes_okb T = true -> benign_tree pre T = true ->
  exists f', extract_po false pre umask preserve (tar_entries pre repro T) = Ok f' /\
    forall p, fs_lookup f' p = expected umask preserve T p.
Proof.
  intros Hw Hu Hd Hwf Hmo Hbe.
  destruct (roundtrip_walk_full pre umask preserve repro T Hu Hd Hwf Hmo Hbe) as (f & E & L).
  pose proof (extract_po_ok false pre umask preserve (tar_entries pre repro T) Hw) as H.
  rewrite E in H. destruct H as (f' & E' & L'). exists f'. split; [exact E'|].
  intro p. now rewrite L', L.
Qed.
