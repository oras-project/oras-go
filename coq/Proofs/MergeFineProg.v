(* C14 - channel-level deadlock freedom of the Merge system (Model/MergeFine.v): a counting
   invariant InvP on top of InvF (while complete() sends the error statuses, the members of
   the batch that have not received yet are exactly the sends left plus the buffered status;
   a caller still blocked on the channel of an earlier batch finds its status there or the
   channel closed), and progress: whenever some caller is inside Do / has not released, a
   step other than a new call is enabled. *)
From Oras Require Import Base.Prelude Model.Referrers Proofs.Referrers Model.Merge Proofs.Merge Model.MergeFine
  Proofs.MergeFine.

Definition waits_pc (g : nat) (p : fpc) : bool := match p with FWait g' => Nat.eqb g' g | _ => false end.
Definition nwait_of (g : nat) (pcs : tid -> fpc) (l : list tid) : nat :=
  length (filter (fun t => waits_pc g (pcs t)) l).
Definition nwait (f : fstate) : nat := nwait_of (f_gen f) (f_pcs f) (fbatch f).
Definition b2n (o : option fmsg) : nat := match o with Some _ => 1%nat | None => 0%nat end.
Definition cur (f : fstate) : fchan := f_chans f (f_gen f).

Record InvP (f : fstate) : Prop := {
  p_cnt : forall t r k, f_pcs f t = FNotify r k -> r <> ROk -> nwait f = (k + b2n (fbuf (cur f)))%nat;
  p_swp : forall t r, f_pcs f t = FSwap r -> r <> ROk -> nwait f = b2n (fbuf (cur f));
  p_okc : forall t, f_pcs f t = FSwap ROk -> fclosed (cur f) = true;
  p_old : forall t g, f_pcs f t = FWait g -> (g < f_gen f)%nat ->
            fclosed (f_chans f g) = true \/ exists r, fbuf (f_chans f g) = Some (FRes r);
  p_one : forall g t1 t2, (g < f_gen f)%nat -> fclosed (f_chans f g) = false ->
            f_pcs f t1 = FWait g -> f_pcs f t2 = FWait g -> t1 = t2
}.

Lemma invP_init r0 st0 : InvP (finit r0 st0).
Proof. constructor; simpl; intros; try discriminate; lia. Qed.

Lemma nwait_upd g pcs t p l :
  waits_pc g (pcs t) = waits_pc g p -> nwait_of g (upd pcs t p) l = nwait_of g pcs l.
Proof.
  intro H. unfold nwait_of. f_equal. apply filter_ext. intro x.
  destruct (Nat.eq_dec x t) as [->|Hne]; [rewrite upd_eq; auto | rewrite upd_neq; auto].
Qed.

Lemma nwait_dec g pcs t p l :
  NoDup l -> In t l -> waits_pc g (pcs t) = true -> waits_pc g p = false ->
  S (nwait_of g (upd pcs t p) l) = nwait_of g pcs l.
Proof.
  induction l as [|a l IH]; intros ND Hin Ht Hp; [destruct Hin|].
  inversion ND as [|? ? Hn ND']; subst. unfold nwait_of in *. simpl.
  destruct Hin as [->|Hin].
  - rewrite upd_eq, Hp, Ht. simpl. f_equal. f_equal. apply filter_ext_in. intros x Hx.
    rewrite upd_neq; auto. intro; subst; contradiction.
  - assert (a <> t) by (intro; subst; contradiction). rewrite upd_neq by auto.
    destruct (waits_pc g (pcs a)); simpl; rewrite <- IH; auto.
Qed.

Lemma filter_all (P : tid -> bool) l : (forall x, In x l -> P x = true) -> length (filter P l) = length l.
Proof.
  induction l as [|a l IH]; intro H; auto. simpl. rewrite (H a) by now left. simpl. f_equal. apply IH.
  intros x Hx. apply H. now right.
Qed.

Lemma count_all_but (P : tid -> bool) t l :
  NoDup l -> In t l -> P t = false -> (forall x, In x l -> x <> t -> P x = true) ->
  S (length (filter P l)) = length l.
Proof.
  induction l as [|a l IH]; intros ND Hin Ht Hall; [destruct Hin|].
  inversion ND as [|? ? Hn ND']; subst. simpl. destruct Hin as [->|Hin].
  - rewrite Ht. f_equal. apply filter_all. intros x Hx. apply Hall; [now right|]. intro; subst; contradiction.
  - rewrite (Hall a) by (simpl; auto; intro; subst; contradiction). simpl. f_equal.
    apply IH; auto. intros x Hx Hne. apply Hall; auto. now right.
Qed.

Lemma count_pos (P : tid -> bool) t l : In t l -> P t = true -> (1 <= length (filter P l))%nat.
Proof.
  intros Hin Ht. assert (In t (filter P l)) by (apply filter_In; auto).
  destruct (filter P l); [destruct H|simpl; lia].
Qed.

Lemma count_two (P : tid -> bool) t1 t2 l :
  NoDup l -> In t1 l -> In t2 l -> t1 <> t2 -> P t1 = true -> P t2 = true -> (2 <= length (filter P l))%nat.
Proof.
  intros ND H1 H2 Hne P1 P2.
  assert (I1 : In t1 (filter P l)) by (apply filter_In; auto).
  assert (I2 : In t2 (filter P l)) by (apply filter_In; auto).
  destruct (filter P l) as [|a [|b m]]; simpl in *; try lia; intuition congruence.
Qed.

Lemma count_ex (P : tid -> bool) l : (1 <= length (filter P l))%nat -> exists t, In t l /\ P t = true.
Proof.
  intro H. destruct (filter P l) as [|a m] eqn:E; [simpl in H; lia|].
  assert (In a (filter P l)) by (rewrite E; now left). apply filter_In in H0. eauto.
Qed.

Lemma waits_pc_true g p : waits_pc g p = true <-> p = FWait g.
Proof. destruct p; simpl; split; try discriminate; intro H; try (apply Nat.eqb_eq in H; now subst). injection H as ->. apply Nat.eqb_refl. Qed.


(* what the caller in complete() knows: n = members still blocked on the current channel c *)
Definition wstate (n : nat) (c : fchan) (p : fpc) : Prop :=
  match p with
  | FNotify r k => r <> ROk -> n = (k + b2n (fbuf c))%nat
  | FSwap r => (r <> ROk -> n = b2n (fbuf c)) /\ (r = ROk -> fclosed c = true)
  | _ => True
  end.
Definition PW (f : fstate) : Prop := forall t, wstate (nwait f) (cur f) (f_pcs f t).

(* the channels of earlier batches *)
Definition PO (f : fstate) : Prop :=
  (forall t g, f_pcs f t = FWait g -> (g < f_gen f)%nat ->
     fclosed (f_chans f g) = true \/ exists r, fbuf (f_chans f g) = Some (FRes r)) /\
  (forall g t1 t2, (g < f_gen f)%nat -> fclosed (f_chans f g) = false ->
     f_pcs f t1 = FWait g -> f_pcs f t2 = FWait g -> t1 = t2).

Lemma invP_parts f : InvP f <-> PW f /\ PO f.
Proof.
  split.
  - intro P. split; [|split; [apply (p_old f P)|apply (p_one f P)]].
    intro t. destruct (f_pcs f t) eqn:E; simpl; auto; [apply (p_cnt f P t _ _ E)|].
    split; [apply (p_swp f P t _ E)|intros ->; apply (p_okc f P t E)].
  - intros [W [O1 O2]]. constructor; auto.
    + intros t r k E. specialize (W t). now rewrite E in W.
    + intros t r E. specialize (W t). rewrite E in W. apply W.
    + intros t E. specialize (W t). rewrite E in W. now apply W.
Qed.

Lemma wstate_other n c p : fwindow p = false -> wstate n c p.
Proof. now destruct p. Qed.

Lemma PW_only f t : (forall x, x <> t -> fwindow (f_pcs f x) = false) -> wstate (nwait f) (cur f) (f_pcs f t) -> PW f.
Proof. intros Ho Ht x. destruct (Nat.eq_dec x t) as [->|Hne]; [exact Ht|now apply wstate_other, Ho]. Qed.

Lemma PW_same f f' :
  PW f -> (forall x, fwindow (f_pcs f' x) = true -> f_pcs f' x = f_pcs f x /\ nwait f' = nwait f /\ cur f' = cur f) -> PW f'.
Proof.
  intros W H x. destruct (fwindow (f_pcs f' x)) eqn:E; [|now apply wstate_other].
  destruct (H x E) as (-> & -> & ->). apply W.
Qed.

Lemma PO_same f f' :
  PO f -> f_gen f' = f_gen f -> (forall g, (g < f_gen f)%nat -> f_chans f' g = f_chans f g) ->
  (forall x g, (g < f_gen f)%nat -> f_pcs f' x = FWait g -> f_pcs f x = FWait g) -> PO f'.
Proof.
  intros [O1 O2] Hg Hc Hw. split.
  - intros t g Ht Hlt. rewrite Hg in Hlt. rewrite Hc by auto. apply (O1 t); auto.
  - intros g t1 t2 Hlt Hcl H1 H2. rewrite Hg in Hlt. rewrite Hc in Hcl by auto. apply (O2 g); auto.
Qed.

Lemma invP_frame f f' :
  InvP f -> f_gen f' = f_gen f ->
  (forall g, (g < f_gen f)%nat -> f_chans f' g = f_chans f g) ->
  (forall x g, (g < f_gen f)%nat -> f_pcs f' x = FWait g -> f_pcs f x = FWait g) ->
  (forall x, fwindow (f_pcs f' x) = true -> f_pcs f' x = f_pcs f x /\ nwait f' = nwait f /\ cur f' = cur f) ->
  InvP f'.
Proof.
  intros P Hg Hc Hw Hwin. apply invP_parts in P as [W O]. apply invP_parts.
  split; [now apply (PW_same f)|now apply (PO_same f)].
Qed.

Lemma invP_move f t p pl cm pe rg st :
  InvP f -> waits_pc (f_gen f) (f_pcs f t) = false -> fwindow p = false ->
  (forall g, (g <= f_gen f)%nat -> p <> FWait g) ->
  InvP (mkF pl cm (f_items f) pe (f_gen f) (f_chans f) (upd (f_pcs f) t p) rg st (f_verdict f)).
Proof.
  intros P Ht Hp Hn. apply (invP_frame f _ P); simpl; auto.
  - intros x g Hlt Hx. tcase x t; [destruct (Hn g); auto; lia|auto].
  - intros x Hx. tcase x t; [congruence|]. split; auto. split; auto. unfold nwait; simpl.
    apply nwait_upd. rewrite Ht. symmetry. destruct p; auto. simpl. apply Nat.eqb_neq. intros ->. now apply (Hn (f_gen f)).
Qed.

Lemma stepP_get sg f t c f' : InvF f -> InvP f -> fstep sg f (FEGet t c) = Some f' -> InvP f'.
Proof.
  intros I P H. destruct (fstep_get sg f t c f' I H) as (Hpc & ->).
  apply invP_move; auto; [now rewrite Hpc|intros g _; discriminate].
Qed.

Lemma stepP_assign sg f t f' : InvF f -> InvP f -> fstep sg f (FEAssign t) = Some f' -> InvP f'.
Proof.
  intros I P H. simpl in H. destruct (f_pcs f t) eqn:Hpc; try discriminate.
  destruct (f_committed f) eqn:Hcm; injection H as <-.
  - apply invP_move; auto; [now rewrite Hpc|intros g Hle [= <-]; lia].
  - apply (invP_frame f _ P); simpl; auto.
    + intros g Hlt. destruct (is_nil (f_items f)); auto. rewrite upd_neq; auto. lia.
    + intros x g Hlt Hx. tcase x t; [injection Hx as <-; lia|auto].
    + intros x Hx. tcase x t; [discriminate|]. destruct (open_batch f I Hcm) as (_ & Hnw & _). now rewrite Hnw in Hx.
Qed.

Lemma pre_others_wait f t x : InvF f -> fpre (f_pcs f t) = true -> In x (fbatch f) -> x <> t -> f_pcs f x = FWait (f_gen f).
Proof.
  intros I Ht Hx Hne. unfold fbatch in Hx. apply in_map_iff in Hx as ((x', c) & E & Hin). simpl in E. subst x'.
  pose proof (fpre_main _ Ht) as Hm.
  destruct (f_it f I x c Hin) as [H|[H|[(tm & H) _]]]; auto.
  - now rewrite (fother_not_main f t x I Hm Hne) in H.
  - now rewrite (no_window_of_pre f t I Ht) in H.
Qed.

(* the main caller enters complete(): everybody else in the batch is still blocked on its channel *)
Lemma invP_enter f t r cm rg st vd : InvF f -> InvP f -> fpre (f_pcs f t) = true ->
  InvP (mkF (f_pool f) cm (f_items f) (f_pending f) (f_gen f) (f_chans f)
            (upd (f_pcs f) t (FNotify r (length (f_items f) - 1))) rg st vd).
Proof.
  intros I P Ht. pose proof (fpre_main _ Ht) as Hm. apply invP_parts in P as [W O]. apply invP_parts. split.
  - apply (PW_only _ t); simpl.
    + intros x Hne. rewrite upd_neq by auto. now apply (fother_not_window f t).
    + rewrite upd_eq. intros _. unfold nwait, cur. simpl.
      destruct (f_qt f I t Ht) as (Hb & _). rewrite Hb. simpl.
      rewrite nwait_upd by (destruct (f_pcs f t); try discriminate; reflexivity).
      assert (Hc : S (nwait_of (f_gen f) (f_pcs f) (fbatch f)) = length (fbatch f)).
      { unfold nwait_of. apply (count_all_but _ t).
        - apply (f_it_nd f I).
        - now apply (f_mn f I).
        - destruct (f_pcs f t); try discriminate; reflexivity.
        - intros y Hy Hne. apply waits_pc_true. now apply (pre_others_wait f t). }
      assert (Hl : length (fbatch f) = length (f_items f)) by (unfold fbatch; apply map_length).
      change (fbatch _) with (fbatch f) at 1. lia.
  - apply (PO_same f); simpl; auto. intros x g Hlt Hx. tcase x t; [discriminate|auto].
Qed.

Lemma stepP_pre sg s e s' t :
  InvF s -> InvP s -> pre_event e = Some t -> fstep sg s e = Some s' -> InvP s'.
Proof.
  intros I P He H. destruct (fstep_pre sg s e s' t He H) as (Hp & cm & rg & st & _ & Hs).
  destruct Hs as [p' Hp' _|r _]; [|now apply (invP_enter s t)].
  apply (invP_move s t); auto; [destruct (f_pcs s t); try discriminate; reflexivity|now apply fpre_not_window|].
  intros g _ ->. discriminate.
Qed.

Lemma stepP_done sg f t f' : InvF f -> InvP f -> fstep sg f (FEDone t) = Some f' -> InvP f'.
Proof.
  intros I P H. simpl in H. destruct (f_pcs f t) eqn:Hpc; try discriminate.
  destruct (f_pool f); try discriminate. injection H as <-.
  apply invP_move; auto; [now rewrite Hpc|intros g _; discriminate].
Qed.

Lemma stepP_extdrop sg f f' : InvP f -> fstep sg f FEExtDrop = Some f' -> InvP f'.
Proof.
  intros P H. simpl in H. destruct (f_reg f); try discriminate. destruct (forallb is_empty i); try discriminate.
  injection H as <-. apply (invP_frame f _ P); simpl; auto.
Qed.

(* complete(): a channel operation; the count follows the buffer *)
Lemma stepP_notify sg f t f' : InvF f -> InvP f -> fstep sg f (FENotify t) = Some f' -> InvP f'.
Proof.
  intros I P H. simpl in H.
  destruct (f_pcs f t) as [|c|g| |old|nw o|oi ap|r k|r|r|r] eqn:Hpc; try discriminate.
  assert (Hm : fmain (f_pcs f t) = true) by now rewrite Hpc.
  apply invP_parts in P as [W O]. pose proof (W t) as Wt. rewrite Hpc in Wt. simpl in Wt.
  assert (Hgen : forall ch' p, (forall g, g <> f_gen f -> ch' g = f_chans f g) -> (forall g, p <> FWait g) ->
            wstate (nwait f) (ch' (f_gen f)) p ->
            InvP (mkF (f_pool f) (f_committed f) (f_items f) (f_pending f) (f_gen f) ch' (upd (f_pcs f) t p)
                      (f_reg f) (f_store f) (f_verdict f))).
  { intros ch' p Hch Hnw Hp. apply invP_parts. split.
    - apply (PW_only _ t); simpl.
      + intros x Hne. rewrite upd_neq by auto. now apply (fother_not_window f t).
      + rewrite upd_eq. unfold nwait, cur. simpl. change (fbatch _) with (fbatch f).
        rewrite nwait_upd; [exact Hp|]. rewrite Hpc. destruct p; simpl; auto. now destruct (Hnw g).
    - apply (PO_same f); simpl; auto.
      + intros g Hlt. apply Hch. lia.
      + intros x g Hlt Hx. tcase x t; [now destruct (Hnw g)|auto]. }
  destruct r.
  1: { injection H as <-. apply Hgen; try discriminate; [intros g Hg; now rewrite upd_neq|].
       rewrite upd_eq. simpl. split; [congruence|reflexivity]. }
  (* the three error statuses alike: the last send is over, or one more is sent into the empty buffer *)
  all: destruct k as [|k2]; [injection H as <-; unfold fset_pc; apply Hgen; auto; try discriminate;
         simpl; split; [intros _; rewrite Wt by discriminate; reflexivity|discriminate]|].
  all: destruct (fbuf (f_chans f (f_gen f))) eqn:Hb; [discriminate|]; injection H as <-;
         apply Hgen; try discriminate; [intros g Hg; now rewrite upd_neq|].
  all: rewrite upd_eq; simpl; intros _; rewrite Wt by discriminate; unfold cur; rewrite Hb; simpl; lia.
Qed.

(* the swap: the current channel becomes one of an earlier batch; it is closed, or its last
   status is in the buffer for the one member that has not received yet *)
Lemma stepP_swap sg f t f' : InvF f -> InvP f -> fstep sg f (FESwap t) = Some f' -> InvP f'.
Proof.
  intros I P H. simpl in H.
  destruct (f_pcs f t) as [|c|g| |old|nw o|oi ap|r k|r|r|r] eqn:Hpc; try discriminate.
  injection H as <-.
  assert (Hm : fmain (f_pcs f t) = true) by now rewrite Hpc.
  apply invP_parts in P as [W [O1 O2]]. pose proof (W t) as Wt. rewrite Hpc in Wt. destruct Wt as [Wn Wc].
  set (ch' := if is_nil (f_pending f) then f_chans f
              else upd (f_chans f) (S (f_gen f)) (mkFC (Some FMain) (fclosed (f_chans f (S (f_gen f)))))).
  assert (Hch : forall g, (g < S (f_gen f))%nat -> ch' g = f_chans f g).
  { intros g Hlt. unfold ch'. destruct (is_nil (f_pending f)); auto. rewrite upd_neq; auto. lia. }
  assert (Hr : r = ROk \/ r <> ROk) by (destruct r; auto; right; discriminate).
  assert (Hw : forall x, f_pcs f x = FWait (f_gen f) -> In x (fbatch f) /\ waits_pc (f_gen f) (f_pcs f x) = true).
  { intros x Hx. split; [now destruct (f_wt f I x _ Hx) as (_ & A & _); auto|now apply waits_pc_true]. }
  apply invP_parts. split; [|split]; simpl; fold ch'.
  - apply (PW_only _ t); simpl; [|now rewrite upd_eq].
    intros x Hne. rewrite upd_neq by auto. now apply (fother_not_window f t).
  - intros x g Hx Hlt. tcase x t; [discriminate|]. rewrite Hch by auto.
    assert (Hg : (g < f_gen f)%nat \/ g = f_gen f) by lia. destruct Hg as [Hg| ->]; [now apply (O1 x)|].
    destruct Hr as [->|Hr]; [left; now apply Wc|right]. specialize (Wn Hr). destruct (Hw x Hx) as [Hin Hwx].
    pose proof (count_pos (fun y => waits_pc (f_gen f) (f_pcs f y)) x _ Hin Hwx) as H1. unfold nwait, nwait_of in Wn. unfold cur in Wn.
    destruct (fbuf (f_chans f (f_gen f))) as [[|r0]|] eqn:Hb; simpl in Wn; [|eauto|lia].
    now apply (fmain_no_token f t I Hm) in Hb.
  - intros g t1 t2 Hlt Hcl H1 H2. tcase t1 t; [discriminate|]. tcase t2 t; [discriminate|]. rewrite Hch in Hcl by auto.
    assert (Hg : (g < f_gen f)%nat \/ g = f_gen f) by lia. destruct Hg as [Hg| ->]; [now apply (O2 g)|].
    destruct Hr as [->|Hr]; [unfold cur in Wc; rewrite Wc in Hcl by reflexivity; discriminate|]. specialize (Wn Hr).
    destruct (Nat.eq_dec t1 t2) as [|Hd]; auto. exfalso.
    destruct (Hw t1 H1) as [Hi1 Hw1]. destruct (Hw t2 H2) as [Hi2 Hw2].
    pose proof (count_two (fun y => waits_pc (f_gen f) (f_pcs f y)) t1 t2 _ (f_it_nd f I) Hi1 Hi2 Hd Hw1 Hw2) as H3. unfold nwait, nwait_of in Wn.
    destruct (fbuf (cur f)); simpl in Wn; lia.
Qed.

Lemma wstate_recv n n' c c' p :
  n = S n' -> fbuf c <> None -> fbuf c' = None -> fclosed c' = fclosed c -> wstate n c p -> wstate n' c' p.
Proof.
  intros -> Hb Hb' Hc. destruct (fbuf c) eqn:E; [|congruence]. destruct p; simpl; auto; rewrite ?E, ?Hb', ?Hc.
  - intros A Hr. specialize (A Hr). simpl in *. lia.
  - intros [A B]. split; [intro Hr; specialize (A Hr); simpl in *; lia|exact B].
Qed.

(* a waiter gets its result: the buffered status, or the zero status of the closed channel *)
Lemma invP_wake f t g r ch' :
  InvF f -> InvP f -> f_pcs f t = FWait g -> (g <= f_gen f)%nat ->
  (forall g', g' <> g -> ch' g' = f_chans f g') -> fclosed (ch' g) = fclosed (f_chans f g) ->
  (fbuf (f_chans f g) <> None /\ fbuf (ch' g) = None \/
   fbuf (f_chans f g) = None /\ fclosed (f_chans f g) = true /\ ch' = f_chans f) ->
  InvP (mkF (f_pool f) (f_committed f) (f_items f) (f_pending f) (f_gen f) ch' (upd (f_pcs f) t (FRet r))
            (f_reg f) (f_store f) (f_verdict f)).
Proof.
  intros I P Hpc Hle Hch Hcl Hcase. apply invP_parts in P as [W [O1 O2]]. apply invP_parts.
  assert (Hg : (g < f_gen f)%nat \/ g = f_gen f) by lia. destruct Hg as [Hlt| ->].
  - (* the channel of an earlier batch: nobody else was blocked on it, unless it is closed *)
    split; [|split]; simpl.
    + apply (PW_same f); [exact W|]. simpl. intros x Hx. tcase x t; [discriminate|]. split; [reflexivity|]. split.
      * unfold nwait. simpl. apply nwait_upd. rewrite Hpc. simpl. apply Nat.eqb_neq. lia.
      * unfold cur. simpl. apply Hch. lia.
    + intros x g' Hx Hlt'. tcase x t; [discriminate|].
      destruct (Nat.eq_dec g' g) as [->|Hg]; [|rewrite Hch by auto; now apply (O1 x)].
      rewrite Hcl. destruct (fclosed (f_chans f g)) eqn:Ec; auto. now destruct Hne; apply (O2 g).
    + intros g' t1 t2 Hlt' Hc H1 H2. tcase t1 t; [discriminate|]. tcase t2 t; [discriminate|].
      apply (O2 g'); auto. destruct (Nat.eq_dec g' g) as [->|Hg]; [now rewrite Hcl in Hc|now rewrite Hch in Hc].
  - (* the current channel *)
    destruct (f_wt f I t _ Hpc) as (_ & Hin & _). specialize (Hin eq_refl).
    split.
    + intro x. unfold nwait, cur. simpl. change (fbatch _) with (fbatch f).
      tcase x t; [exact Logic.I|]. destruct Hcase as [[Hb Hb']|(Hb & Hc & ->)].
      * apply (wstate_recv (nwait f) _ (cur f)); auto. symmetry. apply nwait_dec; auto; [apply (f_it_nd f I)|].
        rewrite Hpc. now apply waits_pc_true.
      * (* closed: the verdict is nil, nothing is counted *)
        pose proof (f_vc f I _ Hc) as Hv. pose proof (f_vw f I x) as Hr. specialize (W x).
        destruct (f_pcs f x); simpl in *; auto; [intro E; destruct E|split; [intro E; destruct E|apply W]];
          specialize (Hr _ eq_refl); congruence.
    + apply (PO_same f); [exact (conj O1 O2)|reflexivity|intros g' Hlt; apply Hch; lia|].
      simpl. intros x g' Hlt Hx. tcase x t; [discriminate|auto].
Qed.

Lemma stepP_recv sg f t f' : InvF f -> InvP f -> fstep sg f (FERecv t) = Some f' -> InvP f'.
Proof.
  intros I P H. simpl in H.
  destruct (f_pcs f t) as [|c|g| |old|nw o|oi ap|r k|r|r|r] eqn:Hpc; try discriminate.
  destruct (f_wt f I t g Hpc) as (Hle & _).
  assert (Hg : fbuf (f_chans f g) <> None \/ fclosed (f_chans f g) = true -> (g <= f_gen f)%nat).
  { intro Hc. destruct (Nat.le_gt_cases g (f_gen f)) as [|Hgt]; auto. destruct (f_fut f I g Hgt) as (A & B & _).
    destruct Hc; congruence. }
  destruct (fbuf (f_chans f g)) as [[|r]|] eqn:Hb.
  - (* the main status *)
    assert (g = f_gen f) by (apply (f_vm f I); auto). subst g.
    destruct (f_tok f I Hb) as (_ & _ & Hn). injection H as <-.
    apply (invP_frame f _ P); simpl; auto.
    + intros g Hlt. rewrite upd_neq; auto. lia.
    + intros x g Hlt Hx. tcase x t; [discriminate|auto].
    + intros x Hx. tcase x t; [discriminate|]. apply fwindow_main in Hx. rewrite Hn in Hx. discriminate.
  - injection H as <-. apply (invP_wake f t g); auto.
    + apply Hg. left. discriminate.
    + intros g' Hne. now rewrite upd_neq.
    + now rewrite upd_eq.
    + left. rewrite upd_eq, Hb. split; [discriminate|reflexivity].
  - destruct (fclosed (f_chans f g)) eqn:Hc; [|discriminate]. injection H as <-. apply (invP_wake f t g); auto.
Qed.

Lemma stepP sg f e f' : InvF f -> InvP f -> fstep sg f e = Some f' -> InvP f'.
Proof.
  intros I P H. destruct (pre_event e) as [t|] eqn:He; [now apply (stepP_pre sg f e f' t)|].
  destruct e; try discriminate.
  - eapply stepP_get; eauto.
  - eapply stepP_assign; eauto.
  - eapply stepP_recv; eauto.
  - eapply stepP_notify; eauto.
  - eapply stepP_swap; eauto.
  - eapply stepP_done; eauto.
  - eapply stepP_extdrop; eauto.
Qed.

Lemma frun_invP sg tr : forall f f', InvF f -> InvP f -> frun sg f tr = Some f' -> InvF f' /\ InvP f'.
Proof.
  induction tr as [|e tr IH]; intros f f' I P H; simpl in H.
  - injection H as <-. auto.
  - destruct (fstep sg f e) as [f1|] eqn:E; [|discriminate].
    apply (IH f1 f'); auto; [eapply stepF; eauto|eapply stepP; eauto].
Qed.

Definition fis_env (e : fevent) : bool := match e with FEGet _ _ | FEExtDrop => true | _ => false end.
Definition fcan_move (sg : bool) (f : fstate) : Prop :=
  exists e f', fis_env e = false /\ fstep sg f e = Some f'.

Lemma waiter_enabled sg f t g m : f_pcs f t = FWait g -> fbuf (f_chans f g) = Some m -> fcan_move sg f.
Proof.
  intros Ht Hb. exists (FERecv t). simpl. rewrite Ht, Hb. destruct m; eauto.
Qed.

Lemma fmain_enabled sg f t : InvF f -> InvP f -> fmain (f_pcs f t) = true -> fcan_move sg f.
Proof.
  intros I P Hm. unfold fcan_move.
  destruct (f_pcs f t) as [|c|g| |old|nw o|oi ap|r k|r|r|r] eqn:Hpc; try discriminate.
  - exists (FEPrepare t false). simpl. rewrite Hpc. eauto.
  - exists (FECommit t). simpl. rewrite Hpc. destruct old as [o|]; [|eauto].
    destruct (apply_changes (idx o) (map snd (f_items f))) as [|new]; [eauto|].
    destruct (negb (is_nil new) || sg); [eauto|]. destruct o; eauto.
  - exists (FEPut t true). simpl. rewrite Hpc. eauto.
  - exists (FEDel t true). simpl. rewrite Hpc. eauto.
  - (* complete(): close, or a send - when the buffer is full some member has not received yet *)
    assert (Hr : r = ROk \/ r <> ROk) by (destruct r; auto; right; discriminate).
    destruct Hr as [->|Hr]; [exists (FENotify t); simpl; rewrite Hpc; eauto|].
    destruct k as [|k2]; [exists (FENotify t); simpl; rewrite Hpc; destruct r; try congruence; eauto|].
    destruct (fbuf (f_chans f (f_gen f))) as [m|] eqn:Hb.
    + pose proof (p_cnt f P t r _ Hpc Hr) as Hn. unfold cur in Hn. rewrite Hb in Hn. simpl in Hn.
      destruct (count_ex (fun x => waits_pc (f_gen f) (f_pcs f x)) (fbatch f)) as (x & Hx & Hw).
      { unfold nwait, nwait_of in Hn. lia. }
      apply waits_pc_true in Hw. exact (waiter_enabled sg f x _ m Hw Hb).
    + exists (FENotify t). simpl. rewrite Hpc, Hb. destruct r; try congruence; eauto.
  - exists (FESwap t). simpl. rewrite Hpc. eauto.
Qed.

(* a caller inside Do / the release function: some step other than a new call is enabled -
   in particular a blocked send of complete() always has a receiver, and a caller blocked on
   the status channel of an earlier batch always finds its status *)
Lemma fine_progress sg f :
  InvF f -> InvP f -> (exists t, fholding (f_pcs f t) = true) -> fcan_move sg f.
Proof.
  intros I P (t & Ht).
  assert (Hitems : f_items f <> [] -> fcan_move sg f).
  { intro Hni. destruct (f_tom f I Hni) as [Htok|(tm & Hm)]; [|eapply fmain_enabled; eauto].
    destruct (f_items f) as [|[t1 c1] rest] eqn:Ei; [congruence|].
    assert (Hin : In (t1, c1) (f_items f)) by (rewrite Ei; now left).
    destruct (f_it f I t1 c1 Hin) as [Hw|[Hm|[(tm & Hm) _]]].
    - eapply waiter_enabled; eauto.
    - eapply fmain_enabled; eauto.
    - apply (fmain_enabled sg f tm I P). now apply fwindow_main. }
  destruct (f_pcs f t) as [|c|g| |old|nw o|oi ap|r k|r|r|r] eqn:Hpc; try discriminate;
    try (apply (fmain_enabled sg f t I P); rewrite Hpc; reflexivity).
  - exists (FEAssign t). simpl. rewrite Hpc. destruct (f_committed f); eauto.
  - destruct (f_wt f I t g Hpc) as (Hle & Hcur & Hpend).
    assert (Hcase : (g < f_gen f)%nat \/ g = f_gen f \/ g = S (f_gen f)) by lia.
    destruct Hcase as [Hlt|[-> | ->]].
    + destruct (p_old f P t g Hpc Hlt) as [Hc|(r & Hb)]; [|eapply waiter_enabled; eauto].
      destruct (fbuf (f_chans f g)) as [m|] eqn:Hb; [eapply waiter_enabled; eauto|].
      exists (FERecv t). simpl. rewrite Hpc, Hb, Hc. eauto.
    + apply Hitems. intro E. specialize (Hcur eq_refl). unfold fbatch in Hcur. rewrite E in Hcur. destruct Hcur.
    + apply Hitems. intro E. destruct (f_emp f I E) as (_ & Ep). specialize (Hpend eq_refl). rewrite Ep in Hpend. destruct Hpend.
  - destruct (f_pl f I) as (hs & _ & Hin & Hp).
    assert (Hh : In t hs) by (apply Hin; rewrite Hpc; reflexivity).
    destruct (f_pool f) as [rc|] eqn:Epool; [|subst hs; destruct Hh].
    exists (FEDone t). simpl. rewrite Hpc, Epool. eauto.
Qed.

Lemma fine_reachable_inv sg r0 st0 tr f :
  frun sg (finit r0 st0) tr = Some f -> InvF f /\ InvP f.
Proof. intro H. exact (frun_invP sg tr _ _ (invF_init r0 st0) (invP_init r0 st0) H). Qed.

Lemma fine_no_deadlock sg r0 st0 tr f :
  frun sg (finit r0 st0) tr = Some f -> (exists t, fholding (f_pcs f t) = true) -> fcan_move sg f.
Proof. intros H Hh. destruct (fine_reachable_inv sg r0 st0 tr f H) as (I & P). now apply fine_progress. Qed.

(* weight of a caller's state; N bounds the size of a batch (the number of callers around) *)
Definition fweight (N : nat) (p : fpc) : nat :=
  match p with
  | FIdle | FDone _ => 0
  | FRet _ => 1
  | FSwap _ => 2
  | FNotify _ k => 3 + k
  | FNeedDel _ _ => N + 3
  | FNeedPut _ _ => N + 4
  | FPrepared _ => N + 5
  | FPrep => N + 6
  | FWait _ => N + 7
  | FGot _ => N + 8
  end%nat.

Lemma batch_le f t L :
  InvF f -> fpre (f_pcs f t) = true -> (forall x, fholding (f_pcs f x) = true -> In x L) ->
  (length (f_items f) <= length L)%nat.
Proof.
  intros I Ht HL. replace (length (f_items f)) with (length (fbatch f)) by (unfold fbatch; apply map_length).
  apply NoDup_incl_length; [apply (f_it_nd f I)|]. intros x Hx. apply HL.
  destruct (Nat.eq_dec x t) as [->|Hne]; [apply fmain_holding; now apply fpre_main|].
  rewrite (pre_others_wait f t x I Ht Hx Hne). reflexivity.
Qed.

Lemma fstep_decreases sg f e f' L :
  InvF f -> fstep sg f e = Some f' -> fis_env e = false ->
  (forall t, fholding (f_pcs f t) = true -> In t L) ->
  (wsum (fweight (length L)) L (f_pcs f') < wsum (fweight (length L)) L (f_pcs f))%nat /\
  (forall t, fholding (f_pcs f' t) = true -> In t L).
Proof.
  intros I H Hg HL. destruct e; try discriminate; simpl in H.
  all: destruct (f_pcs f t) as [|c0|g| |old|nw o|oi ap|r k|r|r|r] eqn:Hpc; try discriminate.
  all: assert (Hin : In t L) by (apply HL; rewrite Hpc; reflexivity).
  all: assert (Hpos : (1 <= length L)%nat) by (destruct L; [destruct Hin|simpl; lia]).
  all: try (assert (Hn : (length (f_items f) <= length L)%nat) by (apply (batch_le f t); auto; rewrite Hpc; reflexivity)).
  all: unfold fnotify, fafter_put, fset_pc, fset_reg in H.
  all: repeat match type of H with
         | match ?x with _ => _ end = Some _ => destruct x eqn:?; try discriminate
         | (if ?x then _ else _) = Some _ => destruct x eqn:?; try discriminate
         end.
  all: try (injection H as <-).
  all: unfold fnotify, fset_pc, fset_reg.
  all: try (destruct sg); try (destruct o); simpl.
  all: try solve [split; [apply wsum_upd; auto; rewrite Hpc; simpl; lia | now apply (upd_keep fholding)]].
Qed.

Lemma fine_bounded_run sg L tr : forall f f',
  InvF f -> (forall t, fholding (f_pcs f t) = true -> In t L) ->
  forallb (fun e => negb (fis_env e)) tr = true -> frun sg f tr = Some f' ->
  (length tr + wsum (fweight (length L)) L (f_pcs f') <= wsum (fweight (length L)) L (f_pcs f))%nat.
Proof.
  induction tr as [|e tr IH]; intros f f' I HL F H; simpl in *.
  - injection H as <-. lia.
  - destruct (fstep sg f e) as [f1|] eqn:E; [|discriminate].
    apply andb_true_iff in F as [F1 F2]. apply negb_true_iff in F1.
    destruct (fstep_decreases sg f e f1 L I E F1 HL) as [Hlt HL1].
    assert (I1 : InvF f1) by (eapply stepF; eauto).
    specialize (IH f1 f' I1 HL1 F2 H). lia.
Qed.

(* from every reachable state of the channel-level system: without new calls, the number of
   steps (lock regions, channel operations, exchanges) that can still happen is bounded *)
Lemma fine_bounded_completion sg r0 st0 tr f :
  frun sg (finit r0 st0) tr = Some f ->
  exists bound, forall tr' f',
    forallb (fun e => negb (fis_env e)) tr' = true -> frun sg f tr' = Some f' ->
    (length tr' <= bound)%nat.
Proof.
  intro H. assert (I : InvF f) by (eapply frun_inv; eauto using invF_init).
  destruct (f_pl f I) as (hs & _ & Hin & _).
  exists (wsum (fweight (length hs)) hs (f_pcs f)). intros tr' f' F R.
  pose proof (fine_bounded_run sg hs tr' f f' I (fun t Ht => proj2 (Hin t) Ht) F R). lia.
Qed.

Lemma not_holding_quiescent f : (forall t, fholding (f_pcs f t) = false) -> fquiescent f.
Proof. intros H t. specialize (H t). destruct (f_pcs f t); try discriminate; [now left|right; eauto]. Qed.

Lemma fine_terminates_from sg L : forall n f,
  InvF f -> InvP f -> (forall t, fholding (f_pcs f t) = true -> In t L) ->
  (wsum (fweight (length L)) L (f_pcs f) <= n)%nat ->
  exists tr f', forallb (fun e => negb (fis_env e)) tr = true /\ frun sg f tr = Some f' /\ fquiescent f'.
Proof.
  induction n as [|n IH]; intros f I P HL Hm.
  - (* measure 0: nobody is holding (a holding caller has positive weight) *)
    exists [], f. repeat split; auto. apply not_holding_quiescent. intro t.
    destruct (fholding (f_pcs f t)) eqn:E; auto. exfalso.
    destruct (fine_progress sg f I P (ex_intro _ t E)) as (e & f1 & He & Hs).
    destruct (fstep_decreases sg f e f1 L I Hs He HL) as [Hlt _]. lia.
  - assert (Hd : (exists t, fholding (f_pcs f t) = true) \/ (forall t, fholding (f_pcs f t) = false)).
    { destruct (existsb (fun t => fholding (f_pcs f t)) L) eqn:E.
      - apply existsb_exists in E as (t & _ & Ht). eauto.
      - right. intro t. destruct (fholding (f_pcs f t)) eqn:Et; auto.
        assert (existsb (fun t => fholding (f_pcs f t)) L = true) by (apply existsb_exists; eauto). congruence. }
    destruct Hd as [Hh|Hq]; [|exists [], f; repeat split; auto; now apply not_holding_quiescent].
    destruct (fine_progress sg f I P Hh) as (e & f1 & He & Hs).
    destruct (fstep_decreases sg f e f1 L I Hs He HL) as [Hlt HL1].
    destruct (IH f1 (stepF sg f e f1 I Hs) (stepP sg f e f1 I P Hs) HL1) as (tr & f' & F & R & Q); [lia|].
    exists (e :: tr), f'. simpl. rewrite He, Hs. auto.
Qed.

(* from every reachable state of the channel-level system the callers that are inside can all
   return and release: some run without new calls ends in a quiescent state *)
Lemma fine_terminates sg r0 st0 tr f :
  frun sg (finit r0 st0) tr = Some f ->
  exists tr' f', forallb (fun e => negb (fis_env e)) tr' = true /\ frun sg f tr' = Some f' /\ fquiescent f'.
Proof.
  intro H. destruct (fine_reachable_inv sg r0 st0 tr f H) as (I & P).
  destruct (f_pl f I) as (hs & _ & Hin & _).
  apply (fine_terminates_from sg hs (wsum (fweight (length hs)) hs (f_pcs f)) f I P); auto.
  intros t Ht. now apply Hin.
Qed.
