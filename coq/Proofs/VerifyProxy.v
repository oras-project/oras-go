(* cas.Proxy: the cache only ever holds verified content; what Fetch hands out are
   the base's (or the cached) bytes; a failed push never populates the cache. *)
From Oras Require Import Base.Prelude Model.Verify Proofs.VerifyFacts Proofs.Verify.
From Coq Require Import Lia ZArith.

Local Open Scope nat_scope.

Section ProxyProofs.
  Variable H : str -> str -> str.

  Lemma stream_map_data ws : stream (map Data ws) = concat ws.
  Proof. induction ws as [|w r IH]; simpl; congruence. Qed.

  Lemma neof_map_data ws : neof (map Data ws) = 0.
  Proof. induction ws; simpl; auto. Qed.

  Lemma concat_writes_of rs : concat (writes_of rs) = concat (map fst rs).
  Proof.
    unfold writes_of. induction rs as [|[bs e] r IH]; simpl; auto.
    destruct bs; simpl; congruence.
  Qed.

  Lemma rc_reads_prefix comb ks : forall evs,
    exists rest, stream evs = concat (map fst (rc_reads comb evs ks)) ++ rest.
  Proof.
    induction ks as [|k r IH]; intro evs; simpl.
    - exists (stream evs). reflexivity.
    - destruct (script_read comb evs k) as [[bs e] evs'] eqn:E.
      apply script_read_facts in E as [A]. destruct (IH evs') as (rest & B).
      exists rest. simpl. rewrite A, B, app_assoc. reflexivity.
  Qed.

  Lemma tee_results_dead pe c rs : forall off, c <= off ->
    concat (map fst (tee_results (Some pe) c off rs)) = [].
  Proof.
    induction rs as [|[bs e] r IH]; intros off L; simpl; auto.
    destruct bs as [|x bs']; simpl.
    - apply IH; auto.
    - destruct (off + S (length bs') <=? c) eqn:Q; [apply Nat.leb_le in Q; lia|].
      simpl. replace (c - off) with 0 by lia. simpl. apply IH. lia.
  Qed.

  Lemma tee_results_none c rs : forall off, tee_results None c off rs = rs.
  Proof.
    induction rs as [|[bs e] r IH]; intro off; simpl; [reflexivity|]. destruct bs; rewrite IH; reflexivity.
  Qed.

  Lemma tee_results_prefix pe c rs : forall off,
    exists rest, concat (map fst rs) = concat (map fst (tee_results pe c off rs)) ++ rest.
  Proof.
    destruct pe as [pe|]; [|intro off; exists []; rewrite tee_results_none, app_nil_r; reflexivity].
    induction rs as [|[bs e] r IH]; intro off; simpl.
    - exists []. reflexivity.
    - destruct bs as [|x bs']; simpl; [apply IH|].
      destruct (off + S (length bs') <=? c) eqn:Q.
      + destruct (IH (off + S (length bs'))) as (rest & B). exists rest. simpl. rewrite B, app_assoc. reflexivity.
      + apply Nat.leb_gt in Q. simpl.
        rewrite (tee_results_dead pe c r (off + S (length bs'))) by lia. rewrite app_nil_r.
        exists (skipn (c - off) (x :: bs') ++ concat (map fst r)).
        rewrite app_assoc, firstn_skipn. reflexivity.
  Qed.

  Lemma cache_push_mem limit m d ws :
    fst (cache_push H limit m d ws) =
    let fuel := S (S (S (ev_weight (map Data ws)))) in
    match limit with
    | Some l => limited_push (mem_push H false true fuel) l m d (map Data ws)
    | None => mem_push H false true fuel m d (mkBase (map Data ws) None)
    end.
  Proof.
    unfold cache_push, limited_push, mem_push. cbv zeta.
    destruct limit as [l|]; [destruct (d_sz d >? l)%Z; [reflexivity|]|];
      (destruct (mem_get m d); [reflexivity|]);
      destruct (read_all H false true _ _ (d_dg d) (d_sz d)) as [[[e|] buf] v]; reflexivity.
  Qed.

  Lemma cache_push_spec limit m d ws e m' c :
    cache_push H limit m d ws = ((e, m'), c) ->
    (e = None /\ mem_get m d = None /\
     exists buf, m' = (d, buf) :: m /\ matches_desc H (d_dg d) (d_sz d) buf /\
                 (exists rest, concat ws = buf ++ rest) /\ (limit = None -> concat ws = buf))
    \/ (e <> None /\ m' = m).
  Proof.
    intro E. pose proof (cache_push_mem limit m d ws) as M. rewrite E in M. cbv zeta in M. simpl fst in M.
    symmetry in M. destruct limit as [l|].
    - apply limited_push_spec in M as [(-> & ->)|(_ & M)]; [right; split; [discriminate|reflexivity]|].
      apply mem_push_spec in M as [(-> & G & buf & -> & A & B & _)|X]; [left|right; exact X].
      simpl in B. rewrite stream_map_data in B. split; auto. split; auto. exists buf. repeat split; auto; try apply A.
      discriminate.
    - apply mem_push_spec in M as [(-> & G & buf & -> & A & B & C)|X]; [left|right; exact X].
      simpl in B, C. rewrite stream_map_data in B, C. split; auto. split; auto. exists buf.
      repeat split; auto; try apply A. intros _. apply C; auto. apply neof_map_data.
  Qed.

  Theorem proxy_fetch_spec limit stop m d comb evs ks rs ce m' :
    mem_ok H m -> proxy_fetch H limit stop m d comb evs ks = ((rs, ce), m') ->
    mem_ok H m' /\
    match mem_get m d with
    | Some bs =>            (* served from the cache: verified bytes, cache untouched *)
        matches_desc H (d_dg d) (d_sz d) bs /\ m' = m /\ ce = None /\
        exists rest, bs = concat (map fst rs) ++ rest
    | None =>               (* served from the base store *)
        (exists rest, stream evs = concat (map fst rs) ++ rest) /\
        (stop = true -> m' = m /\ ce = None) /\
        (ce <> None -> m' = m) /\
        (m' = m \/
         exists buf, m' = (d, buf) :: m /\ ce = None /\ matches_desc H (d_dg d) (d_sz d) buf /\
                     (exists rest, stream evs = buf ++ rest) /\
                     (limit = None -> buf = concat (map fst rs)))
    end.
  Proof.
    intros Ok. unfold proxy_fetch. destruct (mem_get m d) as [bs|] eqn:G.
    - intro E; inversion E; subst. split; auto. split; [apply Ok; exact G|]. split; auto. split; auto.
      destruct (rc_reads_prefix false ks (serve_script bs)) as (rest & B).
      exists rest. rewrite <- B. unfold serve_script. destruct bs; simpl; auto. rewrite app_nil_r. reflexivity.
    - destruct stop.
      + intro E; inversion E; subst. split; auto. split; [apply rc_reads_prefix|].
        split; auto.
      + destruct (cache_push H limit m d (writes_of (rc_reads comb evs ks))) as [[pe m1] c] eqn:Ec.
        intro E; inversion E; subst.
        destruct (rc_reads_prefix comb ks evs) as (rest0 & B0).
        destruct (tee_results_prefix ce c (rc_reads comb evs ks) 0) as (rest1 & B1).
        apply cache_push_spec in Ec as [(-> & _ & buf & -> & A & (rest2 & B2) & B3)|(Ne & ->)].
        * split.
          { apply mem_ok_cons; assumption. }
          split; [exists (rest1 ++ rest0); rewrite app_assoc, <- B1; exact B0|].
          split; [discriminate|]. split; [congruence|].
          right. exists buf. split; auto. split; auto. split; auto. split.
          -- rewrite concat_writes_of in B2. exists (rest2 ++ rest0). rewrite B0, B2, app_assoc. reflexivity.
          -- intro L. specialize (B3 L). rewrite concat_writes_of in B3. rewrite <- B3, tee_results_none. reflexivity.
        * split; auto. split; [exists (rest1 ++ rest0); rewrite app_assoc, <- B1; exact B0|].
          split; [discriminate|]. split; auto.
  Qed.

  (* over all fetch histories: whatever the cache holds matches its descriptor, and a
     fetch served from it hands out (a prefix of) matching bytes *)
  Theorem proxy_reach_ok m : proxy_reach H m -> mem_ok H m.
  Proof.
    induction 1 as [|limit stop m d comb evs ks rs ce m' R IH E].
    - intros d bs; discriminate.
    - exact (proj1 (proxy_fetch_spec limit stop m d comb evs ks rs ce m' IH E)).
  Qed.

  Theorem proxy_history_hit limit stop m d comb evs ks rs ce m' bs :
    proxy_reach H m -> mem_get m d = Some bs ->
    proxy_fetch H limit stop m d comb evs ks = ((rs, ce), m') ->
    matches_desc H (d_dg d) (d_sz d) bs /\ m' = m /\ ce = None /\
    exists rest, bs = concat (map fst rs) ++ rest.
  Proof.
    intros R G E. pose proof (proxy_fetch_spec limit stop m d comb evs ks rs ce m' (proxy_reach_ok m R) E) as [_ S].
    rewrite G in S. exact S.
  Qed.
End ProxyProofs.
