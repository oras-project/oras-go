(* C16 -- concurrentCache.Set under concurrency (Model/CacheSet.v): the token a
   call returns was fetched by a call with the same status key (registry, scheme,
   scope key), for every interleaving -- provided every call on that key runs a
   real fetch.  The single-context cache breaks the proviso for the empty scope
   key (known finding) and, before the fix, returned the result of such a call. *)
From Oras Require Import Base.Prelude Model.Challenge Model.Once Model.CacheSet Proofs.AuthClient Proofs.Once.

Lemma skey_eqb_spec a c : skey_eqb a c = true <-> a = c.
Proof.
  destruct a as [[h1 s1] k1], c as [[h2 s2] k2]. unfold skey_eqb.
  rewrite !andb_true_iff, N.eqb_eq, scheme_eqb_spec, str_eqb_spec.
  split; [intros [[-> ->] ->]; reflexivity | intros [= -> -> ->]; auto].
Qed.

Lemma status_get_in m k i : status_get m k = Some i -> In (k, i) m.
Proof.
  induction m as [|[k' i'] m IH]; simpl; [discriminate|].
  destruct (skey_eqb k k') eqn:E.
  - apply skey_eqb_spec in E. subst. intros [= ->]. now left.
  - intro H. right. auto.
Qed.

Lemma status_del_in m k i x : In x (status_del m k i) -> In x m.
Proof.
  induction m as [|[k' i'] m IH]; simpl; auto.
  destruct (skey_eqb k k' && Nat.eqb i i'); simpl; intros H; [right; auto|].
  destruct H as [H|H]; auto.
Qed.

Definition keyed (m : list (nat * (skey * ostate))) (i : nat) (k : skey) : Prop :=
  exists s, inst_get m i = Some (k, s).

Lemma keyed_head m i k s : keyed ((i, (k, s)) :: m) i k.
Proof. exists s. simpl. now rewrite Nat.eqb_refl. Qed.

Lemma keyed_update m i k s s' i' k' :
  inst_get m i = Some (k, s) -> keyed m i' k' -> keyed ((i, (k, s')) :: m) i' k'.
Proof.
  intros Ei (s1 & H). unfold keyed. simpl. destruct (Nat.eqb i' i) eqn:En; [|eauto].
  apply Nat.eqb_eq in En. subst i'. rewrite Ei in H. injection H as <- _. eauto.
Qed.

Lemma keyed_new m i x i' k' : inst_get m i = None -> keyed m i' k' -> keyed ((i, x) :: m) i' k'.
Proof.
  intros Ei (s1 & H). unfold keyed. simpl. destruct (Nat.eqb i' i) eqn:En; [|eauto].
  apply Nat.eqb_eq in En. congruence.
Qed.

Section Inv.
Variable calls : N -> call.
Variable K : skey.
Hypothesis real : forall g, ck (calls g) = K -> csrc (calls g) = None.

Record inv (st : cstate) : Prop := {
  iA : forall k i, In (k, i) (status st) -> keyed (insts st) i k;
  iB : forall g i, nget (loaded st) g = Some i -> keyed (insts st) i (ck (calls g));
  iC : forall i v, inst_get (insts st) i = Some (K, OClosed v) -> ck (calls v) = K;
  iD : forall g v, nget (results st) g = Some v -> ck (calls g) = K -> ck (calls v) = K;
  iE : forall i, (next st <= i)%nat -> inst_get (insts st) i = None;
}.

Lemma inv_init : inv cinit.
Proof. split; simpl; intros; try discriminate; tauto. Qed.

Lemma cstep_once st g e st' :
  cstep calls st (COnce g e) = Some st' ->
  exists i k s s',
    nget (loaded st) g = Some i /\ inst_get (insts st) i = Some (k, s) /\ ostep s e = Some s' /\
    (forall g1 v, e = ODone g1 v -> csrc (calls g) = None -> v = g) /\
    st' = mkC (status st) ((i, (k, s')) :: insts st) (next st) (loaded st)
              (match delivers e with Some v => (g, v) :: results st | None => results st end).
Proof.
  simpl. destruct (negb _); [discriminate|].
  destruct (nget (loaded st) g) as [i|]; [|discriminate].
  destruct (inst_get (insts st) i) as [[k s]|] eqn:Ei; [|discriminate].
  destruct (match e with ODone _ _ => _ | _ => true end) eqn:V; [|discriminate].
  simpl. destruct (ostep s e) as [s'|] eqn:O; [|discriminate]. intros [= <-].
  exists i, k, s, s'. do 3 (split; [assumption || reflexivity|]). split; [|now destruct e].
  intros g1 v -> Src. rewrite Src in V. now apply N.eqb_eq in V.
Qed.

Lemma inv_step st e st' : inv st -> cstep calls st e = Some st' -> inv st'.
Proof.
  intros [A B C D E] St. destruct e as [g|g e|g].
  - (* CLoad *)
    simpl in St. destruct (nget (loaded st) g) eqn:L; [discriminate|].
    destruct (status_get (status st) (ck (calls g))) as [i|] eqn:S; injection St as <-.
    + split; simpl; auto. intros g' i' H. destruct (g' =? g) eqn:Eg; auto.
      apply N.eqb_eq in Eg. subst g'. injection H as <-. apply A. now apply status_get_in.
    + pose proof (E (next st) (le_n _)) as New. split; simpl.
      * intros k i [[= <- <-]|H]; [apply keyed_head | now apply keyed_new, A].
      * intros g' i' H. destruct (g' =? g) eqn:Eg; [|now apply keyed_new, B].
        apply N.eqb_eq in Eg. subst g'. injection H as <-. apply keyed_head.
      * intros i v H. destruct (Nat.eqb i (next st)); [discriminate | eauto].
      * exact D.
      * intros i Hi. destruct (Nat.eqb i (next st)) eqn:En; [apply Nat.eqb_eq in En; lia | apply E; lia].
  - (* COnce *)
    apply cstep_once in St as (i & k & s & s' & L & Ei & O & V & ->).
    assert (Hk : k = ck (calls g)) by (destruct (B _ _ L) as (s0 & Hs0); congruence).
    assert (Hclosed : forall v, k = K -> s' = OClosed v -> ck (calls v) = K).
    { intros v HK ->. destruct (ostep_closed _ _ _ O) as [->|(g0 & -> & ->)]; [apply (C i); congruence|].
      rewrite (V g0 v eq_refl (real g ltac:(congruence))). congruence. }
    split; simpl.
    + intros k' i' H. eapply keyed_update; eauto.
    + intros g' i' H. eapply keyed_update; eauto.
    + intros i' v. destruct (Nat.eqb i' i); [intros [= HK Hs]; eauto | apply C].
    + intros g' v H HK. destruct (delivers e) as [w|] eqn:De; [|eauto].
      simpl in H. destruct (g' =? g) eqn:Eg; [|eauto]. apply N.eqb_eq in Eg. subst g'. injection H as <-.
      apply Hclosed; [congruence | exact (ostep_delivers _ _ _ _ O De)].
    + intros i' Hi. destruct (Nat.eqb i' i) eqn:En; [|auto].
      apply Nat.eqb_eq in En. subst i'. rewrite (E i Hi) in Ei. discriminate.
  - (* CDelete *)
    simpl in St. destruct (nget (loaded st) g) as [i|]; [|discriminate]. injection St as <-.
    split; simpl; auto. intros k i' H. apply A. eapply status_del_in; eauto.
Qed.

Lemma inv_run tr : forall st st', inv st -> crun calls st tr = Some st' -> inv st'.
Proof.
  induction tr as [|e tr IH]; intros st st' I R; simpl in R.
  - now injection R as <-.
  - destruct (cstep calls st e) as [st1|] eqn:S; [|discriminate].
    eapply IH; [eapply inv_step; eauto | eauto].
Qed.

Lemma set_result_same_key tr st g v :
  crun calls cinit tr = Some st ->
  nget (results st) g = Some v -> ck (calls g) = K -> ck (calls v) = K.
Proof. intros R. apply (iD st (inv_run tr cinit st inv_init R)). Qed.
End Inv.

Definition kx : skey := (0, SchBearer, b "repository:x:pull").
Definition ky : skey := (0, SchBearer, b "repository:y:pull").
Definition k0 : skey := (0, SchBearer, []).

(* before the fix: fallbackCache.Set(ky) (calls 3 then 4) returns the result of
   its host-only follow-up call 4, which is combined with the follow-up call 2 of
   a concurrent Set(kx) and carries the token fetched by call 1 for kx *)
Lemma fallback_prefix_refuted :
  let calls := table_calls [(1, mkCall kx None); (2, mkCall k0 (Some 1));
                            (3, mkCall ky None); (4, mkCall k0 (Some 3))] in
  exists tr st, crun calls cinit tr = Some st /\
    nget (results st) 4 = Some 1 /\ ck (calls 3) = ky /\ ck (calls 1) = kx /\ kx <> ky.
Proof.
  exists [CLoad 1; COnce 1 (OAcquire 1); COnce 1 (ODone 1 1); CDelete 1;
          CLoad 3; COnce 3 (OAcquire 3); COnce 3 (ODone 3 3); CDelete 3;
          CLoad 2; COnce 2 (OAcquire 2); CLoad 4; COnce 2 (ODone 2 1); COnce 4 (OReadClosed 4 1)].
  eexists. split; [vm_compute; reflexivity|]. repeat split; try reflexivity. discriminate.
Qed.

(* after the fix the caller keeps the result of its own first call (3); that one
   is sound unless the scope key is empty: then the first call shares the status
   key with the follow-up calls of concurrent Sets (known finding) *)
Lemma fallback_empty_key_refuted :
  let calls := table_calls [(1, mkCall kx None); (2, mkCall k0 (Some 1)); (3, mkCall k0 None)] in
  exists tr st, crun calls cinit tr = Some st /\
    nget (results st) 3 = Some 1 /\ ck (calls 3) = k0 /\ ck (calls 1) = kx /\ kx <> k0.
Proof.
  exists [CLoad 1; COnce 1 (OAcquire 1); COnce 1 (ODone 1 1); CDelete 1;
          CLoad 2; COnce 2 (OAcquire 2); CLoad 3; COnce 2 (ODone 2 1); COnce 3 (OReadClosed 3 1)].
  eexists. split; [vm_compute; reflexivity|]. repeat split; try reflexivity. discriminate.
Qed.

(* satisfiable: two concurrent real calls on one key share one fetch *)
Lemma set_share_example :
  let calls := table_calls [(1, mkCall kx None); (2, mkCall kx None)] in
  exists st, crun calls cinit
    [CLoad 1; COnce 1 (OAcquire 1); CLoad 2; COnce 1 (ODone 1 1); COnce 2 (OReadClosed 2 1); CDelete 1] = Some st /\
    nget (results st) 1 = Some 1 /\ nget (results st) 2 = Some 1.
Proof. eexists. split; [vm_compute; reflexivity|]. split; reflexivity. Qed.

(* the shared cache: every call is a real fetch *)
Lemma shared_set_result_same_key calls :
  (forall g, csrc (calls g) = None) ->
  forall tr st g v, crun calls cinit tr = Some st ->
    nget (results st) g = Some v -> ck (calls v) = ck (calls g).
Proof.
  intros H tr st g v R Hr.
  exact (set_result_same_key calls (ck (calls g)) (fun g' _ => H g') tr st g v R Hr eq_refl).
Qed.

Lemma crun_obs_run calls tr : forall st st',
  crun_obs calls st tr = Some st' -> crun calls st (map fst tr) = Some st'.
Proof.
  induction tr as [|[e exp] tr IH]; intros st st' H; simpl in *; auto.
  destruct (cstep calls st e) as [st1|]; [|discriminate].
  destruct (match e with CLoad g => _ | _ => _ end); [auto | discriminate].
Qed.

(* what acceptance of a recorded execution gives: it is a run of the system, so
   every delivered token was fetched by a call on the same status key *)
Lemma accepted_trace_same_key tbl tr :
  set_accepts tbl tr = true ->
  (forall g, csrc (table_calls tbl g) = None) ->
  exists st, crun (table_calls tbl) cinit (map fst tr) = Some st /\
    forall g v, nget (results st) g = Some v -> ck (table_calls tbl v) = ck (table_calls tbl g).
Proof.
  unfold set_accepts. intros A H.
  destruct (crun_obs (table_calls tbl) cinit tr) as [st|] eqn:R; [|discriminate].
  exists st. pose proof (crun_obs_run _ _ _ _ R) as R'. split; auto.
  intros g v Hr. eapply shared_set_result_same_key; eauto.
Qed.
