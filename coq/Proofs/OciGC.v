(* Lemmas about Model/OciGC.v: Store.GC keeps exactly the live set [Live] and terminates;
   Store.Delete with AutoGC removes exactly the least cascade set [Gone] and terminates;
   both for every iteration order of Go's maps.  Then the states that histories reach
   ([stored], [no_stale], [refs_ok]) and the persistence layer: index.json stays current
   ([pstate_ok]) and a reload from it is the reopen of the theorems. *)
From Coq Require Import List Arith Bool PeanoNat Lia.
Import ListNotations.
From Oras Require Import Model.OciGC.

Lemma memb_In x l : memb x l = true <-> In x l.
Proof.
  unfold memb. rewrite existsb_exists. split.
  - intros (y & Hy & E). apply Nat.eqb_eq in E. now subst.
  - intro H. exists x. split; [assumption|apply Nat.eqb_refl].
Qed.

Lemma memb_false x l : memb x l = false <-> ~ In x l.
Proof.
  rewrite <- memb_In, not_true_iff_false. reflexivity.
Qed.

Lemma dedup_In x l : In x (dedup l) <-> In x l.
Proof.
  induction l as [|a l IH]; simpl; [tauto|].
  destruct (memb a l) eqn:E.
  - rewrite IH. split; [now right|]. intros [->|H]; [now apply memb_In|assumption].
  - simpl. rewrite IH. tauto.
Qed.

Lemma dedup_NoDup l : NoDup (dedup l).
Proof.
  induction l as [|a l IH]; simpl; [constructor|].
  destruct (memb a l) eqn:E; [assumption|].
  constructor; [|assumption]. rewrite dedup_In. now apply memb_false.
Qed.

Lemma removeb_In y x l : In y (removeb x l) <-> In y l /\ y <> x.
Proof.
  unfold removeb. rewrite filter_In. rewrite negb_true_iff, Nat.eqb_neq. tauto.
Qed.

Lemma NoDup_app_intro {A} (l1 l2 : list A) :
  NoDup l1 -> NoDup l2 -> (forall y, In y l1 -> In y l2 -> False) -> NoDup (l1 ++ l2).
Proof.
  induction l1 as [|a l1 IH]; simpl; intros H1 H2 Hd; [assumption|].
  inversion H1; subst. constructor.
  - intro H. apply in_app_or in H as [H|H]; [contradiction|]. eapply Hd; eauto.
  - apply IH; auto. intros y Hy. apply Hd. now right.
Qed.

Lemma filter_all {A} (f : A -> bool) l : (forall x, In x l -> f x = true) -> filter f l = l.
Proof.
  induction l as [|a l IH]; intro H; [reflexivity|]. simpl. rewrite (H a (or_introl eq_refl)).
  f_equal. apply IH. intros x Hx. apply H. now right.
Qed.

Lemma removeb_absent x l : ~ In x l -> removeb x l = l.
Proof.
  intro H. unfold removeb. apply filter_all. intros y Hy. apply negb_true_iff, Nat.eqb_neq.
  intro E. subst. contradiction.
Qed.

Lemma fold_left_inv {A B} (P : A -> Prop) (f : A -> B -> A) l :
  (forall a b, In b l -> P a -> P (f a b)) -> forall a, P a -> P (fold_left f l a).
Proof.
  induction l as [|b l IH]; intros Hf a Ha; [exact Ha|].
  apply IH; [intros a' b' Hb; apply Hf; now right|apply Hf; [now left|exact Ha]].
Qed.

Lemma ref_eqb_eq a b : ref_eqb a b = true <-> a = b.
Proof.
  destruct a, b; simpl; try rewrite Nat.eqb_eq; split; intro H; try discriminate; try congruence.
Qed.

Lemma in_snoc {A} (y : A) l h : In y (l ++ [h]) <-> In y l \/ y = h.
Proof. rewrite in_app_iff. simpl. intuition congruence. Qed.

Lemma lookup_None r ix : lookup r ix = None <-> forall n, ~ In (r, n) ix.
Proof.
  induction ix as [|[r' k] ix IH]; simpl; [split; [intros _ n []|reflexivity]|].
  destruct (ref_eqb r' r) eqn:E.
  - apply ref_eqb_eq in E. subst. split; [discriminate|]. intro H. exfalso. apply (H k). now left.
  - rewrite IH. split; intros H n; [|intro H'; apply (H n); now right].
    intros [H'|H']; [|now apply (H n)]. injection H' as -> ->.
    rewrite (proj2 (ref_eqb_eq r r) eq_refl) in E. discriminate.
Qed.

Lemma tagged_nodes_In ix n : In n (tagged_nodes ix) <-> exists t, In (RTag t, n) ix.
Proof.
  unfold tagged_nodes. rewrite in_flat_map. split.
  - intros ([r m] & He & Hn). destruct r; simpl in Hn; try contradiction. destruct Hn as [<-|[]]. eauto.
  - intros (t & H). exists (RTag t, n). split; [assumption|now left].
Qed.

Lemma digested_In ix n : In n (digested ix) <-> exists d, In (RDig d, n) ix.
Proof.
  unfold digested. rewrite in_flat_map. split.
  - intros ([r m] & He & Hn). destruct r; simpl in Hn; try contradiction. destruct Hn as [<-|[]]. eauto.
  - intros (d & H). exists (RDig d, n). split; [assumption|now left].
Qed.

Lemma candidates_In ix n :
  In n (candidates ix) <-> (exists d, In (RDig d, n) ix) /\ ~ In n (tagged_nodes ix).
Proof.
  unfold candidates. rewrite in_flat_map. split.
  - intros ([r m] & He & Hn). destruct r; simpl in Hn; try contradiction.
    destruct (memb m (tagged_nodes ix)) eqn:E; [contradiction|].
    destruct Hn as [<-|[]]. apply memb_false in E. eauto.
  - intros ((d & H) & Hn). exists (RDig d, n). split; [assumption|]. simpl.
    apply memb_false in Hn. rewrite Hn. now left.
Qed.

Lemma is_tagged_spec st n :
  is_tagged st n = true <-> exists t, In (RTag t, n) (idx st) \/ In (RStale t, n) (idx st).
Proof.
  unfold is_tagged. rewrite existsb_exists. split.
  - intros ([r m] & He & H). unfold is_tag_entry in H. simpl in H. destruct r; try discriminate;
      apply Nat.eqb_eq in H; subst; eauto.
  - intros (t & [H|H]); [exists (RTag t, n)|exists (RStale t, n)]; (split; [assumption|]);
      unfold is_tag_entry; simpl; apply Nat.eqb_refl.
Qed.

Lemma set_ref_In r n ix e : In e (set_ref r n ix) <-> e = (r, n) \/ (In e ix /\ fst e <> r).
Proof.
  unfold set_ref. simpl. rewrite filter_In, negb_true_iff. split.
  - intros [H|[H1 H2]]; [left; congruence|right]. split; [assumption|].
    intro E. apply ref_eqb_eq in E. congruence.
  - intros [H|[H1 H2]]; [left; congruence|right]. split; [assumption|].
    destruct (ref_eqb (fst e) r) eqn:E; [|reflexivity]. apply ref_eqb_eq in E. contradiction.
Qed.

Lemma entries_eqb_eq a : forall b, entries_eqb a b = true -> a = b.
Proof.
  induction a as [|x a IH]; intros [|y b]; simpl; intro H; try discriminate; [reflexivity|].
  apply andb_true_iff in H as [H1 H2]. unfold entry_eqb in H1. apply andb_true_iff in H1 as [Hr Hn].
  apply ref_eqb_eq in Hr. apply Nat.eqb_eq in Hn. destruct x, y. simpl in *. subst. f_equal. now apply IH.
Qed.

Definition refs_ok (ix : list (ref * nat)) : Prop :=
  (forall d n, In (RDig d, n) ix -> d = n) /\
  (forall t n, In (RTag t, n) ix -> In (RDig n, n) ix).

Definition nonstale (e : ref * nat) : bool := match fst e with RStale _ => false | _ => true end.

Lemma save_form_In ix e :
  In e (save_form ix) <->
  In e ix /\ match fst e with
             | RTag _ => True
             | RDig _ => ~ In (snd e) (tagged_nodes ix)
             | RStale _ => False end.
Proof.
  unfold save_form. rewrite filter_In. destruct e as [[t|d|t] n]; cbn [fst snd].
  - tauto.
  - rewrite negb_true_iff, memb_false. tauto.
  - split; [intros [_ H]; discriminate|tauto].
Qed.

Lemma load_form_In d e :
  In e (load_form d) <->
  exists e0, In e0 d /\ match fst e0 with
                        | RTag t => e = (RDig (snd e0), snd e0) \/ e = (RTag t, snd e0)
                        | RDig _ => e = (RDig (snd e0), snd e0)
                        | RStale _ => False end.
Proof.
  unfold load_form. rewrite in_flat_map. split; intros (e0 & H0 & H); exists e0; (split; [assumption|]);
    destruct e0 as [[t|d0|t] n]; cbn [fst snd] in *.
  - destruct H as [H|[H|[]]]; auto.
  - destruct H as [H|[]]; auto.
  - destruct H.
  - destruct H as [H|H]; [left|right; left]; auto.
  - left. auto.
  - destruct H.
Qed.

Lemma load_save ix e : refs_ok ix ->
  (In e (load_form (save_form ix)) <-> In e ix /\ nonstale e = true).
Proof.
  intros [R1 R2]. rewrite load_form_In. split.
  - intros (e0 & H0 & H). apply save_form_In in H0 as [H0 Hc]. destruct e0 as [[t|d0|t] n]; cbn [fst snd] in *.
    + destruct H as [->| ->]; (split; [|reflexivity]); [now apply (R2 t)|assumption].
    + subst e. pose proof (R1 _ _ H0). subst d0. split; [assumption|reflexivity].
    + destruct H.
  - intros [He Hn]. destruct e as [[t|d0|t] n]; cbn in Hn; try discriminate.
    + exists (RTag t, n). split; [apply save_form_In; cbn; tauto|cbn; now right].
    + pose proof (R1 _ _ He). subst d0.
      destruct (in_dec Nat.eq_dec n (tagged_nodes ix)) as [Ht|Ht].
      * apply tagged_nodes_In in Ht as (t & Ht). exists (RTag t, n).
        split; [apply save_form_In; cbn; tauto|cbn; now left].
      * exists (RDig n, n). split; [apply save_form_In; cbn; tauto|reflexivity].
Qed.

Definition seteq {A} (a b : list A) : Prop := forall e, In e a <-> In e b.

Lemma tagged_nodes_seteq a b : seteq a b -> seteq (tagged_nodes a) (tagged_nodes b).
Proof. intros H n. rewrite !tagged_nodes_In. split; intros (t & Ht); exists t; now apply H. Qed.

Lemma save_form_seteq a b : seteq a b -> seteq (save_form a) (save_form b).
Proof.
  intros H e. rewrite !save_form_In. pose proof (tagged_nodes_seteq a b H (snd e)) as Ht.
  destruct e as [[t|d|t] n]; cbn [fst snd] in *; rewrite (H _); tauto.
Qed.

Lemma load_form_seteq a b : seteq a b -> seteq (load_form a) (load_form b).
Proof. intros H e. rewrite !load_form_In. split; intros (e0 & H0 & Hc); exists e0; (split; [now apply H|assumption]). Qed.

Lemma save_form_nonstale ix : seteq (save_form (filter nonstale ix)) (save_form ix).
Proof.
  intro e. rewrite !save_form_In, filter_In.
  assert (Ht : forall n, In n (tagged_nodes (filter nonstale ix)) <-> In n (tagged_nodes ix)).
  { intro n. rewrite !tagged_nodes_In. split; intros (t & H); exists t.
    - apply filter_In in H. tauto.
    - apply filter_In. split; [assumption|reflexivity]. }
  destruct e as [[t|d|t] n]; cbn [fst snd]; unfold nonstale; cbn [fst]; rewrite ?Ht; tauto.
Qed.

(* what a new Store reads from a current index.json: the reference map without stale entries *)
Lemma load_saved_seteq d ix : refs_ok ix -> seteq d (save_form ix) ->
  seteq (load_form d) (filter nonstale ix).
Proof. intros Hr Hs x. rewrite (load_form_seteq _ _ Hs x), (load_save _ x Hr), filter_In. reflexivity. Qed.

Lemma refs_ok_load d : refs_ok (load_form d).
Proof.
  split.
  - intros d0 n H. apply load_form_In in H as (e0 & _ & H). destruct e0 as [[t|d1|t] m]; cbn [fst snd] in H.
    + destruct H as [H|H]; congruence.
    + congruence.
    + destruct H.
  - intros t n H. apply load_form_In in H as (e0 & H0 & H). apply load_form_In. exists e0.
    split; [assumption|]. destruct e0 as [[t0|d1|t0] m]; cbn [fst snd] in *.
    + destruct H as [H|H]; [discriminate|]. injection H as -> ->. now left.
    + discriminate.
    + destruct H.
Qed.

(* the reference map of a store opened on a layout written by other tools (OForeign): what
   loadIndex makes of the tags *)
Lemma foreign_idx ix :
  flat_map (fun e => match fst e with
                     | RTag t => [(RDig (snd e), snd e); (RTag t, snd e)]
                     | _ => [] end) ix =
  load_form (filter (fun e => match fst e with RTag _ => true | _ => false end) ix).
Proof. unfold load_form. induction ix as [|[[t|d|t] n] ix IH]; simpl; now rewrite ?IH. Qed.

Lemma load_form_no_stale d t n : ~ In (RStale t, n) (load_form d).
Proof.
  intro H. apply load_form_In in H as (e0 & _ & H).
  destruct e0 as [[t0|d0|t0] k]; cbn [fst snd] in H; [destruct H as [H|H]| |]; try discriminate; destruct H.
Qed.

Lemma refs_ok_seteq a b : seteq a b -> refs_ok a -> refs_ok b.
Proof.
  intros H [R1 R2]. split.
  - intros d n Hd. apply (R1 d n). now apply H.
  - intros t n Ht. apply H. apply (R2 t). now apply H.
Qed.

Lemma refs_ok_set_dig n ix : refs_ok ix -> refs_ok (set_ref (RDig n) n ix).
Proof.
  intros [R1 R2]. split.
  - intros d m H. apply set_ref_In in H as [H|[H _]]; [congruence|eauto].
  - intros t m H. apply set_ref_In in H as [H|[H _]]; [discriminate|].
    apply set_ref_In. destruct (Nat.eq_dec m n) as [->|Hne]; [now left|right].
    split; [now apply (R2 t)|]. cbn. congruence.
Qed.

Lemma refs_ok_set_tag n t ix : refs_ok ix -> refs_ok (set_ref (RTag t) n (set_ref (RDig n) n ix)).
Proof.
  intro Hw. pose proof (refs_ok_set_dig n _ Hw) as [R1 R2]. split.
  - intros d m H. apply set_ref_In in H as [H|[H _]]; [discriminate|eauto].
  - intros t' m H. apply set_ref_In. right. split; [|cbn; discriminate].
    apply set_ref_In in H as [H|[H _]].
    + injection H as -> ->. apply set_ref_In. now left.
    + now apply (R2 t').
Qed.

Lemma refs_ok_filter (f : ref * nat -> bool) ix :
  (forall t n, f (RTag t, n) = true -> f (RDig n, n) = true) -> refs_ok ix -> refs_ok (filter f ix).
Proof.
  intros Hf [R1 R2]. split.
  - intros d n H. apply filter_In in H as [H _]. eauto.
  - intros t n H. apply filter_In in H as [H Hc]. apply filter_In. split; [now apply (R2 t)|now apply (Hf t)].
Qed.

(* the hypotheses of the theorems: content addressing makes the graph acyclic, the subject is
   one of the successors, an iteration of a Go map visits exactly its keys *)
Definition acyclic (succ : nat -> list nat) : Prop := forall n s, In s (succ n) -> s < n.
Definition subject_listed (succ : nat -> list nat) (subject : nat -> option nat) : Prop :=
  forall n s, subject n = Some s -> In s (succ n).
Definition same_elements (ords : nat -> list nat) (l : list nat) : Prop :=
  forall i n, In n (ords i) <-> In n l.
Definition reorders (ord : nat -> list nat -> list nat) : Prop :=
  forall k l y, In y (ord k l) <-> In y l.

Lemma same_elements_const l : same_elements (fun _ => l) l.
Proof. intros i n. reflexivity. Qed.

Section Proofs.
Variable succ : nat -> list nat.
Variable subject : nat -> option nat.
Variable manifest : nat -> bool.

(* content addressing: a node's bytes contain the digests of its successors, so
   the graph is acyclic; the generator numbers nodes bottom-up *)
Hypothesis succ_lt : forall n s, In s (succ n) -> s < n.
(* content.Successors lists the subject *)
Hypothesis subj_succ : forall n s, subject n = Some s -> In s (succ n).

(* x is reachable from n through content that is in the storage *)
Inductive Reach (bl : list nat) : nat -> nat -> Prop :=
| R_refl n : In n bl -> Reach bl n n
| R_step n s x : In n bl -> In s (succ n) -> Reach bl s x -> Reach bl n x.

Lemma Reach_in bl n x : Reach bl n x -> In x bl.
Proof. induction 1; assumption. Qed.

Lemma Reach_start bl n x : Reach bl n x -> In n bl.
Proof. destruct 1; assumption. Qed.

Lemma Reach_trans bl n m x : Reach bl n m -> Reach bl m x -> Reach bl n x.
Proof. induction 1; [auto|intro; eapply R_step; eauto]. Qed.

Lemma Reach_snoc bl n x s : Reach bl n x -> In s (succ x) -> In s bl -> Reach bl n s.
Proof.
  intros H Hs Hb. apply (Reach_trans _ _ _ _ H).
  eapply R_step; [eapply Reach_in; eauto|exact Hs|now apply R_refl].
Qed.

Lemma down_sound bl k : forall n x, In x (down succ bl k n) -> Reach bl n x.
Proof.
  induction k as [|k IH]; intros n x; simpl; destruct (memb n bl) eqn:E; simpl; try tauto.
  - intros [<-|[]]. apply R_refl. now apply memb_In.
  - apply memb_In in E. intros [<-|H]; [now apply R_refl|].
    apply in_flat_map in H as (s & Hs & Hx). eapply R_step; eauto.
Qed.

Lemma down_complete bl n x : Reach bl n x -> forall k, n <= k -> In x (down succ bl k n).
Proof.
  induction 1 as [n Hn|n s x Hn Hs _ IH]; intros k Hk.
  - apply memb_In in Hn. destruct k; simpl; rewrite Hn; now left.
  - pose proof (succ_lt _ _ Hs) as Hlt. apply memb_In in Hn.
    destruct k as [|k]; [lia|]. simpl. rewrite Hn. right.
    apply in_flat_map. exists s. split; [assumption|]. apply IH. lia.
Qed.

Lemma closure_spec bl n x : In x (closure succ bl n) <-> Reach bl n x.
Proof.
  unfold closure. split; [apply down_sound|]. intro H. now apply down_complete.
Qed.

(* s is met by the subject walk that starts at r *)
Inductive Chain (bl : list nat) : nat -> nat -> Prop :=
| C_one r s : In r bl -> subject r = Some s -> Chain bl r s
| C_step r m s : In r bl -> subject r = Some m -> Chain bl m s -> Chain bl r s.

Definition meets (bl g : list nat) (n : nat) : Prop :=
  exists s, Chain bl n s /\ In s g /\ manifest s = true.

Lemma walk_spec bl g : forall fuel cur, cur < fuel ->
  exists b, walk subject manifest true bl g fuel cur = Some b /\ (b = true <-> meets bl g cur).
Proof.
  induction fuel as [|f IH]; intros cur Hlt; [lia|]. simpl.
  destruct (memb cur bl) eqn:Eb.
  - apply memb_In in Eb. destruct (subject cur) as [s|] eqn:Es.
    + cbn [negb orb]. destruct (memb s g && manifest s) eqn:Eg.
      * exists true. split; [reflexivity|]. split; [|reflexivity]. intros _.
        apply andb_true_iff in Eg as [Eg Em].
        exists s. split; [now apply C_one|split; [now apply memb_In|assumption]].
      * pose proof (succ_lt _ _ (subj_succ _ _ Es)) as Hs.
        destruct (IH s ltac:(lia)) as (b & Hw & Hb). exists b. split; [assumption|].
        rewrite Hb. split.
        -- intros (s' & Hc & Hg). exists s'. split; [eapply C_step; eauto|assumption].
        -- intros (s' & Hc & Hg & Hm). inversion Hc; subst.
           ++ assert (s' = s) by congruence. subst. apply memb_In in Hg. rewrite Hg, Hm in Eg. discriminate.
           ++ assert (m = s) by congruence. subst. now exists s'.
    + exists false. split; [reflexivity|]. split; [discriminate|].
      intros (s' & Hc & _). inversion Hc; congruence.
  - exists false. split; [reflexivity|]. split; [discriminate|].
    intros (s' & Hc & _). apply memb_false in Eb. inversion Hc; contradiction.
Qed.

Section GC.
Variable st : state.
Let bl := blobs st.
Let ix := idx st.

(* the live set of GC: least set containing what is reachable from a tagged
   descriptor and, for every digest-indexed descriptor r whose subject chain meets
   a live node, what is reachable from r *)
Inductive Live : nat -> Prop :=
| L_tag t n x : In (RTag t, n) ix -> Reach bl n x -> Live x
| L_ref d r s x : In (RDig d, r) ix -> Chain bl r s -> Live s -> manifest s = true ->
                  Reach bl r x -> Live x.

Lemma Live_in x : Live x -> In x bl.
Proof. destruct 1; eapply Reach_in; eauto. Qed.

(* invariant of the referrer passes *)
Record GInv (g kept : list nat) : Prop := {
  gi_sound : forall x, In x g -> Live x;
  gi_closed : forall x s, In x g -> In s (succ x) -> In s bl -> In s g;
  gi_roots : forall t n, In (RTag t, n) ix -> In n bl -> In n g;
  gi_kept : forall r, In r kept -> In r g;
  gi_nodup : NoDup kept;
  gi_cand : forall r, In r kept -> In r (candidates ix) }.

Lemma closed_reach g :
  (forall x s, In x g -> In s (succ x) -> In s bl -> In s g) ->
  forall n x, Reach bl n x -> In n g -> In x g.
Proof.
  intros Hc n x H. induction H as [n Hn|n s x Hn Hs Hr IH]; intro Hg; [assumption|].
  apply IH. eapply Hc; eauto. eapply Reach_start; eauto.
Qed.

Lemma GInv_init : GInv (flat_map (closure succ bl) (tagged_nodes ix)) [].
Proof.
  constructor.
  - intros x H. apply in_flat_map in H as (n & Hn & Hx). apply tagged_nodes_In in Hn as (t & Ht).
    apply closure_spec in Hx. eapply L_tag; eauto.
  - intros x s H Hs Hb. apply in_flat_map in H as (n & Hn & Hx). apply in_flat_map.
    exists n. split; [assumption|]. apply closure_spec. apply closure_spec in Hx.
    eapply Reach_snoc; eauto.
  - intros t n Ht Hb. apply in_flat_map. exists n. split.
    + apply tagged_nodes_In. eauto.
    + apply closure_spec. now apply R_refl.
  - intros r [].
  - constructor.
  - intros r [].
Qed.

Lemma do_walk_fixed g n :
  exists b, do_walk subject manifest cfg_fixed bl g n = Some b /\ (b = true <-> meets bl g n).
Proof. unfold do_walk. cbn [fixF1 fixSubjM cfg_fixed]. apply walk_spec. lia. Qed.

(* the passes stop when no candidate that was left out has a subject chain into the graph *)
Definition settled (g kept : list nat) : Prop :=
  forall n, In n (candidates ix) -> In n kept \/ ~ meets bl g n.

Lemma keep_step_spec g kept ch n :
  GInv g kept -> In n (candidates ix) ->
  exists g' kept' ch',
    keep_step succ subject manifest cfg_fixed bl (g, kept, ch, false) n = (g', kept', ch', false) /\
    GInv g' kept' /\
    ((ch' = ch /\ g' = g /\ kept' = kept /\
      (In n kept \/ ~ meets bl g n)) \/
     (ch' = true /\ length kept' = S (length kept))).
Proof.
  intros I Hc. unfold keep_step. destruct (memb n kept) eqn:Ek.
  - exists g, kept, ch. split; [reflexivity|]. split; [assumption|].
    left. repeat split; try reflexivity. left. now apply memb_In.
  - apply memb_false in Ek. destruct (do_walk_fixed g n) as (b & Hw & Hb). rewrite Hw.
    destruct b.
    + exists (closure succ bl n ++ g), (n :: kept), true. split; [reflexivity|].
      destruct Hb as [Hb _]. destruct (Hb eq_refl) as (s & Hch & Hs & Hms).
      assert (Hnb : In n bl) by (inversion Hch; assumption).
      apply candidates_In in Hc as Hc'. destruct Hc' as ((d & Hd) & _).
      split; [|right; split; reflexivity].
      constructor.
      * intros x Hx. apply in_app_or in Hx as [Hx|Hx]; [|now apply (gi_sound _ _ I)].
        apply closure_spec in Hx. eapply (L_ref d n s x); eauto. now apply (gi_sound _ _ I).
      * intros x s' Hx Hs' Hb'. apply in_or_app. apply in_app_or in Hx as [Hx|Hx].
        -- left. apply closure_spec. apply closure_spec in Hx. eapply Reach_snoc; eauto.
        -- right. eapply (gi_closed _ _ I); eauto.
      * intros t m Ht Hm. apply in_or_app. right. eapply (gi_roots _ _ I); eauto.
      * intros r [<-|Hr]; apply in_or_app.
        -- left. apply closure_spec. now apply R_refl.
        -- right. now apply (gi_kept _ _ I).
      * constructor; [assumption|apply (gi_nodup _ _ I)].
      * intros r [<-|Hr]; [assumption|now apply (gi_cand _ _ I)].
    + exists g, kept, ch. split; [reflexivity|]. split; [assumption|].
      left. repeat split; try reflexivity. right. intro H. apply Hb in H. discriminate.
Qed.

Lemma pass_spec : forall l g kept ch,
  GInv g kept -> (forall n, In n l -> In n (candidates ix)) ->
  exists g' kept' ch',
    fold_left (keep_step succ subject manifest cfg_fixed bl) l (g, kept, ch, false) = (g', kept', ch', false) /\
    GInv g' kept' /\
    ((ch' = ch /\ g' = g /\ kept' = kept /\
      forall n, In n l -> In n kept \/ ~ meets bl g n) \/
     (ch' = true /\ length kept < length kept')).
Proof.
  induction l as [|n l IH]; intros g kept ch I Hl.
  - exists g, kept, ch. split; [reflexivity|]. split; [assumption|]. left. repeat split. intros n [].
  - cbn [fold_left]. destruct (keep_step_spec g kept ch n I (Hl n (or_introl eq_refl)))
      as (g1 & k1 & c1 & Hs & I1 & Hcase).
    rewrite Hs. destruct (IH g1 k1 c1 I1 (fun m Hm => Hl m (or_intror Hm)))
      as (g2 & k2 & c2 & Hf & I2 & Hcase2).
    exists g2, k2, c2. split; [assumption|]. split; [assumption|].
    destruct Hcase as [(-> & -> & -> & Hn)|(-> & Hlen)].
    + destruct Hcase2 as [(-> & -> & -> & Hrest)|(-> & Hlen2)].
      * left. repeat split. intros m [<-|Hm]; auto.
      * right. split; [reflexivity|assumption].
    + right. destruct Hcase2 as [(-> & -> & -> & _)|(-> & Hlen2)]; split; try reflexivity; lia.
Qed.

Variable ords : nat -> list nat.
Hypothesis ords_perm : same_elements ords (candidates ix).

Lemma gc_passes_spec : forall fuel i g kept,
  GInv g kept -> length (candidates ix) < fuel + length kept ->
  exists g' kept',
    gc_passes succ subject manifest cfg_fixed bl ords fuel i g kept = Some (g', kept') /\
    GInv g' kept' /\ settled g' kept'.
Proof.
  induction fuel as [|f IH]; intros i g kept I Hf.
  - pose proof (NoDup_incl_length (gi_nodup _ _ I) (gi_cand _ _ I)). lia.
  - simpl. destruct (pass_spec (ords i) g kept false I (fun n Hn => proj1 (ords_perm i n) Hn))
      as (g1 & k1 & c1 & Hp & I1 & Hcase).
    rewrite Hp. destruct Hcase as [(-> & -> & -> & Hall)|(-> & Hlen)].
    + simpl. exists g, kept. split; [reflexivity|]. split; [assumption|].
      intros n Hn. apply Hall. now apply ords_perm.
    + simpl. apply IH; [assumption|lia].
Qed.

Lemma settled_root g kept d r : settled g kept -> In (RDig d, r) ix -> meets bl g r ->
  In r (tagged_nodes ix) \/ In r kept.
Proof.
  intros Hfin Hd Hm. destruct (in_dec Nat.eq_dec r (tagged_nodes ix)) as [Ht|Ht]; [now left|right].
  destruct (Hfin r) as [Hk|Hno]; [apply candidates_In; eauto|exact Hk|contradiction].
Qed.

Lemma settled_live g kept : GInv g kept -> settled g kept -> forall x, In x g <-> Live x.
Proof.
  intros I Hfin x. split; [apply (gi_sound _ _ I)|].
  intro HL. induction HL as [t n x Ht Hr|d r s x Hd Hc _ IHs Hms Hr];
    (eapply closed_reach; [apply (gi_closed _ _ I)|exact Hr|]); apply Reach_start in Hr.
  - eapply (gi_roots _ _ I); eauto.
  - destruct (settled_root g kept d r Hfin Hd) as [Ht|Hk]; [now exists s| |now apply (gi_kept _ _ I)].
    apply tagged_nodes_In in Ht as (t & Ht). eapply (gi_roots _ _ I); eauto.
Qed.

(* the reference map gcIndex builds from the rebuilt graph and the kept referrers *)
Definition new_idx (kl : bool) (g kept : list nat) : list (ref * nat) :=
  filter (fun e => match fst e with RTag _ => true | _ => false end) ix ++
  map (fun n => (RDig n, n))
      (dedup (tagged_nodes ix) ++ kept ++
       (if kl then filter (gexists succ manifest bl (tagged_nodes ix) g) (digested ix) else [])).

Lemma gc_index_eq (kl : bool) : exists g kept,
  gc_index succ subject manifest cfg_fixed kl ords st = Some (new_idx kl g kept, g) /\
  GInv g kept /\ settled g kept /\ forall x, In x g <-> Live x.
Proof.
  destruct (gc_passes_spec (S (length (candidates ix))) 0 _ [] GInv_init ltac:(simpl; lia))
    as (g & kept & Hp & I & Hfin).
  exists g, kept. split; [|split; [|split]]; [|assumption|assumption|now apply (settled_live g kept)].
  unfold gc_index. fold ix bl. change (clo succ manifest cfg_fixed bl) with (closure succ bl).
  now rewrite Hp.
Qed.

Lemma new_idx_In kl g kept r n :
  In (r, n) (new_idx kl g kept) <->
  match r with
  | RTag _ => In (r, n) ix
  | RDig d => d = n /\ (In n (tagged_nodes ix) \/ In n kept \/
                        (kl = true /\ In n (digested ix) /\ gexists succ manifest bl (tagged_nodes ix) g n = true))
  | RStale _ => False
  end.
Proof.
  unfold new_idx. rewrite in_app_iff, filter_In, in_map_iff. cbn [fst].
  set (l := dedup (tagged_nodes ix) ++ _).
  assert (Hl : forall m, In m l <-> In m (tagged_nodes ix) \/ In m kept \/
                 (kl = true /\ In m (digested ix) /\ gexists succ manifest bl (tagged_nodes ix) g m = true)).
  { intro m. unfold l. rewrite !in_app_iff, dedup_In. destruct kl; [rewrite filter_In|simpl]; intuition congruence. }
  destruct r as [t|d|t].
  - split; [intros [[H _]|(m & E & _)]; [exact H|discriminate]|intro H; left; now split].
  - rewrite <- Hl. split.
    + intros [[_ H]|(m & E & H)]; [discriminate|]. injection E as -> ->. now split.
    + intros [-> H]. right. now exists n.
  - split; [intros [[_ H]|(m & E & _)]; discriminate|intros []].
Qed.

Lemma new_idx_dig_src kl g kept d r : GInv g kept -> In (RDig d, r) (new_idx kl g kept) ->
  d = r /\ ((exists t, In (RTag t, r) ix) \/ (exists d', In (RDig d', r) ix)).
Proof.
  intros I H. apply new_idx_In in H as [E [H|[H|(_ & H & _)]]]; (split; [exact E|]).
  - left. now apply tagged_nodes_In.
  - right. apply (gi_cand _ _ I), candidates_In in H. apply H.
  - right. now apply digested_In.
Qed.

Lemma new_idx_dig_kept kl g kept d r s : GInv g kept -> settled g kept ->
  In (RDig d, r) ix -> Chain bl r s -> Live s -> manifest s = true -> In (RDig r, r) (new_idx kl g kept).
Proof.
  intros I Hfin Hd Hc Hs Hm. apply new_idx_In. split; [reflexivity|].
  destruct (settled_root g kept d r Hfin Hd) as [H|H]; [|now left|right; now left].
  exists s. split; [assumption|]. split; [now apply (settled_live g kept)|assumption].
Qed.

End GC.

(* The live set depends only on the tags, on which descriptors have a by-digest reference and
   on the stored content that is live: a state whose references were rebuilt by gcIndex and
   whose storage lost only garbage has the same live set. *)
Lemma Reach_within bl bl' n x :
  Reach bl n x -> (forall y, Reach bl n y -> In y bl') -> Reach bl' n x.
Proof.
  intro H. induction H as [n Hn|n s x Hn Hs Hr IH]; intro Hy.
  - apply R_refl. apply Hy. now apply R_refl.
  - eapply R_step; [apply Hy; now apply R_refl|exact Hs|]. apply IH. intros y Hry. apply Hy.
    eapply R_step; eauto.
Qed.

Lemma Reach_mono bl bl' n x : (forall y, In y bl -> In y bl') -> Reach bl n x -> Reach bl' n x.
Proof. intros Hs H. apply (Reach_within _ _ _ _ H). intros y Hy. eapply Hs, Reach_in, Hy. Qed.

Lemma Chain_mono bl bl' r s : (forall y, In y bl -> In y bl') -> Chain bl r s -> Chain bl' r s.
Proof.
  intros Hs H. induction H as [r s Hr E|r m s Hr E _ IH]; [apply C_one; auto|eapply C_step; eauto].
Qed.

Lemma Live_reach st n x : Live st n -> Reach (blobs st) n x -> Live st x.
Proof.
  intros HL Hr. destruct HL; [eapply L_tag|eapply L_ref]; eauto using Reach_trans.
Qed.

Lemma Chain_within st r s :
  Chain (blobs st) r s -> Live st r -> forall bl', (forall y, Live st y -> In y bl') -> Chain bl' r s.
Proof.
  intros H. induction H as [r s Hr E|r m s Hr E Hc IH]; intros HL bl' Hb.
  - apply C_one; auto.
  - eapply C_step; eauto. apply IH; [|assumption].
    eapply Live_reach; [exact HL|]. eapply (R_step _ r m m); [exact Hr|apply subj_succ; exact E|].
    apply R_refl. inversion Hc; assumption.
Qed.

Lemma Live_rebuilt st st' :
  (forall t n, In (RTag t, n) (idx st') <-> In (RTag t, n) (idx st)) ->
  (forall d r, In (RDig d, r) (idx st') ->
     (exists t, In (RTag t, r) (idx st)) \/ (exists d', In (RDig d', r) (idx st))) ->
  (forall d r s, In (RDig d, r) (idx st) -> Chain (blobs st) r s -> Live st s -> manifest s = true ->
     In (RDig r, r) (idx st')) ->
  (forall x, In x (blobs st') -> In x (blobs st)) ->
  (forall x, Live st x -> In x (blobs st')) ->
  forall x, Live st' x <-> Live st x.
Proof.
  intros HT HD1 HD2 Hsub Hkeep x. split.
  - induction 1 as [t n x Ht Hr|d r s x Hd Hc _ IHs Hm Hr].
    + eapply L_tag; [apply HT; exact Ht|]. eapply Reach_mono; eauto.
    + apply (Reach_mono _ _ _ _ Hsub) in Hr. destruct (HD1 d r Hd) as [(t & Ht)|(d' & Hd')].
      * eapply L_tag; eauto.
      * eapply L_ref; eauto. eapply Chain_mono; eauto.
  - induction 1 as [t n x Ht Hr|d r s x Hd Hc Hs IHs Hm Hr].
    + eapply L_tag; [apply HT; exact Ht|]. apply (Reach_within _ _ _ _ Hr).
      intros y Hy. apply Hkeep. eapply L_tag; eauto.
    + assert (HLr : Live st r).
      { eapply L_ref; eauto. apply R_refl. eapply Reach_start; eauto. }
      eapply (L_ref st' r r s x); [eapply HD2; eauto| |exact IHs|exact Hm|].
      * eapply Chain_within; eauto.
      * apply (Reach_within _ _ _ _ Hr). intros y Hy. apply Hkeep. eapply Live_reach; eauto.
Qed.

(* GC of the repaired code: terminates with Ok for every state and every order,
   the rebuilt graph and the surviving blobs are exactly the live set, tags are
   untouched, stray files: exactly those with a valid digest name in a known
   algorithm directory are removed *)
Lemma gc_exact : forall (kl : bool) (ords : nat -> list nat) (st : state),
  (forall i n, In n (ords i) <-> In n (candidates (idx st))) ->
  exists st',
    gc succ subject manifest cfg_fixed kl ords st = (st', Ok) /\
    (forall x, In x (gnodes st') <-> Live st x) /\
    (forall x, In x (blobs st') <-> In x (blobs st) /\ Live st x) /\
    (forall t n, In (RTag t, n) (idx st') <-> In (RTag t, n) (idx st)) /\
    (forall s, In s (strays st') <-> In s (strays st) /\ (s_known s && s_valid s = false)) /\
    autogc st' = autogc st.
Proof.
  intros kl ords st Ho. unfold gc.
  destruct (gc_index_eq st ords Ho kl) as (g & kept & Hg & _ & _ & HL). rewrite Hg.
  eexists. split; [reflexivity|]. cbn [blobs idx gnodes strays autogc].
  split; [intro x; rewrite dedup_In; apply HL|].
  split; [intro x; rewrite filter_In, memb_In, HL; reflexivity|].
  split; [intros t n; apply (new_idx_In st kl g kept (RTag t))|].
  split; [|reflexivity]. intro s. rewrite filter_In. unfold sweep_stray. now rewrite negb_true_iff.
Qed.

Lemma live_after_rebuild kl ords st st' g :
  same_elements ords (candidates (idx st)) ->
  gc_index succ subject manifest cfg_fixed kl ords st = Some (idx st', g) ->
  (forall x, In x (blobs st') -> In x (blobs st)) ->
  (forall x, Live st x -> In x (blobs st')) ->
  forall x, Live st' x <-> Live st x.
Proof.
  intros Ho Hg Hsub Hkeep.
  destruct (gc_index_eq st ords Ho kl) as (g' & kept & Hg' & I & Hs & _).
  rewrite Hg in Hg'. injection Hg' as E _.
  apply Live_rebuilt; try assumption; rewrite E.
  - intros t n. apply (new_idx_In st kl g' kept (RTag t)).
  - intros d r Hd. now destruct (new_idx_dig_src st kl g' kept d r I Hd).
  - intros d r s. now apply new_idx_dig_kept.
Qed.

(* GC whose context is cancelled in the sweep after [k] entries of the directory order: the
   index is rebuilt exactly as by a complete GC, no live blob is removed, what is removed is
   garbage among the handled entries, and the live set is unchanged *)
Lemma gc_cancel_spec : forall kl ords order k st,
  same_elements ords (candidates (idx st)) ->
  exists st',
    gc_cancel succ subject manifest cfg_fixed kl ords order k st = (st', ECanceled) /\
    idx st' = idx (fst (gc succ subject manifest cfg_fixed kl ords st)) /\
    gnodes st' = gnodes (fst (gc succ subject manifest cfg_fixed kl ords st)) /\
    (forall x, In x (gnodes st') <-> Live st x) /\
    (forall x, In x (blobs st') <->
               In x (blobs st) /\ (Live st x \/ swept_blob x (firstn k order) = false)) /\
    (forall s, In s (strays st') <->
               In s (strays st) /\ (s_known s && s_valid s = false \/
                                    swept_stray (s_id s) (firstn k order) = false)) /\
    autogc st' = autogc st /\
    (forall x, Live st' x <-> Live st x).
Proof.
  intros kl ords order k st Ho. unfold gc_cancel, gc.
  destruct (gc_index_eq st ords Ho kl) as (g & kept & Hg & _ & _ & HL). rewrite Hg.
  eexists. split; [reflexivity|]. cbn [fst idx gnodes blobs strays autogc].
  assert (Hb : forall x, In x (filter (fun n => memb n g || negb (swept_blob n (firstn k order))) (blobs st)) <->
               In x (blobs st) /\ (Live st x \/ swept_blob x (firstn k order) = false)).
  { intro x. rewrite filter_In, orb_true_iff, negb_true_iff, memb_In, HL. tauto. }
  split; [reflexivity|]. split; [reflexivity|]. split; [intro x; rewrite dedup_In; apply HL|].
  split; [exact Hb|]. split; [|split; [reflexivity|]].
  - intro s. rewrite filter_In, orb_true_iff, negb_true_iff. unfold sweep_stray.
    rewrite negb_true_iff. tauto.
  - eapply (live_after_rebuild kl ords st _ g Ho); cbn [idx blobs].
    + exact Hg.
    + intros x Hx. apply Hb in Hx. tauto.
    + intros x Hx. apply Hb. split; [eapply Live_in; eauto|now left].
Qed.

Lemma gc_live_same : forall kl ords st,
  same_elements ords (candidates (idx st)) ->
  forall x, Live (fst (gc succ subject manifest cfg_fixed kl ords st)) x <-> Live st x.
Proof.
  intros kl ords st Ho. unfold gc.
  destruct (gc_index_eq st ords Ho kl) as (g & kept & Hg & _ & _ & HL). rewrite Hg. cbn [fst].
  apply (live_after_rebuild kl ords st _ g Ho); cbn [idx blobs].
  - exact Hg.
  - intros x Hx. now apply filter_In in Hx.
  - intros x Hx. apply filter_In. split; [eapply Live_in; eauto|]. now apply memb_In, HL.
Qed.

(* reopening the store right after GC (the rebuilt index is what index.json holds) gives the
   same storage, the same references and the same graph *)
Lemma gc_reopen : forall kl ords st st',
  (forall i n, In n (ords i) <-> In n (candidates (idx st))) ->
  gc succ subject manifest cfg_fixed kl ords st = (st', Ok) ->
  let st2 := fst (step succ subject manifest cfg_fixed kl st' OReopen) in
  blobs st2 = blobs st' /\ idx st2 = idx st' /\ strays st2 = strays st' /\
  (forall x, In x (gnodes st2) <-> In x (gnodes st')).
Proof.
  intros kl ords st st' Ho Hgc. unfold gc in Hgc.
  destruct (gc_index_eq st ords Ho kl) as (g & kept & Hg & I & Hs & HL).
  rewrite Hg in Hgc. injection Hgc as <-. cbn [step fst blobs idx strays gnodes].
  assert (Hf : filter (fun e : ref * nat => match fst e with RStale _ => false | _ => true end)
                      (new_idx st kl g kept) = new_idx st kl g kept).
  { apply filter_all. intros [r n] He. apply new_idx_In in He. now destruct r. }
  rewrite Hf. do 3 (split; [reflexivity|]). intro x. rewrite !dedup_In, in_flat_map.
  change (clo succ manifest cfg_fixed) with (closure succ). split.
  - intros (n & _ & Hx). apply closure_spec in Hx.
    eapply closed_reach; [apply (gi_closed _ _ _ I)| |].
    + eapply Reach_mono; [|exact Hx]. intros y Hy. now apply filter_In in Hy.
    + apply Reach_start in Hx. apply filter_In in Hx as [_ Hx]. now apply memb_In.
  - (* every live node is reachable from a root that the new reference map lists *)
    intro Hx. assert (Hroot : exists n, In n (map snd (new_idx st kl g kept)) /\ Live st n /\ Reach (blobs st) n x).
    { apply HL in Hx. destruct Hx as [t n x Ht Hr|d r s x Hd Hc Hls Hms Hr].
      - exists n. split; [|split; [eapply L_tag; eauto; apply R_refl; eapply Reach_start; eauto|exact Hr]].
        apply (in_map snd _ (RTag t, n)). now apply new_idx_In.
      - exists r. split; [|split; [eapply L_ref; eauto; apply R_refl; eapply Reach_start; eauto|exact Hr]].
        apply (in_map snd _ (RDig r, r)). eapply new_idx_dig_kept; eauto. }
    destruct Hroot as (n & Hn & Hl & Hr). exists n. split; [exact Hn|]. apply closure_spec.
    apply (Reach_within _ _ _ _ Hr). intros y Hy. apply filter_In.
    split; [eapply Reach_in; eauto|]. apply memb_In, HL. eapply Live_reach; eauto.
Qed.

(* which by-digest references the rebuilt index has when GC keeps those of live descriptors
   (kl = true: the code as it is) *)
Lemma gc_digest_refs ords st : same_elements ords (candidates (idx st)) ->
  let st' := fst (gc succ subject manifest cfg_fixed true ords st) in
  forall d r, In (RDig d, r) (idx st') <->
    d = r /\ ((exists t, In (RTag t, r) (idx st)) \/
              ((exists d', In (RDig d', r) (idx st)) /\
               (Live st r \/
                (~ In r (blobs st) /\ manifest r = false /\
                 exists p, Live st p /\ In r (succ p))))).
Proof.
  intros Ho st' d r. unfold st', gc.
  destruct (gc_index_eq st ords Ho true) as (g & kept & Hg & I & _ & HL). rewrite Hg. cbn [fst idx].
  rewrite new_idx_In, tagged_nodes_In, digested_In. unfold gexists, leaf_absent.
  rewrite orb_true_iff, !andb_true_iff, orb_true_iff, !negb_true_iff, memb_false, !memb_In, HL,
    tagged_nodes_In, existsb_exists.
  split; (intros [E H]; split; [exact E|]).
  - destruct H as [H|[H|(_ & Hd & [H|((Hb & Hm) & [H|(p & Hp & H)])])]]; auto.
    + right. split; [|left; apply HL; now apply (gi_kept _ _ _ I)].
      apply (gi_cand _ _ _ I), candidates_In in H. apply H.
    + right. split; [exact Hd|]. right. split; [exact Hb|]. split; [exact Hm|].
      exists p. split; [now apply HL|now apply memb_In].
  - destruct H as [H|[Hd [H|(Hb & Hm & p & Hp & H)]]]; auto; right; right; (split; [reflexivity|]);
      (split; [exact Hd|]); [now left|right].
    split; [now split|]. right. exists p. split; [now apply HL|now apply memb_In].
Qed.

(* a GC after a cancelled GC ends where the complete GC would have ended *)
Lemma gc_resume kl ords order k st ords2 :
  same_elements ords (candidates (idx st)) ->
  let sc := fst (gc_cancel succ subject manifest cfg_fixed kl ords order k st) in
  same_elements ords2 (candidates (idx sc)) ->
  let s1 := fst (gc succ subject manifest cfg_fixed kl ords st) in
  let s2 := fst (gc succ subject manifest cfg_fixed kl ords2 sc) in
  snd (gc succ subject manifest cfg_fixed kl ords2 sc) = Ok /\
  (forall x, In x (blobs s2) <-> In x (blobs s1)) /\
  (forall x, In x (gnodes s2) <-> In x (gnodes s1)) /\
  (forall t n, In (RTag t, n) (idx s2) <-> In (RTag t, n) (idx s1)).
Proof.
  intros Ho sc Ho2 s1 s2.
  destruct (gc_cancel_spec kl ords order k st Ho) as (sc' & Ec & Ei & _ & _ & Hb & _ & _ & HLc).
  assert (Esc : sc = sc') by (unfold sc; now rewrite Ec). subst sc'.
  destruct (gc_exact kl ords st Ho) as (t1 & E1 & G1 & B1 & T1 & _).
  destruct (gc_exact kl ords2 sc Ho2) as (t2 & E2 & G2 & B2 & T2 & _).
  unfold s1, s2. rewrite E2, E1. cbn [fst snd]. split; [reflexivity|]. split; [|split].
  - intro x. rewrite B2, B1, Hb, HLc. tauto.
  - intro x. rewrite G2, G1. apply HLc.
  - intros t n. rewrite T2, T1, Ei, E1. apply T1.
Qed.

Lemma gc_idempotent kl ords st ords2 :
  same_elements ords (candidates (idx st)) ->
  let s1 := fst (gc succ subject manifest cfg_fixed kl ords st) in
  same_elements ords2 (candidates (idx s1)) ->
  let s2 := fst (gc succ subject manifest cfg_fixed kl ords2 s1) in
  (forall x, In x (blobs s2) <-> In x (blobs s1)) /\
  (forall x, In x (gnodes s2) <-> In x (gnodes s1)) /\
  (forall t n, In (RTag t, n) (idx s2) <-> In (RTag t, n) (idx s1)) /\
  (forall s, In s (strays s2) <-> In s (strays s1)).
Proof.
  intros Ho s1 Ho2 s2.
  pose proof (gc_live_same kl ords st Ho) as HL. fold s1 in HL.
  destruct (gc_exact kl ords st Ho) as (t1 & E1 & G1 & B1 & _ & S1 & _).
  destruct (gc_exact kl ords2 s1 Ho2) as (t2 & E2 & G2 & B2 & T2 & S2 & _).
  assert (Es1 : s1 = t1) by (unfold s1; now rewrite E1).
  unfold s2. rewrite E2. cbn [fst]. split; [|split; [|split]].
  - intro x. rewrite B2, HL, Es1, B1. tauto.
  - intro x. rewrite G2, HL, Es1, G1. tauto.
  - exact T2.
  - intro s. rewrite S2, Es1, S1. tauto.
Qed.

Lemma preds_In g n p : In p (preds succ g n) <-> In p g /\ In n (succ p).
Proof. unfold preds. now rewrite filter_In, memb_In. Qed.

Lemma has_subject_spec r p : has_subject subject r p = true <-> subject p = Some r.
Proof.
  unfold has_subject. destruct (subject p) as [s|]; [|split; discriminate].
  rewrite Nat.eqb_eq. split; congruence.
Qed.

Lemma referrers_In g m r :
  In r (referrers succ subject g m) <-> In r g /\ subject r = Some m.
Proof.
  unfold referrers. rewrite filter_In, preds_In, has_subject_spec. split; [tauto|].
  intros [Hg Hs]. auto using subj_succ.
Qed.

Lemma danglings_In g n d :
  In d (danglings succ g n) <->
  In n g /\ In d (succ n) /\ In d g /\ forall p, In p g -> In d (succ p) -> p = n.
Proof.
  unfold danglings. destruct (memb n g) eqn:E.
  - apply memb_In in E. rewrite filter_In, dedup_In, andb_true_iff, memb_In, forallb_forall. split.
    + intros (Hs & Hd & Hall). repeat split; try assumption. intros p Hp Hps.
      apply Nat.eqb_eq. apply Hall. apply preds_In. now split.
    + intros (_ & Hs & Hd & Hall). repeat split; try assumption. intros p Hp.
      apply preds_In in Hp as [Hp Hps]. apply Nat.eqb_eq. auto.
  - apply memb_false in E. simpl. split; [intros []|]. now intros [H _].
Qed.

Lemma del_idx_In st n e :
  In e (del_idx succ manifest st n) <->
  (In e (idx st) /\ snd e <> n) \/
  (exists d, e = (RDig d, d) /\ In d (danglings succ (gnodes st) n) /\ manifest d = true /\
             forall m, In (RDig d, m) (idx st) -> m = n).
Proof.
  unfold del_idx. rewrite in_app_iff, in_map_iff, filter_In, negb_true_iff, Nat.eqb_neq. split.
  - intros [(d & <- & Hd)|H]; [right|left; exact H]. apply filter_In in Hd as [Hd Hc].
    apply andb_true_iff in Hc as [Hm Hl]. exists d. repeat split; try assumption.
    intros m Hin. destruct (Nat.eq_dec m n) as [E|E]; [exact E|exfalso].
    destruct (lookup _ _) eqn:El; [discriminate|]. apply (proj1 (lookup_None _ _) El m).
    apply filter_In. split; [exact Hin|]. now apply negb_true_iff, Nat.eqb_neq.
  - intros [H|(d & -> & Hd & Hm & Hl)]; [right; exact H|left]. exists d. split; [reflexivity|].
    apply filter_In. split; [assumption|]. rewrite Hm. cbn [andb].
    replace (lookup (RDig d) _) with (@None nat); [reflexivity|]. symmetry. apply lookup_None.
    intros m Hin. apply filter_In in Hin as [Hin Hne]. apply Hl in Hin. subst.
    cbn in Hne. now rewrite Nat.eqb_refl in Hne.
Qed.

Lemma remove_one_In x y l : In y (remove_one x l) -> In y l.
Proof.
  induction l as [|a l IH]; simpl; [tauto|]. destruct (Nat.eqb a x); [now right|].
  intros [H|H]; [now left|right; now apply IH].
Qed.

Lemma entries_succ p r : In r (entries succ subject p) -> In r (succ p).
Proof. unfold entries. destruct (subject p); [apply remove_one_In|tauto]. Qed.

Definition wf (st : state) : Prop := forall y, In y (gnodes st) -> In y (blobs st).

(* the weaker form the Delete theorems need: the graph nodes that are manifests or have a
   subject are stored; a layer/config may be a stale graph node without content (after a Delete
   by the blob descriptor Resolve(<digest>) returns) *)
Definition wfm (st : state) : Prop :=
  forall y, In y (gnodes st) -> manifest y = true \/ subject y <> None -> In y (blobs st).

Lemma wf_wfm st : wf st -> wfm st.
Proof. intros H y Hy _. now apply H. Qed.

Section Delete.
Variable st0 : state.
Variable x : nat.
Let G := gnodes st0.
Let B := blobs st0.

(* p holds r: r is an entry of p (manifests, layers, config, blobs), not merely its subject
   (a referrer does not keep its subject alive) *)
Definition holds (p r : nat) : Prop := In r (entries succ subject p).

(* the set Delete(x) removes when AutoGC is on: least set containing x, closed under
   "untagged manifest of the store whose subject (a manifest) was removed and whose holders
   were all removed" and "untagged node of the store that had predecessors, all of which
   were removed" *)
Inductive Gone : nat -> Prop :=
| G_target : Gone x
| G_ref r m : Gone m -> manifest m = true -> In r G -> subject r = Some m ->
              is_tagged st0 r = false ->
              (forall p, In p G -> holds p r -> Gone p) -> Gone r
| G_dang d : In d G -> In d B -> is_tagged st0 d = false ->
             (exists p, In p G /\ In d (succ p)) ->
             (forall p, In p G -> In d (succ p) -> Gone p) -> Gone d.

Hypothesis wf_sub : wfm st0.
Hypothesis auto_on : autogc st0 = true.
Hypothesis x_in : In x B.

Variable ord : nat -> list nat -> list nat.
Hypothesis ord_perm : reorders ord.

Definition waiting (proc : list nat) (r : nat) : Prop :=
  In r G /\ is_tagged st0 r = false /\
  exists m, In m proc /\ manifest m = true /\ subject r = Some m.

(* by-digest references name their own content (true in every reachable state: refs_ok) *)
Definition digs_ok0 : Prop := forall d n, In (RDig d, n) (idx st0) -> d = n.

(* d is a manifest of the graph that is not processed, had predecessors, lost all of them and
   had no by-digest reference: delete() lists it by its digest *)
Definition rerooted (proc : list nat) (d : nat) : Prop :=
  manifest d = true /\ In d G /\ ~ In d proc /\ (exists p, In p G /\ In d (succ p)) /\
  (forall p, In p G -> In d (succ p) -> In p proc) /\ (forall m, ~ In (RDig d, m) (idx st0)).

(* the reference map during the cascade: the entries of the start state whose target is not
   processed, plus by-digest entries of manifests that lost their last predecessor *)
Definition idx_rel (ix : list (ref * nat)) (proc : list nat) : Prop :=
  (forall e, In e ix -> ~ In (snd e) proc /\
             (In e (idx st0) \/ exists d, e = (RDig d, d) /\ manifest d = true /\
                                         (digs_ok0 -> rerooted proc d))) /\
  (forall e, In e (idx st0) -> ~ In (snd e) proc -> In e ix) /\
  (digs_ok0 -> forall d, rerooted proc d -> In (RDig d, d) ix).

(* the store after the nodes [proc] were deleted one by one *)
Record SInv (st : state) (proc : list nat) : Prop := {
  si_g : forall y, In y (gnodes st) <-> In y G /\ ~ In y proc;
  si_b : forall y, In y (blobs st) <-> In y B /\ ~ In y proc;
  si_i : idx_rel (idx st) proc;
  si_a : autogc st = true;
  si_s : strays st = strays st0 }.

Lemma tagged_same st proc y : SInv st proc -> ~ In y proc -> is_tagged st y = is_tagged st0 y.
Proof.
  intros [_ _ [H1 [H2 _]] _ _] Hy. apply eq_true_iff_eq. rewrite !is_tagged_spec.
  split; intros (t & [H|H]); exists t.
  - left. destruct (H1 _ H) as [_ [Ho|(d & E & _)]]; [assumption|discriminate].
  - right. destruct (H1 _ H) as [_ [Ho|(d & E & _)]]; [assumption|discriminate].
  - left. apply H2; assumption.
  - right. apply H2; assumption.
Qed.

(* the danglings graph.Remove reports for h, in terms of the start graph: the successors of h
   all of whose predecessors are processed once h is *)
Lemma danglings_now st proc h d : SInv st proc -> ~ In h proc ->
  (In d (danglings succ (gnodes st) h) <->
   In h G /\ In d (succ h) /\ In d G /\ ~ In d proc /\
   forall p, In p G -> In d (succ p) -> In p (proc ++ [h])).
Proof.
  intros I Hh. rewrite danglings_In, !(si_g _ _ I). split.
  - intros ((HhG & _) & Hs & (Hd & Hdp) & Hall). repeat split; try assumption. intros p Hp Hps.
    apply in_snoc. destruct (in_dec Nat.eq_dec p proc) as [Hpp|Hpp]; [now left|right].
    apply Hall; [apply (si_g _ _ I); now split|assumption].
  - intros (HhG & Hs & Hd & Hdp & Hall). repeat split; try assumption. intros p Hp Hps.
    apply (si_g _ _ I) in Hp as [Hp Hpp]. apply Hall, in_snoc in Hps as [Hps|Hps]; [contradiction|assumption|assumption].
Qed.

Lemma SInv_step st proc h : SInv st proc -> ~ In h proc ->
  SInv (fst (fst (delete_one succ manifest st h))) (proc ++ [h]).
Proof.
  intros I Hh.
  destruct (si_i _ _ I) as [Hi1 [Hi2 Hi3]].
  assert (Hmono : forall d, rerooted proc d -> d <> h -> rerooted (proc ++ [h]) d).
  { intros d (A & B0 & C & D & E & F) Hne. repeat split; try assumption.
    - rewrite in_snoc. intros [H|H]; [contradiction|congruence].
    - intros p Hp Hs. apply in_snoc. left. now apply E. }
  constructor; cbn [delete_one fst gnodes blobs idx strays autogc].
  - intro y. rewrite removeb_In, (si_g _ _ I), in_snoc. tauto.
  - intro y. rewrite removeb_In, (si_b _ _ I), in_snoc. tauto.
  - split; [|split].
    + intros e He. apply del_idx_In in He as [[He Hne]|(d & -> & Hd & Hm & Hl)].
      * destruct (Hi1 e He) as [Hp Ho]. split; [rewrite in_snoc; tauto|].
        destruct Ho as [Ho|(d & Ed & Hm & Hr)]; [now left|right]. exists d.
        split; [exact Ed|split; [exact Hm|]].
        intro P. apply Hmono; [now apply Hr|]. subst e. exact Hne.
      * apply (danglings_now st proc h d I Hh) in Hd as (HhG & Hs & Hd & Hdp & Hall).
        pose proof (succ_lt _ _ Hs) as Hlt.
        assert (Hdp' : ~ In d (proc ++ [h])) by (rewrite in_snoc; intros [H|H]; [contradiction|lia]).
        split; [exact Hdp'|]. right. exists d. split; [reflexivity|split; [exact Hm|]].
        intro P. repeat split; try assumption; [eauto|].
        intros m Hm0. pose proof (P _ _ Hm0). subst m.
        assert (d = h); [|lia]. apply Hl, Hi2; assumption.
    + intros e He Hp. rewrite in_snoc in Hp. apply del_idx_In. left. split; [apply Hi2|]; tauto.
    + intros P d Hr. pose proof Hr as (A & B0 & C & D & E & F). rewrite in_snoc in C.
      apply del_idx_In.
      destruct (in_dec Nat.eq_dec h G) as [HhG|HhG]; [destruct (in_dec Nat.eq_dec d (succ h)) as [Hsh|Hsh]|].
      1: { right. exists d. split; [reflexivity|].
           split; [apply (danglings_now st proc h d I Hh); tauto|]. split; [exact A|].
           intros m Hin. exfalso.
           destruct (Hi1 _ Hin) as [_ [Ho|(d' & Ed & _ & Hr')]]; [exact (F m Ho)|].
           injection Ed as <- <-. destruct (Hr' P) as (_ & _ & _ & _ & E' & _). now apply Hh, E'. }
      (* h is no predecessor of d: d was rerooted before *)
      all: left; (split; [|cbn; tauto]); apply Hi3; [assumption|]; repeat split; try assumption; [tauto|];
        intros p Hp Hps; destruct (proj1 (in_snoc _ _ _) (E p Hp Hps)) as [H|H]; [exact H|subst p; contradiction].
  - apply (si_a _ _ I).
  - apply (si_s _ _ I).
Qed.

(* what Delete's queue knows: [seen] = processed ++ queued, all of it is in Gone; every
   untagged referrer of a processed manifest is queued or pending; every node that lost all
   its predecessors is queued *)
Record QInv (queue seen proc pending : list nat) : Prop := {
  qi_seen : seen = proc ++ queue;
  qi_nodup : NoDup seen;
  qi_x : In x seen;
  qi_sound : forall y, In y seen -> Gone y;
  qi_sub : forall y, In y seen -> (y = x \/ In y G) /\ In y B;
  qi_ref : forall r, waiting proc r -> In r seen \/ In r pending;
  qi_pend : forall r, In r pending -> waiting proc r;
  qi_blocked : queue = [] -> forall r, In r pending -> ~ In r seen ->
               exists p, In p G /\ holds p r /\ ~ In p seen;
  qi_dang : forall d, In d G -> In d B -> is_tagged st0 d = false ->
                      (exists p, In p G /\ In d (succ p)) ->
                      (forall p, In p G -> In d (succ p) -> In p proc) -> In d seen }.

Lemma QInv_head h q seen proc pending : QInv (h :: q) seen proc pending ->
  ~ In h proc /\ forall y, In y (proc ++ [h]) -> In y seen.
Proof.
  intro I. pose proof (qi_nodup _ _ _ _ I) as Hnd. rewrite (qi_seen _ _ _ _ I) in *. split.
  - apply NoDup_remove_2 in Hnd. intro H. apply Hnd, in_or_app. now left.
  - intros y Hy. rewrite in_app_iff. apply in_snoc in Hy as [Hy| ->]; [now left|right; now left].
Qed.

(* one turn of the queue loop, on the sets: [fresh] = the new untagged stored danglings of h,
   [cand] = the pending referrers and the untagged referrers of h that are not queued,
   [ready] / [rest] = those of them that no / some survivor that is not queued holds *)
Lemma QInv_step h q seen proc pending fresh cand ready rest :
  QInv (h :: q) seen proc pending ->
  NoDup fresh -> NoDup ready ->
  (forall y, In y fresh <->
     (In h G /\ In y (succ h) /\ In y G /\ In y B /\ is_tagged st0 y = false /\
      forall p, In p G -> In y (succ p) -> In p (proc ++ [h])) /\ ~ In y seen) ->
  (forall r, In r cand <->
     (In r pending \/ (manifest h = true /\ In r G /\ subject r = Some h /\ is_tagged st0 r = false)) /\
     ~ In r (seen ++ fresh)) ->
  (forall r, In r cand -> In r ready \/ In r rest) ->
  (forall r, In r ready <-> In r cand /\ ~ exists p, In p G /\ holds p r /\ ~ In p (seen ++ fresh)) ->
  (forall r, In r rest <-> In r cand /\ exists p, In p G /\ holds p r /\ ~ In p (seen ++ fresh)) ->
  QInv (q ++ fresh ++ ready) ((seen ++ fresh) ++ ready) (proc ++ [h]) rest.
Proof.
  intros I Nf Nr Hfresh Hcand Hpart Hready Hrest.
  pose proof (qi_seen _ _ _ _ I) as Hseen. destruct (QInv_head _ _ _ _ _ I) as [_ Hproc].
  assert (Hwait : forall r, In r cand -> waiting (proc ++ [h]) r).
  { intros r Hr. apply Hcand in Hr as [[Hr|(Hman & Hg & Hs & Ht)] _].
    - destruct (qi_pend _ _ _ _ I r Hr) as (HG & Ht & m & Hm & Hman & Hs).
      repeat split; try assumption. exists m. rewrite in_snoc. auto.
    - repeat split; try assumption. exists h. rewrite in_snoc. auto. }
  assert (Hsound1 : forall y, In y (seen ++ fresh) -> Gone y).
  { intros y Hy. apply in_app_or in Hy as [Hy|Hy]; [now apply (qi_sound _ _ _ _ I)|].
    apply Hfresh in Hy as [(HhG & Hs & Hg & Hb & Ht & Hall) _]. apply G_dang; try assumption; [eauto|].
    intros p Hp Hps. apply (qi_sound _ _ _ _ I), Hproc, Hall; assumption. }
  constructor.
  - rewrite Hseen, <- !app_assoc. reflexivity.
  - apply NoDup_app_intro; [apply NoDup_app_intro; [apply (qi_nodup _ _ _ _ I)|exact Nf|]|exact Nr|].
    + intros y Hy Hy'. now apply Hfresh in Hy'.
    + intros y Hy Hy'. apply Hready in Hy' as [Hy' _]. now apply Hcand in Hy'.
  - rewrite !in_app_iff. left. left. apply (qi_x _ _ _ _ I).
  - intros y Hy. apply in_app_or in Hy as [Hy|Hy]; [now apply Hsound1|].
    apply Hready in Hy as [Hc Hno]. destruct (Hwait y Hc) as (HG & Ht & m & Hm & Hman & Hs).
    apply (G_ref y m); try assumption; [now apply Hsound1, in_or_app; left; apply Hproc|].
    intros p Hp Hh. destruct (in_dec Nat.eq_dec p (seen ++ fresh)) as [Hps|Hps]; [now apply Hsound1|].
    exfalso. apply Hno. eauto.
  - intros y Hy. apply in_app_or in Hy as [Hy|Hy]; [apply in_app_or in Hy as [Hy|Hy]|].
    + now apply (qi_sub _ _ _ _ I).
    + apply Hfresh in Hy. tauto.
    + apply Hready in Hy as [Hc _]. destruct (Hwait y Hc) as (HyG & _ & m & _ & _ & Hs).
      split; [now right|]. apply wf_sub; [assumption|]. right. congruence.
  - intros r Hw. destruct (in_dec Nat.eq_dec r (seen ++ fresh)) as [Hrs|Hrs];
      [left; apply in_or_app; now left|].
    assert (Hc : In r cand).
    { apply Hcand. split; [|assumption]. destruct Hw as (HG & Ht & m & Hm & Hman & Hs).
      apply in_snoc in Hm as [Hm| ->]; [left|right; now repeat split].
      destruct (qi_ref _ _ _ _ I r) as [H|H]; [repeat split; eauto| |exact H].
      exfalso. apply Hrs. apply in_or_app. now left. }
    destruct (Hpart r Hc); [left; apply in_or_app|]; now right.
  - intros r Hr. apply Hrest in Hr as [Hc _]. now apply Hwait.
  - intros Hq r Hr Hrs. assert (Hre : ready = []).
    { destruct q; [|discriminate]. destruct fresh; [|discriminate]. exact Hq. }
    apply Hrest in Hr as [_ (p & Hp & Hh & Hps)]. exists p. now rewrite Hre, app_nil_r.
  - intros d Hd HdB Ht Hex Hall. rewrite !in_app_iff.
    destruct (in_dec Nat.eq_dec d seen) as [Hds|Hds]; [now left; left|].
    destruct (in_dec Nat.eq_dec h G) as [HhG|HhG]; [destruct (in_dec Nat.eq_dec d (succ h)) as [Hsh|Hsh]|].
    1: { left. right. apply Hfresh. now repeat split. }
    (* h is no predecessor of d: its predecessors were all processed before *)
    all: left; left; apply (qi_dang _ _ _ _ I); try assumption; intros p Hp Hps;
      destruct (proj1 (in_snoc _ _ _) (Hall p Hp Hps)) as [H|H]; [exact H|subst p; contradiction].
Qed.

(* Store.heldBySurvivor *)
Lemma held_spec g seen r :
  held succ subject true g seen r = true <-> exists p, In p g /\ holds p r /\ ~ In p seen.
Proof.
  unfold held, holds. rewrite existsb_exists. split.
  - intros (p & Hp & H). apply preds_In in Hp as [Hg Hs]. apply andb_true_iff in H as [H1 H2].
    apply negb_true_iff in H1. apply memb_false in H1. apply memb_In in H2. eauto.
  - intros (p & Hg & Hh & Hq). exists p. split; [apply preds_In; split; [assumption|now apply entries_succ]|].
    apply andb_true_iff. split; [apply negb_true_iff; now apply memb_false|now apply memb_In].
Qed.

(* one turn of delete_loop: the lists it computes are the sets of QInv_step *)
Lemma delete_turn fuel k st h q seen proc pending :
  SInv st proc -> QInv (h :: q) seen proc pending ->
  exists st' q' seen' pend',
    delete_loop succ subject manifest cfg_fixed ord (S fuel) k st (h :: q) seen pending =
    delete_loop succ subject manifest cfg_fixed ord fuel (S k) st' q' seen' pend' /\
    SInv st' (proc ++ [h]) /\ QInv q' seen' (proc ++ [h]) pend'.
Proof.
  intros Hst I. destruct (QInv_head _ _ _ _ _ I) as [Hh Hproc].
  assert (Hh_b : memb h (blobs st) = true).
  { apply memb_In, (si_b _ _ Hst). split; [|exact Hh].
    apply (qi_sub _ _ _ _ I h), Hproc, in_snoc. now right. }
  pose proof (SInv_step st proc h Hst Hh) as Hst'.
  cbn [delete_loop]. unfold delete_one in *. cbn [fst] in Hst'. rewrite (si_a _ _ Hst) in Hst' |- *.
  rewrite Hh_b. cbn [andb fixF3 fixF4 fixLeaf skipLinked fixHold fixEntry cfg_fixed negb orb app].
  set (st' := {| blobs := removeb h (blobs st); idx := del_idx succ manifest st h;
                 gnodes := removeb h (gnodes st); strays := strays st; autogc := true |}) in *.
  set (refs := if manifest h
               then filter (fun r => negb (is_tagged st r)) (referrers succ subject (gnodes st) h)
               else []).
  set (fresh := dedup (filter (fun y => negb (memb y seen))
                   (ord k (filter (fun d => memb d (blobs st') && negb (is_tagged st' d))
                                  (danglings succ (gnodes st) h))))).
  set (cand := dedup (filter (fun r => negb (memb r (seen ++ fresh))) (pending ++ ord k refs))).
  set (ready := filter (fun r => negb (held succ subject true (gnodes st') (seen ++ fresh) r)) cand).
  set (rest := filter (held succ subject true (gnodes st') (seen ++ fresh)) cand).
  exists st', (q ++ fresh ++ ready), ((seen ++ fresh) ++ ready), rest.
  split; [reflexivity|]. split; [exact Hst'|].
  assert (Hheld : forall r, held succ subject true (gnodes st') (seen ++ fresh) r = true <->
            exists p, In p G /\ holds p r /\ ~ In p (seen ++ fresh)).
  { intro r. rewrite held_spec. split; intros (p & Hp & Hh' & Hps); exists p; (split; [|now split]).
    - now apply (si_g _ _ Hst') in Hp.
    - apply (si_g _ _ Hst'). split; [assumption|]. intro Hpp. apply Hps, in_or_app. left. now apply Hproc. }
  apply (QInv_step h q seen proc pending fresh cand); try assumption; unfold ready, rest.
  - apply dedup_NoDup.
  - apply NoDup_filter, dedup_NoDup.
  - intro y. unfold fresh. rewrite dedup_In, filter_In, (ord_perm _ _ _), filter_In, negb_true_iff, memb_false,
      andb_true_iff, negb_true_iff, memb_In, (danglings_now st proc h y Hst Hh), (si_b _ _ Hst').
    split.
    + intros [((HhG & Hs & Hg & Hp & Hall) & (Hb & _) & Ht) Hn]. split; [|exact Hn].
      rewrite <- (tagged_same st' (proc ++ [h]) y Hst'); [|intro Hy; now apply Hn, Hproc]. repeat split; assumption.
    + intros [(HhG & Hs & Hg & Hb & Ht & Hall) Hn]. split; [|exact Hn].
      assert (Hyp : ~ In y (proc ++ [h])) by (intro Hy; now apply Hn, Hproc).
      rewrite (tagged_same st' (proc ++ [h]) y Hst' Hyp). repeat split; try assumption.
      intro Hy. apply Hyp, in_snoc. now left.
  - intro r. unfold cand. rewrite dedup_In, filter_In, negb_true_iff, memb_false, in_app_iff, (ord_perm _ _ _).
    enough (Hr : ~ In r seen -> (In r refs <-> manifest h = true /\ In r G /\ subject r = Some h /\ is_tagged st0 r = false)).
    { split; intros [Hr' Hn]; (split; [|exact Hn]); (destruct Hr' as [Hr'|Hr']; [now left|right]);
        apply Hr; try assumption; intro Hs; apply Hn, in_or_app; now left. }
    intro Hrs. assert (Hrp : ~ In r proc) by (intro Hp; apply Hrs, Hproc, in_snoc; now left).
    unfold refs. destruct (manifest h); [|simpl; split; [tauto|intros [H _]; discriminate]].
    rewrite filter_In, referrers_In, negb_true_iff, (si_g _ _ Hst), (tagged_same st proc r Hst Hrp). tauto.
  - intros r Hr. rewrite !filter_In. destruct (held succ subject true (gnodes st') (seen ++ fresh) r); auto.
  - intro r. rewrite filter_In, negb_true_iff, <- Hheld. now destruct (held _ _ _ _ _ r).
  - intro r. now rewrite filter_In, Hheld.
Qed.

Lemma delete_loop_spec : forall fuel k st queue seen proc pending,
  SInv st proc -> QInv queue seen proc pending -> 2 + length G <= fuel + length proc ->
  exists st' proc' pend',
    delete_loop succ subject manifest cfg_fixed ord fuel k st queue seen pending = (st', Ok) /\
    SInv st' proc' /\ QInv [] proc' proc' pend'.
Proof.
  induction fuel as [|fuel IH]; intros k st queue seen proc pending Hst I Hf.
  - (* seen has no duplicates and lies in x :: G *)
    assert (Hb : length seen <= length (x :: G)).
    { apply NoDup_incl_length; [apply (qi_nodup _ _ _ _ I)|]. intros y Hy.
      destruct (qi_sub _ _ _ _ I y Hy) as [[->|Hy'] _]; [now left|now right]. }
    rewrite (qi_seen _ _ _ _ I), app_length in Hb. simpl in Hb. lia.
  - destruct queue as [|h q].
    + pose proof (qi_seen _ _ _ _ I) as Hseen. rewrite app_nil_r in Hseen. subst seen.
      now exists st, proc, pending.
    + destruct (delete_turn fuel k st h q seen proc pending Hst I) as (st' & q' & seen' & pend' & E & Hst' & I').
      rewrite E. apply (IH _ _ _ _ _ _ Hst' I'). rewrite app_length. simpl. lia.
Qed.

Lemma SInv_init : SInv st0 [].
Proof.
  constructor; try reflexivity; [tauto|tauto| |exact auto_on].
  split; [intros e He; split; [tauto|now left]|split; [intros e He _; exact He|]].
  intros _ d (_ & _ & _ & (p & Hp & Hs) & E & _). destruct (E p Hp Hs).
Qed.

Lemma QInv_init : QInv [x] [x] [] [].
Proof.
  constructor; try reflexivity; simpl.
  - constructor; [intros []|constructor].
  - now left.
  - intros y [<-|[]]. constructor.
  - intros y [<-|[]]. split; [now left|exact x_in].
  - intros r (_ & _ & m & [] & _).
  - intros r [].
  - discriminate.
  - intros d Hd HdB Ht (p & Hp & Hps) Hall. destruct (Hall p Hp Hps).
Qed.

Lemma final_gone proc pend : QInv [] proc proc pend -> forall y, In y proc <-> Gone y.
Proof.
  intros I y. split; [apply (qi_sound _ _ _ _ I)|].
  induction 1 as [|r m _ IHm Hman Hr Hs Ht _ IHh|d Hd HdB Ht Hex _ IHp].
  - apply (qi_x _ _ _ _ I).
  - destruct (qi_ref _ _ _ _ I r) as [H|H]; [|assumption|].
    + repeat split; try assumption. eauto.
    + destruct (in_dec Nat.eq_dec r proc) as [Hp|Hp]; [assumption|].
      destruct (qi_blocked _ _ _ _ I eq_refl r H Hp) as (p & HpG & Hh & Hps).
      exfalso. apply Hps. now apply IHh.
  - apply (qi_dang _ _ _ _ I); assumption.
Qed.

(* what the cascade never touches: a tagged node, a node outside the graph, a node that a
   surviving node lists (every holder of a removed node is removed as well) *)
Lemma delete_never_final y : Gone y -> y <> x ->
  is_tagged st0 y = false /\ In y (gnodes st0) /\
  (forall p, In p (gnodes st0) -> In y (entries succ subject p) -> Gone p).
Proof.
  intros H Hne. destruct H as [|r m _ _ Hr _ Ht Hh|d Hd _ Ht _ Hall]; [congruence| |].
  - split; [exact Ht|]. split; [exact Hr|exact Hh].
  - split; [exact Ht|]. split; [exact Hd|]. intros p Hp Hh. apply Hall; [exact Hp|].
    apply entries_succ, Hh.
Qed.

(* Delete of the repaired code, AutoGC on: for every iteration order it returns Ok
   (in particular the queue is exhausted within the fuel: it terminates) and removes
   exactly Gone from the storage, the graph and the reference index *)
Lemma delete_exact :
  exists st',
    delete succ subject manifest cfg_fixed ord st0 x = (st', Ok) /\
    (forall y, In y (blobs st') <-> In y B /\ ~ Gone y) /\
    (forall y, In y (gnodes st') <-> In y G /\ ~ Gone y) /\
    (forall r n, In (r, n) (idx st') ->
       ~ Gone n /\ (In (r, n) (idx st0) \/ (r = RDig n /\ manifest n = true))) /\
    (forall r n, In (r, n) (idx st0) -> ~ Gone n -> In (r, n) (idx st')) /\
    (forall t n, In (RTag t, n) (idx st') <-> In (RTag t, n) (idx st0) /\ n <> x) /\
    (forall r, ~ In (r, x) (idx st')) /\
    strays st' = strays st0 /\ autogc st' = autogc st0 /\
    (* exactly which references are new, when by-digest references name their own content *)
    (digs_ok0 -> forall d, ~ In (RDig d, d) (idx st0) ->
       (In (RDig d, d) (idx st') <->
        manifest d = true /\ In d G /\ ~ Gone d /\ (exists p, In p G /\ In d (succ p)) /\
        (forall p, In p G -> In d (succ p) -> Gone p) /\ (forall m, ~ In (RDig d, m) (idx st0)))).
Proof.
  unfold delete. cbn [fixF4 cfg_fixed]. unfold delete_fuel.
  destruct (delete_loop_spec (S (S (length (gnodes st0)))) 0 st0 [x] [x] [] [] SInv_init QInv_init)
    as (st' & proc & pend & Hd & Hst & I).
  { simpl. fold G. lia. }
  exists st'. split; [exact Hd|].
  pose proof (final_gone proc pend I) as HG.
  destruct (si_i _ _ Hst) as [Hi1 [Hi2 Hi3]].
  assert (C1 : forall r n, In (r, n) (idx st') ->
            ~ Gone n /\ (In (r, n) (idx st0) \/ (r = RDig n /\ manifest n = true))).
  { intros r n H. destruct (Hi1 _ H) as [Hp [Ho|(d & E & Hm & _)]]; (split; [now rewrite <- HG|]);
      [now left|right]. injection E as -> ->. now split. }
  assert (C2 : forall r n, In (r, n) (idx st0) -> ~ Gone n -> In (r, n) (idx st')).
  { intros r n He Hn. apply Hi2; [assumption|]. cbn. now rewrite HG. }
  split; [intro y; rewrite (si_b _ _ Hst), HG; reflexivity|].
  split; [intro y; rewrite (si_g _ _ Hst), HG; reflexivity|].
  split; [exact C1|]. split; [exact C2|]. split; [|split; [|split; [|split]]].
  - intros t n. split.
    + intro H. destruct (C1 _ _ H) as [Hg [Ho|[E _]]]; [|discriminate].
      split; [assumption|]. intros ->. apply Hg. constructor.
    + intros [H Hn]. apply (C2 _ _ H). intro HGn.
      destruct (delete_never_final n HGn Hn) as [Hf _].
      assert (is_tagged st0 n = true) by (apply is_tagged_spec; eauto). congruence.
  - intros r H. destruct (C1 _ _ H) as [Hg _]. apply Hg. constructor.
  - apply (si_s _ _ Hst).
  - rewrite (si_a _ _ Hst). now rewrite auto_on.
  - intros P d Hnot. split.
    + intro Hin. destruct (Hi1 _ Hin) as [_ [Ho|(d' & E & _ & Hr)]]; [contradiction|].
      injection E as <-. destruct (Hr P) as (A & B0 & C & D & E' & F).
      split; [exact A|]. split; [exact B0|]. split; [now rewrite <- HG|]. split; [exact D|].
      split; [|exact F]. intros p Hp Hs. apply HG. now apply E'.
    + intros (A & B0 & C & D & E' & F). apply (Hi3 P).
      split; [exact A|]. split; [exact B0|]. split; [now rewrite HG|]. split; [exact D|].
      split; [|exact F]. intros p Hp Hs. apply HG. now apply E'.
Qed.

End Delete.

Lemma delete_plain st x ord :
  (forall k l y, In y (ord k l) <-> In y l) ->
  autogc st = false -> In x (blobs st) ->
  exists st',
    delete succ subject manifest cfg_fixed ord st x = (st', Ok) /\
    blobs st' = removeb x (blobs st) /\ gnodes st' = removeb x (gnodes st) /\
    idx st' = del_idx succ manifest st x /\
    strays st' = strays st /\ autogc st' = autogc st.
Proof.
  intros Ho Ha Hx. apply memb_In in Hx. unfold delete, delete_fuel. cbn [fixF4 cfg_fixed].
  cbn [delete_loop]. unfold delete_one. rewrite Hx, Ha. cbn [andb fixHold cfg_fixed app].
  assert (E : ord 0 [] = []).
  { destruct (ord 0 []) as [|a l] eqn:E; [reflexivity|].
    exfalso. assert (H : In a (ord 0 [])) by (rewrite E; now left).
    apply Ho in H. destruct H. }
  rewrite E. cbn [app dedup filter delete_loop]. eexists. split; [reflexivity|].
  cbn [blobs gnodes idx strays autogc]. repeat split.
Qed.

(* an absent target: what Go's delete() did before storage.Delete failed stays done (the
   references to x are gone and x is no longer a graph node), the storage is unchanged *)
Lemma delete_absent_run st x ord c : ~ In x (blobs st) ->
  delete succ subject manifest c ord st x =
  ({| blobs := removeb x (blobs st); idx := del_idx succ manifest st x;
      gnodes := removeb x (gnodes st); strays := strays st; autogc := autogc st |}, ENotFound).
Proof.
  intro Hx. apply memb_false in Hx.
  assert (H : forall f, delete_loop succ subject manifest c ord (S f) 0 st [x] [x] [] =
                        (fst (fst (delete_one succ manifest st x)), ENotFound)).
  { intro f. cbn [delete_loop]. unfold delete_one. now rewrite Hx. }
  unfold delete. destruct (fixF4 c).
  - apply H.
  - apply (H 4095).
Qed.

Lemma delete_absent st x ord c :
  ~ In x (blobs st) -> snd (delete succ subject manifest c ord st x) = ENotFound.
Proof. intro Hx. now rewrite delete_absent_run. Qed.

(* both are "the graph nodes that satisfy C are stored": [wfm] as it stands, [wf] for the
   condition that always holds *)
Definition stored (C : nat -> Prop) (st : state) : Prop :=
  forall y, In y (gnodes st) -> C y -> In y (blobs st).

Lemma wf_stored C st : wf st -> stored C st.
Proof. intros H y Hy _. now apply H. Qed.

Lemma stored_wf st : stored (fun _ => True) st -> wf st.
Proof. intros H y Hy. now apply H. Qed.

(* the repaired code never records a stale tag-set entry: [is_tagged] is "has a tag" *)
Definition no_stale (st : state) : Prop := forall t n, ~ In (RStale t, n) (idx st).

Lemma no_stale_tagged st n : no_stale st -> (is_tagged st n = true <-> exists t, In (RTag t, n) (idx st)).
Proof.
  intro Hn. rewrite is_tagged_spec. split.
  - intros (t & [H|H]); [eauto|]. exfalso. now apply (Hn t n).
  - intros (t & H). eauto.
Qed.

(* every stored blob is a node of the graph: true as long as the store is not reopened at an
   arbitrary point (a reopened store knows only what index.json reaches) *)
Definition full (st : state) : Prop := forall y, In y (blobs st) -> In y (gnodes st).

Lemma delete_loop_inv (P : state -> Prop) c ord :
  (forall st h, P st -> P (fst (fst (delete_one succ manifest st h)))) ->
  forall fuel k st queue seen pending, P st ->
  P (fst (delete_loop succ subject manifest c ord fuel k st queue seen pending)).
Proof.
  intro Hone. induction fuel as [|f IH]; intros k st queue seen pending HP; [exact HP|].
  cbn [delete_loop]. destruct queue as [|h q]; [exact HP|].
  specialize (Hone st h HP). unfold delete_one in *. cbn [fst] in Hone.
  destruct (memb h (blobs st)); [now apply IH|exact Hone].
Qed.

Lemma del_idx_refs_ok st h : refs_ok (idx st) -> refs_ok (del_idx succ manifest st h).
Proof.
  intros [R1 R2]. split.
  - intros d n H. apply del_idx_In in H as [[H _]|(d0 & E & _)]; [eauto|congruence].
  - intros t n H. apply del_idx_In in H as [[H Hn]|(d0 & E & _)]; [|discriminate].
    apply del_idx_In. left. split; [now apply (R2 t)|exact Hn].
Qed.

Lemma delete_stored C c ord st n : stored C st -> stored C (fst (delete succ subject manifest c ord st n)).
Proof.
  unfold delete. apply (delete_loop_inv (stored C)). intros s h Hw y Hy Hc. cbn in *.
  apply removeb_In in Hy as [Hy Hn]. apply removeb_In. auto.
Qed.

Lemma delete_no_stale c ord st n : no_stale st -> no_stale (fst (delete succ subject manifest c ord st n)).
Proof.
  unfold delete. apply (delete_loop_inv no_stale). intros s h Hw t m H. cbn in H.
  apply del_idx_In in H as [[H _]|(d & E & _)]; [now apply (Hw t m)|discriminate].
Qed.

(* the graph IndexAll builds from a list of roots consists of stored content *)
Lemma clo_graph_stored bl roots y :
  In y (dedup (flat_map (clo succ manifest cfg_fixed bl) roots)) -> In y bl.
Proof.
  rewrite dedup_In, in_flat_map. intros (n & _ & Hy).
  change (clo succ manifest cfg_fixed bl) with (closure succ bl) in Hy.
  apply closure_spec in Hy. eapply Reach_in; eauto.
Qed.

Lemma gc_wf kl ords st : same_elements ords (candidates (idx st)) ->
  wf (fst (gc succ subject manifest cfg_fixed kl ords st)).
Proof.
  intro Ho. destruct (gc_exact kl ords st Ho) as (st' & Hg & Hn & Hb & _). rewrite Hg.
  intros y Hy. apply Hb. apply Hn in Hy. split; [|assumption]. eapply Live_in; eauto.
Qed.

Lemma gc_cancel_wf kl ords order k st : same_elements ords (candidates (idx st)) ->
  wf (fst (gc_cancel succ subject manifest cfg_fixed kl ords order k st)).
Proof.
  intro Ho. destruct (gc_cancel_spec kl ords order k st Ho) as (sc & Ec & _ & _ & Hg & Hb & _).
  rewrite Ec. intros y Hy. apply Hg in Hy. apply Hb. split; [eapply Live_in; eauto|now left].
Qed.

(* the reference map after a GC, complete or cancelled, with any configuration and any orders:
   the old one (gcIndex did not return) or a rebuilt one *)
Lemma gc_idx_cases (P : list (ref * nat) -> Prop) c kl ords st :
  P (idx st) -> (forall g kept, P (new_idx st kl g kept)) ->
  P (idx (fst (gc succ subject manifest c kl ords st))) /\
  forall order k, P (idx (fst (gc_cancel succ subject manifest c kl ords order k st))).
Proof.
  intros H0 H1. unfold gc, gc_cancel, gc_index.
  destruct (gc_passes _ _ _ _ _ _ _ _ _ _) as [[g kept]|]; [|now split].
  split; [|intros order k]; apply (H1 g kept).
Qed.

Lemma new_idx_refs_ok st kl g kept : refs_ok (new_idx st kl g kept).
Proof.
  split.
  - intros d n H. now apply new_idx_In in H.
  - intros t n H. apply new_idx_In in H. apply new_idx_In. split; [reflexivity|].
    left. apply tagged_nodes_In. eauto.
Qed.

Lemma gc_no_stale c kl ords st : no_stale st ->
  no_stale (fst (gc succ subject manifest c kl ords st)) /\
  forall order k, no_stale (fst (gc_cancel succ subject manifest c kl ords order k st)).
Proof.
  intro Hn. apply (gc_idx_cases (fun ix => forall t n, ~ In (RStale t, n) ix)); [exact Hn|].
  intros g kept t n H. now apply new_idx_In in H.
Qed.

Lemma set_ref_stale r m ix t n : In (RStale t, n) (set_ref r m ix) -> r = RStale t \/ In (RStale t, n) ix.
Proof. intro H. apply set_ref_In in H as [H|[H _]]; [left; congruence|now right]. Qed.

Lemma step_stored C kl st o : stored C st -> stored C (fst (step succ subject manifest cfg_fixed kl st o)).
Proof.
  intro Hw. destruct o as [n|n t|t|n| |b|s| |]; cbn [step]; try exact Hw.
  - unfold push. destruct (memb n (blobs st)); [exact Hw|]. intros y [->|Hy] Hc; [now left|right].
    apply removeb_In in Hy as [Hy _]. auto.
  - unfold tag. destruct (memb n (blobs st)) eqn:E; [|exact Hw]. intros y Hy Hc.
    cbn [fst gnodes blobs] in *. destruct (manifest n); [|now apply Hw].
    destruct Hy as [->|Hy]; [now apply memb_In|]. apply removeb_In in Hy as [Hy _]. now apply Hw.
  - unfold untag. destruct (lookup (RTag t) (idx st)); exact Hw.
  - now apply delete_stored.
  - apply wf_stored, gc_wf, same_elements_const.
  - apply wf_stored. intro y. apply clo_graph_stored.
  - apply wf_stored. intro y. apply clo_graph_stored.
Qed.

Lemma run_wf kl ops : wf (fold_left (fun st o => fst (step succ subject manifest cfg_fixed kl st o)) ops init).
Proof.
  apply stored_wf, fold_left_inv; [intros st o _; apply step_stored|intros y []].
Qed.

Lemma step_no_stale kl st o : no_stale st -> no_stale (fst (step succ subject manifest cfg_fixed kl st o)).
Proof.
  intro Hw. destruct o as [n|n t|t|n| |b|s| |]; cbn [step]; try exact Hw.
  - unfold push. destruct (memb n (blobs st)); [exact Hw|]. intros t m H. cbn [fst idx] in H.
    destruct (manifest n); [|now apply (Hw t m)].
    apply set_ref_stale in H as [H|H]; [discriminate|now apply (Hw t m)].
  - unfold tag. destruct (memb n (blobs st)); [|exact Hw]. intros t' m H. cbn [fst idx] in H.
    apply set_ref_stale in H as [H|H]; [discriminate|].
    apply set_ref_stale in H as [H|H]; [discriminate|].
    destruct (lookup (RTag t) (idx st)); cbn [fixStale cfg_fixed orb app] in H; now apply (Hw t' m).
  - unfold untag. destruct (lookup (RTag t) (idx st)); [|exact Hw]. intros t' m H.
    apply filter_In in H as [H _]. now apply (Hw t' m).
  - now apply delete_no_stale.
  - now apply gc_no_stale.
  - intros t m H. apply filter_In in H as [H _]. now apply (Hw t m).
  - intros t m. cbn [fst idx]. rewrite foreign_idx. apply load_form_no_stale.
Qed.

Lemma run_tagged kl ops :
  let st := fold_left (fun st o => fst (step succ subject manifest cfg_fixed kl st o)) ops init in
  forall n, is_tagged st n = true <-> exists t, In (RTag t, n) (idx st).
Proof.
  intros st n. apply no_stale_tagged, fold_left_inv; [intros s o _; apply step_no_stale|intros t m []].
Qed.

(* states reachable by the repaired code; Delete and GC with ANY iteration order;
   [any] = true also allows reopening the store at an arbitrary point *)
Inductive Hist (kl any : bool) : state -> Prop :=
| H_init : Hist kl any init
| H_op st o : Hist kl any st ->
    match o with ODelete _ | OGC | OReopen | OForeign => False | _ => True end ->
    Hist kl any (fst (step succ subject manifest cfg_fixed kl st o))
| H_delete st n ord : Hist kl any st -> (forall k l y, In y (ord k l) <-> In y l) ->
    Hist kl any (fst (delete succ subject manifest cfg_fixed ord st n))
| H_gc st ords : Hist kl any st -> (forall i n, In n (ords i) <-> In n (candidates (idx st))) ->
    Hist kl any (fst (gc succ subject manifest cfg_fixed kl ords st))
| H_gc_reopen st ords : Hist kl any st -> (forall i n, In n (ords i) <-> In n (candidates (idx st))) ->
    Hist kl any (fst (step succ subject manifest cfg_fixed kl
                       (fst (gc succ subject manifest cfg_fixed kl ords st)) OReopen))
| H_reopen st : any = true -> Hist kl any st ->
    Hist kl any (fst (step succ subject manifest cfg_fixed kl st OReopen))
| H_foreign st : any = true -> Hist kl any st ->
    Hist kl any (fst (step succ subject manifest cfg_fixed kl st OForeign))
| H_gc_cancel st ords order k : any = true -> Hist kl any st ->
    (forall i n, In n (ords i) <-> In n (candidates (idx st))) ->
    Hist kl any (fst (gc_cancel succ subject manifest cfg_fixed kl ords order k st)).

Lemma hist_wf kl any st : Hist kl any st -> wf st.
Proof.
  intro H. apply stored_wf. induction H; [intros y []|..];
    eauto using step_stored, delete_stored, wf_stored, gc_wf, gc_cancel_wf.
Qed.

Lemma hist_no_stale kl any st : Hist kl any st -> no_stale st.
Proof.
  induction 1; [intros t n []|..]; try apply step_no_stale; auto using delete_no_stale; now apply gc_no_stale.
Qed.

Lemma hist_full kl any st : Hist kl any st -> any = false -> full st.
Proof.
  intros H ->. induction H as [|st o _ IH Ho|st n ord _ IH _|st ords _ IH Ho|st ords _ IH Ho|st Hf _ _|st Hf _ _|st ords order k Hf _ _ _]; try discriminate.
  - intros y [].
  - destruct o as [n|n t|t|n| |b|s| |]; try contradiction; cbn [step]; try exact IH.
    + unfold push. destruct (memb n (blobs st)); [exact IH|]. intros y Hy. simpl in *.
      destruct (Nat.eq_dec y n) as [->|Hne]; [now left|]. right. apply removeb_In.
      split; [|assumption]. destruct Hy as [->|Hy]; [contradiction|now apply IH].
    + unfold tag. destruct (memb n (blobs st)); [|exact IH]. intros y Hy.
      cbn [fst gnodes blobs] in *. destruct (manifest n); [|now apply IH].
      destruct (Nat.eq_dec y n) as [->|Hne]; [now left|]. right. apply removeb_In. split; [now apply IH|assumption].
    + unfold untag. destruct (lookup (RTag t) (idx st)); exact IH.
  - unfold delete. apply (delete_loop_inv full); [|exact IH]. intros s h Hf y Hy. cbn in *.
    apply removeb_In in Hy as [Hy Hn]. apply removeb_In. auto.
  - destruct (gc_exact kl ords st Ho) as (st' & Hg & Hn & Hb & _). rewrite Hg.
    intros y Hy. apply Hn. now apply Hb in Hy.
  - destruct (gc_exact kl ords st Ho) as (st' & Hg & Hn & Hb & _).
    destruct (gc_reopen kl ords st st' Ho Hg) as (E1 & _ & _ & E4). rewrite Hg. cbn [fst] in *.
    intros y Hy. apply E4. rewrite E1 in Hy. apply Hn. now apply Hb in Hy.
Qed.

Lemma step_refs_ok kl st o : refs_ok (idx st) ->
  refs_ok (idx (fst (step succ subject manifest cfg_fixed kl st o))).
Proof.
  intro Hw. destruct o as [n|n t|t|n| |b|s| |]; cbn [step]; try exact Hw.
  - unfold push. destruct (memb n (blobs st)); [exact Hw|]. cbn [fst idx].
    destruct (manifest n); [now apply refs_ok_set_dig|exact Hw].
  - unfold tag. destruct (memb n (blobs st)); [|exact Hw]. cbn [fst idx fixStale cfg_fixed orb].
    assert (E : match lookup (RTag t) (idx st) with Some _ => [] | None => [] end = (@nil (ref * nat)))
      by (destruct (lookup (RTag t) (idx st)); reflexivity).
    rewrite E. now apply refs_ok_set_tag.
  - unfold untag. destruct (lookup (RTag t) (idx st)); [|exact Hw]. now apply refs_ok_filter.
  - unfold delete. apply (delete_loop_inv (fun s => refs_ok (idx s))); [|exact Hw].
    intros s h. apply del_idx_refs_ok.
  - apply gc_idx_cases; [exact Hw|apply new_idx_refs_ok].
  - now apply refs_ok_filter.
  - cbn [fst idx]. rewrite foreign_idx. apply refs_ok_load.
Qed.

(* the order of effects in the Go source (regenerated call sequences) is the one the model of
   persistence relies on; a reordering of the source breaks these three lemmas *)
Lemma gc_saves_before_sweep_ok : gc_saves_before_sweep = true.
Proof. vm_compute. reflexivity. Qed.
Lemma gc_tests_ctx_before_remove_ok : gc_tests_ctx_before_remove = true.
Proof. vm_compute. reflexivity. Qed.
Lemma delete_saves_before_unlink_ok : delete_saves_before_unlink = true.
Proof. vm_compute. reflexivity. Qed.

(* index.json is current: [disk] is what saveIndex writes for the reference map *)
Definition synced (p : pstate) : Prop := seteq (disk p) (save_form (idx (mem p))).
Definition pstate_ok (p : pstate) : Prop := refs_ok (idx (mem p)) /\ synced p /\ autosave p = true.

Lemma saved_ok b p m : autosave p = true ->
  (b = false -> seteq (disk p) (save_form (idx m))) ->
  synced (saved b p m) /\ autosave (saved b p m) = true.
Proof.
  intros Ha H. split; [|exact Ha]. unfold synced, saved. cbn [disk mem].
  destruct b; [intro; reflexivity|now apply H].
Qed.

Lemma pstep_mem (P : state -> Prop) kl p o :
  P (mem p) ->
  (forall o', P (fst (step succ subject manifest cfg_fixed kl (mem p) o'))) ->
  (forall d, P (reload succ manifest cfg_fixed (mem p) d)) ->
  (forall order k, P (fst (gc_cancel succ subject manifest cfg_fixed kl
                             (fun _ => candidates (idx (mem p))) order k (mem p)))) ->
  (forall n, o = PDeleteAlt n ->
     P {| blobs := removeb n (blobs (mem p));
          idx := filter (fun e => negb (Nat.eqb (snd e) n)) (idx (mem p));
          gnodes := gnodes (mem p); strays := strays (mem p); autogc := autogc (mem p) |}) ->
  P (mem (fst (pstep succ subject manifest cfg_fixed kl p o))).
Proof.
  intros H0 Hs Hr Hc Ha. destruct o as [o| |b|early order k|bad|alt|order k]; cbn [pstep]; try exact H0.
  - specialize (Hs o). destruct o as [n|n t|t|n| |b|s| |]; cbn [pstep step] in *; try exact Hs; try apply Hr.
    + now destruct (push manifest (mem p) n).
    + now destruct (tag manifest cfg_fixed (mem p) n t).
    + now destruct (untag (mem p) t).
    + now destruct (delete succ subject manifest cfg_fixed ord_id (mem p) n).
    + now destruct (gc succ subject manifest cfg_fixed kl _ (mem p)).
  - destruct early; [exact H0|]. specialize (Hc order k). now destruct (gc_cancel _ _ _ _ _ _ _ _ _).
  - now apply Ha.
  - specialize (Hc order k). now destruct (gc_cancel _ _ _ _ _ _ _ _ _).
Qed.

Lemma pstep_ok kl p o : pstate_ok p -> o <> PAutoSave false ->
  pstate_ok (fst (pstep succ subject manifest cfg_fixed kl p o)).
Proof.
  intros (Hr & Hs & Ha) Hne. split.
  - apply (pstep_mem (fun m => refs_ok (idx m))); [exact Hr| | | |].
    + intro o'. now apply step_refs_ok.
    + intro d. apply refs_ok_load.
    + now apply gc_idx_cases; [|intros; apply new_idx_refs_ok].
    + intros n _. now apply refs_ok_filter.
  - assert (Same : forall b m, idx m = idx (mem p) -> synced (saved b p m) /\ autosave (saved b p m) = true)
      by (intros b m E; apply saved_ok; [exact Ha|now rewrite E]).
    destruct o as [o| |b|early order k|bad|alt|order k]; cbn [pstep fst].
    + destruct o as [n|n t|t|n| |b|s| |]; cbn [pstep step fst]; rewrite ?Ha; cbn [andb].
      * unfold push. destruct (memb n (blobs (mem p))); [now apply Same|]. apply saved_ok; [exact Ha|].
        cbn [is_ok idx]. rewrite andb_true_r. now intros ->.
      * unfold tag. destruct (memb n (blobs (mem p))); [|now apply Same]. now apply saved_ok.
      * unfold untag. destruct (lookup (RTag t) (idx (mem p))); [|now apply Same]. now apply saved_ok.
      * destruct (delete succ subject manifest cfg_fixed ord_id (mem p) n) as [m r].
        rewrite delete_saves_before_unlink_ok. apply saved_ok; [exact Ha|]. cbn [orb]. rewrite andb_true_r.
        intro Hq. apply negb_false_iff, entries_eqb_eq in Hq. now rewrite Hq.
      * unfold gc. destruct (gc_index _ _ _ _ _ _ (mem p)) as [[ix g]|]; [|now apply Same]. now apply saved_ok.
      * now apply Same.
      * now apply Same.
      * split; [|reflexivity]. unfold synced, reload. cbn [disk mem idx]. intro e.
        rewrite (save_form_seteq _ _ (load_saved_seteq _ _ Hr Hs) e), (save_form_nonstale _ e). apply Hs.
      * split; [|reflexivity]. unfold synced, reload. cbn [disk mem idx]. intro e.
        rewrite save_form_In, load_form_In, filter_In. split.
        -- intros [He Ht]. destruct e as [[t|d|t] n]; cbn in Ht; try discriminate.
           split; [exists (RTag t, n); split; [apply filter_In; split; [assumption|reflexivity]|cbn; now right]|exact I].
        -- intros ((e0 & H0 & Hc) & Hk). apply filter_In in H0 as [H0 Ht0].
           destruct e0 as [[t0|d0|t0] m]; cbn in Ht0; try discriminate. cbn [fst snd] in Hc.
           destruct Hc as [-> | ->]; [|split; [assumption|reflexivity]].
           exfalso. cbn [fst snd] in Hk. apply Hk. apply tagged_nodes_In. exists t0.
           apply load_form_In. exists (RTag t0, m). split; [apply filter_In; split; [assumption|reflexivity]|cbn; now right].
    + now apply Same.
    + destruct b; [|congruence]. now split.
    + destruct early; cbn [fst]; [now split|]. unfold gc_cancel.
      destruct (gc_index _ _ _ _ _ _ (mem p)) as [[ix g]|]; rewrite Ha; [|now apply Same].
      rewrite gc_saves_before_sweep_ok, gc_tests_ctx_before_remove_ok. now apply saved_ok.
    + now split.
    + rewrite Ha, delete_saves_before_unlink_ok. apply saved_ok; [exact Ha|]. cbn [andb orb idx]. rewrite andb_true_r.
      intro Hq. apply negb_false_iff, entries_eqb_eq in Hq. now rewrite Hq.
    + unfold gc_cancel. destruct (gc_index _ _ _ _ _ _ (mem p)) as [[ix g]|]; rewrite Ha; [|now apply Same].
      rewrite gc_saves_before_sweep_ok. now apply saved_ok.
Qed.

Lemma prun_ok kl ops : Forall (fun o => o <> PAutoSave false) ops ->
  pstate_ok (fold_left (fun p o => fst (pstep succ subject manifest cfg_fixed kl p o)) ops pinit).
Proof.
  intro Hf. apply fold_left_inv.
  - intros p o Ho Hp. apply pstep_ok; [exact Hp|exact (proj1 (Forall_forall _ _) Hf o Ho)].
  - split; [split; intros ? ? []|split; [|reflexivity]]. intro e. reflexivity.
Qed.

(* with a current index.json, a new Store on the directory (reload from disk) is the model's
   OReopen of the in-memory state: same storage, same references, same graph *)
Lemma reload_is_reopen kl p : pstate_ok p ->
  let a := mem (fst (pstep succ subject manifest cfg_fixed kl p (PO OReopen))) in
  let b := fst (step succ subject manifest cfg_fixed kl (mem p) OReopen) in
  blobs a = blobs b /\ seteq (idx a) (idx b) /\ seteq (gnodes a) (gnodes b) /\
  strays a = strays b /\ autogc a = autogc b.
Proof.
  intros (Hr & Hs & _). cbn [pstep step fst mem]. unfold reload. cbn [blobs idx gnodes strays autogc].
  pose proof (load_saved_seteq _ _ Hr Hs) as H2.
  split; [reflexivity|]. split; [exact H2|]. split; [|split; reflexivity].
  intro x. rewrite !dedup_In, !in_flat_map. split; intros (n & Hn & Hx); exists n; (split; [|assumption]);
    apply in_map_iff in Hn as (e & <- & He); apply in_map; now apply H2.
Qed.

(* every state of the persistence layer's histories (complete and cancelled GCs, SaveIndex,
   AutoSaveIndex on or off, reloads from whatever index.json holds) satisfies the hypotheses of
   the Delete / GC theorems; a Delete by blob descriptor leaves its target behind as a graph
   node, so it keeps [stored C] only for a target outside C *)
Lemma pstep_shape C kl p o :
  (forall n, o = PDeleteAlt n -> ~ C n) ->
  stored C (mem p) /\ no_stale (mem p) ->
  stored C (mem (fst (pstep succ subject manifest cfg_fixed kl p o))) /\
  no_stale (mem (fst (pstep succ subject manifest cfg_fixed kl p o))).
Proof.
  intros Halt [Hw Hn]. apply (pstep_mem (fun m => stored C m /\ no_stale m)).
  - now split.
  - intro o'. split; [now apply step_stored|now apply step_no_stale].
  - intro d. split; [apply wf_stored; intro y; apply clo_graph_stored|intros t n; apply load_form_no_stale].
  - intros order k. split; [apply wf_stored, gc_cancel_wf, same_elements_const|now apply gc_no_stale].
  - intros n E. split.
    + intros y Hy Hc. cbn [gnodes blobs] in *. apply removeb_In. split; [now apply Hw|].
      intros ->. now apply (Halt n).
    + intros t m H. apply filter_In in H as [H _]. now apply (Hn t m).
Qed.

Lemma prun_shape C kl ops :
  Forall (fun o => forall n, o = PDeleteAlt n -> ~ C n) ops ->
  let p := fold_left (fun p o => fst (pstep succ subject manifest cfg_fixed kl p o)) ops pinit in
  stored C (mem p) /\ no_stale (mem p).
Proof.
  intro Hf. apply (fold_left_inv (fun p => stored C (mem p) /\ no_stale (mem p))).
  - intros p o Ho. apply pstep_shape. exact (proj1 (Forall_forall _ _) Hf o Ho).
  - split; [intros y []|intros t n []].
Qed.

(* the weak well-formedness survives every operation, also a Delete by blob descriptor of a
   plain leaf (no manifest, no subject) *)
Definition plain_alt (o : pop) : Prop := forall n, o = PDeleteAlt n -> manifest n = false /\ subject n = None.

Lemma order_independent :
  (forall st x, wfm st -> autogc st = true -> In x (blobs st) ->
     forall o1 o2, reorders o1 -> reorders o2 ->
     let a := fst (delete succ subject manifest cfg_fixed o1 st x) in
     let b := fst (delete succ subject manifest cfg_fixed o2 st x) in
     (forall y, In y (blobs a) <-> In y (blobs b)) /\ (forall y, In y (gnodes a) <-> In y (gnodes b)) /\
     (forall t n, In (RTag t, n) (idx a) <-> In (RTag t, n) (idx b))) /\
  (forall kl st o1 o2, same_elements o1 (candidates (idx st)) ->
     same_elements o2 (candidates (idx st)) ->
     let a := fst (gc succ subject manifest cfg_fixed kl o1 st) in
     let b := fst (gc succ subject manifest cfg_fixed kl o2 st) in
     (forall y, In y (blobs a) <-> In y (blobs b)) /\ (forall y, In y (gnodes a) <-> In y (gnodes b)) /\
     (forall t n, In (RTag t, n) (idx a) <-> In (RTag t, n) (idx b))).
Proof.
  split.
  - intros st x Hw Ha Hx o1 o2 Ho1 Ho2 a b.
    destruct (delete_exact st x Hw Ha Hx o1 Ho1) as (s1 & E1 & B1 & G1 & _ & _ & T1 & _).
    destruct (delete_exact st x Hw Ha Hx o2 Ho2) as (s2 & E2 & B2 & G2 & _ & _ & T2 & _).
    unfold a, b. rewrite E1, E2. cbn [fst]. split; [|split].
    + intro y. rewrite B1, B2. reflexivity.
    + intro y. rewrite G1, G2. reflexivity.
    + intros t n. rewrite T1, T2. reflexivity.
  - intros kl st o1 o2 Ho1 Ho2 a b.
    destruct (gc_exact kl o1 st Ho1) as (s1 & E1 & G1 & B1 & T1 & _).
    destruct (gc_exact kl o2 st Ho2) as (s2 & E2 & G2 & B2 & T2 & _).
    unfold a, b. rewrite E1, E2. cbn [fst]. split; [|split].
    + intro y. rewrite B1, B2. reflexivity.
    + intro y. rewrite G1, G2. reflexivity.
    + intros t n. rewrite T1, T2. reflexivity.
Qed.

(* a tagged descriptor that is stored stays stored and keeps its tags under every Delete of
   another descriptor (AutoGC on or off, target stored or not, every iteration order), and
   under every GC, complete or cancelled, together with everything reachable from it *)
Lemma tagged_kept st n t : wfm st -> In (RTag t, n) (idx st) -> In n (blobs st) ->
  (forall x ord, reorders ord -> x <> n ->
     let st' := fst (delete succ subject manifest cfg_fixed ord st x) in
     In n (blobs st') /\ In (RTag t, n) (idx st')) /\
  (forall kl ords order k, same_elements ords (candidates (idx st)) ->
     let s1 := fst (gc succ subject manifest cfg_fixed kl ords st) in
     let s2 := fst (gc_cancel succ subject manifest cfg_fixed kl ords order k st) in
     forall y, Reach (blobs st) n y ->
       In y (blobs s1) /\ In y (blobs s2) /\ In (RTag t, n) (idx s1) /\ In (RTag t, n) (idx s2)).
Proof.
  intros Hw Ht Hn. split.
  - intros x ord Ho Hne st'. unfold st'.
    assert (Hkept : In (RTag t, n) (del_idx succ manifest st x))
      by (apply del_idx_In; left; split; [assumption|cbn; congruence]).
    destruct (in_dec Nat.eq_dec x (blobs st)) as [Hx|Hx].
    + destruct (autogc st) eqn:Ha.
      * destruct (delete_exact st x Hw Ha Hx ord Ho) as (s1 & E1 & B1 & _ & C1 & _ & T1 & _).
        rewrite E1. cbn [fst].
        assert (Hk : In (RTag t, n) (idx s1)) by (apply T1; split; [assumption|congruence]).
        split; [|exact Hk]. apply B1. split; [assumption|]. exact (proj1 (C1 _ _ Hk)).
      * destruct (delete_plain st x ord Ho Ha Hx) as (s1 & E1 & B1 & _ & I1 & _).
        rewrite E1. cbn [fst]. rewrite B1, I1. split; [|exact Hkept].
        apply removeb_In. split; [assumption|congruence].
    + rewrite (delete_absent_run st x ord cfg_fixed Hx). cbn [fst blobs idx].
      split; [now rewrite removeb_absent|exact Hkept].
  - intros kl ords order k Ho s1 s2 y Hy.
    assert (HL : Live st y) by (eapply L_tag; eauto).
    destruct (gc_exact kl ords st Ho) as (a & E1 & _ & B1 & T1 & _).
    destruct (gc_cancel_spec kl ords order k st Ho) as (c & E2 & Ei & _ & _ & B2 & _).
    unfold s1, s2. rewrite E1, E2. cbn [fst].
    assert (Hyb : In y (blobs st)) by (eapply Reach_in; eauto).
    split; [apply B1; tauto|]. split; [apply B2; tauto|]. split; [now apply T1|].
    rewrite Ei, E1. cbn [fst]. now apply T1.
Qed.

(* every history of the persistence layer - also with Deletes by blob descriptor of plain leaves -
   reaches only states in which the Delete theorems apply *)
Lemma persist_histories kl ops : Forall plain_alt ops ->
  let p := fold_left (fun p o => fst (pstep succ subject manifest cfg_fixed kl p o)) ops pinit in
  wfm (mem p) /\ (forall n, is_tagged (mem p) n = true <-> exists t, In (RTag t, n) (idx (mem p))).
Proof.
  intros Hf p. destruct (prun_shape (fun y => manifest y = true \/ subject y <> None) kl ops) as [Hw Hn].
  - eapply Forall_impl; [|exact Hf]. intros o Ho n E [H|H]; destruct (Ho n E); congruence.
  - split; [exact Hw|]. intro n. now apply no_stale_tagged.
Qed.

Lemma delete_in_histories kl ops : Forall plain_alt ops ->
  let st := mem (fold_left (fun p o => fst (pstep succ subject manifest cfg_fixed kl p o)) ops pinit) in
  (forall x ord, autogc st = true -> In x (blobs st) -> reorders ord ->
     exists st',
       delete succ subject manifest cfg_fixed ord st x = (st', Ok) /\
       (forall y, In y (blobs st') <-> In y (blobs st) /\ ~ Gone st x y) /\
       (forall y, In y (gnodes st') <-> In y (gnodes st) /\ ~ Gone st x y) /\
       (forall t n, In (RTag t, n) (idx st') <-> In (RTag t, n) (idx st) /\ n <> x) /\
       (forall r, ~ In (r, x) (idx st'))) /\
  (forall n t x ord, In (RTag t, n) (idx st) -> In n (blobs st) -> reorders ord -> x <> n ->
     let st' := fst (delete succ subject manifest cfg_fixed ord st x) in
     In n (blobs st') /\ In (RTag t, n) (idx st')) /\
  (forall x o1 o2, autogc st = true -> In x (blobs st) ->
     reorders o1 -> reorders o2 ->
     let a := fst (delete succ subject manifest cfg_fixed o1 st x) in
     let b := fst (delete succ subject manifest cfg_fixed o2 st x) in
     (forall y, In y (blobs a) <-> In y (blobs b)) /\ (forall y, In y (gnodes a) <-> In y (gnodes b)) /\
     (forall t n, In (RTag t, n) (idx a) <-> In (RTag t, n) (idx b))).
Proof.
  intros Hf st. destruct (persist_histories kl ops Hf) as [Hw _]. fold st in Hw.
  split; [|split].
  - intros x ord Ha Hx Ho.
    destruct (delete_exact st x Hw Ha Hx ord Ho) as (s1 & E1 & B1 & G1 & _ & _ & T1 & N1 & _).
    exists s1. split; [exact E1|]. split; [exact B1|]. split; [exact G1|]. split; [exact T1|exact N1].
  - intros n t x ord Ht Hn. now apply (tagged_kept st n t Hw Ht Hn).
  - intros x o1 o2 Ha Hx. now apply order_independent.
Qed.

End Proofs.


Definition succ_w (n : nat) : list nat :=
  match n with
  | 1 => [0] | 2 => [1; 0] | 3 => [1; 2] | 4 => [2] | 5 => [0] | 6 => [1; 5] | 7 => [5; 0]
  | 8 => [2; 0] | 10 => [0; 9] | 11 => [9; 0] | 12 => [2; 2]
  | _ => []
  end.
Definition subject_w (n : nat) : option nat :=
  match n with 2 => Some 1 | 3 => Some 1 | 6 => Some 1 | 7 => Some 5 | 8 => Some 2 | 11 => Some 9 | 12 => Some 2
  | _ => None end.
Definition manifest_w (n : nat) : bool := match n with 0 | 9 => false | _ => true end.
(* 0 blob; 1 image; 2 image with subject 1; 3 index with subject 1 listing 2;
   4 index listing 2; 5 image; 6 index with subject 1 listing 5; 7 image with subject 5;
   8 image with subject 2; 9 layer; 10 image with layer 9; 11 image whose subject is the layer 9;
   12 index with subject 2 that also lists 2 *)

Lemma succ_w_lt : forall n s, In s (succ_w n) -> s < n.
Proof.
  intros n s. do 13 (destruct n as [|n]; [simpl; intuition lia|]). simpl. tauto.
Qed.

Lemma subj_w_succ : forall n s, subject_w n = Some s -> In s (succ_w n).
Proof.
  intros n s. do 13 (destruct n as [|n]; [simpl; intro H; try discriminate; injection H as <-; tauto|]).
  simpl. discriminate.
Qed.

Definition run_w (c : cfg) (ops : list op) : state :=
  fold_left (fun st o => fst (step succ_w subject_w manifest_w c false st o)) ops init.
Definition prun_w (ops : list pop) : pstate :=
  fold_left (fun p o => fst (pstep succ_w subject_w manifest_w cfg_fixed true p o)) ops pinit.

(* F1: the subject walk of the original gcIndex never leaves its loop *)
Lemma walk_orig_diverges : forall fuel, walk_orig subject_w [2; 1; 0] [] fuel 2 = None.
Proof. induction fuel as [|f IH]; [reflexivity|]. simpl. exact IH. Qed.

(* F3 off: Delete removes a tagged referrer together with its tag *)
Definition cfg_noF3 := {| fixF1 := true; fixF3 := false; fixF4 := true; fixF13 := true;
  fixStale := true; fixLeaf := true; skipLinked := false; fixHold := true;
  fixSubjM := true; fixEntry := true |}.

(* F4 off: the outcome of Delete depends on the iteration order *)
Definition cfg_noF4 := {| fixF1 := true; fixF3 := true; fixF4 := false; fixF13 := true;
  fixStale := true; fixLeaf := true; skipLinked := false; fixHold := false;
  fixSubjM := true; fixEntry := true |}.
Definition ord_rev (k : nat) (l : list nat) : list nat := rev l.

(* F13 off: gcIndex makes a single referrer pass *)
Definition cfg_noF13 := {| fixF1 := true; fixF3 := true; fixF4 := true; fixF13 := false;
  fixStale := true; fixLeaf := true; skipLinked := false; fixHold := true;
  fixSubjM := true; fixEntry := true |}.

(* Delete's referrer rule before its repair: a referrer of a removed manifest goes even when a
   surviving node lists it *)
Definition cfg_noHold := {| fixF1 := true; fixF3 := true; fixF4 := true; fixF13 := true;
  fixStale := true; fixLeaf := true; skipLinked := false; fixHold := false;
  fixSubjM := true; fixEntry := true |}.

(* resolver.Memory.Tag before its repair: moving a tag leaves the reference in the tag set of
   the old descriptor *)
Definition cfg_noStale := {| fixF1 := true; fixF3 := true; fixF4 := true; fixF13 := true;
  fixStale := false; fixLeaf := true; skipLinked := false; fixHold := true;
  fixSubjM := true; fixEntry := true |}.
Definition stale_ops := [OPush 0; OPush 5; OPush 6; OPush 1; OTag 5 0; OTag 1 0].

(* Delete before the repair of the dangling-leaf abort: a queued graph node without content
   ends the cascade with not found *)
Definition cfg_noLeaf := {| fixF1 := true; fixF3 := true; fixF4 := true; fixF13 := true;
  fixStale := true; fixLeaf := false; skipLinked := false; fixHold := true;
  fixSubjM := true; fixEntry := true |}.
Definition leaf_ops := [OPush 1; OTag 1 0; OGC].

(* the "small" repair candidate for the referrer rule: queue a referrer only when all its
   predecessors are already queued *)
Definition cfg_skipLinked := {| fixF1 := true; fixF3 := true; fixF4 := true; fixF13 := true;
  fixStale := true; fixLeaf := true; skipLinked := true; fixHold := false;
  fixSubjM := true; fixEntry := true |}.

(* audit F-A, gcIndex before its repair: a subject that the rebuilt graph knows only by
   reference (a never-stored layer) keeps its referrer *)
Definition cfg_noSubjM := {| fixF1 := true; fixF3 := true; fixF4 := true; fixF13 := true;
  fixStale := true; fixLeaf := false; skipLinked := false; fixHold := true;
  fixSubjM := false; fixEntry := true |}.
Definition subjm_ops := [OPush 0; OPush 10; OTag 10 0; OPush 11].

(* audit F-C, heldBySurvivor before its repair: a node that names r as its subject and also
   lists it does not hold r *)
Definition cfg_noEntry := {| fixF1 := true; fixF3 := true; fixF4 := true; fixF13 := true;
  fixStale := true; fixLeaf := true; skipLinked := false; fixHold := true;
  fixSubjM := true; fixEntry := false |}.

Definition cancel_pre := [PO (OPush 0); PO (OPush 1); PO (OPush 2); PO (OPush 5); PO (OPush 7); PO (OTag 1 0)].
Definition cancel_order := [SBlob 5; SBlob 0; SBlob 7; SBlob 2; SBlob 1].

(* Delete with the blob descriptor Resolve(<digest>) returns: the file and the references go, the
   graph keeps a node without content (wf is lost until GC or a reload); GC repairs it *)
Lemma delete_alt_stale_node :
  let p := prun_w [PO (OPush 0); PO (OPush 1); PDeleteAlt 0] in
  blobs (mem p) = [1] /\ In 0 (gnodes (mem p)) /\ ~ In 0 (blobs (mem p)) /\
  gnodes (mem (prun_w [PO (OPush 0); PO (OPush 1); PO (OTag 1 0); PDeleteAlt 0; PO OGC])) = [1] /\
  snd (pstep succ_w subject_w manifest_w cfg_fixed true (prun_w [PO (OPush 0); PO (OPush 1)]) (PDeleteAlt 0)) = Ok /\
  snd (pstep succ_w subject_w manifest_w cfg_fixed true p (PDeleteAlt 0)) = ENotFound.
Proof. vm_compute. intuition discriminate. Qed.

Lemma save_index_final : forall succ subject manifest kl p,
  let p' := fst (pstep succ subject manifest cfg_fixed kl p PSave) in
  disk p' = save_form (idx (mem p)) /\ mem p' = mem p.
Proof. intros. split; reflexivity. Qed.

Lemma phistories_final : forall succ subject manifest,
  acyclic succ -> subject_listed succ subject ->
  forall kl ops, Forall (fun o => forall n, o <> PDeleteAlt n) ops ->
  let p := fold_left (fun p o => fst (pstep succ subject manifest cfg_fixed kl p o)) ops pinit in
  wf (mem p) /\ (forall n, is_tagged (mem p) n = true <-> exists t, In (RTag t, n) (idx (mem p))).
Proof.
  intros succ subject manifest H1 H2 kl ops Hf p.
  destruct (prun_shape succ subject manifest H1 H2 (fun _ => True) kl ops) as [Hw Hn].
  - eapply Forall_impl; [|exact Hf]. intros o Ho n E. now destruct (Ho n).
  - split; [now apply stored_wf|]. intro n. now apply no_stale_tagged.
Qed.
