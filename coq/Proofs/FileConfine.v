(* C11 — lemmas about Model/FileConfine.v: confinement of every mutation of the
   repaired store to the working directory. *)
From Oras Require Import Base.Prelude Generated.GC11 Model.FileConfine.
Require Import Lia.
Open Scope nat_scope.
Global Opaque FUEL NLINK.

Lemma path_eqb_spec p q : path_eqb p q = true <-> p = q.
Proof.
  revert q; induction p as [|a p IH]; intros [|c q]; simpl; split; intro H;
    try reflexivity; try discriminate.
  - apply andb_true_iff in H as [H1 H2]. apply str_eqb_spec in H1. apply IH in H2. congruence.
  - injection H as -> ->. rewrite str_eqb_refl. simpl. now apply IH.
Qed.

Lemma path_eqb_refl p : path_eqb p p = true.
Proof. now apply path_eqb_spec. Qed.

Lemma path_eqb_neq p q : p <> q -> path_eqb p q = false.
Proof. intro H. destruct (path_eqb p q) eqn:E; auto. apply path_eqb_spec in E. contradiction. Qed.

Definition path_eq_dec : forall p q : path, {p = q} + {p <> q} := list_eq_dec (list_eq_dec N.eq_dec).

Lemma strip_prefix_spec a l r : strip_prefix a l = Some r <-> l = a ++ r.
Proof.
  revert l; induction a as [|x a IH]; intros l; simpl.
  - split; [intros [= ->]; reflexivity | intros ->; reflexivity].
  - destruct l as [|y l]; [split; [discriminate | intro H; discriminate]|].
    destruct (str_eqb x y) eqn:E.
    + apply str_eqb_spec in E. subst y. rewrite IH. split; [intros ->; reflexivity | intros [= ->]; reflexivity].
    + split; [discriminate|]. intros [= -> _]. rewrite str_eqb_refl in E. discriminate.
Qed.

Lemma strip_prefix_app a r : strip_prefix a (a ++ r) = Some r.
Proof. now apply strip_prefix_spec. Qed.

Lemma inside_spec wd p : inside wd p = true <-> exists r, p = wd ++ r.
Proof.
  unfold inside. destruct (strip_prefix wd p) as [r|] eqn:E.
  - apply strip_prefix_spec in E. split; eauto.
  - split; [discriminate|]. intros [r Hr]. apply strip_prefix_spec in Hr. congruence.
Qed.

Lemma inside_app wd p x : inside wd p = true -> inside wd (p ++ x) = true.
Proof. rewrite !inside_spec. intros [r ->]. exists (r ++ x). now rewrite app_assoc. Qed.

Lemma inside_refl wd : inside wd wd = true.
Proof. apply inside_spec. exists []. now rewrite app_nil_r. Qed.

Definition sinside (wd p : path) : Prop := exists x r, p = wd ++ x :: r.

Lemma sinside_inside wd p : sinside wd p -> inside wd p = true.
Proof. intros (x & r & ->). apply inside_spec. eauto. Qed.

Lemma sinside_not_prefix wd p q r : sinside wd p -> wd = q ++ r -> p <> q.
Proof.
  intros (x & t & ->) -> E. apply (f_equal (@length _)) in E.
  rewrite !app_length in E. simpl in E. lia.
Qed.

Lemma removelast_snoc {A} (l : list A) x : removelast (l ++ [x]) = l.
Proof. apply removelast_last. Qed.

Lemma lookup_del l p q :
  lookup_ents (del_ents l p) q = if path_eqb p q then None else lookup_ents l q.
Proof.
  induction l as [|[k n] l IH]; simpl.
  - now destruct (path_eqb p q).
  - destruct (path_eqb k p) eqn:E; simpl.
    + apply path_eqb_spec in E. subst k. rewrite IH. destruct (path_eqb p q); reflexivity.
    + rewrite IH. destruct (path_eqb k q) eqn:E2; [|reflexivity].
      apply path_eqb_spec in E2. subst k. rewrite path_eqb_neq; [reflexivity|].
      intros ->. rewrite path_eqb_refl in E. discriminate.
Qed.

Lemma lookup_set p n f q :
  lookup (set_ent p n f) q = if path_eqb p q then Some n else lookup f q.
Proof.
  unfold lookup, set_ent; simpl. destruct (path_eqb p q) eqn:E; [reflexivity|].
  rewrite lookup_del, E. reflexivity.
Qed.

Lemma lookup_delent p f q :
  lookup (del_ent p f) q = if path_eqb p q then None else lookup f q.
Proof. unfold lookup, del_ent; simpl. apply lookup_del. Qed.

Lemma lookup_newfile p c f q :
  lookup (new_file p c f) q = if path_eqb p q then Some (NFile (nexti f)) else lookup f q.
Proof. exact (lookup_set p (NFile (nexti f)) f q). Qed.

Lemma lookup_setcont i c f q : lookup (set_cont i c f) q = lookup f q.
Proof. reflexivity. Qed.

Lemma lookup_setdmode p m f q : lookup (set_dmode p m f) q = lookup f q.
Proof. reflexivity. Qed.

Lemma lookup_setfstamp i t f q : lookup (set_fstamp i t f) q = lookup f q.
Proof. reflexivity. Qed.

Lemma lookup_setdstamp p t f q : lookup (set_dstamp p t f) q = lookup f q.
Proof. reflexivity. Qed.

(* taint f (a ghost field no operation reads or changes): the inodes that files below the working
   directory may share with files outside - pre-populated hard links.  With taint f = [] the
   invariant says that no inode is shared. *)
Record Inv (wd : path) (f : fsys) : Prop := mkInv {
  inv_wd   : forall q r, wd = q ++ r -> q <> [] -> lookup f q = Some NDir;
  inv_ino  : forall p q i, lookup f p = Some (NFile i) -> lookup f q = Some (NFile i) ->
             inside wd p = true -> inside wd q = true \/ In i (taint f);
  inv_fresh : forall p i, lookup f p = Some (NFile i) -> i < nexti f;
  inv_taint : forall i, In i (taint f) -> i < nexti f
}.

Lemma inv_wd_self wd f : Inv wd f -> wd <> [] -> lookup f wd = Some NDir.
Proof. intros I H. apply (inv_wd _ _ I wd []); [now rewrite app_nil_r | exact H]. Qed.

(* nothing outside the working directory changes: not what is there (entry, type, inode, link text),
   not the attributes of directories, not the content / mode / times of files - except for the
   content, mode and times of files whose inode is tainted *)
Definition same_outside (wd : path) (f f' : fsys) : Prop :=
  taint f' = taint f /\
  forall p, inside wd p = false ->
    lookup f' p = lookup f p /\ dir_mode f' p = dir_mode f p /\ dir_stamp f' p = dir_stamp f p /\
    (forall i, lookup f p = Some (NFile i) -> ~ In i (taint f) ->
               content f' i = content f i /\ file_stamp f' i = file_stamp f i).

Definition KeepsP (P : path -> fsys -> Prop) (wd : path) (f f' : fsys) : Prop :=
  P wd f' /\ same_outside wd f f'.
Notation Keeps := (KeepsP Inv).

Lemma same_outside_refl wd f : same_outside wd f f.
Proof. split; [reflexivity|]. intros p _. repeat split; reflexivity. Qed.

Lemma same_outside_trans wd f g h : same_outside wd f g -> same_outside wd g h -> same_outside wd f h.
Proof.
  intros [Ta A] [Tb B]. split; [congruence|]. intros p Hp.
  destruct (A p Hp) as (A1 & A2 & A3 & A4). destruct (B p Hp) as (B1 & B2 & B3 & B4).
  split; [congruence|]. split; [congruence|]. split; [congruence|].
  intros i L N. destruct (A4 i L N) as [C1 C2].
  rewrite <- A1 in L. rewrite <- Ta in N. destruct (B4 i L N) as [D1 D2]. split; congruence.
Qed.

Lemma same_outside_view wd f f' p :
  same_outside wd f f' -> inside wd p = false ->
  (forall i, lookup f p = Some (NFile i) -> ~ In i (taint f)) ->
  view_at f' p = view_at f p.
Proof.
  intros [_ A] Hp Hn. destruct (A p Hp) as (A1 & A2 & A3 & A4). unfold view_at. rewrite A1.
  destruct (lookup f p) as [[|i|d a cs]|] eqn:L; try reflexivity.
  - now rewrite A2, A3.
  - destruct (A4 i eq_refl (Hn i eq_refl)) as [C1 C2]. now rewrite C1, C2.
Qed.

Lemma KeepsP_refl (P : path -> fsys -> Prop) wd f : P wd f -> KeepsP P wd f f.
Proof. intro H. split; [exact H | apply same_outside_refl]. Qed.

Lemma KeepsP_trans (P : path -> fsys -> Prop) wd f g h : KeepsP P wd f g -> KeepsP P wd g h -> KeepsP P wd f h.
Proof. intros [_ A] [I B]. split; [exact I | eapply same_outside_trans; eauto]. Qed.

Lemma same_or_keeps (P Q : path -> fsys -> Prop) wd f f' :
  (forall g, P wd g -> Q wd g) -> Q wd f -> f' = f \/ KeepsP P wd f f' -> KeepsP Q wd f f'.
Proof. intros H Hf [->|[I S]]; [now apply KeepsP_refl | split; [now apply H | exact S]]. Qed.

Lemma outside_neq wd p q : inside wd p = true -> inside wd q = false -> path_eqb p q = false.
Proof. intros A B. apply path_eqb_neq. intros ->. congruence. Qed.

Definition only_at (f f' : fsys) (fp : path) : Prop :=
  forall q, q <> fp -> lookup f' q = lookup f q.

Lemma only_at_refl f fp : only_at f f fp.
Proof. intros q _. reflexivity. Qed.

Lemma only_at_trans f g h fp : only_at f g fp -> only_at g h fp -> only_at f h fp.
Proof. intros A B q H. rewrite (B q H). apply A, H. Qed.

Lemma only_at_del f fp : only_at f (del_ent fp f) fp.
Proof. intros q Hq. rewrite lookup_delent, path_eqb_neq; [reflexivity | congruence]. Qed.

Lemma only_at_set f fp n : only_at f (set_ent fp n f) fp.
Proof. intros q Hq. rewrite lookup_set, path_eqb_neq; [reflexivity | congruence]. Qed.

Lemma only_at_newfile f fp c : only_at f (new_file fp c f) fp.
Proof. exact (only_at_set f fp (NFile (nexti f))). Qed.

(* what may be written at a location strictly inside *)
Definition node_ok (wd : path) (f : fsys) (n : node) : Prop :=
  match n with
  | NFile i => exists q, inside wd q = true /\ lookup f q = Some (NFile i)
  | _ => True      (* where a link points does not matter: it is never followed *)
  end.

Lemma fresh_only_at f g p :
  (forall q i, lookup f q = Some (NFile i) -> i < nexti f) -> only_at f g p -> nexti f <= nexti g ->
  (forall i, lookup g p = Some (NFile i) -> i < nexti g) ->
  forall q i, lookup g q = Some (NFile i) -> i < nexti g.
Proof.
  intros Hf O N Hp q i L. destruct (path_eq_dec q p) as [->|Hq]; [auto|].
  rewrite (O q Hq) in L. apply Hf in L. lia.
Qed.

Lemma Inv_only_at wd f f' p :
  Inv wd f -> sinside wd p -> only_at f f' p -> taint f' = taint f -> nexti f <= nexti f' ->
  (forall i, lookup f' p = Some (NFile i) -> node_ok wd f (NFile i) \/ nexti f <= i < nexti f') ->
  Inv wd f'.
Proof.
  intros I Hp O T N Hn. constructor.
  - intros q r E Hq. rewrite O; [exact (inv_wd _ _ I q r E Hq)|].
    intro Eq. exact (sinside_not_prefix _ _ _ _ Hp E (eq_sym Eq)).
  - intros p0 q0 i Lp Lq Hin.
    destruct (path_eq_dec q0 p) as [->|Hq0]; [left; now apply sinside_inside|].
    rewrite T. rewrite (O q0 Hq0) in Lq.
    destruct (path_eq_dec p0 p) as [->|Hp0].
    + destruct (Hn i Lp) as [(q1 & Hq1 & Lq1)|Hi].
      * exact (inv_ino _ _ I q1 q0 i Lq1 Lq Hq1).
      * apply (inv_fresh _ _ I) in Lq. lia.
    + rewrite (O p0 Hp0) in Lp. exact (inv_ino _ _ I p0 q0 i Lp Lq Hin).
  - apply (fresh_only_at f f' p (inv_fresh _ _ I) O N). intros i L.
    destruct (Hn i L) as [(q1 & _ & Lq1)|Hi]; [apply (inv_fresh _ _ I) in Lq1|]; lia.
  - intros i Hi. rewrite T in Hi. apply (inv_taint _ _ I) in Hi. lia.
Qed.

Lemma frame_ents wd f f' p :
  inside wd p = true -> taint f' = taint f -> only_at f f' p ->
  dmode f' = dmode f -> dstamp f' = dstamp f -> fstamp f' = fstamp f ->
  (forall q i, lookup f q = Some (NFile i) -> content f' i = content f i) ->
  same_outside wd f f'.
Proof.
  intros Hin T L M D S C. split; [exact T|]. intros q Hq.
  assert (q <> p) by (intros ->; congruence).
  unfold dir_mode, dir_stamp, file_stamp. rewrite M, D, S.
  split; [now apply L|]. repeat split. now apply (C q).
Qed.

Lemma keeps_set wd f p n :
  Inv wd f -> sinside wd p -> node_ok wd f n -> Keeps wd f (set_ent p n f).
Proof.
  intros I Hp Hn. split.
  - apply (Inv_only_at wd f _ p I Hp (only_at_set f p n)); [reflexivity | apply Nat.le_refl |].
    intros i L. rewrite lookup_set, path_eqb_refl in L. injection L as ->. now left.
  - apply (frame_ents wd f _ p (sinside_inside _ _ Hp)); try reflexivity. apply only_at_set.
Qed.

Lemma keeps_del wd f p : Inv wd f -> sinside wd p -> Keeps wd f (del_ent p f).
Proof.
  intros I Hp. split.
  - apply (Inv_only_at wd f _ p I Hp (only_at_del f p)); [reflexivity | apply Nat.le_refl |].
    intros i L. rewrite lookup_delent, path_eqb_refl in L. discriminate.
  - apply (frame_ents wd f _ p (sinside_inside _ _ Hp)); try reflexivity. apply only_at_del.
Qed.

Lemma content_newfile f p c q i :
  (forall p i, lookup f p = Some (NFile i) -> i < nexti f) ->
  lookup f q = Some (NFile i) -> content (new_file p c f) i = content f i.
Proof.
  intros Hf L. unfold content, new_file; simpl. destruct (Nat.eqb (nexti f) i) eqn:E; [|reflexivity].
  apply Nat.eqb_eq in E. apply Hf in L. lia.
Qed.

Lemma keeps_newfile wd f p c : Inv wd f -> sinside wd p -> Keeps wd f (new_file p c f).
Proof.
  intros I Hp. split.
  - apply (Inv_only_at wd f _ p I Hp (only_at_newfile f p c)); [reflexivity | simpl; lia |].
    intros i L. rewrite lookup_newfile, path_eqb_refl in L. injection L as <-. right. simpl. lia.
  - apply (frame_ents wd f _ p (sinside_inside _ _ Hp)); try reflexivity; [apply only_at_newfile|].
    intros q i. apply content_newfile, (inv_fresh _ _ I).
Qed.

Lemma Inv_same_ents wd f f' :
  ents f' = ents f -> nexti f' = nexti f -> taint f' = taint f -> Inv wd f -> Inv wd f'.
Proof.
  intros Ee En Et [A B C D]. constructor; unfold lookup in *; rewrite ?Ee, ?En, ?Et; assumption.
Qed.

Lemma inode_private wd f p i q :
  Inv wd f -> inside wd p = true -> lookup f p = Some (NFile i) ->
  inside wd q = false -> lookup f q = Some (NFile i) -> In i (taint f).
Proof. intros I Hin L Hq Lq. destruct (inv_ino _ _ I p q i L Lq Hin); [congruence | assumption]. Qed.

Lemma lookup_cont_other i c l j : j <> i -> lookup_cont ((i, c) :: l) j = lookup_cont l j.
Proof. intro H. simpl. destruct (Nat.eqb i j) eqn:E; [apply Nat.eqb_eq in E; congruence | reflexivity]. Qed.

(* a write to the inode of an inside file reaches an outside file only when the inode is tainted *)
Lemma keeps_setcont wd f i c p :
  Inv wd f -> inside wd p = true -> lookup f p = Some (NFile i) -> Keeps wd f (set_cont i c f).
Proof.
  intros I Hin L. split; [now apply (Inv_same_ents wd f)|].
  split; [reflexivity|]. intros q Hq. repeat split. apply lookup_cont_other. intros ->.
  eauto using inode_private.
Qed.

Lemma keeps_setfstamp wd f i t p :
  Inv wd f -> inside wd p = true -> lookup f p = Some (NFile i) -> Keeps wd f (set_fstamp i t f).
Proof.
  intros I Hin L. split; [now apply (Inv_same_ents wd f)|].
  split; [reflexivity|]. intros q Hq. repeat split. apply lookup_cont_other. intros ->.
  eauto using inode_private.
Qed.

Lemma keeps_setdmode wd f p m : Inv wd f -> inside wd p = true -> Keeps wd f (set_dmode p m f).
Proof.
  intros I Hin. split; [now apply (Inv_same_ents wd f)|].
  split; [reflexivity|]. intros q Hq. repeat split.
  unfold dir_mode, set_dmode; simpl. now rewrite (outside_neq _ _ _ Hin Hq).
Qed.

Lemma keeps_setdstamp wd f p t : Inv wd f -> inside wd p = true -> Keeps wd f (set_dstamp p t f).
Proof.
  intros I Hin. split; [now apply (Inv_same_ents wd f)|].
  split; [reflexivity|]. intros q Hq. repeat split.
  unfold dir_stamp, set_dstamp; simpl. now rewrite (outside_neq _ _ _ Hin Hq).
Qed.

Lemma keeps_newdir wd f p m : Inv wd f -> sinside wd p -> Keeps wd f (new_dir p m f).
Proof.
  intros I Hp. pose proof (keeps_set wd f p NDir I Hp Logic.I) as K1.
  eapply KeepsP_trans; [exact K1|]. apply keeps_setdmode; [exact (proj1 K1) | now apply sinside_inside].
Qed.

Lemma inside_sinside_app wd a ns : inside wd a = true -> ns <> [] -> sinside wd (a ++ ns).
Proof.
  rewrite inside_spec. intros [r ->] H. destruct ns as [|n ns']; [contradiction|].
  destruct r as [|y r'].
  - exists n, ns'. now rewrite app_nil_r.
  - exists y, (r' ++ n :: ns'). now rewrite <- app_assoc.
Qed.

(* no proper prefix of [ns] below [cur] that the walk reaches is a symbolic link *)
Fixpoint lexreal (f : fsys) (cur : path) (ns : list name) : bool :=
  match ns with
  | [] => true
  | c :: r =>
    match r with
    | [] => true
    | _ => match lookup f (cur ++ [c]) with
           | Some NDir => lexreal f (cur ++ [c]) r
           | Some (NSym _ _ _) => false
           | _ => true
           end
    end
  end.

Lemma snoc_not_nil {A} (l : list A) x : l ++ [x] <> [].
Proof. destruct l; discriminate. Qed.

(* the walk ended at [p] and returns what the tree holds there ([ne]: the path walked is not empty) *)
Definition finds (f : fsys) (p : path) (ne : Prop) (w : wres) : Prop :=
  match w with
  | WDir q => q = p /\ (ne -> lookup f p = Some NDir)
  | WFile q i => q = p /\ ne /\ lookup f p = Some (NFile i)
  | WSym q d a cs => q = p /\ ne /\ lookup f p = Some (NSym d a cs)
  | WNoEnt q => q = p /\ ne /\ lookup f p = None
  | _ => True
  end.

Lemma walk_lex_from f : forall ns fuel nl cur,
  lexreal f cur ns = true -> finds f (cur ++ ns) (ns <> []) (walk fuel f nl cur (Nms ns) false).
Proof.
  induction ns as [|c r IH]; intros fuel nl cur H; destruct fuel as [|fuel]; try exact Logic.I.
  - simpl. rewrite app_nil_r. now split.
  - cbn [Nms map walk]. fold (Nms r). cbn [lexreal] in H.
    assert (Hne : c :: r <> []) by discriminate.
    destruct r as [|c2 r'].
    + destruct (lookup f (cur ++ [c])) as [[|i|d a cs]|] eqn:L; simpl; auto.
      destruct fuel; simpl; auto.
    + destruct (lookup f (cur ++ [c])) as [[|i|d a cs]|] eqn:L; try exact Logic.I; [|discriminate].
      specialize (IH fuel nl (cur ++ [c]) H). rewrite <- app_assoc in IH.
      destruct (walk fuel f nl (cur ++ [c]) (Nms (c2 :: r')) false); try exact Logic.I;
        destruct IH as [E IH]; (split; [exact E|]); [intros _; apply IH; discriminate | | |];
        (split; [exact Hne | apply IH]).
Qed.

(* an Lstat (kernel walk, last element not followed) of a path whose proper parents are not links
   sees what the tree holds at the lexical location: why the store's Lstat checks can be read as
   look-ups *)
Lemma walk_lex f p fuel nl :
  lexreal f [] p = true -> finds f p (p <> []) (walk fuel f nl [] (Nms p) false).
Proof. apply walk_lex_from. Qed.

Lemma awalk_lex f p : lexreal f [] p = true -> finds f p (p <> []) (awalk f p false).
Proof. apply walk_lex. Qed.

Definition RealD (f : fsys) (cur d : path) : Prop :=
  forall q r, d = q ++ r -> q <> [] -> lookup f (cur ++ q) = Some NDir.

Lemma RealD_step f cur c d : RealD f cur (c :: d) -> RealD f (cur ++ [c]) d.
Proof.
  intros H q r E Hq. rewrite <- app_assoc. apply (H (c :: q) r); [now rewrite E | discriminate].
Qed.

Lemma RealD_head f cur c d : RealD f cur (c :: d) -> lookup f (cur ++ [c]) = Some NDir.
Proof. intro H. apply (H [c] d); [reflexivity | discriminate]. Qed.

Lemma walk_real f : forall d fuel nl cur follow,
  RealD f cur d ->
  match walk fuel f nl cur (Nms d) follow with
  | WDir p => p = cur ++ d
  | WErr => True
  | _ => False
  end.
Proof.
  induction d as [|c d IH]; intros fuel nl cur follow H; destruct fuel as [|fuel]; try exact Logic.I.
  - simpl. now rewrite app_nil_r.
  - simpl. rewrite (RealD_head _ _ _ _ H).
    specialize (IH fuel nl (cur ++ [c]) follow (RealD_step _ _ _ _ H)).
    rewrite <- app_assoc in IH. exact IH.
Qed.

Lemma lexreal_app f : forall d cur ns,
  RealD f cur d -> lexreal f (cur ++ d) ns = true -> lexreal f cur (d ++ ns) = true.
Proof.
  induction d as [|c d IH]; intros cur ns H L.
  - now rewrite app_nil_r in L.
  - simpl. destruct (d ++ ns) eqn:E; [reflexivity|]. rewrite <- E.
    rewrite (RealD_head _ _ _ _ H). apply IH; [apply (RealD_step _ _ _ _ H)|].
    now rewrite <- app_assoc.
Qed.

Lemma descend_lexreal f : forall ns cur,
  descend_ok f cur (removelast ns) = true -> lexreal f cur ns = true.
Proof.
  induction ns as [|c r IH]; intros cur H; [reflexivity|].
  destruct r as [|c2 r']; [reflexivity|].
  change (removelast (c :: c2 :: r')) with (c :: removelast (c2 :: r')) in H.
  simpl in H. cbn [lexreal].
  destruct (lookup f (cur ++ [c])) as [[|i|d a cs]|]; try reflexivity; try discriminate.
  apply IH. exact H.
Qed.

Lemma parents_ok_lexreal f dp ns :
  RealD f [] dp -> parents_ok f dp ns = true -> lexreal f dp ns = true.
Proof.
  intros HR H. unfold parents_ok in H.
  destruct (removelast ns) as [|q qs] eqn:E.
  - destruct ns as [|c [|c2 r]]; try reflexivity.
    change (removelast (c :: c2 :: r)) with (c :: removelast (c2 :: r)) in E. discriminate.
  - pose proof (walk_real f dp FUEL NLINK [] true HR) as W. unfold awalk in H.
    destruct (walk FUEL f NLINK [] (Nms dp) true); try contradiction; try discriminate.
    simpl in W. subst p. apply descend_lexreal. rewrite E. exact H.
Qed.

Lemma RealD_wd wd f l : Inv wd f -> RealD f wd l -> RealD f [] (wd ++ l).
Proof.
  intros I H q r E Hq. simpl.
  apply app_eq_app in E as [t [[E1 E2]|[E1 E2]]].
  - eapply inv_wd; eauto.
  - subst q. destruct t as [|y t'].
    + rewrite app_nil_r. apply (inv_wd_self _ _ I). intros ->. now apply Hq.
    + apply (H (y :: t') r E2). discriminate.
Qed.

Lemma lc_push abs : forall l cs m st, lc abs (Nms l ++ cs) m st = lc abs cs m (rev l ++ st).
Proof.
  induction l as [|a l IH]; intros cs m st; [reflexivity|].
  simpl. rewrite IH, <- app_assoc. reflexivity.
Qed.

Lemma clean_abs_names l : clean_abs (Nms l) = l.
Proof.
  unfold clean_abs. rewrite <- (app_nil_r (Nms l)), lc_push. simpl.
  rewrite app_nil_r, rev_involutive. reflexivity.
Qed.

Lemma skipn_S_tl {A} m : forall l : list A, skipn (S m) l = tl (skipn m l).
Proof. induction m as [|m IH]; intros [|x l]; try reflexivity. apply IH. Qed.

(* cleaning a relative path on top of a base: each leading ".." of the relative result takes
   one element off the base ([rb]: the base reversed, as [lc] keeps its stack) *)
Lemma lc_rel_abs rb : forall cs m st mt,
  snd (lc true cs mt (st ++ skipn m rb)) =
  rev (skipn (fst (lc false cs m st)) rb) ++ snd (lc false cs m st).
Proof.
  induction cs as [|[|s] r IH]; intros m st mt.
  - simpl. now rewrite rev_app_distr.
  - destruct st as [|y st']; cbn [lc app]; [|apply IH].
    rewrite <- (IH (S m) [] mt). cbn [app]. rewrite skipn_S_tl. now destruct (skipn m rb).
  - cbn [lc]. apply (IH m (s :: st) mt).
Qed.

Lemma clean_abs_join base cs :
  clean_abs (Nms base ++ cs) = rev (skipn (fst (clean_rel cs)) (rev base)) ++ snd (clean_rel cs).
Proof. unfold clean_abs, clean_rel. rewrite lc_push, app_nil_r. exact (lc_rel_abs (rev base) cs 0 [] 0). Qed.

Lemma not_sinside_prefix dp q r : dp = q ++ r -> ~ sinside dp q.
Proof. intros E H. exact (sinside_not_prefix dp q q r H E eq_refl). Qed.

Lemma RealD_only_at f g dp rel : rel <> [] -> RealD f [] dp -> only_at f g (dp ++ rel) -> RealD g [] dp.
Proof.
  intros Hr H A q r E Hq. simpl. rewrite A; [exact (H q r E Hq)|].
  intros ->. apply (not_sinside_prefix _ _ _ E). destruct rel as [|x t]; [contradiction|]. now exists x, t.
Qed.

Lemma RealD_same f f' dp : (forall q, lookup f' q = lookup f q) -> RealD f [] dp -> RealD f' [] dp.
Proof. intros S H q r E Hq. rewrite S. apply (H q r E Hq). Qed.

Lemma RealD_snoc f cur c : RealD f [] cur -> lookup f (cur ++ [c]) = Some NDir -> RealD f [] (cur ++ [c]).
Proof.
  intros H L q r E Hq. simpl. destruct r as [|x r'] using rev_ind.
  - rewrite app_nil_r in E. subst q. exact L.
  - rewrite app_assoc in E. apply app_inj_tail in E as [E _]. apply (H q r' E Hq).
Qed.

Lemma RealD_prefix f dp rel : RealD f [] (dp ++ rel) -> RealD f [] dp.
Proof. intros H q r E Hq. apply (H q (r ++ rel)); [rewrite E; now rewrite app_assoc | exact Hq]. Qed.

Lemma RealD_inv wd f : Inv wd f -> RealD f [] wd.
Proof. intros I q r E Hq. simpl. eapply inv_wd; eauto. Qed.

Lemma lexreal_single f cur c : lexreal f cur [c] = true.
Proof. reflexivity. Qed.

Lemma lexreal_of_parent f cl : RealD f [] (removelast cl) -> lexreal f [] cl = true.
Proof.
  destruct cl as [|x l] using rev_ind; [reflexivity|].
  rewrite removelast_last. intro HR. apply lexreal_app; [exact HR | reflexivity].
Qed.

Lemma lexreal_ext f g : forall ns cur,
  (forall q r, ns = q ++ r -> q <> [] -> r <> [] -> lookup g (cur ++ q) = lookup f (cur ++ q)) ->
  lexreal g cur ns = lexreal f cur ns.
Proof.
  induction ns as [|c r IH]; intros cur H; [reflexivity|].
  cbn [lexreal]. destruct r as [|c2 r']; [reflexivity|].
  rewrite (H [c] (c2 :: r')); [|reflexivity|discriminate|discriminate].
  destruct (lookup f (cur ++ [c])) as [[|i|d a cs]|]; try reflexivity.
  apply IH. intros q r E Hq Hr. rewrite <- !app_assoc. apply (H (c :: q) r); [now rewrite E|discriminate|exact Hr].
Qed.

Lemma lexreal_only_at f g fp : only_at f g fp -> lexreal g [] fp = lexreal f [] fp.
Proof.
  intro A. apply lexreal_ext. intros q r E Hq Hr. simpl. apply A. intros ->.
  apply (f_equal (@length _)) in E. rewrite app_length in E. destruct r; [contradiction | simpl in E; lia].
Qed.

Lemma inside_sinside wd f fp :
  Inv wd f -> inside wd fp = true -> fp <> [] -> lookup f fp <> Some NDir -> sinside wd fp.
Proof.
  intros I Hin Hne Hl. apply inside_spec in Hin as [r ->]. destruct r as [|x r'].
  - exfalso. rewrite app_nil_r in *. exact (Hl (inv_wd_self _ _ I Hne)).
  - exists x, r'. reflexivity.
Qed.

(* the last element is followed only when it is a link: an Lstat that did not see a link sees what
   the following system call sees *)
Lemma walk_follow_agrees f : forall fuel nl cur rem,
  (forall q d a cs, walk fuel f nl cur rem false <> WSym q d a cs) ->
  walk fuel f nl cur rem true = walk fuel f nl cur rem false.
Proof.
  induction fuel as [|fuel IH]; intros nl cur rem H; [reflexivity|].
  destruct rem as [|[|c] r]; simpl in *; [reflexivity | now apply IH |].
  destruct (lookup f (cur ++ [c])) as [[|i|d a cs]|]; try reflexivity.
  - now apply IH.
  - destruct r as [|c2 r'].
    + exfalso. apply (H (cur ++ [c]) d a cs). reflexivity.
    + destruct nl; [reflexivity | now apply IH].
Qed.

Definition nosym (f : fsys) (fp : list name) : Prop := forall q d a cs, awalk f fp false <> WSym q d a cs.

Lemma nosym_of_lookup f fp :
  lexreal f [] fp = true -> (forall d a cs, lookup f fp <> Some (NSym d a cs)) -> nosym f fp.
Proof.
  intros HL Hns q d a cs E. pose proof (walk_lex f fp FUEL NLINK HL) as W.
  unfold awalk in E. rewrite E in W. exact (Hns d a cs (proj2 (proj2 W))).
Qed.

Lemma walk_lex_follow f p :
  lexreal f [] p = true -> nosym f p -> finds f p (p <> []) (walk FUEL f NLINK [] (Nms p) true).
Proof. intros HL Hns. rewrite (walk_follow_agrees f FUEL NLINK [] (Nms p) Hns). now apply walk_lex. Qed.

Lemma write_at_lex wd fp c mo f f' :
  Inv wd f -> inside wd fp = true -> lexreal f [] fp = true ->
  nosym f fp ->
  write_at f (Nms fp) c mo = Some f' ->
  Keeps wd f f' /\ only_at f f' fp /\ (exists i, lookup f' fp = Some (NFile i)) /\
  lookup f fp <> Some NDir /\ fp <> [].
Proof.
  intros I Hin HL Hns H. unfold write_at in H.
  pose proof (walk_lex_follow f fp HL Hns) as W.
  destruct (walk FUEL f NLINK [] (Nms fp) true); try discriminate; injection H as <-;
    destruct W as (-> & Hne & L); (assert (Hd : lookup f fp <> Some NDir) by (rewrite L; discriminate)).
  - split; [eapply keeps_setcont; eauto|]. split; [intros q _; reflexivity|]. split; [exists i; exact L | auto].
  - split; [apply keeps_newfile; [exact I|]; eapply inside_sinside; eauto|].
    split; [apply only_at_newfile|]. split; [|auto].
    exists (nexti f). rewrite lookup_newfile, path_eqb_refl. reflexivity.
Qed.

Lemma chmod_at_lex wd fp mo f f' :
  Inv wd f -> inside wd fp = true -> lexreal f [] fp = true -> nosym f fp ->
  chmod_at f fp mo = Some f' ->
  Keeps wd f f' /\ (forall q, lookup f' q = lookup f q).
Proof.
  intros I Hin HL Hns H. unfold chmod_at, awalk in H.
  pose proof (walk_lex_follow f fp HL Hns) as W.
  destruct (walk FUEL f NLINK [] (Nms fp) true); try discriminate; injection H as <-; destruct W as [-> W].
  - split; [now apply keeps_setdmode | reflexivity].
  - split; [eapply keeps_setcont; eauto; apply W | reflexivity].
Qed.

Lemma remove_at_lex fp f f' :
  lexreal f [] fp = true -> remove_at f fp = Some f' ->
  f' = del_ent fp f /\ (lookup f fp = Some NDir -> has_child f fp = false).
Proof.
  intros HL H. unfold remove_at, awalk in H. pose proof (walk_lex f fp FUEL NLINK HL) as W.
  destruct (walk FUEL f NLINK [] (Nms fp) false); try discriminate; destruct W as [-> W].
  - destruct fp; [discriminate|]. destruct (has_child f (n :: fp)) eqn:HC; [discriminate|].
    injection H as <-. auto.
  - injection H as <-. split; [reflexivity|]. destruct W as [_ L]. rewrite L. discriminate.
  - injection H as <-. split; [reflexivity|]. destruct W as [_ L]. rewrite L. discriminate.
Qed.

Lemma lookup_ents_in l p n : lookup_ents l p = Some n -> In (p, n) l.
Proof.
  induction l as [|[k v] l IH]; simpl; [discriminate|]. destruct (path_eqb k p) eqn:E.
  - intros [= ->]. apply path_eqb_spec in E. subst k. now left.
  - intro H. right. now apply IH.
Qed.

Lemma has_child_false f p c : has_child f p = false -> lookup f (p ++ [c]) = None.
Proof.
  intro H. destruct (lookup f (p ++ [c])) as [n|] eqn:L; [|reflexivity]. exfalso.
  apply lookup_ents_in in L.
  unfold has_child in H. rewrite <- Bool.not_true_iff_false in H. apply H.
  apply existsb_exists. exists (p ++ [c], n). split; [exact L|]. simpl.
  now rewrite strip_prefix_app.
Qed.

(* how one archive entry may change what is at a location (for the directories recorded so far):
   nothing that exists goes away, or the entry at [fp] is replaced by something - and a directory
   that has a child is never replaced *)
Definition child_of (f : fsys) (fp : path) : Prop := exists c, lookup f (fp ++ [c]) <> None.

Definition Repl (f f' : fsys) (fp : path) : Prop :=
  only_at f f' fp /\ lookup f' fp <> None /\
  (lookup f fp = Some NDir -> child_of f fp -> lookup f' fp = Some NDir).

Definition Step (f f' : fsys) (fp : path) : Prop :=
  (forall q v, lookup f q = Some v -> lookup f' q = Some v) \/ Repl f f' fp.

Lemma Repl_same f f' f'' fp : (forall q, lookup f'' q = lookup f' q) -> Repl f f' fp -> Repl f f'' fp.
Proof.
  intros S (O & B & C). split; [intros q Hq; rewrite S; now apply O|]. rewrite !S. auto.
Qed.

Lemma set_free wd fp n f g :
  Inv wd g -> sinside wd fp -> node_ok wd g n -> only_at f g fp ->
  (lookup f fp = Some NDir -> ~ child_of f fp) ->
  Keeps wd g (set_ent fp n g) /\ Repl f (set_ent fp n g) fp.
Proof.
  intros I Hs Hn O Hd. split; [now apply keeps_set|].
  split; [eapply only_at_trans; [exact O | apply only_at_set]|].
  rewrite lookup_set, path_eqb_refl. split; [discriminate|]. intros L Hc. now elim (Hd L).
Qed.

(* removeSymlink: afterwards there is no link at [fp] *)
Lemma unlink_if_lex wd fp f f' :
  Inv wd f -> inside wd fp = true -> lexreal f [] fp = true ->
  unlink_if_symlink f fp = Some f' ->
  Keeps wd f f' /\ only_at f f' fp /\ nosym f' fp /\ lexreal f' [] fp = true /\
  (lookup f fp = Some NDir -> f' = f).
Proof.
  intros I Hin HL H. unfold unlink_if_symlink, klstat in H.
  pose proof (awalk_lex f fp HL) as W.
  destruct (awalk f fp false) eqn:E;
    try (injection H as <-; split; [now apply KeepsP_refl|]; split; [apply only_at_refl|];
         split; [intros ? ? ? ? E'; congruence | auto]).
  destruct W as (-> & Hne & L). destruct (remove_at_lex fp f f' HL H) as [-> _].
  assert (HL' : lexreal (del_ent fp f) [] fp = true) by (rewrite (lexreal_only_at _ _ _ (only_at_del f fp)); exact HL).
  split; [apply keeps_del; [exact I|]; eapply inside_sinside; eauto; rewrite L; discriminate|].
  split; [apply only_at_del|]. split; [|split; [exact HL' | rewrite L; discriminate]].
  apply nosym_of_lookup; [exact HL'|]. intros d0 a0 cs0. rewrite lookup_delent, path_eqb_refl. discriminate.
Qed.

(* removeSymlink, then os.Create (writeFile for a regular entry, pushFile for a named blob): a regular
   file replaces what is at [fp] *)
Lemma create_lex wd fp c mo f f0 f1 :
  Inv wd f -> inside wd fp = true -> lexreal f [] fp = true ->
  unlink_if_symlink f fp = Some f0 -> write_at f0 (Nms fp) c mo = Some f1 ->
  Keeps wd f f1 /\ Repl f f1 fp /\ lexreal f1 [] fp = true /\ nosym f1 fp /\ sinside wd fp.
Proof.
  intros I Hfp HL U Wr.
  destruct (unlink_if_lex wd fp f f0 I Hfp HL U) as (K0 & O0 & N0 & HL0 & D0).
  destruct (write_at_lex wd fp c mo f0 f1 (proj1 K0) Hfp HL0 N0 Wr) as (K1 & O1 & (i & L1) & D1 & Hne).
  assert (HL1 : lexreal f1 [] fp = true) by (rewrite (lexreal_only_at _ _ _ O1); exact HL0).
  split; [eapply KeepsP_trans; eauto|]. split.
  - split; [eapply only_at_trans; eauto|]. split; [rewrite L1; discriminate|].
    intros L _. elim D1. rewrite (D0 L). exact L.
  - split; [exact HL1|]. split; [apply nosym_of_lookup; [exact HL1 | intros; rewrite L1; discriminate]|].
    exact (inside_sinside wd f0 fp (proj1 K0) Hfp Hne D1).
Qed.

Lemma do_symlink_lex wd fp d a cs f f' :
  Inv wd f -> sinside wd fp -> lexreal f [] fp = true ->
  do_symlink f fp (NSym d a cs) = Some f' ->
  Keeps wd f f' /\ Repl f f' fp.
Proof.
  intros I Hs HL H. unfold do_symlink in H.
  assert (Retry : match remove_at f fp with
                  | None => None
                  | Some f1 => match awalk f1 fp false with WNoEnt q => Some (set_ent q (NSym d a cs) f1) | _ => None end
                  end = Some f' -> Keeps wd f f' /\ Repl f f' fp).
  { destruct (remove_at f fp) as [f1|] eqn:R; [|discriminate].
    destruct (remove_at_lex fp f f1 HL R) as [-> HC].
    pose proof (keeps_del wd f fp I Hs) as K1. pose proof (only_at_del f fp) as O1.
    pose proof (awalk_lex (del_ent fp f) fp) as W1. rewrite (lexreal_only_at _ _ _ O1) in W1. specialize (W1 HL).
    destruct (awalk (del_ent fp f) fp false); try discriminate. destruct W1 as [-> _]. intros [= <-].
    destruct (set_free wd fp (NSym d a cs) f _ (proj1 K1) Hs Logic.I O1) as [K2 R2].
    - intros L [c Hc]. apply Hc, has_child_false, HC, L.
    - split; [eapply KeepsP_trans; eauto | exact R2]. }
  pose proof (awalk_lex f fp HL) as W.
  destruct (awalk f fp false); try discriminate; try (apply Retry; exact H).
  destruct W as (-> & _ & Ln). injection H as <-.
  apply (set_free wd fp (NSym d a cs) f f I Hs Logic.I (only_at_refl f fp)). intro L. rewrite Ln in L. discriminate.
Qed.

Lemma do_link_lex wd cwd fp pn tgt f f' :
  Inv wd f -> inside wd fp = true -> lexreal f [] fp = true ->
  inside wd pn = true -> lexreal f [] pn = true ->
  do_link cfg_fixed f cwd fp pn tgt = Some f' ->
  Keeps wd f f' /\ Repl f f' fp.
Proof.
  intros I Hfp HLfp Hpn HLpn H. unfold do_link in H. cbn [fixH cfg_fixed] in H.
  pose proof (awalk_lex f pn HLpn) as Wo.
  pose proof (awalk_lex f fp HLfp) as Wn.
  assert (New : forall n, node_ok wd f n ->
            match awalk f fp false with WNoEnt q => Some (set_ent q n f) | _ => None end = Some f' ->
            Keeps wd f f' /\ Repl f f' fp).
  { intros n Hn H2. destruct (awalk f fp false); try discriminate.
    destruct Wn as (-> & Hne & Ln). injection H2 as <-.
    apply (set_free wd fp n f f I); [|exact Hn | apply only_at_refl | intro L; rewrite Ln in L; discriminate].
    eapply inside_sinside; eauto. rewrite Ln. discriminate. }
  destruct (awalk f pn false); try discriminate; destruct Wo as (-> & _ & Lo).
  - apply (New (NFile i)); [exists pn; auto | exact H].
  - apply (New (NSym d a cs)); [exact Logic.I | exact H].
Qed.

Lemma Nms_snoc d c : Nms d ++ [Nm c] = Nms (d ++ [c]).
Proof. unfold Nms. now rewrite map_app. Qed.

(* os.MkdirAll passes over the elements that exist as directories *)
Lemma mkdir_prefixes_skip f mo : forall t1 d t2,
  RealD f [] (d ++ t1) ->
  mkdir_prefixes f (Nms d) (Nms (t1 ++ t2)) mo = mkdir_prefixes f (Nms (d ++ t1)) (Nms t2) mo \/
  mkdir_prefixes f (Nms d) (Nms (t1 ++ t2)) mo = None.
Proof.
  induction t1 as [|c t1 IH]; intros d t2 HR.
  - left. now rewrite app_nil_r.
  - cbn [app Nms map mkdir_prefixes]. fold (Nms (t1 ++ t2)). rewrite Nms_snoc.
    assert (HR1 : RealD f [] (d ++ [c])).
    { apply (RealD_prefix f (d ++ [c]) t1). now rewrite <- app_assoc. }
    pose proof (walk_real f (d ++ [c]) FUEL NLINK [] true HR1) as W1.
    pose proof (walk_real f (d ++ [c]) FUEL NLINK [] false HR1) as W2.
    destruct (walk FUEL f NLINK [] (Nms (d ++ [c])) true); try contradiction.
    + specialize (IH (d ++ [c]) t2). rewrite <- !app_assoc in IH. simpl in IH. apply IH. exact HR.
    + right. destruct (walk FUEL f NLINK [] (Nms (d ++ [c])) false); try contradiction; reflexivity.
Qed.

Lemma mkdir_all_noop f mo d f' : RealD f [] d -> mkdir_all f (Nms d) mo = Some f' -> f' = f.
Proof.
  intros HR H. unfold mkdir_all in H.
  destruct (mkdir_prefixes_skip f mo d [] [] HR) as [E|E]; rewrite app_nil_r in E; simpl in E; congruence.
Qed.

Lemma only_at_newdir f p m : only_at f (new_dir p m f) p.
Proof. exact (only_at_set f p NDir). Qed.

Lemma mkdir_real_lex wd mo : forall qs cur f f',
  Inv wd f -> inside wd cur = true -> RealD f [] cur ->
  mkdir_real f cur qs mo = Some f' ->
  Keeps wd f f' /\ RealD f' [] (cur ++ qs) /\ (forall q v, lookup f q = Some v -> lookup f' q = Some v).
Proof.
  induction qs as [|c r IH]; intros cur f f' I Hin HR H.
  - injection H as <-. rewrite app_nil_r. auto using KeepsP_refl.
  - cbn [mkdir_real] in H. unfold klstat in H.
    assert (Hin' : inside wd (cur ++ [c]) = true) by now apply inside_app.
    assert (HL : lexreal f [] (cur ++ [c]) = true) by (apply lexreal_app; [exact HR | reflexivity]).
    pose proof (awalk_lex f (cur ++ [c]) HL) as W.
    destruct (awalk f (cur ++ [c]) false); try discriminate.
    + destruct W as [-> L]. specialize (L (snoc_not_nil _ _)).
      destruct (IH _ f f' I Hin' (RealD_snoc _ _ _ HR L) H) as (K & R & M).
      rewrite <- app_assoc in R. auto.
    + destruct W as (-> & _ & Ln).
      assert (Hs : sinside wd (cur ++ [c])) by (apply inside_sinside_app; [exact Hin | discriminate]).
      pose proof (keeps_newdir wd f (cur ++ [c]) mo I Hs) as K1.
      pose proof (only_at_newdir f (cur ++ [c]) mo) as O1.
      assert (HR1 : RealD (new_dir (cur ++ [c]) mo f) [] (cur ++ [c])).
      { apply RealD_snoc; [apply (RealD_only_at f _ cur [c]); [discriminate | exact HR | exact O1]|].
        unfold new_dir. rewrite lookup_setdmode, lookup_set, path_eqb_refl. reflexivity. }
      destruct (IH _ _ f' (proj1 K1) Hin' HR1 H) as (K & R & M). rewrite <- app_assoc in R.
      split; [eapply KeepsP_trans; eauto|]. split; [exact R|].
      intros q v L. apply M. rewrite O1; [exact L|]. intros ->. congruence.
Qed.

Lemma write_at_real f fp c mo : RealD f [] fp -> write_at f (Nms fp) c mo = None.
Proof.
  intro HR. unfold write_at. pose proof (walk_real f fp FUEL NLINK [] true HR) as W.
  destruct (walk FUEL f NLINK [] (Nms fp) true); try contradiction; reflexivity.
Qed.

Lemma ensure_link_lex wd f dp fp tgt pn :
  inside wd dp = true -> RealD f [] dp -> ensure_link f dp fp tgt = Some pn ->
  inside wd pn = true /\ lexreal f [] pn = true.
Proof.
  intros Hd HR H. unfold ensure_link in H.
  destruct (strip_prefix dp (link_abs_path fp tgt)) as [ns|] eqn:E; [|discriminate].
  destruct (parents_ok f dp ns) eqn:PO; [|discriminate]. injection H as <-.
  apply strip_prefix_spec in E. rewrite E. split; [now apply inside_app|].
  apply lexreal_app; [exact HR | now apply parents_ok_lexreal].
Qed.

Lemma extract_entry_core_keeps wd pres cwd dp dirName f e f' :
  Inv wd f -> inside wd dp = true -> RealD f [] dp ->
  extract_entry_core cfg_fixed pres cwd dp dirName f e = Some f' ->
  exists rel, entry_rel dp dirName (entry_name e) = Some rel /\
              Keeps wd f f' /\ RealD f' [] dp /\ lexreal f' [] (dp ++ rel) = true /\
              Step f f' (dp ++ rel) /\
              (match e with EDir _ _ => RealD f' [] (dp ++ rel) | _ => True end).
Proof.
  intros I Hd HR H. unfold extract_entry_core, resolve_rel in H. cbn [fixR fixN fixW cfg_fixed] in H.
  destruct (entry_rel dp dirName (entry_name e)) as [rel|] eqn:ER; [|discriminate].
  exists rel. split; [reflexivity|].
  destruct (parents_ok f dp rel) eqn:PO; [|discriminate].
  assert (Hfp : inside wd (dp ++ rel) = true) by now apply inside_app.
  assert (HL : lexreal f [] (dp ++ rel) = true).
  { apply lexreal_app; [exact HR | now apply parents_ok_lexreal]. }
  (* files and links replace what is at their own location, strictly below [dp] *)
  assert (Hat : forall g, rel <> [] -> Keeps wd f g /\ Repl f g (dp ++ rel) ->
                Keeps wd f g /\ RealD g [] dp /\ lexreal g [] (dp ++ rel) = true /\
                Step f g (dp ++ rel) /\ True).
  { intros g Hr [K R]. pose proof (proj1 R) as O. split; [exact K|].
    split; [exact (RealD_only_at f g dp rel Hr HR O)|].
    split; [rewrite (lexreal_only_at _ _ _ O); exact HL|]. split; [now right | exact Logic.I]. }
  destruct e as [nm c mo|nm mo|nm tgt|nm tgt|nm]; cbn [entry_name] in *.
  - destruct rel as [|r0 rel']; [discriminate|]. apply Hat; [discriminate|].
    set (fp := dp ++ r0 :: rel') in *.
    destruct (unlink_if_symlink f fp) as [f0|] eqn:U; [|discriminate].
    unfold chmod_if in H.
    destruct (write_at f0 (Nms fp) c mo) as [f1|] eqn:Wr; [|discriminate].
    destruct (create_lex wd fp c mo f f0 f1 I Hfp HL U Wr) as (K1 & R1 & HL1 & N1 & _).
    destruct pres; [|injection H as <-; exact (conj K1 R1)].
    destruct (chmod_at_lex wd fp mo f1 f' (proj1 K1) Hfp HL1 N1 H) as (K2 & S2).
    split; [eapply KeepsP_trans; eauto | exact (Repl_same f f1 f' fp S2 R1)].
  - (* created writable for the owner; the recorded mode is applied after the last entry *)
    destruct (mkdir_real_lex wd _ rel dp f f' I Hd HR H) as (K1 & R1 & M1).
    split; [exact K1|]. split; [eapply RealD_prefix; eauto|].
    split; [rewrite <- (app_nil_r (dp ++ rel)); now apply lexreal_app|].
    split; [left; exact M1 | exact R1].
  - destruct rel as [|r0 rel']; [discriminate|]. apply Hat; [discriminate|].
    destruct (ensure_link f dp (dp ++ r0 :: rel') tgt) as [pn|] eqn:EL; [|discriminate].
    destruct (ensure_link_lex _ _ _ _ _ _ Hd HR EL) as [Hpn HLpn].
    exact (do_link_lex wd cwd _ pn tgt f f' I Hfp HL Hpn HLpn H).
  - destruct rel as [|r0 rel']; [discriminate|]. apply Hat; [discriminate|].
    destruct (ensure_link f dp (dp ++ r0 :: rel') tgt) as [pn|]; [|discriminate].
    destruct tgt as [|t0 tgt']; [discriminate|]. unfold sym_node in H.
    refine (do_symlink_lex wd _ _ _ _ f f' I _ HL H).
    apply inside_sinside_app; [exact Hd | discriminate].
  - injection H as <-. split; [now apply KeepsP_refl|]. split; [exact HR|]. split; [exact HL|].
    split; [left; auto | exact Logic.I].
Qed.

(* os.Chtimes after the entry: never through a link, so at the lexical location *)
Lemma touch_keeps wd fp t f :
  Inv wd f -> inside wd fp = true -> lexreal f [] fp = true ->
  Keeps wd f (touch cfg_fixed f fp t) /\ (forall q, lookup (touch cfg_fixed f fp t) q = lookup f q).
Proof.
  intros I Hin HL. unfold touch. cbn [fixT cfg_fixed].
  assert (Same : Keeps wd f f /\ (forall q, lookup f q = lookup f q))
    by (split; [now apply KeepsP_refl | reflexivity]).
  assert (Hch : nosym f fp ->
                Keeps wd f (chtimes_at f fp t) /\ (forall q, lookup (chtimes_at f fp t) q = lookup f q)).
  { intro Hns. unfold chtimes_at, awalk. destruct t as [|tp]; [exact Same|].
    pose proof (walk_lex_follow f fp HL Hns) as W.
    destruct (walk FUEL f NLINK [] (Nms fp) true); try exact Same; destruct W as [-> W].
    - split; [now apply keeps_setdstamp | reflexivity].
    - split; [eapply keeps_setfstamp; eauto; apply W | reflexivity]. }
  unfold klstat. destruct (awalk f fp false) eqn:E; try exact Same; apply Hch; intros ? ? ? ? E'; congruence.
Qed.

(* a recorded directory: every proper ancestor is a real directory and still has its child on
   the path, so no later entry can turn it into a link *)
Definition Recd (f : fsys) (fp : path) : Prop :=
  forall q c r, fp = q ++ c :: r -> q <> [] -> lookup f q = Some NDir /\ lookup f (q ++ [c]) <> None.

Lemma Recd_of_RealD f fp : RealD f [] fp -> Recd f fp.
Proof.
  intros HR q c r E Hq. split.
  - apply (HR q (c :: r) E Hq).
  - pose proof (HR (q ++ [c]) r) as L. simpl in L. rewrite L; [discriminate | now rewrite <- app_assoc | apply snoc_not_nil].
Qed.

Lemma Recd_same f f' : (forall q, lookup f' q = lookup f q) -> forall fp, Recd f fp -> Recd f' fp.
Proof. intros S fp H q c r E Hq. rewrite !S. now apply (H q c r). Qed.

Lemma Recd_step f f' fp0 : Step f f' fp0 -> forall fp, Recd f fp -> Recd f' fp.
Proof.
  intros [M|(O & B & C)] fp H q c r E Hq; destruct (H q c r E Hq) as [L1 L2].
  - split; [now apply M|]. destruct (lookup f (q ++ [c])) as [v|] eqn:Ev; [|contradiction].
    rewrite (M _ _ Ev). discriminate.
  - split.
    + destruct (path_eq_dec q fp0) as [<-|Hq0]; [|now rewrite (O q Hq0)].
      apply C; [exact L1 | exists c; exact L2].
    + destruct (path_eq_dec (q ++ [c]) fp0) as [<-|Hq0]; [exact B | now rewrite (O _ Hq0)].
Qed.

Lemma Recd_lexreal f p : Recd f p -> lexreal f [] p = true.
Proof.
  intro H. destruct p as [|x l] using rev_ind; [reflexivity|].
  apply lexreal_app; [|reflexivity].
  intros q r0 E Hq. simpl. destruct (r0 ++ [x]) as [|c r] eqn:Er; [destruct r0; discriminate|].
  apply (H q c r); [|exact Hq]. rewrite E, <- app_assoc, Er. reflexivity.
Qed.

Definition Recds (f : fsys) (dirs : list (path * N)) : Prop := Forall (fun d => Recd f (fst d)) dirs.

Lemma Recds_impl f f' dirs : (forall p, Recd f p -> Recd f' p) -> Recds f dirs -> Recds f' dirs.
Proof. intros H. apply Forall_impl. intros d. apply H. Qed.

Lemma extract_entry_keeps wd pres cwd dp dirName f e t f' dirs :
  Inv wd f -> inside wd dp = true -> RealD f [] dp -> Recds f dirs ->
  extract_entry cfg_fixed pres cwd dp dirName f e t = Some f' ->
  Keeps wd f f' /\ RealD f' [] dp /\
  Recds f' (match dir_record dp dirName e with Some d => d :: dirs | None => dirs end).
Proof.
  intros I Hd HR HD H. unfold extract_entry in H.
  destruct (extract_entry_core cfg_fixed pres cwd dp dirName f e) as [f1|] eqn:C; [|discriminate].
  destruct (extract_entry_core_keeps _ _ _ _ _ _ _ _ I Hd HR C) as (rel & ER & K1 & R1 & L1 & S1 & D1).
  assert (HD1 : Recds f1 (match dir_record dp dirName e with Some d => d :: dirs | None => dirs end)).
  { pose proof (Recds_impl f f1 dirs (Recd_step f f1 _ S1) HD) as A.
    destruct e; cbn [dir_record entry_name] in *; try exact A.
    rewrite ER. constructor; [now apply Recd_of_RealD | exact A]. }
  assert (Ht : forall g, (forall q, lookup g q = lookup f1 q) -> Keeps wd f1 g ->
               Keeps wd f g /\ RealD g [] dp /\
               Recds g (match dir_record dp dirName e with Some d => d :: dirs | None => dirs end)).
  { intros g S K. split; [eapply KeepsP_trans; eauto|]. split; [now apply (RealD_same f1)|].
    exact (Recds_impl f1 g _ (Recd_same f1 g S) HD1). }
  destruct (touch_keeps wd (dp ++ rel) t f1 (proj1 K1) (inside_app _ _ _ Hd) L1) as [K2 S2].
  destruct e; cbn [entry_name] in *; try rewrite ER in H; injection H as <-;
    try (apply Ht; assumption).
  apply Ht; [reflexivity | apply KeepsP_refl; exact (proj1 K1)].
Qed.

(* restoreDirModes: each chmod hits a recorded directory that is still a real directory *)
Lemma restore_dirs_keeps wd pres : forall dirs f f' seen,
  Inv wd f -> Recds f dirs -> Forall (fun d => inside wd (fst d) = true) dirs ->
  restore_dirs pres f dirs seen = Some f' -> Keeps wd f f'.
Proof.
  induction dirs as [|[p m] r IH]; intros f f' seen I HD Hin H.
  - injection H as <-. now apply KeepsP_refl.
  - cbn [restore_dirs] in H. inversion HD as [|? ? Hp Hr]; subst. inversion Hin as [|? ? Ip Ir]; subst.
    simpl in Hp, Ip.
    destruct (existsb (path_eqb p) seen); [exact (IH f f' seen I Hr Ir H)|].
    unfold klstat in H.
    pose proof (awalk_lex f p (Recd_lexreal _ _ Hp)) as W.
    destruct (awalk f p false) as [q| | | | |] eqn:E; try discriminate; try exact (IH f f' (p :: seen) I Hr Ir H).
    destruct W as [-> _]. assert (Hns : nosym f p) by (intros ? ? ? ? E'; congruence).
    cbv zeta in H. set (want := if pres then m else N.land (dir_mode f p) m) in H.
    destruct (negb pres && (want =? dir_mode f p)%N); [exact (IH f f' (p :: seen) I Hr Ir H)|].
    destruct (chmod_at f p want) as [f1|] eqn:Cm; [|discriminate].
    destruct (chmod_at_lex wd p want f f1 I Ip (Recd_lexreal _ _ Hp) Hns Cm) as [K1 S1].
    eapply KeepsP_trans; [exact K1|]. apply (IH f1 f' (p :: seen) (proj1 K1)); [|exact Ir | exact H].
    exact (Recds_impl f f1 r (Recd_same f f1 S1) Hr).
Qed.

Lemma extract_keeps wd pres cwd dp dirName trunc : forall es f f' ok ts dirs,
  Inv wd f -> inside wd dp = true -> RealD f [] dp ->
  Recds f dirs -> Forall (fun d => inside wd (fst d) = true) dirs ->
  extract cfg_fixed pres cwd dp dirName f es ts dirs trunc = (f', ok) ->
  Keeps wd f f'.
Proof.
  induction es as [|e es IH]; intros f f' ok ts dirs I Hd HR HD Hin H.
  - cbn [extract] in H. destruct trunc; [injection H as <- _; now apply KeepsP_refl|].
    destruct (restore_dirs pres f dirs []) as [f1|] eqn:R; injection H as <- _.
    + eapply restore_dirs_keeps; eauto.
    + now apply KeepsP_refl.
  - cbn [extract] in H.
    destruct (extract_entry cfg_fixed pres cwd dp dirName f e (hd 0%N ts)) as [f1|] eqn:E.
    + destruct (extract_entry_keeps _ _ _ _ _ _ _ _ _ dirs I Hd HR HD E) as (K1 & HR1 & HD1).
      eapply KeepsP_trans; [exact K1|]. eapply IH; eauto; [exact (proj1 K1)|].
      destruct e as [nm c mo|nm mo|nm tgt|nm tgt|nm]; cbn [dir_record] in *; try exact Hin.
      destruct (entry_rel dp dirName nm) as [rel|]; [|exact Hin].
      constructor; [simpl; now apply inside_app | exact Hin].
    + injection H as <- _. now apply KeepsP_refl.
Qed.

(* the working directory does not exist yet (the first push creates it) *)
Record Inv0 (wd : path) (f : fsys) : Prop := mkInv0 {
  inv0_ne : wd <> [];
  inv0_anc : RealD f [] (removelast wd);
  inv0_none : forall p, inside wd p = true -> lookup f p = None;
  inv0_fresh : forall p i, lookup f p = Some (NFile i) -> i < nexti f;
  inv0_taint : forall i, In i (taint f) -> i < nexti f
}.

Definition PreInv (wd : path) (f : fsys) : Prop := Inv wd f \/ Inv0 wd f.

(* a regular file where the working directory should be (a named blob whose title denotes the
   not yet existing working directory creates it) *)
Record InvF (wd : path) (f : fsys) : Prop := mkInvF {
  invF_ne : wd <> [];
  invF_anc : RealD f [] (removelast wd);
  invF_file : exists i, lookup f wd = Some (NFile i) /\ forall q, lookup f q = Some (NFile i) -> q = wd;
  invF_none : forall p, sinside wd p -> lookup f p = None;
  invF_fresh : forall p i, lookup f p = Some (NFile i) -> i < nexti f;
  invF_taint : forall i, In i (taint f) -> i < nexti f
}.

Definition PreInv3 (wd : path) (f : fsys) : Prop := Inv wd f \/ Inv0 wd f \/ InvF wd f.

Lemma wd_snoc (wd : path) : wd <> [] -> wd = removelast wd ++ [last wd []].
Proof. intro H. now apply app_removelast_last. Qed.

Lemma outside_not_wd (wd q : path) : inside wd q = false -> q <> wd.
Proof. intros H ->. rewrite inside_refl in H. discriminate. Qed.

Lemma prefix_not_wd (wd q r : path) : wd <> [] -> removelast wd = q ++ r -> q <> wd.
Proof.
  intros Hne E ->. apply (f_equal (@length _)) in E. rewrite app_length in E.
  rewrite (wd_snoc wd Hne), removelast_last, app_length in E. simpl in E. lia.
Qed.

Lemma anc_only_at wd f g :
  wd <> [] -> RealD f [] (removelast wd) -> only_at f g wd -> RealD g [] (removelast wd).
Proof.
  intros Hne HA O. apply (RealD_only_at f g (removelast wd) [last wd []]); [discriminate | exact HA|].
  now rewrite <- wd_snoc.
Qed.

Lemma RealD_last f p : p <> [] -> RealD f [] (removelast p) -> lookup f p = Some NDir -> RealD f [] p.
Proof.
  intros Hne HA L. rewrite (wd_snoc p Hne). apply RealD_snoc; [exact HA | now rewrite <- wd_snoc].
Qed.

Lemma missing_wd wd f :
  Inv0 wd f \/ InvF wd f ->
  wd <> [] /\ RealD f [] (removelast wd) /\ lexreal f [] wd = true /\ nosym f wd /\
  (lookup f wd = None /\ Inv0 wd f \/ (exists i, lookup f wd = Some (NFile i)) /\ InvF wd f).
Proof.
  intros S.
  assert (A : wd <> [] /\ RealD f [] (removelast wd))
    by (destruct S as [I|I]; [exact (conj (inv0_ne _ _ I) (inv0_anc _ _ I)) | exact (conj (invF_ne _ _ I) (invF_anc _ _ I))]).
  destruct A as [Hne HA]. pose proof (lexreal_of_parent _ _ HA) as HL.
  assert (B : lookup f wd = None /\ Inv0 wd f \/ (exists i, lookup f wd = Some (NFile i)) /\ InvF wd f).
  { destruct S as [I|I]; [left; split; [apply (inv0_none _ _ I), inside_refl | exact I]|].
    right. split; [|exact I]. destruct (invF_file _ _ I) as (i & Li & _). now exists i. }
  repeat split; try assumption. apply nosym_of_lookup; [exact HL|].
  intros d a cs L. destruct B as [[Ln _]|[[i Li] _]]; congruence.
Qed.

Lemma create_wd wd f m : Inv0 wd f -> Keeps wd f (new_dir wd m f).
Proof.
  intros I0. pose proof (inv0_ne _ _ I0) as Hne. pose proof (only_at_set f wd NDir) as O.
  assert (I : Inv wd (set_ent wd NDir f)).
  { constructor.
    - apply (RealD_last _ wd Hne (anc_only_at wd f _ Hne (inv0_anc _ _ I0) O)).
      now rewrite lookup_set, path_eqb_refl.
    - intros p q i Lp _ Hp. rewrite lookup_set in Lp. destruct (path_eqb wd p); [discriminate|].
      rewrite (inv0_none _ _ I0 p Hp) in Lp. discriminate.
    - apply (fresh_only_at f _ wd (inv0_fresh _ _ I0) O (le_n _)).
      intros i L. rewrite lookup_set, path_eqb_refl in L. discriminate.
    - exact (inv0_taint _ _ I0). }
  apply (KeepsP_trans Inv wd f (set_ent wd NDir f)); [|now apply keeps_setdmode; [|apply inside_refl]].
  split; [exact I|]. now apply (frame_ents wd f _ wd (inside_refl wd)).
Qed.

Lemma mkdir_all_last f wd mo f0 :
  wd <> [] -> RealD f [] (removelast wd) -> nosym f wd -> mkdir_all f (Nms wd) mo = Some f0 ->
  lookup f wd = Some NDir /\ f0 = f \/ lookup f wd = None /\ f0 = new_dir wd mo f.
Proof.
  intros Hne HA Hns H. unfold mkdir_all in H. rewrite (wd_snoc wd Hne) in H.
  destruct (mkdir_prefixes_skip f mo (removelast wd) [] [last wd []] HA) as [E|E];
    simpl in E; rewrite E in H; [|discriminate].
  cbn [Nms map mkdir_prefixes] in H. fold (Nms (removelast wd)) in H.
  rewrite Nms_snoc, <- (wd_snoc wd Hne), (walk_follow_agrees f FUEL NLINK [] (Nms wd) Hns) in H.
  pose proof (walk_lex f wd FUEL NLINK (lexreal_of_parent _ _ HA)) as W.
  destruct (walk FUEL f NLINK [] (Nms wd) false); try discriminate; destruct W as [-> W]; injection H as <-.
  - left. auto.
  - right. split; [apply W | reflexivity].
Qed.

Lemma ensure_write_dir_below wd f rel rawdir f1 :
  PreInv wd f -> ensure_write_dir cfg_fixed wd f (wd ++ rel) rawdir = Some f1 ->
  Keeps wd f f1 /\ RealD f1 [] (wd ++ rel).
Proof.
  intros P H. unfold ensure_write_dir in H. cbn [fixN cfg_fixed] in H.
  rewrite strip_prefix_app in H.
  destruct (mkdir_all f (Nms wd) c11_write_dir_perm) as [f0|] eqn:M0; [|discriminate].
  assert (K0 : Keeps wd f f0).
  { destruct P as [I|I0].
    - apply (mkdir_all_noop f _ wd f0 (RealD_inv _ _ I)) in M0. subst f0. now apply KeepsP_refl.
    - destruct (missing_wd wd f (or_introl I0)) as (Hne & HA & _ & Hns & _).
      destruct (mkdir_all_last f wd _ f0 Hne HA Hns M0) as [[L _]|[_ ->]]; [|now apply create_wd].
      rewrite (inv0_none _ _ I0 wd (inside_refl wd)) in L. discriminate. }
  destruct (mkdir_real_lex wd _ rel wd _ f1 (proj1 K0) (inside_refl wd) (RealD_inv _ _ (proj1 K0)) H)
    as (K1 & R1 & _).
  split; [eapply KeepsP_trans; eauto | exact R1].
Qed.

Lemma ensure_write_dir_file wd f rel rawdir :
  InvF wd f -> ensure_write_dir cfg_fixed wd f (wd ++ rel) rawdir = None.
Proof.
  intros IF. unfold ensure_write_dir. cbn [fixN cfg_fixed].
  rewrite strip_prefix_app. destruct (missing_wd wd f (or_intror IF)) as (Hne & HA & _ & Hns & _).
  destruct (invF_file _ _ IF) as (i & Li & _).
  destruct (mkdir_all f (Nms wd) c11_write_dir_perm) as [f0|] eqn:M; [|reflexivity].
  destruct (mkdir_all_last f wd _ f0 Hne HA Hns M) as [[L _]|[L _]]; congruence.
Qed.

(* ensureWriteDir of the parent of the working directory (the title denotes the working directory) *)
Lemma ensure_write_dir_parent wd f f1 :
  wd <> [] -> RealD f [] (removelast wd) ->
  ensure_write_dir cfg_fixed wd f (removelast wd) (Nms (removelast wd)) = Some f1 -> f1 = f.
Proof.
  intros Hne HA H. unfold ensure_write_dir in H. cbn [fixN cfg_fixed] in H.
  destruct (strip_prefix wd (removelast wd)) as [rel|] eqn:SP.
  { exfalso. apply strip_prefix_spec in SP. now apply (prefix_not_wd wd wd rel Hne SP). }
  exact (mkdir_all_noop f _ _ f1 HA H).
Qed.

(* os.Create at the working directory's own path when it is missing or a regular file *)
Lemma write_wd_keeps3 wd f w mo f2 :
  Inv0 wd f \/ InvF wd f -> write_at f (Nms wd) w mo = Some f2 ->
  InvF wd f2 /\ same_outside wd f f2.
Proof.
  intros S H. unfold write_at in H.
  destruct (missing_wd wd f S) as (Hne & HA & HL & Hns & C).
  pose proof (walk_lex_follow f wd HL Hns) as W.
  destruct (walk FUEL f NLINK [] (Nms wd) true); try discriminate; destruct W as (-> & _ & L);
    injection H as <-; (destruct C as [[Ln I]|[[j Lj] I]]; [|]); try congruence.
  - (* a file is there: written in place *)
    destruct (invF_file _ _ I) as (i' & Li & Ui). assert (i' = i) by congruence. subst i'. split.
    + destruct I. now constructor.
    + split; [reflexivity|]. intros q Hq. repeat split; try reflexivity.
      apply lookup_cont_other. intros ->. apply Ui in H. subst q.
      rewrite inside_refl in Hq. discriminate.
  - (* nothing is there: created *)
    rename I into I0. pose proof (only_at_newfile f wd (enc w (N.land mo 493))) as O. split.
    + constructor; [exact Hne | exact (anc_only_at wd f _ Hne HA O) | | | |].
      * exists (nexti f). split; [rewrite lookup_newfile, path_eqb_refl; reflexivity|].
        intros q L'. destruct (path_eq_dec q wd) as [->|Hq]; [reflexivity|].
        rewrite (O q Hq) in L'. apply (inv0_fresh _ _ I0) in L'. lia.
      * intros p Hp. rewrite O; [apply (inv0_none _ _ I0); now apply sinside_inside|].
        exact (sinside_not_prefix wd p wd [] Hp (eq_sym (app_nil_r wd))).
      * apply (fresh_only_at f _ wd (inv0_fresh _ _ I0) O); [simpl; lia|].
        intros i L'. rewrite lookup_newfile, path_eqb_refl in L'. injection L' as <-. simpl. lia.
      * intros i Hi. apply (inv0_taint _ _ I0) in Hi. simpl. lia.
    + apply (frame_ents wd f _ wd (inside_refl wd)); try reflexivity; [exact O|].
      intros q j. apply content_newfile, (inv0_fresh _ _ I0).
Qed.

(* the failed verification removes the file again: the working directory is missing again *)
Lemma remove_wd_keeps3 wd f f3 :
  InvF wd f -> remove_at f wd = Some f3 -> Inv0 wd f3 /\ same_outside wd f f3.
Proof.
  intros IF H. destruct (missing_wd wd f (or_intror IF)) as (Hne & HA & HL & _ & _).
  destruct (remove_at_lex wd f f3 HL H) as [-> _]. pose proof (only_at_del f wd) as O. split.
  - constructor; [exact Hne | exact (anc_only_at wd f _ Hne HA O) | | | exact (invF_taint _ _ IF)].
    + intros p Hp. rewrite lookup_delent. destruct (path_eqb wd p) eqn:Eq; [reflexivity|].
      apply (invF_none _ _ IF). apply inside_spec in Hp as [r ->]. destruct r as [|x r'].
      * rewrite app_nil_r, path_eqb_refl in Eq. discriminate.
      * exists x, r'. reflexivity.
    + apply (fresh_only_at f _ wd (invF_fresh _ _ IF) O (le_n _)).
      intros i L. rewrite lookup_delent, path_eqb_refl in L. discriminate.
  - now apply (frame_ents wd f _ wd (inside_refl wd)).
Qed.

Lemma removelast_Nms l : removelast (Nms l) = Nms (removelast l).
Proof. induction l as [|a [|a' l'] IH]; try reflexivity. cbn [Nms map removelast] in *. now rewrite IH. Qed.

Lemma parent_outside wd cl :
  inside wd cl = true -> strip_prefix wd (removelast cl) = None -> cl = wd /\ wd <> [].
Proof.
  intros Hin SP. apply inside_spec in Hin as [r ->]. destruct r as [|x r'].
  - rewrite app_nil_r in *. split; [reflexivity|]. intros ->. discriminate.
  - rewrite removelast_app, strip_prefix_app in SP by discriminate. discriminate.
Qed.

(* the lexical location a name denotes, taken relative to the working directory *)
Definition lex_loc (wd : path) (s : str) : path :=
  clean_abs (if is_abs s then comps_of s else Nms wd ++ comps_of s).

Lemma write_path_lex g wd title raw :
  write_path g wd title = Some raw -> inside wd (lex_loc wd title) = true /\ clean_abs raw = lex_loc wd title.
Proof.
  unfold write_path, lex_loc. destruct (is_abs title).
  - destruct (inside wd (clean_abs (comps_of title))) eqn:E; [|discriminate].
    intros [= <-]. split; [reflexivity|]. destruct (fixA g); [apply clean_abs_names | reflexivity].
  - rewrite clean_abs_names.
    destruct (inside wd (clean_abs (Nms wd ++ comps_of title))) eqn:E; [|discriminate].
    intros [= <-]. split; [reflexivity|]. destruct (fixA g); apply clean_abs_names.
Qed.

(* resolveWritePath returns the cleaned path it validated *)
Lemma write_path_fixed wd title raw :
  write_path cfg_fixed wd title = Some raw ->
  raw = Nms (lex_loc wd title) /\ inside wd (lex_loc wd title) = true.
Proof.
  intro EW. destruct (write_path_lex _ _ _ _ EW) as [Hin E]. split; [|exact Hin]. rewrite <- E.
  unfold write_path in EW. cbn [fixA cfg_fixed] in EW.
  destruct (inside wd _) in EW; [|discriminate]. injection EW as <-. now rewrite clean_abs_names.
Qed.

(* Store.push of a named blob, after ensureWriteDir: removeSymlink, os.Create + copy, and the
   removal of what was written when the content does not verify *)
Definition blob_steps (wd cl : path) (w : N) (good : bool) (f1 : fsys) : fsys :=
  match (if negb (path_eqb cl wd) then unlink_if_symlink f1 cl else Some f1) with
  | None => f1
  | Some f1' =>
    match write_at f1' (Nms cl) w 438 with
    | None => f1'
    | Some f2 => if good then f2 else match remove_at f2 cl with Some f3 => f3 | None => f2 end
    end
  end.

Lemma push_blob_fs wd s title w good :
  st_fs (fst (push_blob cfg_fixed wd s title w good)) = st_fs s \/
  exists f1, inside wd (lex_loc wd title) = true /\
    ensure_write_dir cfg_fixed wd (st_fs s) (removelast (lex_loc wd title))
                     (Nms (removelast (lex_loc wd title))) = Some f1 /\
    st_fs (fst (push_blob cfg_fixed wd s title w good)) = blob_steps wd (lex_loc wd title) w good f1.
Proof.
  unfold push_blob. destruct (existsb (str_eqb title) (st_names s)); [now left|].
  destruct (write_path cfg_fixed wd title) as [raw|] eqn:EW; [|now left].
  destruct (write_path_fixed _ _ _ EW) as [-> Hin].
  unfold cached, remember. cbn [fixW fixK cfg_fixed negb andb]. rewrite removelast_Nms, !clean_abs_names.
  destruct (ensure_write_dir cfg_fixed wd (st_fs s) _ _) as [f1|]; [|now left].
  right. exists f1. split; [exact Hin|]. split; [reflexivity|]. unfold blob_steps.
  destruct (if negb (path_eqb (lex_loc wd title) wd) then _ else _); [|reflexivity].
  destruct (write_at _ _ w 438); [|reflexivity]. destruct good; [reflexivity|].
  destruct (remove_at _ _); reflexivity.
Qed.

Lemma blob_steps_keeps wd cl w good f1 :
  Inv wd f1 -> inside wd cl = true -> RealD f1 [] (removelast cl) ->
  Keeps wd f1 (blob_steps wd cl w good f1).
Proof.
  intros I Hcl R1. unfold blob_steps. pose proof (lexreal_of_parent _ _ R1) as HL1.
  destruct (path_eqb cl wd) eqn:Hclwd; cbn [negb].
  { (* the title denotes the working directory itself: os.Create fails on the directory *)
    apply path_eqb_spec in Hclwd. subst cl.
    rewrite (write_at_real f1 wd w 438 (RealD_inv _ _ I)). now apply KeepsP_refl. }
  destruct (unlink_if_symlink f1 cl) as [f1'|] eqn:U; [|now apply KeepsP_refl].
  destruct (write_at f1' (Nms cl) w 438) as [f2|] eqn:Wr; [|exact (proj1 (unlink_if_lex wd cl f1 f1' I Hcl HL1 U))].
  destruct (create_lex wd cl w 438 f1 f1' f2 I Hcl HL1 U Wr) as (K2 & _ & HL2 & _ & Hs).
  destruct good; [exact K2|]. destruct (remove_at f2 cl) as [f3|] eqn:Rm; [|exact K2].
  destruct (remove_at_lex cl f2 f3 HL2 Rm) as [-> _].
  eapply KeepsP_trans; [exact K2|]. exact (keeps_del wd f2 cl (proj1 K2) Hs).
Qed.

Lemma push_blob_below wd s title w good :
  PreInv wd (st_fs s) -> Inv wd (st_fs s) \/ lex_loc wd title <> wd ->
  st_fs (fst (push_blob cfg_fixed wd s title w good)) = st_fs s \/
  Keeps wd (st_fs s) (st_fs (fst (push_blob cfg_fixed wd s title w good))).
Proof.
  intros P Hc. destruct (push_blob_fs wd s title w good) as [E|(f1 & Hcl & M & E)]; [now left|].
  right. rewrite E. clear E. set (cl := lex_loc wd title) in *.
  destruct (strip_prefix wd (removelast cl)) as [rel|] eqn:SP.
  - apply strip_prefix_spec in SP. rewrite SP in M.
    destruct (ensure_write_dir_below wd _ rel _ f1 P M) as [K1 R1]. rewrite <- SP in R1.
    eapply KeepsP_trans; [exact K1|]. now apply blob_steps_keeps; [exact (proj1 K1)| |].
  - destruct (parent_outside wd cl Hcl SP) as [Ecl Hwd]. destruct Hc as [I|Hc]; [|contradiction].
    rewrite Ecl in *.
    assert (HRp : RealD (st_fs s) [] (removelast wd)).
    { apply (RealD_prefix _ (removelast wd) [last wd []]). rewrite <- wd_snoc by exact Hwd. now apply RealD_inv. }
    rewrite (ensure_write_dir_parent wd _ f1 Hwd HRp M). now apply blob_steps_keeps.
Qed.

Lemma push_blob_at_wd wd s title w good :
  Inv0 wd (st_fs s) \/ InvF wd (st_fs s) -> lex_loc wd title = wd ->
  KeepsP PreInv3 wd (st_fs s) (st_fs (fst (push_blob cfg_fixed wd s title w good))).
Proof.
  intros I Hcw.
  assert (P3 : PreInv3 wd (st_fs s)) by (destruct I; [right; left | right; right]; assumption).
  destruct (push_blob_fs wd s title w good) as [E|(f1 & _ & M & E)]; rewrite E; [now apply KeepsP_refl|].
  rewrite Hcw in *. destruct (missing_wd wd _ I) as (Hne & HA & _).
  rewrite (ensure_write_dir_parent wd _ f1 Hne HA M). unfold blob_steps. rewrite path_eqb_refl. cbn [negb].
  destruct (write_at (st_fs s) (Nms wd) w 438) as [f2|] eqn:Wr; [|now apply KeepsP_refl].
  destruct (write_wd_keeps3 wd _ w 438 f2 I Wr) as [IF2 S2].
  destruct good; [split; [right; right; exact IF2 | exact S2]|].
  destruct (remove_at f2 wd) as [f3|] eqn:Rm; [|split; [right; right; exact IF2 | exact S2]].
  destruct (remove_wd_keeps3 wd f2 f3 IF2 Rm) as [I03 S3].
  split; [right; left; exact I03 | eapply same_outside_trans; eauto].
Qed.

Lemma push_blob_file wd s title w good :
  InvF wd (st_fs s) -> lex_loc wd title <> wd ->
  st_fs (fst (push_blob cfg_fixed wd s title w good)) = st_fs s.
Proof.
  intros IF Hcw. destruct (push_blob_fs wd s title w good) as [E|(f1 & Hcl & M & _)]; [exact E|]. exfalso.
  destruct (strip_prefix wd (removelast (lex_loc wd title))) as [rel|] eqn:SP.
  - apply strip_prefix_spec in SP. rewrite SP, (ensure_write_dir_file wd _ rel _ IF) in M. discriminate.
  - now destruct (parent_outside wd _ Hcl SP).
Qed.

Lemma push_dir_fs wd pres cwd s title ts es how :
  st_fs (fst (push_dir cfg_fixed pres wd cwd s title ts es how)) = st_fs s \/
  exists rel f1, ensure_write_dir cfg_fixed wd (st_fs s) (wd ++ rel) (Nms (wd ++ rel)) = Some f1 /\
    st_fs (fst (push_dir cfg_fixed pres wd cwd s title ts es how)) =
    if (how =? 1)%N then f1 else fst (extract cfg_fixed pres cwd (wd ++ rel) title f1 es ts [] (how =? 2)%N).
Proof.
  unfold push_dir. destruct (existsb (str_eqb title) (st_names s)); [now left|].
  destruct (write_path cfg_fixed wd title) as [raw|] eqn:EW; [|now left].
  destruct (write_path_fixed _ _ _ EW) as [-> Hin]. apply inside_spec in Hin as [rel Hrel].
  unfold cached, remember. cbn [fixK cfg_fixed negb andb]. rewrite clean_abs_names, Hrel.
  destruct (ensure_write_dir cfg_fixed wd (st_fs s) _ _) as [f1|] eqn:M; [|now left].
  right. exists rel, f1. split; [exact M|]. destruct (how =? 1)%N; [reflexivity|].
  destruct (extract cfg_fixed pres cwd (wd ++ rel) title f1 es ts [] (how =? 2)%N). reflexivity.
Qed.

Lemma push_dir_below wd pres cwd s title ts es how :
  PreInv wd (st_fs s) ->
  st_fs (fst (push_dir cfg_fixed pres wd cwd s title ts es how)) = st_fs s \/
  Keeps wd (st_fs s) (st_fs (fst (push_dir cfg_fixed pres wd cwd s title ts es how))).
Proof.
  intros P. destruct (push_dir_fs wd pres cwd s title ts es how) as [E|(rel & f1 & M & E)]; [now left|].
  right. rewrite E. destruct (ensure_write_dir_below wd _ rel _ f1 P M) as [K1 R1].
  destruct (how =? 1)%N; [exact K1|]. eapply KeepsP_trans; [exact K1|].
  destruct (extract cfg_fixed pres cwd (wd ++ rel) title f1 es ts [] (how =? 2)%N) as [f2 ok] eqn:EX.
  apply (extract_keeps wd pres cwd (wd ++ rel) title _ es f1 f2 ok ts [] (proj1 K1)
           (inside_app _ _ _ (inside_refl wd)) R1 (Forall_nil _) (Forall_nil _) EX).
Qed.

Lemma push_dir_file wd pres cwd s title ts es how :
  InvF wd (st_fs s) -> st_fs (fst (push_dir cfg_fixed pres wd cwd s title ts es how)) = st_fs s.
Proof.
  intros IF. destruct (push_dir_fs wd pres cwd s title ts es how) as [E|(rel & f1 & M & _)]; [exact E|].
  rewrite (ensure_write_dir_file wd _ rel _ IF) in M. discriminate.
Qed.

(* from named blobs and archives to manifests (restoreDuplicates: every restored layer is an
   ordinary named-blob push in the current tree), single pushes and histories - for an invariant
   [P] of the tree and a condition [okT] on the titles *)
Section Lift.
  Variables (P : path -> fsys -> Prop) (okT : str -> Prop) (wd : path).
  Let K (s s' : store) := KeepsP P wd (st_fs s) (st_fs s').
  Hypothesis blob : forall s t w good,
    P wd (st_fs s) -> okT t -> K s (fst (push_blob cfg_fixed wd s t w good)).
  Hypothesis dir : forall pres cwd s t ts es how,
    P wd (st_fs s) -> K s (fst (push_dir cfg_fixed pres wd cwd s t ts es how)).

  Definition ok_title (t : str) : Prop := t = [] \/ okT t.
  Definition ok_op (o : pushop) : Prop :=
    match o with
    | PBlob t _ => ok_title t
    | PDir t _ _ => ok_title t
    | PDirF _ t _ _ => ok_title t
    | PManifest ls => Forall (fun l => ok_title (fst l)) ls
    end.

  Lemma restore_layers_lift : forall layers s,
    P wd (st_fs s) -> Forall (fun l => ok_title (fst l)) layers ->
    K s (fst (restore_layers cfg_fixed wd s layers)).
  Proof.
    induction layers as [|[t c] r IH]; intros s I Hok; [now apply KeepsP_refl|].
    inversion Hok as [|? ? Ht Hr]; subst. cbn [restore_layers].
    destruct t as [|t0 tt]; [now apply IH|].
    destruct (existsb (str_eqb (t0 :: tt)) (st_names s)); [now apply IH|].
    destruct (fetch s c) as [| |c']; [now apply IH | now apply KeepsP_refl |].
    assert (Hcw : okT (t0 :: tt)) by (destruct Ht as [E|E]; [discriminate | exact E]).
    pose proof (blob s (t0 :: tt) c' ((c' =? c)%N && negb (c =? 0)%N) I Hcw) as K1.
    destruct (push_blob cfg_fixed wd s (t0 :: tt) c' ((c' =? c)%N && negb (c =? 0)%N)) as [s1 [|]];
      cbn [fst] in *; [|exact K1].
    eapply KeepsP_trans; [exact K1|]. apply IH; [exact (proj1 K1) | exact Hr].
  Qed.

  Lemma push_lift pres cwd s o :
    P wd (st_fs s) -> ok_op o -> K s (fst (push cfg_fixed pres wd cwd s o)).
  Proof.
    intros I Hok. unfold push. destruct o as [t c|t ts es|layers|how t ts es]; cbn [ok_op] in Hok.
    - destruct t as [|t0 tt].
      + destruct ((c =? 0)%N || existsb (str_eqb [0%N; c]) (st_names s)); now apply KeepsP_refl.
      + destruct Hok as [E|E]; [discriminate|]. now apply blob.
    - destruct t as [|t0 tt]; [now apply KeepsP_refl | now apply dir].
    - destruct (existsb (str_eqb (manifest_marker layers)) (st_names s)); [now apply KeepsP_refl|].
      now apply (restore_layers_lift layers (mkStore (st_fs s) (manifest_marker layers :: st_names s) (st_d2p s))).
    - destruct t as [|t0 tt]; [now apply KeepsP_refl | now apply dir].
  Qed.

  Lemma pushes_lift pres cwd : forall os s s' oks,
    P wd (st_fs s) -> Forall ok_op os -> pushes cfg_fixed pres wd cwd s os = (s', oks) -> K s s'.
  Proof.
    induction os as [|o os IH]; intros s s' oks I Hok H.
    - injection H as <- _. now apply KeepsP_refl.
    - cbn [pushes] in H. inversion Hok as [|? ? Ho Hos]; subst.
      pose proof (push_lift pres cwd s o I Ho) as K1.
      destruct (push cfg_fixed pres wd cwd s o) as [s1 ok]. cbn [fst] in K1.
      destruct (pushes cfg_fixed pres wd cwd s1 os) as [s2 oks2] eqn:Ps. injection H as <- _.
      eapply KeepsP_trans; [exact K1|]. exact (IH s1 s2 oks2 (proj1 K1) Hos Ps).
  Qed.

End Lift.

Lemma ok_op_True os : Forall (ok_op (fun _ => True)) os.
Proof.
  apply Forall_forall. intros o _.
  destruct o; try (now right). apply Forall_forall. intros l _. now right.
Qed.

Lemma pushes_keeps wd pres cwd os s s' oks :
  Inv wd (st_fs s) ->
  pushes cfg_fixed pres wd cwd s os = (s', oks) ->
  Keeps wd (st_fs s) (st_fs s').
Proof.
  intros I. apply (pushes_lift Inv (fun _ => True) wd); [| |exact I | apply ok_op_True].
  - intros s0 t w good I0 _. apply (same_or_keeps Inv Inv wd _ _ (fun _ H => H) I0), push_blob_below; now left.
  - intros pres0 cwd0 s0 t ts es how I0.
    apply (same_or_keeps Inv Inv wd _ _ (fun _ H => H) I0), push_dir_below. now left.
Qed.

Definition title_ok (wd : path) (t : str) : Prop := t = [] \/ lex_loc wd t <> wd.

Definition op_ok (wd : path) (o : pushop) : Prop :=
  match o with
  | PBlob t _ => title_ok wd t
  | PDir t _ _ => title_ok wd t
  | PDirF _ t _ _ => title_ok wd t
  | PManifest ls => Forall (fun l => title_ok wd (fst l)) ls
  end.

Lemma pushes_keeps0 wd pres cwd os s s' oks :
  PreInv wd (st_fs s) -> Forall (op_ok wd) os ->
  pushes cfg_fixed pres wd cwd s os = (s', oks) ->
  KeepsP PreInv wd (st_fs s) (st_fs s').
Proof.
  apply (pushes_lift PreInv (fun t => lex_loc wd t <> wd) wd).
  - intros s0 t w good P0 Hcw.
    apply (same_or_keeps Inv PreInv wd _ _ (fun _ H => or_introl H) P0), push_blob_below; [exact P0 | now right].
  - intros pres0 cwd0 s0 t ts es how P0.
    now apply (same_or_keeps Inv PreInv wd _ _ (fun _ H => or_introl H) P0), push_dir_below.
Qed.

Lemma pushes_keeps3 wd pres cwd os s s' oks :
  PreInv3 wd (st_fs s) ->
  pushes cfg_fixed pres wd cwd s os = (s', oks) ->
  KeepsP PreInv3 wd (st_fs s) (st_fs s').
Proof.
  assert (W : forall f f', PreInv wd f -> f' = f \/ Keeps wd f f' -> KeepsP PreInv3 wd f f').
  { intros f f' P0. apply (same_or_keeps Inv PreInv3 wd _ _ (fun _ H => or_introl H)).
    destruct P0; [left | right; left]; assumption. }
  intros P3. apply (pushes_lift PreInv3 (fun _ => True) wd); [| |exact P3 | apply ok_op_True].
  - intros s0 t w good [I|S] _.
    { apply (W _ _ (or_introl I)), push_blob_below; now left. }
    destruct (path_eq_dec (lex_loc wd t) wd) as [E|Hcw]; [now apply push_blob_at_wd|].
    destruct S as [I0|IF]; [apply (W _ _ (or_intror I0)), push_blob_below; now right|].
    rewrite (push_blob_file wd s0 t w good IF Hcw). apply KeepsP_refl. right; right; exact IF.
  - intros pres0 cwd0 s0 t ts es how [I|[I0|IF]].
    + apply (W _ _ (or_introl I)), push_dir_below. now left.
    + apply (W _ _ (or_intror I0)), push_dir_below. now right.
    + rewrite (push_dir_file wd pres0 cwd0 s0 t ts es how IF). apply KeepsP_refl. right; right; exact IF.
Qed.

Lemma KeepsP_untainted (P : path -> fsys -> Prop) wd f f' :
  KeepsP P wd f f' -> taint f = [] ->
  P wd f' /\ (forall p, inside wd p = false -> view_at f' p = view_at f p).
Proof.
  intros [I S] T. split; [exact I|]. intros p Hp. apply (same_outside_view wd _ _ p S Hp).
  intros i _. rewrite T. intros [].
Qed.

Lemma same_outside_view_tainted wd f f' :
  same_outside wd f f' -> forall p, inside wd p = false ->
  view_at f' p = view_at f p \/
  exists i, lookup f p = Some (NFile i) /\ In i (taint f) /\ lookup f' p = Some (NFile i).
Proof.
  intros S p Hp.
  destruct (lookup f p) as [[|i|d a cs]|] eqn:L;
    try (left; apply (same_outside_view wd _ _ p S Hp); intros i Li; congruence).
  destruct (in_dec Nat.eq_dec i (taint f)) as [Hi|Hi].
  - right. exists i. split; [reflexivity|]. split; [exact Hi|]. rewrite (proj1 (proj2 S p Hp)). exact L.
  - left. apply (same_outside_view wd _ _ p S Hp). intros j Lj. congruence.
Qed.

(* the invariant asks nothing of a tree beyond a working directory reached through real directories
   and inode numbers below nexti: declaring every inode tainted satisfies the rest *)
Definition with_taint (t : list nat) (f : fsys) : fsys :=
  mkFS (ents f) (cont f) (nexti f) (dmode f) (fstamp f) (dstamp f) t.

Lemma inv_any_tree wd f :
  (forall q r, wd = q ++ r -> q <> [] -> lookup f q = Some NDir) ->
  (forall p i, lookup f p = Some (NFile i) -> i < nexti f) ->
  Inv wd (with_taint (seq 0 (nexti f)) f).
Proof.
  intros Hwd Hfresh. constructor.
  - exact Hwd.
  - intros p q i Lp _ _. right. apply in_seq. apply Hfresh in Lp. simpl in *. lia.
  - exact Hfresh.
  - intros i Hi. apply in_seq in Hi. simpl in *. lia.
Qed.

(* the least such taint: the inodes with a name below the working directory and a name outside *)
Definition is_file_no (i : nat) (o : option node) : bool :=
  match o with Some (NFile j) => Nat.eqb j i | _ => false end.

Definition shared (wd : path) (f : fsys) : list nat :=
  filter (fun i =>
            existsb (fun e => inside wd (fst e) && is_file_no i (lookup f (fst e))) (ents f) &&
            existsb (fun e => negb (inside wd (fst e)) && is_file_no i (lookup f (fst e))) (ents f))
         (seq 0 (nexti f)).

Lemma is_file_no_spec i o : is_file_no i o = true <-> o = Some (NFile i).
Proof.
  unfold is_file_no. destruct o as [[|j|]|]; split; intro H; try discriminate.
  - apply Nat.eqb_eq in H. now subst.
  - injection H as ->. apply Nat.eqb_refl.
Qed.

Lemma shared_spec wd f i :
  In i (shared wd f) ->
  i < nexti f /\
  (exists q, inside wd q = true /\ lookup f q = Some (NFile i)) /\
  (exists p, inside wd p = false /\ lookup f p = Some (NFile i)).
Proof.
  unfold shared. intro H. apply filter_In in H. destruct H as [H1 H2].
  apply in_seq in H1. apply andb_true_iff in H2. destruct H2 as [A B].
  apply existsb_exists in A. destruct A as (e & _ & A). apply andb_true_iff in A. destruct A as [A1 A2].
  apply existsb_exists in B. destruct B as (e' & _ & B). apply andb_true_iff in B. destruct B as [B1 B2].
  split; [simpl in H1; lia|]. split.
  - exists (fst e). split; [exact A1|now apply is_file_no_spec].
  - exists (fst e'). split; [now apply negb_true_iff|now apply is_file_no_spec].
Qed.

Lemma inv_shared wd f :
  (forall q r, wd = q ++ r -> q <> [] -> lookup f q = Some NDir) ->
  (forall p i, lookup f p = Some (NFile i) -> i < nexti f) ->
  Inv wd (with_taint (shared wd f) f).
Proof.
  intros Hwd Hfresh. constructor.
  - exact Hwd.
  - intros p q i Lp Lq Hp. change (lookup (with_taint (shared wd f) f)) with (lookup f) in *.
    destruct (inside wd q) eqn:Hq; [now left|]. right.
    change (taint (with_taint (shared wd f) f)) with (shared wd f).
    unfold shared. apply filter_In. split.
    + apply in_seq. apply Hfresh in Lp. simpl. lia.
    + apply andb_true_iff. split; apply existsb_exists.
      * exists (p, NFile i). split; [now apply lookup_ents_in|]. simpl. rewrite Hp. now apply is_file_no_spec.
      * exists (q, NFile i). split; [now apply lookup_ents_in|]. simpl. rewrite Hq. now apply is_file_no_spec.
  - exact Hfresh.
  - intros i Hi. change (nexti (with_taint (shared wd f) f)) with (nexti f).
    now apply shared_spec in Hi.
Qed.

(* for a concrete tree both premises and the taint are checked by evaluation *)
Lemma fresh_check f :
  forallb (fun e => match snd e with NFile i => i <? nexti f | _ => true end) (ents f) = true ->
  forall p i, lookup f p = Some (NFile i) -> i < nexti f.
Proof.
  intros H p i L. apply lookup_ents_in in L. rewrite forallb_forall in H.
  apply H in L. now apply Nat.ltb_lt.
Qed.

Lemma inv_check wd f :
  RealD f [] wd ->
  forallb (fun e => match snd e with NFile i => i <? nexti f | _ => true end) (ents f) = true ->
  taint f = shared wd f -> Inv wd f.
Proof.
  intros Hwd Hfr Ht. pose proof (inv_shared wd f Hwd (fresh_check f Hfr)) as I.
  rewrite <- Ht in I. destruct f. exact I.
Qed.

Lemma write_path_outside g wd t : inside wd (lex_loc wd t) = false -> write_path g wd t = None.
Proof.
  intro H. destruct (write_path g wd t) eqn:E; [|reflexivity]. apply write_path_lex in E as [E _]. congruence.
Qed.

Lemma push_blob_outside g wd s t w good :
  inside wd (lex_loc wd t) = false -> push_blob g wd s t w good = (s, false).
Proof.
  intro H. unfold push_blob. rewrite (write_path_outside g wd t H). now destruct (existsb _ _).
Qed.

Lemma push_outside_title g pres wd cwd s o :
  inside wd (lex_loc wd (push_title o)) = false -> push_title o <> [] ->
  push g pres wd cwd s o = (s, false).
Proof.
  intros H Hne. unfold push.
  destruct o as [t c|t ts es|layers|how t ts es]; cbn [push_title] in *; try contradiction;
    (destruct t as [|t0 tt]; [contradiction|]); [now apply push_blob_outside| |];
    unfold push_dir; rewrite (write_path_outside g wd _ H); now destruct (existsb _ _).
Qed.

Lemma entry_rel_inside wd title nm ns :
  entry_rel (lex_loc wd title) title nm = Some ns ->
  lex_loc wd nm = lex_loc wd title ++ ns.
Proof.
  unfold entry_rel, lex_loc, rel_under, clean_str. destruct (is_abs nm) eqn:An.
  - cbn [Bool.eqb fst snd andb Nat.eqb]. intro H. apply strip_prefix_spec in H. exact H.
  - destruct (is_abs title) eqn:At; cbn [Bool.eqb andb]; [discriminate|].
    destruct (Nat.eqb (fst (clean_rel (comps_of title))) (fst (clean_rel (comps_of nm)))) eqn:Em; [|discriminate].
    apply Nat.eqb_eq in Em. intro H. apply strip_prefix_spec in H.
    rewrite !clean_abs_join, H, Em, app_assoc. reflexivity.
Qed.

Lemma entry_outside_unpack_dir_rejected g pres wd cwd title f e :
  inside (lex_loc wd title) (lex_loc wd (entry_name e)) = false ->
  forall t, extract_entry g pres cwd (lex_loc wd title) title f e t = None.
Proof.
  intros He t. unfold extract_entry, extract_entry_core, resolve_rel.
  destruct (entry_rel (lex_loc wd title) title (entry_name e)) as [ns|] eqn:E; [|reflexivity].
  apply entry_rel_inside in E. rewrite E in He.
  rewrite (inside_app _ _ _ (inside_refl _)) in He. discriminate.
Qed.

Lemma entry_outside_rejected g pres wd cwd title f e :
  inside wd (lex_loc wd title) = true ->
  inside wd (lex_loc wd (entry_name e)) = false ->
  forall t, extract_entry g pres cwd (lex_loc wd title) title f e t = None.
Proof.
  intros Ht He. apply entry_outside_unpack_dir_rejected.
  destruct (inside (lex_loc wd title) (lex_loc wd (entry_name e))) eqn:E; [|reflexivity].
  apply inside_spec in E as [r E]. rewrite E, (inside_app _ _ _ Ht) in He. discriminate.
Qed.

Lemma extract_stops g pres cwd dp dirName e es2 trunc : forall es1 f ts (dirs : list (path * N)),
  (forall f0 t, extract_entry g pres cwd dp dirName f0 e t = None) ->
  snd (extract g pres cwd dp dirName f (es1 ++ e :: es2) ts dirs trunc) = false.
Proof.
  induction es1 as [|e1 es1 IH]; intros f ts dirs H; cbn [app extract].
  - now rewrite H.
  - destruct (extract_entry g pres cwd dp dirName f e1 (hd 0%N ts)); [now apply IH | reflexivity].
Qed.

Lemma push_outside_entry g pres wd cwd s title ts es1 e es2 :
  title <> [] ->
  inside wd (lex_loc wd (entry_name e)) = false ->
  snd (push g pres wd cwd s (PDir title ts (es1 ++ e :: es2))) = false.
Proof.
  intros Hne He. unfold push. destruct title as [|t0 tt] eqn:ET; [contradiction|]. rewrite <- ET in *.
  unfold push_dir.
  destruct (existsb (str_eqb title) (st_names s)); [reflexivity|].
  destruct (write_path g wd title) as [raw|] eqn:EW; [|reflexivity].
  apply write_path_lex in EW as [Hin ->].
  destruct (if cached g (st_names s) _ then _ else _) as [f1|]; [|reflexivity].
  pose proof (extract_stops g pres cwd (lex_loc wd title) title e es2 false es1 f1 ts []
                (fun f0 => entry_outside_rejected g pres wd cwd title f0 e Hin He)) as Hs.
  change (0 =? 1)%N with false. change (0 =? 2)%N with false. change (0 =? 3)%N with false. cbn [negb andb].
  destruct (extract g pres cwd (lex_loc wd title) title f1 (es1 ++ e :: es2) ts [] false) as [f2 ok]. simpl in *.
  rewrite Bool.andb_true_r. exact Hs.
Qed.

Lemma link_target_outside_rejected g pres cwd dp dirName f nm tgt rel t :
  entry_rel dp dirName nm = Some rel ->
  inside dp (link_abs_path (dp ++ rel) tgt) = false ->
  extract_entry g pres cwd dp dirName f (ESym nm tgt) t = None /\
  extract_entry g pres cwd dp dirName f (EHard nm tgt) t = None.
Proof.
  intros ER Ho.
  assert (EL : ensure_link f dp (dp ++ rel) tgt = None).
  { unfold ensure_link. unfold inside in Ho.
    destruct (strip_prefix dp (link_abs_path (dp ++ rel) tgt)); [discriminate | reflexivity]. }
  unfold extract_entry, extract_entry_core, resolve_rel; cbn [entry_name]. rewrite ER.
  destruct (parents_ok f dp rel); [|split; reflexivity].
  rewrite EL. split; destruct (match rel with [] => fixR g | _ :: _ => false end); reflexivity.
Qed.

Lemma descend_ok_link f c d a cs r : forall q cur,
  RealD f cur q -> lookup f (cur ++ q ++ [c]) = Some (NSym d a cs) ->
  descend_ok f cur (q ++ c :: r) = false.
Proof.
  induction q as [|x q IH]; intros cur HR L.
  - simpl in *. rewrite L. reflexivity.
  - cbn [app descend_ok]. rewrite (RealD_head _ _ _ _ HR).
    apply IH; [apply (RealD_step _ _ _ _ HR)|]. rewrite <- app_assoc. exact L.
Qed.

Lemma entry_through_link_rejected g pres cwd dp dirName f e t q c r d a cs :
  RealD f [] dp -> RealD f dp q ->
  entry_rel dp dirName (entry_name e) = Some (q ++ c :: r) -> r <> [] ->
  lookup f (dp ++ q ++ [c]) = Some (NSym d a cs) ->
  extract_entry g pres cwd dp dirName f e t = None.
Proof.
  intros HRd HRq ER Hr L.
  assert (PO : parents_ok f dp (q ++ c :: r) = false).
  { unfold parents_ok.
    assert (E : removelast (q ++ c :: r) = q ++ c :: removelast r).
    { rewrite removelast_app by discriminate. f_equal.
      change (c :: r) with ([c] ++ r). rewrite removelast_app by exact Hr. reflexivity. }
    rewrite E. destruct (q ++ c :: removelast r) eqn:Eq; [destruct q; discriminate|]. rewrite <- Eq.
    unfold awalk. pose proof (walk_real f dp FUEL NLINK [] true HRd) as W.
    destruct (walk FUEL f NLINK [] (Nms dp) true); try contradiction; try reflexivity.
    simpl in W. subst p. eapply descend_ok_link; eauto. }
  unfold extract_entry, extract_entry_core, resolve_rel. rewrite ER, PO. reflexivity.
Qed.

Lemma manifest_outside_layer_rejected g wd s t c c' r :
  t <> [] -> existsb (str_eqb t) (st_names s) = false -> fetch s c = FSome c' ->
  inside wd (lex_loc wd t) = false ->
  restore_layers g wd s ((t, c) :: r) = (s, false).
Proof.
  intros Hne Hex Hf Ho. cbn [restore_layers]. destruct t as [|t0 tt]; [contradiction|].
  now rewrite Hex, Hf, (push_blob_outside g wd s _ _ _ Ho).
Qed.

Lemma do_link_cwd f cwd1 cwd2 fp pn tgt :
  do_link cfg_fixed f cwd1 fp pn tgt = do_link cfg_fixed f cwd2 fp pn tgt.
Proof. reflexivity. Qed.

Lemma extract_entry_cwd pres cwd1 cwd2 dp dirName f e t :
  extract_entry cfg_fixed pres cwd1 dp dirName f e t = extract_entry cfg_fixed pres cwd2 dp dirName f e t.
Proof. reflexivity. Qed.

Lemma extract_cwd pres cwd1 cwd2 dp dirName trunc : forall es f ts dirs,
  extract cfg_fixed pres cwd1 dp dirName f es ts dirs trunc = extract cfg_fixed pres cwd2 dp dirName f es ts dirs trunc.
Proof.
  induction es as [|e es IH]; intros f ts dirs; [reflexivity|].
  cbn [extract]. rewrite (extract_entry_cwd pres cwd1 cwd2).
  destruct (extract_entry cfg_fixed pres cwd2 dp dirName f e (hd 0%N ts)); [apply IH | reflexivity].
Qed.

Lemma push_cwd pres wd cwd1 cwd2 s o :
  push cfg_fixed pres wd cwd1 s o = push cfg_fixed pres wd cwd2 s o.
Proof.
  assert (D : forall t ts es how, push_dir cfg_fixed pres wd cwd1 s t ts es how = push_dir cfg_fixed pres wd cwd2 s t ts es how).
  { intros t ts es how. unfold push_dir.
    destruct (existsb (str_eqb t) (st_names s)); [reflexivity|].
    destruct (write_path cfg_fixed wd t); [|reflexivity].
    unfold cached, remember. cbn [fixK cfg_fixed negb andb].
    destruct (ensure_write_dir cfg_fixed wd (st_fs s) (clean_abs l) l); [|reflexivity].
    destruct (how =? 1)%N; [reflexivity|]. now rewrite (extract_cwd pres cwd1 cwd2). }
  destruct o as [t c|t ts es|layers|how t ts es]; try reflexivity;
    (destruct t as [|t0 tt]; [reflexivity|]); unfold push; apply D.
Qed.

Lemma pushes_cwd pres wd cwd1 cwd2 : forall os s,
  pushes cfg_fixed pres wd cwd1 s os = pushes cfg_fixed pres wd cwd2 s os.
Proof.
  induction os as [|o os IH]; intros s; [reflexivity|].
  cbn [pushes]. rewrite (push_cwd pres wd cwd1 cwd2).
  destruct (push cfg_fixed pres wd cwd2 s o) as [s1 ok]. now rewrite IH.
Qed.

Definition wd0 : path := [b "r"; b "w"].
Definition cwd0 : path := [b "c"].

Lemma wd0_real f : lookup f [b "r"] = Some NDir -> lookup f wd0 = Some NDir -> RealD f [] wd0.
Proof.
  intros A B q r E Hq. destruct q as [|q1 [|q2 [|q3 q']]]; [contradiction| | |].
  - injection E as <- _. exact A.
  - injection E as <- <- _. exact B.
  - apply (f_equal (@length _)) in E. simpl in E. rewrite app_length in E. lia.
Qed.

Definition fs0 : fsys :=
  mkFS [ ([b "r"], NDir); ([b "r"; b "w"], NDir); ([b "r"; b "victim"], NFile 0);
         ([b "victim"], NFile 1); ([b "c"], NDir); ([b "c"; b "secret"], NFile 2);
         ([b "r"; b "x"], NDir); ([b "r"; b "x"; b "victim"], NFile 3);
         ([b "r"; b "w"; b "old"], NFile 4) ]
       [ (0, 100%N); (1, 101%N); (2, 102%N); (3, 103%N); (4, 104%N) ] 5 [] [] [] [].

Lemma inv_fs0 : Inv wd0 fs0.
Proof. apply inv_check; [now apply wd0_real | reflexivity | reflexivity]. Qed.

Definition run0 (g : cfg) (os : list pushop) : fsys * list bool :=
  let '(s, oks) := pushes g false wd0 cwd0 (mkStore fs0 [] []) os in (st_fs s, oks).

Definition escapes (g : cfg) : Prop :=
  exists os p, inside wd0 p = false /\ view_at (fst (run0 g os)) p <> view_at fs0 p.

Ltac escape_with os p :=
  exists os, p; split; [vm_compute; reflexivity | vm_compute; discriminate].

(* F10: hard link whose relative target is taken from the process's current directory *)
Definition os_hardlink_cwd : list pushop :=
  [PDir (b "t") [] [EHard (b "t/h") (b "secret"); EReg (b "t/h") 7%N 420%N]].

(* F11: the raw link target is lexically inside and physically outside; a regular entry (or a
   named blob) is written through the link *)
Definition os_raw_target : list pushop :=
  [PDir (b "t") [] [EDir (b "t/a/b") 493%N; ESym (b "t/a/b/s") (b "../..");
                 ESym (b "t/l") (b "a/b/s/../../../victim"); EReg (b "t/l") 7%N 420%N]].
Definition os_raw_target_blob : list pushop :=
  [PDir (b "t") [] [EDir (b "t/a/b") 493%N; ESym (b "t/a/b/s") (b "../..");
                 ESym (b "t/l") (b "a/b/s/../../../victim")];
   PBlob (b "t/l") 7%N].

(* directories created / entered through a link: unpack directory reached through a link
   created by the store *)
Definition os_title_through_link : list pushop :=
  [PDir (b ".") [] [ESym (b "./x") (b ".")];
   PDir (b "x") [] [ESym (b "x/l") (b "../x/victim"); EReg (b "x/l") 7%N 420%N]].

(* named blob below a link (here a hard link to a link, which sits at another depth) *)
Definition os_hardlink_symlink : list pushop :=
  [PDir (b "t") [] [EDir (b "t/b/c") 493%N; ESym (b "t/b/c/s") (b "../.."); EHard (b "t/h") (b "b/c/s")];
   PBlob (b "t/h/victim") 7%N].

(* absolute title used raw: ".." after a store link *)
Definition os_abs_title : list pushop :=
  [PDir (b "t") [] [EDir (b "t/b") 493%N; ESym (b "t/b/s") (b "..")];
   PBlob (b "/r/w/t/b/s/../../../victim") 7%N].

(* the repaired store accepts ordinary archives (hypotheses and success are not vacuous) *)
Definition os_ordinary : list pushop :=
  [PDir (b "t") [] [EDir (b "t/a/b") 493%N; EReg (b "t/a/b/f") 7%N 384%N; ESym (b "t/a/b/s") (b "../..");
                 ESym (b "t/l") (b "a/b/s/../x"); EHard (b "t/h") (b "a/b/f"); EReg (b "t/h") 8%N 420%N;
                 ESym (b "t/l") (b "a/b/f"); EReg (b "t/l") 9%N 420%N; ESym (b "t/k") (b "a/b/s/../x")];
   PBlob (b "t/a/new") 10%N; PBlob (b "old") 11%N].

Lemma attacks_confined_fixed :
  forall os, In os [os_hardlink_cwd; os_raw_target; os_raw_target_blob; os_title_through_link; os_abs_title; os_hardlink_symlink] ->
  forall p, inside wd0 p = false -> view_at (fst (run0 cfg_fixed os)) p = view_at fs0 p.
Proof.
  intros os Hin p Hp. unfold run0.
  destruct (pushes cfg_fixed false wd0 cwd0 (mkStore fs0 [] []) os) as [s oks] eqn:E. simpl.
  exact (proj2 (KeepsP_untainted Inv wd0 _ _ (pushes_keeps wd0 false cwd0 os (mkStore fs0 [] []) s oks inv_fs0 E) eq_refl) p Hp).
Qed.

(* an archive that would replace the (empty) working directory itself by a link *)
Definition fs1 : fsys :=
  mkFS [ ([b "r"], NDir); ([b "r"; b "w"], NDir); ([b "r"; b "victim"], NFile 0) ] [ (0, 100%N) ] 1 [] [] [] [].

Lemma inv_fs1 : Inv wd0 fs1.
Proof. apply inv_check; [now apply wd0_real | reflexivity | reflexivity]. Qed.

Definition os_replace_wd : list pushop := [PDir (b ".") [] [ESym (b ".") (b "w/x")]].

(* a directory entry on top of a link, with PreservePermissions: the recorded mode is applied after
   the last entry only to paths that are (still) directories, never through the link *)
Definition os_remode : list pushop :=
  [PDir (b "t") [] [EDir (b "t/a/b") 493%N; ESym (b "t/a/b/s") (b "../..");
                 ESym (b "t/l") (b "a/b/s/../.."); EDir (b "t/e") 448%N; ESym (b "t/e") (b "a/b/s/../..")]].

(* the unpack directory is narrowed to the mode the archive records for it (no PreservePermissions);
   other modes are not touched *)
Definition os_narrow : list pushop :=
  [PDir (b "t") [] [EDir (b "t") 448%N; EDir (b "t/a") 511%N; EReg (b "t/a/f") 7%N 384%N]].

(* F1 of the audit: os.Chtimes after a link entry follows the link and sets the times of a file
   outside (the link text is raw, lexically inside, physically outside) *)
Definition os_touch : list pushop :=
  [PDir (b "t") [0%N; 0%N; 77%N]
        [EDir (b "t/a/b") 493%N; ESym (b "t/a/b/s") (b "../.."); ESym (b "t/l") (b "a/b/s/../../../victim")]].

(* times are set on ordinary entries *)
Definition os_times : list pushop :=
  [PDir (b "t") [5%N; 6%N] [EDir (b "t/a") 493%N; EReg (b "t/a/f") 7%N 420%N]].

(* audit F3: the hypothesis "files below the working directory share no inode with the outside"
   (inv_ino) is needed: a pre-populated hard link to an outside file (cp -al, ostree-style
   checkouts) is truncated in place by a plain named blob of the repaired store *)
Definition fs2 : fsys :=
  mkFS [ ([b "r"], NDir); ([b "r"; b "w"], NDir); ([b "victim"], NFile 0); ([b "r"; b "w"; b "old"], NFile 0) ]
       [ (0, 100%N) ] 1 [] [] [] [].

Definition os_manifest : list pushop :=
  [PBlob [] 41%N; PBlob (b "n1") 51%N;
   PManifest [(b "second", 41%N); (b "m/third", 51%N); (b "absent", 43%N); (b "n1", 51%N)];
   PBlob (b "n1b") 52%N;
   PManifest [(b "../victim", 41%N)];
   PManifest [(b "x", 52%N); (b "/victim", 51%N); (b "never", 41%N)]].

(* a layer restored from a named file whose content was replaced since: the copy fails verification,
   the partially written file is removed and the push of the manifest fails *)
Definition os_manifest_stale : list pushop :=
  [PBlob (b "n1") 51%N;
   PDir (b ".") [] [EHard (b "./h") (b "n1"); EReg (b "./h") 54%N 420%N];
   PManifest [(b "copy", 51%N); (b "later", 51%N)]].

(* failing archives: nothing unpacked / unpacked up to the break, modes not restored / everything
   unpacked but the push fails *)
Definition os_failing : list pushop :=
  [PDirF 1 (b "g") [] [EDir (b "g/d") 320%N];
   PDirF 2 (b "t") [] [EDir (b "t/d") 320%N; EReg (b "t/d/f") 7%N 420%N];
   PDirF 3 (b "u") [] [EDir (b "u/d") 320%N]].

(* the hypothesis is satisfiable: a tree in which the working directory does not exist yet *)
Definition fs3 : fsys :=
  mkFS [ ([b "r"], NDir); ([b "victim"], NFile 0) ] [ (0, 100%N) ] 1 [] [] [] [].

Lemma inv0_fs3 : Inv0 wd0 fs3.
Proof.
  constructor.
  - discriminate.
  - intros q r E Hq. destruct q as [|q1 [|q2 q']]; [contradiction | |].
    + injection E as <- _. reflexivity.
    + apply (f_equal (@length _)) in E. simpl in E. rewrite app_length in E. simpl in E. lia.
  - intros p Hp. apply inside_spec in Hp as [r ->]. reflexivity.
  - now apply fresh_check.
  - intros i [].
Qed.

Definition os_first_push : list pushop :=
  [PBlob (b "../victim") 5%N; PDir (b "t") [] [EDir (b "t/a") 493%N; EReg (b "t/a/f") 7%N 420%N]; PBlob (b "x") 8%N].

(* the seeded change C11-r3m2 as a model variant (fixK = false): remembering that a directory was
   already checked is unsound, because a later archive can replace the (empty) directory by a link;
   every write has to walk its path again in the current tree *)
Definition os_cached_dir : list pushop :=
  [PDir (b "a/e") [] [EDir (b "a/e") 493%N];
   PDir (b "a") [] [ESym (b "a/p") (b "."); ESym (b "a/q") (b "p/.."); ESym (b "a/e") (b "q/..")];
   PBlob (b "a/e/victim") 22%N].

(* a named blob titled like the missing working directory makes it a regular file; a later push
   below it fails, one that fails verification removes it again *)
Definition os_wd_as_file : list pushop :=
  [PBlob (b ".") 5%N; PBlob (b "x") 6%N; PDir (b "t") [] [EDir (b "t/a") 493%N]; PBlob (b "/r/w") 0%N; PBlob (b "x") 7%N].

(* the tree of the known finding with its shared inode declared: the invariant holds, so the full
   theorem applies - and the one outside change is exactly the permitted one *)
Definition fs2t : fsys :=
  mkFS [ ([b "r"], NDir); ([b "r"; b "w"], NDir); ([b "victim"], NFile 0); ([b "r"; b "w"; b "old"], NFile 0) ]
       [ (0, 100%N) ] 1 [] [] [] [0].
Lemma inv_fs2t : Inv wd0 fs2t.
Proof. apply inv_check; [now apply wd0_real | reflexivity | reflexivity]. Qed.
