(* The URL builders assembled from the literals read off the Go source (Model/RefURLGen.v) ARE the
   closed forms the C20 theorems are stated about. *)
From Oras Require Import Base.Prelude Generated.GC20 Model.NetURL Model.Reference Model.RefOps Model.RefURLGen.

Lemma gen_scheme_eq plain : gen_scheme plain = scheme plain.
Proof. destruct plain; reflexivity. Qed.

Lemma gen_host_eq reg : gen_host reg = host_of reg.
Proof. reflexivity. Qed.

Lemma gen_url_repo_base_eq plain r : gen_url_repo_base plain r = url_repo_base plain r.
Proof.
  unfold gen_url_repo_base, url_repo_base. rewrite gen_scheme_eq, gen_host_eq.
  cbn [lit nth buildRepositoryBaseURL_lits sprintf_s N.eqb Pos.eqb]. rewrite app_nil_r. reflexivity.
Qed.

Lemma gen_url_base_eq plain r : gen_url_base plain r = url_base plain r.
Proof.
  unfold gen_url_base, url_base. rewrite gen_scheme_eq, gen_host_eq.
  cbn [lit nth buildRegistryBaseURL_lits sprintf_s N.eqb Pos.eqb]. reflexivity.
Qed.

Lemma gen_url_catalog_eq plain r : gen_url_catalog plain r = url_catalog plain r.
Proof.
  unfold gen_url_catalog, url_catalog. rewrite gen_scheme_eq, gen_host_eq.
  cbn [lit nth buildRegistryCatalogURL_lits sprintf_s N.eqb Pos.eqb]. reflexivity.
Qed.

Lemma gen_url_taglist_eq plain r : gen_url_taglist plain r = url_taglist plain r.
Proof. unfold gen_url_taglist, url_taglist. rewrite gen_url_repo_base_eq. reflexivity. Qed.

Lemma gen_url_upload_eq plain r : gen_url_upload plain r = url_upload plain r.
Proof. unfold gen_url_upload, url_upload. rewrite gen_url_repo_base_eq. reflexivity. Qed.

Lemma gen_url_manifest_eq plain r : gen_url_manifest plain r = url_manifest plain r.
Proof. unfold gen_url_manifest, url_manifest. rewrite gen_url_repo_base_eq. reflexivity. Qed.

Lemma gen_url_blob_eq plain r : gen_url_blob plain r = url_blob plain r.
Proof. unfold gen_url_blob, url_blob. rewrite gen_url_repo_base_eq. reflexivity. Qed.

Lemma gen_url_mount_eq plain r d from : gen_url_mount plain r d from = url_mount plain r d from.
Proof.
  unfold gen_url_mount, url_mount. rewrite gen_url_upload_eq.
  cbn [lit nth buildRepositoryBlobMountURL_lits sprintf_s N.eqb Pos.eqb]. rewrite app_nil_r. reflexivity.
Qed.

Lemma referrers_key_escaped : query_escape (lit buildReferrersURL_lits 1) = b "artifactType".
Proof. vm_compute. reflexivity. Qed.

Lemma gen_url_referrers_at_eq plain r at_ : gen_url_referrers_at plain r at_ = url_referrers_at plain r at_.
Proof.
  unfold gen_url_referrers_at, url_referrers_at, url_referrers. rewrite gen_url_repo_base_eq.
  destruct at_ as [|a t].
  - cbn [lit nth buildReferrersURL_lits sprintf_s N.eqb Pos.eqb].
    rewrite ?app_nil_r. rewrite <- ?app_assoc. reflexivity.
  - unfold encode_params. cbn [map join_amp fst snd]. rewrite referrers_key_escaped.
    cbn [lit nth buildReferrersURL_lits sprintf_s N.eqb Pos.eqb].
    rewrite ?app_nil_r. rewrite <- ?app_assoc. reflexivity.
Qed.

Lemma gen_url_referrers_eq plain r : gen_url_referrers plain r = url_referrers plain r.
Proof.
  unfold gen_url_referrers. rewrite gen_url_referrers_at_eq. unfold url_referrers_at. now rewrite app_nil_r.
Qed.

(* what the model of ValidateRegistry assumes about the dummy URL it parses: the scheme is
   neither http nor https and is followed by a double slash *)
Lemma validate_registry_dummy_scheme : nth 0 ValidateRegistry_lits [] = b "dummy://".
Proof. reflexivity. Qed.
