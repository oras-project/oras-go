(* C15 -- lemmas about Model/Paging.v *)
From Oras Require Import Base.Prelude Generated.GC15 Model.Paging.
From Coq Require Import Permutation Sorted.

Lemma parse_link_wellformed t rest :
  contains c_gt t = false ->
  parse_link (c_lt :: t ++ c_gt :: rest) = LTarget t.
Proof.
  intro H. unfold parse_link. rewrite N.eqb_refl.
  change (c_lt :: t ++ c_gt :: rest) with ((c_lt :: t) ++ c_gt :: rest).
  rewrite index_of_app_fresh.
  - simpl length. replace (S (length t) - 1)%nat with (length t) by lia.
    now rewrite firstn_app_exact.
  - simpl. rewrite H. reflexivity.
Qed.

Lemma parse_link_absent : parse_link [] = LNone.
Proof. reflexivity. Qed.

Lemma parse_link_no_lt c h : c <> c_lt -> parse_link (c :: h) = LErrLt.
Proof. intro H. unfold parse_link. apply N.eqb_neq in H. now rewrite H. Qed.

Lemma parse_link_no_gt h : contains c_gt h = false -> parse_link (c_lt :: h) = LErrGt.
Proof.
  intro H. unfold parse_link. rewrite N.eqb_refl.
  assert (E : index_of c_gt (c_lt :: h) = None).
  { apply index_of_none. simpl. exact H. }
  now rewrite E.
Qed.

Lemma str_eqb_neq x y : x <> y -> str_eqb x y = false.
Proof.
  intro H. destruct (str_eqb x y) eqn:E; [|reflexivity].
  apply str_eqb_spec in E. contradiction.
Qed.

Lemma qget_qdel_same k q : qget k (qdel k q) = None.
Proof.
  induction q as [|[k' v] q IH]; simpl; [reflexivity|].
  destruct (str_eqb k' k) eqn:E; [exact IH|]. simpl. now rewrite E.
Qed.

Lemma qget_qdel_other k k' q : k <> k' -> qget k (qdel k' q) = qget k q.
Proof.
  intro H. induction q as [|[k2 v] q IH]; simpl; [reflexivity|].
  destruct (str_eqb k2 k') eqn:E.
  - apply str_eqb_spec in E. subst k2. rewrite (str_eqb_neq k' k); auto.
  - simpl. now rewrite IH.
Qed.

Lemma qget_app k q1 q2 :
  qget k (q1 ++ q2) = match qget k q1 with Some v => Some v | None => qget k q2 end.
Proof.
  induction q1 as [|[k' v] q1 IH]; simpl; [reflexivity|].
  destruct (str_eqb k' k); [reflexivity|exact IH].
Qed.

Lemma qget_qset_same k v q : qget k (qset k v q) = Some v.
Proof. unfold qset. rewrite qget_app, qget_qdel_same. simpl. now rewrite str_eqb_refl. Qed.

Lemma qget_qset_other k k' v q : k <> k' -> qget k (qset k' v q) = qget k q.
Proof.
  intro H. unfold qset. rewrite qget_app, (qget_qdel_other k k' q H).
  destruct (qget k q); [reflexivity|]. simpl. now rewrite (str_eqb_neq k' k) by (intro E; now symmetry in E).
Qed.

Lemma qget_qset k k' v q : qget k' (qset k v q) = if str_eqb k k' then Some v else qget k' q.
Proof.
  destruct (str_eqb k k') eqn:E.
  - apply str_eqb_spec in E. subst. apply qget_qset_same.
  - apply qget_qset_other. intro H. subst. now rewrite str_eqb_refl in E.
Qed.

Lemma k_n_neq_last : k_n <> k_last. Proof. discriminate. Qed.
Lemma k_n_neq_at : k_n <> k_at. Proof. discriminate. Qed.
Lemma k_last_neq_at : k_last <> k_at. Proof. discriminate. Qed.

Lemma mk_request_last c u last :
  qget k_last (u_query (mk_request c u last)) =
  if sends_last (c_kind c) && negb (is_empty last) then Some (VS last)
  else qget k_last (u_query u).
Proof.
  unfold mk_request. simpl.
  destruct (sends_last (c_kind c) && negb (is_empty last)).
  - apply qget_qset_same.
  - destruct (0 <? c_n c)%Z; [|reflexivity].
    apply qget_qset_other. discriminate.
Qed.

Lemma mk_request_other c u last k :
  k <> k_n -> k <> k_last -> qget k (u_query (mk_request c u last)) = qget k (u_query u).
Proof.
  intros Hn Hl. unfold mk_request. simpl.
  destruct (sends_last (c_kind c) && negb (is_empty last)); [rewrite qget_qset_other by exact Hl|];
    (destruct (0 <? c_n c)%Z; [now apply qget_qset_other|reflexivity]).
Qed.

Lemma mk_request_at c u last :
  qget k_at (u_query (mk_request c u last)) = qget k_at (u_query u).
Proof. apply mk_request_other; discriminate. Qed.

Lemma mk_request_n c u last :
  (0 < c_n c)%Z -> qget k_n (u_query (mk_request c u last)) = Some (VN (Z.to_N (c_n c))).
Proof.
  intro H. unfold mk_request. simpl. apply Z.ltb_lt in H. rewrite H.
  destruct (sends_last (c_kind c) && negb (is_empty last)).
  - rewrite qget_qset_other; [apply qget_qset_same|]. exact k_n_neq_last.
  - apply qget_qset_same.
Qed.

Lemma mk_request_path c u last : u_path (mk_request c u last) = u_path u.
Proof. reflexivity. Qed.

Lemma after_pos_suffix x L r : after_pos x L = Some r -> exists pre, L = pre ++ r.
Proof.
  revert r. induction L as [|it L IH]; simpl; intros r H; [discriminate|].
  destruct (str_eqb (fst it) x).
  - injection H as <-. now exists [it].
  - destruct (IH r H) as [pre ->]. now exists (it :: pre).
Qed.

Lemma drop_until_suffix x L : exists pre, L = pre ++ drop_until x L.
Proof.
  induction L as [|it L [pre IH]]; simpl.
  - now exists [].
  - destruct (str_ltb x (fst it)).
    + now exists [].
    + exists (it :: pre). simpl. now f_equal.
Qed.

Lemma after_suffix x L : exists pre, L = pre ++ after x L.
Proof.
  unfold after. destruct x as [|c x]; [now exists []|].
  destruct (after_pos (c :: x) L) as [r|] eqn:E.
  - now apply after_pos_suffix in E.
  - apply drop_until_suffix.
Qed.

Lemma after_pos_fresh x A it B :
  fst it = x -> ~ In x (map fst A) -> after_pos x (A ++ it :: B) = Some B.
Proof.
  intros Hx. induction A as [|a A IH]; simpl; intro Hn.
  - rewrite Hx. now rewrite str_eqb_refl.
  - rewrite str_eqb_neq; [|intro E; apply Hn; now left].
    apply IH. intro Hi. apply Hn. now right.
Qed.

Lemma last_name_snoc p it : last_name (p ++ [it]) = fst it.
Proof. unfold last_name. now rewrite rev_app_distr. Qed.

Lemma firstn_snoc {A} (m : nat) (l : list A) :
  (1 <= m)%nat -> (m <= length l)%nat -> exists p x, firstn m l = p ++ [x].
Proof.
  intros H1 H2.
  destruct (firstn m l) as [|y t] eqn:E using rev_ind.
  - exfalso. assert (length (firstn m l) = m) by (apply firstn_length_le; lia).
    rewrite E in H. simpl in H. lia.
  - now exists t, y.
Qed.

Lemma after_nonempty x L :
  x <> [] -> after x L = match after_pos x L with Some r => r | None => drop_until x L end.
Proof. destruct x; [contradiction|reflexivity]. Qed.

Lemma after_page L pre rest m :
  L = pre ++ rest -> NoDup (map fst L) -> (forall it, In it L -> fst it <> []) ->
  (1 <= m)%nat -> (m < length rest)%nat ->
  after (last_name (firstn m rest)) L = skipn m rest.
Proof.
  intros HL Hnd Hne H1 H2.
  destruct (firstn_snoc m rest H1 ltac:(lia)) as (p & it & Ep).
  rewrite Ep, last_name_snoc.
  assert (Hrest : rest = (p ++ [it]) ++ skipn m rest) by (rewrite <- Ep; symmetry; apply firstn_skipn).
  assert (HL' : L = (pre ++ p) ++ it :: skipn m rest).
  { rewrite HL. rewrite Hrest at 1. rewrite <- !app_assoc. reflexivity. }
  assert (Hin : In it L) by (rewrite HL'; apply in_or_app; right; now left).
  rewrite after_nonempty by (now apply Hne).
  rewrite HL'. rewrite after_pos_fresh; auto.
  rewrite HL' in Hnd. rewrite map_app in Hnd. simpl in Hnd.
  apply NoDup_remove_2 in Hnd. intro Hi. apply Hnd. apply in_or_app. now left.
Qed.

Lemma filter_idem {A} (f : A -> bool) l : filter f (filter f l) = filter f l.
Proof.
  induction l as [|x l IH]; simpl; [reflexivity|].
  destruct (f x) eqn:E; simpl; [rewrite E; now f_equal|exact IH].
Qed.

Lemma filter_referrers_idem l a : filter_referrers (filter_referrers l a) a = filter_referrers l a.
Proof. unfold filter_referrers. destruct (is_empty a); [reflexivity|apply filter_idem]. Qed.

Lemma filter_referrers_app l1 l2 a :
  filter_referrers (l1 ++ l2) a = filter_referrers l1 a ++ filter_referrers l2 a.
Proof. unfold filter_referrers. destruct (is_empty a); [reflexivity|apply filter_app]. Qed.

Lemma NoDup_map_filter {A B} (g : A -> B) (f : A -> bool) l :
  NoDup (map g l) -> NoDup (map g (filter f l)).
Proof.
  induction l as [|x l IH]; simpl; intro H; [constructor|].
  inversion H as [|? ? Hn Hd]; subst.
  destruct (f x); simpl; [|now apply IH].
  constructor; [|now apply IH]. intro Hi. apply Hn.
  apply in_map_iff in Hi as (y & Ey & Hy). apply filter_In in Hy as [Hy _].
  apply in_map_iff. now exists y.
Qed.

Lemma firstn_plus {A} (m n : nat) (l : list A) :
  firstn (m + n) l = firstn m l ++ firstn n (skipn m l).
Proof.
  revert l. induction m as [|m IH]; intro l; simpl; [reflexivity|].
  destruct l as [|x l]; simpl; [now rewrite firstn_nil|]. now rewrite IH.
Qed.

Definition cursor_ok (cu : cursor) : Prop :=
  match cu with CLast => True | CToken k _ => k <> k_n /\ k <> k_last /\ k <> k_at end.

Lemma strip_app p x : strip p (p ++ x) = x.
Proof. unfold strip. rewrite firstn_app_exact, str_eqb_refl. apply skipn_app_exact. Qed.

Lemma ckey_neq_n cu : cursor_ok cu -> ckey cu <> k_n.
Proof. destruct cu; simpl; [discriminate|tauto]. Qed.
Lemma ckey_neq_at cu : cursor_ok cu -> ckey cu <> k_at.
Proof. destruct cu; simpl; [intros _; exact k_last_neq_at|tauto]. Qed.

Lemma cursor_read_link cu q x : cursor_read cu ((ckey cu, VS (cenc cu x)) :: q) = x.
Proof.
  destruct cu as [|k s]; unfold cursor_read, qget_s; cbn [ckey cenc qget]; rewrite str_eqb_refl; [reflexivity|].
  apply strip_app.
Qed.

Lemma cursor_read_request cu c p x q :
  cursor_ok cu ->
  cursor_read cu (u_query (mk_request c (mkUrl p ((ckey cu, VS (cenc cu x)) :: q)) [])) = x.
Proof.
  intro Hcu. unfold mk_request. cbn [is_empty negb u_query]. rewrite andb_false_r.
  destruct (0 <? c_n c)%Z; [|apply cursor_read_link].
  unfold qset. cbn [qdel]. rewrite (str_eqb_neq (ckey cu) k_n) by (now apply ckey_neq_n).
  cbn [app]. apply cursor_read_link.
Qed.

Lemma start_cursor cu c path q0 last0 :
  cursor_ok cu -> qget (ckey cu) q0 = None ->
  cursor_read cu (u_query (mk_request c (mkUrl path q0) last0)) =
  qget_s k_last (u_query (mk_request c (mkUrl path q0) last0)).
Proof.
  intros Hcu H. destruct cu as [|k s]; [reflexivity|]. destruct Hcu as (Hn & Hl & _).
  unfold cursor_read. rewrite mk_request_other by assumption. cbn [u_query ckey] in *. now rewrite H.
Qed.

Definition referrers_query (a : str) : query := if is_empty a then [] else [(k_at, VS a)].

Definition start_query (c : cfg) : query :=
  match c_kind c with KReferrers => referrers_query (c_at c) | _ => [] end.
Definition start_rest (c : cfg) (last0 : str) (L : list item) : list item :=
  match c_kind c with KReferrers => L | _ => after last0 L end.

Lemma start_query_other c k : k <> k_at -> qget k (start_query c) = None.
Proof.
  intro H. unfold start_query, referrers_query. destruct (c_kind c); try reflexivity.
  destruct (is_empty (c_at c)); [reflexivity|]. cbn [qget].
  rewrite (str_eqb_neq k_at k); [reflexivity|]. intro E. apply H. now symmetry.
Qed.

Lemma referrers_query_at a : qget_s k_at (referrers_query a) = a.
Proof. unfold qget_s, referrers_query. destruct a; [reflexivity|]. cbn [is_empty qget]. now rewrite str_eqb_refl. Qed.

Lemma last_name_in (rest : list item) m :
  (1 <= m)%nat -> (m <= length rest)%nat -> In (last_name (firstn m rest)) (map fst rest).
Proof.
  intros H1 H2. destruct (firstn_snoc m rest H1 H2) as (p & it & E).
  rewrite E, last_name_snoc. apply in_map.
  rewrite <- (firstn_skipn m rest). rewrite E. apply in_or_app. left. apply in_or_app. right. now left.
Qed.

Lemma forall_below_S (P : nat -> Prop) i n :
  P i -> (forall j, (j < n)%nat -> P (S i + j)%nat) -> forall j, (j < S n)%nat -> P (i + j)%nat.
Proof.
  intros H0 H [|j] Hj; [now rewrite Nat.add_0_r|]. rewrite Nat.add_succ_r. apply (H j). lia.
Qed.

Section Listing.
  Variable L : list item.
  Variable cap : nat.
  Variable ds : nat -> decision.
  Variable render : nat -> url -> url -> str.
  Variable trailer : nat -> str.
  Variable resolve : url -> str -> option url.
  Variable c : cfg.
  Variable cu : cursor.                  (* the registry's continuation: `last` or an opaque token *)
  Variable npath : nat -> str -> str.    (* the path its next links point to *)
  Variable vis : item -> bool.           (* the entries it shows; pages may be empty although items remain *)
  Variable InvQ : url -> Prop.           (* an invariant of the requests of the run (True when not needed) *)

  Definition link_target (i : nat) (rq : url) (x : str) : url :=
    link_url cu (npath i (u_path rq)) (ds i) rq x.

  Hypothesis Hnodup : NoDup (map fst L).
  Hypothesis Hnonempty : forall it, In it L -> fst it <> [].
  (* any Link form that net/url resolves to the intended target (cursor x, the
     registry's extra parameters, the other parameters of the request) *)
  Hypothesis Hrender_gt : forall i base x, InvQ base -> In x (map fst L) ->
    contains c_gt (render i base (link_target i base x)) = false.
  Hypothesis Hresolve : forall i base x, InvQ base -> In x (map fst L) ->
    resolve base (render i base (link_target i base x)) = Some (link_target i base x).
  Hypothesis Hinv : forall i base x, InvQ base -> In x (map fst L) ->
    InvQ (mk_request c (link_target i base x) []).
  Hypothesis Hextra : c_kind c = KReferrers -> forall i, qget k_at (d_extra (ds i)) = None.
  (* an opaque cursor key does not collide with n / last / artifactType *)
  Hypothesis Hcu : cursor_ok cu.

  Definition view (page : list item) : list item :=
    match c_kind c with KReferrers => filter_referrers (filter vis page) (c_at c) | _ => filter vis page end.

  Definition serve := reg_serve (c_kind c) cu npath vis L cap ds render trailer.
  Definition rest_of (rq : url) := after (cursor_read cu (u_query rq)) L.
  Definition m_of (i : nat) (rq : url) := page_len cap rq (ds i).
  Definition fits (i : nat) : Prop := (Z.of_N (d_doc_len (ds i)) <= eff_limit (c_limit c))%Z.

  Lemma view_app a b0 : view (a ++ b0) = view a ++ view b0.
  Proof. unfold view. rewrite filter_app. destruct (c_kind c); try reflexivity. apply filter_referrers_app. Qed.

  Lemma view_nil : view [] = [].
  Proof. unfold view, filter_referrers. destruct (c_kind c); try reflexivity. destruct (is_empty (c_at c)); reflexivity. Qed.

  Lemma m_of_pos i rq : (1 <= m_of i rq)%nat.
  Proof. unfold m_of, page_len. lia. Qed.

  Lemma serve_link i rq :
    rs_link (serve i rq) =
    if (m_of i rq <? length (rest_of rq))%nat
    then c_lt :: render i rq (link_target i rq (last_name (firstn (m_of i rq) (rest_of rq)))) ++ c_gt :: trailer i
    else [].
  Proof.
    unfold rs_link, serve, reg_serve, reg_page. cbn [rs_links].
    fold (rest_of rq). fold (m_of i rq).
    destruct (m_of i rq <? length (rest_of rq))%nat; reflexivity.
  Qed.

  (* the client's reading of an answer: the page as Referrers wants it when the document fits,
     whether the registry filtered (and said so) or not *)
  Lemma handle_serve i rq :
    (c_kind c = KReferrers -> qget_s k_at (u_query rq) = c_at c) ->
    handle c (serve i rq) =
    if (Z.of_N (d_doc_len (ds i)) <=? eff_limit (c_limit c))%Z
    then inr (view (firstn (m_of i rq) (rest_of rq))) else inl ErrDecode.
  Proof.
    intros Hat. unfold handle, serve, reg_serve, reg_page, body_fits, ctype_bad.
    cbn [rs_status rs_ctype rs_json_ok rs_doc_len rs_items rs_fhdr rs_fann].
    rewrite str_eqb_refl. fold (rest_of rq). fold (m_of i rq).
    change (200 =? 200) with true. cbn [negb andb].
    destruct (Z.of_N (d_doc_len (ds i)) <=? eff_limit (c_limit c))%Z; cbn [negb];
      [|destruct (c_kind c); reflexivity].
    unfold view, reg_filters.
    destruct (c_kind c) eqn:K; cbn [sends_last negb andb]; try reflexivity.
    rewrite (Hat eq_refl).
    destruct (is_empty (c_at c)) eqn:E; cbn [negb andb].
    - unfold filter_referrers. now rewrite E.
    - rewrite <- orb_assoc.
      destruct (is_filter_applied (d_fhdr (ds i)) filterTypeArtifactType
                || is_filter_applied (d_fann (ds i)) filterTypeArtifactType).
      + now rewrite orb_true_r.
      + rewrite orb_false_r. destruct (d_filter (ds i)); [now rewrite filter_referrers_idem|reflexivity].
  Qed.

  Lemma concat_delivered p :
    concat (if delivered c (view p) then [view p] else []) = view p.
  Proof.
    unfold delivered. destruct (c_kind c); simpl; try apply app_nil_r.
    destruct (view p); simpl; [reflexivity|now rewrite app_nil_r].
  Qed.

  (* what the loop keeps true of the request it sends next: the registry reads it as asking for
     [rest], the items behind [pre] *)
  Definition at_rest (rq : url) (pre rest : list item) : Prop :=
    L = pre ++ rest /\ rest_of rq = rest /\
    (c_kind c = KReferrers -> qget_s k_at (u_query rq) = c_at c) /\ InvQ rq.

  Lemma next_at_rest i rq pre rest :
    at_rest rq pre rest -> (m_of i rq < length rest)%nat ->
    let m := m_of i rq in
    let x := last_name (firstn m rest) in
    In x (map fst L) /\
    at_rest (mk_request c (link_target i rq x) []) (pre ++ firstn m rest) (skipn m rest).
  Proof.
    intros (HL & Hrest & Hat & HI) Hm m x. pose proof (m_of_pos i rq) as H1. fold m in Hm, H1.
    assert (Hin : In x (map fst L)).
    { rewrite HL, map_app. apply in_or_app. right. apply last_name_in; lia. }
    split; [exact Hin|]. split; [|split; [|split]].
    - rewrite <- app_assoc. now rewrite firstn_skipn.
    - unfold rest_of, link_target, link_url. rewrite cursor_read_request by exact Hcu.
      eapply after_page; eauto.
    - intro K. rewrite <- (Hat K). unfold qget_s. rewrite mk_request_at.
      unfold link_target, link_url. cbn [u_query qget].
      rewrite (str_eqb_neq (ckey cu) k_at) by (now apply ckey_neq_at).
      rewrite qget_app, (Hextra K).
      rewrite !qget_qdel_other; [reflexivity|discriminate|].
      intro E. symmetry in E. now apply (ckey_neq_at cu Hcu) in E.
    - now apply Hinv.
  Qed.

  (* Documents of any size: the listing completes with every item of [rest] in view, or stops
     with a decode error at the first document that does not fit, having delivered whole pages. *)
  Lemma loop_listing fuel :
    forall i k u last pre rest,
      at_rest (mk_request c u last) pre rest -> (length rest < fuel)%nat ->
      let t := loop serve resolve (fun _ => false) c fuel i k u last in
      (length (t_reqs t) <= S (length rest))%nat /\
      ((t_out t = Done /\ concat (t_pages t) = view rest /\
        forall j, (j < length (t_reqs t))%nat -> fits (i + j)) \/
       (t_out t = ErrDecode /\
        exists n j, concat (t_pages t) = view (firstn n rest) /\ length (t_reqs t) = S j /\
                    ~ fits (i + j) /\ forall j', (j' < j)%nat -> fits (i + j'))).
  Proof.
    induction fuel as [|fuel IH]; intros i k u last pre rest A Hfuel; [lia|].
    cbn [loop]. cbv zeta. set (rq := mk_request c u last) in *.
    pose proof A as (_ & Hrest & Hat & HI).
    rewrite (handle_serve i rq Hat), serve_link, Hrest.
    destruct (Z.leb_spec (Z.of_N (d_doc_len (ds i))) (eff_limit (c_limit c))) as [Hfit|Hbig].
    2:{ cbn [t_out t_pages t_reqs length]. split; [lia|]. right. split; [reflexivity|].
        exists 0%nat, 0%nat. cbn [firstn]. rewrite view_nil, Nat.add_0_r. unfold fits. repeat split; auto; lia. }
    rewrite andb_false_r.
    destruct (m_of i rq <? length rest)%nat eqn:Emore.
    -
      apply Nat.ltb_lt in Emore. destruct (next_at_rest i rq pre rest A Emore) as [Hin A'].
      pose proof (m_of_pos i rq) as Hm.
      set (m := m_of i rq) in *. set (x := last_name (firstn m rest)) in *.
      rewrite parse_link_wellformed by (now apply Hrender_gt).
      rewrite Hresolve by assumption.
      assert (Hlen : (length (skipn m rest) < fuel)%nat) by (rewrite skipn_length; lia).
      specialize (IH (S i) (if delivered c (view (firstn m rest)) then S k else k) _ [] _ _ A' Hlen).
      cbv zeta in IH. rewrite skipn_length in IH.
      unfold prepend. cbn [t_out t_pages t_reqs length]. rewrite concat_app, concat_delivered.
      destruct IH as [R [(O & P & F)|(O & n & j & P & E & N & B)]]; (split; [lia|]).
      + left. split; [exact O|]. split; [|now apply forall_below_S].
        rewrite P, <- view_app. now rewrite firstn_skipn.
      + right. split; [exact O|]. exists (m + n)%nat, (S j). rewrite Nat.add_succ_r.
        split; [|split; [now rewrite E|split; [exact N|now apply forall_below_S]]].
        rewrite P, <- view_app. now rewrite firstn_plus.
    -
      apply Nat.ltb_ge in Emore. rewrite parse_link_absent. cbn [t_out t_pages t_reqs length].
      split; [lia|]. left. split; [reflexivity|]. split.
      + rewrite concat_delivered. now rewrite firstn_all2.
      + intros j Hj. replace j with 0%nat by lia. now rewrite Nat.add_0_r.
  Qed.

  Lemma start_at_rest path last0 :
    InvQ (mk_request c (mkUrl path (start_query c)) last0) ->
    exists pre, at_rest (mk_request c (mkUrl path (start_query c)) last0) pre (start_rest c last0 L).
  Proof.
    intro H0.
    assert (Hsuf : exists pre, L = pre ++ start_rest c last0 L).
    { unfold start_rest. destruct (c_kind c); try apply after_suffix. now exists []. }
    destruct Hsuf as [pre Hpre]. exists pre. split; [exact Hpre|]. split; [|split; [|exact H0]].
    - unfold rest_of. rewrite start_cursor by (auto using start_query_other, ckey_neq_at).
      unfold qget_s. rewrite mk_request_last. cbn [u_query].
      rewrite start_query_other by exact k_last_neq_at. unfold start_rest.
      destruct (c_kind c); cbn [sends_last andb]; try reflexivity; now destruct last0.
    - intros K. unfold qget_s, start_query. rewrite mk_request_at, K. apply referrers_query_at.
  Qed.

  Theorem listing_run path last0 fuel :
    InvQ (mk_request c (mkUrl path (start_query c)) last0) ->
    (length (start_rest c last0 L) < fuel)%nat ->
    let t := loop serve resolve (fun _ => false) c fuel 0 0 (mkUrl path (start_query c)) last0 in
    (length (t_reqs t) <= S (length (start_rest c last0 L)))%nat /\
    ((t_out t = Done /\ concat (t_pages t) = view (start_rest c last0 L) /\
      forall j, (j < length (t_reqs t))%nat -> fits j) \/
     (t_out t = ErrDecode /\
      exists n j, concat (t_pages t) = view (firstn n (start_rest c last0 L)) /\
                  length (t_reqs t) = S j /\ ~ fits j /\ forall j', (j' < j)%nat -> fits j')).
  Proof.
    intros H0 Hfuel. destruct (start_at_rest path last0 H0) as [pre A].
    exact (loop_listing fuel 0 0 _ _ pre _ A Hfuel).
  Qed.

  (* every document fits: every item, once, in the registry's order, in at most one request each
     and one more *)
  Corollary listing_run_fit path last0 fuel :
    (forall i, fits i) ->
    InvQ (mk_request c (mkUrl path (start_query c)) last0) ->
    (length (start_rest c last0 L) < fuel)%nat ->
    let t := loop serve resolve (fun _ => false) c fuel 0 0 (mkUrl path (start_query c)) last0 in
    t_out t = Done /\ concat (t_pages t) = view (start_rest c last0 L) /\
    (length (t_reqs t) <= S (length (start_rest c last0 L)))%nat.
  Proof.
    intros Hfit H0 Hfuel.
    destruct (listing_run path last0 fuel H0 Hfuel) as [R [(O & P & _)|(_ & n & j & _ & _ & N & _)]];
      [auto|now destruct (N (Hfit j))].
  Qed.

  (* Tags / Repositories: every item after [last], once, in the registry's order *)
  Theorem listing_exactly_once_inv path last0 fuel :
    c_kind c <> KReferrers -> (forall i, fits i) ->
    InvQ (mk_request c (mkUrl path []) last0) -> (length (after last0 L) < fuel)%nat ->
    let t := loop (reg_serve (c_kind c) cu npath vis L cap ds render trailer) resolve (fun _ => false) c
                  fuel 0 0 (mkUrl path []) last0 in
    t_out t = Done /\ concat (t_pages t) = filter vis (after last0 L) /\
    (length (t_reqs t) <= S (length (after last0 L)))%nat.
  Proof.
    intro K. generalize (listing_run_fit path last0 fuel). unfold start_query, start_rest, view, serve.
    destruct (c_kind c); try contradiction; auto.
  Qed.

  (* Referrers: exactly the referrers of the requested artifact type, once, in order,
     whether the registry filters (announced by header, by annotation, or silently) or not *)
  Theorem referrers_exactly_once_inv path fuel :
    c_kind c = KReferrers -> (forall i, fits i) ->
    InvQ (mk_request c (mkUrl path (referrers_query (c_at c))) []) -> (length L < fuel)%nat ->
    let t := loop (reg_serve KReferrers cu npath vis L cap ds render trailer) resolve (fun _ => false) c
                  fuel 0 0 (mkUrl path (referrers_query (c_at c))) [] in
    t_out t = Done /\ concat (t_pages t) = filter_referrers (filter vis L) (c_at c) /\
    (length (t_reqs t) <= S (length L))%nat.
  Proof.
    intro K. generalize (listing_run_fit path [] fuel). unfold start_query, start_rest, view, serve.
    now rewrite K.
  Qed.
End Listing.

Lemma NoDup_suffix {A} (pre l : list A) : NoDup (pre ++ l) -> NoDup l.
Proof. induction pre as [|a pre IH]; simpl; intro H; [exact H|]. inversion H; auto. Qed.

Lemma shown_after_NoDup (vis : item -> bool) last0 L :
  NoDup (map fst L) -> NoDup (map fst (filter vis (after last0 L))).
Proof.
  intro Hnd. apply NoDup_map_filter. destruct (after_suffix last0 L) as [pre E].
  rewrite E, map_app in Hnd. now apply NoDup_suffix in Hnd.
Qed.

Theorem referrers_exactly_once :
  forall (L : list item) (cap : nat) (ds : nat -> decision)
         (render : nat -> url -> url -> str) (trailer : nat -> str)
         (resolve : url -> str -> option url) (c : cfg) (cu : cursor) (npath : nat -> str -> str) (vis : item -> bool)
         (path : str) (fuel : nat),
    cursor_ok cu ->
    c_kind c = KReferrers ->
    NoDup (map fst L) -> (forall it, In it L -> fst it <> []) ->
    (forall i base x, In x (map fst L) ->
       contains c_gt (render i base (link_target ds cu npath i base x)) = false) ->
    (forall i base x, In x (map fst L) ->
       resolve base (render i base (link_target ds cu npath i base x)) = Some (link_target ds cu npath i base x)) ->
    (forall i, (Z.of_N (d_doc_len (ds i)) <= eff_limit (c_limit c))%Z) ->
    (forall i, qget k_at (d_extra (ds i)) = None) ->
    (length L < fuel)%nat ->
    let t := loop (reg_serve KReferrers cu npath vis L cap ds render trailer) resolve (fun _ => false) c
                  fuel 0 0 (mkUrl path (referrers_query (c_at c))) [] in
    t_out t = Done /\
    concat (t_pages t) = filter_referrers (filter vis L) (c_at c) /\
    (length (t_reqs t) <= S (length L))%nat.
Proof.
  intros L cap ds render trailer resolve c cu npath vis path fuel Hcu K Hnd Hne Hgt Hres Hfit Hex Hfuel.
  apply (referrers_exactly_once_inv L cap ds render trailer resolve c cu npath vis (fun _ => True)); auto.
Qed.

(* reading a response: the status, then the content type, then the document against the limit *)
Lemma handle_cases c rs :
  (rs_status rs <> 200 /\ handle c rs = inl (status_error c rs)) \/
  (rs_status rs = 200 /\ ctype_bad c rs = true /\ handle c rs = inl ErrCType) \/
  (rs_status rs = 200 /\ ctype_bad c rs = false /\ body_fits c rs = false /\ handle c rs = inl ErrDecode) \/
  (rs_status rs = 200 /\ ctype_bad c rs = false /\ body_fits c rs = true /\ exists p, handle c rs = inr p).
Proof.
  unfold handle. destruct (N.eqb_spec (rs_status rs) 200) as [S|S]; cbn [negb]; [right|now left].
  destruct (ctype_bad c rs); [now left|right].
  destruct (body_fits c rs); cbn [negb]; [right|now left].
  repeat split; auto. destruct (c_kind c); eauto. destruct (is_empty (c_at c)); eauto.
  destruct (is_filter_applied _ _ || is_filter_applied _ _); eauto.
Qed.

Section ClientFacts.
  Variable serve : nat -> url -> response.
  Variable resolve : url -> str -> option url.
  Variable c : cfg.

  Lemma handle_err rs e : handle c rs = inl e -> e <> ErrCallback /\ e <> Done.
  Proof.
    intro H.
    destruct (handle_cases c rs) as [(_ & E)|[(_ & _ & E)|[(_ & _ & _ & E)|(_ & _ & _ & p & E)]]];
      rewrite E in H; try discriminate; injection H as <-; try (split; discriminate).
    unfold status_error. destruct (c_kind c); try (split; discriminate).
    destruct ((rs_status rs =? 404) && negb (rs_name_unknown rs)); split; discriminate.
  Qed.

  Lemma handle_ok_fits rs p :
    handle c rs = inr p ->
    rs_json_ok rs = true /\ (Z.of_N (rs_doc_len rs) <= eff_limit (c_limit c))%Z.
  Proof.
    intro H.
    destruct (handle_cases c rs) as [(_ & E)|[(_ & _ & E)|[(_ & _ & _ & E)|(_ & _ & F & _)]]];
      try (rewrite E in H; discriminate).
    unfold body_fits in F. apply andb_true_iff in F as [F1 F2]. apply Z.leb_le in F2. auto.
  Qed.

  Lemma handle_oversize rs :
    (eff_limit (c_limit c) < Z.of_N (rs_doc_len rs))%Z -> exists e, handle c rs = inl e.
  Proof.
    intro H. destruct (handle c rs) as [e|p] eqn:E; [now exists e|].
    apply handle_ok_fits in E. lia.
  Qed.

  (* callback discipline: the k-th invocation failing ends the listing with that error,
     nothing is delivered afterwards; otherwise the error is never ErrCallback *)
  Fixpoint ok_calls (cb_fail : nat -> bool) (k : nat) (pages : list (list item)) (o : outcome) : Prop :=
    match pages with
    | [] => o <> ErrCallback
    | _ :: ps => if cb_fail k then ps = [] /\ o = ErrCallback else ok_calls cb_fail (S k) ps o
    end.

  Lemma loop_calls cb_fail :
    forall fuel i k u last,
      let t := loop serve resolve cb_fail c fuel i k u last in
      ok_calls cb_fail k (t_pages t) (t_out t).
  Proof.
    induction fuel as [|fuel IH]; intros i k u last; cbn [loop]; cbv zeta; [simpl; discriminate|].
    destruct (handle c (serve i (mk_request c u last))) as [e|page] eqn:H.
    { simpl. now apply handle_err in H. }
    destruct (delivered c page) eqn:D; cbn [andb].
    - destruct (cb_fail k) eqn:F.
      + simpl. rewrite F. auto.
      + destruct (parse_link (rs_link (serve i (mk_request c u last)))); try (simpl; rewrite F; discriminate).
        destruct (resolve (mk_request c u last) t) as [u'|]; [|simpl; rewrite F; discriminate].
        unfold prepend. cbn [t_pages t_out app ok_calls]. rewrite F. apply IH.
    - destruct (parse_link (rs_link (serve i (mk_request c u last)))); try (simpl; discriminate).
      destruct (resolve (mk_request c u last) t) as [u'|]; [|simpl; discriminate].
      unfold prepend. cbn [t_pages t_out app]. apply IH.
  Qed.

  (* a failing callback truncates the undisturbed listing: same requests and pages up to
     and including the failing invocation, nothing after it *)
  Lemma loop_fail_prefix cb_fail :
    forall fuel i k u last,
      let t0 := loop serve resolve (fun _ => false) c fuel i k u last in
      let t1 := loop serve resolve cb_fail c fuel i k u last in
      (t1 = t0 /\ forall j, (j < length (t_pages t0))%nat -> cb_fail (k + j)%nat = false) \/
      (exists n m, t_out t1 = ErrCallback /\
                   t_reqs t1 = firstn (S n) (t_reqs t0) /\
                   t_pages t1 = firstn (S m) (t_pages t0) /\
                   (m < length (t_pages t0))%nat /\
                   cb_fail (k + m)%nat = true /\
                   forall j, (j < m)%nat -> cb_fail (k + j)%nat = false).
  Proof.
    induction fuel as [|fuel IH]; intros i k u last; cbn [loop]; cbv zeta.
    { left. split; [reflexivity|]. simpl. intros j Hj. lia. }
    set (rq := mk_request c u last).
    destruct (handle c (serve i rq)) as [e|page] eqn:H.
    { left. split; [reflexivity|]. simpl. intros j Hj. lia. }
    destruct (delivered c page) eqn:D; cbn [andb].
    - destruct (cb_fail k) eqn:F.
      + right. exists 0%nat, 0%nat. cbn [t_out t_reqs t_pages]. rewrite Nat.add_0_r.
        destruct (parse_link (rs_link (serve i rq))); try (simpl; repeat split; auto; lia).
        destruct (resolve rq t) as [u'|]; simpl; repeat split; auto; lia.
      + (* this page is delivered; a failure, if any, comes later *)
        pose proof (forall_below_S (fun n => cb_fail n = false) k) as Below. cbv beta in Below.
        destruct (parse_link (rs_link (serve i rq)));
          try (left; split; [reflexivity|]; apply (Below 0%nat F); intros; lia).
        destruct (resolve rq t) as [u'|]; [|left; split; [reflexivity|]; apply (Below 0%nat F); intros; lia].
        destruct (IH (S i) (S k) u' []) as [[E A]|(n & m & O & R & P & Lm & Fm & B)].
        * left. rewrite E. split; [reflexivity|]. exact (Below _ F A).
        * right. exists (S n), (S m). unfold prepend. cbn [t_out t_reqs t_pages app].
          rewrite R, P, Nat.add_succ_r. repeat split; auto; [simpl; lia|]. exact (Below _ F B).
    - destruct (parse_link (rs_link (serve i rq)));
        try (left; split; [reflexivity|]; simpl; intros j Hj; lia).
      destruct (resolve rq t) as [u'|]; [|left; split; [reflexivity|]; simpl; intros j Hj; lia].
      destruct (IH (S i) k u' []) as [[E A]|(n & m & O & R & P & Lm & Fm & B)].
      + left. rewrite E. split; [reflexivity|]. unfold prepend. cbn [t_pages app]. exact A.
      + right. exists (S n), m. unfold prepend. cbn [t_out t_reqs t_pages app].
        rewrite R, P. repeat split; auto.
  Qed.

  Lemma loop_no_empty_page cb_fail :
    c_kind c = KReferrers ->
    forall fuel i k u last,
      Forall (fun p => p <> []) (t_pages (loop serve resolve cb_fail c fuel i k u last)).
  Proof.
    intro K. induction fuel as [|fuel IH]; intros i k u last; cbn [loop]; cbv zeta; [constructor|].
    destruct (handle c (serve i (mk_request c u last))) as [e|page] eqn:H; [constructor|].
    assert (P : delivered c page = true -> page <> []).
    { unfold delivered. rewrite K. destruct page; [discriminate|discriminate]. }
    destruct (delivered c page) eqn:D; cbn [andb].
    - destruct (cb_fail k); [repeat constructor; auto|].
      destruct (parse_link (rs_link (serve i (mk_request c u last)))); try (repeat constructor; auto).
      destruct (resolve (mk_request c u last) t); [|repeat constructor; auto].
      unfold prepend. cbn [t_pages app]. constructor; auto.
    - destruct (parse_link (rs_link (serve i (mk_request c u last)))); try constructor.
      destruct (resolve (mk_request c u last) t); [|constructor].
      unfold prepend. cbn [t_pages app]. apply IH.
  Qed.
End ClientFacts.

Lemma loop_done_all_fit serve resolve cb_fail c :
  forall fuel i k u last,
    let t := loop serve resolve cb_fail c fuel i k u last in
    t_out t = Done ->
    forall j rq, nth_error (t_reqs t) j = Some rq ->
      rs_json_ok (serve (i + j)%nat rq) = true /\
      (Z.of_N (rs_doc_len (serve (i + j)%nat rq)) <= eff_limit (c_limit c))%Z.
Proof.
  induction fuel as [|fuel IH]; intros i k u last; cbn [loop]; cbv zeta; [discriminate|].
  set (rq0 := mk_request c u last).
  destruct (handle c (serve i rq0)) as [e|page] eqn:H.
  { cbn [t_out]. intros ->. now apply handle_err in H. }
  pose proof (handle_ok_fits c _ _ H) as Fit.
  assert (Base : forall (t : trace) j rq, t_reqs t = [rq0] -> nth_error (t_reqs t) j = Some rq ->
            rs_json_ok (serve (i + j)%nat rq) = true /\
            (Z.of_N (rs_doc_len (serve (i + j)%nat rq)) <= eff_limit (c_limit c))%Z).
  { intros t j rq E. rewrite E. destruct j as [|[|j]]; simpl; try discriminate.
    intros [= <-]. now rewrite Nat.add_0_r. }
  destruct (delivered c page && cb_fail k); [discriminate|].
  destruct (parse_link (rs_link (serve i rq0))); try (intros _ j rq; now apply Base); try discriminate.
  destruct (resolve rq0 t) as [u'|]; [|discriminate].
  unfold prepend. cbn [t_out t_reqs]. intros O [|j] rq; simpl.
  - intros [= <-]. now rewrite Nat.add_0_r.
  - intro N. rewrite Nat.add_succ_r. apply (IH (S i) _ u' [] O j rq N).
Qed.

Lemma eff_limit_pos n : (0 < eff_limit n)%Z.
Proof. unfold eff_limit. destruct (n <=? 0)%Z eqn:E; [reflexivity|]. apply Z.leb_gt in E. exact E. Qed.

Lemma eff_limit_default n : (n <= 0)%Z -> eff_limit n = defaultMaxMetadataBytes.
Proof. intro H. unfold eff_limit. apply Z.leb_le in H. now rewrite H. Qed.

Lemma eff_limit_set n : (0 < n)%Z -> eff_limit n = n.
Proof. intro H. unfold eff_limit. apply Z.leb_gt in H. now rewrite H. Qed.

(* whatever reads through limitReader obtains a prefix of the body of at most the limit:
   all of a body that fits *)
Lemma seen_le limit body : (Z.of_nat (length (seen limit body)) <= eff_limit limit)%Z.
Proof.
  pose proof (eff_limit_pos limit). pose proof (firstn_le_length (Z.to_nat (eff_limit limit)) body).
  unfold seen. lia.
Qed.

Lemma seen_all limit body : (Z.of_nat (length body) <= eff_limit limit)%Z -> seen limit body = body.
Proof. intro H. apply firstn_all2. lia. Qed.

Lemma seen_spec limit body :
  (Z.of_nat (length (seen limit body)) <= eff_limit limit)%Z /\
  (exists rest, body = seen limit body ++ rest) /\
  ((Z.of_nat (length body) <= eff_limit limit)%Z -> seen limit body = body).
Proof.
  split; [apply seen_le|]. split; [|apply seen_all].
  exists (skipn (Z.to_nat (eff_limit limit)) body). symmetry. apply firstn_skipn.
Qed.

Lemma limit_size_spec limit size :
  limit_size_rejects limit size = true <-> (eff_limit limit < size)%Z.
Proof. unfold limit_size_rejects. apply Z.ltb_lt. Qed.

Section Bytes.
  Variable A : Type.
  (* json.Decoder.Decode on the bytes the reader lets it see *)
  Variable decode_stream : str -> option A.

  (* d is a self-delimiting document with value v: decoding stops at its end, and no proper
     prefix of it is accepted *)
  Definition is_document (d : str) (v : A) : Prop :=
    (forall tail, decode_stream (d ++ tail) = Some v) /\
    (forall k, (k < length d)%nat -> decode_stream (firstn k d) = None).

  Lemma limit_bytes d v pad limit :
    is_document d v ->
    (Z.of_nat (length (seen limit (d ++ pad))) <= eff_limit limit)%Z /\
    decode_stream (seen limit (d ++ pad)) =
      if (Z.of_nat (length d) <=? eff_limit limit)%Z then Some v else None.
  Proof.
    intros [D1 D2]. split; [apply seen_le|].
    pose proof (eff_limit_pos limit) as Hp. unfold seen. rewrite firstn_app.
    destruct (Z.of_nat (length d) <=? eff_limit limit)%Z eqn:E.
    - apply Z.leb_le in E. rewrite firstn_all2 by lia. apply D1.
    - apply Z.leb_gt in E.
      replace (Z.to_nat (eff_limit limit) - length d)%nat with 0%nat by lia.
      simpl. rewrite app_nil_r. apply D2. lia.
  Qed.
End Bytes.

Lemma str_ltb_irrefl x : str_ltb x x = false.
Proof. induction x as [|c x IH]; simpl; [reflexivity|]. now rewrite N.ltb_irrefl. Qed.

Lemma str_ltb_total x y : str_ltb x y = true \/ x = y \/ str_ltb y x = true.
Proof.
  revert y. induction x as [|c x IH]; intros [|d y]; simpl; auto.
  destruct (N.ltb_spec c d); auto.
  destruct (N.ltb_spec d c); auto.
  assert (c = d) by lia. subst d.
  destruct (IH y) as [H1|[H1|H1]]; auto. subst. auto.
Qed.

Lemma str_ltb_trans x y z : str_ltb x y = true -> str_ltb y z = true -> str_ltb x z = true.
Proof.
  revert y z. induction x as [|c x IH]; intros [|d y] [|e z]; simpl; try discriminate; auto.
  destruct (N.ltb_spec c d), (N.ltb_spec d e), (N.ltb_spec c e); auto; try lia;
    destruct (N.ltb_spec d c), (N.ltb_spec e d), (N.ltb_spec e c); try discriminate; try lia; eauto.
Qed.

Lemma str_ltb_asym x y : str_ltb x y = true -> str_ltb y x = false.
Proof.
  intro H. destruct (str_ltb y x) eqn:E; [|reflexivity].
  pose proof (str_ltb_trans _ _ _ H E) as T. now rewrite str_ltb_irrefl in T.
Qed.

Definition sle (a b0 : str) : Prop := str_ltb b0 a = false.

Lemma sle_antisym a b0 : sle a b0 -> sle b0 a -> a = b0.
Proof. unfold sle. intros H1 H2. destruct (str_ltb_total a b0) as [H|[H|H]]; congruence. Qed.

Lemma sle_trans a b0 c0 : sle a b0 -> sle b0 c0 -> sle a c0.
Proof.
  unfold sle. intros H1 H2. destruct (str_ltb c0 a) eqn:E; [|reflexivity].
  destruct (str_ltb_total a b0) as [H|[H|H]]; try congruence.
  - pose proof (str_ltb_trans _ _ _ E H). congruence.
Qed.

Lemma sinsert_perm x l : Permutation (sinsert x l) (x :: l).
Proof.
  induction l as [|y l IH]; simpl; [reflexivity|].
  destruct (str_ltb y x); [|reflexivity].
  rewrite IH. apply perm_swap.
Qed.

Lemma ssort_perm l : Permutation (ssort l) l.
Proof.
  induction l as [|x l IH]; simpl; [reflexivity|].
  rewrite sinsert_perm. now constructor.
Qed.

Lemma sinsert_hd y x l : HdRel sle y l -> sle y x -> HdRel sle y (sinsert x l).
Proof.
  intros H1 H2. destruct l as [|z l]; simpl; [now constructor|].
  destruct (str_ltb z x); constructor; auto. now inversion H1.
Qed.

Lemma sinsert_sorted x l : Sorted sle l -> Sorted sle (sinsert x l).
Proof.
  induction l as [|y l IH]; simpl; intro H; [repeat constructor|].
  inversion H as [|? ? Hs Hh]; subst.
  destruct (str_ltb y x) eqn:E.
  - constructor; [now apply IH|]. apply sinsert_hd; auto. unfold sle. now apply str_ltb_asym.
  - constructor; [exact H|]. constructor. exact E.
Qed.

Lemma ssort_sorted l : Sorted sle (ssort l).
Proof. induction l as [|x l IH]; simpl; [constructor|now apply sinsert_sorted]. Qed.

Lemma sorted_head_le a l x : StronglySorted sle (a :: l) -> In x (a :: l) -> sle a x.
Proof.
  intros S [->|I]; [apply str_ltb_irrefl|].
  inversion S as [|? ? _ F]; subst. rewrite Forall_forall in F. now apply F.
Qed.

Lemma sorted_perm_unique l1 l2 :
  Sorted sle l1 -> Sorted sle l2 -> Permutation l1 l2 -> l1 = l2.
Proof.
  revert l2. induction l1 as [|a l1 IH]; intros l2 S1 S2 P.
  - apply Permutation_nil in P. now subst.
  - destruct l2 as [|b0 l2]; [symmetry in P; now apply Permutation_nil in P|].
    assert (E : a = b0).
    { apply Sorted_StronglySorted in S1; [|intros ? ? ?; apply sle_trans].
      apply Sorted_StronglySorted in S2; [|intros ? ? ?; apply sle_trans].
      apply sle_antisym.
      - apply (sorted_head_le a l1 b0 S1), (Permutation_in _ (Permutation_sym P)). now left.
      - apply (sorted_head_le b0 l2 a S2), (Permutation_in _ P). now left. }
    subst b0. f_equal. apply Permutation_cons_inv in P.
    inversion S1; inversion S2; subst. now apply IH.
Qed.

(* listTags: ascending, exactly the non-digest references greater than last, each as often
   as the map holds it (once), whatever the iteration order of the map *)
Theorem list_tags_spec entries last :
  Sorted sle (list_tags entries last) /\
  Permutation (list_tags entries last) (map fst (filter (tag_listed last) entries)) /\
  (forall t, In t (list_tags entries last) <->
             exists d, In (t, d) entries /\ t <> d /\ (last = [] \/ str_ltb last t = true)).
Proof.
  unfold list_tags. split; [apply ssort_sorted|]. split; [apply ssort_perm|].
  intro t. split.
  - intro H. apply (Permutation_in _ (ssort_perm _)) in H.
    apply in_map_iff in H as ([t' d] & <- & H). apply filter_In in H as [Hi Hf].
    exists d. split; [exact Hi|]. unfold tag_listed in Hf. simpl in *.
    apply andb_true_iff in Hf as [F1 F2]. split.
    + intro E. subst d. now rewrite str_eqb_refl in F1.
    + apply orb_true_iff in F2 as [F2|F2]; [left; now destruct last|now right].
  - intros (d & Hi & Hd & Hl). apply (Permutation_in _ (Permutation_sym (ssort_perm _))).
    apply in_map_iff. exists (t, d). split; [reflexivity|]. apply filter_In. split; [exact Hi|].
    unfold tag_listed. simpl. rewrite (str_eqb_neq t d Hd). simpl.
    destruct Hl as [->|Hl]; [reflexivity|]. rewrite Hl. apply orb_true_r.
Qed.

Theorem list_tags_order_independent entries entries' last :
  Permutation entries entries' -> list_tags entries last = list_tags entries' last.
Proof.
  intro P. apply sorted_perm_unique.
  - apply (list_tags_spec entries last).
  - apply (list_tags_spec entries' last).
  - destruct (list_tags_spec entries last) as (_ & P1 & _).
    destruct (list_tags_spec entries' last) as (_ & P2 & _).
    rewrite P1, P2. apply Permutation_map.
    clear P1 P2. induction P; simpl.
    + constructor.
    + destruct (tag_listed last x); [now constructor|assumption].
    + destruct (tag_listed last x), (tag_listed last y); try reflexivity; try apply perm_swap.
    + etransitivity; eauto.
Qed.

Lemma filter_all {A} (f : A -> bool) l : (forall x, In x l -> f x = true) -> filter f l = l.
Proof.
  induction l as [|x l IH]; simpl; intro H; [reflexivity|].
  rewrite (H x) by now left. f_equal. apply IH. intros y Hy. apply H. now right.
Qed.

(* on a sorted registry the cursor semantics of the registry model is "greater than last",
   the same reading of [last] as listTags *)
Lemma after_sorted_unknown x L :
  StronglySorted (fun a b0 => str_ltb (fst a) (fst b0) = true) L ->
  x <> [] -> ~ In x (map fst L) ->
  after x L = filter (fun it => str_ltb x (fst it)) L.
Proof.
  intros S Hx Hn. rewrite after_nonempty by exact Hx.
  assert (E : after_pos x L = None).
  { clear S. induction L as [|it L IH]; simpl; [reflexivity|].
    rewrite str_eqb_neq; [|intro E; apply Hn; now left].
    apply IH. intro H. apply Hn. now right. }
  rewrite E. clear E Hn.
  induction L as [|it L IH]; simpl; [reflexivity|].
  inversion S as [|? ? S' F]; subst.
  destruct (str_ltb x (fst it)) eqn:E.
  - f_equal. symmetry. apply filter_all.
    intros it' Hi. rewrite Forall_forall in F. apply (str_ltb_trans _ _ _ E). now apply F.
  - now apply IH.
Qed.

Lemma index_entry_kept x seen :
  is_empty x || existsb (str_eqb x) seen = false <-> x <> [] /\ ~ In x seen.
Proof.
  rewrite orb_false_iff. split.
  - intros [E1 E2]. split; [now destruct x|]. intro H.
    assert (existsb (str_eqb x) seen = true); [|congruence].
    apply existsb_exists. exists x. split; [exact H|apply str_eqb_refl].
  - intros [Hne Hns]. split; [destruct x; [contradiction|reflexivity]|].
    destruct (existsb (str_eqb x) seen) eqn:E; [|reflexivity].
    apply existsb_exists in E as (y & Hy & Ey). apply str_eqb_spec in Ey. now subst y.
Qed.

Lemma clean_index_aux_spec seen items :
  NoDup (map fst (clean_index_aux seen items)) /\
  (forall x, In x (clean_index_aux seen items) -> In x items /\ fst x <> [] /\ ~ In (fst x) seen) /\
  (forall x, In x items -> fst x <> [] -> ~ In (fst x) seen -> In (fst x) (map fst (clean_index_aux seen items))).
Proof.
  revert seen. induction items as [|it r IH]; intro seen; simpl.
  - split; [constructor|]. split; [intros x []|intros x []].
  - destruct (is_empty (fst it) || existsb (str_eqb (fst it)) seen) eqn:E.
    + destruct (IH seen) as (N & A & B). split; [exact N|]. split.
      * intros x H. destruct (A x H) as (A1 & A2 & A3). auto.
      * intros x [<-|H] Hne Hs; [|now apply B].
        pose proof (proj2 (index_entry_kept _ _) (conj Hne Hs)). congruence.
    + apply index_entry_kept in E as [Hne Hns].
      destruct (IH (fst it :: seen)) as (N & A & B). simpl. split.
      * constructor; [|exact N]. intro H. apply in_map_iff in H as (x & Ex & Hx).
        destruct (A x Hx) as (_ & _ & A3). apply A3. left. now symmetry.
      * split.
        -- intros x [<-|H]; [auto|]. destruct (A x H) as (A1 & A2 & A3).
           split; [now right|]. split; [exact A2|]. intro Hs. apply A3. now right.
        -- intros x [<-|H] Hx Hs; [now left|].
           destruct (list_eq_dec N.eq_dec (fst x) (fst it)) as [Eq|Nq]; [left; now symmetry|].
           right. apply B; auto. intros [Eq|Hs']; [apply Nq; now symmetry|contradiction].
Qed.

Lemma filter_referrers_NoDup l a : NoDup (map fst l) -> NoDup (map fst (filter_referrers l a)).
Proof. unfold filter_referrers. destruct (is_empty a); [auto|apply NoDup_map_filter]. Qed.

Lemma tag_schema_spec limit size items a cb_fail :
  let r := tag_schema limit true size items a cb_fail in
  ((eff_limit limit < size)%Z -> r = ([], ErrSize)) /\
  ((size <= eff_limit limit)%Z ->
     Forall (fun p => p <> []) (fst r) /\
     concat (fst r) = filter_referrers (clean_index items) a /\
     NoDup (map fst (concat (fst r))) /\
     (snd r = Done \/ (snd r = ErrCallback /\ cb_fail 0%nat = true /\ fst r <> [])) /\
     (cb_fail 0%nat = false -> snd r = Done)).
Proof.
  unfold tag_schema. cbn [negb]. split.
  - intro H. apply limit_size_spec in H. now rewrite H.
  - intro H. assert (E : limit_size_rejects limit size = false).
    { destruct (limit_size_rejects limit size) eqn:E; [|reflexivity]. apply limit_size_spec in E. lia. }
    rewrite E.
    pose proof (filter_referrers_NoDup (clean_index items) a (proj1 (clean_index_aux_spec [] items))) as ND.
    destruct (filter_referrers (clean_index items) a) as [|x f] eqn:F.
    + simpl. repeat split; auto; constructor.
    + destruct (cb_fail 0%nat) eqn:C; simpl; rewrite app_nil_r.
      * split; [repeat constructor; discriminate|]. split; [reflexivity|]. split; [exact ND|]. split; [|discriminate].
        right. split; [reflexivity|]. split; [reflexivity|discriminate].
      * split; [repeat constructor; discriminate|]. split; [reflexivity|]. split; [exact ND|]. split; [now left|reflexivity].
Qed.

(* what the cleaned index holds: every non-empty name of the index exactly once, with the
   attributes of its first entry; nothing else *)
Lemma clean_index_spec items :
  NoDup (map fst (clean_index items)) /\
  (forall x, In x (clean_index items) -> In x items /\ fst x <> []) /\
  (forall x, In x items -> fst x <> [] -> In (fst x) (map fst (clean_index items))) /\
  (NoDup (map fst items) -> (forall x, In x items -> fst x <> []) -> clean_index items = items).
Proof.
  unfold clean_index. destruct (clean_index_aux_spec [] items) as (N & A & B).
  split; [exact N|]. split; [intros x H; destruct (A x H) as (A1 & A2 & _); auto|].
  split; [intros x H Hne; apply B; auto|].
  assert (G : forall (l : list item) seen, NoDup (map fst l) -> (forall x, In x l -> fst x <> []) ->
              (forall x, In x l -> ~ In (fst x) seen) -> clean_index_aux seen l = l).
  { clear. induction l as [|it r IH]; intros seen Hnd Hne Hs; cbn [clean_index_aux]; [reflexivity|].
    inversion Hnd as [|? ? Hn Hd]; subst.
    rewrite (proj2 (index_entry_kept (fst it) seen)) by (split; [apply Hne|apply Hs]; now left).
    f_equal. simpl in Hnd. apply IH; auto.
    - intros x Hx. apply Hne. now right.
    - intros x Hx [Eq|Hi].
      + apply Hn. rewrite Eq. now apply in_map.
      + apply (Hs x); [now right|exact Hi]. }
  intros Hnd Hne. apply G; auto.
Qed.

Lemma tag_schema_absent limit size items a cb_fail :
  tag_schema limit false size items a cb_fail = ([], Done).
Proof. reflexivity. Qed.

(* whatever the callback does: a listing that would end Done having delivered X ends Done with X,
   or with the callback's error having delivered a prefix of X.  The premise has the shape of what
   the listing theorems conclude; R is whatever else they say. *)
Lemma loop_any_callback serve resolve c cb_fail fuel i k u last X (R : Prop) :
  let t0 := loop serve resolve (fun _ => false) c fuel i k u last in
  let t := loop serve resolve cb_fail c fuel i k u last in
  t_out t0 = Done /\ concat (t_pages t0) = X /\ R ->
  (t_out t = Done /\ concat (t_pages t) = X) \/
  (t_out t = ErrCallback /\ exists rest', X = concat (t_pages t) ++ rest').
Proof.
  cbv zeta. intros (O & P & _).
  destruct (loop_fail_prefix serve resolve c cb_fail fuel i k u last) as [[E _]|(n & m & O1 & _ & P1 & _)].
  - left. rewrite E. auto.
  - right. split; [exact O1|]. rewrite P1, <- P. eexists. now rewrite <- concat_app, firstn_skipn.
Qed.

(* from the unknown state: a successful API listing; or "unsupported" before any page was
   delivered, and the tag schema takes over; or the API's error *)
Lemma wrap_unknown cbu (api : trace) ts :
  let w := referrers_wrap RUnknown cbu api ts in
  (t_out api = Done /\ w = mkW (t_reqs api) (t_pages api) Done false RSupported) \/
  (t_out api <> Done /\ unsupported_class cbu (t_out api) = true /\ t_pages api = [] /\
   w = mkW (t_reqs api) (fst (ts 0%nat)) (snd (ts 0%nat)) true RUnsupported) \/
  (t_out api <> Done /\ w = mkW (t_reqs api) (t_pages api) (t_out api) false RUnknown).
Proof.
  assert (NP : no_pages api = true -> t_pages api = []).
  { unfold no_pages. destruct (t_pages api); [reflexivity|discriminate]. }
  unfold referrers_wrap. destruct (t_out api) eqn:O; [now left|..]; right;
    (destruct (unsupported_class cbu _ && no_pages api) eqn:U;
     [left; apply andb_true_iff in U as [U N]|right]); repeat split; auto; discriminate.
Qed.

Lemma wrap_spec st cbu (api : trace) ts :
  let w := referrers_wrap st cbu api ts in
  ((w_fell_back w = false /\ w_pages w = t_pages api /\ w_out w = t_out api) \/
   (w_fell_back w = true /\ w_pages w = fst (ts 0%nat) /\ w_out w = snd (ts 0%nat) /\
    (st = RUnknown -> t_pages api = [] /\ unsupported_class cbu (t_out api) = true))) /\
  (st <> RUnknown -> w_state w = st) /\
  (st = RUnknown ->
     (w_state w = RSupported <-> t_out api = Done) /\
     (w_state w = RUnsupported <-> w_fell_back w = true) /\
     (w_state w = RUnknown <-> (t_out api <> Done /\ w_fell_back w = false))) /\
  (st = RUnsupported -> w_fell_back w = true) /\
  (st = RSupported -> w_fell_back w = false).
Proof.
  destruct st; cbv zeta.
  - destruct (wrap_unknown cbu api ts) as [(O & ->)|[(O & U & P & ->)|(O & ->)]];
      cbn [w_fell_back w_pages w_out w_state]; intuition congruence.
  - cbn [referrers_wrap w_fell_back w_pages w_out w_state]. intuition congruence.
  - cbn [referrers_wrap w_fell_back w_pages w_out w_state]. intuition congruence.
Qed.

(* a failing callback is the result of Referrers and nothing is delivered after it *)
Lemma wrap_callback_error serve resolve cb_fail c fuel u st cbu ts :
  st <> RUnsupported ->
  let api := loop serve resolve cb_fail c fuel 0 0 u [] in
  t_out api = ErrCallback ->
  let w := referrers_wrap st cbu api ts in
  w_out w = ErrCallback /\ w_pages w = t_pages api /\ w_fell_back w = false.
Proof.
  intros Hst api O. cbv zeta.
  pose proof (loop_calls serve resolve c cb_fail fuel 0%nat 0%nat u []) as C. cbv zeta in C.
  fold api in C. rewrite O in C.
  unfold referrers_wrap. destruct st; [|auto|contradiction].
  rewrite O. cbn [unsupported_class]. unfold no_pages.
  destruct (t_pages api) as [|p ps]; [simpl in C; contradiction|].
  rewrite andb_false_r. auto.
Qed.

(* Content-Type: compared verbatim with the index media type *)
Lemma handle_ctype c rs :
  c_kind c = KReferrers -> rs_status rs = 200 ->
  (rs_ctype rs <> mediaTypeImageIndex -> handle c rs = inl ErrCType) /\
  (forall p, handle c rs = inr p -> rs_ctype rs = mediaTypeImageIndex).
Proof.
  intros K S. unfold handle, ctype_bad. rewrite S, K. change (200 =? 200) with true. cbn [negb]. split.
  - intro H. now rewrite (str_eqb_neq _ _ H).
  - intros p H. destruct (str_eqb (rs_ctype rs) mediaTypeImageIndex) eqn:E; [now apply str_eqb_spec|discriminate].
Qed.

(* a 404 of the referrers endpoint is "unsupported" unless it says NAME_UNKNOWN *)
Lemma handle_404 c rs :
  c_kind c = KReferrers -> rs_status rs = 404 ->
  handle c rs = inl (if rs_name_unknown rs then ErrStatus else ErrUnsupported).
Proof.
  intros K S. unfold handle, status_error. rewrite S, K. simpl. now destruct (rs_name_unknown rs).
Qed.

(* the registry of the witnesses below: what the code did before a fix, what it does for rel="first" *)
Definition wit_L : list item := [(b "a", b "t"); (b "b", b "t"); (b "c", b "t")].
Definition wit_ds (i : nat) : decision := mkDec 1 [] false [] [] 10 0.
Definition wit_render (i : nat) (base tgt : url) : str := qget_s k_last (u_query tgt).
Definition wit_resolve (base : url) (t : str) : option url := Some (link_url CLast (u_path base) (wit_ds 0) base t).
Definition wit_cfg : cfg := mkCfg KReferrers 0 0 [].
Definition wit_u : url := mkUrl (b "/v2/r/referrers/d") [].
Definition wit_ts (cb_fail : nat -> bool) (k : nat) :=
  tag_schema 0 true 100 wit_L [] (fun j => cb_fail (k + j)%nat).

(* before the fix: the callback fails on its first invocation with an error of the
   unsupported class; Referrers swallowed it, ran the tag schema, invoked the callback again
   (same referrer "a" delivered twice) and returned success *)
Lemma wrap_prefix_refuted :
  exists (cb_fail : nat -> bool),
    let api := loop (reg_serve KReferrers CLast (fun _ p => p) (fun _ => true) wit_L 5 wit_ds wit_render (fun _ => [])) wit_resolve
                    cb_fail wit_cfg 9 0 0 wit_u [] in
    let w := referrers_wrap_prefix RUnknown true api (wit_ts cb_fail) in
    t_out api = ErrCallback /\ w_out w = Done /\ w_state w = RUnsupported /\
    ~ NoDup (map fst (concat (w_pages w))).
Proof.
  exists (fun k => (k =? 0)%nat). vm_compute. repeat split; try reflexivity.
  intro H. inversion H as [|x l Hn _]; subst. apply Hn. simpl. auto.
Qed.

(* the same scenario with the fixed wrapper *)
Lemma wrap_fixed_witness :
  let cb_fail := fun k => (k =? 0)%nat in
  let api := loop (reg_serve KReferrers CLast (fun _ p => p) (fun _ => true) wit_L 5 wit_ds wit_render (fun _ => [])) wit_resolve
                  cb_fail wit_cfg 9 0 0 wit_u [] in
  let w := referrers_wrap RUnknown true api (wit_ts cb_fail) in
  w_out w = ErrCallback /\ w_state w = RUnknown /\ map (map fst) (w_pages w) = [[b "a"]].
Proof. vm_compute. repeat split. Qed.

(* a registry that is legal per RFC 8288 but puts a rel="first" link-value before the next
   link: the client follows the first link-value, re-reads the first page and never ends *)
Definition relfirst_serve (i : nat) (rq : url) : response :=
  let rs := reg_serve KTags CLast (fun _ p => p) (fun _ => true) wit_L 5 wit_ds wit_render (fun _ => b "; rel=""next""") i rq in
  match rs_links rs with
  | [] => rs
  | l :: more =>
    mkResp (rs_status rs) (rs_name_unknown rs) (rs_ctype rs) (rs_json_ok rs) (rs_doc_len rs) (rs_total_len rs)
           (rs_items rs) ((b "<>; rel=""first"", " ++ l) :: more) (rs_fhdr rs) (rs_fann rs)
  end.

Lemma link_rel_first_refuted :
  exists fuel,
    let t := loop relfirst_serve wit_resolve (fun _ => false) (mkCfg KTags 0 0 []) fuel 0 0
                  (mkUrl (b "/v2/r/tags/list") []) [] in
    t_out t = OutOfFuel /\ ~ NoDup (map fst (concat (t_pages t))) /\
    (* although every response carried the right next link *)
    (forall rq, In rq (t_reqs t) -> exists pre, rs_link (relfirst_serve 0 rq) =
         pre ++ c_lt :: b "a" ++ c_gt :: b "; rel=""next""").
Proof.
  exists 4%nat. cbv zeta. split; [vm_compute; reflexivity|]. split.
  - vm_compute. intro H. inversion H as [|x l Hn _]; subst. apply Hn. simpl. auto.
  - intros rq H. vm_compute in H.
    repeat (destruct H as [<-|H]; [exists (b "<>; rel=""first"", "); vm_compute; reflexivity|]).
    contradiction.
Qed.

(* a known capability is returned as is; from the unknown state the answer "unsupported" is
   given exactly for the responses that Referrers itself reads as "no referrers API", and
   "supported" only for responses it accepts as referrers responses *)
Lemma ping_spec st rs c :
  c_kind c = KReferrers ->
  (st = RSupported -> ping st rs = (st, Some true)) /\
  (st = RUnsupported -> ping st rs = (st, Some false)) /\
  (st = RUnknown ->
     (snd (ping st rs) = Some false <->
        (handle c rs = inl ErrUnsupported \/ handle c rs = inl ErrCType)) /\
     (snd (ping st rs) = Some true <-> (rs_status rs = 200 /\ rs_ctype rs = mediaTypeImageIndex)) /\
     (fst (ping st rs) = RUnsupported <-> snd (ping st rs) = Some false) /\
     (fst (ping st rs) = RSupported <-> snd (ping st rs) = Some true) /\
     (fst (ping st rs) = RUnknown <-> snd (ping st rs) = None)).
Proof.
  intro K. split; [intros ->; reflexivity|]. split; [intros ->; reflexivity|]. intros ->.
  assert (CT : ctype_bad c rs = negb (str_eqb (rs_ctype rs) mediaTypeImageIndex)) by (unfold ctype_bad; now rewrite K).
  unfold ping.
  destruct (handle_cases c rs) as [(S & E)|[(S & B & E)|[(S & B & _ & E)|(S & B & _ & p & E)]]]; rewrite E.
  - (* not 200: the same reading of a 404 *)
    unfold status_error. rewrite K, (proj2 (N.eqb_neq _ _) S).
    destruct (N.eqb_spec (rs_status rs) 404) as [S4|S4]; cbn [andb];
      [destruct (rs_name_unknown rs); cbn [negb]|]; cbn [fst snd]; intuition congruence.
  - rewrite CT in B. apply negb_true_iff in B. rewrite S, B. cbn [N.eqb Pos.eqb fst snd].
    assert (rs_ctype rs <> mediaTypeImageIndex) by (intros X; rewrite X, str_eqb_refl in B; discriminate).
    intuition congruence.
  - (* 200 and the index media type, whatever the document *)
    rewrite CT in B. apply negb_false_iff in B. rewrite S, B. apply str_eqb_spec in B. cbn [N.eqb Pos.eqb fst snd].
    intuition congruence.
  - rewrite CT in B. apply negb_false_iff in B. rewrite S, B. apply str_eqb_spec in B. cbn [N.eqb Pos.eqb fst snd].
    intuition congruence.
Qed.

(* unknown capability, registry with the referrers API: the listing of C15_filter, and the
   capability becomes "supported" *)
Theorem referrers_unknown_with_api :
  forall (L : list item) (cap : nat) (ds : nat -> decision)
         (render : nat -> url -> url -> str) (trailer : nat -> str)
         (resolve : url -> str -> option url) (c : cfg) (cu : cursor) (npath : nat -> str -> str) (vis : item -> bool)
         (path : str) (fuel : nat) cbu ts,
    cursor_ok cu ->
    c_kind c = KReferrers ->
    NoDup (map fst L) -> (forall it, In it L -> fst it <> []) ->
    (forall i base x, In x (map fst L) ->
       contains c_gt (render i base (link_target ds cu npath i base x)) = false) ->
    (forall i base x, In x (map fst L) ->
       resolve base (render i base (link_target ds cu npath i base x)) = Some (link_target ds cu npath i base x)) ->
    (forall i, (Z.of_N (d_doc_len (ds i)) <= eff_limit (c_limit c))%Z) ->
    (forall i, qget k_at (d_extra (ds i)) = None) ->
    (length L < fuel)%nat ->
    let api := loop (reg_serve KReferrers cu npath vis L cap ds render trailer) resolve (fun _ => false) c
                    fuel 0 0 (mkUrl path (referrers_query (c_at c))) [] in
    let w := referrers_wrap RUnknown cbu api ts in
    w_out w = Done /\ concat (w_pages w) = filter_referrers (filter vis L) (c_at c) /\
    w_state w = RSupported /\ w_fell_back w = false.
Proof.
  intros L cap ds render trailer resolve c cu npath vis path fuel cbu ts Hcu K Hnd Hne Hgt Hres Hfit Hex Hfuel.
  destruct (referrers_exactly_once L cap ds render trailer resolve c cu npath vis path fuel Hcu K Hnd Hne Hgt Hres Hfit Hex Hfuel)
    as (O & P & _).
  cbv zeta. unfold referrers_wrap. rewrite O. cbn [w_out w_pages w_state w_fell_back]. auto.
Qed.

(* unknown capability, registry without the referrers API (every request answered 404
   without NAME_UNKNOWN) that holds the referrers index under the referrers tag: one request
   to the API, then the tag schema; the capability becomes "unsupported" *)
Theorem referrers_unknown_without_api :
  forall (serve : nat -> url -> response) (resolve : url -> str -> option url) (c : cfg)
         (cb_fail : nat -> bool) (u : url) (fuel : nat) cbu found size items,
    c_kind c = KReferrers -> (0 < fuel)%nat ->
    (forall i rq, rs_status (serve i rq) = 404 /\ rs_name_unknown (serve i rq) = false) ->
    let api := loop serve resolve cb_fail c fuel 0 0 u [] in
    let ts := fun k => tag_schema (c_limit c) found size items (c_at c) (fun j => cb_fail (k + j)%nat) in
    let w := referrers_wrap RUnknown cbu api ts in
    length (w_reqs w) = 1%nat /\ w_fell_back w = true /\ w_state w = RUnsupported /\
    w_pages w = fst (ts 0%nat) /\ w_out w = snd (ts 0%nat).
Proof.
  intros serve resolve c cb_fail u fuel cbu found size items K Hf H404. cbv zeta.
  destruct fuel as [|fuel]; [lia|]. cbn [loop]. cbv zeta.
  destruct (H404 0%nat (mk_request c u [])) as [S N].
  assert (E : handle c (serve 0%nat (mk_request c u [])) = inl ErrUnsupported).
  { rewrite (handle_404 c _ K S). now rewrite N. }
  rewrite E. unfold referrers_wrap. cbn [t_out unsupported_class no_pages t_pages andb t_reqs w_reqs w_fell_back w_state w_pages w_out length].
  auto.
Qed.

(* a concrete registry and a toy net/url: the hypotheses of the listing theorems are satisfiable *)
Definition ex_L : list item := [(b "a", b "t1"); (b "b", b "t2"); (b "c", b "t1"); (b "d", b "t1")].
Definition ex_ds (i : nat) : decision :=
  mkDec (1 + Nat.modulo i 2) [(b "x", VS (b "1"))] (Nat.even i) [] (if Nat.even i then [] else b "foo,artifactType") 10 1.
(* link text = the cursor; the toy resolver rebuilds the target from it *)
Definition ex_render (i : nat) (base tgt : url) : str := qget_s k_last (u_query tgt).
Definition ex_resolve (base : url) (t : str) : option url := Some (link_url CLast (u_path base) (ex_ds 0) base t).
Definition ex_cfg (k : kind) : cfg := mkCfg k 3 100 (b "t1").

Lemma example_hypotheses :
  NoDup (map fst ex_L) /\ (forall it, In it ex_L -> fst it <> []) /\
  (forall i base x, In x (map fst ex_L) ->
     contains c_gt (ex_render i base (link_target ex_ds CLast (fun _ p => p) i base x)) = false) /\
  (forall i base x, In x (map fst ex_L) ->
     ex_resolve base (ex_render i base (link_target ex_ds CLast (fun _ p => p) i base x)) = Some (link_target ex_ds CLast (fun _ p => p) i base x)) /\
  (forall i, (Z.of_N (d_doc_len (ex_ds i)) <= eff_limit (c_limit (ex_cfg KTags)))%Z) /\
  (forall i, qget k_at (d_extra (ex_ds i)) = None).
Proof.
  split. { repeat constructor; simpl; intuition discriminate. }
  split. { simpl. intros it H. repeat (destruct H as [<-|H]; [discriminate|]). contradiction. }
  split. { intros i base x H. unfold ex_render, link_target, link_url, qget_s. cbn [u_query qget ckey cenc]. rewrite str_eqb_refl.
           simpl in H. repeat (destruct H as [<-|H]; [reflexivity|]). contradiction. }
  split. { intros i base x _. unfold ex_resolve, ex_render, link_target, link_url, qget_s. cbn [u_query qget ckey cenc].
           rewrite str_eqb_refl. reflexivity. }
  split. { intro i. vm_compute. discriminate. }
  intro i. reflexivity.
Qed.

(* an opaque cursor: key "token", value "p;" ++ name, next pages under <path>/~p *)
(* entry "c" is not shown: with one-item pages its page is empty although a link follows *)
Definition ex_vis (it : item) : bool := negb (str_eqb (fst it) (b "c")).
Definition ex_cu : cursor := CToken (b "token") (b "p;").
Definition ex_npath (i : nat) (p : str) : str := b "/v2/r/tags/list/~p".
Definition ex_render_tok (i : nat) (base tgt : url) : str := qget_s (b "token") (u_query tgt).
Definition ex_resolve_tok (base : url) (t : str) : option url :=
  Some (link_url ex_cu (ex_npath 0 []) (ex_ds 0) base (strip (b "p;") t)).

Lemma example_token_hypotheses :
  cursor_ok ex_cu /\
  (forall i base x, In x (map fst ex_L) ->
     contains c_gt (ex_render_tok i base (link_target ex_ds ex_cu ex_npath i base x)) = false) /\
  (forall i base x, In x (map fst ex_L) ->
     ex_resolve_tok base (ex_render_tok i base (link_target ex_ds ex_cu ex_npath i base x)) = Some (link_target ex_ds ex_cu ex_npath i base x)).
Proof.
  split. { simpl. repeat split; discriminate. }
  split. { intros i base x H. unfold ex_render_tok, link_target, link_url, qget_s. cbn [u_query qget ckey cenc ex_cu].
           rewrite str_eqb_refl. simpl in H. repeat (destruct H as [<-|H]; [reflexivity|]). contradiction. }
  intros i base x _. unfold ex_resolve_tok, ex_render_tok, link_target, link_url, qget_s. cbn [u_query qget ckey cenc ex_cu].
  rewrite str_eqb_refl. rewrite strip_app. reflexivity.
Qed.

(* a toy stream decoder: the value is everything up to the first '}' *)
Fixpoint ex_decode (s : str) : option str :=
  match s with
  | [] => None
  | ch :: s' => if ch =? 125 then Some [ch]
               else match ex_decode s' with Some v => Some (ch :: v) | None => None end
  end.

Lemma example_document : is_document str ex_decode (b "{ab}") (b "{ab}").
Proof.
  split.
  - intro tail. reflexivity.
  - intros k H. simpl in H. do 4 (destruct k as [|k]; [reflexivity|]). lia.
Qed.

(* a pair survives url.ParseQuery only without ';' (59) in its value *)
Definition wit_parses (kv : str * qval) : bool :=
  match snd kv with VS v => negb (contains 59 v) | VN _ => true end.

(* the registry continues with token=p;b; with a page size configured the request built by
   the old code has lost the cursor (the registry starts again from the top), the fixed code
   keeps it; without a page size both forward the link untouched *)
Lemma lossy_query_refuted :
  let link := mkUrl (b "/v2/r/tags/list") [(b "token", VS (b "p;b")); (b "x", VS (b "1"))] in
  let cu := CToken (b "token") (b "p;") in
  cursor_read cu (u_query (mk_request_prefix wit_parses (mkCfg KTags 2 0 []) link [])) = [] /\
  cursor_read cu (u_query (mk_request (mkCfg KTags 2 0 []) link [])) = b "b" /\
  mk_request_prefix wit_parses (mkCfg KTags 0 0 []) link [] = link.
Proof. vm_compute. repeat split. Qed.

(* never more than the limit is read; with the Content-Length of the body (the callers require a
   known one) exactly the bodies over the limit are refused and a body that is not refused is
   read completely -- never truncated *)
Lemma digest_probe_spec limit clen body :
  (Z.of_nat (length (fst (digest_probe limit clen body))) <= eff_limit limit)%Z /\
  (clen = Z.of_nat (length body) ->
     (snd (digest_probe limit clen body) = true <-> (eff_limit limit < Z.of_nat (length body))%Z) /\
     (snd (digest_probe limit clen body) = true -> fst (digest_probe limit clen body) = []) /\
     (snd (digest_probe limit clen body) = false -> fst (digest_probe limit clen body) = body)).
Proof.
  pose proof (eff_limit_pos limit) as Hp. unfold digest_probe.
  destruct (eff_limit limit <? clen)%Z eqn:E; cbn [fst snd].
  - apply Z.ltb_lt in E. split; [simpl; lia|]. intros ->. repeat split; auto; discriminate.
  -
    apply Z.ltb_ge in E. split; [apply seen_le|].
    intros ->. split; [split; [discriminate|lia]|]. split; [discriminate|].
    intros _. now apply seen_all.
Qed.

(* the first version of the fix read one byte more than MaxMetadataBytes of a larger body *)
Lemma digest_probe_v1_refuted :
  exists limit body, (eff_limit limit < Z.of_nat (length (fst (digest_probe_v1 limit body))))%Z.
Proof. exists 3%Z, (b "abcdef"). vm_compute. reflexivity. Qed.

(* registry.Tags / registry.Repositories / registry.Referrers / Repository.Predecessors: a
   listing that ends Done is collected whole *)
Lemma collect_all_done t X (R : Prop) :
  t_out t = Done /\ concat (t_pages t) = X /\ R -> collect_all t = (Done, X).
Proof. intros (O & P & _). unfold collect_all. now rewrite O, P. Qed.
