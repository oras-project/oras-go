From Oras Require Import Base.Prelude Model.Reference Model.RefOps Proofs.Reference.

(* the request that carries the caller's reference *)
Definition ref_request (op : refop) (plain : bool) (r : reference) : str * str :=
  match op with
  | OpMResolve => (m_head, url_manifest plain r)
  | OpMFetchRef => (m_get, url_manifest plain r)
  | OpTag | OpPushRef => (m_put, url_manifest plain r)
  | OpBResolve => (m_head, url_blob plain r)
  | OpBFetchRef => (m_get, url_blob plain r)
  end.

Section Avail.
Variable avail : str -> bool.
Notation valid_digest := (Reference.valid_digest avail).
Notation repo_parse := (Reference.repo_parse avail).
Notation op_requests := (RefOps.op_requests avail).
Notation wf_ref := (wf_ref avail).

Lemma op_requests_use_resolved :
  forall vr op plain breg brepo s d reqs,
    ok_registry vr breg -> valid_repository brepo = true ->
    op_requests vr op plain breg brepo s d = Some reqs ->
    exists r, repo_parse vr breg brepo s = Some r /\
      r_registry r = breg /\ r_repository r = brepo /\
      In (ref_request op plain r) reqs /\
      Forall (fun mu => snd mu = url_manifest plain r \/ snd mu = url_blob plain r \/
                        snd mu = url_manifest plain (mkRef breg brepo d)) reqs /\
      after_last c_slash (snd (ref_request op plain r)) = r_reference r.
Proof.
  intros vr op plain breg brepo s d reqs Hbr Hbp H. unfold RefOps.op_requests in H.
  destruct (repo_parse vr breg brepo s) as [r|] eqn:Hp; [|discriminate].
  destruct (repo_parse_result_in_base avail vr breg brepo s r Hp) as (Hreg & Hrepo & Hne & Hv).
  exists r. split; [reflexivity|]. split; [exact Hreg|]. split; [exact Hrepo|].
  assert (Hwf : wf_ref vr r) by (unfold wf_ref; rewrite Hreg, Hrepo; auto).
  destruct (url_slot avail vr plain r Hwf Hne) as (_ & _ & Hm & Hb & _).
  destruct op; cbn [op_requests_resolved] in H;
    try (destruct (valid_digest (r_reference r)); [|discriminate]);
    injection H as <-; cbn [ref_request snd In]; rewrite <- Hreg, <- Hrepo; auto 7.
Qed.

Lemma op_requests_forms_agree :
  forall vr op plain breg brepo d0,
    ok_registry vr breg -> valid_repository brepo = true ->
    (forall t, valid_tag t = true ->
       op_requests vr op plain breg brepo (breg ++ [c_slash] ++ brepo ++ [c_colon] ++ t) d0
       = op_requests vr op plain breg brepo t d0) /\
    (forall d, valid_digest d = true ->
       op_requests vr op plain breg brepo (breg ++ [c_slash] ++ brepo ++ [c_at] ++ d) d0
       = op_requests vr op plain breg brepo d d0 /\
       (forall junk, contains c_slash junk = false -> contains c_at junk = false ->
         op_requests vr op plain breg brepo (junk ++ [c_at] ++ d) d0
         = op_requests vr op plain breg brepo d d0) /\
       (forall junk, contains c_at junk = false ->
         op_requests vr op plain breg brepo (breg ++ [c_slash] ++ brepo ++ [c_colon] ++ junk ++ [c_at] ++ d) d0
         = op_requests vr op plain breg brepo d d0)).
Proof.
  intros vr op plain breg brepo d0 Hr Hp. unfold RefOps.op_requests. split.
  - intros t Ht. rewrite (repo_parse_full_tag avail vr breg brepo Hr Hp t Ht), (repo_parse_tag avail vr breg brepo t Ht). reflexivity.
  - intros d Hd. rewrite (repo_parse_full_digest avail vr breg brepo Hr Hp d Hd), (repo_parse_digest avail vr breg brepo d Hd).
    split; [reflexivity|]. split.
    + intros junk Hs Ha.
      rewrite (repo_parse_tag_at_digest avail vr breg brepo junk d Hs Ha Hd). reflexivity.
    + intros junk Ha.
      rewrite (repo_parse_full_tag_digest avail vr breg brepo Hr Hp junk d Ha Hd). reflexivity.
Qed.
End Avail.
