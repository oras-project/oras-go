(* C06 -- the sequential stores of Model/Stores.v: association maps and graph.Memory, the memory and
   OCI stores refine content map + tag map, the file store's invariant and its four kinds of write,
   the clauses of the property for memory and OCI store, witnesses, ties to the Go source. *)
From Oras Require Import Base.Prelude Generated.GC06 Model.Stores Model.StoresConc Model.StoresConcFile.

Lemma gkey_eqb_spec a c : gkey_eqb a c = true <-> a = c.
Proof.
  destruct a as [[a1 a2] a3], c as [[c1 c2] c3]; simpl.
  rewrite !andb_true_iff, !N.eqb_eq. split.
  - intros [[-> ->] ->]. reflexivity.
  - intro H. injection H as -> -> ->. auto.
Qed.

Lemma ref_eqb_spec a c : ref_eqb a c = true <-> a = c.
Proof.
  destruct a, c; simpl; try rewrite N.eqb_eq; split; intro H;
    try discriminate; try congruence; try reflexivity.
Qed.

Lemma eq_target_spec d' k : eq_target d' k = true <-> d_dig d' = k_dig k.
Proof. unfold eq_target. apply N.eqb_eq. Qed.

Lemma Neqb_spec (a c : N) : (a =? c) = true <-> a = c.
Proof. apply N.eqb_eq. Qed.

Section AMapFacts.
  Context {K V : Type} (eqb : K -> K -> bool).
  Hypothesis eqb_spec : forall a c, eqb a c = true <-> a = c.

  Lemma eqb_refl (a : K) : eqb a a = true.
  Proof. now apply eqb_spec. Qed.

  Lemma eqb_neq (a c : K) : a <> c -> eqb a c = false.
  Proof. intro H. destruct (eqb a c) eqn:E; auto. apply eqb_spec in E. contradiction. Qed.

  Lemma eqb_dec (a c : K) : {a = c} + {a <> c}.
  Proof.
    destruct (eqb a c) eqn:E.
    - left. now apply eqb_spec.
    - right. intro H. apply eqb_spec in H. congruence.
  Qed.

  Lemma get_put_eq k (v : V) m : get eqb k (put eqb k v m) = Some v.
  Proof.
    induction m as [|[k' v'] m IH]; simpl.
    - now rewrite eqb_refl.
    - destruct (eqb k k') eqn:E; simpl; [now rewrite eqb_refl | now rewrite E].
  Qed.

  Lemma get_put_neq k k' (v : V) m : k <> k' -> get eqb k (put eqb k' v m) = get eqb k m.
  Proof.
    intro H. induction m as [|[k2 v2] m IH]; simpl.
    - now rewrite (eqb_neq _ _ H).
    - destruct (eqb k' k2) eqn:E; simpl.
      + apply eqb_spec in E. subst k2. now rewrite (eqb_neq _ _ H).
      + now rewrite IH.
  Qed.

  Lemma put_same k (v : V) m : get eqb k m = Some v -> put eqb k v m = m.
  Proof.
    induction m as [|[k' v'] m IH]; simpl; [discriminate|].
    destruct (eqb k k') eqn:E.
    - apply eqb_spec in E. subst. intro H. injection H as ->. reflexivity.
    - intro H. now rewrite IH.
  Qed.

  Lemma get_put_mono k k' (v : V) m : get eqb k m <> None -> get eqb k (put eqb k' v m) <> None.
  Proof.
    intro H. destruct (eqb_dec k k') as [->|Hne].
    - rewrite get_put_eq. discriminate.
    - now rewrite get_put_neq.
  Qed.

  Lemma is_some_put_mono k k' (v : V) m :
    is_some (get eqb k m) = true -> is_some (get eqb k (put eqb k' v m)) = true.
  Proof.
    intro H. pose proof (get_put_mono k k' v m) as Hm. destruct (get eqb k (put eqb k' v m)); [reflexivity|].
    exfalso. apply Hm; [|reflexivity]. intro E. rewrite E in H. discriminate.
  Qed.

  Lemma get_del_eq k (m : list (K * V)) : get eqb k (del eqb k m) = None.
  Proof.
    induction m as [|[k' v'] m IH]; simpl; auto.
    destruct (eqb k k') eqn:E; simpl; auto. now rewrite E.
  Qed.

  Lemma get_del_neq k k' (m : list (K * V)) : k <> k' -> get eqb k (del eqb k' m) = get eqb k m.
  Proof.
    intro H. induction m as [|[k2 v2] m IH]; simpl; auto.
    destruct (eqb k' k2) eqn:E; simpl.
    - apply eqb_spec in E. subst k2. now rewrite (eqb_neq _ _ H).
    - now rewrite IH.
  Qed.

  Lemma get_put k' k (v : V) m : get eqb k' (put eqb k v m) = if eqb k' k then Some v else get eqb k' m.
  Proof.
    destruct (eqb k' k) eqn:E.
    - apply eqb_spec in E. subst k'. apply get_put_eq.
    - apply get_put_neq. intros ->. now rewrite eqb_refl in E.
  Qed.

  Lemma get_del k' k (m : list (K * V)) : get eqb k' (del eqb k m) = if eqb k' k then None else get eqb k' m.
  Proof.
    destruct (eqb k' k) eqn:E.
    - apply eqb_spec in E. subst k'. apply get_del_eq.
    - apply get_del_neq. intros ->. now rewrite eqb_refl in E.
  Qed.

  Lemma del_absent k (m : list (K * V)) : get eqb k m = None -> del eqb k m = m.
  Proof.
    induction m as [|[k' v'] m IH]; simpl; auto.
    destruct (eqb k k') eqn:E; [discriminate|]. intro H. now rewrite IH.
  Qed.

  Lemma put_all (P : K -> V -> Prop) k v m :
    P k v -> (forall k' v', get eqb k' m = Some v' -> P k' v') ->
    forall k' v', get eqb k' (put eqb k v m) = Some v' -> P k' v'.
  Proof.
    intros Hn H k' v'. destruct (eqb_dec k' k) as [->|Hne].
    - rewrite get_put_eq. intro E. now injection E as <-.
    - rewrite get_put_neq by exact Hne. apply H.
  Qed.

  Lemma del_all (P : K -> V -> Prop) k (m : list (K * V)) :
    (forall k' v', get eqb k' m = Some v' -> P k' v') ->
    forall k' v', get eqb k' (del eqb k m) = Some v' -> P k' v'.
  Proof.
    intros H k' v'. destruct (eqb_dec k' k) as [->|Hne].
    - rewrite get_del_eq. discriminate.
    - rewrite get_del_neq by exact Hne. apply H.
  Qed.

  Definition put_new k (v : V) (ok : bool) m :=
    match get eqb k m with Some _ => m | None => if ok then put eqb k v m else m end.

  Lemma get_put_new k' k (v : V) ok m :
    get eqb k' (put_new k v ok m) =
    if eqb k k' && negb (is_some (get eqb k' m)) && ok then Some v else get eqb k' m.
  Proof.
    unfold put_new. destruct (eqb k k') eqn:Ek; cbn [andb].
    - apply eqb_spec in Ek. subst k'. destruct (get eqb k m) eqn:E; cbn [is_some negb andb]; [exact E|].
      destruct ok; [apply get_put_eq | exact E].
    - destruct (get eqb k m); [reflexivity|]. destruct ok; [|reflexivity].
      apply get_put_neq. intros ->. now rewrite eqb_refl in Ek.
  Qed.

  Lemma get_In k (v : V) m : get eqb k m = Some v -> In (k, v) m.
  Proof.
    induction m as [|[k' v'] m IH]; simpl; [discriminate|].
    destruct (eqb k k') eqn:E.
    - apply eqb_spec in E. subst. intro H. injection H as ->. now left.
    - intro H. right. auto.
  Qed.

  Lemma In_get k (v : V) m : NoDup (map fst m) -> In (k, v) m -> get eqb k m = Some v.
  Proof.
    induction m as [|[k' v'] m IH]; simpl; [tauto|].
    intros Hnd [H|H].
    - injection H as -> ->. now rewrite eqb_refl.
    - inversion Hnd as [|? ? Hni Hnd']; subst.
      destruct (eqb k k') eqn:E.
      + apply eqb_spec in E. subst. exfalso. apply Hni. apply in_map_iff. exists (k', v). auto.
      + auto.
  Qed.

  Lemma In_put_inv k (v : V) k0 v0 m : In (k, v) (put eqb k0 v0 m) -> (k, v) = (k0, v0) \/ In (k, v) m.
  Proof.
    induction m as [|[k' v'] m IH]; simpl.
    - intros [H|[]]. left. congruence.
    - destruct (eqb k0 k') eqn:E; simpl.
      + intros [H|H]; [left; congruence | right; now right].
      + intros [H|H]; [right; now left|]. destruct (IH H); auto.
  Qed.

  Lemma In_del_inv k (v : V) k0 m : In (k, v) (del eqb k0 m) -> In (k, v) m /\ k <> k0.
  Proof.
    induction m as [|[k' v'] m IH]; simpl; [tauto|].
    destruct (eqb k0 k') eqn:E; simpl.
    - intro H. destruct (IH H). split; auto.
    - intros [H|H].
      + injection H as -> ->. split; [now left|]. intro; subst. rewrite eqb_refl in E. discriminate.
      + destruct (IH H). split; auto.
  Qed.

  Lemma keys_put k (v : V) m x : In x (map fst (put eqb k v m)) -> x = k \/ In x (map fst m).
  Proof.
    intro H. apply in_map_iff in H as ([k' v'] & <- & H). simpl.
    apply In_put_inv in H as [H|H]; [left; congruence | right]. apply in_map_iff. now exists (k', v').
  Qed.

  Lemma NoDup_put k (v : V) m : NoDup (map fst m) -> NoDup (map fst (put eqb k v m)).
  Proof.
    induction m as [|[k' v'] m IH]; simpl; intro H.
    - constructor; [tauto | constructor].
    - inversion H as [|? ? Hni Hnd]; subst.
      destruct (eqb k k') eqn:E; simpl.
      + apply eqb_spec in E. subst. now constructor.
      + constructor; auto. intro Hin. apply keys_put in Hin as [->|Hin]; auto.
        rewrite eqb_refl in E. discriminate.
  Qed.

  Lemma keys_del k (m : list (K * V)) x : In x (map fst (del eqb k m)) -> In x (map fst m).
  Proof.
    induction m as [|[k' v'] m IH]; simpl; auto.
    destruct (eqb k k'); simpl; intuition.
  Qed.

  Lemma NoDup_del k (m : list (K * V)) : NoDup (map fst m) -> NoDup (map fst (del eqb k m)).
  Proof.
    induction m as [|[k' v'] m IH]; simpl; intro H; auto.
    inversion H as [|? ? Hni Hnd]; subst.
    destruct (eqb k k'); simpl; auto. constructor; auto. intro Hin. apply Hni. eapply keys_del; eauto.
  Qed.

  Lemma mem_In (x : K) l : mem eqb x l = true <-> In x l.
  Proof.
    unfold mem. rewrite existsb_exists. split.
    - intros (y & Hy & E). apply eqb_spec in E. now subst.
    - intro H. exists x. split; auto. apply eqb_refl.
  Qed.

  Lemma In_set_add (x y : K) l : In y (set_add eqb x l) <-> y = x \/ In y l.
  Proof.
    unfold set_add. destruct (mem eqb x l) eqn:E.
    - apply mem_In in E. split; [auto|]. intros [->|H]; auto.
    - rewrite in_app_iff. simpl. intuition.
  Qed.

  Lemma In_set_del (x y : K) l : In y (set_del eqb x l) <-> In y l /\ y <> x.
  Proof.
    unfold set_del. rewrite filter_In. split.
    - intros [H1 H2]. split; auto. intro; subst. rewrite eqb_refl in H2. discriminate.
    - intros [H1 H2]. split; auto. rewrite eqb_neq; auto.
  Qed.
End AMapFacts.

Lemma is_nil_spec {A} (l : list A) : is_nil l = true <-> l = [].
Proof. destruct l; simpl; split; intro H; try discriminate; auto. Qed.

Section GetD.
  Context {K V : Type} (eqb : K -> K -> bool).
  Hypothesis eqb_spec : forall a c, eqb a c = true <-> a = c.
  Lemma getd_put_eq k (l : list V) m : getd eqb k (put eqb k l m) = l.
  Proof. unfold getd. now rewrite get_put_eq. Qed.
  Lemma getd_put_neq k k' (l : list V) m : k <> k' -> getd eqb k (put eqb k' l m) = getd eqb k m.
  Proof. intro H. unfold getd. now rewrite get_put_neq. Qed.
  Lemma getd_put_or_del k k' (l : list V) m :
    getd eqb k (if is_nil l then del eqb k' m else put eqb k' l m) = if eqb k k' then l else getd eqb k m.
  Proof.
    unfold getd. destruct (is_nil l) eqn:En.
    - apply is_nil_spec in En. subst l. rewrite (get_del eqb eqb_spec). now destruct (eqb k k').
    - rewrite (get_put eqb eqb_spec). now destruct (eqb k k').
  Qed.
End GetD.

Lemma verify_spec d c : verify d c = true -> b_hash c = d_dig d /\ b_len c = d_size d.
Proof.
  unfold verify. intro H. apply andb_true_iff in H as [A B]. apply N.eqb_eq in A, B. auto.
Qed.

(* What an operation does to the content map of a store that keys content by [key] (memory store:
   the graph key; OCI store: the digest): a Push stores new verified content, a Delete -- in a
   store that has one -- removes it, nothing else touches it. *)
Section ContentMap.
  Context {K : Type} (eqb : K -> K -> bool) (key : desc -> K) (candel : bool).
  Hypothesis eqb_spec : forall a c, eqb a c = true <-> a = c.

  Definition vmap (m : list (K * blob)) (o : op) : list (K * blob) :=
    match o with
    | Push d c => put_new eqb (key d) c (verify d c) m
    | Delete d => if candel then del eqb (key d) m else m
    | _ => m
    end.

  Lemma get_vmap k m o :
    get eqb k (vmap m o) =
    match o with
    | Push d c => if eqb (key d) k && negb (is_some (get eqb k m)) && verify d c then Some c else get eqb k m
    | Delete d => if candel && eqb (key d) k then None else get eqb k m
    | _ => get eqb k m
    end.
  Proof.
    destruct o; cbn [vmap]; try reflexivity.
    - apply (get_put_new eqb eqb_spec).
    - destruct candel; [|reflexivity]. cbn [andb]. destruct (eqb (key d) k) eqn:Ek.
      + apply eqb_spec in Ek. subst k. apply get_del_eq.
      + apply (get_del_neq eqb eqb_spec). intros ->. now rewrite (eqb_refl eqb eqb_spec) in Ek.
  Qed.

  Lemma vmap_keeps k c m o :
    match o with Delete d => candel && eqb (key d) k = false | _ => True end ->
    get eqb k m = Some c -> get eqb k (vmap m o) = Some c.
  Proof.
    intros Hd H. rewrite get_vmap. destruct o; auto.
    - rewrite H. cbn. now rewrite andb_false_r.
    - now rewrite Hd.
  Qed.

  Lemma vmap_absent k m o :
    (forall d c, o = Push d c -> key d <> k) -> get eqb k m = None -> get eqb k (vmap m o) = None.
  Proof.
    intros Ho H. rewrite get_vmap. destruct o; auto.
    - now rewrite (eqb_neq eqb eqb_spec _ _ (Ho d c eq_refl)).
    - now destruct (candel && eqb (key d) k).
  Qed.

  Lemma vmap_verified (P : K -> blob -> Prop) m o :
    (forall d c, verify d c = true -> P (key d) c) ->
    (forall k c, get eqb k m = Some c -> P k c) -> forall k c, get eqb k (vmap m o) = Some c -> P k c.
  Proof.
    intros HP H k c0. rewrite get_vmap. destruct o; try apply H.
    - destruct (eqb (key d) k) eqn:Ek; [|apply H]. destruct (negb _); [|apply H].
      destruct (verify d c) eqn:V; [|apply H]. apply eqb_spec in Ek. subst k.
      intro X. injection X as <-. now apply HP.
    - destruct (candel && eqb (key d) k); [discriminate | apply H].
  Qed.
End ContentMap.

Definition gdec := eqb_dec gkey_eqb gkey_eqb_spec.

Definition upd (S : gkey -> option (list gkey)) (k : gkey) (v : option (list gkey)) :=
  fun k' => if gkey_eqb k' k then v else S k'.

(* graph.Memory holds exactly the nodes on which S is defined, with S's successor lists (as sets)
   and their inverse *)
Record graph_inv (S : gkey -> option (list gkey)) (g : graph) : Prop := mkGI {
  gi_nodes : forall k, get gkey_eqb k (g_nodes g) = None <-> S k = None;
  gi_nodes_key : forall k d, get gkey_eqb k (g_nodes g) = Some d -> gk d = k;
  gi_succs : forall k, match S k with
                       | None => get gkey_eqb k (g_succs g) = None
                       | Some l => exists l', get gkey_eqb k (g_succs g) = Some l' /\
                                              forall x, In x l' <-> In x l
                       end;
  gi_preds : forall n p, In p (getd gkey_eqb n (g_preds g)) <-> exists l, S p = Some l /\ In n l }.

Lemma graph_inv_ext S S' g : (forall k, S k = S' k) -> graph_inv S g -> graph_inv S' g.
Proof.
  intros E [H1 H2 H3 H4]. constructor.
  - intro k. rewrite <- E. apply H1.
  - exact H2.
  - intro k. rewrite <- E. apply H3.
  - intros n p. rewrite H4. split; intros (l & A & B); exists l; [rewrite <- E | rewrite E]; auto.
Qed.

Lemma graph_inv_init : graph_inv (fun _ => None) graph_init.
Proof.
  constructor; simpl; intros; try tauto; try discriminate.
  unfold getd; simpl. split; [tauto|]. intros (l & A & _). discriminate.
Qed.

Lemma fold_set_add_In (ss : list gkey) acc x :
  In x (fold_left (fun acc sk => set_add gkey_eqb sk acc) ss acc) <-> In x acc \/ In x ss.
Proof.
  revert acc. induction ss as [|sk ss IH]; intro acc; simpl; [tauto|].
  rewrite IH. rewrite (In_set_add gkey_eqb gkey_eqb_spec). intuition.
Qed.

Definition index_fold (k : gkey) (ss : list gkey) (ps : list (gkey * list gkey)) :=
  fold_left (fun ps sk => put gkey_eqb sk (set_add gkey_eqb k (getd gkey_eqb sk ps)) ps) ss ps.

Lemma index_fold_In k ss ps n p :
  In p (getd gkey_eqb n (index_fold k ss ps)) <-> In p (getd gkey_eqb n ps) \/ (p = k /\ In n ss).
Proof.
  unfold index_fold. revert ps. induction ss as [|sk ss IH]; intro ps; simpl; [tauto|].
  rewrite IH. destruct (gdec n sk) as [->|Hne].
  - rewrite (getd_put_eq gkey_eqb gkey_eqb_spec). rewrite (In_set_add gkey_eqb gkey_eqb_spec). intuition.
  - rewrite (getd_put_neq gkey_eqb gkey_eqb_spec) by exact Hne. intuition. congruence.
Qed.

Definition remove_fold (k : gkey) (ss : list gkey) (ps : list (gkey * list gkey)) :=
  fold_left (fun ps sk =>
               let e := set_del gkey_eqb k (getd gkey_eqb sk ps) in
               if is_nil e then del gkey_eqb sk ps else put gkey_eqb sk e ps) ss ps.

Lemma remove_fold_In k ss ps n p :
  In p (getd gkey_eqb n (remove_fold k ss ps)) <-> In p (getd gkey_eqb n ps) /\ ~ (p = k /\ In n ss).
Proof.
  unfold remove_fold. revert ps. induction ss as [|sk ss IH]; intro ps; simpl; [tauto|].
  rewrite IH, (getd_put_or_del gkey_eqb gkey_eqb_spec). clear IH. destruct (gkey_eqb n sk) eqn:E.
  - apply gkey_eqb_spec in E. subst sk. rewrite (In_set_del gkey_eqb gkey_eqb_spec). intuition congruence.
  - assert (Hne : sk <> n) by (intros ->; now rewrite (eqb_refl gkey_eqb gkey_eqb_spec) in E). tauto.
Qed.

Lemma upd_eq S k v : upd S k v k = v.
Proof. unfold upd. now rewrite (eqb_refl gkey_eqb gkey_eqb_spec). Qed.
Lemma upd_neq S k v k' : k' <> k -> upd S k v k' = S k'.
Proof. intro H. unfold upd. now rewrite (eqb_neq gkey_eqb gkey_eqb_spec _ _ H). Qed.

Lemma g_index_nodes n ss g : g_nodes (g_index n ss g) = put gkey_eqb (gk n) n (g_nodes g).
Proof. reflexivity. Qed.
Lemma g_index_preds n ss g : g_preds (g_index n ss g) = index_fold (gk n) ss (g_preds g).
Proof. reflexivity. Qed.
Lemma g_index_succs n ss g :
  g_succs (g_index n ss g) =
  put gkey_eqb (gk n) (fold_left (fun acc sk => set_add gkey_eqb sk acc) ss []) (g_succs g).
Proof. reflexivity. Qed.
Lemma g_remove_nodes n g : g_nodes (g_remove n g) = del gkey_eqb (gk n) (g_nodes g).
Proof. reflexivity. Qed.
Lemma g_remove_preds n g :
  g_preds (g_remove n g) = remove_fold (gk n) (getd gkey_eqb (gk n) (g_succs g)) (g_preds g).
Proof. reflexivity. Qed.
Lemma g_remove_succs n g : g_succs (g_remove n g) = del gkey_eqb (gk n) (g_succs g).
Proof. reflexivity. Qed.

Lemma g_index_inv S g n ss :
  graph_inv S g -> (S (gk n) = None \/ S (gk n) = Some ss) ->
  graph_inv (upd S (gk n) (Some ss)) (g_index n ss g).
Proof.
  intros [H1 H2 H3 H4] Hn. set (k := gk n) in *.
  constructor; rewrite ?g_index_nodes, ?g_index_preds, ?g_index_succs; fold k.
  - intro k'. rewrite (get_put gkey_eqb gkey_eqb_spec). unfold upd.
    destruct (gkey_eqb k' k); [split; discriminate | apply H1].
  - apply (put_all gkey_eqb gkey_eqb_spec (fun k' d => gk d = k')); [reflexivity | exact H2].
  - intro k'. rewrite (get_put gkey_eqb gkey_eqb_spec). unfold upd. destruct (gkey_eqb k' k); [|apply H3].
    eexists. split; [reflexivity|]. intro x. rewrite fold_set_add_In. simpl. tauto.
  - intros m p. rewrite index_fold_In, H4. split.
    + intros [(l & A & B)|[-> B]]; [|exists ss; split; [apply upd_eq | exact B]].
      destruct (gdec p k) as [->|Hne]; [|exists l; split; [now rewrite upd_neq | exact B]].
      exists ss. split; [apply upd_eq|]. destruct Hn; congruence.
    + intros (l & A & B). destruct (gdec p k) as [->|Hne].
      * rewrite upd_eq in A. injection A as <-. right. auto.
      * rewrite upd_neq in A by exact Hne. left. eauto.
Qed.

Lemma g_remove_inv S g n :
  graph_inv S g -> graph_inv (upd S (gk n) None) (g_remove n g).
Proof.
  intros [H1 H2 H3 H4]. set (k := gk n).
  constructor; rewrite ?g_remove_nodes, ?g_remove_preds, ?g_remove_succs; fold k.
  - intro k'. rewrite (get_del gkey_eqb gkey_eqb_spec). unfold upd. destruct (gkey_eqb k' k); [tauto | apply H1].
  - now apply (del_all gkey_eqb gkey_eqb_spec (fun k' d => gk d = k')).
  - intro k'. rewrite (get_del gkey_eqb gkey_eqb_spec). unfold upd. destruct (gkey_eqb k' k); [reflexivity | apply H3].
  - intros m p. rewrite remove_fold_In, H4. split.
    + intros [(l & A & B) C]. exists l. split; auto. rewrite upd_neq; auto.
      intro; subst p. apply C. split; auto.
      specialize (H3 k). rewrite A in H3. destruct H3 as (l' & E & F). unfold getd. rewrite E. now apply F.
    + intros (l & A & B). destruct (gdec p k) as [->|Hne].
      * rewrite upd_eq in A. discriminate.
      * rewrite upd_neq in A by exact Hne. split; [eauto|]. intros [C _]. contradiction.
Qed.

Lemma g_predecessors_spec S g n x :
  graph_inv S g ->
  In x (map gk (g_predecessors n g)) <-> exists l, S x = Some l /\ In (gk n) l.
Proof.
  intros [H1 H2 H3 H4]. rewrite <- H4. unfold g_predecessors, getd.
  destruct (get gkey_eqb (gk n) (g_preds g)) as [l|] eqn:E; simpl; [|tauto].
  assert (Hl : forall p, In p l -> exists d, get gkey_eqb p (g_nodes g) = Some d /\ gk d = p).
  { intros p Hp. assert (Hp' : In p (getd gkey_eqb (gk n) (g_preds g))) by (unfold getd; now rewrite E).
    apply H4 in Hp' as (l0 & A & _).
    destruct (get gkey_eqb p (g_nodes g)) as [d|] eqn:En.
    - exists d. split; auto.
    - apply H1 in En. congruence. }
  rewrite map_map. rewrite in_map_iff. split.
  - intros (p & A & B). destruct (Hl p B) as (d & C & D). rewrite C in A. congruence.
  - intro Hx. exists x. split; auto. destruct (Hl x Hx) as (d & C & D). now rewrite C.
Qed.

Lemma g_remove_absent S g n : graph_inv S g -> S (gk n) = None -> g_remove n g = g.
Proof.
  intros [H1 H2 H3 H4] Hn. unfold g_remove.
  pose proof (H3 (gk n)) as A. rewrite Hn in A.
  pose proof (proj2 (H1 (gk n)) Hn) as B.
  unfold getd. rewrite A. simpl.
  rewrite (del_absent gkey_eqb _ _ B), (del_absent gkey_eqb _ _ A). destruct g; reflexivity.
Qed.

Lemma run_cons {S} (step : S -> op -> S * out) s o h :
  run step s (o :: h) =
  (fst (run step (fst (step s o)) h), snd (step s o) :: snd (run step (fst (step s o)) h)).
Proof. simpl. destruct (step s o) as [s1 x]. simpl. destruct (run step s1 h). reflexivity. Qed.

Lemma run_app {S} (step : S -> op -> S * out) s h1 h2 :
  run step s (h1 ++ h2) =
  (fst (run step (fst (run step s h1)) h2), snd (run step s h1) ++ snd (run step (fst (run step s h1)) h2)).
Proof.
  revert s. induction h1 as [|o h1 IH]; intro s.
  - simpl. now destruct (run step s h2).
  - rewrite <- app_comm_cons, !run_cons, IH. reflexivity.
Qed.

Lemma run_invariant {S} (step : S -> op -> S * out) (P : S -> Prop) (Q : op -> Prop) :
  (forall s o, Q o -> P s -> P (fst (step s o))) ->
  forall h s, Forall Q h -> P s -> P (fst (run step s h)).
Proof.
  intros Hstep. induction h as [|o h IH]; intros s Hq Hp; [exact Hp|].
  inversion Hq; subst. rewrite run_cons. cbn [fst]. auto.
Qed.

Lemma run_invariant_all {S} (step : S -> op -> S * out) (P : S -> Prop) :
  (forall s o, P s -> P (fst (step s o))) -> forall h s, P s -> P (fst (run step s h)).
Proof.
  intros Hstep h s. apply (run_invariant step P (fun _ => True)); [auto|]. apply Forall_forall. auto.
Qed.

Lemma run_invariantb {S} (step : S -> op -> S * out) (P : S -> Prop) (q : op -> bool) :
  (forall s o, q o = true -> P s -> P (fst (step s o))) ->
  forall h s, forallb q h = true -> P s -> P (fst (run step s h)).
Proof.
  intros Hstep h s Hq. apply (run_invariant step P (fun o => q o = true) Hstep).
  apply Forall_forall. now apply forallb_forall.
Qed.

Lemma runf_cons {S} (step : S -> op -> S * fout) s o h :
  runf step s (o :: h) =
  (fst (runf step (fst (step s o)) h), snd (step s o) :: snd (runf step (fst (step s o)) h)).
Proof. simpl. destruct (step s o) as [s1 x]. simpl. destruct (runf step s1 h). reflexivity. Qed.

Lemma runf_invariant {S} (step : S -> op -> S * fout) (P : S -> Prop) (Q : op -> Prop) :
  (forall s o, Q o -> P s -> P (fst (step s o))) ->
  forall h s, Forall Q h -> P s -> P (fst (runf step s h)).
Proof.
  intros Hstep. induction h as [|o h IH]; intros s Hq Hp; [exact Hp|].
  inversion Hq; subst. rewrite runf_cons. cbn [fst]. auto.
Qed.

Definition out_equiv (a c : out) : Prop :=
  match a, c with
  | OPreds x, OPreds y => forall k, In k x <-> In k y
  | OPreds _, _ | _, OPreds _ => False
  | _, _ => a = c
  end.

Lemma out_equiv_refl_eq a c : a = c -> out_equiv a c.
Proof. intros ->. destruct c; simpl; auto. tauto. Qed.

Lemma run_refines {C A} (cstep : C -> op -> C * out) (astep : A -> op -> A * out) (abs : C -> A)
      (inv : C -> Prop) (Q : op -> Prop) :
  (forall s o, Q o -> inv s -> inv (fst (cstep s o))) ->
  (forall s o, inv s -> abs (fst (cstep s o)) = fst (astep (abs s) o) /\
                        out_equiv (snd (cstep s o)) (snd (astep (abs s) o))) ->
  forall h s, Forall Q h -> inv s ->
  abs (fst (run cstep s h)) = fst (run astep (abs s) h) /\
  Forall2 out_equiv (snd (run cstep s h)) (snd (run astep (abs s) h)).
Proof.
  intros Hinv Href. induction h as [|o h IH]; intros s Hq Hs.
  - split; [reflexivity | constructor].
  - inversion Hq as [|? ? Ho Hh]; subst. rewrite !run_cons. cbn [fst snd].
    destruct (Href s o Hs) as [A1 B1]. destruct (IH _ Hh (Hinv s o Ho Hs)) as [C1 D1].
    rewrite <- A1. split; [exact C1 | constructor; assumption].
Qed.

Definition S_mem (cas : list (gkey * blob)) : gkey -> option (list gkey) :=
  fun k => option_map (succ_of k) (get gkey_eqb k cas).

Record mem_inv (s : mem_store) : Prop := mkMI {
  mi_nodup : NoDup (map fst (m_cas s));
  mi_graph : graph_inv (S_mem (m_cas s)) (m_graph s) }.

Lemma mem_inv_init : mem_inv mem_init.
Proof. constructor; simpl; [constructor | exact graph_inv_init]. Qed.

Lemma mspec_preds_spec n content x :
  NoDup (map fst content) ->
  In x (mspec_preds n content) <-> exists l, S_mem content x = Some l /\ In n l.
Proof.
  intro Hnd. unfold mspec_preds, S_mem. rewrite in_map_iff. split.
  - intros ([k c] & A & B). simpl in A. subst k. apply filter_In in B as [B C]. simpl in C.
    exists (succ_of x c). rewrite (In_get gkey_eqb gkey_eqb_spec _ _ _ Hnd B). simpl. split; auto.
    now apply (mem_In gkey_eqb gkey_eqb_spec).
  - intros (l & A & B). destruct (get gkey_eqb x content) as [c|] eqn:E; [|discriminate].
    simpl in A. injection A as <-. exists (x, c). split; auto. apply filter_In. split.
    + now apply (get_In gkey_eqb gkey_eqb_spec).
    + simpl. now apply (mem_In gkey_eqb gkey_eqb_spec).
Qed.

Lemma mem_step_inv s o : mem_inv s -> mem_inv (fst (mem_step s o)).
Proof.
  intros [Hnd Hg]. destruct o; simpl; try (constructor; assumption).
  - destruct (get gkey_eqb (gk d) (m_cas s)) eqn:E; [constructor; assumption|].
    destruct (verify d c); [|constructor; assumption]. constructor; simpl.
    + now apply (NoDup_put gkey_eqb gkey_eqb_spec).
    + eapply graph_inv_ext; [|apply g_index_inv; [exact Hg | left; unfold S_mem; now rewrite E]].
      intro k. unfold upd, S_mem. rewrite (get_put gkey_eqb gkey_eqb_spec).
      destruct (gkey_eqb k (gk d)) eqn:Ek; [|reflexivity]. apply gkey_eqb_spec in Ek. now subst k.
  - destruct (get gkey_eqb (gk d) (m_cas s)); constructor; assumption.
  - destruct (is_some _); constructor; assumption.
  - destruct (get ref_eqb r (r_index (m_res s))); constructor; assumption.
Qed.

Lemma mem_step_refines s o :
  mem_inv s ->
  mem_abs (fst (mem_step s o)) = fst (mspec_step (mem_abs s) o) /\
  out_equiv (snd (mem_step s o)) (snd (mspec_step (mem_abs s) o)).
Proof.
  intros [Hnd Hg]. destruct o; simpl.
  - destruct (get gkey_eqb (gk d) (m_cas s)); [split; reflexivity|].
    destruct (verify d c); split; reflexivity.
  - destruct (get gkey_eqb (gk d) (m_cas s)); split; reflexivity.
  - split; reflexivity.
  - destruct (is_some _); split; reflexivity.
  - destruct (get ref_eqb r (r_index (m_res s))); split; reflexivity.
  - split; [reflexivity|]. intro k.
    rewrite (g_predecessors_spec _ _ _ _ Hg). symmetry. now apply mspec_preds_spec.
  - split; reflexivity.
  - split; reflexivity.
  - split; reflexivity.
Qed.

Lemma mem_failed_noop s o : is_err (snd (mem_step s o)) = true -> fst (mem_step s o) = s.
Proof.
  destruct o; simpl; try reflexivity.
  - destruct (get gkey_eqb (gk d) (m_cas s)); [reflexivity|]. destruct (verify d c); [discriminate|reflexivity].
  - destruct (get gkey_eqb (gk d) (m_cas s)); reflexivity.
  - destruct (is_some _); [discriminate|reflexivity].
  - destruct (get ref_eqb r (r_index (m_res s))); reflexivity.
Qed.

(* from here on, and in the files that build on this one, [simpl] leaves these alone *)
Global Arguments oci_tag : simpl never.
Global Arguments res_tag : simpl never.
Global Arguments res_untag : simpl never.
Global Arguments oci_untag_equal : simpl never.
Global Arguments g_index : simpl never.
Global Arguments g_remove : simpl never.
Global Arguments untag_fold : simpl never.
Global Arguments spec_oci_tag : simpl never.
Global Arguments gkey_eqb : simpl never.
Global Arguments verify : simpl never.
Global Arguments is_manifest : simpl never.
Global Arguments oci_tag_graph : simpl never.
Global Arguments limit_reader : simpl never.

Lemma oci_step_blobs s o : o_blobs (fst (oci_step s o)) = vmap N.eqb d_dig true (o_blobs s) o.
Proof.
  destruct o; cbn [oci_step vmap]; unfold put_new; try reflexivity.
  - destruct (get N.eqb (d_dig d) (o_blobs s)); [reflexivity|]. now destruct (verify d c).
  - now destruct (get N.eqb (d_dig d) (o_blobs s)).
  - destruct r; [| |reflexivity]; (destruct (foreign_digest_ref d _); [reflexivity|]); now destruct (is_some _).
  - destruct r; [| |reflexivity]; destruct (get ref_eqb _ (r_index (o_res s))); try reflexivity.
    now destruct (get N.eqb g (o_blobs s)).
  - destruct r; [| |reflexivity];
      (destruct (get ref_eqb _ (r_index (o_res s))) as [d0|]; [|reflexivity]); now destruct (ref_eqb _ (RDig (d_dig d0))).
  - destruct (get N.eqb (d_dig d) (o_blobs s)) eqn:E; [reflexivity|]. symmetry. now apply del_absent.
Qed.

Section Oci.
  (* the universe: every digest is used with one media type and size *)
  Variable U : N -> gkey.
  Hypothesis U_dig : forall g, k_dig (U g) = g.

  Definition canon_desc (d : desc) : Prop := gk d = U (d_dig d).

  Definition canon_op_all (o : op) : Prop :=
    match o with
    | Push d _ | Fetch d | Exists d | Tag d _ | Preds d | Delete d => canon_desc d
    | _ => True
    end.

  (* what the sequential theorems need: content is pushed and deleted under its universe
     descriptor, and a Tag whose descriptor has a manifest media type uses the universe's too.
     Fetch, Exists, Predecessors and a Tag with any other media type may use any descriptor of
     the digest -- in particular the application/octet-stream one that Resolve(<digest>) hands out. *)
  Definition canon_op (o : op) : Prop :=
    match o with
    | Push d _ | Delete d => canon_desc d
    | Tag d _ => is_manifest (d_mt d) = true -> canon_desc d   (* Tag indexes a manifest descriptor *)
    | _ => True
    end.

  Lemma canon_op_all_weaken o : canon_op_all o -> canon_op o.
  Proof. destruct o; simpl; auto. Qed.

  Definition S_oci (blobs : list (N * blob)) : gkey -> option (list gkey) :=
    fun k => if gkey_eqb k (U (k_dig k)) then option_map (succ_of k) (get N.eqb (k_dig k) blobs) else None.

  Record oci_inv (s : oci_store) : Prop := mkOI {
    oi_nodup : NoDup (map fst (o_blobs s));
    oi_graph : graph_inv (S_oci (o_blobs s)) (o_graph s);
    oi_tags : forall r d, In (r, d) (r_index (o_res s)) -> get N.eqb (d_dig d) (o_blobs s) <> None }.

  Lemma oci_inv_init : oci_inv oci_init.
  Proof.
    constructor; simpl; [constructor | | tauto].
    eapply graph_inv_ext; [|exact graph_inv_init]. intro k. unfold S_oci. simpl.
    now destruct (gkey_eqb k (U (k_dig k))).
  Qed.

  Lemma k_dig_gk d : k_dig (gk d) = d_dig d.
  Proof. reflexivity. Qed.

  Lemma canon_same_dig d d' : canon_desc d -> canon_desc d' -> d_dig d = d_dig d' -> gk d = gk d'.
  Proof. unfold canon_desc. intros -> -> ->. reflexivity. Qed.

  Lemma r_index_tag d r s : r_index (res_tag d r s) = put ref_eqb r d (r_index s).
  Proof. reflexivity. Qed.

  Lemma r_index_oci_tag d r s : r_index (oci_tag d r s) = spec_oci_tag d r (r_index s).
  Proof. unfold oci_tag, spec_oci_tag. destruct (ref_eqb r (RDig (d_dig d))); reflexivity. Qed.

  Lemma r_index_untag r s : r_index (res_untag r s) = del ref_eqb r (r_index s).
  Proof.
    unfold res_untag. destruct (get ref_eqb r (r_index s)) eqn:E; [reflexivity|].
    symmetry. now apply del_absent.
  Qed.

  Lemma r_index_untag_equal k snap s :
    r_index (oci_untag_equal k snap s) = untag_fold k snap (r_index s).
  Proof.
    unfold oci_untag_equal, untag_fold. revert s. induction snap as [|e snap IH]; intro s; cbn [fold_left]; auto.
    destruct (eq_target (snd e) k); rewrite IH; [now rewrite r_index_untag | reflexivity].
  Qed.

  Lemma untag_equal_nomatch k snap s :
    (forall e, In e snap -> eq_target (snd e) k = false) -> oci_untag_equal k snap s = s.
  Proof.
    unfold oci_untag_equal. revert s. induction snap as [|e snap IH]; intros s H; cbn [fold_left]; auto.
    rewrite (H e) by now left. apply IH. intros e' He'. apply H. now right.
  Qed.

  Lemma untag_fold_In k snap t r d :
    In (r, d) (untag_fold k snap t) ->
    In (r, d) t /\ forall d', In (r, d') snap -> eq_target d' k = false.
  Proof.
    unfold untag_fold. revert t. induction snap as [|[r0 d0] snap IH]; intros t H; cbn [fold_left fst snd] in H.
    - split; auto. simpl. tauto.
    - destruct (eq_target d0 k) eqn:E.
      + destruct (IH _ H) as [A B]. apply (In_del_inv ref_eqb ref_eqb_spec) in A as [A1 A2].
        split; auto. intros d' [C|C]; [congruence | auto].
      + destruct (IH _ H) as [A B]. split; auto. intros d' [C|C]; [congruence | auto].
  Qed.

  Lemma In_spec_oci_tag d r t r' d' :
    In (r', d') (spec_oci_tag d r t) -> d' = d \/ In (r', d') t.
  Proof.
    unfold spec_oci_tag. intro H. apply (In_put_inv ref_eqb) in H as [H|H]; [left; congruence|].
    destruct (ref_eqb r (RDig (d_dig d))); auto.
    apply (In_put_inv ref_eqb) in H as [H|H]; [left; congruence | auto].
  Qed.

  Lemma oci_delete_absent s d :
    oci_inv s -> get N.eqb (d_dig d) (o_blobs s) = None ->
    oci_untag_equal (gk d) (r_index (o_res s)) (o_res s) = o_res s /\ g_remove d (o_graph s) = o_graph s.
  Proof.
    intros [Hnd Hg Ht] Habs. split.
    - apply untag_equal_nomatch. intros [r d'] Hin. simpl.
      destruct (eq_target d' (gk d)) eqn:E; auto. apply eq_target_spec in E.
      pose proof (Ht _ _ Hin) as B. exfalso. apply B.
      assert (d_dig d' = d_dig d) as -> by exact E. exact Habs.
    - eapply g_remove_absent; [exact Hg|]. unfold S_oci. rewrite k_dig_gk, Habs.
      now destruct (gkey_eqb (gk d) (U (d_dig d))).
  Qed.

  Lemma S_oci_upd d v blobs blobs' k :
    canon_desc d -> get N.eqb (d_dig d) blobs' = v ->
    (forall g, g <> d_dig d -> get N.eqb g blobs' = get N.eqb g blobs) ->
    upd (S_oci blobs) (gk d) (option_map (succ_of (gk d)) v) k = S_oci blobs' k.
  Proof.
    intros Hc Hv Hfr. unfold upd, S_oci. destruct (gkey_eqb k (gk d)) eqn:Ek.
    - apply gkey_eqb_spec in Ek. subst k.
      rewrite k_dig_gk, <- Hc, (eqb_refl gkey_eqb gkey_eqb_spec), Hv. reflexivity.
    - destruct (gkey_eqb k (U (k_dig k))) eqn:Ec; auto.
      rewrite Hfr; auto.
      intro Hd. apply gkey_eqb_spec in Ec. rewrite Hd, <- Hc in Ec. subst k.
      rewrite (eqb_refl gkey_eqb gkey_eqb_spec) in Ek. discriminate.
  Qed.

  Lemma oci_tag_graph_inv d blobs g :
    (is_manifest (d_mt d) = true -> canon_desc d) ->
    graph_inv (S_oci blobs) g -> graph_inv (S_oci blobs) (oci_tag_graph d blobs g).
  Proof.
    intros Hc Hg. unfold oci_tag_graph. destruct (is_manifest (d_mt d)) eqn:Em; [|exact Hg].
    destruct (get N.eqb (d_dig d) blobs) as [c|] eqn:E; [|exact Hg].
    specialize (Hc eq_refl).
    assert (HS : S_oci blobs (gk d) = Some (succ_of (gk d) c)).
    { unfold S_oci. rewrite k_dig_gk, <- Hc, (eqb_refl gkey_eqb gkey_eqb_spec), E. reflexivity. }
    eapply graph_inv_ext; [|apply g_index_inv; [exact Hg | right; exact HS]].
    intro k. apply (S_oci_upd d (Some c) blobs); [exact Hc | exact E | reflexivity].
  Qed.

  Lemma oci_inv_tag s d r :
    oci_inv s -> (is_manifest (d_mt d) = true -> canon_desc d) -> get N.eqb (d_dig d) (o_blobs s) <> None ->
    oci_inv (mkOci (o_blobs s) (oci_tag d r (o_res s)) (oci_tag_graph d (o_blobs s) (o_graph s))).
  Proof.
    intros [Hnd Hg Ht] Hc E. constructor; cbn [o_blobs o_res o_graph]; [exact Hnd | now apply oci_tag_graph_inv |].
    intros r' d' Hin. rewrite r_index_oci_tag in Hin.
    apply In_spec_oci_tag in Hin as [->|Hin]; [assumption | apply (Ht _ _ Hin)].
  Qed.

  Lemma oci_inv_untag s r :
    oci_inv s -> oci_inv (mkOci (o_blobs s) (res_untag r (o_res s)) (o_graph s)).
  Proof.
    intros [Hnd Hg Ht]. constructor; cbn [o_blobs o_res o_graph]; [exact Hnd | exact Hg |].
    intros r' d' Hin. rewrite r_index_untag in Hin.
    apply (In_del_inv ref_eqb ref_eqb_spec) in Hin as [Hin _]. apply (Ht _ _ Hin).
  Qed.

  Lemma oci_abs_tag s d r g :
    oci_abs (mkOci (o_blobs s) (oci_tag d r (o_res s)) g) =
    mkSpec (sp_content (oci_abs s)) (spec_oci_tag d r (sp_tags (oci_abs s))).
  Proof. unfold oci_abs. cbn [o_blobs o_res sp_content sp_tags]. now rewrite r_index_oci_tag. Qed.

  Lemma oci_abs_untag s r :
    oci_abs (mkOci (o_blobs s) (res_untag r (o_res s)) (o_graph s)) =
    mkSpec (sp_content (oci_abs s)) (del ref_eqb r (sp_tags (oci_abs s))).
  Proof. unfold oci_abs. cbn [o_blobs o_res sp_content sp_tags]. now rewrite r_index_untag. Qed.

  Lemma oci_step_inv s o : canon_op o -> oci_inv s -> oci_inv (fst (oci_step s o)).
  Proof.
    intros Hc Hinv. pose proof Hinv as [Hnd Hg Ht]. destruct o; simpl in *; try assumption.
    - (* Push *)
      destruct (get N.eqb (d_dig d) (o_blobs s)) eqn:E; [assumption|].
      destruct (verify d c); [|assumption]. constructor; simpl.
      + now apply (NoDup_put N.eqb Neqb_spec).
      + eapply graph_inv_ext.
        { intro k. apply (S_oci_upd d (Some c) (o_blobs s)); [exact Hc | apply (get_put_eq N.eqb Neqb_spec) |].
          intros g Hne. now apply (get_put_neq N.eqb Neqb_spec). }
        apply g_index_inv; [exact Hg | left]. unfold S_oci. rewrite k_dig_gk, E.
        now destruct (gkey_eqb (gk d) (U (d_dig d))).
      + intros r d' Hin.
        assert (Hin' : d' = d \/ In (r, d') (r_index (o_res s))).
        { destruct (is_manifest (d_mt d)); auto. rewrite r_index_oci_tag in Hin.
          eapply In_spec_oci_tag; eauto. }
        destruct Hin' as [->|Hin'].
        * rewrite (get_put_eq N.eqb Neqb_spec). discriminate.
        * apply (get_put_mono N.eqb Neqb_spec). apply (Ht _ _ Hin').
    - destruct (get N.eqb (d_dig d) (o_blobs s)); assumption.
    - (* Tag *)
      destruct r as [m|g|]; cbn [foreign_digest_ref]; try assumption.
      + destruct (get N.eqb (d_dig d) (o_blobs s)) eqn:E; [|assumption].
        apply (oci_inv_tag s d (RName m) Hinv Hc). rewrite E. discriminate.
      + destruct (negb (g =? d_dig d)); [assumption|].
        destruct (get N.eqb (d_dig d) (o_blobs s)) eqn:E; [|assumption].
        apply (oci_inv_tag s d (RDig g) Hinv Hc). rewrite E. discriminate.
    - (* Resolve *)
      destruct r; simpl; try assumption;
        destruct (get ref_eqb _ (r_index (o_res s))); simpl; try assumption.
      destruct (get N.eqb g (o_blobs s)); assumption.
    - (* Untag *)
      destruct r; try assumption;
        (destruct (get ref_eqb _ (r_index (o_res s))) as [d0|] eqn:E; [|assumption];
         destruct (ref_eqb _ (RDig (d_dig d0))); [assumption|]; apply oci_inv_untag; assumption).
    - (* Delete *)
      destruct (get N.eqb (d_dig d) (o_blobs s)) eqn:E; simpl.
      + constructor; simpl.
        * now apply NoDup_del.
        * eapply graph_inv_ext; [|apply g_remove_inv; exact Hg].
          intro k. apply (S_oci_upd d None (o_blobs s)); [exact Hc | apply (get_del_eq N.eqb) |].
          intros g Hne. now apply (get_del_neq N.eqb Neqb_spec).
        * intros r d' Hin. rewrite r_index_untag_equal in Hin.
          apply untag_fold_In in Hin as [A B]. specialize (B _ A).
          pose proof (Ht _ _ A) as D.
          rewrite (get_del_neq N.eqb Neqb_spec); auto.
          intro Hd. assert (X : eq_target d' (gk d) = true) by (apply eq_target_spec; exact Hd).
          congruence.
      + destruct (oci_delete_absent s d Hinv E) as [-> ->]. destruct s; assumption.
  Qed.

  Lemma ospec_preds_spec n content x :
    NoDup (map fst content) ->
    In x (ospec_preds U n content) <-> exists l, S_oci content x = Some l /\ In n l.
  Proof.
    intro Hnd. unfold ospec_preds, S_oci. rewrite in_map_iff. split.
    - intros ([g c] & A & B). simpl in A. subst x. apply filter_In in B as [B C]. simpl in C.
      exists (succ_of (U g) c). rewrite U_dig, (eqb_refl gkey_eqb gkey_eqb_spec).
      rewrite (In_get N.eqb Neqb_spec _ _ _ Hnd B). simpl. split; auto.
      now apply (mem_In gkey_eqb gkey_eqb_spec).
    - intros (l & A & B). destruct (gkey_eqb x (U (k_dig x))) eqn:Ec; [|discriminate].
      apply gkey_eqb_spec in Ec.
      destruct (get N.eqb (k_dig x) content) as [c|] eqn:E; [|discriminate].
      simpl in A. injection A as <-. exists (k_dig x, c). simpl. split; auto. apply filter_In. split.
      + now apply (get_In N.eqb Neqb_spec).
      + simpl. rewrite <- Ec. now apply (mem_In gkey_eqb gkey_eqb_spec).
  Qed.

  Lemma oci_step_refines s o :
    oci_inv s ->
    oci_abs (fst (oci_step s o)) = fst (ospec_step U (oci_abs s) o) /\
    out_equiv (snd (oci_step s o)) (snd (ospec_step U (oci_abs s) o)).
  Proof.
    intros Hinv. pose proof Hinv as [Hnd Hg Ht]. destruct o; simpl.
    - destruct (get N.eqb (d_dig d) (o_blobs s)); [split; reflexivity|].
      destruct (verify d c); [|split; reflexivity]. split; [|reflexivity].
      unfold oci_abs; simpl. destruct (is_manifest (d_mt d)); [now rewrite r_index_oci_tag | reflexivity].
    - destruct (get N.eqb (d_dig d) (o_blobs s)); split; reflexivity.
    - split; reflexivity.
    - destruct r as [m|g|]; cbn [foreign_digest_ref]; try (split; reflexivity).
      + destruct (is_some _); [|split; reflexivity]. split; [|reflexivity]. apply oci_abs_tag.
      + destruct (negb (g =? d_dig d)); [split; reflexivity|].
        destruct (is_some _); [|split; reflexivity]. split; [|reflexivity]. apply oci_abs_tag.
    - destruct r; try (split; reflexivity);
        destruct (get ref_eqb _ (r_index (o_res s))); try (split; reflexivity).
      destruct (get N.eqb g (o_blobs s)); split; reflexivity.
    - split; [reflexivity|]. intro k.
      rewrite (g_predecessors_spec _ _ _ _ Hg). symmetry. now apply ospec_preds_spec.
    - destruct r; try (split; reflexivity);
        (destruct (get ref_eqb _ (r_index (o_res s))) as [d0|]; [|split; reflexivity];
         destruct (ref_eqb _ (RDig (d_dig d0))); [split; reflexivity|]; split; [|reflexivity];
         apply oci_abs_untag).
    - destruct (get N.eqb (d_dig d) (o_blobs s)) eqn:E; simpl.
      + split; [|reflexivity]. unfold oci_abs; simpl. now rewrite r_index_untag_equal.
      + destruct (oci_delete_absent s d Hinv E) as [-> ->]. split; reflexivity.
    - split; reflexivity.
  Qed.

  Lemma oci_failed_noop s o :
    oci_inv s -> is_err (snd (oci_step s o)) = true -> fst (oci_step s o) = s.
  Proof.
    intros Hinv. destruct o; simpl; try reflexivity.
    - destruct (get N.eqb (d_dig d) (o_blobs s)); [reflexivity|]. destruct (verify d c); [discriminate|reflexivity].
    - destruct (get N.eqb (d_dig d) (o_blobs s)); reflexivity.
    - destruct r as [m|g|]; cbn [foreign_digest_ref]; try reflexivity; [|destruct (negb (g =? d_dig d)); [reflexivity|]];
        (destruct (is_some _); [discriminate|reflexivity]).
    - destruct r; try reflexivity; destruct (get ref_eqb _ (r_index (o_res s))); try reflexivity.
      destruct (get N.eqb g (o_blobs s)); reflexivity.
    - destruct r; try reflexivity;
        (destruct (get ref_eqb _ (r_index (o_res s))) as [d0|]; [|reflexivity];
         destruct (ref_eqb _ (RDig (d_dig d0))); [reflexivity|discriminate]).
    - destruct (get N.eqb (d_dig d) (o_blobs s)) eqn:E; simpl; [discriminate|]. intros _.
      destruct (oci_delete_absent s d Hinv E) as [-> ->]. now destruct s.
  Qed.
End Oci.

Lemma refines_memory (h : list op) :
  mem_abs (fst (run mem_step mem_init h)) = fst (run mspec_step mspec_init h) /\
  Forall2 out_equiv (snd (run mem_step mem_init h)) (snd (run mspec_step mspec_init h)).
Proof.
  apply (run_refines mem_step mspec_step mem_abs mem_inv (fun _ => True)
                     (fun s o _ => mem_step_inv s o) mem_step_refines h mem_init); [|exact mem_inv_init].
  apply Forall_forall. auto.
Qed.

Lemma refines_oci (U : N -> gkey) :
  (forall g, k_dig (U g) = g) ->
  forall h : list op, Forall (canon_op U) h ->
  oci_abs (fst (run oci_step oci_init h)) = fst (run (ospec_step U) ospec_init h) /\
  Forall2 out_equiv (snd (run oci_step oci_init h)) (snd (run (ospec_step U) ospec_init h)).
Proof.
  intros HU h Hc.
  exact (run_refines oci_step (ospec_step U) oci_abs (oci_inv U) (canon_op U)
                     (oci_step_inv U) (oci_step_refines U HU) h oci_init Hc (oci_inv_init U)).
Qed.

Lemma failed_noop_memory (h : list op) (o : op) :
  let s := fst (run mem_step mem_init h) in
  is_err (snd (mem_step s o)) = true -> fst (mem_step s o) = s.
Proof. intro s. apply mem_failed_noop. Qed.

Lemma failed_noop_oci (U : N -> gkey) :
  (forall g, k_dig (U g) = g) ->
  forall (h : list op) (o : op), Forall (canon_op U) h ->
  let s := fst (run oci_step oci_init h) in
  is_err (snd (oci_step s o)) = true -> fst (oci_step s o) = s.
Proof.
  intros HU h o Hc s. apply (oci_failed_noop U).
  exact (run_invariant oci_step (oci_inv U) (canon_op U) (oci_step_inv U) h oci_init Hc (oci_inv_init U)).
Qed.

Lemma untag_fold_get_none k snap t r :
  get ref_eqb r t = None -> get ref_eqb r (untag_fold k snap t) = None.
Proof.
  unfold untag_fold. revert t. induction snap as [|[r0 d0] snap IH]; intros t H; cbn [fold_left fst snd]; auto.
  destruct (eq_target d0 k); auto. apply IH. rewrite (get_del ref_eqb ref_eqb_spec), H. now destruct (ref_eqb r r0).
Qed.

Lemma untag_fold_get_keep k snap t r :
  (forall d', In (r, d') snap -> eq_target d' k = false) ->
  get ref_eqb r (untag_fold k snap t) = get ref_eqb r t.
Proof.
  unfold untag_fold. revert t. induction snap as [|[r0 d0] snap IH]; intros t H; cbn [fold_left fst snd]; auto.
  assert (H' : forall d', In (r, d') snap -> eq_target d' k = false) by (intros; apply H; now right).
  destruct (eq_target d0 k) eqn:E; [|now apply IH].
  rewrite IH by exact H'. apply (get_del_neq ref_eqb ref_eqb_spec).
  intro; subst r0. rewrite (H d0) in E by now left. discriminate.
Qed.

Lemma untag_fold_get_drop k snap t r d' :
  In (r, d') snap -> eq_target d' k = true -> get ref_eqb r (untag_fold k snap t) = None.
Proof.
  unfold untag_fold. revert t. induction snap as [|[r0 d0] snap IH]; intros t Hin Hm; [destruct Hin|].
  cbn [fold_left fst snd]. destruct Hin as [Heq|Hin].
  - injection Heq as -> ->. rewrite Hm. apply untag_fold_get_none. apply (get_del_eq ref_eqb).
  - now apply IH.
Qed.

Lemma get_filter_nodup {V} (P : ref * V -> bool) (t : list (ref * V)) r :
  NoDup (map fst t) ->
  get ref_eqb r (filter P t) =
  match get ref_eqb r t with Some d => if P (r, d) then Some d else None | None => None end.
Proof.
  induction t as [|[r0 d0] t IH]; intro Hnd; simpl; auto.
  inversion Hnd as [|? ? Hni Hnd']; subst.
  destruct (ref_eqb r r0) eqn:E.
  - apply ref_eqb_spec in E. subst r0. destruct (P (r, d0)) eqn:EP; simpl.
    + now rewrite (eqb_refl ref_eqb ref_eqb_spec).
    + rewrite IH by exact Hnd'. destruct (get ref_eqb r t) eqn:G; auto.
      exfalso. apply Hni. apply in_map_iff. exists (r, v). split; auto.
      now apply (get_In ref_eqb ref_eqb_spec).
  - destruct (P (r0, d0)); simpl; [rewrite E|]; now apply IH.
Qed.

(* whatever order Go's map iteration delivers the snapshot in, Store.delete leaves
   exactly the references whose descriptor is not content.Equal to the target *)
Lemma untag_fold_order_free k snap t r :
  NoDup (map fst t) -> (forall e, In e snap <-> In e t) ->
  get ref_eqb r (untag_fold k snap t) = get ref_eqb r (spec_untag_equal k t).
Proof.
  intros Hnd Hperm. unfold spec_untag_equal. rewrite get_filter_nodup by exact Hnd. simpl.
  destruct (get ref_eqb r t) as [d|] eqn:G.
  - destruct (eq_target d k) eqn:E; simpl.
    + eapply untag_fold_get_drop; [|exact E]. apply Hperm. now apply (get_In ref_eqb ref_eqb_spec).
    + rewrite untag_fold_get_keep; auto. intros d' Hin. apply Hperm in Hin.
      rewrite (In_get ref_eqb ref_eqb_spec _ _ _ Hnd Hin) in G. congruence.
  - now apply untag_fold_get_none.
Qed.

Lemma mem_step_cas s o : m_cas (fst (mem_step s o)) = vmap gkey_eqb gk false (m_cas s) o.
Proof.
  destruct o; cbn [mem_step vmap]; unfold put_new; try reflexivity.
  - destruct (get gkey_eqb (gk d) (m_cas s)); [reflexivity|]. now destruct (verify d c).
  - now destruct (get gkey_eqb (gk d) (m_cas s)).
  - now destruct (is_some _).
  - now destruct (get ref_eqb r (r_index (m_res s))).
Qed.

(* Fetch returns exactly the pushed bytes, for ever; pushing again is refused and changes nothing *)
Lemma mem_fetch_returns_pushed s d c h2 d' :
  snd (mem_step s (Push d c)) = OOk -> gk d' = gk d ->
  let s2 := fst (run mem_step (fst (mem_step s (Push d c))) h2) in
  snd (mem_step s2 (Fetch d')) = OBytes (b_hash c) (b_len c) /\
  b_hash c = d_dig d /\ b_len c = d_size d /\
  forall c', mem_step s2 (Push d' c') = (s2, OErr EAlreadyExists).
Proof.
  intros Hok Hk s2.
  assert (Hget : get gkey_eqb (gk d) (m_cas (fst (mem_step s (Push d c)))) = Some c /\ verify d c = true).
  { revert Hok. simpl. destruct (get gkey_eqb (gk d) (m_cas s)); [discriminate|].
    destruct (verify d c) eqn:V; [|discriminate]. intros _. simpl.
    now rewrite (get_put_eq gkey_eqb gkey_eqb_spec). }
  destruct Hget as [Hget Hv].
  assert (H2 : get gkey_eqb (gk d) (m_cas s2) = Some c).
  { apply (run_invariant_all mem_step); [|exact Hget].
    intros s0 o. rewrite mem_step_cas. apply (vmap_keeps gkey_eqb gk false gkey_eqb_spec). now destruct o. }
  apply verify_spec in Hv as [V1 V2].
  simpl. rewrite Hk, H2. repeat split; auto.
Qed.

Definition tags_ref (r : ref) (o : op) : bool :=
  match o with Tag _ r' => ref_eqb r' r | _ => false end.

Lemma mem_tag_frame s o r :
  tags_ref r o = false ->
  get ref_eqb r (r_index (m_res (fst (mem_step s o)))) = get ref_eqb r (r_index (m_res s)).
Proof.
  intro H. destruct o; simpl; auto.
  - destruct (get gkey_eqb (gk d) (m_cas s)); auto. destruct (verify d c); auto.
  - destruct (get gkey_eqb (gk d) (m_cas s)); auto.
  - destruct (is_some _); auto. cbn [fst m_res tags_ref] in *. rewrite r_index_tag.
    apply (get_put_neq ref_eqb ref_eqb_spec). intro; subst.
    rewrite (eqb_refl ref_eqb ref_eqb_spec) in H. discriminate.
  - destruct (get ref_eqb r0 (r_index (m_res s))); auto.
Qed.

Lemma mem_resolve_latest s d r h2 :
  snd (mem_step s (Tag d r)) = OOk -> forallb (fun o => negb (tags_ref r o)) h2 = true ->
  snd (mem_step (fst (run mem_step (fst (mem_step s (Tag d r))) h2)) (Resolve r)) = ODesc d.
Proof.
  intros Hok Hfr.
  assert (Hget : get ref_eqb r (r_index (m_res (fst (mem_step s (Tag d r))))) = Some d).
  { revert Hok. simpl. destruct (is_some _); [|discriminate]. intros _. cbn [fst m_res].
    rewrite r_index_tag. apply (get_put_eq ref_eqb ref_eqb_spec). }
  set (s2 := fst (run mem_step (fst (mem_step s (Tag d r))) h2)).
  assert (H2 : get ref_eqb r (r_index (m_res s2)) = Some d).
  { eapply (run_invariantb mem_step); [|exact Hfr | exact Hget].
    intros s0 o Ho. rewrite mem_tag_frame; [auto|]. now apply negb_true_iff. }
  clearbody s2. simpl. now rewrite H2.
Qed.

(* a key under which the history has no Push at all, successful or refused, is absent: fetching or
   tagging it reports not-found *)
Lemma mem_never_pushed_absent h k :
  (forall d c, In (Push d c) h -> gk d <> k) ->
  let s := fst (run mem_step mem_init h) in
  get gkey_eqb k (m_cas s) = None /\
  forall d r, gk d = k -> snd (mem_step s (Fetch d)) = OErr ENotFound /\
                          snd (mem_step s (Tag d r)) = OErr ENotFound /\
                          snd (mem_step s (Exists d)) = OBool false.
Proof.
  intros Hno s.
  assert (Habs : get gkey_eqb k (m_cas s) = None).
  { unfold s. apply (run_invariant mem_step) with (Q := fun o => forall d c, o = Push d c -> gk d <> k); [| |reflexivity].
    - intros s0 o Ho. rewrite mem_step_cas. now apply (vmap_absent gkey_eqb gk false gkey_eqb_spec).
    - apply Forall_forall. intros o Ho d c ->. now apply (Hno d c). }
  split; auto. intros d r <-. simpl. rewrite Habs. simpl. auto.
Qed.

Definition deletes_dig (g : N) (o : op) : bool :=
  match o with Delete d => d_dig d =? g | _ => false end.

(* Fetch returns exactly the pushed bytes until that content is deleted; pushing it
   again is refused and changes nothing *)
Lemma oci_fetch_returns_pushed s d c h2 d' :
  snd (oci_step s (Push d c)) = OOk -> d_dig d' = d_dig d ->
  forallb (fun o => negb (deletes_dig (d_dig d) o)) h2 = true ->
  let s2 := fst (run oci_step (fst (oci_step s (Push d c))) h2) in
  snd (oci_step s2 (Fetch d')) = OBytes (b_hash c) (b_len c) /\
  b_hash c = d_dig d /\ b_len c = d_size d /\
  forall c', oci_step s2 (Push d' c') = (s2, OErr EAlreadyExists).
Proof.
  intros Hok Hk Hfr s2.
  assert (Hget : get N.eqb (d_dig d) (o_blobs (fst (oci_step s (Push d c)))) = Some c /\ verify d c = true).
  { revert Hok. simpl. destruct (get N.eqb (d_dig d) (o_blobs s)); [discriminate|].
    destruct (verify d c) eqn:V; [|discriminate]. intros _. simpl.
    now rewrite (get_put_eq N.eqb Neqb_spec). }
  destruct Hget as [Hget Hv].
  assert (H2 : get N.eqb (d_dig d) (o_blobs s2) = Some c).
  { eapply (run_invariantb oci_step); [|exact Hfr | exact Hget].
    intros s0 o Ho. rewrite oci_step_blobs. apply (vmap_keeps N.eqb d_dig true Neqb_spec).
    apply negb_true_iff in Ho. destruct o; try exact I. exact Ho. }
  apply verify_spec in Hv as [V1 V2].
  simpl. rewrite Hk, H2. repeat split; auto.
Qed.

(* OCI: a digest of which the history has no Push at all, successful or refused, is absent:
   fetching, tagging or deleting it is not-found *)
Lemma oci_never_pushed_absent h g :
  (forall d c, In (Push d c) h -> d_dig d <> g) ->
  let s := fst (run oci_step oci_init h) in
  get N.eqb g (o_blobs s) = None /\
  forall d r, d_dig d = g -> snd (oci_step s (Fetch d)) = OErr ENotFound /\
                             (r <> REmpty -> foreign_digest_ref d r = false ->
                              snd (oci_step s (Tag d r)) = OErr ENotFound) /\
                             snd (oci_step s (Exists d)) = OBool false /\
                             snd (oci_step s (Delete d)) = OErr ENotFound.
Proof.
  intros Hno s.
  assert (Habs : get N.eqb g (o_blobs s) = None).
  { unfold s. apply (run_invariant oci_step) with (Q := fun o => forall d c, o = Push d c -> d_dig d <> g); [| |reflexivity].
    - intros s0 o Ho. rewrite oci_step_blobs. now apply (vmap_absent N.eqb d_dig true Neqb_spec).
    - apply Forall_forall. intros o Ho d c ->. now apply (Hno d c). }
  split; auto. intros d r <-. simpl. rewrite Habs. simpl. repeat split; auto.
  intros Hr Hf. destruct r; cbn [foreign_digest_ref] in *; auto; [now rewrite Hf | congruence].
Qed.

Definition names_of (t : list (ref * desc)) : N -> option desc := fun n => get ref_eqb (RName n) t.

Definition vnames (blobs : list (N * blob)) (nm : N -> option desc) (o : op) : N -> option desc :=
  fun n =>
    match o with
    | Tag d (RName m) => if is_some (get N.eqb (d_dig d) blobs) && (m =? n) then Some d else nm n
    | Untag (RName m) => if m =? n then None else nm n
    | Delete d => match nm n with
                  | Some d' => if eq_target d' (gk d) then None else Some d'
                  | None => None
                  end
    | _ => nm n
    end.

Lemma vnames_ext blobs nm1 nm2 o n : (forall m, nm1 m = nm2 m) -> vnames blobs nm1 o n = vnames blobs nm2 o n.
Proof.
  intro H. unfold vnames. destruct o; auto.
  - destruct r; auto. now rewrite H.
  - destruct r; auto. now rewrite H.
  - now rewrite H.
Qed.

Lemma names_put_dig g d t n : names_of (put ref_eqb (RDig g) d t) n = names_of t n.
Proof. unfold names_of. apply (get_put_neq ref_eqb ref_eqb_spec). discriminate. Qed.

Lemma names_put_name m d t n :
  names_of (put ref_eqb (RName m) d t) n = if m =? n then Some d else names_of t n.
Proof.
  unfold names_of. rewrite (get_put ref_eqb ref_eqb_spec). cbn [ref_eqb]. now rewrite N.eqb_sym.
Qed.

Lemma names_del_dig g (t : list (ref * desc)) n : names_of (del ref_eqb (RDig g) t) n = names_of t n.
Proof. unfold names_of. apply (get_del_neq ref_eqb ref_eqb_spec). discriminate. Qed.

Lemma names_del_name m (t : list (ref * desc)) n :
  names_of (del ref_eqb (RName m) t) n = if m =? n then None else names_of t n.
Proof.
  unfold names_of. rewrite (get_del ref_eqb ref_eqb_spec). cbn [ref_eqb]. now rewrite N.eqb_sym.
Qed.

Lemma names_spec_oci_tag d r t n :
  names_of (spec_oci_tag d r t) n =
  match r with RName m => if m =? n then Some d else names_of t n | _ => names_of t n end.
Proof.
  unfold spec_oci_tag. destruct r as [m|g|]; simpl.
  - rewrite names_put_name. destruct (m =? n); auto. apply names_put_dig.
  - destruct (g =? d_dig d).
    + apply names_put_dig.
    + rewrite names_put_dig. apply names_put_dig.
  - unfold names_of. rewrite (get_put_neq ref_eqb ref_eqb_spec) by discriminate. apply names_put_dig.
Qed.

Lemma names_untag_fold k t n :
  NoDup (map fst t) ->
  names_of (untag_fold k t t) n =
  match names_of t n with Some d' => if eq_target d' k then None else Some d' | None => None end.
Proof.
  intro Hnd. unfold names_of. rewrite (untag_fold_order_free k t t (RName n) Hnd) by tauto.
  unfold spec_untag_equal. rewrite get_filter_nodup by exact Hnd. simpl.
  destruct (get ref_eqb (RName n) t) as [d'|]; auto. now destruct (eq_target d' k).
Qed.

Lemma oci_step_view st o :
  NoDup (map fst (r_index (o_res st))) ->
  o_blobs (fst (oci_step st o)) = vmap N.eqb d_dig true (o_blobs st) o /\
  forall n, names_of (r_index (o_res (fst (oci_step st o)))) n =
            vnames (o_blobs st) (names_of (r_index (o_res st))) o n.
Proof.
  intro Hnd. split; [apply oci_step_blobs|]. intro n. destruct o; cbn [oci_step vnames]; try reflexivity.
  - destruct (get N.eqb (d_dig d) (o_blobs st)); [reflexivity|]. destruct (verify d c); [|reflexivity].
    cbn [fst o_res]. destruct (is_manifest (d_mt d)); [|reflexivity]. now rewrite r_index_oci_tag, names_spec_oci_tag.
  - now destruct (get N.eqb (d_dig d) (o_blobs st)).
  - destruct r as [m|g|]; cbn [foreign_digest_ref]; [|destruct (negb (g =? d_dig d)); [reflexivity|]|reflexivity];
      (destruct (is_some (get N.eqb (d_dig d) (o_blobs st))); [|reflexivity]);
      cbn [fst o_res andb]; now rewrite r_index_oci_tag, names_spec_oci_tag.
  - destruct r as [m|g|]; [| |reflexivity]; destruct (get ref_eqb _ (r_index (o_res st))); try reflexivity.
    now destruct (get N.eqb g (o_blobs st)).
  - destruct r as [m|g|]; [| |reflexivity].
    + destruct (get ref_eqb (RName m) (r_index (o_res st))) as [d0|] eqn:E; cbn [ref_eqb fst o_res].
      * rewrite r_index_untag. apply names_del_name.
      * destruct (m =? n) eqn:En; [|reflexivity]. apply N.eqb_eq in En. subst. exact E.
    + destruct (get ref_eqb (RDig g) (r_index (o_res st))) as [d0|]; [|reflexivity].
      destruct (ref_eqb (RDig g) (RDig (d_dig d0))); [reflexivity|].
      cbn [fst o_res]. rewrite r_index_untag. apply names_del_dig.
  - destruct (get N.eqb (d_dig d) (o_blobs st)); cbn [fst o_res];
      rewrite r_index_untag_equal; now apply names_untag_fold.
Qed.

Lemma untag_fold_nodup k snap t : NoDup (map fst t) -> NoDup (map fst (untag_fold k snap t)).
Proof.
  unfold untag_fold. revert t. induction snap as [|e snap IH]; intros t H; cbn [fold_left]; auto.
  destruct (eq_target (snd e) k); auto. apply IH. now apply NoDup_del.
Qed.

Lemma spec_oci_tag_nodup d r t : NoDup (map fst t) -> NoDup (map fst (spec_oci_tag d r t)).
Proof.
  intro H. unfold spec_oci_tag. apply (NoDup_put ref_eqb ref_eqb_spec).
  destruct (ref_eqb r (RDig (d_dig d))); auto. now apply (NoDup_put ref_eqb ref_eqb_spec).
Qed.

Lemma oci_index_nodup s o :
  NoDup (map fst (r_index (o_res s))) -> NoDup (map fst (r_index (o_res (fst (oci_step s o))))).
Proof.
  intro H. destruct o; simpl; auto.
  - destruct (get N.eqb (d_dig d) (o_blobs s)); auto. destruct (verify d c); auto. cbn [fst o_res].
    destruct (is_manifest (d_mt d)); auto. rewrite r_index_oci_tag. now apply spec_oci_tag_nodup.
  - destruct (get N.eqb (d_dig d) (o_blobs s)); auto.
  - assert (Hgen : forall r0, NoDup (map fst (r_index (oci_tag d r0 (o_res s)))))
      by (intro; rewrite r_index_oci_tag; now apply spec_oci_tag_nodup).
    destruct r as [m|g|]; cbn [foreign_digest_ref]; auto; [|destruct (negb (g =? d_dig d)); auto];
      (destruct (is_some _); auto); [exact (Hgen (RName m)) | exact (Hgen (RDig g))].
  - destruct r; auto; destruct (get ref_eqb _ (r_index (o_res s))); auto.
    destruct (get N.eqb g (o_blobs s)); auto.
  - assert (Hgen : forall r0, NoDup (map fst (r_index (res_untag r0 (o_res s)))))
      by (intro; rewrite r_index_untag; now apply NoDup_del).
    destruct r as [m|g|]; auto;
      (destruct (get ref_eqb _ (r_index (o_res s))) as [d0|]; auto;
       destruct (ref_eqb _ (RDig (d_dig d0))); auto);
      [exact (Hgen (RName m)) | exact (Hgen (RDig g))].
  - destruct (get N.eqb (d_dig d) (o_blobs s)); cbn [fst o_res];
      rewrite r_index_untag_equal; now apply untag_fold_nodup.
Qed.

(* operations that may change what the name n resolves to, when it points to key k *)
Definition touches_name (n : N) (k : gkey) (o : op) : bool :=
  match o with
  | Tag _ (RName m) => m =? n
  | Untag (RName m) => m =? n
  | Delete d => d_dig d =? k_dig k      (* Delete untags every reference to that digest *)
  | _ => false
  end.

Lemma oci_name_frame s o n d :
  NoDup (map fst (r_index (o_res s))) ->
  get ref_eqb (RName n) (r_index (o_res s)) = Some d ->
  touches_name n (gk d) o = false ->
  get ref_eqb (RName n) (r_index (o_res (fst (oci_step s o)))) = Some d.
Proof.
  intros Hnd H Ht. destruct (oci_step_view s o Hnd) as [_ V]. specialize (V n). unfold names_of in V.
  rewrite V. unfold vnames, names_of. destruct o; cbn [touches_name] in Ht; rewrite ?H; auto.
  - destruct r; auto. now rewrite Ht, andb_false_r.
  - destruct r; auto. now rewrite Ht.
  - unfold eq_target, k_dig, gk in *. cbn [fst snd] in *. now rewrite N.eqb_sym, Ht.
Qed.

Lemma oci_run_index_nodup h : forall s,
  NoDup (map fst (r_index (o_res s))) -> NoDup (map fst (r_index (o_res (fst (run oci_step s h))))).
Proof. apply (run_invariant_all oci_step (fun s => NoDup (map fst (r_index (o_res s))))), oci_index_nodup. Qed.

(* Resolve of a name returns the descriptor most recently tagged, as long as the name
   is not re-tagged or untagged and the tagged content is not deleted *)
Lemma oci_resolve_latest h1 d n h2 :
  let s := fst (run oci_step oci_init h1) in
  snd (oci_step s (Tag d (RName n))) = OOk ->
  forallb (fun o => negb (touches_name n (gk d) o)) h2 = true ->
  snd (oci_step (fst (run oci_step (fst (oci_step s (Tag d (RName n)))) h2)) (Resolve (RName n))) = ODesc d.
Proof.
  intros s Hok Hfr.
  assert (Hnd0 : NoDup (map fst (r_index (o_res s)))) by (apply oci_run_index_nodup; constructor).
  pose proof (oci_index_nodup s (Tag d (RName n)) Hnd0) as Hnd.
  assert (Hget : get ref_eqb (RName n) (r_index (o_res (fst (oci_step s (Tag d (RName n)))))) = Some d).
  { revert Hok. simpl. destruct (is_some _); [|discriminate]. intros _. cbn [fst o_res].
    change (get ref_eqb (RName n) (r_index (oci_tag d (RName n) (o_res s))) = Some d).
    rewrite r_index_oci_tag. unfold spec_oci_tag. apply (get_put_eq ref_eqb ref_eqb_spec). }
  set (s2 := fst (run oci_step (fst (oci_step s (Tag d (RName n)))) h2)).
  assert (H2 : NoDup (map fst (r_index (o_res s2))) /\ get ref_eqb (RName n) (r_index (o_res s2)) = Some d).
  { eapply (run_invariantb oci_step); [|exact Hfr | split; assumption].
    intros s0 o Ho [A C]. split; [now apply oci_index_nodup|]. apply oci_name_frame; auto. now apply negb_true_iff. }
  clearbody s2. simpl. now rewrite (proj2 H2).
Qed.

Lemma oci_delete_clears h1 d :
  let s := fst (run oci_step oci_init h1) in
  snd (oci_step s (Delete d)) = OOk ->
  let s' := fst (oci_step s (Delete d)) in
  snd (oci_step s' (Fetch d)) = OErr ENotFound /\
  snd (oci_step s' (Exists d)) = OBool false /\
  forall n d', get ref_eqb (RName n) (r_index (o_res s)) = Some d' -> d_dig d' = d_dig d ->
               snd (oci_step s' (Resolve (RName n))) = OErr ENotFound.
Proof.
  intros s Hok s'.
  assert (Hnd : NoDup (map fst (r_index (o_res s)))) by (apply oci_run_index_nodup; constructor).
  unfold s'. revert Hok. simpl. destruct (get N.eqb (d_dig d) (o_blobs s)) eqn:E; [|discriminate].
  intros _. cbn [fst snd o_blobs o_res]. rewrite (get_del_eq N.eqb). repeat split; auto.
  intros n d' Hg Hk. rewrite r_index_untag_equal.
  rewrite (untag_fold_get_drop (gk d) _ _ (RName n) d'); auto.
  - now apply (get_In ref_eqb ref_eqb_spec).
  - apply eq_target_spec. exact Hk.
Qed.

(* Push = the store part under the lock (Model/StoresConcFile.v), then the read-back outside it *)
Lemma file_step_push_split fx ig ov s d c :
  file_step fx ig ov s (Push d c) =
  match file_push_store fx ig ov s d c with
  | (s1, None) => file_index_after fx ov d s1
  | (s1, Some x) => (s1, x)
  end.
Proof.
  unfold file_step, file_push_store.
  destruct (d_name d =? 0).
  - destruct ig.
    + destruct (is_manifest (d_mt d)); [|reflexivity]. destruct (verify d c); [|reflexivity].
      destruct (file_restore fx ov (b_tl c) s) as [s2 [e|]]; reflexivity.
    + destruct (get gkey_eqb (gk d) (f_cas s)); [reflexivity|].
      destruct (verify d (limit_reader d c)); reflexivity.
  - destruct (file_named_push fx ov s (gk d) (d_name d) c) as [s1 [e|]]; reflexivity.
Qed.

Lemma file_step_nonpush fx ig ov s o :
  (exists d c, o = Push d c) \/ fst (file_step fx ig ov s o) = s \/
  exists d r, o = Tag d r /\ r <> REmpty /\
              fst (file_step fx ig ov s o) =
              mkFile (f_names s) (f_d2p s) (f_disk s) (f_cas s) (res_tag d r (f_res s)) (f_graph s).
Proof.
  destruct o; cbn [file_step]; try (right; left; reflexivity).
  - left. eauto.
  - right. left. now destruct (file_fetch d s).
  - right. destruct r; try (left; reflexivity);
      (destruct (file_exists d s); [right; eexists _, _; repeat split; discriminate | left; reflexivity]).
  - right. left. destruct r; try reflexivity; now destruct (get ref_eqb _ (r_index (f_res s))).
Qed.

(* the read-back after a store is graph.Index, followed -- when that succeeded on a manifest which
   is fetched back intact -- by restoreDuplicates of the manifest's titles *)
Lemma file_index_after_state fx ov d s :
  fst (file_index_after fx ov d s) = fst (file_index d s) \/
  exists c1, file_fetch d (fst (file_index d s)) = Some c1 /\
             fst (file_index_after fx ov d s) = fst (file_restore fx ov (b_tl c1) (fst (file_index d s))).
Proof.
  unfold file_index_after. destruct (file_index d s) as [s2 r]. cbn [fst].
  destruct r as [o|e]; [|now left]. destruct o; try now left.
  destruct (is_manifest (d_mt d)); [|now left].
  destruct (file_fetch d s2) as [c1|]; [|now left]. destruct (d_dig d =? b_hash c1); [|now left].
  right. exists c1. split; [reflexivity|]. now destruct (file_restore fx ov (b_tl c1) s2) as [s3 [e|]].
Qed.

(* Every write of the file store is one of four.
   A file written under its name (file_named_push: by the Push itself, or by restoreDuplicates
   for content it could fetch), an entry added to the fallback content map, a node indexed,
   a reference tagged.  A preorder on stores that these four respect -- for the descriptors
   [own] and the references [tagok] the operation may use -- is respected by the operation. *)
Record respects_named (fx ov : bool) (R : file_store -> file_store -> Prop) (own : desc -> Prop) : Prop := mkRN {
  rn_refl : forall a, R a a;
  rn_trans : forall a b c, R a b -> R b c -> R a c;
  rn_named : forall a k n c,
    file_fetch (mkDesc (k_mt k) (k_dig k) (k_size k) 0) a <> None \/ (exists d, own d /\ k = gk d) ->
    R a (fst (file_named_push fx ov a k n c)) }.

Record respects_writes (fx ig ov : bool) (R : file_store -> file_store -> Prop)
       (own : desc -> Prop) (tagok : ref -> Prop) : Prop := mkRW {
  rw_named : respects_named fx ov R own;
  rw_index : forall a d ss,
    R a (mkFile (f_names a) (f_d2p a) (f_disk a) (f_cas a) (f_res a) (g_index d ss (f_graph a)));
  rw_cas : forall a d c,
    own d -> d_name d = 0 -> ig = false -> get gkey_eqb (gk d) (f_cas a) = None ->
    R a (mkFile (f_names a) (f_d2p a) (f_disk a) (put gkey_eqb (gk d) c (f_cas a)) (f_res a) (f_graph a));
  rw_tag : forall a d r,
    tagok r -> R a (mkFile (f_names a) (f_d2p a) (f_disk a) (f_cas a) (res_tag d r (f_res a)) (f_graph a)) }.

Section FileWrites.
  Variables fx ig ov : bool.
  Variable R : file_store -> file_store -> Prop.
  Variable own : desc -> Prop.
  Variable tagok : ref -> Prop.

  Lemma file_restore_rel tl : respects_named fx ov R own -> forall a, R a (fst (file_restore fx ov tl a)).
  Proof.
    intros [R_refl R_trans R_named]. induction tl as [|[k n] tl IH]; intro a; [apply R_refl|]. cbn [file_restore].
    destruct ((n =? 0) || mem N.eqb n (f_names a)); [apply IH|].
    destruct (file_fetch (mkDesc (k_mt k) (k_dig k) (k_size k) 0) a) as [c2|] eqn:Ef; [|apply IH].
    set (c' := match get N.eqb (k_dig k) (f_d2p a) with Some _ => _ | None => _ end).
    assert (H1 : R a (fst (file_named_push fx ov a k n c'))) by (apply R_named; left; congruence).
    destruct (file_named_push fx ov a k n c') as [s1 [e|]]; cbn [fst] in H1.
    - destruct e as [x|[| |]]; try exact H1. eapply R_trans; [exact H1 | apply IH].
    - eapply R_trans; [exact H1 | apply IH].
  Qed.

  Hypothesis HR : respects_writes fx ig ov R own tagok.
  Let R_refl := rn_refl _ _ _ _ (rw_named _ _ _ _ _ _ HR).
  Let R_trans := rn_trans _ _ _ _ (rw_named _ _ _ _ _ _ HR).

  Lemma file_index_after_rel d a : R a (fst (file_index_after fx ov d a)).
  Proof.
    assert (H2 : R a (fst (file_index d a))).
    { unfold file_index. destruct (is_manifest (d_mt d)); [|apply (rw_index _ _ _ _ _ _ HR)].
      destruct (file_fetch d a) as [c1|]; [|apply R_refl].
      destruct (d_dig d =? b_hash c1); [apply (rw_index _ _ _ _ _ _ HR) | apply R_refl]. }
    destruct (file_index_after_state fx ov d a) as [->|(c1 & _ & ->)]; [exact H2|].
    eapply R_trans; [exact H2 | apply file_restore_rel, (rw_named _ _ _ _ _ _ HR)].
  Qed.

  Lemma file_push_store_rel a d c : own d -> R a (fst (file_push_store fx ig ov a d c)).
  Proof.
    intro Hd. unfold file_push_store. destruct (d_name d =? 0) eqn:En.
    - destruct ig eqn:Eig.
      + destruct (is_manifest (d_mt d)); [|apply R_refl]. destruct (verify d c); [|apply R_refl].
        pose proof (file_restore_rel (b_tl c) (rw_named _ _ _ _ _ _ HR) a) as H.
        now destruct (file_restore fx ov (b_tl c) a) as [s2 [e|]].
      + destruct (get gkey_eqb (gk d) (f_cas a)) eqn:Ec; [apply R_refl|].
        destruct (verify d (limit_reader d c)); [|apply R_refl]. cbn [fst]. apply N.eqb_eq in En.
        now apply (rw_cas _ _ _ _ _ _ HR).
    - apply (rn_named _ _ _ _ (rw_named _ _ _ _ _ _ HR)). right. eauto.
  Qed.

  Definition op_ok (o : op) : Prop := match o with Push d _ => own d | Tag _ r => tagok r | _ => True end.

  Lemma file_step_rel a o : op_ok o -> R a (fst (file_step fx ig ov a o)).
  Proof.
    intro Ho. destruct (file_step_nonpush fx ig ov a o) as [(d & c & ->)|[->|(d & r & -> & _ & ->)]];
      [|apply R_refl | now apply (rw_tag _ _ _ _ _ _ HR)].
    rewrite file_step_push_split. pose proof (file_push_store_rel a d c Ho) as H.
    destruct (file_push_store fx ig ov a d c) as [s1 [x|]]; cbn [fst] in *; [exact H|].
    eapply R_trans; [exact H | apply file_index_after_rel].
  Qed.

  Lemma file_run_rel h : forall a, Forall op_ok h -> R a (fst (runf (file_step fx ig ov) a h)).
  Proof.
    induction h as [|o h IH]; intros a Hh; [apply R_refl|]. inversion Hh; subst. rewrite runf_cons. cbn [fst].
    eapply R_trans; [exact (file_step_rel a o H1) | exact (IH _ H2)].
  Qed.
End FileWrites.

Lemma all_ops_ok h : Forall (op_ok (fun _ => True) (fun _ => True)) h.
Proof. apply Forall_forall. intros o _. now destruct o. Qed.

Lemma file_named_push_frame fx ov s k n c :
  f_cas (fst (file_named_push fx ov s k n c)) = f_cas s /\
  f_res (fst (file_named_push fx ov s k n c)) = f_res s /\
  f_graph (fst (file_named_push fx ov s k n c)) = f_graph s.
Proof.
  unfold file_named_push. destruct (mem N.eqb n (f_names s)); auto. destruct (bad_name n); auto.
  destruct (ov && _); auto. destruct (_ && _); auto.
Qed.

Definition titles_ok (c : blob) : Prop :=
  (forall k n, In (k, n) (b_tl c) -> path_of n = n) /\ (forall k n, In (k, n) (b_pre_tl c) -> path_of n = n).

Record file_inv (s : file_store) : Prop := mkFI {
  fi_d2p : forall g p, get N.eqb g (f_d2p s) = Some p ->
                       In p (f_names s) /\ exists c, get N.eqb p (f_disk s) = Some c /\ b_hash c = g;
  fi_disk : forall p c, get N.eqb p (f_disk s) = Some c -> In p (f_names s) /\ titles_ok c;
  fi_cas : forall k c, get gkey_eqb k (f_cas s) = Some c -> b_hash c = k_dig k /\ titles_ok c }.

Lemma file_inv_init : file_inv file_init.
Proof. constructor; simpl; intros; discriminate. Qed.

Lemma memN_In x l : mem N.eqb x l = true <-> In x l.
Proof. apply (mem_In N.eqb Neqb_spec). Qed.

Lemma file_inv_graph s g : file_inv s ->
  file_inv (mkFile (f_names s) (f_d2p s) (f_disk s) (f_cas s) (f_res s) g).
Proof. intros [A B C]. constructor; auto. Qed.

Lemma file_fetch_inv d s c : file_inv s -> file_fetch d s = Some c -> b_hash c = d_dig d /\ titles_ok c.
Proof.
  intros [A B C]. unfold file_fetch. destruct (name_ok d s); [|discriminate].
  destruct (get N.eqb (d_dig d) (f_d2p s)) as [p|] eqn:E.
  - destruct (A _ _ E) as (_ & c0 & Hc & Hh). intro H. rewrite H in Hc. injection Hc as <-.
    split; auto. apply (B _ _ H).
  - intro H. destruct (C _ _ H) as [H1 H2]. split; auto.
Qed.

(* the theorems about the file store exclude the aliasing name, also among the titles *)
Definition no_alias (o : op) : Prop :=
  match o with Push d c => path_of (d_name d) = d_name d /\ titles_ok c | _ => True end.

Lemma file_named_push_inv ov s k n c :
  file_inv s -> path_of n = n -> titles_ok c ->
  file_inv (fst (file_named_push true ov s k n c)).
Proof.
  intros Hinv Hn Ht. pose proof Hinv as [A B C]. unfold file_named_push. rewrite Hn.
  destruct (mem N.eqb n (f_names s)) eqn:Em; [exact Hinv|].
  destruct (bad_name n); [exact Hinv|].
  destruct (ov && is_some (get N.eqb n (f_disk s))); [exact Hinv|].
  assert (Hnot : ~ In n (f_names s)) by (intro H; apply memN_In in H; congruence).
  destruct ((k_dig k =? b_hash c) && (k_size k =? b_len c)) eqn:V; cbn [fst].
  - apply andb_true_iff in V as [V _]. apply N.eqb_eq in V.
    constructor; cbn [f_names f_d2p f_disk f_cas]; auto.
    + intros g p. destruct (N.eq_dec g (k_dig k)) as [->|Hne].
      * rewrite (get_put_eq N.eqb Neqb_spec). intro E. injection E as <-. split; [now left|].
        exists c. rewrite (get_put_eq N.eqb Neqb_spec). split; auto.
      * rewrite (get_put_neq N.eqb Neqb_spec) by exact Hne. intro E.
        destruct (A _ _ E) as (Hp & c0 & Hc0 & Hh). split; [now right|]. exists c0. split; auto.
        rewrite (get_put_neq N.eqb Neqb_spec); auto. intro; subst. contradiction.
    + intros p c0. destruct (N.eq_dec p n) as [->|Hne].
      * rewrite (get_put_eq N.eqb Neqb_spec). intro E. injection E as <-. split; [now left | exact Ht].
      * rewrite (get_put_neq N.eqb Neqb_spec) by exact Hne. intro E.
        destruct (B _ _ E). split; [now right | auto].
  - constructor; cbn [f_names f_d2p f_disk f_cas]; auto.
    + intros g p E. destruct (A _ _ E) as (Hp & c0 & Hc0 & Hh). split; auto. exists c0. split; auto.
      rewrite (get_del_neq N.eqb Neqb_spec); auto. intro; subst. contradiction.
    + now apply (del_all N.eqb Neqb_spec).
Qed.

(* without a second name for a path restoreDuplicates never copies a file onto itself *)
Lemma file_restore_cons ov k n tl s :
  file_inv s -> path_of n = n ->
  file_restore true ov ((k, n) :: tl) s =
  if (n =? 0) || mem N.eqb n (f_names s) then file_restore true ov tl s
  else match file_fetch (mkDesc (k_mt k) (k_dig k) (k_size k) 0) s with
       | None => file_restore true ov tl s
       | Some c2 => match file_named_push true ov s k n c2 with
                    | (s1, None) => file_restore true ov tl s1
                    | (s1, Some (FE FDuplicateName)) => file_restore true ov tl s1
                    | (s1, Some e) => (s1, Some e)
                    end
       end.
Proof.
  intros [A _ _] Hp. cbn [file_restore]. destruct ((n =? 0) || mem N.eqb n (f_names s)) eqn:En; [reflexivity|].
  destruct (file_fetch _ s) as [c2|]; [|reflexivity].
  destruct (get N.eqb (k_dig k) (f_d2p s)) as [p|] eqn:Ep; [|reflexivity].
  destruct (p =? path_of n) eqn:Epn; [|reflexivity]. exfalso.
  apply N.eqb_eq in Epn. rewrite Hp in Epn. subst p. destruct (A _ _ Ep) as [Hin _].
  apply orb_false_iff in En as [_ En]. apply memN_In in Hin. congruence.
Qed.

Lemma file_restore_inv ov tl : forall s,
  file_inv s -> (forall k n, In (k, n) tl -> path_of n = n) ->
  file_inv (fst (file_restore true ov tl s)).
Proof.
  induction tl as [|[k n] tl IH]; intros s Hinv Ht; [exact Hinv|].
  assert (Ht' : forall k0 n0, In (k0, n0) tl -> path_of n0 = n0) by (intros; eapply Ht; right; eauto).
  pose proof (Ht k n (or_introl eq_refl)) as Hp. rewrite (file_restore_cons ov k n tl s Hinv Hp).
  destruct ((n =? 0) || mem N.eqb n (f_names s)); [now apply IH|].
  destruct (file_fetch (mkDesc (k_mt k) (k_dig k) (k_size k) 0) s) as [c2|] eqn:Ef; [|now apply IH].
  pose proof (file_named_push_inv ov s k n c2 Hinv Hp (proj2 (file_fetch_inv _ _ _ Hinv Ef))) as H1.
  destruct (file_named_push true ov s k n c2) as [s1 [e|]]; cbn [fst] in H1.
  - destruct e as [o|[| |]]; try exact H1. now apply IH.
  - now apply IH.
Qed.

Lemma file_index_inv d s1 : file_inv s1 -> file_inv (fst (file_index d s1)).
Proof.
  intro H. unfold file_index. destruct (is_manifest (d_mt d)).
  - destruct (file_fetch d s1) as [c1|]; cbn [fst]; [|exact H].
    destruct (d_dig d =? b_hash c1); cbn [fst]; [now apply file_inv_graph | exact H].
  - cbn [fst]. now apply file_inv_graph.
Qed.

Lemma file_index_after_inv ov d s1 : file_inv s1 -> file_inv (fst (file_index_after true ov d s1)).
Proof.
  intro H. pose proof (file_index_inv d s1 H) as H2.
  destruct (file_index_after_state true ov d s1) as [->|(c1 & Ef & ->)]; [exact H2|].
  destruct (file_fetch_inv _ _ _ H2 Ef) as [_ [Hok _]]. now apply file_restore_inv.
Qed.

Lemma titles_ok_limit d c : titles_ok c -> titles_ok (limit_reader d c).
Proof.
  intros [A B]. unfold limit_reader. destruct (d_size d <? b_len c); [|split; auto].
  split; simpl; auto.
Qed.

Lemma file_inv_cas_put s d c :
  file_inv s -> verify d c = true -> titles_ok c ->
  file_inv (mkFile (f_names s) (f_d2p s) (f_disk s) (put gkey_eqb (gk d) c (f_cas s)) (f_res s) (f_graph s)).
Proof.
  intros [A B C] V Ht. constructor; cbn [f_names f_d2p f_disk f_cas]; auto.
  apply (put_all gkey_eqb gkey_eqb_spec); [|exact C]. split; [now apply verify_spec in V | exact Ht].
Qed.

Lemma file_push_store_inv ig ov s d c :
  no_alias (Push d c) -> file_inv s -> file_inv (fst (file_push_store true ig ov s d c)).
Proof.
  intros [Hna Ht] Hinv. unfold file_push_store. destruct (d_name d =? 0).
  - destruct ig.
    + destruct (is_manifest (d_mt d)); [|exact Hinv]. destruct (verify d c); [|exact Hinv].
      pose proof (file_restore_inv ov (b_tl c) s Hinv (proj1 Ht)) as H2.
      destruct (file_restore true ov (b_tl c) s) as [s2 [e|]]; exact H2.
    + destruct (get gkey_eqb (gk d) (f_cas s)); [exact Hinv|].
      destruct (verify d (limit_reader d c)) eqn:V; [|exact Hinv].
      apply file_inv_cas_put; auto. now apply titles_ok_limit.
  - now apply file_named_push_inv.
Qed.

Lemma file_step_inv ig ov s o : no_alias o -> file_inv s -> file_inv (fst (file_step true ig ov s o)).
Proof.
  intros Hna Hinv. destruct (file_step_nonpush true ig ov s o) as [(d & c & ->)|[->|(d & r & -> & _ & ->)]];
    [|exact Hinv | destruct Hinv; constructor; auto].
  rewrite file_step_push_split. pose proof (file_push_store_inv ig ov s d c Hna Hinv) as H1.
  destruct (file_push_store true ig ov s d c) as [s1 [x|]]; cbn [fst] in *; [exact H1|].
  now apply file_index_after_inv.
Qed.

Lemma file_run_inv ig ov h : forall s,
  Forall no_alias h -> file_inv s -> file_inv (fst (runf (file_step true ig ov) s h)).
Proof. apply (runf_invariant _ file_inv no_alias). intros s o. apply file_step_inv. Qed.

(* no Fetch ever returns bytes that do not hash to the requested digest -- also in histories
   whose manifests carry titled successors (restoreDuplicates) *)
Lemma file_fetch_matches ig ov h d hash len :
  Forall no_alias h ->
  let s := fst (runf (file_step true ig ov) file_init h) in
  snd (file_step true ig ov s (Fetch d)) = FO (OBytes hash len) -> hash = d_dig d.
Proof.
  intros Hna s. pose proof (file_run_inv ig ov h _ Hna file_inv_init) as Hinv. fold s in Hinv.
  cbn [file_step]. destruct (file_fetch d s) as [c|] eqn:Ef; [|discriminate].
  destruct (file_fetch_inv _ _ _ Hinv Ef) as [Hh _]. cbn [snd]. intro H. injection H as <- _. exact Hh.
Qed.

Definition untitled_blob (c : blob) : Prop := b_tl c = [] /\ b_pre_tl c = [].
Definition untitled (o : op) : Prop := match o with Push _ c => untitled_blob c | _ => True end.

Record file_unt (s : file_store) : Prop := mkFU {
  fu_disk : forall p c, get N.eqb p (f_disk s) = Some c -> b_tl c = [];
  fu_cas : forall k c, get gkey_eqb k (f_cas s) = Some c -> b_tl c = [] }.

Lemma file_unt_init : file_unt file_init.
Proof. constructor; simpl; intros; discriminate. Qed.

Lemma file_unt_core s1 s2 : fcore s1 = fcore s2 -> file_unt s1 -> file_unt s2.
Proof.
  destruct s1, s2. unfold fcore. cbn. intro H. injection H as -> -> -> -> ->.
  intros [A C]. constructor; [exact A | exact C].
Qed.

Lemma file_fetch_unt d s c : file_unt s -> file_fetch d s = Some c -> b_tl c = [].
Proof.
  intros [A C]. unfold file_fetch. destruct (name_ok d s); [|discriminate].
  destruct (get N.eqb (d_dig d) (f_d2p s)) as [p|]; intro H; eauto.
Qed.

Lemma untitled_titles_ok c : untitled_blob c -> titles_ok c.
Proof. intros [A B]. unfold titles_ok. rewrite A, B. split; intros k n []. Qed.

Lemma untitled_no_alias o : untitled o -> (match o with Push d _ => path_of (d_name d) = d_name d | _ => True end) -> no_alias o.
Proof. destruct o; simpl; auto. intros H1 H2. split; auto. now apply untitled_titles_ok. Qed.

Lemma unt_push_store fx ig ov s d c :
  untitled_blob c -> file_unt s -> file_unt (fst (file_push_store fx ig ov s d c)).
Proof.
  intros [U1 U2] Hu. pose proof Hu as [UA UC]. unfold file_push_store.
  destruct (d_name d =? 0).
  - destruct ig.
    + destruct (is_manifest (d_mt d)); [|exact Hu]. destruct (verify d c); [|exact Hu]. rewrite U1. exact Hu.
    + destruct (get gkey_eqb (gk d) (f_cas s)); [exact Hu|].
      destruct (verify d (limit_reader d c)); [|exact Hu].
      constructor; cbn [fst f_disk f_cas]; auto.
      apply (put_all gkey_eqb gkey_eqb_spec); [|exact UC]. unfold limit_reader. destruct (d_size d <? b_len c); auto.
  - unfold file_named_push.
    destruct (mem N.eqb (d_name d) (f_names s)); [exact Hu|]. destruct (bad_name (d_name d)); [exact Hu|].
    destruct (ov && is_some (get N.eqb (path_of (d_name d)) (f_disk s))); [exact Hu|].
    destruct ((k_dig (gk d) =? b_hash c) && (k_size (gk d) =? b_len c)); cbn [fst];
      constructor; cbn [f_disk f_cas]; auto.
    + now apply (put_all N.eqb Neqb_spec).
    + destruct fx; [now apply (del_all N.eqb Neqb_spec) | now apply (put_all N.eqb Neqb_spec)].
Qed.

(* with untitled content restoreDuplicates has nothing to do: the read-back after a store
   touches the graph only ... *)
Lemma fcore_index d s : fcore (fst (file_index d s)) = fcore s.
Proof.
  unfold file_index. destruct (is_manifest (d_mt d)); [|reflexivity].
  destruct (file_fetch d s) as [c1|]; [|reflexivity]. destruct (d_dig d =? b_hash c1); reflexivity.
Qed.

Lemma fcore_index_after fx ov d s1 : file_unt s1 -> fcore (fst (file_index_after fx ov d s1)) = fcore s1.
Proof.
  intro Hu. pose proof (fcore_index d s1) as Hc.
  destruct (file_index_after_state fx ov d s1) as [->|(c1 & Ef & ->)]; [exact Hc|].
  rewrite (file_fetch_unt _ _ _ (file_unt_core _ _ (eq_sym Hc) Hu) Ef). exact Hc.
Qed.

(* ... and succeeds when the descriptor is present *)
Lemma file_index_after_ok fx ov d s1 :
  file_inv s1 -> file_unt s1 -> file_exists d s1 = true -> snd (file_index_after fx ov d s1) = FO OOk.
Proof.
  intros Hinv Hu He. unfold file_index_after, file_index. destruct (is_manifest (d_mt d)); [|reflexivity].
  assert (Hf : exists c1, file_fetch d s1 = Some c1).
  { destruct Hinv as [A _ _]. revert He. unfold file_exists, file_fetch. destruct (name_ok d s1); [|discriminate].
    destruct (get N.eqb (d_dig d) (f_d2p s1)) as [p|] eqn:E.
    - destruct (A _ _ E) as (_ & c & Hc & _). eauto.
    - cbn. destruct (get gkey_eqb (gk d) (f_cas s1)); [eauto | discriminate]. }
  destruct Hf as (c1 & Hf). rewrite Hf.
  destruct (file_fetch_inv _ _ _ Hinv Hf) as [Hh _]. rewrite Hh, N.eqb_refl.
  change (file_fetch d (mkFile (f_names s1) (f_d2p s1) (f_disk s1) (f_cas s1) (f_res s1)
                               (g_index d (succ_of (gk d) c1) (f_graph s1)))) with (file_fetch d s1).
  now rewrite Hf, Hh, N.eqb_refl, (file_fetch_unt _ _ _ Hu Hf).
Qed.

Lemma file_step_unt fx ig ov s o : untitled o -> file_unt s -> file_unt (fst (file_step fx ig ov s o)).
Proof.
  intros Hun Hu. destruct (file_step_nonpush fx ig ov s o) as [(d & c & ->)|[->|(d & r & -> & _ & ->)]];
    [|exact Hu | destruct Hu; constructor; auto].
  rewrite file_step_push_split. pose proof (unt_push_store fx ig ov s d c Hun Hu) as H1.
  destruct (file_push_store fx ig ov s d c) as [s1 [x|]]; cbn [fst] in *; [exact H1|].
  exact (file_unt_core _ _ (eq_sym (fcore_index_after fx ov d s1 H1)) H1).
Qed.

Lemma push_store_result fx ig ov s d c :
  match snd (file_push_store fx ig ov s d c) with
  | None => file_exists d (fst (file_push_store fx ig ov s d c)) = true
  | Some x => x = FO OOk -> ig = true /\ d_name d = 0
  end.
Proof.
  unfold file_push_store, file_exists, name_ok. destruct (d_name d =? 0) eqn:En.
  - apply N.eqb_eq in En. destruct ig.
    + destruct (is_manifest (d_mt d)); [|cbn [snd]; auto]. destruct (verify d c); [|cbn [snd]; auto].
      destruct (file_restore fx ov (b_tl c) s) as [s2 [e|]]; cbn [snd]; auto.
    + destruct (get gkey_eqb (gk d) (f_cas s)); [discriminate|].
      destruct (verify d (limit_reader d c)); [|discriminate]. cbn [fst snd f_names f_d2p f_cas].
      rewrite (get_put_eq gkey_eqb gkey_eqb_spec), En. apply orb_true_r.
  - unfold file_named_push. destruct (mem N.eqb (d_name d) (f_names s)); [discriminate|].
    destruct (bad_name (d_name d)); [discriminate|]. destruct (ov && _); [discriminate|].
    destruct (_ && _); [|discriminate]. cbn [fst snd f_names f_d2p f_cas].
    change (k_dig (gk d)) with (d_dig d). rewrite (get_put_eq N.eqb Neqb_spec).
    assert (M : mem N.eqb (d_name d) (d_name d :: f_names s) = true) by (apply memN_In; now left).
    rewrite M. now rewrite orb_true_r.
Qed.

(* the store part of a failed Push has changed nothing (repaired pushFile: the file of a failed
   copy is removed, and by the invariant it was not there before) *)
Lemma push_store_failed ig ov s d c x :
  file_inv s -> no_alias (Push d c) -> untitled_blob c ->
  snd (file_push_store true ig ov s d c) = Some x -> fout_is_err x = true ->
  fst (file_push_store true ig ov s d c) = s.
Proof.
  intros [_ B _] [Hna _] [U1 _]. unfold file_push_store. destruct (d_name d =? 0).
  - destruct ig.
    + destruct (is_manifest (d_mt d)); [|reflexivity]. destruct (verify d c); [|reflexivity]. now rewrite U1.
    + destruct (get gkey_eqb (gk d) (f_cas s)); [reflexivity|].
      destruct (verify d (limit_reader d c)); [discriminate | reflexivity].
  - unfold file_named_push. rewrite Hna.
    destruct (mem N.eqb (d_name d) (f_names s)) eqn:Em; [reflexivity|].
    destruct (bad_name (d_name d)); [reflexivity|].
    destruct (ov && is_some (get N.eqb (d_name d) (f_disk s))); [reflexivity|].
    destruct ((k_dig (gk d) =? b_hash c) && (k_size (gk d) =? b_len c)); [discriminate|]. intros _ _. cbn [fst].
    assert (Hd : get N.eqb (d_name d) (f_disk s) = None).
    { destruct (get N.eqb (d_name d) (f_disk s)) as [c0|] eqn:E; auto.
      apply B in E as [E _]. apply memN_In in E. congruence. }
    rewrite (del_absent N.eqb _ _ Hd). now destruct s.
Qed.

(* a refused or failed operation changes nothing (repaired pushFile; no aliasing name; no
   titled successors, i.e. restoreDuplicates has nothing to restore) *)
Lemma file_failed_noop ig ov h o :
  Forall no_alias h -> Forall untitled h -> no_alias o -> untitled o ->
  let s := fst (runf (file_step true ig ov) file_init h) in
  fout_is_err (snd (file_step true ig ov s o)) = true -> fst (file_step true ig ov s o) = s.
Proof.
  intros Hna Hun Hnao Huno s.
  pose proof (file_run_inv ig ov h _ Hna file_inv_init) as Hinv.
  pose proof (runf_invariant _ file_unt untitled (file_step_unt true ig ov) h _ Hun file_unt_init) as Hu.
  fold s in Hinv, Hu. destruct o; try reflexivity.
  - rewrite file_step_push_split.
    pose proof (push_store_failed ig ov s d c) as Hf. pose proof (push_store_result true ig ov s d c) as Hr.
    pose proof (file_push_store_inv ig ov s d c Hnao Hinv) as Hi1. pose proof (unt_push_store true ig ov s d c Huno Hu) as Hu1.
    destruct (file_push_store true ig ov s d c) as [s1 [x|]]; cbn [fst snd] in *; [now apply Hf|].
    now rewrite (file_index_after_ok true ov d s1 Hi1 Hu1 Hr).
  - cbn [file_step]. destruct (file_fetch d s); reflexivity.
  - cbn [file_step]. destruct r; try reflexivity; (destruct (file_exists d s); [discriminate|reflexivity]).
  - cbn [file_step]. destruct r; try reflexivity; destruct (get ref_eqb _ (r_index (f_res s))); reflexivity.
Qed.

(* a name is written once: pushing under an existing name is refused and changes nothing *)
Lemma file_duplicate_name fx ig ov s d c :
  d_name d <> 0 -> In (d_name d) (f_names s) ->
  file_step fx ig ov s (Push d c) = (s, FE FDuplicateName).
Proof.
  intros Hn Hin. cbn [file_step]. apply N.eqb_neq in Hn. rewrite Hn.
  unfold file_named_push. apply memN_In in Hin. now rewrite Hin.
Qed.

Definition w_named := mkDesc 6 1 5 8.          (* digest 1, 5 bytes, title = name 1 *)
Definition w_unnamed := mkDesc 6 1 5 0.
Definition w_good := mkBlob 1 5 [] 1 [].
Definition w_bad := mkBlob 2 5 [] 2 [].
Definition w_trailing := mkBlob 3 6 [] 1 [].   (* 6 bytes whose first 5 are the content of digest 1 *)

(* the code as found: a failed push leaves its file behind and, with DisableOverwrite,
   makes the later valid push of the same name fail *)
Lemma file_failed_noop_prefix_witness :
  snd (runf (file_step false false true) file_init [Push w_named w_bad; Push w_named w_good])
    = [FO (OErr EMismatch); FE FOverwrite] /\
  snd (runf (file_step false false true) file_init [Push w_named w_good]) = [FO OOk] /\
  snd (runf (file_step true false true) file_init [Push w_named w_bad; Push w_named w_good])
    = [FO (OErr EMismatch); FO OOk].
Proof. vm_compute. auto. Qed.

(* known: content present through a named file is accepted again when pushed unnamed *)
Lemma file_push_present_witness :
  let s := fst (runf (file_step true false false) file_init [Push w_named w_good]) in
  file_exists w_unnamed s = true /\
  snd (file_step true false false s (Push w_unnamed w_good)) = FO OOk.
Proof. vm_compute. auto. Qed.

(* known: the fallback storage cuts trailing data; Fetch returns fewer bytes than were pushed *)
Lemma file_trailing_witness :
  snd (runf (file_step true false false) file_init [Push w_unnamed w_trailing; Fetch w_unnamed])
    = [FO OOk; FO (OBytes 1 5)] /\ b_len w_trailing = 6.
Proof. vm_compute. auto. Qed.

(* known: two names for one path -- the second push overwrites the file the first digest
   points to, and Fetch of the first descriptor returns the other bytes *)
Definition w_alias := mkDesc 6 2 5 40.         (* digest 2, title = name 5 = "./" ++ name 1 *)
Lemma file_alias_witness :
  snd (runf (file_step true false false) file_init
            [Push w_named w_good; Push w_alias (mkBlob 2 5 [] 2 []); Fetch w_named])
    = [FO OOk; FO OOk; FO (OBytes 2 5)] /\ d_dig w_named = 1.
Proof. vm_compute. auto. Qed.

(* known (audit F1): restoreDuplicates fails AFTER the manifest was stored and indexed -- here
   the layer entry is titled with a name outside the working directory.  The failed Push has
   changed the state: Exists answers true, a re-push is already-exists, Predecessors lists it. *)
Definition w_layer := mkDesc 6 1 5 0.
Definition w_manifest := mkDesc 1 9 20 0.
Definition w_manifest_blob := mkBlobT 9 20 [(6, 1, 5)] 9 [(6, 1, 5)] [((6, 1, 5), 6)] [((6, 1, 5), 6)].
Lemma file_restore_fails_witness :
  snd (runf (file_step true false false) file_init
            [Push w_layer w_good; Push w_manifest w_manifest_blob; Exists w_manifest;
             Push w_manifest w_manifest_blob; Preds w_layer])
    = [FO OOk; FE FTraversal; FO (OBool true); FO (OErr EAlreadyExists); FO (OPreds [(1, 9, 20)])].
Proof. vm_compute. reflexivity. Qed.

(* Tie to the source: which media types are manifests.
   The model numbers the manifest media types 1..5 and gives exactly them successors.
   Generated/GC06.v holds the case labels of descriptor.IsManifest and of
   content.Successors as re-read from the Go sources on every run. *)
Lemma manifest_types_from_source :
  (forall x, In x isManifest_cases <-> In x successors_cases) /\
  length isManifest_cases = 5%nat /\ NoDup isManifest_cases.
Proof.
  split; [|split].
  - intro x. unfold isManifest_cases, successors_cases. simpl. tauto.
  - reflexivity.
  - unfold isManifest_cases. repeat constructor; simpl; intuition discriminate.
Qed.

(* a concrete universe and history (non-vacuity of the OCI hypotheses) *)
Definition ex_U (g : N) : gkey :=
  if g =? 1 then (1, 1, 10) else if g =? 2 then (6, 2, 5) else (0, g, 0).
Definition ex_man := mkDesc 1 1 10 0.
Definition ex_layer := mkDesc 6 2 5 0.
Definition ex_hist : list op :=
  [ Push ex_man (mkBlob 1 10 [(6, 2, 5)] 1 [(6, 2, 5)]); Push ex_layer (mkBlob 2 5 [] 2 []);
    Push ex_layer (mkBlob 2 5 [] 2 []); Tag ex_man (RName 1); Resolve (RName 1); Resolve (RDig 2);
    Preds ex_layer; Delete ex_man; Resolve (RName 1); Preds ex_layer; Delete ex_man ].

Lemma ex_U_dig : forall g, k_dig (ex_U g) = g.
Proof.
  intro g. unfold ex_U. destruct (g =? 1) eqn:E1; [apply N.eqb_eq in E1; now subst|].
  destruct (g =? 2) eqn:E2; [apply N.eqb_eq in E2; now subst|]. reflexivity.
Qed.

Lemma ex_canon : Forall (canon_op ex_U) ex_hist.
Proof. repeat constructor. Qed.

Lemma ex_run :
  snd (run oci_step oci_init ex_hist) =
  [ OOk; OOk; OErr EAlreadyExists; OOk; ODesc ex_man; ODesc (mkDesc 0 2 5 0);
    OPreds [(1, 1, 10)]; OOk; OErr ENotFound; OPreds []; OErr ENotFound ].
Proof. vm_compute. reflexivity. Qed.

(* "No operation ever returns bytes that do not match its descriptor" *)
Lemma mem_fetch_matches h d hash len :
  snd (mem_step (fst (run mem_step mem_init h)) (Fetch d)) = OBytes hash len ->
  hash = d_dig d /\ len = d_size d.
Proof.
  assert (H : forall k c, get gkey_eqb k (m_cas (fst (run mem_step mem_init h))) = Some c ->
                          b_hash c = k_dig k /\ b_len c = k_size k).
  { apply (run_invariant_all mem_step).
    - intros s o Hs. rewrite mem_step_cas. apply (vmap_verified gkey_eqb gk false gkey_eqb_spec); [|exact Hs].
      intros d0 c0. apply verify_spec.
    - intros k c X. discriminate. }
  simpl. destruct (get gkey_eqb (gk d) (m_cas (fst (run mem_step mem_init h)))) as [c|] eqn:E; [|discriminate].
  intro X. injection X as <- <-. apply (H _ _ E).
Qed.

(* OCI (content addressed by digest; the size field of the request is not consulted):
   whatever Fetch returns hashes to the requested digest -- for every history, canonical or not *)
Lemma oci_fetch_matches h d hash len :
  snd (oci_step (fst (run oci_step oci_init h)) (Fetch d)) = OBytes hash len -> hash = d_dig d.
Proof.
  assert (H : forall g c, get N.eqb g (o_blobs (fst (run oci_step oci_init h))) = Some c -> b_hash c = g).
  { apply (run_invariant_all oci_step).
    - intros s o Hs. rewrite oci_step_blobs. apply (vmap_verified N.eqb d_dig true Neqb_spec); [|exact Hs].
      intros d0 c0 V. now apply verify_spec in V.
    - intros g c X. discriminate. }
  simpl. destruct (get N.eqb (d_dig d) (o_blobs (fst (run oci_step oci_init h)))) as [c|] eqn:E; [|discriminate].
  intro X. injection X as <- _. apply (H _ _ E).
Qed.

(* Tie to the source: the order of effects the models mirror.
   Generated/GC06.v lists, per modelled Go function, the calls of its body in source order
   (translator kind c06_callseq).  The hand-written step functions perform the same effects
   in the same order; these checks fail (layer P) when a step is re-ordered, removed or
   replaced in the Go source. *)
Fixpoint pos_of (x : string) (l : list string) : option nat :=
  match l with
  | [] => None
  | y :: l' => if String.eqb x y then Some O else option_map S (pos_of x l')
  end.
Definition before (a c : string) (l : list string) : bool :=
  match pos_of a l, pos_of c l with Some i, Some j => Nat.ltb i j | _, _ => false end.
Definition has (a : string) (l : list string) : bool := match pos_of a l with Some _ => true | None => false end.
Definition times (a : string) (l : list string) : nat := length (filter (String.eqb a) l).

Definition call_order_checks : list bool :=
  [ (* memory store *)
    before "s.storage.Push" "s.graph.Index" mem_Push_calls;
    before "s.storage.Exists" "s.resolver.Tag" mem_Tag_calls;
    before "m.content.Load" "contentpkg.ReadAll" cas_Push_calls;
    before "contentpkg.ReadAll" "m.content.LoadOrStore" cas_Push_calls;
    negb (has "m.content.Store" cas_Push_calls);
    (* OCI store *)
    before "s.sync.RLock" "s.storage.Push" oci_Push_calls;
    before "s.storage.Push" "s.graph.Index" oci_Push_calls;
    before "s.graph.Index" "s.tag" oci_Push_calls;
    before "validateReference" "digest.Digest" oci_Tag_calls;
    before "digest.Digest" "s.storage.Exists" oci_Tag_calls;
    before "s.storage.Exists" "s.graph.Index" oci_Tag_calls;
    before "s.graph.Index" "s.tag" oci_Tag_calls;
    Nat.eqb (times "s.tagResolver.Tag" oci_tag_calls) 2;
    before "s.tagResolver.Map" "s.tagResolver.Untag" oci_delete_calls;
    before "s.tagResolver.Untag" "s.graph.Remove" oci_delete_calls;
    before "s.graph.Remove" "s.storage.Delete" oci_delete_calls;
    before "s.tagResolver.Resolve" "s.tagResolver.Untag" oci_Untag_calls;
    (* file store *)
    before "s.push" "s.graph.Index" file_Push_calls;
    before "s.graph.Index" "s.restoreDuplicates" file_Push_calls;
    has "s.restoreDuplicatesOfSkipped" file_Push_calls;
    before "status.Lock" "s.resolveWritePath" file_push_calls;
    before "s.resolveWritePath" "s.pushFile" file_push_calls;
    has "s.fallbackStorage.Push" file_push_calls;
    before "os.Create" "s.saveFile" file_pushFile_calls;
    before "s.saveFile" "os.Remove" file_pushFile_calls;
    before "s.Exists" "s.resolver.Tag" file_Tag_calls;
    has "io.LimitReader" limited_Push_calls;
    (* resolver *)
    has "oldTagSet.Delete" resolver_Tag_calls;
    before "m.lock.Lock" "tagSet.Add" resolver_Tag_calls;
    (* oci.Storage.Push: stat, then ingest into a temp file, then rename onto the blob path *)
    before "os.Stat" "s.ingest" ocistorage_Push_calls;
    before "s.ingest" "os.Rename" ocistorage_Push_calls;
    (* oci.Store.Resolve: the tag map first, the blob fallback second *)
    before "s.tagResolver.Resolve" "resolveBlob" oci_Resolve_calls;
    (* file store reads: name status, then digestToPath, then the fallback storage *)
    before "s.nameExists" "s.digestToPath.Load" file_Fetch_calls;
    before "s.digestToPath.Load" "os.Open" file_Fetch_calls;
    before "os.Open" "s.fallbackStorage.Fetch" file_Fetch_calls;
    before "s.nameExists" "s.digestToPath.Load" file_Exists_calls;
    before "s.digestToPath.Load" "s.fallbackStorage.Exists" file_Exists_calls;
    (* restoreDuplicatesFrom: successors, skip existing names, fetch by plain descriptor, push *)
    before "content.Successors" "s.nameExists" file_restoreFrom_calls;
    before "s.nameExists" "s.Fetch" file_restoreFrom_calls;
    before "s.Fetch" "s.push" file_restoreFrom_calls ].

Lemma call_order_from_source : forallb (fun x => x) call_order_checks = true.
Proof. vm_compute. reflexivity. Qed.
