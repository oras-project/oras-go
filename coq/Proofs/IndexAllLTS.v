(* Proofs/IndexAllLTS.v -- every schedule of the concurrent IndexAll that runs to completion
   indexes exactly the nodes reachable from the root through fetchable nodes: the same graph
   (up to the order inside sets) as the sequential work-list of Model/GraphMem.v. *)
From Coq Require Import List NArith Bool Permutation.
Import ListNotations.
From Oras Require Import Model.GraphMem Model.IndexAllLTS Proofs.GraphMem.

Lemma remove_nth_In {A} (x : A) : forall l i, In x (remove_nth i l) -> In x l.
Proof.
  induction l as [|a r IH]; intros i H; destruct i; simpl in *; auto.
  destruct H as [H|H]; eauto.
Qed.

Lemma remove_nth_split {A} (x d : A) : forall l i,
  nth_error l i = Some d -> In x l -> x = d \/ In x (remove_nth i l).
Proof.
  induction l as [|a r IH]; intros i E H; destruct i; simpl in *; try discriminate.
  - inversion E; subst. destruct H; auto.
  - destruct H as [H|H]; [right; left; exact H|]. destruct (IH i E H); auto.
Qed.

Lemma remove_nth_NoDup {A} : forall (l : list A) i, NoDup l -> NoDup (remove_nth i l).
Proof.
  induction l as [|a r IH]; intros i H; destruct i; simpl; auto; inversion H; subst; auto.
  constructor; auto. intro Hin. apply remove_nth_In in Hin. auto.
Qed.

Lemma remove_nth_NoDup_notin {A} (d : A) : forall l i,
  nth_error l i = Some d -> NoDup l -> ~ In d (remove_nth i l).
Proof.
  induction l as [|a r IH]; intros i E H; destruct i; simpl in *; try discriminate;
    inversion H; subst.
  - inversion E; subst. auto.
  - intros [->|Hin].
    + apply nth_error_In in E. auto.
    + apply (IH i E H3 Hin).
Qed.

Section IA.
Variable content : node -> list node.
Variable sok : node -> bool.
Variable g0 : graph.
Variable r : node.

Record IAinv (st : ia_state) : Prop := mkIAinv {
  a_inv : Inv content (ia_g st);
  a_sound : forall x, In x (ia_pending st) \/ In x (ia_tracker st) -> pre content sok r x;
  a_nodes : forall x, In x (g_nodes (ia_g st)) <->
              In x (g_nodes g0) \/ (In x (ia_tracker st) /\ sok x = true /\ ~ In x (ia_inflight st));
  a_closed : forall p, In p (ia_tracker st) -> sok p = true -> ~ In p (ia_inflight st) ->
              forall c, In c (content p) -> In c (ia_tracker st) \/ In c (ia_pending st);
  a_root : In r (ia_tracker st) \/ In r (ia_pending st);
  a_infl : forall x, In x (ia_inflight st) -> In x (ia_tracker st) /\ sok x = true;
  a_nodup : NoDup (ia_inflight st)
}.

Lemma IA_init : Inv content g0 -> IAinv (ia_init g0 r).
Proof.
  intro HI. constructor; simpl.
  - exact HI.
  - intros x [[<-|[]]|[]]. apply pre_refl.
  - intro x. split; [auto | intros [H|[[] _]]; auto].
  - intros p [].
  - right. left. reflexivity.
  - intros x [].
  - constructor.
Qed.

Lemma ia_step_inv st e st' : IAinv st -> ia_step content sok st e = Some st' -> IAinv st'.
Proof.
  intros [A1 A2 A3 A4 A5 A6 A7] H. destruct e as [i|j]; simpl in H.
  - destruct (nth_error (ia_pending st) i) as [d|] eqn:E; [|discriminate].
    assert (In d (ia_pending st)) as Hd by (eapply nth_error_In; eauto).
    assert (forall x, In x (ia_pending st) -> x = d \/ In x (remove_nth i (ia_pending st))) as Hsp
      by (intros x Hx; apply (remove_nth_split x d _ i E Hx)).
    destruct (smem d (ia_tracker st)) eqn:M.
    + apply smem_In in M. inversion H; subst; clear H. constructor; simpl; auto.
      * intros x [Hx|Hx]; apply A2; [left; eapply remove_nth_In; eauto | auto].
      * intros p Hp Hs Hn c Hc. destruct (A4 p Hp Hs Hn c Hc) as [Hx|Hx]; auto.
        destruct (Hsp c Hx) as [->|Hy]; auto.
      * destruct A5 as [Hx|Hx]; auto. destruct (Hsp r Hx) as [->|Hy]; auto.
    + apply smem_false in M.
      assert (~ In d (ia_inflight st)) as Hni by (intro Hx; apply M, (A6 d Hx)).
      destruct (sok d) eqn:S; inversion H; subst; clear H; constructor; simpl; auto.
      * intros x [Hx|[<-|Hx]]; apply A2; auto. left. eapply remove_nth_In; eauto.
      * intro x. rewrite A3. split.
        -- intros [Hx|(Ha & Hb & Hc)]; auto. right. split; auto. split; auto.
           intros [<-|Hx]; auto.
        -- intros [Hx|([<-|Ha] & Hb & Hc)]; auto.
           ++ exfalso. apply Hc. auto.
           ++ right. split; auto.
      * intros p [<-|Hp] Hs Hn c Hc; [exfalso; apply Hn; auto|].
        destruct (A4 p Hp Hs (fun F => Hn (or_intror F)) c Hc) as [Hx|Hx]; auto.
        destruct (Hsp c Hx) as [->|Hy]; auto.
      * destruct A5 as [Hx|Hx]; auto. destruct (Hsp r Hx) as [->|Hy]; auto.
      * intros x [<-|Hx]; auto. destruct (A6 x Hx). auto.
      * constructor; auto.
      * intros x [Hx|[<-|Hx]]; apply A2; auto. left. eapply remove_nth_In; eauto.
      * intro x. rewrite A3. split.
        -- intros [Hx|(Ha & Hb & Hc)]; auto.
        -- intros [Hx|([<-|Ha] & Hb & Hc)]; auto. congruence.
      * intros p [<-|Hp] Hs Hn c Hc; [congruence|].
        destruct (A4 p Hp Hs Hn c Hc) as [Hx|Hx]; auto.
        destruct (Hsp c Hx) as [->|Hy]; auto.
      * destruct A5 as [Hx|Hx]; auto. destruct (Hsp r Hx) as [->|Hy]; auto.
      * intros x Hx. destruct (A6 x Hx). auto.
  - destruct (nth_error (ia_inflight st) j) as [d|] eqn:E; [|discriminate].
    inversion H; subst; clear H.
    assert (In d (ia_inflight st)) as Hd by (eapply nth_error_In; eauto).
    destruct (A6 d Hd) as [Hdt Hds].
    assert (~ In d (remove_nth j (ia_inflight st))) as Hnd by (apply remove_nth_NoDup_notin; auto).
    constructor; simpl.
    + apply index_Inv, A1.
    + intros x [Hx|Hx]; [|apply A2; auto].
      apply in_app_iff in Hx. destruct Hx as [Hx|Hx]; [apply A2; auto|].
      eapply pre_step; [apply A2; right; exact Hdt | exact Hds | exact Hx].
    + intro x. rewrite In_sadd, A3. split.
      * intros [->|[Hx|(Ha & Hb & Hc)]]; auto.
        right. split; auto. split; auto. intro Hx. apply Hc. eapply remove_nth_In; eauto.
      * intros [Hx|(Ha & Hb & Hc)]; auto.
        destruct (N.eq_dec x d) as [->|Hne]; auto.
        right. right. split; auto. split; auto. intro Hx.
        destruct (remove_nth_split x d _ j E Hx); auto.
    + intros p Hp Hs Hn c Hc. destruct (N.eq_dec p d) as [->|Hne].
      * right. apply in_app_iff. auto.
      * assert (~ In p (ia_inflight st)) as Hn'.
        { intro Hx. destruct (remove_nth_split p d _ j E Hx); auto. }
        destruct (A4 p Hp Hs Hn' c Hc) as [Hx|Hx]; auto. right. apply in_app_iff. auto.
    + destruct A5 as [Hx|Hx]; auto. right. apply in_app_iff. auto.
    + intros x Hx. apply A6. eapply remove_nth_In; eauto.
    + apply remove_nth_NoDup, A7.
Qed.

Lemma ia_run_inv trace : forall st st', IAinv st -> ia_run content sok st trace = Some st' -> IAinv st'.
Proof.
  induction trace as [|e t IH]; intros st st' HI H; simpl in H.
  - inversion H; subst; auto.
  - destruct (ia_step content sok st e) as [st1|] eqn:E; [|discriminate].
    apply (IH st1); auto. apply (ia_step_inv st e); auto.
Qed.
End IA.

Lemma ia_complete content sok g r trace st' :
  Inv content g ->
  ia_run content sok (ia_init g r) trace = Some st' -> ia_done st' = true ->
  Inv content (ia_g st') /\
  forall x, In x (g_nodes (ia_g st')) <-> In x (g_nodes g) \/ areach content sok r x.
Proof.
  intros HI H Hd.
  pose proof (ia_run_inv content sok g r trace (ia_init g r) st' (IA_init content sok g r HI) H)
    as [A1 A2 A3 A4 A5 A6 A7].
  unfold ia_done in Hd.
  destruct (ia_pending st') eqn:Ep; [|discriminate]. destruct (ia_inflight st') eqn:Ei; [|discriminate].
  split; auto. intro x. rewrite A3. unfold areach. split.
  - intros [Hx|(Ha & Hb & _)]; auto.
  - intros [Hx|[Hp Hs]]; [left; exact Hx | right]. split; [|split; [exact Hs | intros []]].
    apply (pre_closed content sok (fun y => In y (ia_tracker st')) r); auto.
    + destruct A5 as [Hx|[]]; auto.
    + intros p Hp' Hs' c Hc. destruct (A4 p Hp' Hs' (fun F => F) c Hc) as [Hx|[]]; auto.
Qed.

Lemma ia_same_as_sequential content sok g r trace st' fuel g' :
  Inv content g ->
  ia_run content sok (ia_init g r) trace = Some st' -> ia_done st' = true ->
  index_all_root content sok fuel g r = (g', true) ->
  (forall x, In x (g_nodes (ia_g st')) <-> In x (g_nodes g')) /\
  forall n, Permutation (predecessors (ia_g st') n) (predecessors g' n).
Proof.
  intros HI H Hd Hs.
  destruct (ia_complete content sok g r trace st' HI H Hd) as [HI' Hn].
  assert (Inv content g') as HIs.
  { pose proof (index_all_root_Inv content sok fuel g r HI) as H1. rewrite Hs in H1. exact H1. }
  assert (forall x, In x (g_nodes (ia_g st')) <-> In x (g_nodes g')) as Hsame.
  { intro x. rewrite Hn, (index_all_root_nodes content sok fuel g r g' Hs x). tauto. }
  split; auto. apply (same_nodes_same_preds content); auto.
Qed.


(* a schedule in which a grandchild is committed before its parent's sibling is indexed
   (the example of Properties/C07.v) *)
Definition ia_ct : amap := [(3, [2; 1]); (2, [0; 1])]%N.
