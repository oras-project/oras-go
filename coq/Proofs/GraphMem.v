(* Proofs/GraphMem.v -- lemmas about Model/GraphMem.v (graph.Memory): the invariant [Inv] written
   in the comments of memory.go is kept by index, Remove (any map iteration order) and IndexAll;
   under it Predecessors is exact ([exact_full]); IndexAll from a root adds what the root reaches
   through fetchable nodes, so a reload answers like the live graph ([reload_equiv]).
   Rests on the standard library and the model only. *)
From Coq Require Import List NArith Bool Lia Permutation.
Import ListNotations.
From Oras Require Import Model.GraphMem.

Lemma smem_In x s : smem x s = true <-> In x s.
Proof.
  induction s as [|y r IH]; simpl.
  - split; [discriminate | tauto].
  - destruct (N.eqb_spec x y) as [->|Hne].
    + split; auto.
    + rewrite IH. split; [auto | intros [H|H]; [congruence | exact H]].
Qed.

Lemma smem_false x s : smem x s = false <-> ~ In x s.
Proof.
  rewrite <- smem_In. destruct (smem x s); split; intros; congruence.
Qed.

Lemma In_sadd y x s : In y (sadd x s) <-> y = x \/ In y s.
Proof.
  unfold sadd. destruct (smem x s) eqn:E; simpl.
  - apply smem_In in E. split; [auto | intros [->|H]; auto].
  - split; intros [H|H]; auto.
Qed.

Lemma NoDup_sadd x s : NoDup s -> NoDup (sadd x s).
Proof.
  intro H. unfold sadd. destruct (smem x s) eqn:E; auto.
  apply smem_false in E. constructor; auto.
Qed.

Lemma sadd_not_nil x s : sadd x s <> [].
Proof.
  intro H. assert (In x (sadd x s)) as HI by (apply In_sadd; auto).
  rewrite H in HI. destruct HI.
Qed.

Lemma In_sdel y x s : In y (sdel x s) <-> y <> x /\ In y s.
Proof.
  induction s as [|z r IH]; simpl.
  - tauto.
  - destruct (N.eqb_spec x z) as [->|Hne]; simpl; rewrite IH.
    + split; [intros [H1 H2]; auto | intros [H1 [H2|H2]]; [congruence | auto]].
    + split.
      * intros [->|[H1 H2]]; auto.
      * intros [H1 [H2|H2]]; auto.
Qed.

Lemma NoDup_sdel x s : NoDup s -> NoDup (sdel x s).
Proof.
  induction 1 as [|z r Hz Hr IH]; simpl; [constructor|].
  destruct (N.eqb_spec x z); auto.
  constructor; auto. rewrite In_sdel. tauto.
Qed.

Lemma sdel_idem x s : sdel x (sdel x s) = sdel x s.
Proof.
  induction s as [|z r IH]; simpl; auto.
  destruct (N.eqb_spec x z) as [->|Hne]; auto.
  simpl. destruct (N.eqb_spec x z); [congruence|]. now rewrite IH.
Qed.

Lemma sdel_nil x s : sdel x s = [] <-> forall p, In p s -> p = x.
Proof.
  split.
  - intros H p Hp. destruct (N.eq_dec p x) as [|Hne]; auto.
    assert (In p (sdel x s)) as HI by (apply In_sdel; auto).
    rewrite H in HI. destruct HI.
  - intro H. destruct (sdel x s) as [|z r] eqn:E; auto.
    assert (In z (sdel x s)) as HI by (rewrite E; simpl; auto).
    apply In_sdel in HI. destruct HI as [H1 H2]. apply H in H2. congruence.
Qed.

Lemma NoDup_snoc (l : list node) a : NoDup l -> ~ In a l -> NoDup (l ++ [a]).
Proof.
  induction 1 as [|z r Hz Hr IH]; intros Ha; simpl.
  - constructor; [tauto | constructor].
  - constructor.
    + rewrite in_app_iff. simpl. intros [H|[H|[]]]; [auto | subst; apply Ha; simpl; auto].
    + apply IH. intro H. apply Ha. simpl; auto.
Qed.

Lemma fold_sadd_In ss : forall acc x,
  In x (fold_left (fun acc s => sadd s acc) ss acc) <-> In x ss \/ In x acc.
Proof.
  induction ss as [|a r IH]; intros acc x; simpl.
  - tauto.
  - rewrite IH, In_sadd. split; intros H; intuition auto.
Qed.

Lemma fold_sadd_NoDup ss : forall acc, NoDup acc -> NoDup (fold_left (fun acc s => sadd s acc) ss acc).
Proof.
  induction ss as [|a r IH]; intros acc H; simpl; auto.
  apply IH, NoDup_sadd, H.
Qed.

Lemma aget_adel m k k' : aget (adel m k) k' = if N.eqb k' k then None else aget m k'.
Proof.
  induction m as [|[k0 v] r IH]; simpl.
  - destruct (N.eqb k' k); auto.
  - destruct (N.eqb_spec k k0) as [->|Hne]; simpl.
    + rewrite IH. destruct (N.eqb_spec k' k0); auto.
    + rewrite IH. destruct (N.eqb_spec k' k0) as [->|Hne2].
      * destruct (N.eqb_spec k0 k); [congruence | auto].
      * auto.
Qed.

Lemma aget_aset m k v k' : aget (aset m k v) k' = if N.eqb k' k then Some v else aget m k'.
Proof.
  unfold aset. simpl. destruct (N.eqb_spec k' k) as [->|Hne]; auto.
  rewrite aget_adel. destruct (N.eqb_spec k' k); [congruence | auto].
Qed.

Lemma getd_adel m k k' : getd (adel m k) k' = if N.eqb k' k then [] else getd m k'.
Proof. unfold getd. rewrite aget_adel. destruct (N.eqb k' k); auto. Qed.

Lemma getd_aset m k v k' : getd (aset m k v) k' = if N.eqb k' k then v else getd m k'.
Proof. unfold getd. rewrite aget_aset. destruct (N.eqb k' k); auto. Qed.

Lemma ctab_nonempty ct p : ctab ct p <> [] -> In p (map fst ct).
Proof.
  unfold ctab, getd. induction ct as [|[k v] r IH]; simpl; [congruence|].
  destruct (N.eqb_spec p k) as [->|Hne]; auto.
Qed.

Definition wf_sets (m : amap) : Prop :=
  forall k ps, aget m k = Some ps -> ps <> [] /\ NoDup ps.

Lemma wf_sets_getd m k : wf_sets m -> NoDup (getd m k).
Proof.
  intro H. unfold getd. destruct (aget m k) eqn:E; [apply (H _ _ E) | constructor].
Qed.

Lemma fold_add_pred_getd n ss : forall pm s p,
  In p (getd (fold_left (add_pred n) ss pm) s) <-> In p (getd pm s) \/ (p = n /\ In s ss).
Proof.
  induction ss as [|a r IH]; intros pm s p; simpl.
  - tauto.
  - rewrite IH. unfold add_pred. rewrite getd_aset.
    destruct (N.eqb_spec s a) as [->|Hne].
    + rewrite In_sadd. intuition auto.
    + intuition auto. congruence.
Qed.

Lemma fold_add_pred_wf n ss : forall pm, wf_sets pm -> wf_sets (fold_left (add_pred n) ss pm).
Proof.
  induction ss as [|a r IH]; intros pm H; simpl; auto.
  apply IH. intros k ps. unfold add_pred. rewrite aget_aset.
  destruct (N.eqb_spec k a) as [->|Hne].
  - intros E. inversion E; subst. split; [apply sadd_not_nil | apply NoDup_sadd, wf_sets_getd, H].
  - apply H.
Qed.

Lemma rm_step_getd nodes n st a s :
  getd (fst (rm_step nodes n st a)) s = if N.eqb s a then sdel n (getd (fst st) a) else getd (fst st) s.
Proof.
  destruct st as [pm dang]. unfold rm_step. cbn [fst].
  destruct (sdel n (getd pm a)); cbn [fst]; rewrite ?getd_adel, ?getd_aset; reflexivity.
Qed.

Lemma rm_step_wf nodes n st a : wf_sets (fst st) -> wf_sets (fst (rm_step nodes n st a)).
Proof.
  destruct st as [pm dang]. intros H k ps. unfold rm_step. cbn [fst].
  destruct (sdel n (getd pm a)) as [|x l] eqn:E; cbn [fst].
  - rewrite aget_adel. destruct (N.eqb k a); [discriminate | apply H].
  - rewrite aget_aset. destruct (N.eqb k a); [|apply H].
    intro E2. inversion E2; subst. split; [discriminate|].
    rewrite <- E. apply NoDup_sdel, wf_sets_getd, H.
Qed.

Lemma rm_step_dang nodes n st a d :
  In d (snd (rm_step nodes n st a)) <->
  In d (snd st) \/ (d = a /\ sdel n (getd (fst st) a) = [] /\ In a nodes).
Proof.
  destruct st as [pm dang]. unfold rm_step. cbn [fst snd].
  destruct (sdel n (getd pm a)) as [|x l]; cbn [snd].
  - destruct (smem a nodes) eqn:M.
    + apply smem_In in M. rewrite in_app_iff. simpl. intuition auto.
    + apply smem_false in M. intuition auto.
  - intuition auto. discriminate.
Qed.

Lemma rm_fold_getd nodes n order : forall st s,
  getd (fst (fold_left (rm_step nodes n) order st)) s =
  if smem s order then sdel n (getd (fst st) s) else getd (fst st) s.
Proof.
  induction order as [|a r IH]; intros st s; cbn [fold_left smem]; auto.
  rewrite IH, !rm_step_getd. destruct (N.eqb_spec s a) as [->|Hne]; auto.
  rewrite sdel_idem. destruct (smem a r); auto.
Qed.

Lemma rm_fold_wf nodes n order : forall st,
  wf_sets (fst st) -> wf_sets (fst (fold_left (rm_step nodes n) order st)).
Proof. induction order as [|a r IH]; intros st H; cbn [fold_left]; auto using rm_step_wf. Qed.

Lemma rm_fold_dang nodes n order : forall st d,
  In d (snd (fold_left (rm_step nodes n) order st)) <->
  In d (snd st) \/ (In d order /\ sdel n (getd (fst st) d) = [] /\ In d nodes).
Proof.
  induction order as [|a r IH]; intros st d; cbn [fold_left In]; [tauto|].
  rewrite IH, rm_step_dang, rm_step_getd.
  destruct (N.eqb_spec d a) as [->|Hne]; [rewrite sdel_idem; tauto|].
  split; [intros [[H|[E _]]|H] | intros [H|[[E|H] H']]]; (congruence || tauto).
Qed.

(* a successor is visited once, so it is reported once *)
Lemma rm_fold_dang_nodup nodes n order : forall st,
  NoDup order -> NoDup (snd st) -> (forall d, In d (snd st) -> ~ In d order) ->
  NoDup (snd (fold_left (rm_step nodes n) order st)).
Proof.
  induction order as [|a r IH]; intros st Ho Hd Hdis; cbn [fold_left]; auto.
  inversion Ho as [|? ? Ha Hr]; subst. apply IH; auto.
  - destruct st as [pm dang]. unfold rm_step. destruct (sdel n (getd pm a)); cbn [snd] in *; auto.
    destruct (smem a nodes); auto. apply NoDup_snoc; auto. intro Hin. apply (Hdis a Hin). left. reflexivity.
  - intros d Hd1 Hin. apply rm_step_dang in Hd1. destruct Hd1 as [H | (-> & _)]; auto.
    apply (Hdis d H). right. exact Hin.
Qed.

Lemma remove_ord_eq g n order :
  remove_ord g n order =
  (mkGraph (sdel n (g_nodes g)) (fst (fold_left (rm_step (g_nodes g) n) order (g_preds g, [])))
           (adel (g_succs g) n),
   snd (fold_left (rm_step (g_nodes g) n) order (g_preds g, []))).
Proof. unfold remove_ord. now destruct (fold_left _ _ _). Qed.

Section WithContent.
Variable content : node -> list node.

(* The three comment blocks of graph.Memory (memory.go:33-58), plus the
   representation facts (sets have no duplicates, no empty predecessor entry). *)
Record Inv (g : graph) : Prop := mkInv {
  inv_nodes_nodup : NoDup (g_nodes g);
  (* successors.1: a node is in Memory.successors iff it is in the memory *)
  inv_succ_dom : forall p, In p (g_nodes g) <-> aget (g_succs g) p <> None;
  (* successors.2: the entry is the actual content of the node *)
  inv_succ_val : forall p ss, aget (g_succs g) p = Some ss ->
                   NoDup ss /\ forall s, In s ss <-> In s (content p);
  (* predecessors.2: no entry for a node without predecessor in the memory *)
  inv_pred_wf : wf_sets (g_preds g);
  (* predecessors.1: entry = the predecessors that are in the memory, whether or not
     the node itself is *)
  inv_pred_mem : forall n p, In p (getd (g_preds g) n) <-> In p (g_nodes g) /\ In n (content p)
}.

Lemma Inv_empty : Inv empty_graph.
Proof.
  constructor; simpl.
  - constructor.
  - intros p. split; [tauto | intros H; now apply H].
  - discriminate.
  - intros k ps. discriminate.
  - intros n p. unfold getd. simpl. tauto.
Qed.

Lemma succs_getd g n : Inv g ->
  NoDup (getd (g_succs g) n) /\
  forall s, In s (getd (g_succs g) n) <-> In n (g_nodes g) /\ In s (content n).
Proof.
  intros HI. pose proof (inv_succ_dom g HI n) as Hd. unfold getd.
  destruct (aget (g_succs g) n) as [ss|] eqn:E.
  - destruct (inv_succ_val g HI n ss E) as [Hn Hs]. split; auto.
    intro s. rewrite Hs, Hd. intuition congruence.
  - split; [constructor|]. intro s. rewrite Hd. simpl. tauto.
Qed.

Lemma index_nodes g n ss x : In x (g_nodes (index g n ss)) <-> x = n \/ In x (g_nodes g).
Proof. unfold index. simpl. apply In_sadd. Qed.

Lemma index_Inv g n : Inv g -> Inv (index g n (content n)).
Proof.
  intros HI. constructor.
  - simpl. apply NoDup_sadd, HI.
  - intros p. unfold index; cbn [g_nodes g_preds g_succs]. rewrite aget_aset, In_sadd.
    destruct (N.eqb_spec p n) as [->|Hne].
    + split; [discriminate | auto].
    + rewrite (inv_succ_dom g HI p). split; [intros [H|H]; [congruence|auto] | auto].
  - intros p ss. unfold index; cbn [g_nodes g_preds g_succs]. rewrite aget_aset.
    destruct (N.eqb_spec p n) as [->|Hne].
    + intros E. inversion E; subst. split.
      * apply fold_sadd_NoDup. constructor.
      * intros s. rewrite fold_sadd_In. simpl. tauto.
    + apply (inv_succ_val g HI).
  - simpl. apply fold_add_pred_wf, HI.
  - intros m p. simpl. rewrite fold_add_pred_getd, In_sadd, (inv_pred_mem g HI).
    split.
    + intros [[H1 H2]|[-> H]]; auto.
    + intros [[->|H1] H2]; auto.
Qed.

Lemma remove_ord_nodes_eq g n order : g_nodes (fst (remove_ord g n order)) = sdel n (g_nodes g).
Proof. now rewrite remove_ord_eq. Qed.

Lemma remove_ord_nodes g n order x :
  In x (g_nodes (fst (remove_ord g n order))) <-> x <> n /\ In x (g_nodes g).
Proof. rewrite remove_ord_nodes_eq. apply In_sdel. Qed.

Lemma remove_ord_Inv g n order :
  Inv g -> (forall s, In s order <-> In s (getd (g_succs g) n)) ->
  Inv (fst (remove_ord g n order)).
Proof.
  intros HI Hord. rewrite remove_ord_eq. constructor; cbn [fst g_nodes g_preds g_succs].
  - apply NoDup_sdel, HI.
  - intros p. rewrite aget_adel, In_sdel.
    destruct (N.eqb_spec p n) as [->|Hne]; [intuition congruence|].
    rewrite (inv_succ_dom g HI p). tauto.
  - intros p ss. rewrite aget_adel. destruct (N.eqb p n); [discriminate | apply (inv_succ_val g HI)].
  - apply rm_fold_wf, HI.
  - intros m p. rewrite rm_fold_getd, In_sdel. cbn [fst].
    destruct (smem m order) eqn:M.
    + rewrite In_sdel, (inv_pred_mem g HI). tauto.
    + rewrite (inv_pred_mem g HI). split; [|tauto].
      intros [H1 H2]. split; auto. split; auto.
      intros ->. apply smem_false in M. apply M, Hord, (succs_getd g n HI). auto.
Qed.

Lemma remove_Inv g n : Inv g -> Inv (fst (remove g n)).
Proof. intro HI. apply remove_ord_Inv; auto. tauto. Qed.

Lemma exact_full :
  forall (g : graph), Inv g ->
  forall n,
    NoDup (predecessors g n) /\
    (forall p, In p (predecessors g n) <-> In p (g_nodes g) /\ In n (content p)) /\
    predecessors_raw g n = map Some (predecessors g n).
Proof.
  intros g HI n. unfold predecessors_raw, predecessors.
  split; [apply wf_sets_getd, HI|]. split; [apply (inv_pred_mem g HI)|].
  apply map_ext_in. intros k Hk. apply (inv_pred_mem g HI) in Hk. destruct Hk as [Hk _].
  apply smem_In in Hk. now rewrite Hk.
Qed.

Section WithSok.
Variable sok : node -> bool.

Lemma index_all_Inv fuel : forall work visited g,
  Inv g -> Inv (fst (fst (index_all content sok fuel work visited g))).
Proof.
  induction fuel as [|f IH]; intros work visited g HI; simpl; auto.
  destruct work as [|d rest]; auto.
  destruct (smem d visited); auto.
  destruct (sok d); auto.
  apply IH, index_Inv, HI.
Qed.

(* [pre w x]: x is reached from w through nodes whose Successors succeed
   (x itself may fail) *)
Inductive pre (w : node) : node -> Prop :=
| pre_refl : pre w w
| pre_step : forall p c, pre w p -> sok p = true -> In c (content p) -> pre w c.

(* the nodes IndexAll indexes from a root *)
Definition areach (r x : node) : Prop := pre r x /\ sok x = true.

Lemma pre_closed (T : node -> Prop) r :
  T r -> (forall p, T p -> sok p = true -> forall c, In c (content p) -> T c) ->
  forall x, pre r x -> T x.
Proof. intros Hr Hc x H. induction H; eauto. Qed.

Lemma pre_inv r p : pre r p -> p = r \/ exists q, pre r q /\ sok q = true /\ In p (content q).
Proof. intros H. inversion H; subst; [left; reflexivity | right; eauto]. Qed.

(* the loop invariant of IndexAll from root r into g0: everything visited or waiting is reached
   from r; the graph holds g0 and the fetchable visited nodes; the successors of a fetchable
   visited node are visited or waiting *)
Definition worklist_inv (g0 : graph) (r : node) (work visited : list node) (g : graph) : Prop :=
  (forall x, In x work \/ In x visited -> pre r x) /\
  (forall x, In x (g_nodes g) <-> In x (g_nodes g0) \/ (In x visited /\ sok x = true)) /\
  (forall p, In p visited -> sok p = true -> forall c, In c (content p) -> In c visited \/ In c work).

Lemma index_all_worklist g0 r fuel : forall work visited g g' visited',
  index_all content sok fuel work visited g = (g', visited', true) ->
  worklist_inv g0 r work visited g ->
  worklist_inv g0 r [] visited' g' /\ forall x, In x work \/ In x visited -> In x visited'.
Proof.
  induction fuel as [|f IH]; intros work visited g g' visited' H Hi; simpl in H.
  { destruct work; inversion H; subst. split; [exact Hi | intros x [[]|Hx]; exact Hx]. }
  destruct work as [|d rest].
  { inversion H; subst. split; [exact Hi | intros x [[]|Hx]; exact Hx]. }
  destruct Hi as (H1 & H2 & H3).
  destruct (smem d visited) eqn:M.
  { apply smem_In in M. apply IH in H.
    - destruct H as (Hi & Ha). split; [exact Hi|]. intros x [[<-|Hx]|Hx]; auto.
    - split; [|split; [exact H2|]].
      + intros x [Hx|Hx]; apply H1; simpl; auto.
      + intros p Hp Hs c Hc. destruct (H3 p Hp Hs c Hc) as [Hx|[<-|Hx]]; auto. }
  assert (Hd : pre r d) by (apply H1; simpl; auto).
  destruct (sok d) eqn:S; apply IH in H.
  - destruct H as (Hi & Ha). split; [exact Hi|].
    intros x [[<-|Hx]|Hx]; apply Ha; simpl; auto. left. apply in_app_iff. auto.
  - split; [|split].
    + intros x [Hx|[<-|Hx]]; auto. apply in_app_iff in Hx. destruct Hx as [Hx|Hx]; [|apply H1; simpl; auto].
      eapply pre_step; eauto.
    + intro x. rewrite index_nodes, H2. simpl.
      split; [intros [->|[Hx|[Hx Hs]]] | intros [Hx|[[<-|Hx] Hs]]]; auto.
    + intros p [<-|Hp] Hs c Hc; [right; apply in_app_iff; auto|].
      destruct (H3 p Hp Hs c Hc) as [Hx|[<-|Hx]]; simpl; auto. right. apply in_app_iff. auto.
  - destruct H as (Hi & Ha). split; [exact Hi|]. intros x [[<-|Hx]|Hx]; apply Ha; simpl; auto.
  - split; [|split].
    + intros x [Hx|[<-|Hx]]; auto. apply H1. simpl. auto.
    + intro x. rewrite H2. simpl.
      split; [intros [Hx|[Hx Hs]] | intros [Hx|[[<-|Hx] Hs]]]; auto. congruence.
    + intros p [<-|Hp] Hs c Hc; [congruence|].
      destruct (H3 p Hp Hs c Hc) as [Hx|[<-|Hx]]; simpl; auto.
Qed.

Lemma index_all_root_nodes fuel g r g' :
  index_all_root content sok fuel g r = (g', true) ->
  forall x, In x (g_nodes g') <-> In x (g_nodes g) \/ areach r x.
Proof.
  unfold index_all_root. intros H x.
  destruct (index_all content sok fuel [r] [] g) as [[g1 v1] ok] eqn:E. inversion H; subst.
  apply (index_all_worklist g r) in E.
  - destruct E as ((H1 & H2 & H3) & Ha). rewrite H2. unfold areach.
    split; (intros [Hx|[Hp Hs]]; [left; exact Hx | right; split; auto]).
    apply (pre_closed (fun y => In y v1) r); auto.
    + apply Ha. simpl. auto.
    + intros p Hp' Hs' c Hc. destruct (H3 p Hp' Hs' c Hc) as [Hx|[]]. exact Hx.
  - repeat split; simpl; try tauto. intros y [[<-|[]]|[]]. apply pre_refl.
Qed.

Lemma index_all_root_Inv fuel g r : Inv g -> Inv (fst (index_all_root content sok fuel g r)).
Proof.
  intro HI. unfold index_all_root.
  pose proof (index_all_Inv fuel [r] [] g HI) as H.
  destruct (index_all content sok fuel [r] [] g) as [[g1 v1] ok]. exact H.
Qed.

Lemma load_from_Inv fuel roots : forall g, Inv g -> Inv (fst (load_from content sok fuel g roots)).
Proof.
  induction roots as [|r rs IH]; intros g HI; simpl; auto.
  pose proof (index_all_root_Inv fuel g r HI) as H1.
  destruct (index_all_root content sok fuel g r) as [g1 ok1]. simpl in H1.
  specialize (IH g1 H1).
  destruct (load_from content sok fuel g1 rs) as [g2 ok2]. exact IH.
Qed.

Lemma load_from_nodes fuel roots : forall g g',
  load_from content sok fuel g roots = (g', true) ->
  forall x, In x (g_nodes g') <-> In x (g_nodes g) \/ exists r, In r roots /\ areach r x.
Proof.
  induction roots as [|r rs IH]; intros g g' H x; simpl in H.
  - inversion H; subst. split; [auto | intros [H1|(r & [] & _)]; auto].
  - destruct (index_all_root content sok fuel g r) as [g1 ok1] eqn:E1.
    destruct (load_from content sok fuel g1 rs) as [g2 ok2] eqn:E2.
    inversion H; subst. apply andb_true_iff in H2. destruct H2 as [-> ->].
    rewrite (IH g1 g' E2 x), (index_all_root_nodes fuel g r g1 E1 x). simpl.
    split; [intros [[H1|H1]|(r' & Hr & Ha)] | intros [H1|(r' & [<-|Hr] & Ha)]]; eauto 6.
Qed.
End WithSok.
End WithContent.
Lemma step_Inv ct fuel s o :
  Inv (ctab ct) (s_g s) -> Inv (ctab ct) (s_g (fst (step ct fuel s o))).
Proof.
  intro HI. unfold step. destruct o.
  - unfold op_index. destruct (smem n (s_sok s)); simpl; auto. apply index_Inv, HI.
  - pose proof (remove_Inv (ctab ct) (s_g s) n HI) as H.
    destruct (remove (s_g s) n) as [g d]. exact H.
  - pose proof (index_all_root_Inv (ctab ct) (fun x => smem x (s_sok s)) fuel (s_g s) n HI) as H.
    destruct (index_all_root (ctab ct) (fun x => smem x (s_sok s)) fuel (s_g s) n) as [g ok]. exact H.
  - exact HI.
  - exact HI.
  - exact HI.
  - apply Inv_empty.
Qed.

Lemma run_Inv ct fuel ops : forall s,
  Inv (ctab ct) (s_g s) -> Inv (ctab ct) (s_g (fst (run ct fuel s ops))).
Proof.
  induction ops as [|o r IH]; intros s HI; simpl; auto.
  pose proof (step_Inv ct fuel s o HI) as H.
  destruct (step ct fuel s o) as [s1 x]. simpl in H.
  specialize (IH s1 H). destruct (run ct fuel s1 r) as [s2 xs]. exact IH.
Qed.

Lemma history_inv ct fuel ops : Inv (ctab ct) (s_g (fst (run ct fuel init_state ops))).
Proof. apply run_Inv. apply Inv_empty. Qed.

Lemma history_query ct fuel ops n :
  let g := s_g (fst (run ct fuel init_state ops)) in
  predecessors_raw g n = map Some (predecessors g n) /\
  NoDup (predecessors g n) /\
  forall p, In p (predecessors g n) <-> In p (g_nodes g) /\ In n (ctab ct p).
Proof. intro g. destruct (exact_full _ g (history_inv ct fuel ops) n) as (Hd & Hm & Hr). auto. Qed.

(* store-level histories: Push = index, Delete = Remove *)
Inductive sop := SPush (n : node) | SDelete (n : node).

Definition sop_apply (content : node -> list node) (g : graph) (o : sop) : graph :=
  match o with SPush n => index g n (content n) | SDelete n => fst (remove g n) end.

(* what the store holds after the history (the specification side) *)
Definition sop_set (l : list node) (o : sop) : list node :=
  match o with SPush n => sadd n l | SDelete n => sdel n l end.
Definition stored_after (ops : list sop) : list node := fold_left sop_set ops [].

Lemma stored_after_snoc ops o x :
  In x (stored_after (ops ++ [o])) <->
  match o with
  | SPush n => x = n \/ In x (stored_after ops)
  | SDelete n => x <> n /\ In x (stored_after ops)
  end.
Proof.
  unfold stored_after. rewrite fold_left_app. simpl.
  destruct o; simpl; [apply In_sadd | apply In_sdel].
Qed.

Lemma sops_nodes content ops : forall g,
  g_nodes (fold_left (sop_apply content) ops g) = fold_left sop_set ops (g_nodes g).
Proof.
  induction ops as [|o r IH]; intros g; simpl; auto.
  rewrite IH. f_equal. destruct o; simpl; auto. apply remove_ord_nodes_eq.
Qed.

Lemma sops_Inv content ops : forall g, Inv content g -> Inv content (fold_left (sop_apply content) ops g).
Proof.
  induction ops as [|o r IH]; intros g HI; simpl; auto.
  apply IH. destruct o; simpl; [apply index_Inv | apply remove_Inv]; auto.
Qed.

Lemma push_delete_exact content ops n :
  let g := fold_left (sop_apply content) ops empty_graph in
  NoDup (predecessors g n) /\
  forall p, In p (predecessors g n) <-> In p (stored_after ops) /\ In n (content p).
Proof.
  intro g. unfold stored_after. change [] with (g_nodes empty_graph). rewrite <- (sops_nodes content).
  destruct (exact_full content g (sops_Inv content ops _ (Inv_empty content)) n) as (Hd & Hm & _). auto.
Qed.

Definition pushes (content : node -> list node) (l : list node) : graph :=
  fold_left (fun g n => index g n (content n)) l empty_graph.

Lemma pushes_nodes content l : forall g x,
  In x (g_nodes (fold_left (fun g n => index g n (content n)) l g)) <-> In x l \/ In x (g_nodes g).
Proof.
  induction l as [|a r IH]; intros g x; simpl.
  - tauto.
  - rewrite IH, index_nodes. intuition auto.
Qed.

Lemma pushes_Inv content l : forall g, Inv content g ->
  Inv content (fold_left (fun g n => index g n (content n)) l g).
Proof.
  induction l as [|a r IH]; intros g HI; simpl; auto. apply IH, index_Inv, HI.
Qed.

Lemma same_nodes_same_preds content g1 g2 :
  Inv content g1 -> Inv content g2 ->
  (forall x, In x (g_nodes g1) <-> In x (g_nodes g2)) ->
  forall n, Permutation (predecessors g1 n) (predecessors g2 n).
Proof.
  intros H1 H2 Hn n.
  destruct (exact_full content g1 H1 n) as (Hd1 & Hm1 & _).
  destruct (exact_full content g2 H2 n) as (Hd2 & Hm2 & _).
  apply NoDup_Permutation; auto.
  intro p. rewrite Hm1, Hm2, Hn. tauto.
Qed.

Lemma Permutation_In_iff {A} (l l' : list A) : Permutation l l' -> forall x, In x l <-> In x l'.
Proof. intros P x. split; apply Permutation_in; [|apply Permutation_sym]; exact P. Qed.

Lemma push_order_independent content l1 l2 :
  Permutation l1 l2 ->
  (forall x, In x (g_nodes (pushes content l1)) <-> In x (g_nodes (pushes content l2))) /\
  forall n, Permutation (predecessors (pushes content l1) n) (predecessors (pushes content l2) n).
Proof.
  intro HP.
  assert (forall x, In x (g_nodes (pushes content l1)) <-> In x (g_nodes (pushes content l2))) as Hn.
  { intro x. unfold pushes. now rewrite !pushes_nodes, (Permutation_In_iff l1 l2 HP). }
  split; auto.
  apply (same_nodes_same_preds content); auto; apply pushes_Inv, Inv_empty.
Qed.

(* Remove under any iteration order of the successor set keeps the invariant and reports exactly
   the nodes in the memory that lost their last predecessor, each once *)
Lemma remove_danglings_full :
  forall (content : node -> list node) (g : graph) (n : node) (order : list node),
    Inv content g -> Permutation order (getd (g_succs g) n) ->
    Inv content (fst (remove_ord g n order)) /\
    NoDup (snd (remove_ord g n order)) /\
    forall d, In d (snd (remove_ord g n order)) <->
              (In n (g_nodes g) /\ In d (content n) /\ In d (g_nodes g) /\
               forall p, In p (g_nodes g) -> In d (content p) -> p = n).
Proof.
  intros content g n order HI P. pose proof (Permutation_In_iff _ _ P) as Hord.
  split; [exact (remove_ord_Inv content g n order HI Hord)|].
  rewrite remove_ord_eq. cbn [fst snd]. split.
  - apply rm_fold_dang_nodup; [|constructor | intros d []].
    eapply Permutation_NoDup; [apply Permutation_sym, P | apply (succs_getd content g n HI)].
  - intro d. rewrite rm_fold_dang, sdel_nil, Hord, (proj2 (succs_getd content g n HI)). cbn [fst snd In].
    split.
    + intros [[]|[[Hn Hd] [H2 H3]]]. repeat split; auto.
      intros p Hp Hdp. apply H2, (inv_pred_mem content g HI). auto.
    + intros [Hn [Hd [Hdn Hall]]]. right. repeat split; auto.
      intros p Hp. apply (inv_pred_mem content g HI) in Hp. destruct Hp. auto.
Qed.

Lemma remove_order_irrelevant content g n o1 o2 :
  Inv content g ->
  Permutation o1 (getd (g_succs g) n) -> Permutation o2 (getd (g_succs g) n) ->
  (forall x, In x (g_nodes (fst (remove_ord g n o1))) <-> In x (g_nodes (fst (remove_ord g n o2)))) /\
  (forall m, Permutation (predecessors (fst (remove_ord g n o1)) m)
                         (predecessors (fst (remove_ord g n o2)) m)) /\
  Permutation (snd (remove_ord g n o1)) (snd (remove_ord g n o2)).
Proof.
  intros HI P1 P2.
  destruct (remove_danglings_full content g n o1 HI P1) as (I1 & D1 & M1).
  destruct (remove_danglings_full content g n o2 HI P2) as (I2 & D2 & M2).
  assert (forall x, In x (g_nodes (fst (remove_ord g n o1))) <-> In x (g_nodes (fst (remove_ord g n o2)))) as Hn.
  { intro x. rewrite !remove_ord_nodes_eq. tauto. }
  split; auto. split.
  - apply (same_nodes_same_preds content); auto.
  - apply NoDup_Permutation; auto. intro d. rewrite M1, M2. tauto.
Qed.

Lemma load_Inv content sok fuel roots : Inv content (fst (load content sok fuel roots)).
Proof. apply load_from_Inv, Inv_empty. Qed.

Lemma load_exact content sok fuel roots g' :
  load content sok fuel roots = (g', true) ->
  (forall x, In x (g_nodes g') <-> exists r, In r roots /\ areach content sok r x) /\
  forall n, NoDup (predecessors g' n) /\
            forall p, In p (predecessors g' n) <->
                      (exists r, In r roots /\ areach content sok r p) /\ In n (content p).
Proof.
  intro H.
  assert (Inv content g') as HI.
  { pose proof (load_Inv content sok fuel roots) as H1. rewrite H in H1. exact H1. }
  assert (forall x, In x (g_nodes g') <-> exists r, In r roots /\ areach content sok r x) as Hn.
  { intro x. unfold load in H. rewrite (load_from_nodes content sok fuel roots empty_graph g' H x).
    simpl. tauto. }
  split; auto. intro n.
  destruct (exact_full content g' HI n) as (Hd & Hm & _). split; auto.
  intro p. rewrite Hm, Hn. tauto.
Qed.

(* The live graph and the reloaded graph answer every Predecessors query alike when
   (a) Successors succeeds for everything in the live graph, (b) every manifest whose
   Successors succeeds is in the live graph (storage = graph), and (c) every live
   node with successors is a root (OCI: every stored manifest is tagged by digest,
   hence listed in index.json). *)
Lemma reload_equiv content sok fuel roots g g' :
  Inv content g ->
  (forall p, In p (g_nodes g) -> sok p = true) ->
  (forall p, sok p = true -> content p <> [] -> In p (g_nodes g)) ->
  (forall p, In p (g_nodes g) -> content p <> [] -> In p roots) ->
  load content sok fuel roots = (g', true) ->
  forall n, Permutation (predecessors g' n) (predecessors g n).
Proof.
  intros HI Ha Hb Hc HL n.
  destruct (load_exact content sok fuel roots g' HL) as [_ Hx].
  destruct (Hx n) as [Hd' Hm']. destruct (exact_full content g HI n) as (Hd & Hm & _).
  apply NoDup_Permutation; auto.
  intro p. rewrite Hm', Hm. split.
  - intros [(r & Hr & Hp & Hs) Hn]. split; auto. apply Hb; auto.
    intro E. rewrite E in Hn. destruct Hn.
  - intros [Hp Hn]. split; auto. exists p.
    assert (content p <> []) as Hne by (intro E; rewrite E in Hn; destruct Hn).
    split; [apply Hc; auto|]. split; [apply pre_refl | apply Ha, Hp].
Qed.

Section Fuel.
Variable content : node -> list node.
Variable sok : node -> bool.

Definition cost (x : node) : nat := S (length (content x)).
Fixpoint pot (U visited : list node) : nat :=
  match U with
  | [] => 0
  | u :: r => (if smem u visited then 0 else cost u) + pot r visited
  end.

Lemma pot_mono U d visited : pot U (d :: visited) <= pot U visited.
Proof.
  induction U as [|u r IH]; simpl; auto.
  destruct (N.eqb u d); [lia|]. destruct (smem u visited); lia.
Qed.

Lemma pot_visit U d visited :
  In d U -> smem d visited = false -> pot U (d :: visited) + cost d <= pot U visited.
Proof.
  induction U as [|u r IH]; intros Hin Hd; simpl; [destruct Hin|].
  destruct (N.eqb_spec u d) as [->|Hne].
  - rewrite Hd. pose proof (pot_mono r d visited). lia.
  - destruct Hin as [E|Hin]; [congruence|]. specialize (IH Hin Hd).
    destruct (smem u visited); lia.
Qed.

Lemma index_all_fuel U :
  (forall u, In u U -> forall c, In c (content u) -> In c U) ->
  forall fuel work visited g,
    (forall w, In w work -> In w U) ->
    length work + pot U visited < fuel ->
    snd (index_all content sok fuel work visited g) = true.
Proof.
  intros Hclosed. induction fuel as [|f IH]; intros work visited g Hw Hlt; [lia|].
  simpl. destruct work as [|d rest]; auto.
  simpl in Hlt.
  assert (forall w, In w rest -> In w U) as Hrest by (intros w H; apply Hw; simpl; auto).
  assert (In d U) as Hd by (apply Hw; simpl; auto).
  destruct (smem d visited) eqn:M.
  - apply IH; auto. lia.
  - pose proof (pot_visit U d visited Hd M) as Hp. unfold cost in Hp.
    destruct (sok d).
    + apply IH.
      * intros w H. apply in_app_iff in H. destruct H as [H|H]; auto. apply (Hclosed d Hd w H).
      * rewrite app_length. lia.
    + apply IH; auto. lia.
Qed.

Lemma load_from_fuel U fuel :
  (forall u, In u U -> forall c, In c (content u) -> In c U) ->
  1 + pot U [] < fuel ->
  forall roots g, (forall r, In r roots -> In r U) ->
    snd (load_from content sok fuel g roots) = true.
Proof.
  intros Hclosed Hf. induction roots as [|r rs IH]; intros g Hr; simpl; auto.
  assert (snd (index_all content sok fuel [r] [] g) = true) as H1.
  { apply (index_all_fuel U Hclosed).
    - intros w [<-|[]]. apply Hr. simpl; auto.
    - simpl. lia. }
  unfold index_all_root.
  destruct (index_all content sok fuel [r] [] g) as [[g1 v1] ok1]. simpl in H1. subst ok1.
  specialize (IH g1 (fun r0 H => Hr r0 (or_intror H))).
  destruct (load_from content sok fuel g1 rs) as [g2 ok2]. simpl in IH. subst ok2. reflexivity.
Qed.
End Fuel.

(* For every finite universe closed under [content] that contains the roots, loadIndex /
   gcIndex / IndexAll complete with any fuel above its size: the [ok = true] hypothesis of
   the reload theorems is always satisfiable, whatever the graph shape (cycles included). *)
Lemma load_ok content sok U fuel roots :
  (forall u, In u U -> forall c, In c (content u) -> In c U) ->
  1 + pot content U [] < fuel -> (forall r, In r roots -> In r U) ->
  exists g', load content sok fuel roots = (g', true).
Proof.
  intros Hc Hf Hr. pose proof (load_from_fuel content sok U fuel Hc Hf roots empty_graph Hr) as H.
  unfold load. destruct (load_from content sok fuel empty_graph roots) as [g' ok].
  simpl in H. subst ok. eauto.
Qed.

Lemma load_terminates content sok U roots :
  (forall u, In u U -> forall c, In c (content u) -> In c U) ->
  (forall r, In r roots -> In r U) ->
  exists fuel g', load content sok fuel roots = (g', true).
Proof. intros Hc Hr. exists (2 + pot content U []). apply (load_ok content sok U); auto. Qed.

(* the root hypothesis of reload_equiv is necessary (finding gc-drops-nested-manifest).
   Before the fix, gcIndex dropped the by-digest entry of a manifest nested under a
   tagged root; after Delete of the root the nested manifest (2 below, referencing blob 0)
   was still stored but no longer a root of index.json: the reloaded graph omits it. *)
Definition wit_ct : amap := [(2, [0])]%N.
Definition wit_live : graph := pushes (ctab wit_ct) [0; 2]%N.
Definition wit_sok (x : node) : bool := N.leb x 2.

Lemma reload_without_root_refuted :
  exists content sok fuel roots g g' n,
    Inv content g /\
    (forall p, In p (g_nodes g) -> sok p = true) /\
    (forall p, sok p = true -> content p <> [] -> In p (g_nodes g)) /\
    load content sok fuel roots = (g', true) /\
    ~ Permutation (predecessors g' n) (predecessors g n).
Proof.
  exists (ctab wit_ct), wit_sok, 10, [], wit_live, empty_graph, 0%N.
  split; [apply pushes_Inv, Inv_empty|].
  split.
  { vm_compute. intros p H. repeat (destruct H as [<-|H]; [reflexivity|]). destruct H. }
  split.
  { intros p _ Hne. apply ctab_nonempty in Hne. destruct Hne as [<-|[]]. vm_compute. auto. }
  split; [reflexivity|].
  vm_compute. intro HP. apply Permutation_nil in HP. discriminate.
Qed.

(* two answers that differ only in the order inside sets *)
Inductive out_equiv : out -> out -> Prop :=
| oe_dang : forall d1 d2, Permutation d1 d2 -> out_equiv (RDang d1) (RDang d2)
| oe_preds : forall p1 p2, Permutation p1 p2 -> out_equiv (RPreds p1) (RPreds p2)
| oe_same : forall o, out_equiv o o.

Lemma nodup_b_NoDup l : nodup_b l = true -> NoDup l.
Proof.
  induction l as [|x r IH]; simpl; [constructor|].
  intro H. apply andb_true_iff in H. destruct H as [H1 H2].
  apply negb_true_iff, smem_false in H1. constructor; auto.
Qed.

Lemma valid_order_perm order succs :
  valid_order order succs = true -> NoDup succs -> Permutation order succs.
Proof.
  unfold valid_order. rewrite !andb_true_iff, !forallb_forall. intros [[H1 H2] H3] Hn.
  apply NoDup_Permutation; auto using nodup_b_NoDup.
  intro s. split; intro Hs; apply smem_In; auto.
Qed.

(* the traversal of IndexAll does not look at the graph it fills *)
Lemma index_all_nodes_indep content sok fuel : forall work visited g1 g2,
  (forall x, In x (g_nodes g1) <-> In x (g_nodes g2)) ->
  let r1 := index_all content sok fuel work visited g1 in
  let r2 := index_all content sok fuel work visited g2 in
  (forall x, In x (g_nodes (fst (fst r1))) <-> In x (g_nodes (fst (fst r2)))) /\ snd r1 = snd r2.
Proof.
  induction fuel as [|f IH]; intros work visited g1 g2 H; simpl.
  - split; auto.
  - destruct work as [|d rest]; [split; auto|].
    destruct (smem d visited); [apply IH; auto|].
    destruct (sok d); [|apply IH; auto].
    apply IH. intro x. rewrite !index_nodes, H. tauto.
Qed.

Section Orders.
Variable ct : amap.
Variable fuel : nat.

(* Remove under any attached order is Remove under some iteration order of the successor set *)
Lemma remove_with_ord g n order : Inv (ctab ct) g ->
  exists o, remove_with g n order = remove_ord g n o /\ Permutation o (getd (g_succs g) n).
Proof.
  intro HI. unfold remove_with. destruct (valid_order order (getd (g_succs g) n)) eqn:V.
  - exists order. split; auto. apply valid_order_perm; auto. apply (succs_getd (ctab ct) g n HI).
  - exists (getd (g_succs g) n). split; auto.
Qed.

Lemma step_ord_Inv s oo :
  Inv (ctab ct) (s_g s) -> Inv (ctab ct) (s_g (fst (step_ord ct fuel s oo))).
Proof.
  intro HI. destruct oo as [o order]. destruct o; try apply (step_Inv ct fuel s _ HI).
  unfold step_ord. cbn [fst snd]. destruct (remove_with_ord (s_g s) n order HI) as (o & -> & P).
  destruct (remove_danglings_full (ctab ct) (s_g s) n o HI P) as (I & _).
  destruct (remove_ord (s_g s) n o). exact I.
Qed.

(* same fetcher, same node set (the sets inside the two graphs may be in different orders): the
   step under any attached order and the model's step agree up to the order inside sets *)
Lemma step_ord_equiv s1 s2 o order :
  Inv (ctab ct) (s_g s1) -> Inv (ctab ct) (s_g s2) -> s_sok s1 = s_sok s2 ->
  (forall x, In x (g_nodes (s_g s1)) <-> In x (g_nodes (s_g s2))) ->
  let r1 := step_ord ct fuel s1 (o, order) in
  let r2 := step ct fuel s2 o in
  s_sok (fst r1) = s_sok (fst r2) /\
  (forall x, In x (g_nodes (s_g (fst r1))) <-> In x (g_nodes (s_g (fst r2)))) /\
  out_equiv (snd r1) (snd r2).
Proof.
  intros H1 H2 Hs Hn. unfold step_ord. cbn [fst snd]. destruct o; unfold step.
  - (* Index *)
    rewrite Hs. unfold op_index. destruct (smem n (s_sok s2)); cbn [fst snd s_g s_sok];
      (split; [reflexivity|]; split; [|apply oe_same]); [|exact Hn].
    intro x. rewrite !index_nodes, Hn. tauto.
  - (* Remove: two iteration orders, two graphs with the same nodes *)
    destruct (remove_with_ord (s_g s1) n order H1) as (o1 & -> & P1).
    destruct (remove_danglings_full (ctab ct) (s_g s1) n o1 H1 P1) as (_ & D1 & M1).
    destruct (remove_danglings_full (ctab ct) (s_g s2) n _ H2 (Permutation_refl _)) as (_ & D2 & M2).
    pose proof (remove_ord_nodes (s_g s1) n o1) as N1.
    pose proof (remove_ord_nodes (s_g s2) n (getd (g_succs (s_g s2)) n)) as N2.
    unfold remove. destruct (remove_ord (s_g s1) n o1) as [g1 d1].
    destruct (remove_ord (s_g s2) n _) as [g2 d2]. cbn [fst snd s_g s_sok] in *.
    split; [exact Hs|]. split; [intro x; rewrite N1, N2, Hn; tauto|].
    apply oe_dang, NoDup_Permutation; auto. intro d. rewrite M1, M2, !Hn.
    split; intros (A & B & C & D); repeat split; auto; intros p Hp; apply D, Hn, Hp.
  - (* IndexAll *)
    rewrite Hs. unfold index_all_root.
    pose proof (index_all_nodes_indep (ctab ct) (fun x => smem x (s_sok s2)) fuel [n] [] _ _ Hn) as [Hx Hok].
    destruct (index_all (ctab ct) (fun x => smem x (s_sok s2)) fuel [n] [] (s_g s1)) as [[g1 v1] ok1].
    destruct (index_all (ctab ct) (fun x => smem x (s_sok s2)) fuel [n] [] (s_g s2)) as [[g2 v2] ok2].
    cbn [fst snd s_g s_sok] in *. subst ok2. split; [reflexivity|]. split; [exact Hx | apply oe_same].
  - (* Query *)
    cbn [fst snd]. split; [exact Hs|]. split; [exact Hn|].
    destruct (exact_full _ _ H1 n) as (_ & _ & ->). destruct (exact_full _ _ H2 n) as (_ & _ & ->).
    apply oe_preds, Permutation_map, (same_nodes_same_preds (ctab ct)); auto.
  - (* Exists *)
    cbn [fst snd]. split; [exact Hs|]. split; [exact Hn|]. unfold exists_node.
    assert (smem n (g_nodes (s_g s1)) = smem n (g_nodes (s_g s2))) as ->; [|apply oe_same].
    apply eq_true_iff_eq. rewrite !smem_In. apply Hn.
  - (* Sok *)
    cbn [fst snd s_g s_sok]. rewrite Hs. split; [reflexivity|]. split; [exact Hn | apply oe_same].
  - (* Reset *)
    cbn [fst snd s_g s_sok]. split; [exact Hs|]. split; [tauto | apply oe_same].
Qed.

Lemma run_orders_equiv ops : forall s1 s2,
  Inv (ctab ct) (s_g s1) -> Inv (ctab ct) (s_g s2) -> s_sok s1 = s_sok s2 ->
  (forall x, In x (g_nodes (s_g s1)) <-> In x (g_nodes (s_g s2))) ->
  let r1 := run_orders ct fuel s1 ops in
  let r2 := run ct fuel s2 (map fst ops) in
  Inv (ctab ct) (s_g (fst r1)) /\
  (forall x, In x (g_nodes (s_g (fst r1))) <-> In x (g_nodes (s_g (fst r2)))) /\
  Forall2 out_equiv (snd r1) (snd r2).
Proof.
  induction ops as [|[o order] r IH]; intros s1 s2 H1 H2 Hs Hn; simpl; auto.
  destruct (step_ord_equiv s1 s2 o order H1 H2 Hs Hn) as (Hs' & Hn' & HO).
  pose proof (step_ord_Inv s1 (o, order) H1) as I1. pose proof (step_Inv ct fuel s2 o H2) as I2.
  destruct (step_ord ct fuel s1 (o, order)) as [a1 x1].
  destruct (step ct fuel s2 o) as [a2 x2]. cbn [fst snd] in *.
  destruct (IH a1 a2 I1 I2 Hs' Hn') as (I & Hn'' & HF).
  destruct (run_orders ct fuel a1 r) as [b1 xs1].
  destruct (run ct fuel a2 (map fst r)) as [b2 xs2]. cbn [fst snd] in *. auto.
Qed.

Lemma history_any_map_order ops :
  let r1 := run_orders ct fuel init_state ops in
  let r2 := run ct fuel init_state (map fst ops) in
  Inv (ctab ct) (s_g (fst r1)) /\
  (forall x, In x (g_nodes (s_g (fst r1))) <-> In x (g_nodes (s_g (fst r2)))) /\
  (forall n, Permutation (predecessors (s_g (fst r1)) n) (predecessors (s_g (fst r2)) n)) /\
  Forall2 out_equiv (snd r1) (snd r2).
Proof.
  intros r1 r2.
  destruct (run_orders_equiv ops init_state init_state (Inv_empty _) (Inv_empty _) eq_refl
              (fun x => iff_refl _)) as (I1 & Hn & HF).
  fold r1 r2 in I1, Hn, HF. split; [exact I1|]. split; [exact Hn|]. split; [|exact HF].
  apply (same_nodes_same_preds (ctab ct)); auto. apply history_inv.
Qed.
End Orders.
