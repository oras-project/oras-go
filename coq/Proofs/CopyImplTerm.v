(* CopyImplTerm: a natural-number measure strictly decreases on every step of the protocol LTS
   (including fault and cancellation choices), so every execution is finite; the bound depends only on
   the graph (N nodes, their successor lists) and the number of roots. *)
From Coq Require Import List Arith Bool Lia.
From Oras Require Import Model.CopyImpl Proofs.CopyImplBase Proofs.CopyImplInv Proofs.CopyImplInv2.
Import ListNotations.

Fixpoint sum_upto (g : nat -> nat) (n : nat) : nat :=
  match n with O => 0 | S k => g k + sum_upto g k end.
Lemma sum_upto_ext g h n : (forall i, i < n -> g i = h i) -> sum_upto g n = sum_upto h n.
Proof. induction n; intros H; cbn; auto. rewrite H by lia. rewrite IHn; auto. Qed.
Lemma sum_upd_ge {A} (h : nat -> A -> nat) (f : nat -> A) i x n : n <= i ->
  sum_upto (fun j => h j (upd f i x j)) n = sum_upto (fun j => h j (f j)) n.
Proof. intros H. apply sum_upto_ext. intros j Hj. rewrite upd_other by lia. reflexivity. Qed.
Lemma sum_upd {A} (h : nat -> A -> nat) (f : nat -> A) i x n : i < n ->
  sum_upto (fun j => h j (upd f i x j)) n + h i (f i) = sum_upto (fun j => h j (f j)) n + h i x.
Proof.
  induction n; intros H; [lia|]. cbn. destruct (Nat.eq_dec i n) as [->|Hne].
  - rewrite upd_same. rewrite sum_upd_ge by lia. lia.
  - rewrite upd_other by lia. assert (Hi : i < n) by lia. specialize (IHn Hi). lia.
Qed.

Definition spawn_pot (k : kind) : nat := match k with KFn => 3 | KOuter => 14 end.
Definition fcost (k : kind) (n : nat) : nat := n * S (spawn_pot k) + 2.
Definition fpot (f : frame) : nat :=
  match f_pc f with FDispatch => fcost (f_kind f) (length (f_items f)) | FWait => 1 | FRet _ => 0 end.

Section Proofs.
Variable succ : nat -> list nat.
Variable K : nat.
Variable ext : bool.
Variable roots : list nat.
Variable N : nat.                    (* nodes are 0 .. N-1 *)
Hypothesis succ_dec : forall n m, In m (succ n) -> m < n.
Hypothesis roots_lt : forall r, In r roots -> r < N.
Local Notation Reachable := (Reachable succ K ext roots).
Local Notation Inv1 := (Inv1 K).
Local Notation Inv2 := (Inv2 succ).

Definition tpot (t : task) : nat :=
  let wl := length (wait_list succ t) in
  let gc := fcost KFn (length (go_items succ t)) in
  match t_pc t with
  | TFin _ => 0
  | TSpawned => spawn_pot (t_kind t)
  | TTry => 2
  | TExists => 7 + length (succ (t_node t)) + fcost KFn (length (succ (t_node t)))
  | TFind => 6 + length (succ (t_node t)) + fcost KFn (length (succ (t_node t)))
  | TEnd => 5 + wl + gc
  | TGo => 4 + wl + gc
  | TInGo _ => 3 + wl
  | TWait l => 2 + length l
  | TStart => 2
  | TPush => 1
  end.
(* what committing node n will cost: the potential of its task at TExists *)
Definition upot (n : nat) : nat := 7 + length (succ n) + fcost KFn (length (succ n)).
Definition trpot (st : status) (n : nat) : nat := match st with Untracked => upot n | _ => 0 end.

Definition tsum (ts : nat -> task) (n : nat) : nat := sum_upto (fun i => tpot (ts i)) n.
Definition fsum (fs : nat -> frame) (n : nat) : nat := sum_upto (fun i => fpot (fs i)) n.
Definition rsum (tr : nat -> status) : nat := sum_upto (fun i => trpot (tr i) i) N.
Definition measure (s : state) : nat :=
  tsum (tasks s) (ntasks s) + fsum (frames s) (nframes s) + rsum (tracker s) + (if top_cancelled s then 0 else 1).

Lemma tsum_upd ts t x n : t < n -> tsum (upd ts t x) n + tpot (ts t) = tsum ts n + tpot x.
Proof. intros H. unfold tsum. apply (sum_upd (fun _ => tpot)). auto. Qed.
Lemma tsum_new ts n x : tsum (upd ts n x) (S n) = tsum ts n + tpot x.
Proof. unfold tsum. cbn. rewrite upd_same. rewrite (sum_upd_ge (fun _ => tpot)) by lia. lia. Qed.
Lemma fsum_upd fs f x n : f < n -> fsum (upd fs f x) n + fpot (fs f) = fsum fs n + fpot x.
Proof. intros H. unfold fsum. apply (sum_upd (fun _ => fpot)). auto. Qed.
Lemma fsum_new fs n x : fsum (upd fs n x) (S n) = fsum fs n + fpot x.
Proof. unfold fsum. cbn. rewrite upd_same. rewrite (sum_upd_ge (fun _ => fpot)) by lia. lia. Qed.
Lemma fsum_cancel x fs n : fsum (cancel_frames x fs) n = fsum fs n.
Proof.
  unfold fsum. apply sum_upto_ext. intros i _. unfold fpot. now rewrite (cf_proj f_pc), (cf_proj f_kind), (cf_proj f_items).
Qed.
Lemma rsum_upd_lt tr m st : m < N -> rsum (upd tr m st) + trpot (tr m) m = rsum tr + trpot st m.
Proof. intros H. unfold rsum. apply (sum_upd (fun i st => trpot st i)). auto. Qed.
Lemma rsum_upd_le tr m st : trpot st m <= trpot (tr m) m -> rsum (upd tr m st) <= rsum tr.
Proof.
  intros H. destruct (Nat.lt_ge_cases m N) as [Hlt|Hge].
  - pose proof (rsum_upd_lt tr m st Hlt). lia.
  - unfold rsum. rewrite (sum_upd_ge (fun i st => trpot st i)) by lia. lia.
Qed.

Definition I_nodes s := (forall t, t < ntasks s -> t_node (tasks s t) < N) /\
                        (forall f i, In i (f_items (frames s f)) -> i < N).

Lemma move_pot s t l q p h k trk : move succ s t l q p h k trk -> t_pc (tasks s t) = q -> t_node (tasks s t) < N ->
  tpot (set_pc_holds (tasks s t) p h) + rsum trk < tpot (tasks s t) + rsum (tracker s).
Proof.
  intros Hm Hq Hn. unfold tpot, wait_list, go_items, fcost. cbn [set_pc_holds t_pc t_kind t_node]. rewrite Hq.
  destruct Hm as [| Htr | | | | |]; try lia.
  - destruct (t_kind _); cbn [spawn_pot length]; lia.
  - pose proof (rsum_upd_lt (tracker s) _ InProgress Hn) as Hr. rewrite Htr in Hr. unfold trpot, upot, fcost in Hr. lia.
  - destruct (succ _); [|destruct (t_kind _)]; cbn [length]; lia.
  - destruct rest; cbn [wait_pc length]; lia.
Qed.

Lemma fin_pot s t l q e trk : fin s t l q e trk -> t_pc (tasks s t) = q ->
  0 < tpot (tasks s t) /\ rsum trk <= rsum (tracker s).
Proof.
  intros Hf Hq. unfold tpot. rewrite Hq. destruct Hf; split; try lia; try (apply rsum_upd_le; cbn; lia).
  - destruct (t_kind _); cbn; lia.
  - destruct ok; [apply rsum_upd_le; cbn; lia | lia].
Qed.

Lemma nodes_init : I_nodes (init K ext roots).
Proof.
  split; cbn; intros; try lia. unfold upd in H. destruct (Nat.eqb f 0); cbn in H; auto. contradiction.
Qed.

Lemma nodes_step s l s' : Inv1 s -> I_nodes s -> step succ s l = Some s' -> I_nodes s'.
Proof.
  intros [Hwf Hperm Hmust Hmay] [Hn1 Hn2] Hs.
  assert (Hits : forall g its q f i, incl its (f_items (frames s g)) ->
                 In i (f_items (upd (frames s) g (set_fpc (frames s g) its q) f)) -> i < N).
  { intros g its q f i Hi. upd_at f g; eauto. }
  destruct (step_Step succ s l s' Hs) as [| f i rest k Hpc Hit Hfr | | | | | t Hp | |]; split; cbn [tasks ntasks frames]; intros *;
    rewrite ?(upd_proj t_node), ?(cf_proj f_items) by reflexivity; eauto; try (apply Hits; intros x []).
  - intros Hlt. upd_at t (ntasks s); [|apply Hn1; lia].
    apply (Hn2 f). rewrite Hit. now left.
  - apply Hits. rewrite Hit. now right.
  - upd_at f (nframes s); [|eauto].
    specialize (Hn1 t (live_lt s t _ Hwf Hp eq_refl)).
    unfold go_items. cbn [f_items]. destruct (t_kind _); [intros Hi; apply succ_dec in Hi; lia | intros [<-|[]]; auto].
  - destruct e; rewrite ?(cf_proj f_items) by reflexivity; eauto.
Qed.

Lemma nodes_reach s : Reachable s -> I_nodes s.
Proof.
  induction 1. apply nodes_init. eapply nodes_step; eauto. eapply inv1_reach; eauto.
Qed.

(* expresses the sums over an updated map by the sums over the map before the update *)
Ltac msum :=
  repeat match goal with
         | |- context [fsum (cancel_frames ?x ?fs) ?n] => rewrite (fsum_cancel x fs n)
         end;
  repeat match goal with
         | |- context [tsum (upd ?ts ?n ?x) (S ?n)] => rewrite (tsum_new ts n x)
         | |- context [fsum (upd ?fs ?n ?x) (S ?n)] => rewrite (fsum_new fs n x)
         | |- context [tsum (upd ?ts ?t ?x) ?n] =>
           let H := fresh "HS" in let v := fresh "v" in
           pose proof (tsum_upd ts t x n ltac:(assumption)) as H;
           set (v := tsum (upd ts t x) n) in *; clearbody v
         | |- context [fsum (upd ?fs ?f ?x) ?n] =>
           let H := fresh "HS" in let v := fresh "v" in
           pose proof (fsum_upd fs f x n ltac:(assumption)) as H;
           set (v := fsum (upd fs f x) n) in *; clearbody v
         end.

Lemma measure_decreases s l s' : Inv1 s -> Inv2 s -> I_nodes s -> step succ s l = Some s' -> measure s' < measure s.
Proof.
  intros [Hwf _ _ _] [Hwff _ _ _ _ _ _ _ _ _ _] [Hn1 _] Hs.
  destruct (step_Step succ s l s' Hs) as [Htc _ | f i rest k Hpc Hit _ | l f Hpc _ | f Hpc _ _ | f p Hpc _ _ Hq _
                                          | f p Hpc _ _ Hq _ | t Hp | l t q p h k trk Hm Hq | l t q e trk Hf Hq];
    unfold measure; cbn [tasks ntasks frames nframes tracker top_cancelled].
  8: { (* move *)
       assert (Ht : t < ntasks s) by (apply (live_lt s t q Hwf Hq), running_alive, (move_running succ s t l q p h k trk Hm)).
       pose proof (move_pot s t l q p h k trk Hm Hq (Hn1 t Ht)). msum. lia. }
  8: { (* fin *)
       assert (Ht : t < ntasks s) by (apply (live_lt s t q Hwf Hq), running_alive, (fin_running s t l q e trk Hf)).
       destruct (fin_pot s t l q e trk Hf Hq). destruct e; msum; cbn [tpot set_pc_holds t_pc] in *; lia. }
  (* the steps of a frame: the potentials of the frame and of the task involved are computed *)
  1: rewrite Htc; msum; lia.
  1-5: pose proof (flive s f _ Hwff Hpc eq_refl).
  4, 5: pose proof (live_lt s p _ Hwf Hq eq_refl).
  6: pose proof (live_lt s t _ Hwf Hp eq_refl).
  all: msum; unfold tpot, fpot, fcost, wait_pc, wait_list, go_items in *;
    cbn [f_kind f_items f_pc t_node t_kind t_pc set_pc_holds set_fpc length] in *.
  all: rewrite ?Hpc, ?Hit, ?Hq, ?Hp in *; try destruct (f_kind _); try destruct (t_kind _); cbn [length spawn_pot] in *; try lia.
  destruct (succ _); cbn [length] in *; lia.
Qed.

Lemma terminates_step s l s' : Reachable s -> step succ s l = Some s' -> measure s' < measure s.
Proof.
  intros Hr Hs. destruct (inv12_reach succ K ext roots succ_dec s Hr) as [I1 I2].
  eapply measure_decreases; eauto. apply nodes_reach; auto.
Qed.

Definition bound : nat :=
  fcost (if ext then KOuter else KFn) (length roots) + sum_upto upot N + 1.

Lemma measure_init : measure (init K ext roots) = bound.
Proof.
  unfold measure, bound, tsum, fsum, rsum. cbn [init tasks ntasks frames nframes tracker top_cancelled sum_upto].
  unfold upd at 1. cbn [Nat.eqb]. unfold fpot. cbn [f_pc f_kind f_items].
  rewrite (sum_upto_ext (fun i => trpot Untracked i) upot); [lia|]. intros; reflexivity.
Qed.

Lemma run_bounded s ls s' : Reachable s -> run succ s ls = Some s' -> length ls + measure s' <= measure s.
Proof.
  revert s. induction ls as [|l ls IH]; cbn; intros s Hr H.
  - inversion H. lia.
  - destruct (step succ s l) as [s1|] eqn:Hs; [|discriminate].
    pose proof (terminates_step s l s1 Hr Hs).
    assert (Reachable s1) by (econstructor; eauto).
    specialize (IH s1 H1 H). lia.
Qed.

Theorem terminates ls s : run succ (init K ext roots) ls = Some s -> length ls <= bound.
Proof.
  intros H. pose proof (run_bounded _ ls s (R_init succ K ext roots) H). rewrite measure_init in H0. lia.
Qed.

Theorem no_infinite_run (st : nat -> state) (lb : nat -> label) :
  st 0 = init K ext roots -> (forall i, step succ (st i) (lb i) = Some (st (S i))) -> False.
Proof.
  intros H0 Hst.
  assert (Hall : forall i, Reachable (st i) /\ i + measure (st i) <= bound).
  { induction i as [|i [Hr Hm]].
    - rewrite H0. split; [constructor|]. rewrite measure_init. lia.
    - pose proof (terminates_step _ _ _ Hr (Hst i)). split; [econstructor; eauto | lia]. }
  destruct (Hall (S bound)) as [_ Hb]. lia.
Qed.

End Proofs.
