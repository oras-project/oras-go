(* CopyFaultLive: the fault-extended transition system never gets stuck.  At every state reached by an
   accepted trace that has not returned, some FAULT-FREE event is enabled: the acceptor excludes no behaviour
   by deadlocking, and an untainted run can always go on until the successful return.  (That real executions
   do terminate is the protocol part's theorem.) *)
From Oras Require Import Base.Prelude Model.CopySpec Model.CopyTop Model.CopyOpt Model.CopyBytes Model.CopyFault Proofs.CopySpec Proofs.CopyFault.
Local Open Scope nat_scope.

Section L.
Variable g : graph.
Variable c : cfg.
Variable ext : bool.
Variable d0 : list node.
Notation Inv := (Inv g c d0).

(* two more invariants: a probe that saw the content still sees it; a manifest waiting for its proxy fetch
   is not cached *)
Definition P1 (st : state) : Prop := forall n, ph st n = ExQ true -> has g (dst st) n = true.
Definition P2 (st : state) : Prop := forall n, ph st n = NeedFetch -> memb n (cached st) = false.

(* for Mounter destinations: a node on the mount path is not in the proxy cache; and (content keys injective)
   whatever the destination holds is initial content, or belongs to a node in a "present" phase, or to a
   dead task that had stored it *)
Definition P3 (st : state) : Prop := forall n, mt_ph (ph st n) = true -> memb n (cached st) = false.
Definition P4 (st : state) : Prop := forall n, has g (dst st) n = true ->
  present_ph (ph st n) = true \/ has g d0 n = true \/ ph st n = Dead.

Lemma moved_dst_mono st e n p q x :
  has g (dst st) x = true -> has g (dst (moved st e n p q)) x = true.
Proof. intro H. cbn [moved dst]. destruct (stores e); auto using has_mono. Qed.

Lemma P1_step st e st' : P1 st -> step g c st e = Some st' -> P1 st'.
Proof.
  intros H1 H. apply step_cases in H as [_ S]. destruct S as [n p q Hp M|b _ _]; [|exact H1].
  intros m. cbn [moved ph]. unfold upd. destruct (Nat.eqb m n) eqn:E.
  - (* only the probe enters ExQ, with what the destination answers *)
    apply Nat.eqb_eq in E as ->. intro Hq. apply moved_dst_mono. revert Hq.
    move_cases M; try discriminate. now intros [= ->].
  - intro Hm. apply moved_dst_mono, H1, Hm.
Qed.

(* P2 and P3 say of a set f of phases that a node in it is not cached.  The cache grows by the node that
   goes from MF2 to Waiting; so f is kept when Waiting is outside and a node enters f uncached. *)
Definition uncached (f : phase -> Prop) (st : state) : Prop :=
  forall n, f (ph st n) -> memb n (cached st) = false.

Lemma uncached_step (f : phase -> Prop) st e st' : ~ f Waiting ->
  (forall e n p q, move g c st e n p q -> f q -> f p \/ memb n (cached st) = false) ->
  uncached f st -> step g c st e = Some st' -> uncached f st'.
Proof.
  intros HW HM HU H. apply step_cases in H as [_ S]. destruct S as [n p q Hp M|b _ _]; [|exact HU].
  assert (Hc : caches e p = true -> q = Waiting) by (destruct M; try discriminate; reflexivity).
  intros m. cbn [moved ph cached]. unfold upd. destruct (Nat.eqb m n) eqn:E.
  - apply Nat.eqb_eq in E as ->. intro Hq.
    destruct (caches e p); [now rewrite Hc in Hq|].
    destruct (HM _ _ _ _ M Hq) as [Hfp|Hn]; [apply HU; now rewrite Hp | exact Hn].
  - intro Hm. destruct (caches e p); [cbn [memb existsb]; rewrite E|]; now apply HU.
Qed.

Lemma P2_step st e st' : P2 st -> step g c st e = Some st' -> P2 st'.
Proof.
  apply (uncached_step (fun p => p = NeedFetch)); [discriminate|].
  intros e0 n p q M Hq. right. move_cases M; try discriminate Hq. assumption.
Qed.

Lemma P3_step st e st' : P3 st -> step g c st e = Some st' -> P3 st'.
Proof.
  apply (uncached_step (fun p => mt_ph p = true)); [discriminate|].
  intros e0 n p q M Hq. move_cases M; try discriminate Hq; try (left; reflexivity).
  (* MountFrom enters the mount path, with the node uncached *)
  right. assumption.
Qed.

Lemma move_present st e n p q : move g c st e n p q ->
  (present_ph p = true -> present_ph q = true \/ q = Dead) /\
  (forall m, stores e = Some m -> m = n /\ present_ph q = true).
Proof.
  intro M. move_cases M; (split; [cbn; auto | try discriminate]); try (now intros m [= <-]);
    (destruct r; [now intros m [= <-] | discriminate]).
Qed.

Section Inj.
Hypothesis dkey_inj : forall a b, g_dkey g a = g_dkey g b -> a = b.

Lemma has_cons_inj d x m : has g (x :: d) m = true -> has g d m = false -> m = x.
Proof.
  rewrite has_cons. intros H Hf. rewrite Hf, orb_false_r in H. apply Nat.eqb_eq in H. symmetry. now apply dkey_inj.
Qed.

Lemma P4_step st e st' : P4 st -> step g c st e = Some st' -> P4 st'.
Proof.
  intros H4 H. apply step_cases in H as [_ S]. destruct S as [n p q Hp M|b _ _]; [|exact H4].
  destruct (move_present _ _ _ _ _ M) as [Hpres Hst].
  intros m. cbn [moved ph dst]. intro Hm.
  assert (Hold : has g (dst st) m = true \/ (m = n /\ present_ph q = true)).
  { destruct (stores e) as [n'|]; [|now left].
    destruct (has g (dst st) m) eqn:Hold; [now left | right].
    destruct (Hst n' eq_refl) as [-> Hq]. split; [exact (has_cons_inj _ _ _ Hm Hold) | exact Hq]. }
  unfold upd. destruct Hold as [Hold|[-> Hq]]; [|rewrite Nat.eqb_refl; now left].
  destruct (Nat.eqb m n) eqn:E; [|now apply H4].
  apply Nat.eqb_eq in E as ->. destruct (H4 n Hold) as [Hpp|[H0|Hd]]; [|now auto|].
  - rewrite Hp in Hpp. destruct (Hpres Hpp); auto.
  - destruct (move_dead g c _ _ _ _ _ M) as [Hl _]. congruence.
Qed.

End Inj.

Lemma P12_fstep fs fe fs' : P1 (fb fs) -> P2 (fb fs) ->
  fstep g c ext fs fe = Some fs' -> P1 (fb fs') /\ P2 (fb fs').
Proof.
  intros H1 H2 H. apply fstep_inv in H as [Hr H].
  destruct H as [| | | |e st' _ _ Hs _|fe n p _ _ _| |]; cbn [fb set_ret with_base]; auto.
  - split; [eapply P1_step | eapply P2_step]; eauto.
  - (* a dead node is in neither phase; the destination does not shrink *)
    pose proof (killed_dst g fs fe n p) as Hd. cbn [killed fb dst] in Hd |- *.
    split; intros m; cbn [ph dst cached]; unfold upd; destruct (Nat.eqb m n); try discriminate.
    + intro Hm. specialize (H1 m Hm). destruct Hd as [->| ->]; auto using has_mono.
    + apply H2.
Qed.

Section InjF.
Hypothesis dkey_inj : forall a b, g_dkey g a = g_dkey g b -> a = b.

Lemma P34_fstep fs fe fs' : P3 (fb fs) -> P4 (fb fs) ->
  fstep g c ext fs fe = Some fs' -> P3 (fb fs') /\ P4 (fb fs').
Proof.
  intros H3 H4 H. apply fstep_inv in H as [Hr H].
  destruct H as [| | | |e st' _ _ Hs _|fe n p _ _ _| |]; cbn [fb set_ret with_base]; auto.
  - split; [exact (P3_step _ _ _ H3 Hs) | exact (P4_step dkey_inj _ _ _ H4 Hs)].
  - pose proof (killed_dst g fs fe n p) as Hd. cbn [killed fb dst] in Hd |- *.
    split; intros m; cbn [ph dst cached]; unfold upd; destruct (Nat.eqb m n) eqn:E; try discriminate; auto.
    (* what the destination holds beside the dead task's node it held before *)
    intro Hm. apply H4. destruct Hd as [E1|E1]; rewrite E1 in Hm; [exact Hm|].
    destruct (has g (dst (fb fs)) m) eqn:E0; [reflexivity|].
    apply Nat.eqb_neq in E. now destruct (E (has_cons_inj dkey_inj _ _ _ Hm E0)).
Qed.

End InjF.

(* the virtual super-root stays Waiting *)
Definition Wv (st : state) : Prop := ext = true -> ph st (c_root c) = Waiting.

Lemma Wv_fstep fs fe fs' : Wv (fb fs) -> fstep g c ext fs fe = Some fs' -> Wv (fb fs').
Proof.
  intros Hw H Hx. specialize (Hw Hx). apply fstep_inv in H as [Hr H].
  assert (Hv : forall e, on_virtual c ext e = false -> ev_node e <> Some (c_root c)).
  { intros e Hv He. unfold on_virtual in Hv. rewrite Hx, He, Nat.eqb_refl in Hv. discriminate. }
  destruct H as [| | | |e st' _ _ Hs Hve|fe m p _ Hp K| |]; cbn [fb set_ret with_base killed ph]; auto.
  - (* base step: the event does not name the virtual root *)
    rewrite (step_frame g c _ _ _ (c_root c) Hs); auto.
  - (* the killed task is in a phase other than Waiting, or the event may not name the virtual root *)
    rewrite upd_other; [exact Hw|]. intro E. rewrite <- E, Hw in Hp.
    destruct K; try discriminate Hp. subst n. now apply (Hv (ExB (c_root c))).
Qed.

Definition live_inv (fs : fstate) : Prop := Inv (fb fs) /\ P1 (fb fs) /\ P2 (fb fs) /\ Wv (fb fs).

Lemma live_fstep fs fe fs' : live_inv fs -> fstep g c ext fs fe = Some fs' -> live_inv fs'.
Proof.
  intros [I [H1 [H2 Hw]]] H. destruct (P12_fstep _ _ _ H1 H2 H) as [A B].
  split; [exact (fstep_preserves_inv g c ext d0 _ _ _ I H)|]. split; [exact A|]. split; [exact B|].
  exact (Wv_fstep _ _ _ Hw H).
Qed.

Lemma faccepts_live tr fs : ext_ok g c ext d0 -> faccepts g c ext d0 tr = Some fs -> live_inv fs.
Proof.
  intro Hx. apply (frun_preserves g c ext live_inv live_fstep).
  split; [now apply finit_inv|].
  split; [|split]; try (intros n Hn; destruct (finit_ph c ext d0 n) as [E|[_ [_ E]]]; congruence).
  intro He. unfold finit. rewrite He. apply upd_same.
Qed.

Lemma faccepts_mount tr fs : (forall a b, g_dkey g a = g_dkey g b -> a = b) ->
  faccepts g c ext d0 tr = Some fs -> P3 (fb fs) /\ P4 (fb fs).
Proof.
  intro Hinj. apply (frun_preserves g c ext (fun fs => P3 (fb fs) /\ P4 (fb fs))).
  - intros fs0 fe fs1 [H3 H4]. now apply P34_fstep.
  - split; intros n Hn.
    + destruct (finit_ph c ext d0 n) as [E|[_ [_ E]]]; rewrite E in Hn; discriminate.
    + right. left. unfold finit in Hn. destruct ext; exact Hn.
Qed.

(* the witnesses: neither a fault, nor the return, nor a further Mount attempt *)
Definition forward_event (e : event) : Prop :=
  match e with CbFail _ _ | Ret _ | MtB _ => False | _ => True end.

Lemma forward_event_spec e : forward_event e ->
  is_fault (Ev e) = false /\ (forall b, e <> Ret b) /\ (forall k, e <> MtB k).
Proof. destruct e; intros []; repeat split; discriminate. Qed.

(* [fire e]: the event e is the witness; what is left is to evaluate [step] on it *)
Local Ltac fire e :=
  exists e; eexists; split; [exact Logic.I|]; split; [reflexivity|]; unfold step, cb_next.

(* Mounter destinations need P3, and that the fallback upload inside Mount finds the node absent; at MtRdy
   the witness is PreCopy ("no candidate left: copy"), so that a potential function decreases along the
   witnesses *)
Lemma active_enabled st n : P1 st -> P2 st -> P3 st -> (ph st n = MtC -> has g (dst st) n = false) ->
  returned st = None -> active_ph (ph st n) = true ->
  exists e st', forward_event e /\ ev_node e = Some n /\ step g c st e = Some st'.
Proof.
  intros H1 H2 H3 H4 Hret Ha.
  destruct (ph st n) eqn:Hp; try discriminate Ha.
  - (* ExQ *)
    destruct (has g (dst st) n) eqn:Hh.
    + fire (ExE n true). rewrite Hret, Hp, Hh. reflexivity.
    + fire (ExE n false). rewrite Hret, Hp. destruct was; [|reflexivity].
      rewrite (H1 n Hp) in Hh. discriminate.
  - fire (Cb CSkip n). rewrite Hret, Hp. reflexivity.
  - fire (SFB n). rewrite Hret, Hp, (H2 n Hp). reflexivity.
  - fire (SFE n). rewrite Hret, Hp. reflexivity.
  - fire (SFC n). rewrite Hret, Hp. reflexivity.
  - (* Rdy *)
    destruct (memb n (cached st)) eqn:Hc.
    + fire (PuB n (root_refpush c n)). rewrite Hret, Bool.eqb_reflx, Hp, Hc. reflexivity.
    + fire (SFB n). rewrite Hret, Hp, Hc. reflexivity.
  - fire (SFE n). rewrite Hret, Hp. reflexivity.
  - fire (PuB n (root_refpush c n)). rewrite Hret, Bool.eqb_reflx, Hp. reflexivity.
  - (* Pushing *)
    destruct (has g (dst st) n) eqn:Hh.
    + fire (PuE n (root_refpush c n) PExists). rewrite Hret, Bool.eqb_reflx, Hp, Hh. reflexivity.
    + fire (PuE n (root_refpush c n) POk). rewrite Hret, Bool.eqb_reflx, Hp, Hh. reflexivity.
  - fire (SFC n). rewrite Hret, Hp. reflexivity.
  - fire (TagB n). rewrite Hret, Hp. reflexivity.
  - fire (TagE n). rewrite Hret, Hp. reflexivity.
  - fire (Cb CPre n). rewrite Hret, Hp. reflexivity.
  - fire (MtE n MSkipped). rewrite Hret, Hp. reflexivity.
  - fire (SFB n). rewrite Hret, Hp, (H3 n); [reflexivity | now rewrite Hp].
  - fire (SFE n). rewrite Hret, Hp. reflexivity.
  - fire (SFC n). rewrite Hret, Hp. reflexivity.
  - fire (MtE n MCopied). rewrite Hret, Hp, (H4 eq_refl). reflexivity.
  - fire (Cb CMounted n). rewrite Hret, Hp. reflexivity.
  - fire (Cb CPost n). rewrite Hret, Hp. reflexivity.
Qed.

Section Rank.
Variable rank : node -> nat.
Hypothesis rank_dec : forall n x, In x (succ' g n) -> rank x < rank n.
Hypothesis K_pos : 1 <= c_K c.
Hypothesis root_in : c_root c < g_n g.
Hypothesis xroots_in : forall x, In x (c_xroots c) -> x < g_n g.
Hypothesis succ_in : forall n x, n < g_n g -> In x (succ' g n) -> x < g_n g.
Hypothesis nomount : c_mount c = false.
Hypothesis virt_nopred : ext = true -> forall n, ~ In (c_root c) (succ' g n).

Definition virt (n : node) : bool := ext && Nat.eqb n (c_root c).
Definition quiet (st : state) : Prop := forall n, active_ph (ph st n) = false /\ ph st n <> Dead.

Lemma filter_nil {A} (f : A -> bool) l : (forall x, f x = false) -> filter f l = [].
Proof. intro H. induction l as [|a l IH]; simpl; [reflexivity|]. now rewrite H. Qed.

Lemma quiet_active0 st : quiet st -> active g st = 0.
Proof. intro Q. unfold active, count. rewrite filter_nil; [reflexivity|]. intro x. apply Q. Qed.

Lemma forallb_false_ex {A} (f : A -> bool) l : forallb f l = false -> exists x, In x l /\ f x = false.
Proof.
  induction l as [|a l IH]; simpl; [discriminate|]. intro H.
  destruct (f a) eqn:E; [|exists a; auto]. destruct (IH H) as [x [Hx Hf]]. exists x. auto.
Qed.

Lemma quiet_cases st n : quiet st -> ph st n = Idle \/ ph st n = Waiting \/ ph st n = Done.
Proof.
  intro Q. destruct (Q n) as [Ha Hd]. destruct (ph st n); simpl in Ha; try discriminate; auto. congruence.
Qed.

Lemma K_gt0 : Nat.ltb 0 (c_K c) = true.
Proof. apply Nat.ltb_lt. lia. Qed.

Lemma exb_enabled st x : returned st = None -> quiet st -> ph st x = Idle -> x < g_n g ->
  dispatched g c st x = true -> exists st', step g c st (ExB x) = Some st'.
Proof.
  intros Hr Q Hp Hx Hd. unfold step. rewrite Hr, Hp, Hd, (quiet_active0 st Q), K_gt0.
  assert (E : Nat.ltb x (g_n g) = true) by now apply Nat.ltb_lt. rewrite E. eexists. reflexivity.
Qed.

Lemma dispatched_by st p x : p < g_n g -> ph st p = Waiting -> In x (succ' g p) -> dispatched g c st x = true.
Proof.
  intros Hp Hw Hx. unfold dispatched. apply orb_true_iff. right. apply existsb_exists. exists p. split.
  - apply in_seq. lia.
  - rewrite Hw. cbn [is_waiting andb]. now apply memb_In.
Qed.

Lemma not_virt n : (ext = true -> n <> c_root c) -> virt n = false.
Proof.
  intro H. unfold virt. destruct (Bool.bool_dec ext true) as [E|E].
  - rewrite E. apply Nat.eqb_neq, H, E.
  - apply Bool.not_true_is_false in E. now rewrite E.
Qed.

Lemma succ_not_virt n x : In x (succ' g n) -> virt x = false.
Proof. intro Hx. apply not_virt. intros Hext ->. exact (virt_nopred Hext n Hx). Qed.

(* a waiting real node: a successor can be probed, or a successor waits in turn, or PreCopy / MountFrom is
   enabled *)
Lemma waiting_enabled st : Inv st -> returned st = None -> quiet st ->
  forall k n, rank n < k -> ph st n = Waiting -> virt n = false ->
  exists e st' m, forward_event e /\ ev_node e = Some m /\ virt m = false /\ step g c st e = Some st'.
Proof.
  intros I Hr Q. induction k as [|k IH]; intros n Hk Hp Hv; [lia|].
  assert (Hn : n < g_n g) by (apply (i_bound _ _ _ st I); congruence).
  destruct (forallb (fun s => is_done (ph st s)) (succ' g n)) eqn:Ef.
  - destruct (mount_applies g c st n) eqn:Em;
      [exists (Cb CMountFrom n) | exists (Cb CPre n)]; eexists; exists n;
      (split; [exact Logic.I|]); (split; [reflexivity|]); (split; [exact Hv|]);
      unfold step, cb_next; rewrite Hr, Hp, Ef, (quiet_active0 st Q), K_gt0, Em; reflexivity.
  - destruct (forallb_false_ex _ _ Ef) as [x [Hx Hxd]].
    pose proof (succ_not_virt n x Hx) as Hvx.
    destruct (quiet_cases st x Q) as [Hi|[Hw|Hdn]].
    + destruct (exb_enabled st x Hr Q Hi (succ_in n x Hn Hx) (dispatched_by st n x Hn Hp Hx)) as [st' Hs].
      exists (ExB x), st', x. repeat split; auto.
    + apply (IH x); auto. specialize (rank_dec n x Hx). lia.
    + rewrite Hdn in Hxd. discriminate.
Qed.

(* the roots of the call, which are dispatched from the start: by the virtual super-root, which waits
   (ExtendedCopyGraph), or as the root and the further roots of the configuration *)
Definition call_roots : list node := if ext then succ' g (c_root c) else c_root c :: c_xroots c.

Lemma root_dispatched st r : Wv st -> In r call_roots ->
  dispatched g c st r = true /\ r < g_n g /\ virt r = false.
Proof.
  intros Hw Hr. unfold call_roots in Hr. destruct (Bool.bool_dec ext true) as [Hext|Hext].
  - rewrite Hext in Hr. split; [exact (dispatched_by st _ r root_in (Hw Hext) Hr)|].
    split; [exact (succ_in _ r root_in Hr) | exact (succ_not_virt _ r Hr)].
  - apply Bool.not_true_is_false in Hext. rewrite Hext in Hr. unfold dispatched, is_root, virt. rewrite Hext.
    destruct Hr as [<-|Hr].
    + rewrite Nat.eqb_refl. split; [reflexivity | split; [exact root_in | reflexivity]].
    + pose proof (xroots_in r Hr) as Hlt. apply memb_In in Hr. rewrite Hr, orb_true_r. auto.
Qed.

Lemma roots_done_guard st : Wv st -> (forall n, virt n = false -> ph st n = Idle \/ ph st n = Done) ->
  forallb (fun r => is_done (ph st r)) call_roots = true -> ret_ok_guard g c ext st = true.
Proof.
  intros Hw Hreal Hd. unfold ret_ok_guard, call_roots in *.
  assert (Hall : forall n, virt n || is_idle_or_done (ph st n) = true).
  { intro n. destruct (virt n) eqn:Hv; [reflexivity|]. destruct (Hreal n Hv) as [E|E]; now rewrite E. }
  unfold virt in Hall. destruct ext eqn:Hext.
  - rewrite (Hw Hext), Hd. apply forallb_forall. intros n _. apply Hall.
  - cbn [forallb] in Hd. apply andb_true_iff in Hd as [Hd1 Hd2]. rewrite Hd1, Hd2, andb_true_r.
    apply forallb_forall. intros n _. apply Hall.
Qed.

Lemma enabled_or_done st : Inv st -> P1 st -> P2 st -> P3 st ->
  (forall n, ph st n = MtC -> has g (dst st) n = false) -> Wv st ->
  returned st = None -> (forall n, ph st n <> Dead) ->
  (exists e st', forward_event e /\ on_virtual c ext e = false /\ step g c st e = Some st') \/
  ret_ok_guard g c ext st = true.
Proof.
  intros I H1 H2 H3 H4 Hw Hr Hnodead.
  assert (EV : forall e st' m, forward_event e -> ev_node e = Some m -> virt m = false ->
            step g c st e = Some st' ->
            exists e st', forward_event e /\ on_virtual c ext e = false /\ step g c st e = Some st').
  { intros e st' m Hf Hm Hv Hs. exists e, st'. repeat split; auto. unfold on_virtual. now rewrite Hm. }
  (* 1. an active task: not the virtual root, which waits *)
  destruct (find (fun n => active_ph (ph st n)) (seq 0 (g_n g))) as [n|] eqn:Ef.
  { left. apply find_some in Ef as [_ Hact].
    destruct (active_enabled st n H1 H2 H3 (H4 n) Hr Hact) as [e [st' [Hpl [Hnode Hs]]]].
    apply (EV e st' n); auto. apply not_virt. intros Hext ->. rewrite (Hw Hext) in Hact. discriminate. }
  assert (Q : quiet st).
  { intros n. split; [|apply Hnodead].
    destruct (Nat.lt_ge_cases n (g_n g)) as [Hn|Hn].
    - apply (find_none _ _ Ef). apply in_seq. lia.
    - destruct (ph st n) eqn:E; auto; exfalso;
        assert (n < g_n g) by (apply (i_bound _ _ _ st I); rewrite E; discriminate); lia. }
  (* 2. a waiting real node *)
  destruct (find (fun n => is_waiting (ph st n) && negb (virt n)) (seq 0 (g_n g))) as [n|] eqn:Ew.
  { left. apply find_some in Ew as [_ Hwn]. apply andb_true_iff in Hwn as [Hwn Hvn]. apply negb_true_iff in Hvn.
    assert (Hp : ph st n = Waiting) by (destruct (ph st n); simpl in Hwn; congruence).
    destruct (waiting_enabled st I Hr Q (S (rank n)) n (Nat.lt_succ_diag_r _) Hp Hvn) as [e [st' [m [Hpl [Hnode [Hvm Hs]]]]]].
    now apply (EV e st' m). }
  assert (Hreal : forall n, virt n = false -> ph st n = Idle \/ ph st n = Done).
  { intros n Hv. destruct (quiet_cases st n Q) as [Hi|[Hwt|Hd]]; auto. exfalso.
    assert (Hn : n < g_n g) by (apply (i_bound _ _ _ st I); congruence).
    assert (Hin : In n (seq 0 (g_n g))) by (apply in_seq; lia).
    pose proof (find_none _ _ Ew n Hin) as Hf. cbv beta in Hf. rewrite Hwt, Hv in Hf. discriminate. }
  assert (EX : forall x, virt x = false -> ph st x = Idle -> x < g_n g -> dispatched g c st x = true ->
            exists e st', forward_event e /\ on_virtual c ext e = false /\ step g c st e = Some st').
  { intros x Hv Hi Hx Hd. destruct (exb_enabled st x Hr Q Hi Hx Hd) as [st' Hs].
    now apply (EV (ExB x) st' x). }
  (* 3. only roots are left to dispatch, or the call returns *)
  destruct (forallb (fun r => is_done (ph st r)) call_roots) eqn:Ed.
  - right. now apply roots_done_guard.
  - left. destruct (forallb_false_ex _ _ Ed) as [x [Hx Hxd]].
    destruct (root_dispatched st x Hw Hx) as [Hd [Hlt Hv]].
    destruct (Hreal x Hv) as [Hi|Hdn]; [|rewrite Hdn in Hxd; discriminate].
    exact (EX x Hv Hi Hlt Hd).
Qed.

(* the progress theorem, at a state: a tainted state can return its error, an untainted one has no dead task *)
Lemma fprogress_core fs : Inv (fb fs) -> P1 (fb fs) -> P2 (fb fs) -> P3 (fb fs) ->
  (forall n, ph (fb fs) n = MtC -> has g (dst (fb fs)) n = false) -> Wv (fb fs) ->
  returned (fb fs) = None ->
  exists e fs', is_fault (Ev e) = false /\ (forall k, e <> MtB k) /\ fstep g c ext fs (Ev e) = Some fs'.
Proof.
  intros I H1 H2 H3 H4 Hw Hr.
  destruct (tainted g fs) eqn:Ht.
  { exists (Ret false). eexists. split; [reflexivity|]. split; [discriminate|]. now apply fret_err_enabled. }
  pose proof Ht as Ht'. unfold tainted in Ht'.
  apply orb_false_iff in Ht' as [Ht' Hnd]. apply orb_false_iff in Ht' as [_ Ha].
  assert (Hnodead : forall n, ph (fb fs) n <> Dead).
  { intros n Hd. assert (Hn : n < g_n g) by (apply (i_bound _ _ _ _ I); congruence).
    rewrite (any_dead_intro g _ n Hn Hd) in Hnd. discriminate. }
  destruct (enabled_or_done _ I H1 H2 H3 H4 Hw Hr Hnodead) as [[e [st' [Hf [Hv Hs]]]]|Hg].
  - destruct (forward_event_spec e Hf) as [Hnf [Hnr Hnb]].
    exists e, (with_base fs st'). split; [exact Hnf|]. split; [exact Hnb|]. now apply fstep_ev.
  - exists (Ret true). eexists. split; [reflexivity|]. split; [discriminate|].
    unfold fstep. rewrite Hr, Ht, Hg. reflexivity.
Qed.

(* destinations without registry.Mounter: nothing is ever on the mount path *)
Lemma fprogress_state fs : live_inv fs -> returned (fb fs) = None ->
  exists e fs', is_fault (Ev e) = false /\ (forall k, e <> MtB k) /\ fstep g c ext fs (Ev e) = Some fs'.
Proof.
  intros [I [H1 [H2 Hw]]] Hr.
  assert (Hmt : forall n, mt_ph (ph (fb fs) n) = false).
  { intro n. destruct (mt_ph (ph (fb fs) n)) eqn:E; [|reflexivity].
    destruct (i_mt _ _ _ _ I n E) as [Hc _]. congruence. }
  apply fprogress_core; auto.
  - intros n Hn. now rewrite Hmt in Hn.
  - intros n Hn. specialize (Hmt n). rewrite Hn in Hmt. discriminate.
Qed.

Theorem fprogress tr fs : ext_ok g c ext d0 ->
  faccepts g c ext d0 tr = Some fs -> returned (fb fs) = None ->
  exists e fs', is_fault (Ev e) = false /\ fstep g c ext fs (Ev e) = Some fs'.
Proof.
  intros Hx Ha Hr. destruct (fprogress_state fs (faccepts_live tr fs Hx Ha) Hr) as [e [fs' [Hf [_ Hs]]]]. eauto.
Qed.

Section M.
Hypothesis dkey_inj : forall a b, g_dkey g a = g_dkey g b -> a = b.

(* the progress theorem for Mounter destinations too, with a witness that is never a further Mount
   attempt (MtB) *)
Lemma fprogress_state_m2 fs : Inv (fb fs) -> P1 (fb fs) -> P2 (fb fs) -> P3 (fb fs) -> P4 (fb fs) -> Wv (fb fs) ->
  returned (fb fs) = None ->
  exists e fs', is_fault (Ev e) = false /\ (forall k, e <> MtB k) /\ fstep g c ext fs (Ev e) = Some fs'.
Proof.
  intros I H1 H2 HP3 HP4 Hw Hr. apply fprogress_core; auto.
  (* the fallback upload inside Mount is stored: the destination does not hold the node yet *)
  intros n Hp. destruct (has g (dst (fb fs)) n) eqn:E; [|reflexivity].
  destruct (HP4 n E) as [Hpp|[H0|Hd]].
  - rewrite Hp in Hpp. discriminate.
  - rewrite (i_absent _ _ _ _ I n) in H0; [discriminate | now rewrite Hp].
  - congruence.
Qed.

Theorem fprogress_m tr fs : ext_ok g c ext d0 ->
  faccepts g c ext d0 tr = Some fs -> returned (fb fs) = None ->
  exists e fs', is_fault (Ev e) = false /\ fstep g c ext fs (Ev e) = Some fs'.
Proof.
  intros Hx Ha Hr. destruct (faccepts_live tr fs Hx Ha) as [I [H1 [H2 Hw]]].
  destruct (faccepts_mount tr fs dkey_inj Ha) as [H3 H4].
  destruct (fprogress_state_m2 fs I H1 H2 H3 H4 Hw Hr) as [e [fs' [Hf [_ Hs]]]]. eauto.
Qed.

End M.

End Rank.

End L.
