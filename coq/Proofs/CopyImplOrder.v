(* CopyImplOrder: the push-ordering invariant of the protocol LTS as statements about every
   reachable state -- failed, cancelled and unfinished executions included.  (The invariants
   themselves, I_waitd and I_donecl, are proved in CopyImplSucc.) *)
From Coq Require Import List Arith Bool Lia.
From Oras Require Import Model.CopyImpl Proofs.CopyImplBase Proofs.CopyImplLive Proofs.CopyImplSucc.
Import ListNotations.

Section Proofs.
Variable succ : nat -> list nat.
Variable K : nat.
Variable ext : bool.
Variable roots : list nat.
Hypothesis succ_dec : forall n m, In m (succ n) -> m < n.
Local Notation Reachable := (Reachable succ K ext roots).

(* a task of copyGraph.fn that is past its wait loop (about to re-acquire its permit, or in
   copyNode) has every successor of its node Done: its done channel is closed *)
Lemma past_wait_successors_done s t : Reachable s ->
  t_kind (tasks s t) = KFn -> (t_pc (tasks s t) = TStart \/ t_pc (tasks s t) = TPush) ->
  forall m, In m (succ (t_node (tasks s t))) -> is_done (tracker s m) = true.
Proof.
  intros Hr Hk Hp. destruct (inv1234_reach succ K ext roots succ_dec s Hr) as [_ [_ [_ I4]]].
  intros m Hm. pose proof (i4_waitd _ _ _ _ I4 t Hk m Hm) as H. now destruct Hp as [Hp|Hp]; rewrite Hp in H.
Qed.

Lemma push_after_done s t ok s' : Reachable s -> step succ s (LPush t ok) = Some s' ->
  forall m, In m (succ (t_node (tasks s t))) -> is_done (tracker s m) = true.
Proof.
  intros Hr Hs. destruct (inv1234_reach succ K ext roots succ_dec s Hr) as [_ [_ [I3 _]]].
  assert (Hp : t_pc (tasks s t) = TPush).
  { cbn in Hs. destruct (t_pc (tasks s t)); try discriminate. reflexivity. }
  apply past_wait_successors_done; auto.
  apply (i3_kfn _ I3). rewrite Hp. reflexivity.
Qed.

Lemma copied_successors_done s : Reachable s ->
  forall n, tracker s n = DoneCopied -> forall m, In m (succ n) -> is_done (tracker s m) = true.
Proof.
  intros Hr. destruct (inv1234_reach succ K ext roots succ_dec s Hr) as [_ [_ [_ I4]]].
  exact (i4_donecl _ _ _ _ I4).
Qed.

End Proofs.
