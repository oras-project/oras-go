(* C13: the URL of every request the client may emit, tied to C20's URL theorems.
   [request_url] (Model/RemoteClient.v) is what the harness compares with the URL of every real
   http.Request; here: for a request of the grammar [allowed], that URL is -- under the generic URL
   syntax of RFC 3986 (C20's url_split) -- scheme://host/v2/<repository>/<kind>/<reference> with
   exactly these path segments and neither query nor fragment (C20_url_exact, [url_is]). *)
From Oras Require Import Base.Prelude Model.Reference Proofs.Reference Proofs.RefURL Model.Registry
  Model.RemoteClient.

Lemma valid_ref_wf vr host repo rf :
  vr host = true -> contains c_slash host = false ->
  valid_repository repo = true -> valid_ref rf = true ->
  wf_ref all_algs vr (mkRef host repo rf) /\ r_reference (mkRef host repo rf) <> [].
Proof.
  intros Hh Hs Hr Hv. unfold valid_ref in Hv. split.
  - split; [split; assumption|]. split; [exact Hr|]. right. cbn [r_reference].
    apply orb_true_iff in Hv as [Hv|Hv]; auto.
  - cbn [r_reference]. intros ->. vm_compute in Hv. discriminate.
Qed.

Lemma allowed_parts q :
  allowed q = true ->
  valid_repository (q_repo q) = true /\
  match q_ep q with
  | EBlob rf | EManifest rf | EReferrers rf => valid_ref rf = true /\ q_digest q = None
  | EUploads => q_digest q = None
  | ESession _ => True
  end.
Proof.
  unfold allowed, valid_ref. intro Ha. apply andb_true_iff in Ha as [Hr Ha]. split; [exact Hr|].
  destruct (q_ep q), (q_m q); try discriminate; try exact I;
    repeat (apply andb_true_iff in Ha as [Ha ?]); destruct (q_digest q); try discriminate;
    rewrite ?Ha; auto.
Qed.

Theorem request_url_exact vr plain host page q :
  (forall reg, vr reg = true -> reg_clean reg = true) ->
  vr host = true -> contains c_slash host = false ->
  allowed q = true ->
  match q_ep q with
  | EManifest r => url_is (request_url plain host page q) plain (mkRef host (q_repo q) r) (b "manifests")
  | EBlob d => url_is (request_url plain host page q) plain (mkRef host (q_repo q) d) (b "blobs")
  | EReferrers d =>
      page = 0 -> url_is (request_url plain host page q) plain (mkRef host (q_repo q) d) (b "referrers")
  | EUploads =>
      q_mount q = None ->
      url_split (request_url plain host page q)
      = Some (mkParts (scheme plain) (host_of host) (b "/v2/" ++ q_repo q ++ b "/blobs/uploads/") None None)
  | ESession _ => True
  end.
Proof.
  intros Hvr Hh Hs Ha. apply allowed_parts in Ha as [Hr Ha]. unfold request_url.
  pose proof (fun rf V => match valid_ref_wf vr host (q_repo q) rf Hh Hs Hr V with
                          | conj W N => url_exact all_algs vr plain _ Hvr W N end) as U.
  destruct (q_ep q) as [d|r| |id|d].
  - destruct Ha as [V ->]. rewrite app_nil_r. apply (U d V).
  - destruct Ha as [V ->]. rewrite app_nil_r. apply (U r V).
  - intros Hm. rewrite Hm, Ha, !app_nil_r.
    apply (url_exact_noref all_algs vr plain (mkRef host (q_repo q) []) Hvr).
    split; [split; assumption|]. split; [exact Hr|]. now left.
  - exact I.
  - intros ->. cbn [N.eqb orb]. destruct Ha as [V ->]. rewrite !app_nil_r. apply (U d V).
Qed.
