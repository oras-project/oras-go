(* Readers for which io.EOF is not final: for EVERY script (no side condition), what
   ReadAll / CopyBuffer accept is exactly what the reader delivers before its first EOF. *)
From Oras Require Import Base.Prelude Model.Verify Model.VerifyAny Proofs.VerifyFacts Proofs.VerifyAny Proofs.Verify
  Proofs.VerifyConc Proofs.VerifyFileConc.
From Coq Require Import Lia ZArith.

Local Open Scope nat_scope.

Section EofNotFinal.
  Variable H : str -> str -> str.
  Variable comb : bool.

  (* U: what the source delivers before its first EOF; out: what Read has handed out.  Once the
     reader has seen EOF either nothing was read since (its limit was used up) or U = out. *)
  Definition upto_inv (U : str) (v : gvr) (out : str) : Prop :=
    quiet (g_err v) ->
    lim_none (g_src v) = true /\
    (U = out ++ upto_eof (b_evs (g_src v)) \/ g_err v = Some EEof /\ U = out).

  Lemma upto_read U v out k bs e v' :
    upto_inv U v out -> g_read (base_read comb) v k = ((bs, e), v') -> upto_inv U v' (out ++ bs).
  Proof.
    intros I E Q'.
    apply g_read_cases in E as (_ & _ & [(-> & -> & _ & _ & _ & Ee)|(Ee & _ & _ & _ & e0 & Eb & C)]).
    - rewrite app_nil_r. destruct Ee as [Ee|(Ee & _ & ->)].
      + rewrite Ee in *. exact (I Q').
      + destruct (I (or_introl Ee)) as [L [X|[Y _]]]; [auto|congruence].
    - destruct (I (or_introl Ee)) as [L [X|[Y _]]]; [|congruence].
      apply base_read_facts in Eb as [[] Lm]. rewrite Lm. split; [exact L|].
      destruct C as [[-> _]|[(-> & _ & Ev)|N]]; [| |destruct (N Q')].
      + left. rewrite <- app_assoc, <- rf_upto by discriminate. exact X.
      + right. split; [exact Ev|]. rewrite X, rf_upto_eof by auto. reflexivity.
  Qed.

  (* any sequence of Read(k) and Verify calls on any reader script: once Verify returns
     nil, the bytes read are exactly what the reader delivered before its first EOF *)
  Theorem accepted_upto_eof fixed fuel evs dg sz out v :
    accepted H comb fixed fuel (mkBase evs None) dg sz out v -> upto_eof evs = out.
  Proof.
    intro A.
    apply (accepted_inv H comb fuel dg (upto_inv (upto_eof evs)) (fun out => upto_eof evs = out)) with (5 := A).
    - apply upto_read.
    - intros v0 o _ Q X. destruct (Q X).
    - intros v0 o b' I _ Q _ _ Ae.
      destruct (I Q) as [L [X|[_ X]]]; [|exact X]. rewrite X, (ae_upto _ _ Ae L). apply app_nil_r.
    - intros _. unfold new_vr. destruct (new_vr_shape fixed (mkBase evs None) dg sz) as [e ->]. simpl. auto.
  Qed.

  Theorem verify_reader_upto_eof fuel evs dg sz ops v out v' :
    vr_run H comb fuel dg ops (new_vr true (mkBase evs None) dg sz) [] = (v, out) ->
    vr_verify H comb fuel dg v = (None, v') -> upto_eof evs = out.
  Proof. intros Er Ev. apply (accepted_upto_eof true fuel evs dg sz out v'). exists ops, v. auto. Qed.

  Theorem read_all_upto_eof fixed fuel evs dg sz buf v :
    read_all H comb fixed fuel (mkBase evs None) dg sz = ((None, buf), v) -> upto_eof evs = buf.
  Proof. intro E. apply read_all_accepted in E as [_ A]. exact (accepted_upto_eof _ _ _ _ _ _ _ A). Qed.

  Theorem copy_buffer_upto_eof fixed fuel evs bufsz dg sz out v :
    copy_buffer H comb fixed fuel (mkBase evs None) bufsz dg sz = ((None, out), v) -> upto_eof evs = out.
  Proof. intro E. apply copy_buffer_accepted in E. exact (accepted_upto_eof _ _ _ _ _ _ _ E). Qed.

  Theorem trailing_before_eof_rejected fuel evs d :
    (d_sz d < Z.of_nat (length (upto_eof evs)))%Z ->
    (forall fixed buf v, read_all H comb fixed fuel (mkBase evs None) (d_dg d) (d_sz d) <> ((None, buf), v)) /\
    (forall bufsz out v, copy_buffer H comb true fuel (mkBase evs None) bufsz (d_dg d) (d_sz d) <> ((None, out), v)) /\
    (forall fixed m e m', mem_push H comb fixed fuel m d (mkBase evs None) = (e, m') -> e <> None /\ m' = m) /\
    (forall s e s', oci_push H comb true fuel s d (mkBase evs None) = (e, s') -> e <> None /\ s' = s).
  Proof.
    intro L.
    assert (RA : forall fixed buf v, read_all H comb fixed fuel (mkBase evs None) (d_dg d) (d_sz d) <> ((None, buf), v)).
    { intros fixed buf v E. pose proof (read_all_upto_eof _ _ _ _ _ _ _ E) as U.
      apply read_all_sound in E as ((A1 & _) & _). rewrite U in L. lia. }
    assert (CB : forall bufsz out v, copy_buffer H comb true fuel (mkBase evs None) bufsz (d_dg d) (d_sz d) <> ((None, out), v)).
    { intros bufsz out v E. pose proof (copy_buffer_upto_eof _ _ _ _ _ _ _ _ E) as U.
      apply copy_buffer_sound in E as ((A1 & _) & _). rewrite U in L. lia. }
    split; [exact RA|]. split; [exact CB|].
    split; [intros fixed m e m'; apply mem_push_refused, RA|intros s e s'; apply oci_push_refused, CB].
  Qed.

  Lemma push_stores_upto_eof fuel evs d :
    (forall fixed m m', mem_push H comb fixed fuel m d (mkBase evs None) = (None, m') -> m' = (d, upto_eof evs) :: m) /\
    (forall s s', oci_push H comb true fuel s d (mkBase evs None) = (None, s') -> s' = (d_dg d, upto_eof evs) :: s) /\
    (forall s name path s', name <> [] -> file_push H comb true fuel s name path d evs = (None, s') ->
       assoc_get (f_files s') path = Some (upto_eof evs)).
  Proof.
    split; [|split].
    - intros fixed m m' E. apply mem_push_inv in E as [[X _]|(_ & _ & buf & v & Er & ->)]; [congruence|].
      rewrite (read_all_upto_eof _ _ _ _ _ _ _ Er). reflexivity.
    - intros s s' E. apply oci_push_inv in E as [[X _]|(_ & _ & out & v & Ec & ->)]; [congruence|].
      rewrite (copy_buffer_upto_eof _ _ _ _ _ _ _ _ Ec). reflexivity.
    - intros s name path s' Nn E.
      apply file_push_named_inv in E as [[X _]|(_ & _ & out & v & Ec & ->)]; [congruence| |exact Nn].
      rewrite (copy_buffer_upto_eof _ _ _ _ _ _ _ _ Ec). cbn [f_files]. rewrite assoc_get_set, str_eqb_refl. reflexivity.
  Qed.
End EofNotFinal.

Section EofConc.
  Variable H : str -> str -> str.

  Lemma concurrent_oci_upto blobs ts sched st :
    oci_reach H blobs -> Forall (fun t => t_pc t = PStart) ts ->
    crun H (mkC blobs ts) sched = Some st ->
    forall i n st' t w, cstep H st i n = Some st' -> nth_error (c_thr st) i = Some t ->
      t_pc t = PIngest w [] None ->
      oci_get (c_blobs st') (d_dg (t_d t)) = Some (upto_eof (t_evs t)) /\
      matches_desc H (d_dg (t_d t)) (d_sz (t_d t)) (upto_eof (t_evs t)).
  Proof.
    intros R F E i n st' t w Es Ei Ep.
    pose proof (crun_inv H sched _ _ (cinv_start H blobs ts (oci_reach_ok H blobs R) F) E) as Iv.
    destruct (cstep_success H st i n st' t w Iv Es Ei Ep) as [G [v Ec]].
    rewrite (copy_buffer_upto_eof _ _ _ _ _ _ _ _ _ _ Ec). split; [exact G|].
    apply copy_buffer_sound in Ec. apply Ec.
  Qed.

  (* cas.Memory without LimitedStorage: what a successful LoadOrStore stores is exactly what
     the thread's reader delivered before its first EOF *)
  Lemma memory_concurrent_upto m ts sched st :
    mem_reach H m -> Forall (fun t => m_pc t = MStart /\ m_lim t = None) ts ->
    mrun H (mkM m ts) sched = Some st ->
    forall i t buf, nth_error (ms_thr st) i = Some t -> m_pc t = MRead None buf -> buf = upto_eof (m_evs t).
  Proof.
    intros R F E i t buf Ei Ep.
    pose proof (mrun_inv H (fun t => m_lim t = None) sched (fun _ _ L => L) _ _ (minv_start H _ m ts R F) E) as [_ Ft].
    destruct (Forall_nth_error _ _ _ _ Ft Ei) as [L Pt]. unfold mthr_ok in Pt. rewrite Ep, L in Pt.
    destruct Pt as [v Er]. symmetry. exact (read_all_upto_eof _ _ _ _ _ _ _ _ _ Er).
  Qed.

  (* named file-store pushes: what becomes visible under the name is exactly what the
     reader delivered before its first EOF *)
  Lemma file_concurrent_upto (U : list str)
        (U_inj : forall a c, In a U -> In c U -> resolve_name a = resolve_name c -> a = c) s ts sched st :
    file_reach_names H s -> (forall n, name_in n (f_names s) = true -> In n U) ->
    Forall (fun t => ft_pc t = FStart /\ In (ft_name t) U) ts ->
    frun H (mkFC s ts) sched = Some st ->
    forall i st' t out path, fstep H st i = Some st' -> nth_error (fc_thr st) i = Some t ->
      ft_pc t = FWrite None out path ->
      file_fetch (fc_st st') (ft_name t) (ft_d t) = Some (upto_eof (ft_evs t)).
  Proof.
    intros R Su F E i st' t out path Es Ei Ep.
    pose proof (frun_inv H U U_inj sched _ _ (finv_start H U s ts R Su F) E) as Iv.
    destruct (fstep_success H U U_inj _ _ _ _ _ _ Iv Es Ei Ep) as [Ff [v Ec]].
    rewrite Ff, (copy_buffer_upto_eof _ _ _ _ _ _ _ _ _ _ Ec). reflexivity.
  Qed.
End EofConc.
