(* C16 -- invariants of the syncutil.Once transition system (Model/Once.v), for
   every accepted trace: any number of callers, any interleaving, any
   cancellation pattern. *)
From Oras Require Import Base.Prelude Model.Once.

Lemma orun_app s tr1 tr2 :
  orun s (tr1 ++ tr2) = match orun s tr1 with Some s' => orun s' tr2 | None => None end.
Proof.
  revert s; induction tr1 as [|e tr1 IH]; intro s; simpl; auto.
  destruct (ostep s e); auto.
Qed.

Definition is_done (e : oevent) : bool := match e with ODone _ _ => true | _ => false end.
Definition done_count (tr : list oevent) : nat := length (filter is_done tr).

Definition delivers (e : oevent) : option N :=
  match e with ODone _ v | OReadClosed _ v => Some v | _ => None end.

Definition closed (s : ostate) : bool := match s with OClosed _ => true | _ => false end.

Lemma ostep_delivers s e s' v : ostep s e = Some s' -> delivers e = Some v -> s' = OClosed v.
Proof.
  destruct s as [|g0|v0], e as [g|g w|g|g w|g]; simpl; try discriminate.
  - destruct (g0 =? g); [|discriminate]. now intros [= <-] [= <-].
  - destruct (v0 =? w) eqn:E; [|discriminate]. apply N.eqb_eq in E. subst w. now intros [= <-] [= <-].
Qed.

Lemma ostep_closed s e v :
  ostep s e = Some (OClosed v) -> s = OClosed v \/ exists g, s = OHeld g /\ e = ODone g v.
Proof.
  destruct s as [|g0|v0], e as [g|g w|g|g w|g]; simpl; try discriminate.
  - destruct (g0 =? g) eqn:E; [|discriminate]. apply N.eqb_eq in E. intros [= <-]. subst. eauto.
  - destruct (g0 =? g); discriminate.
  - destruct (g0 =? g); discriminate.
  - destruct (v0 =? w); [|discriminate]. intros [= <-]. auto.
  - intros [= <-]. auto.
Qed.

Lemma ostep_stays_closed v e s' : ostep (OClosed v) e = Some s' -> s' = OClosed v.
Proof. destruct e as [g|g w|g|g w|g]; simpl; try discriminate; [destruct (v =? w)|]; now intros [= <-]. Qed.

(* exactly the ODone steps close, and a closed Once takes none *)
Lemma ostep_done s e s' :
  ostep s e = Some s' ->
  (if closed s' then 1 else 0)%nat = ((if closed s then 1 else 0) + (if is_done e then 1 else 0))%nat.
Proof.
  destruct s as [|g0|v0], e as [g|g w|g|g w|g]; simpl; try discriminate;
    try destruct (g0 =? g); try destruct (v0 =? w); now intros [= <-].
Qed.

Definition once_inv (s : ostate) (tr : list oevent) : Prop :=
  done_count tr = (if closed s then 1 else 0)%nat /\
  forall e v, In e tr -> delivers e = Some v -> s = OClosed v.

Lemma done_count_app tr e : done_count (tr ++ [e]) = (done_count tr + if is_done e then 1 else 0)%nat.
Proof.
  unfold done_count. rewrite filter_app, app_length. simpl. destruct (is_done e); simpl; lia.
Qed.

Lemma once_inv_step s tr e s' : once_inv s tr -> ostep s e = Some s' -> once_inv s' (tr ++ [e]).
Proof.
  intros [Cnt Dl] St. split.
  - rewrite done_count_app, Cnt. symmetry. exact (ostep_done _ _ _ St).
  - intros e' v Hin De. apply in_app_iff in Hin as [Hin|[<-|[]]].
    + rewrite (Dl _ _ Hin De) in St. exact (ostep_stays_closed _ _ _ St).
    + exact (ostep_delivers _ _ _ _ St De).
Qed.

Lemma once_inv_run tr : forall s, orun OTok tr = Some s -> once_inv s tr.
Proof.
  induction tr as [|e tr IH] using rev_ind; intros s R.
  - injection R as <-. split; [reflexivity | contradiction].
  - rewrite orun_app in R. destruct (orun OTok tr) as [s0|] eqn:E; [|discriminate].
    simpl in R. destruct (ostep s0 e) as [s1|] eqn:St; [|discriminate]. injection R as <-.
    eapply once_inv_step; eauto.
Qed.

(* the function completes at most once, and everybody who receives a result
   receives that one *)
Lemma once_shared_result tr s :
  orun OTok tr = Some s ->
  (done_count tr <= 1)%nat /\
  (forall g v, In (OReadClosed g v) tr -> exists g', In (ODone g' v) tr) /\
  (forall g1 v1 g2 v2, In (ODone g1 v1) tr -> In (ODone g2 v2) tr -> v1 = v2) /\
  (forall g1 v1 g2 v2, In (OReadClosed g1 v1) tr -> In (OReadClosed g2 v2) tr -> v1 = v2).
Proof.
  intro R. destruct (once_inv_run tr s R) as [Cnt Dl].
  assert (Same : forall e1 v1 e2 v2, In e1 tr -> delivers e1 = Some v1 -> In e2 tr -> delivers e2 = Some v2 -> v1 = v2)
    by (intros e1 v1 e2 v2 H1 D1 H2 D2; pose proof (Dl _ _ H1 D1); pose proof (Dl _ _ H2 D2); congruence).
  split; [destruct (closed s); lia|]. split; [|split; intros g1 v1 g2 v2 H1 H2; exact (Same _ _ _ _ H1 eq_refl H2 eq_refl)].
  (* a reader was handed the closed value, and a closed Once has its ODone in the trace *)
  intros g v Hin. rewrite (Dl _ _ Hin eq_refl) in Cnt. unfold done_count in Cnt. simpl in Cnt.
  destruct (filter is_done tr) as [|e l] eqn:F; [discriminate|].
  assert (He : In e (filter is_done tr)) by (rewrite F; now left).
  apply filter_In in He as [He Hd]. destruct e as [|g' w| | |]; try discriminate.
  exists g'. now rewrite (Same _ v _ w Hin eq_refl He eq_refl).
Qed.

(* once closed, nobody runs the function again *)
Lemma closed_forever v tr : forall s, orun (OClosed v) tr = Some s -> forall g, ~ In (OAcquire g) tr.
Proof.
  induction tr as [|e tr IH]; intros s R g; cbn [orun] in R; [tauto|].
  destruct (ostep (OClosed v) e) as [s1|] eqn:St; [|discriminate].
  pose proof (ostep_stays_closed _ _ _ St). subst s1.
  intros [->|H]; [discriminate St | exact (IH _ R g H)].
Qed.

(* at most one fetch in flight: a second caller can enter the function only after
   the first one handed it over through a cancellation *)
Lemma held_until_cancel g1 m : forall g2 q s,
  orun (OHeld g1) (m ++ OAcquire g2 :: q) = Some s -> In (OCancelF g1) m.
Proof.
  induction m as [|e m IH]; intros g2 q s R; simpl in R.
  - discriminate.
  - destruct e as [g|g w|g|g w|g]; simpl in R; try discriminate.
    + destruct (g1 =? g) eqn:E; [|discriminate].
      exfalso. apply (closed_forever _ _ _ R g2). apply in_app_iff. right. now left.
    + destruct (g1 =? g) eqn:E; [|discriminate]. apply N.eqb_eq in E. subst. now left.
    + destruct (g1 =? g) eqn:E; [discriminate|]. right. eapply IH; eauto.
Qed.

Lemma one_in_flight p g1 m g2 q s :
  orun OTok (p ++ OAcquire g1 :: m ++ OAcquire g2 :: q) = Some s -> In (OCancelF g1) m.
Proof.
  rewrite orun_app. destruct (orun OTok p) as [s0|]; [|discriminate].
  simpl. destruct s0 as [|g0|v0]; simpl; try discriminate.
  apply held_until_cancel.
Qed.

Lemma cancel_hands_over g : ostep (OHeld g) (OCancelF g) = Some OTok.
Proof. simpl. now rewrite N.eqb_refl. Qed.

Lemma no_result_before_publication tr s :
  orun OTok tr = Some s -> (forall v, s <> OClosed v) -> forall g w, ~ In (OReadClosed g w) tr.
Proof.
  intros R N g w Hin. destruct (once_inv_run tr s R) as [_ Dl]. exact (N w (Dl _ _ Hin eq_refl)).
Qed.
