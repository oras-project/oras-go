(* Proofs/Location.v -- where step 2 of a blob upload is sent (the C13_location_* theorems). *)
From Oras Require Import Base.Prelude Model.Location.
From Coq Require Import Permutation.

Lemma insert_sorted_perm kv q : Permutation (insert_sorted kv q) (kv :: q).
Proof.
  induction q as [|kv' r IH]; cbn; [reflexivity|].
  destruct (str_ltb (fst kv') (fst kv)); [|reflexivity].
  rewrite IH. apply perm_swap.
Qed.

Lemma sort_query_perm q : Permutation (sort_query q) q.
Proof.
  induction q as [|kv r IH]; cbn; [reflexivity|].
  rewrite insert_sorted_perm. now constructor.
Qed.

(* the query of the PUT: digest=<dg> exactly, every other parameter of the Location kept *)
Theorem set_digest_spec dg q k v :
  In (k, v) (set_digest dg q) <->
  (k = k_digest /\ v = dg) \/ (k <> k_digest /\ In (k, v) q).
Proof.
  unfold set_digest. split.
  - intro Hin. apply (Permutation_in _ (sort_query_perm _)) in Hin. destruct Hin as [E|Hin].
    + injection E as <- <-. auto.
    + apply filter_In in Hin as [Hin Hk]. cbn in Hk. right. split; auto.
      intros ->. now rewrite str_eqb_refl in Hk.
  - intro Hc. apply (Permutation_in _ (Permutation_sym (sort_query_perm _))).
    destruct Hc as [[-> ->]|[Hk Hin]]; [now left|right].
    apply filter_In. split; auto. cbn.
    destruct (str_eqb k k_digest) eqn:E; [apply str_eqb_spec in E; contradiction|].
    change (negb (str_eqb k k_digest) = true). now rewrite E.
Qed.

Lemma needs_repair_spec req l :
  needs_repair req l = true <-> u_port req = port443 /\ u_host l = u_host req /\ u_port l = [].
Proof.
  unfold needs_repair. rewrite !andb_true_iff, !str_eqb_spec. tauto.
Qed.

(* the authority of the PUT: the Location's (the POST's for an absolute-path Location),
   except that a missing port is restored when the POST went to the same host on 443 *)
Theorem put_url_authority req l dg :
  let t := resolve req l in
  let u := put_url req l dg in
  u_scheme u = u_scheme t /\ u_host u = u_host t /\ u_path u = u_path t /\
  u_port u = (if needs_repair req t then port443 else u_port t).
Proof.
  cbn. unfold put_url, repair. destruct (needs_repair req (resolve req l)); cbn; auto.
Qed.

(* an absolute-path Location: the PUT goes to the registry the POST went to *)
Theorem put_url_relative req p q dg :
  let u := put_url req (LPath p q) dg in
  u_scheme u = u_scheme req /\ u_host u = u_host req /\ u_port u = u_port req /\ u_path u = p.
Proof.
  assert (E : needs_repair req (resolve req (LPath p q)) = false).
  { destruct (needs_repair req (resolve req (LPath p q))) eqn:E; auto.
    apply needs_repair_spec in E as (A & _ & C). cbn [resolve u_port] in C. rewrite A in C. discriminate. }
  unfold put_url, repair. rewrite E. cbn. auto.
Qed.

(* issue 177: registry reached as host:443 answers with an absolute Location on the same
   host without the port -> the PUT goes to host:443 again *)
Theorem put_url_repaired req sch pa q dg :
  u_port req = port443 ->
  let u := put_url req (LAbs (mkUrl sch (u_host req) [] pa q)) dg in
  u_host u = u_host req /\ u_port u = port443 /\ u_path u = pa.
Proof.
  intro Hp.
  assert (E : needs_repair req (resolve req (LAbs (mkUrl sch (u_host req) [] pa q))) = true)
    by (apply needs_repair_spec; cbn; auto).
  unfold put_url, repair. rewrite E. cbn. auto.
Qed.

(* any other absolute Location is followed as it is *)
Theorem put_url_followed req t dg :
  (u_port req <> port443 \/ u_host t <> u_host req \/ u_port t <> []) ->
  let u := put_url req (LAbs t) dg in
  u_scheme u = u_scheme t /\ u_host u = u_host t /\ u_port u = u_port t /\ u_path u = u_path t.
Proof.
  intro Hn. cbn. unfold put_url, repair. cbn [resolve].
  destruct (needs_repair req t) eqn:E; cbn; auto.
  apply needs_repair_spec in E as (A & B & C). destruct Hn as [X|[X|X]]; contradiction.
Qed.

Theorem put_url_query req l dg k v :
  In (k, v) (u_query (put_url req l dg)) <->
  (k = k_digest /\ v = dg) \/ (k <> k_digest /\ In (k, v) (u_query (resolve req l))).
Proof.
  unfold put_url. cbn [u_query]. rewrite set_digest_spec.
  unfold repair. destruct (needs_repair req (resolve req l)); cbn [u_query]; reflexivity.
Qed.
