(* C18 -- what Put hands to encoding/json reads back unchanged: the server address
   (an object key), the auth field (base64 text) and the two tokens. *)
From Oras Require Import Base.Prelude Model.Utf8 Model.Json Model.Base64 Model.CredFile
  Proofs.Json Proofs.Base64 Proofs.CredFile.

Lemma valid_nil : valid_utf8 [] = true.
Proof. reflexivity. Qed.

Lemma encode_auth_valid u p : bytes (u ++ colon :: p) -> valid_utf8 (encode_auth b64_encode u p) = true.
Proof.
  intro B. unfold encode_auth.
  destruct u as [|u0 u']; [destruct p as [|p0 p']; [reflexivity|]|]; apply ascii_valid, b64_encode_ascii; exact B.
Qed.

Lemma put_fields_valid a c :
  put_accepts a c = true -> bytes (c_user c ++ colon :: c_pass c) ->
  valid_utf8 a = true /\ valid_utf8 (encode_auth b64_encode (c_user c) (c_pass c)) = true /\
  valid_utf8 (c_refresh c) = true /\ valid_utf8 (c_access c) = true.
Proof.
  intros ACC B. destruct (put_accepts_true a c ACC) as (_ & VA & VR & VT). auto using encode_auth_valid.
Qed.

Lemma put_cred_decodes a c :
  put_accepts a c = true -> bytes (c_user c ++ colon :: c_pass c) ->
  cred_of_fields b64_decode (encode_auth b64_encode (c_user c) (c_pass c)) (c_refresh c) (c_access c) [] [] = RCred c.
Proof.
  intros ACC B.
  exact (codec_roundtrip b64_encode b64_decode bytes b64_roundtrip b64_encode_nonempty c (put_accepts_colon a c ACC) B).
Qed.

Lemma put_fields_json_roundtrip a c :
  put_accepts a c = true -> bytes (c_user c ++ colon :: c_pass c) ->
  Forall (fun x => json_unquote (json_quote x) = Some x)
         [a; encode_auth b64_encode (c_user c) (c_pass c); c_refresh c; c_access c].
Proof.
  intros ACC B. destruct (put_fields_valid a c ACC B) as (VA & VE & VR & VT).
  repeat constructor; now apply json_string_roundtrip.
Qed.

(* and what a refused Put would have lost: a string that is not valid UTF-8 does
   not survive (the reason for the refusal; before the fix it was written) *)
Lemma invalid_utf8_json_lossy : exists s, valid_utf8 s = false /\ json_unquote (json_quote s) <> Some s.
Proof. exists [114; 255; 116]. split; [reflexivity|]. vm_compute. discriminate. Qed.

(* Put -> bytes -> Get: the JSON text PutCredential produces for an accepted
   credential parses back (parse_fresh = what json.Unmarshal into AuthConfig
   finds) to the entry, and so to the credential *)
Lemma entry_bytes_roundtrip a c :
  put_accepts a c = true -> bytes (c_user c ++ colon :: c_pass c) ->
  parse_fresh (entry_bytes b64_encode c) =
    Some (encode_auth b64_encode (c_user c) (c_pass c), c_refresh c, c_access c) /\
  cred_of_bytes b64_decode (entry_bytes b64_encode c) = RCred c.
Proof.
  intros ACC B. destruct (put_fields_valid a c ACC B) as (_ & VE & VR & VT).
  unfold cred_of_bytes, entry_bytes. rewrite fresh_roundtrip by assumption.
  split; [reflexivity|now apply (put_cred_decodes a)].
Qed.
