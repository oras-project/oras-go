(* C20, URL slot at full strength: where the parts of an accepted reference end up in a built URL
   under the generic URL syntax (Model.Reference.url_split = RFC 3986 section 3).  The only fact
   about net/url used is a character-class property of accepted registries ([reg_clean]), which
   the harness checks on every reference the implementation accepts (oracle registry-charset). *)
From Oras Require Import Base.Prelude Base.Regex Model.Reference Model.RefOps Proofs.Reference.

Definition free (stops : list N) (s : str) : Prop := Forall (fun c => contains c stops = false) s.

Lemma take_until_stop stops a c t :
  free stops a -> contains c stops = true -> take_until stops (a ++ c :: t) = (a, c :: t).
Proof.
  intros F Hc. induction F as [|x a Hx F IH]; simpl.
  - now rewrite Hc.
  - rewrite Hx, IH. reflexivity.
Qed.

Lemma take_until_end stops a : free stops a -> take_until stops a = (a, []).
Proof.
  intros F. induction F as [|x a Hx F IH]; simpl; [reflexivity|]. now rewrite Hx, IH.
Qed.

Lemma free_of_contains stops s :
  (forall x, In x stops -> contains x s = false) -> free stops s.
Proof.
  unfold free. induction s as [|c s IH]; intro H; constructor.
  - destruct (contains c stops) eqn:E; auto. unfold contains in E.
    apply existsb_exists in E as (d & Hd & E). apply N.eqb_eq in E. subst d.
    specialize (H c Hd). unfold contains in H. simpl in H. now rewrite N.eqb_refl in H.
  - apply IH. intros x Hx. specialize (H x Hx). unfold contains in *. simpl in H.
    now apply orb_false_iff in H as [_ H].
Qed.

Lemma free_app stops s t : free stops s -> free stops t -> free stops (s ++ t).
Proof. intros. apply Forall_app. auto. Qed.

Lemma split_on_nonempty c s : split_on c s <> [].
Proof.
  destruct s as [|x s]; simpl; [discriminate|].
  destruct (x =? c); [discriminate|]. destruct (split_on c s); discriminate.
Qed.

Lemma split_on_none c s : contains c s = false -> split_on c s = [s].
Proof.
  unfold contains. induction s as [|x s IH]; simpl; [reflexivity|].
  intro H. apply orb_false_iff in H as [A B]. rewrite A, (IH B). reflexivity.
Qed.

Lemma split_on_app c x y : split_on c (x ++ c :: y) = split_on c x ++ split_on c y.
Proof.
  induction x as [|x0 x IH]; simpl.
  - now rewrite N.eqb_refl.
  - destruct (x0 =? c); [now rewrite IH|]. rewrite IH.
    destruct (split_on c x) eqn:E; [now apply split_on_nonempty in E|]. reflexivity.
Qed.

Definition tail_of (segs : list str) : str := flat_map (fun s => c_slash :: s) segs.

Lemma split_on_tail x segs :
  Forall (fun s => contains c_slash s = false) segs ->
  split_on c_slash (x ++ tail_of segs) = split_on c_slash x ++ segs.
Proof.
  intro F. revert x. induction F as [|s segs Hs F IH]; intro x; simpl.
  - now rewrite !app_nil_r.
  - rewrite split_on_app, IH, (split_on_none _ _ Hs). reflexivity.
Qed.

(* what an accepted registry looks like to the URL syntax: non-empty, and none of: controls and
   space, '#', '%', '/', '?', '@', backslash, DEL *)
Definition reg_char_ok (c : N) : bool :=
  negb ((c <=? 32) || (c =? 35) || (c =? 37) || (c =? 47) || (c =? 63) || (c =? 64) || (c =? 92) || (c =? 127)).
Definition reg_clean (reg : str) : bool :=
  match reg with [] => false | _ => forallb reg_char_ok reg end.

Lemma reg_clean_no x reg : reg_char_ok x = false -> reg_clean reg = true -> contains x reg = false.
Proof.
  intros Hx H. apply (Forall_contains (fun c => reg_char_ok c = true)); [congruence|].
  apply Forall_forall, forallb_forall. destruct reg; [discriminate | exact H].
Qed.

Lemma clean_contains bad x s :
  Forall (fun c => in_ranges bad c = false) s -> in_ranges bad x = true -> contains x s = false.
Proof. intros F Hx. apply (Forall_contains _ x s) in F; [exact F | congruence]. Qed.

Lemma host_of_clean x reg :
  reg_char_ok x = false -> reg_clean reg = true -> contains x (host_of reg) = false.
Proof.
  intros Hx H. unfold host_of. destruct (str_eqb reg (b "docker.io")); now apply reg_clean_no.
Qed.

Lemma clean_ok_registry (vr : str -> bool) reg :
  (forall r, vr r = true -> reg_clean r = true) -> vr reg = true -> ok_registry vr reg.
Proof. intros C H. split; [exact H | apply reg_clean_no; [reflexivity | now apply C]]. Qed.

Lemma host_of_nonempty reg : reg_clean reg = true -> host_of reg <> [].
Proof.
  unfold host_of. destruct (str_eqb reg (b "docker.io")); [discriminate|].
  destruct reg; [discriminate | discriminate].
Qed.

Lemma scheme_free plain : free [c_colon] (scheme plain).
Proof. destruct plain; vm_compute; repeat constructor. Qed.

Definition path_of (repo : str) (segs : list str) : str := b "/v2/" ++ repo ++ tail_of segs.

Lemma path_of_two repo s1 s2 : path_of repo [s1; s2] = b "/v2/" ++ repo ++ [c_slash] ++ s1 ++ [c_slash] ++ s2.
Proof. unfold path_of, tail_of. simpl. rewrite ?app_nil_r. reflexivity. Qed.

Definition qf_free (s : str) : Prop := contains c_qm s = false /\ contains c_hash s = false.
Definition seg_ok (s : str) : Prop := contains c_slash s = false /\ qf_free s.

Lemma qf_free_free s : qf_free s -> free [c_qm; c_hash] s.
Proof.
  intros [A B]. apply free_of_contains. intros x [<-|[<-|[]]]; assumption.
Qed.

Lemma tail_qf_free segs : Forall seg_ok segs -> free [c_qm; c_hash] (tail_of segs).
Proof.
  induction 1 as [|s segs [_ Hs] F IH]; simpl; [constructor|].
  constructor; [reflexivity|]. apply free_app; [now apply qf_free_free | exact IH].
Qed.

Lemma url_split_rooted plain reg p q :
  reg_clean reg = true -> free [c_qm; c_hash] (c_slash :: p) ->
  match q with Some qs => contains c_hash qs = false | None => True end ->
  url_split (scheme plain ++ b "://" ++ host_of reg ++ (c_slash :: p) ++ match q with Some qs => c_qm :: qs | None => [] end)
  = Some (mkParts (scheme plain) (host_of reg) (c_slash :: p) q None).
Proof.
  intros Hreg Fp Hq. unfold url_split.
  change (b "://" ++ host_of reg ++ (c_slash :: p) ++ match q with Some qs => c_qm :: qs | None => [] end)
    with (c_colon :: 47 :: 47 :: host_of reg ++ c_slash :: (p ++ match q with Some qs => c_qm :: qs | None => [] end)).
  rewrite (take_until_stop [c_colon] (scheme plain) c_colon _ (scheme_free plain) eq_refl).
  assert (Fh : free [c_slash; c_qm; c_hash] (host_of reg)).
  { apply free_of_contains. intros x [<-|[<-|[<-|[]]]]; now apply host_of_clean. }
  rewrite (take_until_stop _ _ c_slash _ Fh eq_refl).
  destruct q as [qs|].
  - change (c_slash :: p ++ c_qm :: qs) with ((c_slash :: p) ++ c_qm :: qs).
    rewrite (take_until_stop _ _ c_qm _ Fp eq_refl).
    assert (Fq : free [c_hash] qs) by (apply free_of_contains; intros x [<-|[]]; exact Hq).
    rewrite (take_until_end _ _ Fq). reflexivity.
  - rewrite app_nil_r. rewrite (take_until_end _ _ Fp). reflexivity.
Qed.

Lemma path_free repo segs : qf_free repo -> Forall seg_ok segs -> free [c_qm; c_hash] (path_of repo segs).
Proof.
  intros Hr Hs. unfold path_of. apply free_app; [vm_compute; repeat constructor|].
  apply free_app; [now apply qf_free_free | now apply tail_qf_free].
Qed.

Theorem url_split_general plain reg repo segs :
  reg_clean reg = true -> qf_free repo -> Forall seg_ok segs ->
  url_split (scheme plain ++ b "://" ++ host_of reg ++ path_of repo segs)
  = Some (mkParts (scheme plain) (host_of reg) (path_of repo segs) None None) /\
  split_on c_slash (path_of repo segs) = [[]; b "v2"] ++ split_on c_slash repo ++ segs.
Proof.
  intros Hreg Hrepo Hsegs. split.
  - rewrite <- (app_nil_r (path_of repo segs)) at 1.
    exact (url_split_rooted plain reg (b "v2/" ++ repo ++ tail_of segs) None Hreg (path_free repo segs Hrepo Hsegs) I).
  - unfold path_of.
    change (b "/v2/" ++ repo ++ tail_of segs) with ([] ++ c_slash :: (b "v2" ++ c_slash :: (repo ++ tail_of segs))).
    rewrite split_on_app. simpl (split_on c_slash []).
    rewrite split_on_app. rewrite (split_on_none c_slash (b "v2") eq_refl).
    rewrite split_on_tail; [reflexivity|].
    eapply Forall_impl; [|exact Hsegs]. intros s [H _]. exact H.
Qed.

Lemma url_split_query plain reg repo segs q :
  reg_clean reg = true -> qf_free repo -> Forall seg_ok segs -> contains c_hash q = false ->
  url_split (scheme plain ++ b "://" ++ host_of reg ++ path_of repo segs ++ c_qm :: q)
  = Some (mkParts (scheme plain) (host_of reg) (path_of repo segs) (Some q) None).
Proof.
  intros Hreg Hrepo Hsegs Hq. exact (url_split_rooted plain reg (b "v2/" ++ repo ++ tail_of segs) (Some q) Hreg (path_free repo segs Hrepo Hsegs) Hq).
Qed.

Section Avail.
Variable avail : str -> bool.
Notation valid_digest := (Reference.valid_digest avail).
Notation repo_parse := (Reference.repo_parse avail).
Notation op_requests := (RefOps.op_requests avail).
Notation wf_ref := (wf_ref avail).

Lemma repo_qf_free s : valid_repository s = true -> qf_free s.
Proof.
  intro H. pose proof (repository_url_clean s H) as C.
  split; eapply clean_contains; try exact C; reflexivity.
Qed.

Lemma seg_clean_ok s : seg_clean s -> seg_ok s.
Proof.
  intro C. split; [now apply seg_clean_no_slash|].
  split; eapply clean_contains; try exact C; reflexivity.
Qed.

(* [url_is u plain r seg]: under the generic URL syntax, [u] is
   <scheme>://<host of the registry>/v2/<repository>/<seg>/<reference>: the authority is exactly
   the host (no user-info), the path has exactly the segments "", v2, the repository's components,
   seg, the reference, and there is neither query nor fragment. *)
Definition url_is (u : str) (plain : bool) (r : reference) (seg : str) : Prop :=
  url_split u = Some (mkParts (scheme plain) (host_of (r_registry r))
                        (b "/v2/" ++ r_repository r ++ [c_slash] ++ seg ++ [c_slash] ++ r_reference r) None None) /\
  split_on c_slash (b "/v2/" ++ r_repository r ++ [c_slash] ++ seg ++ [c_slash] ++ r_reference r)
  = [[]; b "v2"] ++ split_on c_slash (r_repository r) ++ [seg; r_reference r] /\
  contains c_at (host_of (r_registry r)) = false /\ host_of (r_registry r) <> [].

Lemma url_is_intro plain r seg :
  reg_clean (r_registry r) = true -> valid_repository (r_repository r) = true ->
  seg_ok seg -> seg_clean (r_reference r) ->
  url_is (url_repo_base plain r ++ [c_slash] ++ seg ++ [c_slash] ++ r_reference r) plain r seg.
Proof.
  intros Hreg Hrepo Hseg Href.
  destruct (url_split_general plain (r_registry r) (r_repository r) [seg; r_reference r] Hreg
              (repo_qf_free _ Hrepo)) as [A B].
  { constructor; [exact Hseg|]. constructor; [now apply seg_clean_ok|]. constructor. }
  rewrite path_of_two in A, B. unfold url_is. split; [|split; [exact B|split]].
  - rewrite <- A. f_equal. unfold url_repo_base. rewrite <- !app_assoc. reflexivity.
  - now apply host_of_clean.
  - now apply host_of_nonempty.
Qed.

Theorem url_exact vr plain r :
  (forall reg, vr reg = true -> reg_clean reg = true) ->
  wf_ref vr r -> r_reference r <> [] ->
  url_is (url_manifest plain r) plain r (b "manifests") /\
  url_is (url_blob plain r) plain r (b "blobs") /\
  url_is (url_referrers plain r) plain r (b "referrers").
Proof.
  intros Hvr W Hne. pose proof (wf_ref_seg_clean avail _ _ W Hne) as Hs. destruct W as ([Hr _] & Hp & _).
  pose proof (Hvr _ Hr) as Hc.
  split; [|split].
  - apply (url_is_intro plain r (b "manifests") Hc Hp); [repeat split; reflexivity | exact Hs].
  - apply (url_is_intro plain r (b "blobs") Hc Hp); [repeat split; reflexivity | exact Hs].
  - apply (url_is_intro plain r (b "referrers") Hc Hp); [repeat split; reflexivity | exact Hs].
Qed.

Theorem url_exact_noref vr plain r :
  (forall reg, vr reg = true -> reg_clean reg = true) -> wf_ref vr r ->
  url_split (url_taglist plain r)
  = Some (mkParts (scheme plain) (host_of (r_registry r)) (b "/v2/" ++ r_repository r ++ b "/tags/list") None None) /\
  url_split (url_upload plain r)
  = Some (mkParts (scheme plain) (host_of (r_registry r)) (b "/v2/" ++ r_repository r ++ b "/blobs/uploads/") None None).
Proof.
  intros Hvr ([Hr _] & Hp & _). pose proof (Hvr _ Hr) as Hc.
  (* for constant segments [path_of] computes to the path as written in the statement *)
  assert (K : forall segs, Forall seg_ok segs ->
                url_split (url_repo_base plain r ++ tail_of segs)
                = Some (mkParts (scheme plain) (host_of (r_registry r)) (path_of (r_repository r) segs) None None)).
  { intros segs Hs. rewrite <- (proj1 (url_split_general plain _ _ segs Hc (repo_qf_free _ Hp) Hs)).
    f_equal. unfold url_repo_base, path_of. rewrite <- !app_assoc. reflexivity. }
  split; [apply (K [b "tags"; b "list"]) | apply (K [b "blobs"; b "uploads"; []])];
    repeat constructor; repeat split; reflexivity.
Qed.

(* every request an operation sends for an accepted reference string goes to the base repository,
   path exactly /v2/<base repository>/{manifests|blobs}/<x> with x the resolved reference or the
   digest of the descriptor being tagged; no query, no fragment, no user-info *)
Theorem op_requests_exact_paths vr op plain breg brepo s d reqs :
  (forall reg, vr reg = true -> reg_clean reg = true) ->
  ok_registry vr breg -> valid_repository brepo = true -> valid_digest d = true ->
  op_requests vr op plain breg brepo s d = Some reqs ->
  exists r, repo_parse vr breg brepo s = Some r /\
    Forall (fun mu => exists seg x,
              (seg = b "manifests" \/ seg = b "blobs") /\ (x = r_reference r \/ x = d) /\
              url_is (snd mu) plain (mkRef breg brepo x) seg) reqs.
Proof.
  intros Hvr Hbr Hbp Hd H. unfold RefOps.op_requests in H.
  destruct (repo_parse vr breg brepo s) as [r|] eqn:Hp; [|discriminate].
  destruct (repo_parse_result_in_base avail vr breg brepo s r Hp) as (Hreg & Hrepo & Hne & Hv).
  exists r. split; [reflexivity|].
  destruct r as [rr rp rf]. cbn [r_registry r_repository r_reference] in *. subst rr rp.
  assert (W : forall x, valid_tag x = true \/ valid_digest x = true -> wf_ref vr (mkRef breg brepo x))
    by (intros x Hx; unfold wf_ref; simpl; auto).
  destruct (url_exact vr plain _ Hvr (W rf Hv) Hne) as (Mr & Br & _).
  assert (Hdne : d <> []) by (intros ->; discriminate).
  destruct (url_exact vr plain _ Hvr (W d (or_intror Hd)) Hdne) as (Md & _ & _).
  (* every request goes to one of these three URLs *)
  destruct op; cbn [op_requests_resolved r_registry r_repository r_reference] in H;
    try (destruct (valid_digest rf); [|discriminate]);
    injection H as <-; repeat constructor; cbn [snd]; eauto 10.
Qed.
End Avail.

Theorem url_exact_unconstrained_registry_refuted :
  exists (avail valid_registry : str -> bool) r,
    wf_ref avail valid_registry r /\ r_reference r <> [] /\
    url_split (url_manifest false r)
    = Some (mkParts (b "https") (b "h") [] (Some (b "x")) (Some (b "y/v2/a/manifests/t"))).
Proof.
  exists (fun _ => true), (fun _ => true), (mkRef (b "h?x#y") (b "a") (b "t")).
  unfold wf_ref, ok_registry. repeat split; try (vm_compute; reflexivity); try discriminate.
  right. left. vm_compute. reflexivity.
Qed.
