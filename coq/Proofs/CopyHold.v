(* Proofs about C04's permit-holding overlay (Model/CopyHold.v): it only strengthens the guard of the
   transition system, permits held never exceed K, and the operations in flight are bounded by the
   permits held. *)
From Oras Require Import Base.Prelude Model.CopySpec Model.CopyOpt Model.CopyCancel Model.CopyHold
  Proofs.CopySpec Proofs.CopyAcct Proofs.CopyOpt.
From Oras Require Model.CopyImpl Proofs.CopyImplBase.
Local Open Scope nat_scope.

Lemma step_h_step g c st e st' : step_h g c st e = Some st' -> step g c st e = Some st'.
Proof. unfold step_h. destruct (acquires g st e && negb (holders g st <? c_K c)); [discriminate|auto]. Qed.

Lemma run_h_run g c tr : forall st st', run_h g c st tr = Some st' -> run g c st tr = Some st'.
Proof.
  induction tr as [|e tr IH]; simpl; intros st st' H; [exact H|].
  destruct (step_h g c st e) as [s1|] eqn:E; [|discriminate].
  rewrite (step_h_step _ _ _ _ _ E). auto.
Qed.

Lemma step_opt_h_step_opt cs g c st e r : step_opt_h cs g c st e = Some r -> step_opt cs g c st e = Some r.
Proof.
  unfold step_opt_h, step_opt. destruct (nil_cb_event cs e); [discriminate|].
  destruct (run_h g c st (pre_events cs st e ++ [e])) as [s2|] eqn:E1; [|discriminate].
  rewrite (run_h_run _ _ _ _ _ E1).
  destruct (run_h g c s2 (post_events cs s2 e)) as [s3|] eqn:E2; [|discriminate].
  rewrite (run_h_run _ _ _ _ _ E2). auto.
Qed.

Lemma run_opt_h_run_opt cs g c tr : forall st r, run_opt_h cs g c st tr = Some r -> run_opt cs g c st tr = Some r.
Proof.
  induction tr as [|e tr IH]; simpl; intros st r H; [exact H|].
  destruct (step_opt_h cs g c st e) as [[s1 f1]|] eqn:E; [|discriminate].
  rewrite (step_opt_h_step_opt _ _ _ _ _ _ E).
  destruct (run_opt_h cs g c s1 tr) as [[s2 f2]|] eqn:E2; [|discriminate].
  rewrite (IH _ _ E2). exact H.
Qed.

Lemma run_h_app g c tr1 : forall tr2 st st', run_h g c st (tr1 ++ tr2) = Some st' ->
  exists st1, run_h g c st tr1 = Some st1 /\ run_h g c st1 tr2 = Some st'.
Proof.
  induction tr1 as [|e tr1 IH]; simpl; intros tr2 st st' H.
  - eauto.
  - destruct (step_h g c st e) as [s1|]; [|discriminate]. eauto.
Qed.

Lemma run_h_cat g c a : forall b st s1 s2,
  run_h g c st a = Some s1 -> run_h g c s1 b = Some s2 -> run_h g c st (a ++ b) = Some s2.
Proof.
  induction a as [|e a IH]; simpl; intros b st s1 s2 H1 H2.
  - injection H1 as <-. exact H2.
  - destruct (step_h g c st e) as [s|]; [|discriminate]. eapply IH; eauto.
Qed.

Lemma step_opt_h_sound cs g c st e st' full :
  step_opt_h cs g c st e = Some (st', full) -> run_h g c st full = Some st'.
Proof.
  unfold step_opt_h. destruct (nil_cb_event cs e); [discriminate|].
  destruct (run_h g c st (pre_events cs st e ++ [e])) as [s2|] eqn:E1; [|discriminate].
  destruct (run_h g c s2 (post_events cs s2 e)) as [s3|] eqn:E2; [|discriminate].
  intro H. injection H as <- <-.
  pose proof (run_h_cat g c _ _ st s2 s3 E1 E2) as R. rewrite <- app_assoc in R. exact R.
Qed.

Lemma run_opt_h_sound cs g c tr : forall st st' full,
  run_opt_h cs g c st tr = Some (st', full) -> run_h g c st full = Some st'.
Proof.
  induction tr as [|e tr IH]; simpl; intros st st' full H.
  - injection H as <- <-. reflexivity.
  - destruct (step_opt_h cs g c st e) as [[s1 f1]|] eqn:E; [|discriminate].
    destruct (run_opt_h cs g c s1 tr) as [[s2 f2]|] eqn:E2; [|discriminate].
    injection H as <- <-. eapply run_h_cat; [eapply step_opt_h_sound; eauto | eapply IH; eauto].
Qed.

Lemma step_opt_h_ret_false cs g c st :
  step_opt_h cs g c st (Ret false) = step_opt cs g c st (Ret false).
Proof.
  unfold step_opt_h, step_opt. simpl. destruct (nil_cb_event cs (Ret false)); [reflexivity|].
  unfold step_h. simpl.
  destruct (step g c st (Ret false)) as [s2|]; reflexivity.
Qed.

Lemma cstep_opt_h_cstep_opt cs g c s ce r :
  cstep_opt_h cs g c s ce = Some r -> cstep_opt cs g c s ce = Some r.
Proof.
  unfold cstep_opt_h, cstep_opt. destruct ce as [e|]; [|auto].
  destruct (step_opt_h cs g c (cs_st s) e) as [[st' full]|] eqn:E.
  - rewrite (step_opt_h_step_opt _ _ _ _ _ _ E). auto.
  - destruct e; try discriminate. destruct ok; try discriminate.
    rewrite step_opt_h_ret_false in E. rewrite E. auto.
Qed.

Lemma crun_opt_h_crun_opt cs g c tr : forall s r, crun_opt_h cs g c s tr = Some r -> crun_opt cs g c s tr = Some r.
Proof.
  induction tr as [|ce tr IH]; simpl; intros s r H; [exact H|].
  destruct (cstep_opt_h cs g c s ce) as [[s1 f1]|] eqn:E; [|discriminate].
  rewrite (cstep_opt_h_cstep_opt _ _ _ _ _ _ E).
  destruct (crun_opt_h cs g c s1 tr) as [[s2 f2]|] eqn:E2; [|discriminate].
  rewrite (IH _ _ E2). exact H.
Qed.

Lemma move_holds g c st e n p q : ph st n = p -> move g c st e n p q ->
  holds_ph g n q = true -> holds_ph g n p = true \/ acquires g st e = true.
Proof.
  intros Hp M. unfold holds_ph.
  (* ExB acquires; PreCopy / MountFrom of a waiting node: a leaf kept its permit, a non-leaf acquires *)
  move_cases M; cbn [acquires]; rewrite ?Hp; cbn [active_ph is_waiting orb andb]; auto;
    try discriminate; destruct (leaf g n); auto.
Qed.

Lemma holders_step g c st e st' : step_h g c st e = Some st' ->
  holders g st <= c_K c -> holders g st' <= c_K c.
Proof.
  unfold step_h. intro H.
  destruct (acquires g st e && negb (holders g st <? c_K c)) eqn:G; [discriminate|].
  apply (ncount_bound_step (holds_ph g) g c st e st' (c_K c) H).
  intros n p q Hp M Hq. destruct (move_holds g c st e n p q Hp M Hq) as [Hh|Ha]; [now left|right].
  rewrite Ha in G. apply negb_false_iff, Nat.ltb_lt in G. exact G.
Qed.

Lemma holders_run g c tr : forall st st', run_h g c st tr = Some st' ->
  holders g st <= c_K c -> holders g st' <= c_K c.
Proof.
  induction tr as [|e tr IH]; simpl; intros st st' H Hle.
  - now injection H as <-.
  - destruct (step_h g c st e) as [s1|] eqn:E; [|discriminate].
    eapply IH; eauto using holders_step.
Qed.

Lemma init_holders g c d0 : holders g (init c d0) = 0.
Proof. apply (ncount_zero (holds_ph g)). reflexivity. Qed.

Lemma inflight_le_holders g st :
  active g st <= holders g st /\ inflight_src g st <= holders g st /\ inflight_dst g st <= holders g st.
Proof.
  assert (A : active g st <= holders g st).
  { apply (ncount_le_impl (fun _ => active_ph) (holds_ph g)). intros n p Hp. unfold holds_ph. now rewrite Hp. }
  destruct (inflight_le_active g st). lia.
Qed.

(* at every instant: at most K permits are held, and the source reads / destination operations in
   flight are covered by them *)
Lemma holders_prefix_lemma g c d0 tr1 tr2 st : accepts_h g c d0 (tr1 ++ tr2) = Some st ->
  exists st1, accepts_h g c d0 tr1 = Some st1 /\ holders g st1 <= c_K c /\
              inflight_src g st1 <= holders g st1 /\ inflight_dst g st1 <= holders g st1.
Proof.
  intro Ha. unfold accepts_h in Ha. apply run_h_app in Ha as [st1 [H1 _]].
  exists st1. split; [exact H1|]. split.
  - eapply holders_run; eauto. rewrite init_holders. lia.
  - destruct (inflight_le_holders g st1) as [_ [A B]]. auto.
Qed.

Lemma holders_prefix_opt cs g c tr1 : forall tr2 s0 st full, holders g s0 <= c_K c ->
  run_opt_h cs g c s0 (tr1 ++ tr2) = Some (st, full) ->
  exists st1 f1, run_opt_h cs g c s0 tr1 = Some (st1, f1) /\ holders g st1 <= c_K c /\
                 inflight_src g st1 <= holders g st1 /\ inflight_dst g st1 <= holders g st1.
Proof.
  induction tr1 as [|e tr1 IH]; simpl; intros tr2 s0 st full H0 H.
  - exists s0, []. split; [reflexivity|]. split; [exact H0|].
    destruct (inflight_le_holders g s0) as [_ [A B]]. auto.
  - destruct (step_opt_h cs g c s0 e) as [[s1 f1]|] eqn:E; [|discriminate].
    destruct (run_opt_h cs g c s1 (tr1 ++ tr2)) as [[s2 f2]|] eqn:E2; [|discriminate].
    assert (H1 : holders g s1 <= c_K c).
    { eapply holders_run; [eapply step_opt_h_sound; eauto | exact H0]. }
    destruct (IH _ s1 _ _ H1 E2) as [st1 [f1' [R [A B]]]].
    rewrite R. exists st1, (f1 ++ f1'). auto.
Qed.

Lemma holders_prefix_opt_lemma cs g c d0 tr1 tr2 st full :
  accepts_opt_h cs g c d0 (tr1 ++ tr2) = Some (st, full) ->
  exists st1 f1, accepts_opt_h cs g c d0 tr1 = Some (st1, f1) /\ holders g st1 <= c_K c /\
                 inflight_src g st1 <= holders g st1 /\ inflight_dst g st1 <= holders g st1.
Proof.
  unfold accepts_opt_h. intro H. eapply holders_prefix_opt; [|exact H].
  rewrite init_holders. lia.
Qed.

Lemma no_holders_at_success g c d0 tr st : accepts_h g c d0 tr = Some st -> returned st = Some true ->
  holders g st = 0.
Proof.
  intros Ha Hr. apply run_h_run in Ha.
  destruct (run_ret_true g c tr _ _ Ha eq_refl Hr) as [_ Hall].
  apply (ncount_zero (holds_ph g)). intros n Hn. specialize (Hall n Hn).
  destruct (ph st n); try discriminate Hall; reflexivity.
Qed.

(* the program counter (class) of copyGraph.fn's task in the protocol model Model/CopyImpl.v that a
   phase of the visible-event system corresponds to; None = the task is not running (not yet
   spawned / finished).  [lf] = the node is a leaf. *)
Definition pc_of_phase (lf : bool) (p : phase) : option CopyImpl.pc :=
  match p with
  | Idle | Done | Dead => None
  | ExQ _ | SkipP => Some CopyImpl.TExists            (* dst.Exists .. OnCopySkipped *)
  | NeedFetch | MF1 | MF2 => Some CopyImpl.TFind      (* FindSuccessors through the proxy *)
  | Waiting => Some (if lf then CopyImpl.TPush else CopyImpl.TGo)
      (* leaf: straight on to the copy; non-leaf: region.End() done, successors running *)
  | _ => Some CopyImpl.TPush                          (* copyNode / mountOrCopyNode incl. callbacks, Tag *)
  end.

Lemma overlay_holds_is_protocol_must_hold g n p :
  holds_ph g n p =
  match pc_of_phase (leaf g n) p with Some q => CopyImplBase.must_hold q | None => false end.
Proof. unfold holds_ph. destruct p, (leaf g n); reflexivity. Qed.

(* K = 1, manifest 2 -> blobs 0, 1.  While the leaf 0 waits for its PreCopy it HOLDS the only permit,
   so 1 cannot be probed in between: the transition system alone accepts this interleaving (its
   guard treats a waiting leaf as inactive), the overlay rejects it. *)
Definition g_leaf : graph :=
  mkGraph 3 (fun n => match n with 2 => [0; 1] | _ => [] end) (fun _ => false)
          (fun n => Nat.eqb n 2) (fun n => n).
Definition c_leaf : cfg := mkCfg 1 MGraph 2 false true [] [].
Definition tr_leaf_bad : list event :=
  [ExB 2; ExE 2 false; SFB 2; SFE 2; SFC 2;
   ExB 0; ExE 0 false;
   ExB 1; ExE 1 false].
Definition tr_leaf_ok : list event :=
  [ExB 2; ExE 2 false; SFB 2; SFE 2; SFC 2;
   ExB 0; ExE 0 false; Cb CPre 0; SFB 0; SFE 0; PuB 0 false; PuE 0 false POk; SFC 0; Cb CPost 0;
   ExB 1; ExE 1 false; Cb CPre 1; SFB 1; SFE 1; PuB 1 false; PuE 1 false POk; SFC 1; Cb CPost 1;
   Cb CPre 2; PuB 2 false; PuE 2 false POk; Cb CPost 2; Ret true].

