(* C06 -- file store with a fallback push limit (NewWithFallbackLimit): refinement, no-op of the
   refusal, the limit is unobservable below it, nothing above it ever enters the fallback. *)
From Oras Require Import Base.Prelude Generated.GC06 Model.Stores Model.StoresFileSpec Model.StoresFileLimit
     Proofs.Stores Proofs.StoresFileSpec.
From Coq Require String.

Lemma runl_cons {S} (step : S -> op -> S * lout) s o h :
  runl step s (o :: h) =
  (fst (runl step (fst (step s o)) h), snd (step s o) :: snd (runl step (fst (step s o)) h)).
Proof. simpl. destruct (step s o) as [s1 x]. simpl. destruct (runl step s1 h). reflexivity. Qed.

Lemma file_limit_refusal_noop lim fx ig ov s o :
  snd (file_step_lim lim fx ig ov s o) = LLimit -> fst (file_step_lim lim fx ig ov s o) = s.
Proof. unfold file_step_lim. destruct (over_limit lim ig o); [reflexivity | discriminate]. Qed.

Lemma file_limit_refusal_iff lim fx ig ov s o :
  snd (file_step_lim lim fx ig ov s o) = LLimit <->
  exists d c, o = Push d c /\ d_name d = 0 /\ ig = false /\ lim < d_size d.
Proof.
  unfold file_step_lim. destruct (over_limit lim ig o) eqn:E; cbn [snd]; split; try discriminate; try reflexivity.
  - intros _. destruct o; try discriminate. exists d, c. cbn [over_limit] in E.
    apply andb_true_iff in E as [E E3]. apply andb_true_iff in E as [E1 E2].
    apply N.eqb_eq in E1. apply N.ltb_lt in E3. destruct ig; [discriminate|]. auto.
  - intros (d & c & -> & H1 & -> & H3). cbn [over_limit] in E.
    apply N.eqb_eq in H1. apply N.ltb_lt in H3. rewrite H1, H3 in E. discriminate.
Qed.

Lemma file_limit_step_inv lim ig ov s o :
  no_alias o -> file_inv s -> file_inv (fst (file_step_lim lim true ig ov s o)).
Proof.
  intros Hna Hi. unfold file_step_lim. destruct (over_limit lim ig o); [exact Hi|]. now apply file_step_inv.
Qed.

Lemma frel_step_lim lim ig ov s a o :
  no_alias o -> file_inv s -> frel s a ->
  snd (file_step_lim lim true ig ov s o) = snd (fspec_step_lim lim ig a o) /\
  frel (fst (file_step_lim lim true ig ov s o)) (fst (fspec_step_lim lim ig a o)).
Proof.
  intros Hna Hi Hr. unfold file_step_lim, fspec_step_lim.
  destruct (over_limit lim ig o); [split; [reflexivity | exact Hr]|].
  destruct (frel_step ig ov s a o Hna Hi Hr) as [A C]. cbn [fst snd]. split; [now rewrite A | exact C].
Qed.

Theorem refines_file_limit lim ig ov h : forall s a,
  Forall no_alias h -> file_inv s -> frel s a ->
  snd (runl (file_step_lim lim true ig ov) s h) = snd (runl (fspec_step_lim lim ig) a h) /\
  frel (fst (runl (file_step_lim lim true ig ov) s h)) (fst (runl (fspec_step_lim lim ig) a h)) /\
  file_inv (fst (runl (file_step_lim lim true ig ov) s h)).
Proof.
  induction h as [|o h IH]; intros s a Hna Hi Hr; [split; [reflexivity | split; [exact Hr | exact Hi]]|].
  inversion Hna; subst. rewrite !runl_cons. cbn [fst snd].
  destruct (frel_step_lim lim ig ov s a o H1 Hi Hr) as [Hs Hr1].
  destruct (IH _ _ H2 (file_limit_step_inv lim ig ov s o H1 Hi) Hr1) as (Hs2 & Hr2 & Hi2).
  split; [now rewrite Hs, Hs2 | split; [exact Hr2 | exact Hi2]].
Qed.

Theorem file_limit_fetch_matches lim ig ov h d hash len :
  Forall no_alias h ->
  let s := fst (runl (file_step_lim lim true ig ov) file_init h) in
  snd (file_step_lim lim true ig ov s (Fetch d)) = LOut (FO (OBytes hash len)) -> hash = d_dig d.
Proof.
  intros Hna s. destruct (refines_file_limit lim ig ov h file_init fspec_init Hna file_inv_init frel_init) as (_ & _ & Hi).
  fold s in Hi. unfold file_step_lim. cbn [over_limit file_step fst snd].
  destruct (file_fetch d s) as [c|] eqn:Ef; cbn [snd]; [|discriminate].
  destruct (file_fetch_inv _ _ _ Hi Ef) as [Hh _]. intro X. injection X as <- _. exact Hh.
Qed.

Definition below_limit (lim : N) (ig : bool) (o : op) : Prop := over_limit lim ig o = false.

Lemma file_step_lim_below lim fx ig ov s o :
  below_limit lim ig o ->
  file_step_lim lim fx ig ov s o = (fst (file_step fx ig ov s o), LOut (snd (file_step fx ig ov s o))).
Proof. unfold below_limit, file_step_lim. now intros ->. Qed.

Lemma file_step_lim_over lim fx ig ov s o :
  over_limit lim ig o = true -> file_step_lim lim fx ig ov s o = (s, LLimit).
Proof. unfold file_step_lim. now intros ->. Qed.

Theorem file_limit_unobservable lim fx ig ov h : forall s,
  Forall (below_limit lim ig) h ->
  snd (runl (file_step_lim lim fx ig ov) s h) = map LOut (snd (runf (file_step fx ig ov) s h)) /\
  fst (runl (file_step_lim lim fx ig ov) s h) = fst (runf (file_step fx ig ov) s h).
Proof.
  induction h as [|o h IH]; intros s Hb; [split; reflexivity|].
  inversion Hb; subst. rewrite runl_cons, runf_cons, (file_step_lim_below lim fx ig ov s o H1).
  cbn [fst snd map]. destruct (IH (fst (file_step fx ig ov s o)) H2) as [A C].
  split; [now rewrite A | exact C].
Qed.

(* nothing larger than the limit ever enters the fallback storage -- for EVERY history and
   option setting (aliasing names, titled successors, code as found or repaired) *)
Definition cas_bounded (lim : N) (s : file_store) : Prop :=
  forall k c, get gkey_eqb k (f_cas s) = Some c -> k_size k <= lim.

Lemma cas_bounded_writes lim fx ig ov :
  respects_writes fx ig ov (fun a b => cas_bounded lim a -> cas_bounded lim b)
                  (fun d => d_name d = 0 -> ig = false -> d_size d <= lim) (fun _ => True).
Proof.
  constructor; [constructor|..]; auto.
  - intros a k n c _ H. unfold cas_bounded. now rewrite (proj1 (file_named_push_frame fx ov a k n c)).
  - intros a d c Hd Hn Hig _ H. unfold cas_bounded. cbn [f_cas].
    apply (put_all gkey_eqb gkey_eqb_spec (fun k _ => k_size k <= lim)); [exact (Hd Hn Hig) | exact H].
Qed.

Theorem file_limit_cas_bounded lim fx ig ov h : forall s,
  cas_bounded lim s -> cas_bounded lim (fst (runl (file_step_lim lim fx ig ov) s h)).
Proof.
  induction h as [|o h IH]; intros s Hb; [exact Hb|]. rewrite runl_cons. cbn [fst]. apply IH.
  unfold file_step_lim. destruct (over_limit lim ig o) eqn:E; [exact Hb|]. cbn [fst].
  apply (file_step_rel _ _ _ _ _ _ (cas_bounded_writes lim fx ig ov)); [|exact Hb].
  destruct o; cbn; auto. intros Hn ->. cbn in E. rewrite Hn in E. now apply N.ltb_ge in E.
Qed.

Corollary file_limit_cas_bounded_init lim fx ig ov h :
  cas_bounded lim (fst (runl (file_step_lim lim fx ig ov) file_init h)).
Proof. apply file_limit_cas_bounded. intros k c X. discriminate. Qed.

(* non-vacuity: limit 10, a 20-byte unnamed manifest is refused, the 5-byte layer is stored *)
Lemma file_limit_example :
  snd (runl (file_step_lim 10 true false false) file_init
            [Push (mkDesc 1 9 20 0) (mkBlob 9 20 [(6, 1, 5)] 9 [(6, 1, 5)]); Push w_unnamed w_good;
             Exists (mkDesc 1 9 20 0); Fetch w_unnamed])
  = [LLimit; LOut (FO OOk); LOut (FO (OBool false)); LOut (FO (OBytes 1 5))].
Proof. vm_compute. reflexivity. Qed.

(* tie to the source (translator kind callguards, re-read on every run): LimitedStorage.Push
   builds its error exactly under `expected.Size > ls.PushLimit` and reaches the wrapped
   Storage.Push outside any condition (after that early return); file.Store.push reaches the
   fallback storage exactly for descriptors without a name -- the three conjuncts of
   [over_limit] (with IgnoreNoName returning earlier: call order file_push_calls) *)
Lemma limit_guards_from_source :
  limited_Push_guards = [(b "fmt.Errorf"%string, [b "expected.Size > ls.PushLimit"%string]);
                         (b "ls.Storage.Push"%string, [])] /\
  file_push_guards = [(b "s.fallbackStorage.Push"%string, [b "name == ''"%string])].
Proof. split; reflexivity. Qed.

(* for EVERY history the limited store ends in the state of the unlimited store run on the
   history without its oversized unnamed pushes, and answers the remaining operations alike:
   the theorems about file_step (sequential and, since the limit check reads no shared state,
   the interleaving theorems on the filtered programs) apply to it *)
Theorem file_limit_is_filter lim fx ig ov h : forall s,
  fst (runl (file_step_lim lim fx ig ov) s h) =
  fst (runf (file_step fx ig ov) s (filter (fun o => negb (over_limit lim ig o)) h)) /\
  filter (fun x => match x with LLimit => false | LOut _ => true end) (snd (runl (file_step_lim lim fx ig ov) s h)) =
  map LOut (snd (runf (file_step fx ig ov) s (filter (fun o => negb (over_limit lim ig o)) h))).
Proof.
  induction h as [|o h IH]; intro s; [split; reflexivity|].
  rewrite runl_cons. cbn [filter]. destruct (over_limit lim ig o) eqn:E.
  - rewrite (file_step_lim_over lim fx ig ov s o E). cbn [negb fst snd filter]. apply IH.
  - rewrite (file_step_lim_below lim fx ig ov s o E). cbn [negb fst snd filter].
    rewrite runf_cons. cbn [fst snd map]. destruct (IH (fst (file_step fx ig ov s o))) as [A C].
    split; [exact A | now rewrite C].
Qed.
