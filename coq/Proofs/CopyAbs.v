(* CopyAbs: the abstract system keeps a link-closed destination link-closed, and the fault-extended
   spec system refines it (the protocol system: Proofs/CopyAbsProto.v; forward simulation: every concrete step is an abstract step -- a store with its guard, a return with its
   guard, or a stutter -- under the abstraction "destination content + return value"). *)
From Oras Require Import Base.Prelude Model.CopySpec Model.CopyTop Model.CopyOpt Model.CopyFault Model.CopyAbs
  Proofs.CopySpec Proofs.CopyFault.
Local Open Scope nat_scope.

Section AbsFacts.
Variable succ : nat -> list nat.
Variable is_root : nat -> Prop.
Variable held : list nat -> nat -> Prop.
Hypothesis held_mono : forall d x m, held d m -> held (x :: d) m.

Lemma astep_closed s l s' : astep succ is_root held s l s' -> aclosed succ held (a_dst s) -> aclosed succ held (a_dst s').
Proof.
  intros H Hc. destruct H; cbn [a_dst]; auto.
  intros x [<-|Hx] m Hm.
  - apply held_mono. auto.
  - apply held_mono. eapply Hc; eauto.
Qed.
End AbsFacts.

Section SpecRefines.
Variable g : graph.
Variable c : cfg.
Variable ext : bool.
Variable d0 : list node.

Definition fabs (fs : fstate) : astate := mkA (dst (fb fs)) (returned (fb fs)).
Definition fheld (d : list nat) (m : nat) : Prop := has g d m = true.
Definition froot (r : nat) : Prop := is_call_root g c ext r.

Lemma areach_reach a b : areach (succ' g) a b -> reach g a b.
Proof. induction 1; econstructor; eauto. Qed.

Lemma fstep_stores fs fe fs' : Inv g c d0 (fb fs) -> fstep g c ext fs fe = Some fs' ->
  (exists b, fe = Ev (Ret b)) \/
  (returned (fb fs') = None /\
   (dst (fb fs') = dst (fb fs) \/
    exists n, dst (fb fs') = n :: dst (fb fs) /\ settled_ph (ph (fb fs) n) = true)).
Proof.
  intros I H. apply fstep_inv in H as [Hr H].
  destruct H as [| | | |e st' _ He Hs _|fe n p _ Hp K| |]; cbn [fb set_ret with_base dst returned]; eauto.
  - right. split; [now rewrite (step_keeps_returned g c _ _ _ Hs He)|].
    destruct (dst_step g c d0 _ _ _ I Hs) as [E|[n [E [Hn _]]]]; eauto.
  - right. split; [exact Hr|].
    destruct (kills_spec g c ext d0 _ _ _ _ I Hp K) as [_ [_ [[E|[E [Hn _]]] _]]]; subst p; eauto.
Qed.

Lemma fstep_refines fs fe fs' :
  closed_nodes g d0 -> mt_consistent g -> Inv g c d0 (fb fs) ->
  fstep g c ext fs fe = Some fs' ->
  exists l, astep (succ' g) froot fheld (fabs fs) l (fabs fs').
Proof.
  intros Hc Hmt I H. unfold fabs.
  assert (Hr : returned (fb fs) = None) by (apply fstep_inv in H; tauto). rewrite Hr.
  destruct (fstep_stores _ _ _ I H) as [[b ->]|[-> [->|[n [-> Hn]]]]].
  - apply fstep_ret in H as [-> [_ Hg]]. cbn [set_ret fb dst returned]. exists (ARet b).
    destruct b; [|now apply as_ret_err].
    apply as_ret_ok; [reflexivity|]. intros r n Hroot Hreach.
    exact (guard_complete g c ext d0 _ I Hc Hmt (Hg eq_refl) r n Hroot (areach_reach _ _ Hreach)).
  - exists ATau. apply as_tau.
  - exists (AStore n). apply as_store; [reflexivity|]. exact (settled_successors g c d0 _ n I Hn).
Qed.

Lemma frefines tr fs fe fs' :
  ext_ok g c ext d0 -> closed_nodes g d0 -> mt_consistent g ->
  faccepts g c ext d0 tr = Some fs -> fstep g c ext fs fe = Some fs' ->
  exists l, astep (succ' g) froot fheld (fabs fs) l (fabs fs').
Proof.
  intros Hx Hc Hmt Ha. apply (fstep_refines fs fe fs' Hc Hmt), (faccepts_inv g c ext d0 tr fs Hx Ha).
Qed.

Lemma fabs_init : fabs (finit c ext d0) = mkA d0 None.
Proof. unfold fabs, finit. cbn [fb]. destruct ext; reflexivity. Qed.

End SpecRefines.
