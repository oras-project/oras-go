(* C03 end to end for a source backed by graph.Memory:
   C07 (Predecessors exact after every history)  +  the walk of findRoots (this property)
   +  C01 (the copy run delivers every root's graph and writes nothing else), composed into the
   property's own words: the destination holds every node reachable through links from any
   stored node that reaches the given node through (followed) links; with Depth = d nothing new
   lies outside the graphs of the stored nodes at most d link steps above the given node. *)
From Oras Require Import Base.Prelude Model.FindRoots Proofs.FindRoots Proofs.FindRootsMem.
From Oras Require Import Model.CopySpec Proofs.CopySpec Proofs.FindRootsCopy.
Local Open Scope nat_scope.

Section All.
  Variable ct : GM.amap.                 (* content.Successors of every key (C07's content table) *)
  Variable fuelm : nat.
  Variable ops : list GM.op.             (* any history of graph.Memory operations *)
  Let gm := GM.s_g (fst (GM.run ct fuelm GM.init_state ops)).
  Variable s : source.
  Variable fs : list filter.
  Variable g : graph.                    (* C01's content universe *)
  Variable nd : desc.

  (* R: the followed relation in terms of stored content (without filters: E_nofilter below;
     with filters: backed_followed of Proofs/FindRootsMem.v) *)
  Variable R : nat -> nat -> Prop.
  Hypothesis HE : forall x y, E (find_preds s fs) x y <-> R x y.
  Hypothesis HRlink : forall x y, R x y -> link_up (GM.ctab ct) gm x y.
  Hypothesis Hacyclic : exists rank, acyclic_source s rank.
  (* the two models speak of the same content.Successors *)
  Hypothesis links_agree : forall p x, In (N.of_nat x) (GM.ctab ct (N.of_nat p)) <-> In x (g_succ g p).
  (* the given node and the nodes above it are stored content, not foreign layers *)
  Hypothesis not_foreign : forall a, anc s fs (d_id nd) a -> g_foreign g a = false.

  Definition upR (a c : nat) : Prop := exists k, rpath R k a c.

  Lemma anc_upR a c : anc s fs a c <-> upR a c.
  Proof. apply reach_rel, HE. Qed.

  Lemma step_is_link a y : anc s fs (d_id nd) a -> E (find_preds s fs) a y -> In a (succ' g y).
  Proof.
    intros Ha He. apply HE in He. apply HRlink in He. destruct He as (_ & Hl).
    unfold succ'. apply filter_In. split; [now apply links_agree|].
    now rewrite (not_foreign a Ha).
  Qed.

  Lemma anc_down a : anc s fs (d_id nd) a ->
    forall c, anc s fs a c -> Proofs.CopySpec.reach g c a.
  Proof.
    intros Ha c (k & P). induction P as [x | k x y z P IH He].
    - constructor.
    - assert (Hy : anc s fs (d_id nd) y).
      { destruct Ha as (k1 & P1). exists (k + k1). eapply path_trans; eauto. }
      eapply reach_step; [exact (step_is_link y z Hy He) | exact (IH Ha)].
  Qed.

  (* unlimited depth: everything below every followed ancestor is held *)
  Lemma all_closure limit fuel roots final :
    mt_consistent g -> (limit <= 0)%Z ->
    find_roots fuel s fs limit nd = Some roots ->
    extended_copy_run g final roots ->
    forall a, upR (d_id nd) a ->
    forall x, Proofs.CopySpec.reach g a x -> has g final x = true.
  Proof.
    intros Hmt Hl Hf (c & d0 & tr & st & Hroots & Hcl & Hacc & Hret & Hincl) a Ha x Hx.
    apply anc_upR in Ha. destruct Hacyclic as (rank & Hac).
    destruct (roots_unlimited _ limit nd rank (find_preds_rank s fs rank Hac) fuel roots Hl Hf) as (_ & _ & H3).
    destruct (H3 a Ha) as (r & Hr & Hra).
    apply Hincl.
    apply (closure_all_roots g c d0 tr st Hcl Hmt Hacc Hret (d_id r) (Hroots r Hr)).
    eapply reach_trans_c01; [exact (anc_down a Ha (d_id r) Hra) | exact Hx].
  Qed.

  Lemma all_own_graph limit fuel roots final :
    mt_consistent g ->
    find_roots fuel s fs limit nd = Some roots ->
    extended_copy_run g final roots ->
    forall x, Proofs.CopySpec.reach g (d_id nd) x -> has g final x = true.
  Proof.
    intros Hmt Hf (c & d0 & tr & st & Hroots & Hcl & Hacc & Hret & Hincl) x Hx.
    destruct Hacyclic as (rank & Hac).
    destruct (roots_cover_node (find_preds s fs) limit nd rank (find_preds_rank s fs rank Hac) fuel roots Hf)
      as ((r & Hr & Hnr) & _).
    apply Hincl.
    apply (closure_all_roots g c d0 tr st Hcl Hmt Hacc Hret (d_id r) (Hroots r Hr)).
    eapply reach_trans_c01; [|exact Hx].
    apply (anc_down (d_id nd)); [exists 0; constructor | exact Hnr].
  Qed.

  (* any depth: nothing new outside the graphs of the followed ancestors; with Depth = d > 0 only
     ancestors at most d steps away *)
  Lemma all_nothing_outside limit fuel roots d0 final :
    find_roots fuel s fs limit nd = Some roots ->
    extended_copy_run_only g d0 final roots ->
    forall x, In x final ->
      In x d0 \/ exists a, upR (d_id nd) a /\ Proofs.CopySpec.reach g a x.
  Proof.
    intros Hf Hrun x Hx. destruct Hacyclic as (rank & Hac).
    destruct (nothing_outside_C01 s fs limit nd rank fuel roots g d0 final Hac Hf Hrun x Hx)
      as [H | (a & Ha & Hr)]; [auto|].
    right. exists a. split; auto. now apply anc_upR.
  Qed.

  Lemma all_depth_nothing_outside limit fuel roots d0 final :
    (0 < limit)%Z ->
    find_roots fuel s fs limit nd = Some roots ->
    extended_copy_run_only g d0 final roots ->
    forall x, In x final ->
      In x d0 \/
      exists a k, (Z.of_nat k <= limit)%Z /\ rpath R k (d_id nd) a /\ Proofs.CopySpec.reach g a x.
  Proof.
    intros Hl Hf Hrun x Hx. destruct Hacyclic as (rank & Hac).
    destruct (depth_nothing_outside_C01 s fs limit nd rank fuel roots g d0 final Hac Hl Hf Hrun x Hx)
      as [H | (a & k & Hk & Hp & Hr)]; [auto|].
    right. exists a, k. repeat split; auto. now apply (path_rel _ R HE).
  Qed.
End All.

Definition up_links (ct : GM.amap) (fuelm : nat) (ops : list GM.op) (a c : nat) : Prop :=
  exists k, rpath (link_up (GM.ctab ct) (GM.s_g (fst (GM.run ct fuelm GM.init_state ops)))) k a c.

Lemma E_nofilter ct fuelm ops s :
  backed_by s (GM.s_g (fst (GM.run ct fuelm GM.init_state ops))) ->
  forall x y, E (find_preds s []) x y <->
              link_up (GM.ctab ct) (GM.s_g (fst (GM.run ct fuelm GM.init_state ops))) x y.
Proof.
  intros Hb x y. unfold E. rewrite find_preds_nil.
  apply (backed_preds_are_links (GM.ctab ct) _ s (GP.history_inv ct fuelm ops) Hb).
Qed.

(* the hypotheses are satisfiable together: blob 0 under manifests 1 and 2, pushed into a
   graph.Memory, ExtendedCopyGraph from the blob, both roots copied by one run (Concurrency 2) *)
Lemma ex_links_agree :
  forall p x, In (N.of_nat x) (GM.ctab ct_two (N.of_nat p)) <-> In x (g_succ g_two p).
Proof.
  intros p x. destruct p as [|[|[|p]]].
  - vm_compute. tauto.
  - simpl g_succ. change (GM.ctab ct_two (N.of_nat 1)) with [0%N]. simpl. split.
    + intros [H | []]. left. apply Nat2N.inj. simpl. now rewrite <- H.
    + intros [<- | []]. left. reflexivity.
  - simpl g_succ. change (GM.ctab ct_two (N.of_nat 2)) with [0%N]. simpl. split.
    + intros [H | []]. left. apply Nat2N.inj. simpl. now rewrite <- H.
    + intros [<- | []]. left. reflexivity.
  - simpl g_succ. unfold GM.ctab, GM.getd, ct_two, GM.aget.
    destruct (N.eqb (N.of_nat (S (S (S p)))) 1) eqn:E1; [apply N.eqb_eq in E1; lia|].
    destruct (N.eqb (N.of_nat (S (S (S p)))) 2) eqn:E2; [apply N.eqb_eq in E2; lia|].
    simpl. tauto.
Qed.

Lemma ex_property_all :
  forall a, up_links ct_two 10 ops_two (d_id (mkDesc 0 [] None)) a ->
  forall x, Proofs.CopySpec.reach g_two a x -> has g_two [1; 2; 0] x = true.
Proof.
  destruct ex_backed as (Hb & _ & Hc & Hf).
  destruct ex_two_roots as (_ & _ & Hmt & _ & Hrun).
  apply (all_closure ct_two 10 ops_two src_mem_two [] g_two (mkDesc 0 [] None) _
           (E_nofilter ct_two 10 ops_two src_mem_two Hb) (fun x y H => H)
           (ex_intro _ _ (backed_acyclic _ _ src_mem_two N.to_nat (GP.history_inv ct_two 10 ops_two) Hb Hc))
           ex_links_agree (fun _ _ => eq_refl) 0%Z (fuel_for src_mem_two 3)
           [mkDesc 2 [] None; mkDesc 1 [] None] [1; 2; 0] Hmt); auto. lia.
Qed.
