(* C11 — the ghost field [taint] is never read: a run on a tree with any taint set is the run on
   the tree itself with that taint set put back.  With it the full confinement theorem speaks about
   EVERY tree whose working directory is reached through real directories: take as taint set the
   inodes that have a name below the working directory and a name outside it. *)
From Oras Require Import Base.Prelude Generated.GC11 Model.FileConfine Proofs.FileConfine.
Open Scope nat_scope.

Section Taint.
Variable t : list nat.

Notation wt := (with_taint t).
Definition owt (r : option fsys) : option fsys :=
  match r with Some f => Some (with_taint t f) | None => None end.
Definition swt (s : store) : store := mkStore (with_taint t (st_fs s)) (st_names s) (st_d2p s).

Lemma if_owt_l (c : bool) f r r' : r' = owt r -> (if c then Some (wt f) else r') = owt (if c then Some f else r).
Proof. intros ->. now destruct c. Qed.

Lemma if_owt_r (c : bool) f r r' : r' = owt r -> (if c then r' else Some (wt f)) = owt (if c then r else Some f).
Proof. intros ->. now destruct c. Qed.

Lemma walk_t fu f nl cur rem fo : walk fu (wt f) nl cur rem fo = walk fu f nl cur rem fo.
Proof.
  revert nl cur rem. induction fu as [|fu IH]; intros nl cur rem; simpl; [reflexivity|].
  destruct rem as [|[|c] r]; auto.
  change (lookup (wt f) (cur ++ [c])) with (lookup f (cur ++ [c])).
  destruct (lookup f (cur ++ [c])) as [[|i|d a cs]|]; auto.
  destruct r, fo, nl; auto.
Qed.

Lemma awalk_t f ns fo : awalk (wt f) ns fo = awalk f ns fo.
Proof. unfold awalk. apply walk_t. Qed.

Lemma kwalk_t f cwd a cs fo : kwalk (wt f) cwd a cs fo = kwalk f cwd a cs fo.
Proof. unfold kwalk. apply walk_t. Qed.

Lemma klstat_t f p : klstat (wt f) p = klstat f p.
Proof. unfold klstat. now rewrite awalk_t. Qed.

Lemma mkdir_prefixes_t f d todo m : mkdir_prefixes (wt f) d todo m = owt (mkdir_prefixes f d todo m).
Proof.
  revert f d. induction todo as [|c r IH]; intros f d; simpl; [reflexivity|].
  rewrite !walk_t.
  destruct (walk FUEL f NLINK [] (d ++ [c]) true); auto;
    destruct (walk FUEL f NLINK [] (d ++ [c]) false); auto;
    change (new_dir p0 m (wt f)) with (wt (new_dir p0 m f)) || change (new_dir p m (wt f)) with (wt (new_dir p m f));
    apply IH.
Qed.

Lemma mkdir_all_t f cs m : mkdir_all (wt f) cs m = owt (mkdir_all f cs m).
Proof. apply mkdir_prefixes_t. Qed.

Lemma write_at_t f cs c m : write_at (wt f) cs c m = owt (write_at f cs c m).
Proof. unfold write_at. rewrite walk_t. destruct (walk FUEL f NLINK [] cs true); reflexivity. Qed.

Lemma chmod_at_t f ns m : chmod_at (wt f) ns m = owt (chmod_at f ns m).
Proof. unfold chmod_at. rewrite awalk_t. destruct (awalk f ns true); reflexivity. Qed.

Lemma chtimes_at_t f ns x : chtimes_at (wt f) ns x = wt (chtimes_at f ns x).
Proof. unfold chtimes_at. rewrite awalk_t. destruct x; [reflexivity|]. destruct (awalk f ns true); reflexivity. Qed.

Lemma remove_at_t f ns : remove_at (wt f) ns = owt (remove_at f ns).
Proof.
  unfold remove_at. rewrite awalk_t. destruct (awalk f ns false); try reflexivity.
  destruct p; [reflexivity|]. change (has_child (wt f) (n :: p)) with (has_child f (n :: p)).
  destruct (has_child f (n :: p)); reflexivity.
Qed.

Lemma touch_t g f fp x : touch g (wt f) fp x = wt (touch g f fp x).
Proof.
  unfold touch. rewrite klstat_t, chtimes_at_t. destruct (fixT g); [|reflexivity].
  destruct (klstat f fp); reflexivity.
Qed.

Lemma mkdir_real_t f cur qs m : mkdir_real (wt f) cur qs m = owt (mkdir_real f cur qs m).
Proof.
  revert f cur. induction qs as [|c r IH]; intros f cur; simpl; [reflexivity|].
  rewrite klstat_t, awalk_t. destruct (klstat f (cur ++ [c])); auto.
  destruct (awalk f (cur ++ [c]) false); auto.
  change (new_dir p m (wt f)) with (wt (new_dir p m f)). apply IH.
Qed.

Lemma unlink_if_symlink_t f fp : unlink_if_symlink (wt f) fp = owt (unlink_if_symlink f fp).
Proof. unfold unlink_if_symlink. rewrite klstat_t, remove_at_t. destruct (klstat f fp); reflexivity. Qed.

Lemma descend_ok_t f cur qs : descend_ok (wt f) cur qs = descend_ok f cur qs.
Proof.
  revert cur. induction qs as [|c r IH]; intro cur; simpl; [reflexivity|].
  change (lookup (wt f) (cur ++ [c])) with (lookup f (cur ++ [c])).
  destruct (lookup f (cur ++ [c])) as [[| |]|]; auto.
Qed.

Lemma parents_ok_t f dp ns : parents_ok (wt f) dp ns = parents_ok f dp ns.
Proof.
  unfold parents_ok. rewrite awalk_t. destruct (removelast ns); [reflexivity|].
  destruct (awalk f dp true); try reflexivity. apply descend_ok_t.
Qed.

Lemma resolve_rel_t f dp dn tg : resolve_rel (wt f) dp dn tg = resolve_rel f dp dn tg.
Proof. unfold resolve_rel. destruct (entry_rel dp dn tg); [|reflexivity]. now rewrite parents_ok_t. Qed.

Lemma ensure_link_t f dp fp tg : ensure_link (wt f) dp fp tg = ensure_link f dp fp tg.
Proof.
  unfold ensure_link. destruct (strip_prefix dp (link_abs_path fp tg)); [|reflexivity]. now rewrite parents_ok_t.
Qed.

Lemma do_symlink_t f fp n : do_symlink (wt f) fp n = owt (do_symlink f fp n).
Proof.
  unfold do_symlink. rewrite awalk_t, remove_at_t.
  destruct (awalk f fp false); try reflexivity;
    (destruct (remove_at f fp) as [f1|]; [|reflexivity]; simpl; rewrite awalk_t;
     destruct (awalk f1 fp false); reflexivity).
Qed.

Lemma do_link_t g f cwd fp pn tg : do_link g (wt f) cwd fp pn tg = owt (do_link g f cwd fp pn tg).
Proof.
  unfold do_link. rewrite !awalk_t, kwalk_t.
  destruct (if fixH g then awalk f pn false else kwalk f cwd (is_abs tg) (comps_of tg) false);
    try reflexivity; destruct (awalk f fp false); reflexivity.
Qed.

Lemma chmod_if_t pres r fp m : chmod_if pres (owt r) fp m = owt (chmod_if pres r fp m).
Proof. destruct r as [f1|]; [|reflexivity]. simpl. destruct pres; [apply chmod_at_t|reflexivity]. Qed.

Lemma extract_entry_core_t g pres cwd dp dn f e :
  extract_entry_core g pres cwd dp dn (wt f) e = owt (extract_entry_core g pres cwd dp dn f e).
Proof.
  unfold extract_entry_core. rewrite resolve_rel_t.
  destruct (resolve_rel f dp dn (entry_name e)) as [rel|]; [|reflexivity].
  destruct e as [nm c m|nm m|nm tg|nm tg|nm].
  - destruct (match rel with [] => fixR g | _ => false end); [reflexivity|].
    rewrite (if_owt_r _ _ _ _ (unlink_if_symlink_t f (dp ++ rel))). destruct (if fixW g then unlink_if_symlink f (dp ++ rel) else Some f) as [f0|]; [|reflexivity].
    simpl. rewrite write_at_t. apply chmod_if_t.
  - destruct (fixN g); [apply mkdir_real_t|apply mkdir_all_t].
  - destruct (match rel with [] => fixR g | _ => false end); [reflexivity|].
    rewrite ensure_link_t. destruct (ensure_link f dp (dp ++ rel) tg); [|reflexivity]. apply do_link_t.
  - destruct (match rel with [] => fixR g | _ => false end); [reflexivity|].
    rewrite ensure_link_t. destruct (ensure_link f dp (dp ++ rel) tg); [|reflexivity].
    destruct tg; [reflexivity|]. apply do_symlink_t.
  - reflexivity.
Qed.

Lemma extract_entry_t g pres cwd dp dn f e x :
  extract_entry g pres cwd dp dn (wt f) e x = owt (extract_entry g pres cwd dp dn f e x).
Proof.
  unfold extract_entry. rewrite extract_entry_core_t.
  destruct (extract_entry_core g pres cwd dp dn f e) as [f1|]; [|reflexivity]. simpl.
  destruct e; simpl; try reflexivity;
    (destruct (entry_rel _ _ _); simpl; rewrite ?touch_t; reflexivity).
Qed.

Lemma restore_dirs_t pres f dirs seen : restore_dirs pres (wt f) dirs seen = owt (restore_dirs pres f dirs seen).
Proof.
  revert f seen. induction dirs as [|[p m] r IH]; intros f seen; simpl; [reflexivity|].
  destruct (existsb (path_eqb p) seen); [apply IH|].
  rewrite klstat_t. destruct (klstat f p); try reflexivity; try apply IH.
  change (dir_mode (wt f) q) with (dir_mode f q).
  destruct (negb pres && ((if pres then m else N.land (dir_mode f q) m) =? dir_mode f q)%N); [apply IH|].
  rewrite chmod_at_t. destruct (chmod_at f p (if pres then m else N.land (dir_mode f q) m)); [|reflexivity].
  simpl. apply IH.
Qed.

Definition pwt (r : fsys * bool) : fsys * bool := (with_taint t (fst r), snd r).

Lemma extract_t g pres cwd dp dn f es ts dirs tr :
  extract g pres cwd dp dn (wt f) es ts dirs tr = pwt (extract g pres cwd dp dn f es ts dirs tr).
Proof.
  revert f ts dirs. induction es as [|e r IH]; intros f ts dirs; simpl.
  - destruct tr; [reflexivity|]. rewrite restore_dirs_t. destruct (restore_dirs pres f dirs []); reflexivity.
  - rewrite extract_entry_t. destruct (extract_entry g pres cwd dp dn f e (hd 0%N ts)); [|reflexivity].
    simpl. apply IH.
Qed.

Lemma ensure_write_dir_t g wd f dir raw :
  ensure_write_dir g wd (wt f) dir raw = owt (ensure_write_dir g wd f dir raw).
Proof.
  unfold ensure_write_dir. destruct (if fixN g then strip_prefix wd dir else None).
  - rewrite mkdir_all_t. destruct (mkdir_all f (Nms wd) c11_write_dir_perm); [|reflexivity]. simpl. apply mkdir_real_t.
  - apply mkdir_all_t.
Qed.

Definition spwt (r : store * bool) : store * bool := (swt (fst r), snd r).

Lemma push_blob_t g wd s title w good :
  push_blob g wd (swt s) title w good = spwt (push_blob g wd s title w good).
Proof.
  unfold push_blob. cbn [swt st_fs st_names st_d2p].
  destruct (existsb (str_eqb title) (st_names s)); [reflexivity|].
  destruct (write_path g wd title) as [raw|]; [|reflexivity].
  rewrite (if_owt_l _ _ _ _ (ensure_write_dir_t g wd (st_fs s) _ _)).
  destruct (if cached g (st_names s) _ then Some (st_fs s) else _) as [f1|]; [|reflexivity]. simpl.
  rewrite (if_owt_r _ _ _ _ (unlink_if_symlink_t f1 (clean_abs raw))).
  destruct (if fixW g && negb (path_eqb (clean_abs raw) wd) then unlink_if_symlink f1 (clean_abs raw) else Some f1) as [f1'|];
    [|reflexivity]. simpl.
  rewrite write_at_t. destruct (write_at f1' raw w 438) as [f2|]; [|reflexivity]. simpl.
  destruct good; [reflexivity|]. rewrite remove_at_t. destruct (remove_at f2 (clean_abs raw)); reflexivity.
Qed.

Lemma push_dir_t g pres wd cwd s title ts es how :
  push_dir g pres wd cwd (swt s) title ts es how = spwt (push_dir g pres wd cwd s title ts es how).
Proof.
  unfold push_dir. cbn [swt st_fs st_names st_d2p].
  destruct (existsb (str_eqb title) (st_names s)); [reflexivity|].
  destruct (write_path g wd title) as [raw|]; [|reflexivity].
  rewrite (if_owt_l _ _ _ _ (ensure_write_dir_t g wd (st_fs s) _ _)).
  destruct (if cached g (st_names s) _ then Some (st_fs s) else _) as [f1|]; [|reflexivity]. simpl.
  destruct (how =? 1)%N; [reflexivity|].
  rewrite extract_t.
  destruct (extract g pres cwd (clean_abs raw) title f1 es ts [] (how =? 2)%N) as [f2 ok0]. reflexivity.
Qed.

Lemma fetch_t s c : fetch (swt s) c = fetch s c.
Proof.
  unfold fetch. cbn [swt st_fs st_names st_d2p]. destruct (lookup_d2p (st_d2p s) c); [|reflexivity].
  rewrite awalk_t. reflexivity.
Qed.

Lemma restore_layers_t g wd s layers :
  restore_layers g wd (swt s) layers = spwt (restore_layers g wd s layers).
Proof.
  revert s. induction layers as [|[ti c] r IH]; intro s; simpl; [reflexivity|].
  destruct ti as [|t0 ti]; [apply IH|].
  change (st_names (swt s)) with (st_names s).
  destruct (existsb (str_eqb (t0 :: ti)) (st_names s)); [apply IH|].
  rewrite fetch_t. destruct (fetch s c) as [| |c']; [apply IH|reflexivity|].
  rewrite push_blob_t. destruct (push_blob g wd s (t0 :: ti) c' ((c' =? c)%N && negb (c =? 0)%N)) as [s1 ok].
  unfold spwt at 1. cbn [fst snd]. destruct ok; [apply IH|reflexivity].
Qed.

Lemma push_t g pres wd cwd s o : push g pres wd cwd (swt s) o = spwt (push g pres wd cwd s o).
Proof.
  destruct o as [ti c|ti ts es|layers|how ti ts es]; unfold push.
  - destruct ti; [|apply push_blob_t]. cbn [swt st_fs st_names st_d2p].
    destruct ((c =? 0)%N || existsb (str_eqb [0%N; c]) (st_names s)); reflexivity.
  - destruct ti; [reflexivity|apply push_dir_t].
  - cbn [swt st_fs st_names st_d2p].
    destruct (existsb (str_eqb (manifest_marker layers)) (st_names s)); [reflexivity|].
    apply (restore_layers_t g wd (mkStore (st_fs s) (manifest_marker layers :: st_names s) (st_d2p s))).
  - destruct ti; [reflexivity|apply push_dir_t].
Qed.

Theorem pushes_t g pres wd cwd s os :
  pushes g pres wd cwd (swt s) os =
  (swt (fst (pushes g pres wd cwd s os)), snd (pushes g pres wd cwd s os)).
Proof.
  revert s. induction os as [|o r IH]; intro s; simpl; [reflexivity|].
  rewrite push_t. destruct (push g pres wd cwd s o) as [s1 ok]. unfold spwt. cbn [fst snd].
  rewrite IH. destruct (pushes g pres wd cwd s1 r) as [s2 oks]. reflexivity.
Qed.

End Taint.

(* the full theorem without any ghost: any tree, any number of pushes; what an observer sees at a
   location outside the working directory changes only if it is a file one of whose other names
   lay below the working directory when the store was opened *)
Theorem pushes_confined_any_tree wd pres cwd os s s' oks :
  (forall q r, wd = q ++ r -> q <> [] -> lookup (st_fs s) q = Some NDir) ->
  (forall p i, lookup (st_fs s) p = Some (NFile i) -> i < nexti (st_fs s)) ->
  pushes cfg_fixed pres wd cwd s os = (s', oks) ->
  forall p, inside wd p = false ->
    view_at (st_fs s') p = view_at (st_fs s) p \/
    exists i q, lookup (st_fs s) p = Some (NFile i) /\ lookup (st_fs s') p = Some (NFile i) /\
                inside wd q = true /\ lookup (st_fs s) q = Some (NFile i).
Proof.
  intros Hwd Hfresh H p Hp.
  pose (t := shared wd (st_fs s)).
  assert (I : Inv wd (st_fs (swt t s))) by (apply inv_shared; assumption).
  assert (H' : pushes cfg_fixed pres wd cwd (swt t s) os = (swt t s', oks)).
  { rewrite pushes_t, H. reflexivity. }
  destruct (same_outside_view_tainted wd _ _ (proj2 (pushes_keeps wd pres cwd os _ _ _ I H')) p Hp) as [V|(i & A & B & C)].
  - left. exact V.
  - right. apply shared_spec in B. destruct B as (_ & (q & Q1 & Q2) & _).
    exists i, q. repeat split; assumption.
Qed.
