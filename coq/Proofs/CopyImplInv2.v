(* CopyImplInv2: the structural invariants Inv2 (tasks and frames, context ancestry, ranks, wait lists).
   Inv2 reads tasks, ntasks, frames and nframes only; a step changes them in one of six ways, and
   there is one preservation lemma for each. *)
From Coq Require Import List Arith Bool Lia.
From Oras Require Import Model.CopyImpl Proofs.CopyImplBase Proofs.CopyImplInv.
Import ListNotations.

Section Proofs.
Variable succ : nat -> list nat.
Variable K : nat.
Variable ext : bool.
Variable roots : list nat.
Hypothesis succ_dec : forall n m, In m (succ n) -> m < n.
Local Notation Reachable := (Reachable succ K ext roots).
Local Notation Inv1 := (Inv1 K).

(* ranks (I_rank) go down from the task that calls Go to the items and tasks of the frame: for a task of
   copyGraph.fn by succ_dec, and the outer closure of a node ranks just above the task of copyGraph.fn for it.
   Only deadlock freedom uses them: a task waits for tasks of smaller rank. *)
Definition crank (k : kind) (n : nat) : nat := match k with KFn => 2 * n | KOuter => 2 * n + 1 end.
Definition trank (t : task) : nat := crank (t_kind t) (t_node t).

Definition I_wff s := forall f, nframes s <= f -> frames s f = dframe.
Definition I_nfpos s := 1 <= nframes s.
Definition I_tframe s := forall t, t_frame (tasks s t) < nframes s.
Definition I_unfin s := forall t, is_fin (t_pc (tasks s t)) = false -> is_ret (f_pc (frames s (t_frame (tasks s t)))) = false.
Definition I_ingo s := forall t f, t_pc (tasks s t) = TInGo f ->
  f_parent (frames s f) = Some t /\ is_ret (f_pc (frames s f)) = false.
Definition I_parent s := forall f p, f_parent (frames s f) = Some p ->
  (t_frame (tasks s p) < f /\ p < ntasks s) /\ (is_ret (f_pc (frames s f)) = false -> t_pc (tasks s p) = TInGo f).
Definition I_top s := forall f, f_parent (frames s f) = None -> f = 0 \/ nframes s <= f.
Definition I_ancself s := forall f, f < nframes s -> In f (f_anc (frames s f)).
Definition I_anc s := forall f p, f_parent (frames s f) = Some p ->
  (forall x, In x (f_anc (frames s (t_frame (tasks s p)))) -> In x (f_anc (frames s f))) /\
  (f_cancelled (frames s (t_frame (tasks s p))) = true -> f_cancelled (frames s f) = true).
Definition I_rank s := forall f p, f_parent (frames s f) = Some p ->
  (forall i, In i (f_items (frames s f)) -> crank (f_kind (frames s f)) i < trank (tasks s p)) /\
  (forall c, t_frame (tasks s c) = f -> trank (tasks s c) < trank (tasks s p)).
Definition I_wait s := forall t l, t_pc (tasks s t) = TWait l ->
  t_kind (tasks s t) = KFn /\ l <> [] /\ forall m, In m l -> In m (succ (t_node (tasks s t))).

Record Inv2 (s : state) : Prop := {
  i2_wff : I_wff s; i2_nfpos : I_nfpos s; i2_tframe : I_tframe s; i2_unfin : I_unfin s; i2_ingo : I_ingo s;
  i2_parent : I_parent s; i2_top : I_top s; i2_ancself : I_ancself s; i2_anc : I_anc s; i2_rank : I_rank s;
  i2_wait : I_wait s }.

Lemma flive s f q : I_wff s -> f_pc (frames s f) = q -> is_ret q = false -> f < nframes s.
Proof.
  intros Hw <- Hp. destruct (Nat.lt_ge_cases f (nframes s)); auto. rewrite Hw in Hp by auto. discriminate.
Qed.

Lemma inv2_init : Inv2 (init K ext roots).
Proof.
  constructor; red; cbn; intros; unfold upd in *;
    repeat match goal with
           | H : context [Nat.eqb ?a ?b] |- _ => destruct (Nat.eqb_spec a b); subst; cbn in *
           | |- context [Nat.eqb ?a ?b] => destruct (Nat.eqb_spec a b); subst; cbn in *
           end; auto; try lia; try discriminate; try congruence.
Qed.

(* cancelling x reaches every frame below x: the ancestors of a frame include those of the frame of
   the task that called it *)
Lemma inv2_cancel s x k trk tc fl : Inv2 s ->
  Inv2 (mkState (tasks s) (ntasks s) (cancel_frames x (frames s)) (nframes s) k trk tc fl).
Proof.
  intros [Hwff Hnf Htf Hunf Hingo Hpar Htop Hself Hanc Hrank Hwait].
  constructor; red; cbn [tasks ntasks frames nframes]; try assumption; intros *;
    rewrite ?(cf_proj f_parent), ?(cf_proj f_pc), ?(cf_proj f_anc), ?(cf_proj f_items), ?(cf_proj f_kind) by reflexivity;
    auto.
  - intros Hf. now apply cf_dframe, Hwff.
  - intros Hp. destruct (Hanc f p Hp) as [Ha Hc]. split; [exact Ha|].
    rewrite !cf_cancelled, !orb_true_iff, !existsb_eqb_in. intros [Hx|Hx]; auto.
Qed.

(* what I_wait asks of a task that goes to pc p *)
Definition wait_ok (t : task) (p : pc) :=
  forall l, p = TWait l -> t_kind t = KFn /\ l <> [] /\ forall m, In m l -> In m (succ (t_node t)).

Lemma inv2_task s u q h k trk tc fl : Inv2 s -> running (t_pc (tasks s u)) = true ->
  (forall f, q <> TInGo f) -> wait_ok (tasks s u) q ->
  Inv2 (mkState (upd (tasks s) u (set_pc_holds (tasks s u) q h)) (ntasks s) (frames s) (nframes s) k trk tc fl).
Proof.
  intros [Hwff Hnf Htf Hunf Hingo Hpar Htop Hself Hanc Hrank Hwait] Hrun Hq Hw.
  constructor; red; cbn [tasks ntasks frames nframes]; try assumption; intros *;
    rewrite ?(upd_proj t_frame), ?(upd_proj trank) by reflexivity; auto.
  - intros Ht. apply Hunf. upd_at t u; [now apply running_alive | exact Ht].
  - intros Ht. upd_at t u; [now apply Hq in Ht | auto].
  - intros Hf. destruct (Hpar f p Hf) as [Ha Hb]. split; [exact Ha|]. intros Hr. specialize (Hb Hr).
    upd_at p u; [now rewrite Hb in Hrun | exact Hb].
  - intros Hf. destruct (Hrank f p Hf) as [Ha Hb]. split; [exact Ha|]. intros c.
    rewrite (upd_proj t_frame), (upd_proj trank) by reflexivity. apply Hb.
  - intros Ht. upd_at t u; [now apply Hw | auto].
Qed.

(* here a frame returns only if it is the top-level one and all its tasks have finished; a nested frame returns
   together with the task that called it (inv2_ret) *)
Lemma inv2_frame s g its q k trk tc fl : Inv2 s -> is_ret (f_pc (frames s g)) = false ->
  incl its (f_items (frames s g)) ->
  (is_ret q = true -> f_parent (frames s g) = None /\
     forall t, t_frame (tasks s t) = g -> is_fin (t_pc (tasks s t)) = true) ->
  Inv2 (mkState (tasks s) (ntasks s) (upd (frames s) g (set_fpc (frames s g) its q)) (nframes s) k trk tc fl).
Proof.
  intros [Hwff Hnf Htf Hunf Hingo Hpar Htop Hself Hanc Hrank Hwait] Hg Hits Hq.
  pose proof (flive s g _ Hwff eq_refl Hg) as Hlt.
  assert (Hret : forall f, is_ret (f_pc (upd (frames s) g (set_fpc (frames s g) its q) f)) = true ->
                           is_ret (f_pc (frames s f)) = false -> f = g /\ is_ret q = true).
  { intros f. upd_at f g; [auto | congruence]. }
  constructor; red; cbn [tasks ntasks frames nframes]; try assumption; intros *;
    rewrite ?(upd_proj f_parent), ?(upd_proj f_anc), ?(upd_proj f_cancelled), ?(upd_proj f_kind) by reflexivity; auto.
  - intros Hf. rewrite upd_other by lia. auto.
  - intros Ht. destruct (is_ret (f_pc (upd _ _ _ _))) eqn:Hr; auto.
    destruct (Hret _ Hr (Hunf t Ht)) as [He Hrq]. destruct (Hq Hrq) as [_ Hfin]. rewrite Hfin in Ht; auto.
  - intros Ht. destruct (Hingo t f Ht) as [Ha Hb]. split; [exact Ha|].
    destruct (is_ret (f_pc (upd _ _ _ _))) eqn:Hr; auto.
    destruct (Hret _ Hr Hb) as [-> Hrq]. destruct (Hq Hrq) as [Hn _]. congruence.
  - intros Hf. destruct (Hpar f p Hf) as [Ha Hb]. split; [exact Ha|]. intros Hr. apply Hb.
    upd_at f g; [exact Hg | exact Hr].
  - intros Hf. destruct (Hrank f p Hf) as [Ha Hb]. split; [|exact Hb]. intros i Hi. apply Ha.
    upd_at f g; [now apply Hits | exact Hi].
Qed.

Lemma inv2_spawn s g i kd k trk tc fl : Inv2 s -> is_ret (f_pc (frames s g)) = false ->
  (forall p, f_parent (frames s g) = Some p -> crank kd i < trank (tasks s p)) ->
  Inv2 (mkState (upd (tasks s) (ntasks s) (mkTask i kd g TSpawned true)) (S (ntasks s)) (frames s) (nframes s) k trk tc fl).
Proof.
  intros [Hwff Hnf Htf Hunf Hingo Hpar Htop Hself Hanc Hrank Hwait] Hg Hi.
  pose proof (flive s g _ Hwff eq_refl Hg) as Hlt.
  assert (Hold : forall f p, f_parent (frames s f) = Some p ->
                             upd (tasks s) (ntasks s) (mkTask i kd g TSpawned true) p = tasks s p).
  { intros f p Hf. apply upd_other. destruct (Hpar f p Hf) as [[_ ?] _]. lia. }
  constructor; red; cbn [tasks ntasks frames nframes]; try assumption; intros *.
  1-3: upd_at t (ntasks s); now auto.
  - intros Hf. rewrite (Hold f p Hf). destruct (Hpar f p Hf) as [[Ha Hb] Hc]. auto.
  - intros Hf. rewrite (Hold f p Hf). auto.
  - intros Hf. rewrite (Hold f p Hf). destruct (Hrank f p Hf) as [Ha Hb]. split; [exact Ha|]. intros c.
    upd_at c (ntasks s); [|auto]. cbn [t_frame]. intros <-. now apply Hi.
  - upd_at t (ntasks s); now auto.
Qed.

Lemma inv2_go s u h k trk tc fl : Inv2 s -> t_pc (tasks s u) = TGo -> u < ntasks s ->
  Inv2 (mkState (upd (tasks s) u (set_pc_holds (tasks s u) (TInGo (nframes s)) h)) (ntasks s)
                (upd (frames s) (nframes s)
                     (mkFrame (Some u) (nframes s :: f_anc (frames s (t_frame (tasks s u)))) KFn
                              (go_items succ (tasks s u)) (go_items succ (tasks s u)) FDispatch
                              (f_cancelled (frames s (t_frame (tasks s u))))))
                (S (nframes s)) k trk tc fl).
Proof.
  intros [Hwff Hnf Htf Hunf Hingo Hpar Htop Hself Hanc Hrank Hwait] Hpc Hlt.
  assert (Hold : forall t x, upd (frames s) (nframes s) x (t_frame (tasks s t)) = frames s (t_frame (tasks s t))).
  { intros t x. apply upd_other. specialize (Htf t). lia. }
  constructor; red; cbn [tasks ntasks frames nframes]; intros *;
    rewrite ?(upd_proj t_frame), ?(upd_proj trank), ?Hold by reflexivity.
  - intros Hf. rewrite upd_other by lia. apply Hwff. lia.
  - lia.
  - specialize (Htf t). lia.
  - intros Ht. apply Hunf. upd_at t u; [now rewrite Hpc | exact Ht].
  - upd_at t u.
    + intros [= <-]. now rewrite upd_same.
    + intros Ht. destruct (Hingo t f Ht) as [Ha Hb]. pose proof (flive s f _ Hwff eq_refl Hb). now rewrite upd_other by lia.
  - upd_at f (nframes s).
    + intros [= <-]. rewrite upd_same. specialize (Htf u). auto.
    + intros Hf. destruct (Hpar f p Hf) as [Ha Hb]. split; [exact Ha|]. intros Hr. specialize (Hb Hr).
      rewrite upd_other; auto. intros ->. congruence.
  - upd_at f (nframes s); [discriminate|].
    intros Hf. destruct (Htop f Hf); [auto | right; lia].
  - intros Hf. upd_at f (nframes s); [now left|]. apply Hself. lia.
  - upd_at f (nframes s); [|auto].
    intros [= <-]. split; auto. intros x Hx. now right.
  - upd_at f (nframes s).
    + intros [= <-]. split.
      * cbn [f_items f_kind]. unfold go_items, trank, crank. intros i Hi.
        destruct (t_kind (tasks s u)); [apply succ_dec in Hi; lia | destruct Hi as [<-|[]]; lia].
      * intros c Hc. rewrite (upd_proj t_frame) in Hc by reflexivity. specialize (Htf c). lia.
    + intros Hf. destruct (Hrank f p Hf) as [Ha Hb]. split; [exact Ha|].
      intros c. rewrite (upd_proj t_frame), (upd_proj trank) by reflexivity. apply Hb.
  - intros Ht. upd_at t u; [discriminate | eauto].
Qed.

Lemma inv2_ret s g u q h e k trk tc fl : Inv2 s -> f_pc (frames s g) = FWait ->
  (forall t, t_frame (tasks s t) = g -> is_fin (t_pc (tasks s t)) = true) ->
  f_parent (frames s g) = Some u -> t_pc (tasks s u) = TInGo g ->
  (forall f, q <> TInGo f) -> wait_ok (tasks s u) q ->
  Inv2 (mkState (upd (tasks s) u (set_pc_holds (tasks s u) q h)) (ntasks s)
                (upd (frames s) g (set_fpc (frames s g) [] (FRet e))) (nframes s) k trk tc fl).
Proof.
  intros [Hwff Hnf Htf Hunf Hingo Hpar Htop Hself Hanc Hrank Hwait] Hg Hdone Hp Hpc Hq Hw.
  pose proof (flive s g _ Hwff Hg eq_refl) as Hlt.
  constructor; red; cbn [tasks ntasks frames nframes]; try assumption; intros *;
    rewrite ?(upd_proj t_frame), ?(upd_proj trank), ?(upd_proj f_parent), ?(upd_proj f_anc),
      ?(upd_proj f_cancelled), ?(upd_proj f_kind) by reflexivity; auto.
  - intros Hf. rewrite upd_other by lia. auto.
  - intros Ht. assert (Ho : is_fin (t_pc (tasks s t)) = false).
    { upd_at t u; [now rewrite Hpc | exact Ht]. }
    rewrite upd_other; auto. intros He. apply Hdone in He. congruence.
  - upd_at t u; [intros Ht; now apply Hq in Ht|].
    intros Ht. destruct (Hingo t f Ht) as [Ha Hb]. split; [exact Ha|]. rewrite upd_other; auto. congruence.
  - intros Hf. destruct (Hpar f p Hf) as [Ha Hb]. split; [exact Ha|].
    upd_at f g; [discriminate|].
    intros Hr. specialize (Hb Hr). rewrite upd_other; auto. congruence.
  - intros Hf. destruct (Hrank f p Hf) as [Ha Hb]. split.
    + intros i Hi. apply Ha. upd_at f g; [destruct Hi | exact Hi].
    + intros c. rewrite (upd_proj t_frame), (upd_proj trank) by reflexivity. apply Hb.
  - intros Ht. upd_at t u; [now apply Hw | auto].
Qed.

Lemma inv2_step s l s' : Inv1 s -> Inv2 s -> step succ s l = Some s' -> Inv2 s'.
Proof.
  intros [Hwf _ _ _] I2 Hs. pose proof I2 as [Hwff Hnf Htf Hunf Hingo Hpar Htop Hself Hanc Hrank Hwait].
  destruct (step_Step succ s l s' Hs) as [| f i rest k Hpc Hit Hfr | l f Hpc _ | f Hpc Hd Hp | f p Hpc Hd Hp Hq _
                                          | f p Hpc Hd Hp Hq _ | t Hp | l t q p h k trk Hm Hq | l t q e trk Hf Hq].
  - (* LCancelTop *) now apply inv2_cancel.
  - (* LDispatchAcq: the frame drops the item, then the task for it appears *)
    apply (inv2_spawn (mkState (tasks s) (ntasks s) (upd (frames s) f (set_fpc (frames s f) rest FDispatch))
                               (nframes s) (free s) (tracker s) (top_cancelled s) (failed s)));
      cbn [frames tasks]; rewrite ?upd_same; auto.
    + apply inv2_frame; auto; try discriminate; [now rewrite Hpc | rewrite Hit; now right].
    + intros p Hp. apply (Hrank f p Hp). rewrite Hit. now left.
  - (* LDispatchEnd, LDispatchFail *) apply inv2_frame; auto; try discriminate; [now rewrite Hpc | intros i []].
  - (* LGoReturn, top-level frame *)
    apply inv2_frame; auto; [now rewrite Hpc | intros i [] | intros _; split; auto; now apply ftd_spec].
  - (* LGoReturn, nil *) apply inv2_ret; auto; [now apply ftd_spec | ..]; unfold wait_pc, wait_list;
      destruct (t_kind (tasks s p)) eqn:Hk; try discriminate; destruct (succ (t_node (tasks s p))) eqn:Hsu; try discriminate.
    intros w [= <-]. rewrite Hsu. repeat split; auto. discriminate.
  - (* LGoReturn, error *) apply (inv2_cancel (mkState _ _ _ _ 0 (tracker s) false false)).
    apply inv2_ret; auto; [now apply ftd_spec | discriminate..].
  - (* LGo *) apply inv2_go; auto. now apply (live_lt s t _ Hwf Hp).
  - (* move *) destruct (move_running succ s t l q p h k trk Hm) as [Hr Hr']. rewrite <- Hq in Hr.
    apply inv2_task; auto using running_not_ingo.
    destruct Hm as [| | | | |m rest _|]; try discriminate;
      try (destruct (t_kind _); discriminate); try (destruct (succ _); discriminate).
    (* the wait list only shrinks *)
    destruct rest as [|m' rest]; [discriminate|]. intros w [= <-].
    destruct (Hwait t _ Hq) as [Hk [_ Hin]]. repeat split; auto; [discriminate | intros x Hx; apply Hin; now right].
  - (* fin *) pose proof (fin_running s t l q e trk Hf) as Hr. rewrite <- Hq in Hr.
    destruct e; [apply (inv2_cancel (mkState _ _ _ _ 0 trk false false))|]; (apply inv2_task; auto; discriminate).
Qed.

Lemma inv12_reach s : Reachable s -> Inv1 s /\ Inv2 s.
Proof.
  induction 1 as [|s l s' Hr [I1 I2] Hs].
  - split. apply inv1_init. apply inv2_init.
  - split. eapply inv1_step; eauto. eapply inv2_step; eauto.
Qed.

End Proofs.
