(* C03 over a source backed by graph.Memory (content/memory, content/oci, content/file): the
   store's Predecessors is graph.Memory.Predecessors, which C07 proves exact after every history
   of Index / Remove / IndexAll (Proofs/GraphMem.v).  Composing the two, the walk of findRoots is
   a walk over the LINKS of the stored content: the hypothesis pred_is_inverse_link and the
   source-level acyclicity are discharged from content addressing. *)
From Oras Require Import Base.Prelude Model.FindRoots Proofs.FindRoots.
From Oras Require Model.GraphMem Proofs.GraphMem.
Local Open Scope nat_scope.

Module GM := Oras.Model.GraphMem.
Module GP := Oras.Proofs.GraphMem.

(* the store serves, for every key, exactly graph.Memory's predecessor set (some order, any
   descriptor fields); keys of the C03 model are the C07 keys numbered by N.of_nat *)
Definition backed_by (s : source) (gm : GM.graph) : Prop :=
  forall x y, In y (map d_id (s_preds s x)) <-> In (N.of_nat y) (GM.predecessors gm (N.of_nat x)).

(* y is a stored node whose content links to x (subject, config, layer, manifest, blob) *)
Definition link_up (content : GM.node -> list GM.node) (gm : GM.graph) (x y : nat) : Prop :=
  In (N.of_nat y) (GM.g_nodes gm) /\ In (N.of_nat x) (content (N.of_nat y)).

Lemma backed_preds_are_links content gm s :
  GP.Inv content gm -> backed_by s gm ->
  forall x y, In y (map d_id (s_preds s x)) <-> link_up content gm x y.
Proof.
  intros HI Hb x y. rewrite (Hb x y).
  destruct (GP.exact_full content gm HI (N.of_nat x)) as (_ & H & _). apply H.
Qed.

(* content addressing: a node embeds the digests of what it links to *)
Definition content_acyclic (content : GM.node -> list GM.node) (rank : GM.node -> nat) : Prop :=
  forall p x, In x (content p) -> rank x < rank p.

Lemma backed_acyclic content gm s rank :
  GP.Inv content gm -> backed_by s gm -> content_acyclic content rank ->
  acyclic_source s (fun y => rank (N.of_nat y)).
Proof.
  intros HI Hb Hc x p Hp.
  assert (Hin : In (d_id p) (map d_id (s_preds s x))) by (apply in_map; exact Hp).
  apply (backed_preds_are_links content gm s HI Hb) in Hin. destruct Hin as (_ & Hl).
  now apply Hc.
Qed.

Definition followed_links (content : GM.node -> list GM.node) (gm : GM.graph)
           (s : source) (fs : list filter) (x y : nat) : Prop :=
  link_up content gm x y /\ forall f, In f fs -> keep_spec s f y = true.

Lemma backed_followed content gm s fs :
  GP.Inv content gm -> backed_by s gm -> all_served_ok s ->
  forall x y, E (find_preds s fs) x y <-> followed_links content gm s fs x y.
Proof.
  intros HI Hb Hok x y. rewrite (E_followed_spec s fs x y Hok). unfold followed_spec, followed_links.
  now rewrite (backed_preds_are_links content gm s HI Hb x y).
Qed.

(* Depth <= 0: the roots are exactly the tops of the upward closure of the given node through
   the links of the stored content (whose manifests satisfy the filters), and every member of
   that closure lies under a root -- for a store after ANY history of graph.Memory operations *)
Lemma roots_unlimited_memory_backed ct fuelm ops s fs rank limit node fuel roots :
  let gm := GM.s_g (fst (GM.run ct fuelm GM.init_state ops)) in
  let R := followed_links (GM.ctab ct) gm s fs in
  let up a c := exists k, rpath R k a c in
  backed_by s gm -> all_served_ok s -> content_acyclic (GM.ctab ct) rank -> (limit <= 0)%Z ->
  find_roots fuel s fs limit node = Some roots ->
  (forall r, In r roots -> up (d_id node) (d_id r) /\ forall y, ~ R (d_id r) y) /\
  (forall a, up (d_id node) a -> (forall y, ~ R a y) -> In a (map d_id roots)) /\
  (forall a, up (d_id node) a -> exists r, In r roots /\ up a (d_id r)).
Proof.
  intros gm R up Hb Hok Hc Hl Hf.
  pose proof (GP.history_inv ct fuelm ops) as HI. fold gm in HI.
  exact (roots_unlimited_rel (find_preds s fs) R (backed_followed _ gm s fs HI Hb Hok) _
           (find_preds_rank s fs _ (backed_acyclic _ gm s rank HI Hb Hc)) limit node fuel roots Hl Hf).
Qed.

Lemma backed_pred_is_inverse_link ct fuelm ops s :
  let gm := GM.s_g (fst (GM.run ct fuelm GM.init_state ops)) in
  backed_by s gm ->
  forall x p, In p (s_preds s x) -> In (N.of_nat x) (GM.ctab ct (N.of_nat (d_id p))).
Proof.
  intros gm Hb x p Hp.
  pose proof (GP.history_inv ct fuelm ops) as HI. fold gm in HI.
  assert (Hin : In (d_id p) (map d_id (s_preds s x))) by (apply in_map; exact Hp).
  apply (backed_preds_are_links _ gm s HI Hb) in Hin. now destruct Hin.
Qed.

(* satisfiable: two manifests over one blob pushed into a graph.Memory (blob, then both) *)
Definition ct_two : GM.amap := [(1%N, [0%N]); (2%N, [0%N])].
Definition ops_two : list GM.op :=
  [GM.OSok 0%N true; GM.OSok 1%N true; GM.OSok 2%N true; GM.OIndex 0%N; GM.OIndex 1%N; GM.OIndex 2%N].
Definition src_mem_two : source :=
  mkSource (fun x => match x with 0 => [mkDesc 1 [] None; mkDesc 2 [] None] | _ => [] end)
           (fun x => match x with 0 => KOther | _ => KImage end)
           (fun _ => []) (fun _ => []) (fun _ => None) false.

Lemma ex_backed :
  backed_by src_mem_two (GM.s_g (fst (GM.run ct_two 10 GM.init_state ops_two))) /\
  all_served_ok src_mem_two /\
  content_acyclic (GM.ctab ct_two) N.to_nat /\
  find_roots (fuel_for src_mem_two 3) src_mem_two [] 0%Z (mkDesc 0 [] None)
    = Some [mkDesc 2 [] None; mkDesc 1 [] None].
Proof.
  assert (Hg : GM.s_g (fst (GM.run ct_two 10 GM.init_state ops_two)) =
               GM.mkGraph [2%N; 1%N; 0%N] [(0%N, [2%N; 1%N])] [(2%N, [0%N]); (1%N, [0%N]); (0%N, [])])
    by (vm_compute; reflexivity).
  rewrite Hg. repeat split.
  - destruct x as [|x]; simpl.
    + intros [<- | [<- | []]]; vm_compute; auto.
    + intros [].
  - destruct x as [|x].
    + unfold GM.predecessors, GM.getd. simpl. intros [H | [H | []]].
      * right. left. apply Nat2N.inj. exact H.
      * left. apply Nat2N.inj. exact H.
    + unfold GM.predecessors, GM.getd, GM.aget. cbn [GM.g_preds].
      destruct (N.eqb (N.of_nat (S x)) 0) eqn:E; [apply N.eqb_eq in E; lia | intros []].
  - intro x. destruct x as [|x]; simpl; repeat constructor; discriminate.
  - intros p x H. unfold GM.ctab, GM.getd, ct_two, GM.aget in H.
    destruct (N.eqb p 1) eqn:E1.
    + apply N.eqb_eq in E1. subst. destruct H as [<- | []]. vm_compute. lia.
    + destruct (N.eqb p 2) eqn:E2; [|contradiction].
      apply N.eqb_eq in E2. subst. destruct H as [<- | []]. vm_compute. lia.
Qed.
