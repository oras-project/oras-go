(* C18 -- saveFile is atomic with owner-only permissions at every crash point
   (Model/CredSave.v over Base/FlatFS.v). *)
From Oras Require Import Base.Prelude Base.FlatFS Generated.GC18 Model.CredFile Model.CredSave Proofs.CredFile.

(* FlatFS's pget / pdel / pset are the association lists of the store *)
Section PMapLemmas.
  Context {V : Type}.
  Implicit Types (l : list (path * V)).

  Lemma pget_pdel_eq p l : pget p (pdel p l) = None.
  Proof. exact (lookup_del_eq p l). Qed.

  Lemma pget_pdel_neq p q l : p <> q -> pget q (pdel p l) = pget q l.
  Proof. exact (lookup_del_neq p q l). Qed.

  Lemma pget_pset_eq p v l : pget p (pset p v l) = Some v.
  Proof. exact (lookup_set_eq p v l). Qed.

  Lemma pget_pset_neq p q v l : p <> q -> pget q (pset p v l) = pget q l.
  Proof. exact (lookup_set_neq p q v l). Qed.
End PMapLemmas.

Definition only_file (t : path) (m : mstep) : Prop :=
  match m with
  | MkdirAll _ _ | Close _ => True
  | CreateExcl q _ | Chmod q _ | Write q _ | Unlink q => q = t
  | Rename _ _ => False
  end.

Definition is_mkdir (m : mstep) : Prop := match m with MkdirAll _ _ => True | _ => False end.

Lemma exec_all_app s l1 l2 : exec_all s (l1 ++ l2) = exec_all (exec_all s l1) l2.
Proof. apply fold_left_app. Qed.

Lemma exec_all_keeps {A} (f : fs -> A) (P : mstep -> Prop) :
  (forall s m, P m -> f (exec s m) = f s) -> forall l s, Forall P l -> f (exec_all s l) = f s.
Proof.
  intros H l. induction l as [|m l IH]; intros s F; [reflexivity|].
  inversion F as [|? ? Hm Hl]; subst. cbn [exec_all fold_left]. fold (exec_all (exec s m) l).
  now rewrite (IH _ Hl), H.
Qed.

Lemma exec_all_only_file t l s q :
  Forall (only_file t) l -> q <> t -> fget q (exec_all s l) = fget q s.
Proof.
  intros F N. revert l s F. apply exec_all_keeps. intros s m O.
  destruct m; cbn [only_file] in O; try contradiction; subst; unfold fget; cbn [exec].
  - destruct (dget d s); reflexivity.
  - destruct (fget t s); [reflexivity|]. apply pget_pset_neq. congruence.
  - destruct (fget t s); [|reflexivity]. apply pget_pset_neq. congruence.
  - destruct (fget t s); [|reflexivity]. apply pget_pset_neq. congruence.
  - reflexivity.
  - apply pget_pdel_neq. congruence.
Qed.

Lemma exec_all_mkdir_files l s : Forall is_mkdir l -> fs_files (exec_all s l) = fs_files s.
Proof.
  revert l s. apply exec_all_keeps. intros s m. destruct m; try contradiction. intros _.
  cbn [exec]. destruct (dget d s); reflexivity.
Qed.

Lemma exec_all_no_mkdir_dirs l s : Forall (fun m => ~ is_mkdir m) l -> fs_dirs (exec_all s l) = fs_dirs s.
Proof.
  revert l s. apply exec_all_keeps. intros s m N. destruct m; try (now elim N); cbn [exec];
    try reflexivity; match goal with |- context [fget ?p s] => destruct (fget p s) end; reflexivity.
Qed.

Lemma cut_forall (P : mstep -> Prop) l pre :
  (forall q d d', P (Write q (d ++ d')) -> P (Write q d)) ->
  crash_cut l pre -> Forall P l -> Forall P pre.
Proof.
  intro HP. induction 1; intro F.
  - constructor.
  - inversion F; subst. constructor; [eauto|constructor].
  - inversion F; subst. constructor; auto.
Qed.

Lemma cut_all l : crash_cut l l.
Proof. induction l; now constructor. Qed.

Lemma cut_app A B pre :
  crash_cut (A ++ B) pre -> crash_cut A pre \/ exists pre', pre = A ++ pre' /\ crash_cut B pre'.
Proof.
  revert pre. induction A as [|m A IH]; intros pre C; cbn [app] in C; [right; now exists pre|].
  inversion C as [| |? ? l' C']; subst; [left; constructor..|].
  destruct (IH _ C') as [L|(pre' & -> & R)]; [left; now constructor|right; now exists pre'].
Qed.

Lemma cut_snoc A r pre :
  (forall p d, r <> Write p d) ->
  crash_cut (A ++ [r]) pre -> crash_cut A pre \/ pre = A ++ [r].
Proof.
  intros NW C. apply cut_app in C as [C|(pre' & -> & C)]; [now left|].
  inversion C as [| |? ? l' C']; subst.
  - left. rewrite app_nil_r. apply cut_all.
  - elim (NW _ _ eq_refl).
  - inversion C'. now right.
Qed.

Lemma exec_mkdir_fget q d m s : fget q (exec s (MkdirAll d m)) = fget q s.
Proof. unfold fget. cbn [exec]. destruct (dget d s); reflexivity. Qed.

Lemma exec_mkdir_dget d c mode s :
  dget d (exec s (MkdirAll c mode)) =
  if str_eqb d c then Some (match dget d s with Some m => m | None => mode end) else dget d s.
Proof.
  cbn [exec]. destruct (str_eqb d c) eqn:EC.
  - apply str_eqb_spec in EC. subst c. destruct (dget d s) eqn:ED; [exact ED|]. apply pget_pset_eq.
  - apply str_eqb_false in EC. destruct (dget c s); [reflexivity|]. apply pget_pset_neq. congruence.
Qed.

Lemma exec_create_fresh t m s :
  fget t s = None -> fget t (exec s (CreateExcl t m)) = Some {| f_data := []; f_mode := m |}.
Proof. intro H. cbn [exec]. rewrite H. unfold fget. cbn [fs_files]. apply pget_pset_eq. Qed.

Lemma exec_chmod t m f s :
  fget t s = Some f -> fget t (exec s (Chmod t m)) = Some {| f_data := f_data f; f_mode := m |}.
Proof. intro H. cbn [exec]. rewrite H. unfold fget. cbn [fs_files]. apply pget_pset_eq. Qed.

Lemma exec_write t c f s :
  fget t s = Some f -> fget t (exec s (Write t c)) = Some {| f_data := f_data f ++ c; f_mode := f_mode f |}.
Proof. intro H. cbn [exec]. rewrite H. unfold fget. cbn [fs_files]. apply pget_pset_eq. Qed.

Lemma exec_rename t p f s :
  fget t s = Some f -> t <> p ->
  fget p (exec s (Rename t p)) = Some f /\ fget t (exec s (Rename t p)) = None /\
  forall q, q <> p -> q <> t -> fget q (exec s (Rename t p)) = fget q s.
Proof.
  intros H N. cbn [exec]. rewrite H. unfold fget. cbn [fs_files].
  split; [apply pget_pset_eq|]. split.
  - rewrite pget_pset_neq by congruence. apply pget_pdel_eq.
  - intros q N1 N2. rewrite pget_pset_neq by congruence. apply pget_pdel_neq. congruence.
Qed.

Definition is_prefix (d full : str) : Prop := exists rest, full = d ++ rest.

Definition temp_is (t : path) (d : str) (s : fs) : Prop :=
  fget t s = Some {| f_data := d; f_mode := mode_file |}.

(* Between its creation and its renaming the ingest file is only appended to: the steps
   allowed there, and the bytes a list of steps appends. *)
Definition feeds (t : path) (m : mstep) : Prop :=
  match m with
  | MkdirAll _ _ | Close _ => True
  | Chmod q mode => q = t /\ mode = mode_file
  | Write q _ => q = t
  | _ => False
  end.

Definition written (l : list mstep) : str :=
  concat (map (fun m => match m with Write _ c => c | _ => [] end) l).

Lemma exec_all_feeds t l : forall d s,
  Forall (feeds t) l -> temp_is t d s -> temp_is t (d ++ written l) (exec_all s l).
Proof.
  unfold temp_is, written. induction l as [|m l IH]; intros d s F H; [now rewrite app_nil_r|].
  inversion F as [|? ? Fm Fl]; subst. cbn [map concat]. rewrite app_assoc. apply (IH _ (exec s m) Fl).
  destruct m; cbn [feeds] in Fm; try contradiction; rewrite ?app_nil_r.
  - now rewrite exec_mkdir_fget.
  - destruct Fm as [-> ->]. now rewrite (exec_chmod t mode_file _ s H).
  - subst. now rewrite (exec_write t data _ s H).
  - exact H.
Qed.

Lemma cut_written l pre : crash_cut l pre -> is_prefix (written pre) (written l).
Proof.
  unfold written. induction 1 as [l|p d d' l|m l l' _ [rest IH]]; cbn [map concat].
  - now eexists.
  - exists (d' ++ concat (map (fun m => match m with Write _ c => c | _ => [] end) l)).
    now rewrite app_nil_r, app_assoc.
  - exists rest. now rewrite IH, app_assoc.
Qed.

Lemma Forall_map_all {A B} (P : B -> Prop) (f : A -> B) l : (forall a, P (f a)) -> Forall P (map f l).
Proof. intro H. apply Forall_map, Forall_forall. auto. Qed.

Lemma mkdirs_are_mkdir chain : Forall is_mkdir (map (fun d => MkdirAll d mode_dir) chain).
Proof. now apply Forall_map_all. Qed.

Lemma mkdirs_only_file t chain : Forall (only_file t) (map (fun d => MkdirAll d mode_dir) chain).
Proof. now apply Forall_map_all. Qed.

Lemma writes_only_file t chunks : Forall (only_file t) (map (Write t) chunks).
Proof. now apply Forall_map_all. Qed.

Lemma writes_feed t chunks : Forall (feeds t) (map (Write t) chunks).
Proof. now apply Forall_map_all. Qed.

Lemma mkdirs_fget chain q s : fget q (exec_all s (map (fun d => MkdirAll d mode_dir) chain)) = fget q s.
Proof. unfold fget. now rewrite exec_all_mkdir_files by apply mkdirs_are_mkdir. Qed.

Lemma created_fed chain t l s :
  fget t s = None -> Forall (feeds t) l ->
  temp_is t (written l) (exec_all s (map (fun d => MkdirAll d mode_dir) chain ++ CreateExcl t mode_file :: l)).
Proof.
  intros FR F. rewrite exec_all_app. apply (exec_all_feeds t l [] _ F), exec_create_fresh. now rewrite mkdirs_fget.
Qed.

(* what Ingest does to the file it created *)
Definition ingest_steps (t : path) (chunks : list str) : list mstep :=
  Chmod t mode_file :: map (Write t) chunks ++ [Close t].

Lemma ingest_feeds t chunks : Forall (feeds t) (ingest_steps t chunks).
Proof.
  constructor; [now split|]. apply Forall_app. split; [apply writes_feed|repeat constructor].
Qed.

Lemma ingest_written t chunks : written (ingest_steps t chunks) = concat chunks.
Proof.
  unfold written, ingest_steps. cbn [map concat app]. rewrite map_app, map_map, concat_app, map_id. apply app_nil_r.
Qed.

Section Save.
  Variables (chain : list path) (p t : path) (chunks : list str).
  Hypothesis t_not_p : t <> p.

  Let mkdirs := map (fun d => MkdirAll d mode_dir) chain.
  Let tail_steps := [CreateExcl t mode_file; Chmod t mode_file] ++ map (Write t) chunks ++ [Close t].
  Let prefix_steps := mkdirs ++ tail_steps.

  Lemma save_steps_split : save_steps chain p t chunks = prefix_steps ++ [Rename t p].
  Proof.
    unfold save_steps, prefix_steps, tail_steps, mkdirs. rewrite <- !app_assoc. reflexivity.
  Qed.

  Lemma prefix_only_t : Forall (only_file t) prefix_steps.
  Proof.
    apply Forall_app. split; [apply mkdirs_only_file|].
    repeat (constructor; [reflexivity|]). apply Forall_app. split; [apply writes_only_file|repeat constructor].
  Qed.

  Lemma save_complete s :
    fget t s = None ->
    let s' := exec_all s (save_steps chain p t chunks) in
    fget p s' = Some {| f_data := concat chunks; f_mode := mode_file |} /\
    fget t s' = None /\
    (forall q, q <> p -> q <> t -> fget q s' = fget q s).
  Proof.
    intros FR s'. unfold s'. rewrite save_steps_split, exec_all_app.
    change (exec_all ?x [Rename t p]) with (exec x (Rename t p)).
    assert (T : temp_is t (concat chunks) (exec_all s prefix_steps)).
    { rewrite <- (ingest_written t chunks). exact (created_fed chain t _ s FR (ingest_feeds t chunks)). }
    destruct (exec_rename t p _ _ T t_not_p) as (P & T' & Q).
    split; [exact P|]. split; [exact T'|].
    intros q N1 N2. rewrite (Q q N1 N2).
    apply (exec_all_only_file t prefix_steps s q prefix_only_t N2).
  Qed.

  Lemma prefix_temp s pre :
    fget t s = None -> crash_cut prefix_steps pre ->
    fget t (exec_all s pre) = None \/
    exists d, temp_is t d (exec_all s pre) /\ is_prefix d (concat chunks).
  Proof.
    intros FR C. apply cut_app in C as [CM|(pre' & -> & CT)].
    - left. unfold fget. rewrite (exec_all_mkdir_files pre s); [exact FR|].
      exact (cut_forall is_mkdir _ _ (fun _ _ _ H => H) CM (mkdirs_are_mkdir chain)).
    - inversion CT as [| |m l l' C2]; subst.
      + left. rewrite app_nil_r. unfold mkdirs. now rewrite mkdirs_fget.
      + right. exists (written l'). split.
        * apply (created_fed chain t l' s FR).
          exact (cut_forall (feeds t) _ _ (fun _ _ _ H => H) C2 (ingest_feeds t chunks)).
        * rewrite <- (ingest_written t chunks). now apply cut_written.
  Qed.

  Lemma save_atomic s pre :
    fget t s = None ->
    crash_cut (save_steps chain p t chunks) pre ->
    let s' := exec_all s pre in
    (fget p s' = fget p s \/
     fget p s' = Some {| f_data := concat chunks; f_mode := mode_file |}) /\
    (forall q, q <> p -> q <> t -> fget q s' = fget q s) /\
    (fget t s' = None \/ exists d, temp_is t d s' /\ is_prefix d (concat chunks)).
  Proof.
    intros FR C s'. unfold s'. rewrite save_steps_split in C.
    apply cut_snoc in C as [C| ->]; [| |discriminate].
    - pose proof (cut_forall (only_file t) _ _ (fun _ _ _ H => H) C prefix_only_t) as O.
      split; [left; apply (exec_all_only_file t pre s p O); congruence|].
      split; [intros q N1 N2; now apply (exec_all_only_file t pre s q O)|now apply prefix_temp].
    - rewrite <- save_steps_split.
      destruct (save_complete s FR) as (P & T & Q).
      split; [right; exact P|]. split; [exact Q|]. left. exact T.
  Qed.

  (* os.MkdirAll: once the mkdirs are done -- in particular after the save --
     every level of the chain exists; a level that was missing has mode 0700, an
     existing one keeps its mode; no other directory changes *)
  Lemma mkdirs_dget d : forall s,
    dget d (exec_all s mkdirs) =
    if existsb (str_eqb d) chain
    then Some (match dget d s with Some m => m | None => mode_dir end)
    else dget d s.
  Proof.
    unfold mkdirs. clear. induction chain as [|c l IH]; intro s; [reflexivity|].
    unfold exec_all in *. cbn [map fold_left existsb]. rewrite IH, exec_mkdir_dget.
    destruct (str_eqb d c); cbn [orb]; [|reflexivity]. destruct (existsb (str_eqb d) l); reflexivity.
  Qed.

  Lemma save_dirs s d :
    dget d (exec_all s (save_steps chain p t chunks)) =
    if existsb (str_eqb d) chain
    then Some (match dget d s with Some m => m | None => mode_dir end)
    else dget d s.
  Proof.
    rewrite save_steps_split. unfold prefix_steps. rewrite <- app_assoc, exec_all_app.
    unfold dget at 1. rewrite exec_all_no_mkdir_dirs; [apply mkdirs_dget|].
    unfold tail_steps. repeat (constructor; [exact (fun x => x)|]).
    repeat (apply Forall_app; split); [now apply Forall_map_all|repeat constructor; exact (fun x => x)..].
  Qed.

  (* a symlinked config path: the reader sees the old target or the complete
     new file; the target itself is never written *)
  Lemma prefix_no_rename pre : Forall (only_file t) pre -> renamed_onto p pre = false.
  Proof.
    induction 1 as [|m l Hm Hl IH]; [reflexivity|].
    unfold renamed_onto in *. cbn [existsb]. rewrite IH. destruct m; try reflexivity. contradiction.
  Qed.

  Lemma symlink_path q s pre :
    q <> p -> q <> t -> fget t s = None ->
    crash_cut (save_steps chain p t chunks) pre ->
    (read_via_link p q s pre = fget q s \/
     read_via_link p q s pre = Some {| f_data := concat chunks; f_mode := mode_file |}) /\
    fget q (exec_all s pre) = fget q s /\
    (pre = save_steps chain p t chunks ->
     read_via_link p q s pre = Some {| f_data := concat chunks; f_mode := mode_file |}).
  Proof.
    intros NQP NQT FR C. unfold read_via_link.
    rewrite save_steps_split in *. apply cut_snoc in C as [C| ->]; [| |discriminate].
    - (* before the rename the link still leads to q *)
      pose proof (cut_forall (only_file t) _ _ (fun _ _ _ H => H) C prefix_only_t) as O.
      rewrite (prefix_no_rename pre O), (exec_all_only_file t pre s q O NQT).
      split; [now left|]. split; [reflexivity|]. intros ->.
      apply Forall_app in O as [_ O]. inversion O as [|? ? X]. elim X.
    - assert (R : renamed_onto p (prefix_steps ++ [Rename t p]) = true).
      { unfold renamed_onto. rewrite existsb_app. cbn [existsb]. now rewrite str_eqb_refl, !orb_true_r. }
      rewrite R, <- save_steps_split. destruct (save_complete s FR) as (P & _ & Q).
      split; [now right|]. split; [now apply Q|intros _; exact P].
  Qed.
End Save.

Lemma firstn_forall {A} (P : A -> Prop) n (l : list A) : Forall P l -> Forall P (firstn n l).
Proof.
  intro F. revert n. induction F as [|x l Hx _ IH]; intros [|n]; cbn [firstn]; constructor; auto.
Qed.

Section FailedSave.
  Variables (chain : list path) (p t : path) (chunks : list str).
  Hypothesis t_not_p : t <> p.

  Lemma failed_only_t fp : Forall (only_file t) (failed_save_steps chain p t chunks fp).
  Proof.
    pose proof (mkdirs_only_file t chain). pose proof (writes_only_file t chunks).
    destruct fp; cbn [failed_save_steps]; repeat (apply Forall_app; split);
      auto using firstn_forall; repeat constructor.
  Qed.

  Lemma unlink_last s l : fget t (exec_all s (l ++ [Unlink t])) = None.
  Proof. rewrite exec_all_app. unfold exec_all, fget. cbn [fold_left exec fs_files]. apply pget_pdel_eq. Qed.

  (* whatever system call of the save fails: the config path and every other file
     are untouched and no ingest file stays behind *)
  Lemma failed_save_harmless s fp :
    fget t s = None ->
    let s' := exec_all s (failed_save_steps chain p t chunks fp) in
    fget p s' = fget p s /\
    (forall q, q <> t -> fget q s' = fget q s) /\
    fget t s' = None.
  Proof.
    intros FR s'. unfold s'.
    split; [apply (exec_all_only_file t _ s p (failed_only_t fp)); congruence|].
    split; [intros q N; apply (exec_all_only_file t _ s q (failed_only_t fp) N)|].
    destruct fp; cbn [failed_save_steps].
    1: unfold fget; rewrite exec_all_mkdir_files; [exact FR|apply firstn_forall, mkdirs_are_mkdir].
    1: now rewrite mkdirs_fget.
    (* the other four end with the removal of the ingest file *)
    1, 2, 4: change [Close t; Unlink t] with ([Close t] ++ [Unlink t]).
    all: rewrite !app_assoc; apply unlink_last.
  Qed.

  (* before the Ingest fix: a failing chmod leaves the (empty) ingest file, a failing
     write leaves the ingest file with the part of the secrets written so far *)
  Lemma failed_save_prefix_leaks s :
    fget t s = None ->
    fget t (exec_all s (failed_save_steps_prefix chain p t chunks FChmod)) <> None /\
    forall j, fget t (exec_all s (failed_save_steps_prefix chain p t chunks (FWrite j))) <> None.
  Proof.
    intro FR.
    assert (L : forall l, Forall (feeds t) l ->
              fget t (exec_all s (map (fun d => MkdirAll d mode_dir) chain ++ CreateExcl t mode_file :: l)) <> None).
    { intros l F. rewrite (created_fed chain t l s FR F). discriminate. }
    split; [|intro j]; apply L; repeat constructor.
    apply Forall_app. split; [apply firstn_forall, writes_feed|repeat constructor].
  Qed.
End FailedSave.

(* the mode of the config file never depends on the file that was there: after
   the save it is 0600, and at every crash cut the path either still holds the
   old file (data and mode untouched) or holds a file of mode 0600 *)
Lemma mode_owner_only (dir : list path) (p t : path) (chunks : list str) :
  t <> p -> forall s,
  fget t s = None ->
  (forall f, fget p (exec_all s (save_steps dir p t chunks)) = Some f -> f_mode f = mode_file) /\
  (exists f, fget p (exec_all s (save_steps dir p t chunks)) = Some f) /\
  (forall pre f, crash_cut (save_steps dir p t chunks) pre ->
                 fget p (exec_all s pre) = Some f -> fget p (exec_all s pre) <> fget p s -> f_mode f = mode_file).
Proof.
  intros NE s FR. destruct (save_complete dir p t chunks NE s FR) as (P & _ & _).
  split; [|split].
  - intros f E. rewrite P in E. injection E as <-. reflexivity.
  - eexists. exact P.
  - intros pre f C E D.
    destruct (save_atomic dir p t chunks NE s pre FR C) as ([OLD|NEW] & _ & _).
    + contradiction.
    + rewrite NEW in E. injection E as <-. reflexivity.
Qed.

Section OpSaveProofs.
  Variables (enc : str -> str) (dec : str -> option str).
  Variable render : fdoc -> str.
  Variable parse : str -> option fdoc.
  Variable eqv : fdoc -> fdoc -> Prop.
  Variable chunking : str -> list str.
  Hypothesis chunking_ok : forall x, concat (chunking x) = x.

  (* the only JSON fact used: the document this operation writes reads back as an
     equivalent document *)
  Definition reads_back (st : state) (o : op) : Prop :=
    forall d, st_file (fst (step enc dec st o)) = Some d ->
              exists d', parse (render d) = Some d' /\ eqv d' d.

  Lemma atomic_op (dir : list path) (p t : path) st o s pre :
    t <> p -> fget t s = None ->
    reads_back st o ->
    disk_is parse eqv p s (st_file st) ->
    crash_cut (op_steps enc dec render chunking dir p t st o) pre ->
    let st' := fst (step enc dec st o) in
    let s' := exec_all s pre in
    (disk_is parse eqv p s' (st_file st) \/
     disk_is parse eqv p s' (st_file st') /\
     (saves st o = true -> exists f, fget p s' = Some f /\ f_mode f = mode_file)) /\
    (pre = op_steps enc dec render chunking dir p t st o -> disk_is parse eqv p s' (st_file st')) /\
    (forall q, q <> p -> q <> t -> fget q s' = fget q s).
  Proof.
    intros NE FR RB V C st' s'. unfold op_steps, reads_back in *. subst st' s'.
    rewrite step_saves in *. destruct (saves st o).
    - cbn [save st_file] in *. set (d := saved_doc (updated enc (st_mem st) o)) in *.
      destruct (RB d eq_refl) as (d' & PR & EQ).
      assert (NEWV : forall s1, fget p s1 = Some {| f_data := concat (chunking (render d)); f_mode := mode_file |} ->
                                disk_is parse eqv p s1 (Some d)).
      { intros s1 E. exists {| f_data := concat (chunking (render d)); f_mode := mode_file |}, d'.
        split; [exact E|]. cbn [f_data]. rewrite chunking_ok. split; assumption. }
      destruct (save_atomic dir p t (chunking (render d)) NE s pre FR C) as ([OLD|NEW] & OTH & _).
      + split; [left; unfold disk_is in *; now rewrite OLD|]. split; [|exact OTH].
        intros ->. apply NEWV. apply (save_complete dir p t _ NE s FR).
      + split; [right; split; [now apply NEWV|]|split; [intros _; now apply NEWV|exact OTH]].
        intros _. eexists. split; [exact NEW|reflexivity].
    - inversion C. split; [left; exact V|]. split; [intros _; exact V|reflexivity].
  Qed.
End OpSaveProofs.
