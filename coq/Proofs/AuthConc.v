(* C16 -- Client.Do under concurrency (Model/AuthConc.v): whatever the three cache
   reads of a call return, as long as it is something a host-tainted cache can
   return, the call sends only what it may and writes only a token of its own
   host; hence, for every interleaving of any number of calls over one shared
   cache, the cache stays host-tainted and every call's sends are [trace_ok]. *)
From Oras Require Import Base.Prelude Model.Scopes Model.Challenge Model.AuthClient Model.AuthConc Proofs.AuthClient.

Section WithParse.
Variable parse : str -> scheme * params.

Definition op_fits (h : host) (op : store_op) : Prop :=
  match op with Some (s, k, v) => tok_fits h s v | None => True end.

Lemma do_request_rd_ok clean cf rq osch otok1 otok2 script :
  (forall t, otok1 = Some t -> match osch with Some s => tok_fits (rq_host rq) s t | None => True end) ->
  (forall k t, otok2 k = Some t -> tok_fits (rq_host rq) SchBearer t) ->
  let '(evs, op, r) := do_request_rd clean parse cf rq osch otok1 otok2 script in
  trace_ok_from parse (rq_host rq) [] evs /\ op_fits (rq_host rq) op.
Proof.
  intros F1 F2. pose proof (do_request_rd_run parse clean cf rq osch otok1 otok2 script) as R.
  destruct (do_request_rd clean parse cf rq osch otok1 otok2 script) as [[evs op] r].
  exact (call_run_ok parse clean cf rq _ otok2 evs op r (first_auth_fits _ _ _ F1) F2 R).
Qed.

Definition snap_ok (o : option cc) : Prop := match o with Some c => cache_ok c | None => True end.

Lemma snap_cache_ok o c : snap_ok o -> cache_ok c -> cache_ok (snap o c).
Proof. now destruct o. Qed.

(* the scheme read needs no invariant: a token is used only if it fits the scheme read *)
Definition sys_ok (y : csys) : Prop :=
  cache_ok (y_cache y) /\
  (forall j t, In (j, t) (y_threads y) -> snap_ok (t_s2 t) /\ snap_ok (t_s3 t)) /\
  (forall j h evs r, In (j, (h, evs, r)) (y_out y) -> trace_ok parse h evs).

Lemma th_get_in m j t : th_get m j = Some t -> In (j, t) m.
Proof.
  induction m as [|[j' t'] m IH]; simpl; [discriminate|].
  destruct (j =? j') eqn:E; [apply N.eqb_eq in E; subst; intros [= ->]; now left | intro H; right; auto].
Qed.

Lemma sys_ok_init : sys_ok yinit.
Proof. split; [apply cache_ok_nil|]. split; intros; contradiction. Qed.

Lemma sys_ok_step clean cf y e y' : sys_ok y -> ystep clean parse cf y e = Some y' -> sys_ok y'.
Proof.
  intros (C & T & O) S. destruct e as [j rq script|j w|j]; simpl in S.
  - destruct (th_get (y_threads y) j); [discriminate|]. injection S as <-. split; [exact C|]. split; simpl.
    + intros j' t [H|H]; [injection H as _ <-; simpl; auto | eauto].
    + exact O.
  - destruct (th_get (y_threads y) j) as [t|] eqn:G; [|discriminate].
    destruct (t_done t); [discriminate|]. injection S as <-. split; [exact C|]. split; simpl.
    + pose proof (T j t (th_get_in _ _ _ G)) as (A2 & A3).
      intros j' t' [H|H]; [|eauto]. injection H as _ <-.
      destruct w as [|[|[|w]]]; simpl; auto.
    + exact O.
  - destruct (th_get (y_threads y) j) as [t|] eqn:G; [|discriminate].
    destruct (t_done t); [discriminate|].
    pose proof (T j t (th_get_in _ _ _ G)) as (A2 & A3).
    set (c := y_cache y) in *. set (rq := t_rq t) in *. set (f := cf_flavour cf) in *.
    pose proof (do_request_rd_ok clean cf rq (rd_scheme f (snap (t_s1 t) c) rq) _
                  (rd_tok2 f (snap (t_s3 t) c) rq) (t_script t)
                  (fun tk => rd_tok1_fits clean f _ rq _ tk (snap_cache_ok _ _ A2 C))
                  (fun k tk => cache_get_token_ok f _ _ _ k tk (snap_cache_ok _ _ A3 C))) as D.
    destruct (do_request_rd clean parse cf rq _ _ _ (t_script t)) as [[evs op] r].
    destruct D as [D1 D2].
    injection S as <-. split; simpl.
    + destruct op as [[[s k] v]|]; simpl; auto. apply cache_store_ok; auto.
    + split.
      * intros j' t' [H|H]; [injection H as _ <-; simpl; auto | eauto].
      * intros j' h evs' r' [H|H]; [|eauto]. injection H as _ <- <- _. now apply trace_ok_of_from.
Qed.

Lemma sys_ok_run clean cf tr : forall y y', sys_ok y -> yrun clean parse cf y tr = Some y' -> sys_ok y'.
Proof.
  induction tr as [|e tr IH]; intros y y' I R; simpl in R.
  - now injection R as <-.
  - destruct (ystep clean parse cf y e) as [y1|] eqn:S; [|discriminate].
    eapply IH; [eapply sys_ok_step; eauto | eauto].
Qed.

Lemma concurrent_no_cross_host clean cf tr y :
  yrun clean parse cf yinit tr = Some y ->
  (forall j h evs r, In (j, (h, evs, r)) (y_out y) -> trace_ok parse h evs) /\
  (forall h s k t, cc_get_token (y_cache y) h s k = Some t -> taint t = h).
Proof.
  intro R. destruct (sys_ok_run clean cf tr yinit y sys_ok_init R) as (C & _ & O).
  split; auto. intros h s k t G. eapply tok_fits_taint. eapply C; eauto.
Qed.

(* concurrentCache.store is not one atomic step in Go: between the replacement of the
   entry (LoadOrStore / Store on cc.cache) and tokens.Store a reader may see the entry
   with the new scheme and without the token.  That intermediate cache is host-tainted
   too, so a read at that moment is one of the oracle answers the theorems allow. *)
Lemma store_intermediate_ok c h s :
  cache_ok c ->
  cache_ok (match cc_entry c h with
            | Some (s', t) => if scheme_eqb s s' then c else cc_put c h (s, [])
            | None => cc_put c h (s, [])
            end).
Proof.
  intros H. destruct (cc_entry c h) as [[s' t]|] eqn:E; [destruct (scheme_eqb s s'); auto|];
    intros h' s0 k v G; unfold cc_get_token in G; rewrite cc_entry_put in G;
    (destruct (h' =? h) eqn:Eh;
     [destruct (scheme_eqb s0 s); discriminate | apply (H h' s0 k v); unfold cc_get_token; exact G]).
Qed.
End WithParse.
