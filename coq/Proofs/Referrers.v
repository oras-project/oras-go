(* C14 — lemmas about Model/Referrers.v (applyReferrerChanges,
   removeEmptyDescriptors, filterReferrers). *)
From Oras Require Import Base.Prelude Model.Referrers.

Lemma filter_referrers_spec refs art d :
  In d (filter_referrers refs art) <-> In d refs /\ (art = 0 \/ dart d = art).
Proof.
  unfold filter_referrers. destruct (art =? 0) eqn:E.
  - apply N.eqb_eq in E. tauto.
  - apply N.eqb_neq in E. rewrite filter_In, N.eqb_eq. tauto.
Qed.

Lemma nonempty_true d : nonempty d = true <-> dkey d <> 0.
Proof. unfold nonempty, is_empty. rewrite negb_true_iff, N.eqb_neq. tauto. Qed.

Lemma nonempty_false d : nonempty d = false <-> dkey d = 0.
Proof. unfold nonempty, is_empty. rewrite negb_false_iff, N.eqb_eq. tauto. Qed.

Lemma has_key_In k l : has_key k l = true <-> In k (keys l).
Proof.
  unfold has_key, keys. rewrite existsb_exists, in_map_iff. split.
  - intros (d & Hd & E). apply N.eqb_eq in E. eauto.
  - intros (d & E & Hd). exists d. split; auto. now apply N.eqb_eq.
Qed.

Lemma has_key_app k l1 l2 : has_key k (l1 ++ l2) = has_key k l1 || has_key k l2.
Proof. unfold has_key. apply existsb_app. Qed.

Lemma lookup_None_notin m k : lookup m k = None -> ~ In k (map fst m).
Proof.
  induction m as [|[k' p] m IH]; simpl; [tauto|].
  destruct (k' =? k) eqn:E; [discriminate|]. apply N.eqb_neq in E.
  intros H [H1|H1]; [congruence|]. now apply IH.
Qed.

Lemma lookup_Some_In m k p : lookup m k = Some p -> In k (map fst m).
Proof.
  induction m as [|[k' p'] m IH]; simpl; [discriminate|].
  destruct (k' =? k) eqn:E.
  - apply N.eqb_eq in E. auto.
  - intro H. right. auto.
Qed.

Lemma lookup_mdelete m k k' :
  lookup (mdelete m k) k' = if k =? k' then None else lookup m k'.
Proof.
  induction m as [|[k0 p] m IH]; simpl.
  - now destruct (k =? k').
  - destruct (k0 =? k) eqn:E0; simpl.
    + apply N.eqb_eq in E0. subst k0. rewrite IH. destruct (k =? k'); reflexivity.
    + rewrite IH. destruct (k0 =? k') eqn:E1; [|reflexivity].
      apply N.eqb_eq in E1. subst k0. now rewrite N.eqb_sym, E0.
Qed.

Lemma NoDup_map_filter {A B} (f : A -> B) (g : A -> bool) l : NoDup (map f l) -> NoDup (map f (filter g l)).
Proof.
  induction l as [|h t IH]; simpl; intro N; [constructor|].
  inversion N as [|? ? Hn Hd]; subst. destruct (g h); simpl; auto.
  constructor; auto. intro Hin. apply Hn. apply in_map_iff in Hin as (x & E & Hx).
  apply filter_In in Hx as [Hx _]. apply in_map_iff. eauto.
Qed.

Lemma mdelete_notin m k : ~ In k (map fst m) -> mdelete m k = m.
Proof.
  induction m as [|[k0 p] m IH]; simpl; intro H; [reflexivity|].
  destruct (k0 =? k) eqn:E.
  - apply N.eqb_eq in E. tauto.
  - simpl. f_equal. apply IH. tauto.
Qed.

Lemma length_mdelete m k p :
  NoDup (map fst m) -> lookup m k = Some p -> S (length (mdelete m k)) = length m.
Proof.
  induction m as [|[k0 p0] m IH]; simpl; intros Hnd H; [discriminate|].
  inversion Hnd as [|? ? Hn Hd]; subst.
  destruct (k0 =? k) eqn:E; simpl.
  - apply N.eqb_eq in E. subst k0. f_equal.
    change (filter (fun e => negb (fst e =? k)) m) with (mdelete m k).
    now rewrite mdelete_notin.
  - f_equal. now apply IH.
Qed.

Lemma length_set_nth n x l : length (set_nth n x l) = length l.
Proof. revert n; induction l as [|h t IH]; intros [|n]; simpl; auto. Qed.

Lemma nth_error_set_nth_eq n x l :
  (n < length l)%nat -> nth_error (set_nth n x l) n = Some x.
Proof.
  revert n; induction l as [|h t IH]; intros [|n]; simpl; intro H; try lia; auto.
  apply IH. lia.
Qed.

Lemma nth_error_set_nth_neq n p x l :
  p <> n -> nth_error (set_nth n x l) p = nth_error l p.
Proof.
  revert n p; induction l as [|h t IH]; intros [|n] [|p]; simpl; intro H; auto; try congruence.
Qed.

Lemma filter_all_neq k (l : list desc) :
  (forall d, In d l -> dkey d <> k) -> filter (fun x => negb (dkey x =? k)) l = l.
Proof.
  induction l as [|h t IH]; simpl; intro H; [reflexivity|].
  destruct (dkey h =? k) eqn:E.
  - apply N.eqb_eq in E. exfalso. eapply H; eauto.
  - simpl. f_equal. apply IH. auto.
Qed.

(* tombstoning the unique position of key k = filtering key k out *)
Lemma filter_set_nth k : k <> 0 -> forall l pos d0,
  nth_error l pos = Some d0 -> dkey d0 = k ->
  (forall p d, nth_error l p = Some d -> dkey d = k -> p = pos) ->
  filter nonempty (set_nth pos empty_desc l) =
  filter (fun x => negb (dkey x =? k)) (filter nonempty l).
Proof.
  intros Hk. induction l as [|h t IH]; intros pos d0 Hn Hd Hu.
  - destruct pos; discriminate.
  - destruct pos as [|pos]; simpl in *.
    + injection Hn as ->.
      assert (Hne : nonempty d0 = true) by (apply nonempty_true; congruence).
      rewrite Hne. simpl. rewrite Hd, N.eqb_refl. simpl.
      symmetry. apply filter_all_neq. intros d Hin Hk'.
      apply filter_In in Hin as [Hin _].
      apply In_nth_error in Hin as [p Hp].
      specialize (Hu (S p) d Hp Hk'). discriminate.
    + assert (Hh : dkey h <> k).
      { intro E. specialize (Hu O h eq_refl E). discriminate. }
      assert (IH' := IH pos d0 Hn Hd).
      rewrite IH'.
      * destruct (nonempty h); simpl; [|reflexivity].
        apply N.eqb_neq in Hh. now rewrite Hh.
      * intros p d Hp Hk'. specialize (Hu (S p) d Hp Hk'). congruence.
Qed.

Lemma count_set_nth l pos d0 :
  nth_error l pos = Some d0 -> nonempty d0 = true ->
  S (length (filter nonempty (set_nth pos empty_desc l))) = length (filter nonempty l).
Proof.
  revert pos; induction l as [|h t IH]; intros [|pos] Hn Hd; simpl in *; try discriminate.
  - injection Hn as ->. now rewrite Hd.
  - destruct (nonempty h); simpl; [f_equal|]; now apply IH.
Qed.

Lemma remove_empty_go_spec hint : forall l j acc,
  (j + length (filter nonempty l) <= hint)%nat ->
  remove_empty_go l hint j acc = rev acc ++ filter nonempty l.
Proof.
  induction l as [|r t IH]; intros j acc H.
  - simpl. now rewrite app_nil_r.
  - cbn [remove_empty_go filter] in *.
    destruct (nonempty r) eqn:E.
    + cbn [length] in H. destruct (Nat.eqb (S j) hint) eqn:Eh.
      * apply Nat.eqb_eq in Eh.
        assert (H0 : length (filter nonempty t) = 0%nat) by lia.
        destruct (filter nonempty t); [|discriminate]. cbn [rev]. reflexivity.
      * rewrite IH by lia. cbn [rev]. rewrite <- app_assoc. reflexivity.
    + destruct (Nat.eqb j hint) eqn:Eh.
      * apply Nat.eqb_eq in Eh.
        assert (H0 : length (filter nonempty t) = 0%nat) by lia.
        destruct (filter nonempty t); [|discriminate]. now rewrite app_nil_r.
      * apply IH. lia.
Qed.

Lemma remove_empty_spec l hint :
  (length (filter nonempty l) <= hint)%nat -> remove_empty l hint = filter nonempty l.
Proof. intro H. unfold remove_empty. now rewrite remove_empty_go_spec. Qed.

Lemma remove_empty_go_prefix hint : forall l j acc,
  exists rest, rev acc ++ filter nonempty l = remove_empty_go l hint j acc ++ rest.
Proof.
  induction l as [|r t IH]; intros j acc.
  - exists []. simpl. reflexivity.
  - cbn [remove_empty_go filter]. destruct (nonempty r).
    + destruct (Nat.eqb (S j) hint).
      * exists (filter nonempty t). cbn [rev]. now rewrite <- app_assoc.
      * destruct (IH (S j) (r :: acc)) as [rest Hr]. exists rest. rewrite <- Hr. cbn [rev].
        now rewrite <- app_assoc.
    + destruct (Nat.eqb j hint).
      * exists (filter nonempty t). reflexivity.
      * apply IH.
Qed.

(* the representation invariant of applyReferrerChanges: [abs] is the list it stands for *)
Record Inv (s : astate) (abs : list desc) : Prop := {
  inv_abs : filter nonempty (a_upd s) = abs;
  inv_map : forall k p, lookup (a_map s) k = Some p ->
            exists d, nth_error (a_upd s) p = Some d /\ dkey d = k /\ k <> 0;
  inv_pos : forall p d, nth_error (a_upd s) p = Some d -> dkey d <> 0 ->
            lookup (a_map s) (dkey d) = Some p;
  inv_nodup : NoDup (map fst (a_map s));
  inv_len : length (a_map s) = length abs
}.

Lemma inv_lookup s abs k :
  Inv s abs -> has_key k abs = match lookup (a_map s) k with Some _ => true | None => false end.
Proof.
  intros [Ha Hm Hp _ _]. destruct (lookup (a_map s) k) as [p|] eqn:E.
  - destruct (Hm k p E) as (d & Hn & Hk & Hz).
    apply has_key_In, in_map_iff. exists d. split; auto.
    rewrite <- Ha. apply filter_In. split; [eapply nth_error_In; eauto|apply nonempty_true; congruence].
  - destruct (has_key k abs) eqn:H; auto. apply has_key_In, in_map_iff in H as (d & Hk & Hin).
    rewrite <- Ha in Hin. apply filter_In in Hin as [Hin Hne].
    apply In_nth_error in Hin as [p Hp']. apply nonempty_true in Hne.
    rewrite <- Hk, (Hp p d Hp' Hne) in E. discriminate.
Qed.

Lemma inv_init : Inv (mkA [] [] false) [].
Proof.
  constructor; simpl; auto; try constructor.
  - intros k p H. discriminate.
  - intros [|p] d H; discriminate.
Qed.

Lemma inv_append s abs r req :
  Inv s abs -> dkey r <> 0 -> lookup (a_map s) (dkey r) = None ->
  Inv (mkA (a_upd s ++ [r]) ((dkey r, length (a_upd s)) :: a_map s) req) (abs ++ [r]).
Proof.
  intros [Ha Hm Hp Hnd Hl] Hz Hnone. constructor; simpl.
  - rewrite filter_app. simpl. apply nonempty_true in Hz. rewrite Hz. now rewrite Ha.
  - intros k p H. destruct (dkey r =? k) eqn:E.
    + apply N.eqb_eq in E. injection H as <-. exists r. repeat split; auto; try congruence.
      rewrite nth_error_app2 by lia. now rewrite Nat.sub_diag.
    + destruct (Hm k p H) as (d & Hn & Hk & Hz'). exists d. repeat split; auto.
      rewrite nth_error_app1; auto. apply nth_error_Some. congruence.
  - intros p d Hn Hd.
    destruct (Nat.lt_ge_cases p (length (a_upd s))) as [Hlt|Hge].
    + rewrite nth_error_app1 in Hn by auto.
      pose proof (Hp p d Hn Hd) as Hl'.
      destruct (dkey r =? dkey d) eqn:E; [|exact Hl'].
      apply N.eqb_eq in E. rewrite E in Hnone. congruence.
    + rewrite nth_error_app2 in Hn by auto.
      destruct (p - length (a_upd s))%nat as [|q] eqn:Eq; simpl in Hn.
      * injection Hn as <-. rewrite N.eqb_refl. f_equal. lia.
      * destruct q; discriminate.
  - constructor; auto. now apply lookup_None_notin.
  - rewrite app_length. simpl. lia.
Qed.

Lemma inv_remove s abs k pos req :
  Inv s abs -> lookup (a_map s) k = Some pos ->
  Inv (mkA (set_nth pos empty_desc (a_upd s)) (mdelete (a_map s) k) req)
      (filter (fun x => negb (dkey x =? k)) abs).
Proof.
  intros [Ha Hm Hp Hnd Hl] Hlk.
  destruct (Hm k pos Hlk) as (d0 & Hn0 & Hk0 & Hz).
  assert (Hu : forall p d, nth_error (a_upd s) p = Some d -> dkey d = k -> p = pos).
  { intros p d Hn Hk. assert (dkey d <> 0) by congruence.
    pose proof (Hp p d Hn H) as Hl'. rewrite Hk in Hl'. congruence. }
  assert (Hlt : (pos < length (a_upd s))%nat) by (apply nth_error_Some; congruence).
  constructor; simpl.
  - rewrite <- Ha. eapply filter_set_nth; eauto.
  - intros k' p H. rewrite lookup_mdelete in H.
    destruct (k =? k') eqn:E; [discriminate|]. apply N.eqb_neq in E.
    destruct (Hm k' p H) as (d & Hn & Hk & Hz'). exists d. repeat split; auto.
    rewrite nth_error_set_nth_neq; auto. intro; subst p. congruence.
  - intros p d Hn Hd. destruct (Nat.eq_dec p pos) as [->|Hne].
    + rewrite nth_error_set_nth_eq in Hn by auto. injection Hn as <-. simpl in Hd. congruence.
    + rewrite nth_error_set_nth_neq in Hn by auto.
      rewrite lookup_mdelete. destruct (k =? dkey d) eqn:E.
      * apply N.eqb_eq in E. exfalso. apply Hne. eapply Hu; eauto.
      * now apply Hp.
  - now apply NoDup_map_filter.
  - assert (H1 := length_mdelete _ _ _ Hnd Hlk).
    assert (Hne0 : nonempty d0 = true) by (apply nonempty_true; congruence).
    assert (H2 := count_set_nth _ _ _ Hn0 Hne0).
    rewrite <- Ha.
    rewrite <- (filter_set_nth k Hz (a_upd s) pos d0 Hn0 Hk0 Hu).
    rewrite Ha in H2. lia.
Qed.

Lemma scan_step_inv s abs r :
  Inv s abs ->
  Inv (scan_step s r) (if is_empty r || has_key (dkey r) abs then abs else abs ++ [r]).
Proof.
  intro I. unfold scan_step. rewrite (inv_lookup s abs (dkey r) I). destruct (is_empty r) eqn:Ee; simpl.
  - destruct I; constructor; auto.
  - destruct (lookup (a_map s) (dkey r)) as [p|] eqn:El; [destruct I; constructor; auto|].
    apply inv_append; auto. unfold is_empty in Ee. now apply N.eqb_neq.
Qed.

Lemma scan_inv l : forall s abs,
  Inv s abs -> Inv (fold_left scan_step l s) (clean_acc l abs).
Proof.
  induction l as [|r t IH]; intros s abs I; simpl; auto.
  pose proof (scan_step_inv s abs r I) as I'.
  destruct (is_empty r || has_key (dkey r) abs); apply IH; exact I'.
Qed.

(* the updateRequired flag after the first loop *)
Fixpoint dirty (l acc : list desc) : bool :=
  match l with
  | [] => false
  | r :: t => if is_empty r || has_key (dkey r) acc then true else dirty t (acc ++ [r])
  end.

Lemma scan_step_req_true s r : a_req s = true -> a_req (scan_step s r) = true.
Proof.
  intro H. unfold scan_step. destruct (is_empty r); simpl; auto.
  destruct (lookup (a_map s) (dkey r)); simpl; auto.
Qed.

Lemma scan_req_true l : forall s, a_req s = true -> a_req (fold_left scan_step l s) = true.
Proof. induction l as [|r t IH]; intros s H; simpl; auto. apply IH. now apply scan_step_req_true. Qed.

Lemma scan_req l : forall s abs,
  Inv s abs -> a_req (fold_left scan_step l s) = a_req s || dirty l abs.
Proof.
  induction l as [|r t IH]; intros s abs I; simpl.
  - now rewrite orb_false_r.
  - pose proof (scan_step_inv s abs r I) as I'. rewrite (inv_lookup s abs (dkey r) I) in *.
    unfold scan_step in *. destruct (is_empty r); simpl in *.
    + rewrite scan_req_true; [now rewrite orb_true_r | reflexivity].
    + destruct (lookup (a_map s) (dkey r)).
      * rewrite scan_req_true; [now rewrite orb_true_r | reflexivity].
      * now rewrite (IH _ _ I').
Qed.

Lemma dirty_false l : forall acc,
  dirty l acc = false <->
  Forall (fun d => nonempty d = true) l /\ NoDup (keys l) /\ (forall k, In k (keys l) -> has_key k acc = false).
Proof.
  induction l as [|r t IH]; intro acc; simpl.
  - split; [intros _|reflexivity]. repeat split; try constructor. intros k [].
  - assert (Hk : forall k, has_key k (acc ++ [r]) = false <-> has_key k acc = false /\ dkey r <> k).
    { intro k. rewrite has_key_app, orb_false_iff. unfold has_key at 2. simpl. now rewrite orb_false_r, N.eqb_neq. }
    destruct (is_empty r) eqn:Ee; simpl.
    { split; [discriminate|]. intros (F & _). inversion F as [|? ? Fr _]. unfold nonempty in Fr. now rewrite Ee in Fr. }
    destruct (has_key (dkey r) acc) eqn:Eh.
    { split; [discriminate|]. intros (_ & _ & K). rewrite K in Eh by auto. discriminate. }
    rewrite IH. split.
    + intros (F & N & K). split; [|split].
      * constructor; auto. unfold nonempty. now rewrite Ee.
      * constructor; auto. intro Hin. now apply K, Hk in Hin.
      * intros k [<-|Hin]; auto. now apply K, Hk in Hin.
    + intros (F & N & K). inversion F; inversion N; subst. repeat split; auto.
      intros k Hin. apply Hk. split; [auto|]. now intros <-.
Qed.

Definition changes_nonempty (cs : list change) : Prop :=
  Forall (fun c => dkey (cdesc c) <> 0) cs.

Lemma change_step_inv s abs c :
  dkey (cdesc c) <> 0 -> Inv s abs -> Inv (change_step s c) (spec_step abs c).
Proof.
  intros Hz I. pose proof (inv_lookup s abs (dkey (cdesc c)) I) as H.
  destruct c as [d|d]; simpl in *; destruct (lookup (a_map s) (dkey d)) as [p|] eqn:El; rewrite ?H; auto.
  - now apply inv_append.
  - now apply inv_remove.
  - rewrite filter_all_neq; auto.
    intros x Hin E. assert (has_key (dkey d) abs = true); [|congruence].
    apply has_key_In. unfold keys. rewrite in_map_iff. eauto.
Qed.

Lemma change_step_req s c : a_req (change_step s c) = a_req s.
Proof.
  destruct c as [d|d]; simpl; destruct (lookup (a_map s) (dkey d)); reflexivity.
Qed.

Lemma changes_inv cs : forall s abs,
  changes_nonempty cs -> Inv s abs ->
  Inv (fold_left change_step cs s) (fold_left spec_step cs abs) /\
  a_req (fold_left change_step cs s) = a_req s.
Proof.
  induction cs as [|c t IH]; intros s abs F I; simpl; auto.
  inversion F as [|? ? Fc Ft]; subst.
  destruct (IH (change_step s c) (spec_step abs c) Ft (change_step_inv s abs c Fc I)) as [I' R].
  split; auto. now rewrite R, change_step_req.
Qed.

Lemma spec_step_has k l c :
  has_key k (spec_step l c) = member_step k (has_key k l) c.
Proof.
  destruct c as [d|d]; simpl.
  - destruct (has_key (dkey d) l) eqn:E.
    + destruct (dkey d =? k) eqn:Ek; auto. apply N.eqb_eq in Ek. now subst.
    + rewrite has_key_app. unfold has_key at 2. simpl. rewrite orb_false_r.
      destruct (dkey d =? k); [apply orb_true_r | apply orb_false_r].
  - induction l as [|h t IH]; simpl.
    + now destruct (dkey d =? k).
    + destruct (dkey h =? dkey d) eqn:E1; simpl.
      * apply N.eqb_eq in E1. rewrite IH. rewrite E1.
        unfold has_key. simpl. fold (has_key k t).
        destruct (dkey d =? k); reflexivity.
      * unfold has_key in *. simpl. rewrite IH.
        destruct (dkey d =? k) eqn:E2; [|reflexivity].
        apply N.eqb_eq in E2. subst k. rewrite E1. reflexivity.
Qed.

Lemma spec_fold_has k cs : forall l,
  has_key k (fold_left spec_step cs l) = member_after k (has_key k l) cs.
Proof.
  unfold member_after. induction cs as [|c t IH]; intro l; simpl; auto.
  now rewrite IH, spec_step_has.
Qed.

Definition wf (l : list desc) : Prop :=
  NoDup (keys l) /\ Forall (fun d => nonempty d = true) l.

Lemma NoDup_app_one {A} (l : list A) x : NoDup l -> ~ In x l -> NoDup (l ++ [x]).
Proof.
  induction l as [|h t IH]; simpl; intros N H.
  - constructor; [simpl; tauto|constructor].
  - inversion N as [|? ? Hn Hd]; subst. constructor.
    + rewrite in_app_iff. simpl. intros [H1|[H1|[]]]; auto.
    + apply IH; auto.
Qed.

Lemma wf_snoc l d : wf l -> has_key (dkey d) l = false -> nonempty d = true -> wf (l ++ [d]).
Proof.
  intros [N F] Hk Hd. split.
  - unfold keys. rewrite map_app. apply NoDup_app_one; auto.
    intro Hin. apply has_key_In in Hin. congruence.
  - apply Forall_app. auto.
Qed.

Lemma spec_step_wf l c : dkey (cdesc c) <> 0 -> wf l -> wf (spec_step l c).
Proof.
  intros Hz [N F]. destruct c as [d|d]; simpl in *.
  - destruct (has_key (dkey d) l) eqn:E; [split; auto|]. apply wf_snoc; [split; auto|exact E|now apply nonempty_true].
  - split.
    + now apply NoDup_map_filter.
    + apply Forall_forall. intros x Hx. apply filter_In in Hx as [Hx _].
      rewrite Forall_forall in F. auto.
Qed.

Lemma spec_fold_wf cs : forall l, changes_nonempty cs -> wf l -> wf (fold_left spec_step cs l).
Proof.
  induction cs as [|c t IH]; intros l F W; simpl; auto.
  inversion F; subst. apply IH; auto. now apply spec_step_wf.
Qed.

Lemma clean_acc_wf l : forall acc, wf acc -> wf (clean_acc l acc).
Proof.
  induction l as [|r t IH]; intros acc W; simpl; auto.
  destruct (is_empty r) eqn:Ee; simpl; auto.
  destruct (has_key (dkey r) acc) eqn:Eh; auto.
  apply IH, wf_snoc; auto. unfold nonempty. now rewrite Ee.
Qed.

Lemma clean_wf l : wf (clean l).
Proof. apply clean_acc_wf. split; constructor. Qed.

Lemma has_key_cons k r t : has_key k (r :: t) = (dkey r =? k) || has_key k t.
Proof. reflexivity. Qed.

Lemma has_key_nil k : has_key k [] = false.
Proof. reflexivity. Qed.

Lemma clean_acc_has k l : forall acc,
  has_key k (clean_acc l acc) = has_key k acc || (negb (k =? 0) && has_key k l).
Proof.
  induction l as [|r t IH]; intro acc; cbn [clean_acc].
  - rewrite has_key_nil. now rewrite andb_false_r, orb_false_r.
  - rewrite has_key_cons.
    destruct (is_empty r) eqn:Ee; cbn [orb].
    + rewrite IH. unfold is_empty in Ee. apply N.eqb_eq in Ee.
      destruct (dkey r =? k) eqn:E; cbn [orb]; auto.
      apply N.eqb_eq in E. rewrite <- E, Ee. reflexivity.
    + unfold is_empty in Ee. apply N.eqb_neq in Ee.
      destruct (has_key (dkey r) acc) eqn:Eh.
      * rewrite IH. destruct (dkey r =? k) eqn:E; cbn [orb]; auto.
        apply N.eqb_eq in E. subst k. rewrite Eh. reflexivity.
      * rewrite IH, has_key_app, has_key_cons, has_key_nil, orb_false_r.
        destruct (dkey r =? k) eqn:E; cbn [orb].
        -- apply N.eqb_eq in E. subst k. apply N.eqb_neq in Ee. rewrite Ee. cbn [negb andb].
           now rewrite !orb_true_r.
        -- now rewrite orb_false_r.
Qed.

Lemma clean_has k l : has_key k (clean l) = negb (k =? 0) && has_key k l.
Proof. unfold clean. now rewrite clean_acc_has. Qed.

Lemma apply_final old cs :
  changes_nonempty cs ->
  let s2 := fold_left change_step cs (fold_left scan_step old (mkA [] [] false)) in
  Inv s2 (spec_apply old cs) /\ a_req s2 = dirty old [].
Proof.
  intros F s2. pose proof (scan_inv old _ _ inv_init) as I1.
  destruct (changes_inv cs _ _ F I1) as [I2 R]. split; [exact I2|].
  unfold s2. rewrite R. now rewrite (scan_req old _ _ inv_init).
Qed.

Lemma apply_updated_spec old cs l :
  changes_nonempty cs -> apply_changes old cs = Updated l -> l = spec_apply old cs.
Proof.
  intros F H. destruct (apply_final old cs F) as [I R]. unfold apply_changes in H.
  set (s2 := fold_left change_step cs (fold_left scan_step old (mkA [] [] false))) in *.
  assert (E : remove_empty (a_upd s2) (length (a_map s2)) = spec_apply old cs).
  { rewrite remove_empty_spec; [apply (inv_abs _ _ I)|].
    rewrite (inv_abs _ _ I), (inv_len _ _ I). lia. }
  destruct (negb (a_req s2) && Nat.eqb (length (a_map s2)) (length old)).
  - destruct (forallb _ old); [discriminate|]. injection H as <-. exact E.
  - injection H as <-. exact E.
Qed.

Lemma apply_noupdate_iff old cs :
  changes_nonempty cs ->
  (apply_changes old cs = NoUpdate <->
   wf old /\ forall k, In k (keys old) <-> In k (keys (spec_apply old cs))).
Proof.
  intros F. destruct (apply_final old cs F) as [I R]. unfold apply_changes.
  set (s2 := fold_left change_step cs (fold_left scan_step old (mkA [] [] false))) in *.
  assert (Wn : wf (spec_apply old cs)) by (apply spec_fold_wf; auto; apply clean_wf).
  assert (Hall : forallb (fun r => match lookup (a_map s2) (dkey r) with Some _ => true | None => false end) old = true
                 <-> forall k, In k (keys old) -> In k (keys (spec_apply old cs))).
  { rewrite forallb_forall. unfold keys at 1. split.
    - intros H k Hin. apply in_map_iff in Hin as (d & <- & Hd).
      apply has_key_In. rewrite (inv_lookup _ _ (dkey d) I). now apply H.
    - intros H d Hd. rewrite <- (inv_lookup _ _ (dkey d) I). apply has_key_In, H. now apply in_map. }
  rewrite R, (inv_len _ _ I). split.
  - intro H. destruct (dirty old []) eqn:Ed; simpl in H; [discriminate|].
    destruct (Nat.eqb (length (spec_apply old cs)) (length old)) eqn:El; [|discriminate].
    destruct (forallb _ old) eqn:Ef; [|discriminate].
    apply Nat.eqb_eq in El. apply dirty_false in Ed as (Fo & No & _).
    split; [split; auto|]. intro k. split; [now apply Hall|].
    apply (NoDup_length_incl No).
    + unfold keys. rewrite !map_length. lia.
    + intros x. now apply Hall.
  - intros [[No Fo] Hk].
    rewrite (proj2 (dirty_false old [])) by (repeat split; auto). simpl.
    assert (El : length (spec_apply old cs) = length old).
    { destruct Wn as [Nn _]. rewrite <- (map_length dkey (spec_apply old cs)), <- (map_length dkey old).
      apply Nat.le_antisymm; apply NoDup_incl_length; auto; intros x Hx; now apply Hk. }
    rewrite El, Nat.eqb_refl.
    assert (Ef : forallb (fun r => match lookup (a_map s2) (dkey r) with Some _ => true | None => false end) old = true).
    { apply Hall. intros k Hin. now apply Hk. }
    now rewrite Ef.
Qed.

Lemma spec_apply_member old cs k :
  In k (keys (spec_apply old cs)) <->
  member_after k (negb (k =? 0) && has_key k old) cs = true.
Proof.
  rewrite <- has_key_In. unfold spec_apply. now rewrite spec_fold_has, clean_has.
Qed.

Lemma spec_apply_wf old cs : changes_nonempty cs -> wf (spec_apply old cs).
Proof. intro F. apply spec_fold_wf; auto. apply clean_wf. Qed.

(* survivors keep their relative order: the result is the sub-sequence of the
   cleaned old list that is never removed, followed by additions *)
Lemma spec_step_survivors l c k1 k2 :
  (forall d, c = Remove d -> dkey d <> k1 /\ dkey d <> k2) ->
  forall l1 l2 l3 a b, l = l1 ++ a :: l2 ++ b :: l3 -> dkey a = k1 -> dkey b = k2 ->
  exists m1 m2 m3, spec_step l c = m1 ++ a :: m2 ++ b :: m3.
Proof.
  intros Hc l1 l2 l3 a b -> Ha Hb. destruct c as [d|d]; simpl.
  - destruct (has_key _ _).
    + eauto.
    + exists l1, l2, (l3 ++ [d]). rewrite <- !app_assoc. simpl. rewrite <- app_assoc. reflexivity.
  - destruct (Hc d eq_refl) as [H1 H2].
    set (f := fun x => negb (dkey x =? dkey d)).
    exists (filter f l1), (filter f l2), (filter f l3).
    rewrite filter_app. simpl. rewrite filter_app. simpl. unfold f at 2 4.
    rewrite Ha, Hb.
    assert (E1 : (k1 =? dkey d) = false) by (apply N.eqb_neq; congruence).
    assert (E2 : (k2 =? dkey d) = false) by (apply N.eqb_neq; congruence).
    now rewrite E1, E2.
Qed.

Lemma apply_set_semantics old cs l :
  changes_nonempty cs -> apply_changes old cs = Updated l ->
  l = spec_apply old cs /\
  (NoDup (keys l) /\ Forall (fun d => nonempty d = true) l) /\
  (forall k, In k (keys l) <-> member_after k (negb (k =? 0) && has_key k old) cs = true).
Proof.
  intros F H. pose proof (apply_updated_spec old cs l F H) as E. subst l.
  split; [reflexivity|]. split; [exact (spec_apply_wf old cs F)|exact (spec_apply_member old cs)].
Qed.

Lemma referrer_art_api k art cfg : referrer_art k art cfg = api_art k art cfg.
Proof.
  unfold referrer_art, api_art.
  destruct k; cbv [kind_num table_fallback GC14.referrer_art_table]; simpl;
    destruct (art =? 0) eqn:E; simpl; auto; apply N.eqb_eq in E; congruence.
Qed.

(* every entry of the result is an entry of the old index or the descriptor of an
   Add change, unchanged (artifact type and annotations travel with it) *)
Lemma spec_fold_origin d cs : forall l,
  In d (fold_left spec_step cs l) -> In d l \/ In (Add d) cs.
Proof.
  induction cs as [|c t IH]; intros l H; simpl in *; auto.
  destruct (IH _ H) as [H1|H1]; [|auto].
  destruct c as [x|x]; simpl in H1.
  - destruct (has_key (dkey x) l); auto. apply in_app_iff in H1 as [H1|[<-|[]]]; auto.
  - apply filter_In in H1. tauto.
Qed.

Lemma clean_acc_incl d l : forall acc, In d (clean_acc l acc) -> In d acc \/ In d l.
Proof.
  induction l as [|r t IH]; intros acc H; simpl in *; auto.
  destruct (is_empty r || has_key (dkey r) acc).
  - destruct (IH _ H); auto.
  - destruct (IH _ H) as [H1|H1]; auto. apply in_app_iff in H1 as [H1|[<-|[]]]; auto.
Qed.

Lemma spec_apply_origin d old cs : In d (spec_apply old cs) -> In d old \/ In (Add d) cs.
Proof.
  intro H. apply spec_fold_origin in H as [H|H]; auto.
  apply clean_acc_incl in H as [[]|H]. auto.
Qed.

Lemma cleaned_listing x :
  let c := match apply_changes x [] with Updated c => c | NoUpdate => x end in
  wf c /\ forall k, In k (keys c) <-> (negb (k =? 0) && has_key k x) = true.
Proof.
  simpl. destruct (apply_changes x []) as [|c] eqn:E.
  - apply (apply_noupdate_iff x [] (Forall_nil _)) in E as [W K]. split; auto.
    intro k. rewrite K. apply spec_apply_member.
  - destruct (apply_set_semantics x [] c (Forall_nil _) E) as (_ & W & M). split; auto.
Qed.

Lemma list_referrers_spec r art :
  NoDup (keys (list_referrers r art)) /\
  Forall (fun d => nonempty d = true) (list_referrers r art) /\
  (forall d, In d (list_referrers r art) -> art = 0 \/ dart d = art) /\
  (forall k, In k (keys (list_referrers r 0)) <->
             (negb (k =? 0) && has_key k (match r with Some x => x | None => [] end)) = true).
Proof.
  unfold list_referrers. set (x := match r with Some x => x | None => [] end).
  destruct (cleaned_listing x) as [[N F] M]. simpl in M.
  set (c := match apply_changes x [] with Updated c => c | NoUpdate => x end) in *.
  split; [|split; [|split]].
  - unfold filter_referrers. destruct (art =? 0); [exact N|now apply NoDup_map_filter].
  - apply Forall_forall. intros d Hd. apply filter_referrers_spec in Hd as [Hd _].
    rewrite Forall_forall in F. auto.
  - intros d Hd. now apply filter_referrers_spec in Hd as [_ Hd].
  - exact M.
Qed.
