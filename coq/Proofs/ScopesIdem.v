(* C16 -- CleanScopes: the single-scope fast path agrees with the general path,
   hence the result depends only on the set of scopes; CleanScopes is idempotent;
   the space-joined cache key determines the cleaned scope list. *)
From Coq Require Import Sorting.Sorted Sorting.Permutation.
From Oras Require Import Base.Prelude Model.Scopes Proofs.Scopes.

Lemma last_none c s : last_index_of c s = None <-> contains c s = false.
Proof.
  induction s as [|d s IH]; simpl; [tauto|].
  destruct (last_index_of c s) as [i|].
  - split; [discriminate|]. intro H. apply orb_false_iff in H as [_ H]. apply IH in H. discriminate.
  - destruct (d =? c); simpl; split; try discriminate; intro; auto. now apply IH.
Qed.

Lemma last_app c p r :
  last_index_of c (p ++ c :: r) =
  match last_index_of c r with
  | Some j => Some (length p + S j)%nat
  | None => Some (length p)
  end.
Proof.
  induction p as [|d p IH]; simpl.
  - destruct (last_index_of c r); auto. now rewrite N.eqb_refl.
  - rewrite IH. destruct (last_index_of c r); auto.
Qed.

Lemma last_some c s i :
  last_index_of c s = Some i ->
  s = firstn i s ++ c :: skipn (S i) s /\ contains c (skipn (S i) s) = false /\ length (firstn i s) = i.
Proof.
  revert i; induction s as [|d s IH]; simpl; intros i H; [discriminate|].
  destruct (last_index_of c s) as [j|] eqn:E.
  - injection H as <-. destruct (IH j eq_refl) as (A & B & C). simpl. repeat split; auto. now f_equal.
  - destruct (d =? c) eqn:Ed; [|discriminate]. injection H as <-. apply N.eqb_eq in Ed. subst.
    simpl. repeat split; auto. now apply last_none.
Qed.

Lemma index_some_len c s i :
  index_of c s = Some i ->
  s = firstn i s ++ c :: skipn (S i) s /\ contains c (firstn i s) = false /\ length (firstn i s) = i.
Proof.
  intro H. destruct (index_of_some _ _ _ H) as (A & _ & B). repeat split; auto.
  pose proof (index_of_app_fresh c (firstn i s) (skipn (S i) s) A) as L.
  rewrite <- B in L. rewrite H in L. now injection L.
Qed.

Lemma contains_cons c d s : contains c (d :: s) = (d =? c) || contains c s.
Proof. reflexivity. Qed.

Definition nonempty (x : str) : bool := negb (is_empty x).

Lemma classify_cases s :
  (index_of c_colon s = None /\ classify s = Pass s) \/
  (exists t r, s = t ++ c_colon :: r /\ contains c_colon t = false /\ contains c_colon r = false /\
               index_of c_colon s = Some (length t) /\ last_index_of c_colon s = Some (length t) /\
               classify s = Pass s) \/
  (exists t n a, s = t ++ c_colon :: n ++ c_colon :: a /\
                 contains c_colon t = false /\ contains c_colon a = false /\
                 index_of c_colon s = Some (length t) /\
                 last_index_of c_colon s = Some (length t + S (length n))%nat /\
                 classify s = if is_empty a then Drop
                              else Keyed t n (filter (fun x => negb (is_empty x)) (split_on c_comma a))).
Proof.
  unfold classify. destruct (index_of c_colon s) as [i|] eqn:Ei; [|left; auto].
  right. destruct (index_some_len _ _ _ Ei) as (Es & Ft & Lt).
  set (t := firstn i s) in *. set (rest := skipn (S i) s) in *. clearbody t rest. subst i s.
  rewrite last_app. destruct (last_index_of c_colon rest) as [j|] eqn:El.
  - right. destruct (last_some _ _ _ El) as (Er & Fa & Ln).
    set (n := firstn j rest) in *. set (a := skipn (S j) rest) in *. clearbody n a. subst j rest.
    exists t, n, a. now repeat split.
  - left. exists t, rest. apply last_none in El. now repeat split.
Qed.

Lemma split_fresh c x : contains c x = false -> split_on c x = [x].
Proof.
  induction x as [|d x IH]; simpl; auto. intro H. apply orb_false_iff in H as [H1 H2].
  rewrite H1, (IH H2). reflexivity.
Qed.

Lemma split_app_fresh c x r : contains c x = false -> split_on c (x ++ c :: r) = x :: split_on c r.
Proof.
  induction x as [|d x IH]; simpl; intro H.
  - now rewrite N.eqb_refl.
  - apply orb_false_iff in H as [H1 H2]. rewrite H1, (IH H2). reflexivity.
Qed.

Lemma split_join c m :
  m <> [] -> (forall x, In x m -> contains c x = false) -> split_on c (join [c] m) = m.
Proof.
  induction m as [|x m IH]; intros Hne Hf; [congruence|].
  destruct m as [|y m'].
  - simpl. apply split_fresh. apply Hf. now left.
  - change (join [c] (x :: y :: m')) with (x ++ c :: join [c] (y :: m')).
    rewrite split_app_fresh by (apply Hf; now left).
    f_equal. apply IH; [discriminate|]. intros z Hz. apply Hf. now right.
Qed.

Lemma split_pieces c a x d : In x (split_on c a) ->
  contains c x = false /\ (contains d a = false -> contains d x = false).
Proof.
  revert x; induction a as [|e a IH]; simpl; intros x H.
  - destruct H as [<-|[]]. auto.
  - rewrite orb_false_iff. destruct (e =? c) eqn:E.
    + destruct H as [<-|H]; [auto|]. destruct (IH _ H). tauto.
    + destruct (split_on c a) as [|w ws].
      * destruct H as [<-|[]]. simpl. rewrite E, !orb_false_r. tauto.
      * destruct H as [<-|H].
        -- destruct (IH w (or_introl eq_refl)) as [A B]. simpl. rewrite E, A. split; [reflexivity|].
           intros [-> F]. exact (B F).
        -- destruct (IH x (or_intror H)). tauto.
Qed.

Lemma contains_join d sep m :
  contains d sep = false -> (forall x, In x m -> contains d x = false) -> contains d (join sep m) = false.
Proof.
  intros Hs. induction m as [|x m IH]; intro Hf; auto.
  destruct m as [|y m'].
  - simpl. apply Hf. now left.
  - change (join sep (x :: y :: m')) with (x ++ sep ++ join sep (y :: m')).
    rewrite !contains_app, Hs, (Hf x (or_introl eq_refl)). simpl.
    apply IH. intros z Hz. apply Hf. now right.
Qed.

Lemma join_nonempty sep x m : is_empty x = false -> is_empty (join sep (x :: m)) = false.
Proof.
  intro H. destruct m as [|y m']; [exact H|].
  change (join sep (x :: y :: m')) with (x ++ sep ++ join sep (y :: m')). destruct x; [discriminate | reflexivity].
Qed.

Definition good_act (x : str) : Prop :=
  is_empty x = false /\ contains c_comma x = false /\ contains c_colon x = false.

Lemma classify_keyed s t n acts :
  classify s = Keyed t n acts ->
  exists a, s = t ++ c_colon :: n ++ c_colon :: a /\ contains c_colon t = false /\
            contains c_colon a = false /\ acts = filter nonempty (split_on c_comma a).
Proof.
  intro Hc. destruct (classify_cases s) as [(_ & E)|[(t0 & r & _ & _ & _ & _ & _ & E)|
    (t0 & n0 & a & Es & Ft & Fa & _ & _ & E)]]; try congruence.
  rewrite Hc in E. destruct (is_empty a); [discriminate|]. injection E as -> -> ->. eauto.
Qed.

Lemma keyed_parts d s t n acts :
  classify s = Keyed t n acts -> contains d s = false ->
  contains d t = false /\ contains d n = false /\ forall x, In x acts -> contains d x = false.
Proof.
  intros Hc F. destruct (classify_keyed _ _ _ _ Hc) as (a & -> & _ & _ & ->).
  rewrite contains_app, contains_cons, contains_app, contains_cons in F.
  repeat (apply orb_false_iff in F as [? F]). repeat split; auto.
  intros x Hx. apply filter_In in Hx as [Hx _]. now apply (split_pieces c_comma a x d Hx).
Qed.

Lemma keyed_acts_good s t n acts x :
  classify s = Keyed t n acts -> In x acts -> good_act x /\ contains c_colon t = false.
Proof.
  intros Hc Hx. destruct (classify_keyed _ _ _ _ Hc) as (a & _ & Ft & Fa & ->).
  apply filter_In in Hx as [Hx Hne]. destruct (split_pieces _ _ _ c_colon Hx) as [A B].
  repeat split; auto. now apply negb_true_iff in Hne.
Qed.

Lemma merge_nonempty A : A <> [] -> merge_actions A <> [].
Proof.
  intro H. unfold merge_actions. destruct (existsb is_star A); [discriminate|].
  destruct A as [|a A']; [congruence|]. intro E.
  assert (Hin : In a (canon (a :: A'))) by (apply canon_in; now left).
  unfold canon in Hin. rewrite E in Hin. destruct Hin.
Qed.

Lemma merge_subset A x : In x (merge_actions A) -> In x A \/ x = [c_star].
Proof.
  unfold merge_actions. destruct (existsb is_star A).
  - intros [<-|[]]. now right.
  - intro H. left. exact (proj1 (canon_in x A) H).
Qed.

Lemma merge_idem A : merge_actions (merge_actions A) = merge_actions A.
Proof.
  unfold merge_actions. destruct (existsb is_star A) eqn:Es; [reflexivity|]. fold (canon A).
  rewrite <- (existsb_same is_star A (canon A)), Es by (intro x; symmetry; apply canon_in).
  apply canon_id, canon_ssorted.
Qed.

Lemma classify_rebuilt t n m :
  contains c_colon t = false -> m <> [] -> (forall x, In x m -> good_act x) ->
  classify (t ++ [c_colon] ++ n ++ [c_colon] ++ join [c_comma] m) = Keyed t n m.
Proof.
  intros Ft Hne Hg.
  assert (Fj : contains c_colon (join [c_comma] m) = false).
  { apply contains_join; [reflexivity|]. intros x Hx. apply Hg, Hx. }
  unfold classify. simpl app.
  rewrite (index_of_app_fresh c_colon t _ Ft).
  rewrite firstn_app_exact, skipn_S_app.
  rewrite last_app. replace (last_index_of c_colon (join [c_comma] m)) with (@None nat)
    by (symmetry; now apply last_none).
  rewrite firstn_app_exact, skipn_S_app.
  assert (Ej : is_empty (join [c_comma] m) = false)
    by (destruct m as [|x m']; [congruence | apply join_nonempty, Hg; now left]).
  rewrite Ej. f_equal.
  rewrite split_join; auto; [|intros x Hx; apply Hg, Hx].
  clear -Hg. induction m as [|x m IH]; auto. simpl.
  destruct (Hg x (or_introl eq_refl)) as (E & _). rewrite E. simpl. f_equal.
  apply IH. intros z Hz. apply Hg. now right.
Qed.

Definition merge' (A : list str) : list str :=
  match A with [] => [] | _ => merge_actions A end.

Lemma existsb_star_filter S : existsb is_star (filter nonempty S) = existsb is_star S.
Proof.
  induction S as [|x S IH]; simpl; auto.
  destruct (nonempty x) eqn:E; simpl; rewrite IH; auto.
  destruct (is_star x) eqn:Es; auto. apply str_eqb_spec in Es. now subst x.
Qed.

Lemma str_leb_cons_nil c x : str_leb (c :: x) [] = false.
Proof. reflexivity. Qed.

Lemma drop_empty_canon S :
  match canon S with [] :: rest => rest | c => c end = canon (filter nonempty S).
Proof.
  pose proof (canon_ssorted S) as SS.
  assert (M : forall x, In x (canon S) <-> In x S) by (intro; apply canon_in).
  apply ssorted_ext; [| apply canon_ssorted |].
  - destruct (canon S) as [|[|c0 c'] rest]; auto. now apply StronglySorted_inv in SS.
  - intro x. rewrite canon_in, filter_In, <- M. unfold nonempty.
    destruct (canon S) as [|[|c0 c'] rest] eqn:E.
    + simpl. tauto.
    + apply StronglySorted_inv in SS as [_ F]. rewrite Forall_forall in F. split.
      * intro Hx. split; [now right|]. destruct (F _ Hx) as [_ N]. destruct x; [congruence | reflexivity].
      * intros [[<-|Hx] Hn]; [discriminate | exact Hx].
    + split; [|tauto]. intro Hx. split; auto.
      destruct x as [|x0 x']; [|reflexivity]. exfalso.
      destruct Hx as [Hx|Hx]; [discriminate|].
      apply StronglySorted_inv in SS as [_ F]. rewrite Forall_forall in F.
      destruct (F _ Hx) as [L _]. simpl in L. discriminate.
Qed.

Lemma clean_actions_spec S : clean_actions S = merge' (filter nonempty S).
Proof.
  destruct S as [|x [|y S']].
  - reflexivity.
  - simpl. unfold nonempty. destruct (is_empty x) eqn:E; simpl; auto.
    unfold merge_actions. simpl. destruct (is_star x) eqn:Es; simpl.
    + unfold is_star in Es. apply str_eqb_spec in Es. now subst.
    + reflexivity.
  - set (S := x :: y :: S').
    change (clean_actions S) with
      (if existsb is_star (isort S) then [[c_star]]
       else match compact (isort S) with [] :: rest => rest | c => c end).
    assert (E1 : existsb is_star (isort S) = existsb is_star S).
    { apply existsb_same. intro z. apply isort_in. }
    rewrite E1. fold (canon S). rewrite drop_empty_canon.
    unfold merge'. destruct (filter nonempty S) as [|a A] eqn:EF.
    + rewrite <- (existsb_star_filter S), EF. reflexivity.
    + unfold merge_actions. rewrite <- EF, existsb_star_filter.
      destruct (existsb is_star S); reflexivity.
Qed.

Lemma canon_single x : canon [x] = [x].
Proof. reflexivity. Qed.

Lemma single_fast_slow s : clean_scopes [s] = clean_scopes_slow [s].
Proof.
  rewrite slow_canon. unfold presort. simpl map.
  destruct (classify_cases s) as [(Ei & Ec)|[(t & r & Es & Ft & Fr & Ei & El & Ec)|
    (t & n & a & Es & Ft & Fa & Ei & El & Ec)]].
  - rewrite Ec. simpl. rewrite Ei. destruct (last_index_of c_colon s); reflexivity.
  - rewrite Ec. simpl. rewrite Ei, El, Nat.eqb_refl. reflexivity.
  - simpl clean_scopes. rewrite Ei, El.
    replace (Nat.eqb (length t + S (length n)) (length t)) with false
      by (symmetry; apply Nat.eqb_neq; lia).
    unfold clean_single_fast. rewrite clean_actions_spec, Ec.
    (* the fast path cuts [s] behind its last colon *)
    set (p := t ++ c_colon :: n ++ [c_colon]).
    assert (Ep : s = p ++ a) by (rewrite Es; unfold p; rewrite <- app_assoc; simpl; now rewrite <- app_assoc).
    replace (S (length t + S (length n))) with (length p)
      by (unfold p; rewrite app_length; simpl; rewrite app_length; simpl; lia).
    rewrite Ep, firstn_app_exact, skipn_app_exact. unfold p.
    destruct (is_empty a) eqn:Ea.
    + destruct a; [|discriminate]. reflexivity.
    + fold nonempty. simpl passes. simpl keys_of. simpl flat_map.
      unfold rebuild. simpl acts_of. rewrite key_eqb_refl, !app_nil_r.
      destruct (filter nonempty (split_on c_comma a)) as [|x A] eqn:EF.
      * reflexivity.
      * unfold merge'. pose proof (merge_nonempty (x :: A)) as Hm.
        destruct (merge_actions (x :: A)) as [|m0 m] eqn:Em; [exfalso; apply Hm; [discriminate | reflexivity]|].
        rewrite app_nil_l, canon_single. simpl fst. simpl snd. f_equal.
        rewrite <- app_assoc. simpl. rewrite <- app_assoc. reflexivity.
Qed.

Lemma clean_eq_slow l : clean_scopes l = clean_scopes_slow l.
Proof.
  destruct l as [|s [|s' l]]; [reflexivity | apply single_fast_slow | reflexivity].
Qed.

Lemma clean_scopes_same l l' : same l l' -> clean_scopes l = clean_scopes l'.
Proof. intro H. rewrite !clean_eq_slow. now apply slow_ext. Qed.

Lemma clean_scopes_perm l l' : Permutation l l' -> clean_scopes l = clean_scopes l'.
Proof. intro P. now apply clean_scopes_same, perm_same. Qed.

Lemma clean_scopes_ssorted l : StronglySorted slt (clean_scopes l).
Proof. rewrite clean_eq_slow. apply canon_ssorted. Qed.

Lemma rebuild_acts L k A :
  same (acts_of k L) A -> A <> [] ->
  rebuild L k = [fst k ++ [c_colon] ++ snd k ++ [c_colon] ++ join [c_comma] (merge_actions A)].
Proof.
  intros S Hne. unfold rebuild.
  destruct (acts_of k L) as [|x X] eqn:E.
  - exfalso. destruct A as [|a A']; [congruence|]. apply (S a). now left.
  - now rewrite (merge_actions_ext _ _ S).
Qed.

Definition rebuilt_form (L : list cls) (y : str) : Prop :=
  exists t n m,
    y = t ++ [c_colon] ++ n ++ [c_colon] ++ join [c_comma] m /\
    rebuild L (t, n) = [y] /\ classify y = Keyed t n m /\
    merge_actions m = m /\ m <> [].

Lemma out_members l y :
  In y (clean_scopes_slow l) ->
  classify y = Pass y \/ rebuilt_form (map classify l) y.
Proof.
  intro H. apply slow_in, in_presort in H as [H|(k & Hk & Hy)].
  - left. apply in_map_iff in H as (s & E & _). pose proof (pass_self _ _ E). now subst.
  - right. set (L := map classify l) in *. destruct k as [t n].
    pose proof (rebuild_singleton _ _ _ Hy) as Hy0.
    unfold rebuild in Hy. destruct (acts_of (t, n) L) as [|x X] eqn:EA; [destruct Hy|].
    destruct Hy as [<-|[]]. simpl fst in *. simpl snd in *.
    assert (Hg : forall z, In z (x :: X) -> good_act z /\ contains c_colon t = false).
    { intros z Hz. rewrite <- EA in Hz. apply in_acts_of in Hz as (acts & Hin & Hz).
      apply in_map_iff in Hin as (s & Es & _). simpl in Es. eapply keyed_acts_good; eauto. }
    assert (Hm : merge_actions (x :: X) <> []) by now apply merge_nonempty.
    exists t, n, (merge_actions (x :: X)). repeat split; auto using merge_idem.
    apply classify_rebuilt; [apply (Hg x); now left | exact Hm |].
    intros z Hz. apply merge_subset in Hz as [Hz| ->]; [apply Hg, Hz | repeat split].
Qed.

Lemma rebuild_out l s t n m :
  In s (clean_scopes_slow l) -> classify s = Keyed t n m ->
  rebuild (map classify (clean_scopes_slow l)) (t, n) = [s].
Proof.
  intros Hs Hc. set (out := clean_scopes_slow l) in *.
  destruct (out_members l s Hs) as [E|(t' & n' & m' & Ey & Er & Ec & Em & Hne)]; [congruence|].
  rewrite Hc in Ec. injection Ec as <- <- <-.
  rewrite (rebuild_acts _ (t, n) m); [rewrite Em; simpl fst; simpl snd; now rewrite <- Ey | | exact Hne].
  intro x. rewrite in_acts_of. simpl fst. simpl snd. split.
  - intros (acts & Hin & Hx). apply in_map_iff in Hin as (s' & Es' & Hs').
    destruct (out_members l s' Hs') as [E|(t2 & n2 & m2 & Ey2 & Er2 & Ec2 & _)]; [congruence|].
    rewrite Es' in Ec2. injection Ec2 as <- <- <-.
    rewrite Er in Er2. injection Er2 as <-. rewrite Hc in Es'. now injection Es' as <-.
  - intro Hx. exists m. split; auto. apply in_map_iff. exists s. auto.
Qed.

Lemma presort_out_same l : same (presort (clean_scopes_slow l)) (clean_scopes_slow l).
Proof.
  intro y. rewrite in_presort. split.
  - intros [H|(k & Hk & Hy)].
    + apply in_map_iff in H as (s & E & Hs). pose proof (pass_self _ _ E). now subst.
    + apply in_keys_of in Hk as [(a & Ha) _]. apply in_map_iff in Ha as (s & Es & Hs).
      destruct k as [t n]. simpl in Es.
      rewrite (rebuild_out l s t n a Hs Es) in Hy. destruct Hy as [<-|[]]. exact Hs.
  - intro Hy. destruct (out_members l y Hy) as [E|(t & n & m & Ey & Er & Ec & Em & Hne)].
    + left. apply in_map_iff. exists y. auto.
    + right. exists (t, n). split.
      * apply in_keys_of. split; [|reflexivity]. exists m. apply in_map_iff. exists y. auto.
      * exact (eq_ind_r (fun z => In y z) (in_eq y []) (rebuild_out l y t n m Hy Ec)).
Qed.

Lemma clean_scopes_idempotent l : clean_scopes (clean_scopes l) = clean_scopes l.
Proof.
  rewrite !clean_eq_slow. rewrite (slow_canon (clean_scopes_slow l)).
  rewrite (canon_ext _ _ (presort_out_same l)).
  apply canon_id. rewrite slow_canon. apply canon_ssorted.
Qed.

Lemma star_absorbs_all l s t n a :
  In s l -> classify s = Keyed t n a -> In [c_star] a ->
  In (t ++ [c_colon] ++ n ++ [c_colon] ++ [c_star]) (clean_scopes l).
Proof.
  intros Hs Hc Hstar. rewrite clean_eq_slow. apply slow_in, in_presort. right. exists (t, n).
  assert (HK : In (Keyed t n a) (map classify l)) by (apply in_map_iff; exists s; auto).
  split; [apply in_keys_of; split; [exists a; exact HK | reflexivity]|].
  assert (Hin : In [c_star] (acts_of (t, n) (map classify l))) by (apply in_acts_of; exists a; auto).
  assert (Hex : existsb is_star (acts_of (t, n) (map classify l)) = true)
    by (apply existsb_exists; exists [c_star]; auto).
  unfold rebuild, merge_actions.
  destruct (acts_of (t, n) (map classify l)); [destruct Hin | rewrite Hex; now left].
Qed.

Lemma clean_scopes_members_all l y :
  In y (clean_scopes l) <->
  (In y l /\ classify y = Pass y) \/
  exists k, In k (keys_of (map classify l) []) /\ rebuild (map classify l) k = [y].
Proof. rewrite clean_eq_slow. apply slow_members. Qed.

Lemma prefix_refuted :
  (exists l, ~ NoDup (clean_scopes_prefix l)) /\
  (exists l, clean_scopes_prefix (clean_scopes_prefix l) <> clean_scopes_prefix l).
Proof.
  split.
  - exists [b "foo"; b "foo"]. rewrite prefix_keeps_duplicates. intro H.
    inversion H as [|x l' Hn Hd]; subst. apply Hn. now left.
  - exists [b "a:"; b "r:n:"]. destruct prefix_not_idempotent as [E1 E2]. rewrite E1, E2. discriminate.
Qed.

Definition key_safe (s : str) : Prop := is_empty s = false /\ contains c_space s = false.

Lemma join_space_inj l l' :
  (forall s, In s l -> key_safe s) -> (forall s, In s l' -> key_safe s) ->
  join [c_space] l = join [c_space] l' -> l = l'.
Proof.
  intros H H' E.
  destruct l as [|x m], l' as [|x' m']; auto.
  - exfalso. pose proof (join_nonempty [c_space] x' m' (proj1 (H' x' (or_introl eq_refl)))) as N.
    rewrite <- E in N. discriminate.
  - exfalso. pose proof (join_nonempty [c_space] x m (proj1 (H x (or_introl eq_refl)))) as N.
    rewrite E in N. discriminate.
  - rewrite <- (split_join c_space (x :: m)); [|discriminate | intros s Hs; apply H, Hs].
    rewrite <- (split_join c_space (x' :: m')); [|discriminate | intros s Hs; apply H', Hs].
    now rewrite E.
Qed.

Lemma contains_firstn d i s : contains d (firstn i s) = true -> contains d s = true.
Proof.
  revert i; induction s as [|c s IH]; intros [|i]; simpl; try discriminate.
  intro H. apply orb_true_iff in H as [H|H]; [now rewrite H | rewrite (IH _ H); apply orb_true_r].
Qed.

Lemma clean_key_safe l y :
  (forall s, In s l -> key_safe s) -> In y (clean_scopes l) -> key_safe y.
Proof.
  intros H Hy. apply clean_scopes_members_all in Hy as [[Hy _]|(k & Hk & Hy)]; [auto|].
  apply in_keys_of in Hk as [(a0 & Ha0) _]. apply in_map_iff in Ha0 as (s0 & E0 & Hs0).
  destruct k as [t n]. simpl in E0.
  destruct (keyed_parts c_space _ _ _ _ E0 (proj2 (H s0 Hs0))) as (Ft & Fn & _).
  unfold rebuild in Hy. destruct (acts_of (t, n) (map classify l)) as [|x X] eqn:EA; [discriminate|].
  injection Hy as <-. simpl fst. simpl snd. split; [destruct t; reflexivity|].
  rewrite contains_app, Ft. simpl. rewrite contains_app, Fn. simpl. apply contains_join; [reflexivity|].
  intros z Hz. apply merge_subset in Hz as [Hz| ->]; [|reflexivity].
  rewrite <- EA in Hz. apply in_acts_of in Hz as (acts & Hin & Hz).
  apply in_map_iff in Hin as (s1 & E1 & Hs1).
  exact (proj2 (proj2 (keyed_parts c_space _ _ _ _ E1 (proj2 (H s1 Hs1)))) z Hz).
Qed.

Lemma key_determines_scopes l l' :
  (forall s, In s l -> key_safe s) -> (forall s, In s l' -> key_safe s) ->
  join [c_space] (clean_scopes l) = join [c_space] (clean_scopes l') ->
  clean_scopes l = clean_scopes l'.
Proof.
  intros H H' E. apply join_space_inj; [intros s Hs; exact (clean_key_safe l s H Hs) | intros s Hs; exact (clean_key_safe l' s H' Hs) | exact E].
Qed.

(* a hint containing a space aliases the key of a different scope set *)
Lemma key_alias_with_space :
  let l := [b "repository:a:pull repository:b:pull"] in
  let l' := [b "repository:a:pull"; b "repository:b:pull"] in
  join [c_space] (clean_scopes l) = join [c_space] (clean_scopes l') /\ clean_scopes l <> clean_scopes l'.
Proof. split; vm_compute; [reflexivity | discriminate]. Qed.

