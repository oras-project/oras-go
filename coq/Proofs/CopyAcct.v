(* Work accounting of the copyGraph transition system (C04): in-flight bounds,
   single transfer, callback counts and order, callback errors abort. *)
From Oras Require Import Base.Prelude Model.CopySpec Model.CopyTop Model.CopyOpt Model.CopyBytes Proofs.CopySpec.
Local Open Scope nat_scope.

Definition b2n (b : bool) : nat := if b then 1 else 0.

Definition ncount (h : node -> phase -> bool) (g : graph) (st : state) : nat :=
  length (filter (fun n => h n (ph st n)) (seq 0 (g_n g))).

Section Count.
Variable h : node -> phase -> bool.

Lemma filter_upd_notin (phs : node -> phase) n q l : ~ In n l ->
  filter (fun m => h m (upd phs n q m)) l = filter (fun m => h m (phs m)) l.
Proof.
  intro Hn. apply filter_ext_in. intros m Hm. rewrite upd_other; [reflexivity|].
  intros ->. contradiction.
Qed.

Lemma filter_upd_in (phs : node -> phase) n q l : NoDup l -> In n l ->
  length (filter (fun m => h m (upd phs n q m)) l) + b2n (h n (phs n)) =
  length (filter (fun m => h m (phs m)) l) + b2n (h n q).
Proof.
  induction l as [|a l IH]; intros ND Hin; [contradiction|].
  inversion ND as [|? ? Hna ND']; subst. simpl.
  destruct (Nat.eq_dec a n) as [->|Hne].
  - rewrite upd_same, (filter_upd_notin phs n q l Hna).
    destruct (h n q), (h n (phs n)); simpl; lia.
  - rewrite upd_other by assumption. destruct Hin as [->|Hin]; [contradiction|].
    specialize (IH ND' Hin). destruct (h a (phs a)); simpl; lia.
Qed.

Lemma ncount_moved g st e n p q : ph st n = p ->
  (n < g_n g -> ncount h g (moved st e n p q) + b2n (h n p) = ncount h g st + b2n (h n q)) /\
  (~ n < g_n g -> ncount h g (moved st e n p q) = ncount h g st).
Proof.
  intros <-. unfold ncount. cbn [moved ph]. split; intro L.
  - apply filter_upd_in; [apply seq_NoDup | apply in_seq; lia].
  - rewrite filter_upd_notin; [reflexivity|]. rewrite in_seq. lia.
Qed.

Lemma ncount_le_impl (h' : node -> phase -> bool) g st :
  (forall n p, h n p = true -> h' n p = true) -> ncount h g st <= ncount h' g st.
Proof.
  intro Hi. unfold ncount. induction (seq 0 (g_n g)) as [|a l IH]; simpl; [lia|].
  destruct (h a (ph st a)) eqn:E.
  - rewrite (Hi _ _ E). simpl. lia.
  - destruct (h' a (ph st a)); simpl; lia.
Qed.

Lemma ncount_zero g st : (forall n, n < g_n g -> h n (ph st n) = false) -> ncount h g st = 0.
Proof.
  intro Hz. unfold ncount. rewrite (filter_ext_in _ (fun _ => false)); [induction (seq 0 (g_n g)); auto|].
  intros n Hn. apply in_seq in Hn. apply Hz. lia.
Qed.

Lemma ncount_bound_step g c st e st' K : step g c st e = Some st' ->
  (forall n p q, ph st n = p -> move g c st e n p q -> h n q = true ->
                 h n p = true \/ ncount h g st < K) ->
  ncount h g st <= K -> ncount h g st' <= K.
Proof.
  intros H He Hle. apply step_cases in H as [_ S]. destruct S as [n p q Hp M | ok _ _]; [|exact Hle].
  destruct (ncount_moved g st e n p q Hp) as [A B].
  destruct (lt_dec n (g_n g)) as [L|L]; [specialize (A L)|now rewrite (B L)].
  specialize (He n p q Hp M).
  destruct (h n q); [destruct He as [He|He]; [reflexivity|rewrite He in A|]|]; simpl in A; lia.
Qed.
End Count.

(* an operation in flight belongs to an active task *)
Lemma inflight_le_active g st : inflight_src g st <= active g st /\ inflight_dst g st <= active g st.
Proof.
  split; apply (ncount_le_impl (fun _ => _) (fun _ => active_ph)); intros _ [] Hp; try discriminate Hp; reflexivity.
Qed.

Lemma inflight_lemma g c d0 tr st : accepts g c d0 tr = Some st ->
  inflight_src g st <= c_K c /\ inflight_dst g st <= c_K c.
Proof.
  intro Ha.
  assert (A : active g st <= c_K c).
  { apply (run_preserves g c (fun s => active g s <= c_K c)) with (tr := tr) (st := init c d0); [|exact Ha|].
    - (* a task enters an active phase only below the limit *)
      intros s e s' H. apply (ncount_bound_step (fun _ => active_ph) g c s e s' (c_K c) H).
      intros n p q _ M. move_cases M; cbn [active_ph]; auto; discriminate.
    - enough (active g (init c d0) = 0) by lia. now apply (ncount_zero (fun _ => active_ph)). }
  destruct (inflight_le_active g st). lia.
Qed.

Lemma inflight_prefix_lemma g c d0 tr1 tr2 st : accepts g c d0 (tr1 ++ tr2) = Some st ->
  exists st1, accepts g c d0 tr1 = Some st1 /\
              inflight_src g st1 <= c_K c /\ inflight_dst g st1 <= c_K c.
Proof.
  intro Ha. unfold accepts in Ha. apply run_app in Ha as [st1 [H1 _]].
  exists st1. split; [exact H1|]. eapply inflight_lemma; eauto.
Qed.

Definition cnt (p : event -> bool) (tr : list event) : nat := length (filter p tr).

Lemma cnt_cons p e tr : cnt p (e :: tr) = b2n (p e) + cnt p tr.
Proof. unfold cnt. simpl. destruct (p e); reflexivity. Qed.

Lemma cnt_app p a b : cnt p (a ++ b) = cnt p a + cnt p b.
Proof. unfold cnt. now rewrite filter_app, app_length. Qed.

Lemma cnt_snoc p tr e : cnt p (tr ++ [e]) = cnt p tr + b2n (p e).
Proof. rewrite cnt_app. unfold cnt. simpl. now destruct (p e). Qed.

Lemma cnt_ge1 p e tr : In e tr -> p e = true -> 1 <= cnt p tr.
Proof.
  intros Hin Hp. induction tr as [|a tr IH]; [contradiction|]. rewrite cnt_cons.
  destruct Hin as [->|Hin]; [rewrite Hp; simpl|specialize (IH Hin)]; lia.
Qed.

Lemma cnt_zero p tr : (forall e, In e tr -> p e = false) -> cnt p tr = 0.
Proof.
  intro H. induction tr as [|a tr IH]; [reflexivity|].
  rewrite cnt_cons, (H a (or_introl eq_refl)). apply IH. intros e He. apply H. now right.
Qed.

Section OneShot.
Variable g : graph.
Variable c : cfg.
Variable p : event -> bool.
Variable D : state -> Prop.   (* "p is disabled from now on" *)
Hypothesis D_stable : forall st e st', step g c st e = Some st' -> D st -> D st'.
Hypothesis D_blocks : forall st e st', step g c st e = Some st' -> p e = true -> ~ D st.

Lemma blocked tr : forall st st', run g c st tr = Some st' -> D st -> cnt p tr = 0.
Proof.
  induction tr as [|e tr IH]; intros st st' H Hd; [reflexivity|]. simpl in H.
  destruct (step g c st e) as [s1|] eqn:E; [|discriminate].
  rewrite cnt_cons, (IH s1 st' H (D_stable _ _ _ E Hd)).
  destruct (p e) eqn:Pe; [|reflexivity]. now elim (D_blocks _ _ _ E Pe).
Qed.

Hypothesis D_after : forall st e st', step g c st e = Some st' -> p e = true -> D st'.

Lemma one_shot tr : forall st st', run g c st tr = Some st' -> cnt p tr <= 1.
Proof.
  induction tr as [|e tr IH]; intros st st' H; [unfold cnt; simpl; lia|]. simpl in H.
  destruct (step g c st e) as [s1|] eqn:E; [|discriminate]. rewrite cnt_cons.
  destruct (p e) eqn:Pe.
  - rewrite (blocked tr s1 st' H (D_after _ _ _ E Pe)). simpl. lia.
  - exact (IH s1 st' H).
Qed.
End OneShot.

Lemma p_event_move g c (p : event -> bool) (R : phase -> phase -> Prop) x :
  (forall ok, p (Ret ok) = false) ->
  (forall st e n a b, move g c st e n a b -> p e = true -> n = x /\ R a b) ->
  forall st e st', step g c st e = Some st' -> p e = true -> R (ph st x) (ph st' x).
Proof.
  intros Pr Pm st e st' H Pe. apply step_cases in H as [_ S].
  destruct S as [n a b Ha M | ok -> _]; [|now rewrite Pr in Pe].
  destruct (Pm st e n a b M Pe) as [-> Hr]. cbn [moved ph]. now rewrite upd_same, Ha.
Qed.

Lemma blocked_ph g c (p : event -> bool) (D : phase -> bool) x :
  closed_ph D -> (forall ok, p (Ret ok) = false) ->
  (forall st e n a b, move g c st e n a b -> p e = true -> n = x /\ D a = false) ->
  forall tr st st', run g c st tr = Some st' -> D (ph st x) = true -> cnt p tr = 0.
Proof.
  intros Dc Pr Pm. apply (blocked g c p (fun s => D (ph s x) = true)).
  - intros st e st' H. exact (closed_ph_step D g c st e st' x Dc H).
  - intros st e st' H Pe Hd.
    pose proof (p_event_move g c p (fun a _ => D a = false) x Pr Pm st e st' H Pe). congruence.
Qed.

Lemma one_shot_ph g c (p : event -> bool) (D : phase -> bool) x :
  closed_ph D -> (forall ok, p (Ret ok) = false) ->
  (forall st e n a b, move g c st e n a b -> p e = true -> n = x /\ D a = false /\ D b = true) ->
  forall tr st st', run g c st tr = Some st' -> cnt p tr <= 1.
Proof.
  intros Dc Pr Pm.
  pose proof (p_event_move g c p (fun a b => D a = false /\ D b = true) x Pr Pm) as Mv.
  apply (one_shot g c p (fun s => D (ph s x) = true)).
  - intros st e st' H. exact (closed_ph_step D g c st e st' x Dc H).
  - intros st e st' H Pe Hd. destruct (Mv st e st' H Pe). congruence.
  - intros st e st' H Pe. now destruct (Mv st e st' H Pe).
Qed.

Definition is_fetch (n : node) (e : event) : bool :=
  match e with SFB m => Nat.eqb m n | _ => false end.
Definition is_push (n : node) (e : event) : bool :=
  match e with PuB m _ => Nat.eqb m n | _ => false end.
(* a callback invocation, whether it returns nil or an error *)
Definition is_cb (k : cbk) (n : node) (e : event) : bool :=
  match e with
  | Cb k' m | CbFail k' m =>
      Nat.eqb m n && match k, k' with
                      | CPre, CPre | CPost, CPost | CSkip, CSkip | CMounted, CMounted
                      | CMountFrom, CMountFrom => true
                      | _, _ => false
                      end
  | _ => false
  end.

Definition fetched_ph (p : phase) : bool :=
  match p with
  | MF1 | MF2 | F1 _ | F2 _ | Pushing _ _ | Closing _ | TagP0 _ | TagP1 _ | PostP | Done | Dead
  | MtF1 | MtF2 | MtC => true
  | _ => false
  end.
(* the upload of the node has begun (dst.Push / PushReference called, or Mount fell back to uploading) *)
Definition uploaded_ph (p : phase) : bool :=
  match p with
  | Pushing _ _ | Closing _ | TagP0 _ | TagP1 _ | PostP | Done | Dead => true
  | _ => false
  end.
Definition prepast_ph (p : phase) : bool :=
  match p with
  | Rdy _ | F1 _ | F2 _ | Pushing _ _ | Closing _ | TagP0 _ | TagP1 _ | PostP | Done | Dead
  | MtPre | MtF1 | MtF2 | MtC | MountedP => true
  | _ => false
  end.
(* past the terminal notification (PostCopy, OnCopySkipped, OnMounted): the node is done, or (the root
   of Copy) being tagged or re-pushed with the reference *)
Definition termpast_ph (p : phase) : bool :=
  match p with
  | TagP0 true | TagP1 true | Rdy true | F1 true | F2 true | Pushing true _ | Closing true | Done | Dead => true
  | _ => false
  end.
(* MountFrom is asked at most once: everything after Waiting *)
Definition mfpast_ph (p : phase) : bool :=
  match p with MtRdy | Mounting => true | p => prepast_ph p end.

(* the phases past the invocation of callback [k] *)
Definition cbpast_ph (k : cbk) : phase -> bool :=
  match k with
  | CPre => prepast_ph | CPost | CSkip | CMounted => termpast_ph
  | CMountFrom => mfpast_ph
  end.

(* dst.Exists was called on the node *)
Definition visited_ph (p : phase) : bool := match p with Idle => false | _ => true end.

Lemma visited_closed : closed_ph visited_ph.
Proof. closed_ph_tac. Qed.
Lemma uploaded_closed : closed_ph uploaded_ph.
Proof. closed_ph_tac. Qed.
Lemma cbpast_closed k : closed_ph (cbpast_ph k).
Proof. destruct k; closed_ph_tac. Qed.

Lemma is_cb_inv k x e : is_cb k x e = true -> e = Cb k x \/ e = CbFail k x.
Proof.
  destruct e; try discriminate; simpl; intro H; apply andb_true_iff in H as [Hn Hk];
    apply Nat.eqb_eq in Hn; subst; destruct k, k0; try discriminate Hk; auto.
Qed.

Lemma is_cb_self k n : is_cb k n (Cb k n) = true.
Proof. simpl. rewrite Nat.eqb_refl. now destruct k. Qed.

Lemma cb_counted k n tr : In (Cb k n) tr -> 1 <= cnt (is_cb k n) tr.
Proof. intro H. exact (cnt_ge1 _ _ _ H (is_cb_self k n)). Qed.

Section Once.
Variable g : graph.
Variable c : cfg.

Lemma push_once n tr st st' : run g c st tr = Some st' -> cnt (is_push n) tr <= 1.
Proof.
  apply (one_shot_ph g c (is_push n) uploaded_ph n uploaded_closed); [reflexivity|].
  intros s e m a b M Pe. move_cases M; try discriminate Pe; apply Nat.eqb_eq in Pe; auto.
Qed.

Lemma cb_move_past k x st e m a b : move g c st e m a b -> is_cb k x e = true ->
  m = x /\ cbpast_ph k a = false /\ cbpast_ph k b = true.
Proof.
  intros M Pe. apply is_cb_inv in Pe.
  move_cases M; destruct Pe as [Pe|Pe]; try discriminate Pe; injection Pe as <- <-; auto.
Qed.

Lemma cb_once k n tr st st' :
  run g c st tr = Some st' -> cnt (is_cb k n) tr <= 1.
Proof.
  apply (one_shot_ph g c (is_cb k n) (cbpast_ph k) n (cbpast_closed k)); [reflexivity|].
  intros s e m a b. apply cb_move_past.
Qed.

(* source fetch: disabled for ever once the node is cached or past its fetch *)
Definition nofetch (n : node) (s : state) : Prop :=
  memb n (cached s) = true \/ fetched_ph (ph s n) = true.

Lemma fetch_once n tr st st' : run g c st tr = Some st' -> cnt (is_fetch n) tr <= 1.
Proof.
  apply (one_shot g c (is_fetch n) (nofetch n)).
  - intros s e s' H Hd. apply step_cases in H as [_ S]. destruct S as [m a b Ha M | ok _ _]; [|exact Hd].
    unfold nofetch. cbn [moved cached ph]. destruct Hd as [Hd|Hd].
    + left. destruct (caches e a); [simpl; rewrite Hd; apply orb_true_r | exact Hd].
    + unfold upd. destruct (Nat.eqb_spec n m) as [->|_]; [|now right].
      rewrite Ha in Hd. move_cases M; try discriminate Hd; try (now right).
      (* the proxy's reader is closed: the manifest is cached *)
      left. simpl. now rewrite Nat.eqb_refl.
  - intros s e s' H Pe Hd. apply step_cases in H as [_ S]. destruct S as [m a b Ha M | ok -> _]; [|discriminate Pe].
    move_cases M; try discriminate Pe; apply Nat.eqb_eq in Pe; subst;
      (destruct Hd as [Hd|Hd]; [congruence | rewrite Ha in Hd; discriminate Hd]).
  - intros s e s' H Pe. apply step_cases in H as [_ S]. destruct S as [m a b Ha M | ok -> _]; [|discriminate Pe].
    right. cbn [moved ph].
    move_cases M; try discriminate Pe; apply Nat.eqb_eq in Pe; subst; now rewrite upd_same.
Qed.
End Once.

Section Trace.
Variable g : graph.
Variable c : cfg.
Variable d0 : list node.

Lemma phase_history (f : phase -> bool) (E : node -> event -> Prop) (P : node -> Prop) :
  f Idle = false ->
  (forall st e n p q, Inv g c d0 st -> ph st n = p -> move g c st e n p q -> f q = true ->
                      f p = true \/ E n e \/ P n) ->
  forall tr st, accepts g c d0 tr = Some st ->
  forall n, f (ph st n) = true -> (exists e, In e tr /\ E n e) \/ P n.
Proof.
  intros Hi He tr. induction tr as [|e tr IH] using rev_ind; intros st Ha n Hn.
  - injection Ha as <-. simpl in Hn. congruence.
  - apply accepts_mid in Ha as (s1 & s2 & H1 & I1 & S & H2). injection H2 as <-.
    assert (Old : f (ph s1 n) = true -> (exists e0, In e0 (tr ++ [e]) /\ E n e0) \/ P n).
    { intro Hf. destruct (IH s1 H1 n Hf) as [[e0 [Hin He0]]|Hp]; [left; exists e0|now right].
      split; [apply in_or_app; now left|exact He0]. }
    destruct (step_ph g c s1 e s2 n S) as [Eq|(p & q & Hp & Hq & M)]; [rewrite Eq in Hn; auto|].
    rewrite Hq in Hn. destruct (He s1 e n p q I1 Hp M Hn) as [Hf|[Hev|Hpn]].
    + apply Old. now rewrite Hp.
    + left. exists e. split; [apply in_or_app; right; now left|exact Hev].
    + now right.
Qed.

Lemma entered_by (f : phase -> bool) (ev : node -> event) tr st n : f Idle = false ->
  (forall s e m p q, move g c s e m p q -> f q = true -> f p = true \/ e = ev m) ->
  accepts g c d0 tr = Some st -> f (ph st n) = true -> In (ev n) tr.
Proof.
  intros Hi He Ha Hn.
  destruct (phase_history f (fun n e => e = ev n) (fun _ => False) Hi)
    with (tr := tr) (st := st) (n := n) as [[e [Hin ->]]|[]]; auto.
  intros s e m p q _ _ M Hq. destruct (He s e m p q M Hq); auto.
Qed.

Lemma event_phase (f : phase -> bool) (E : node -> event -> Prop) :
  closed_ph f ->
  (forall st e n p q x, Inv g c d0 st -> ph st n = p -> move g c st e n p q -> E x e ->
                        x = n /\ f q = true) ->
  (forall x ok, ~ E x (Ret ok)) ->
  forall tr st, accepts g c d0 tr = Some st ->
  forall x e, In e tr -> E x e -> f (ph st x) = true.
Proof.
  intros Hc He Hr tr st Ha x e Hin Hx. apply in_split in Hin as [t1 [t2 ->]].
  apply accepts_mid in Ha as (s1 & s2 & _ & I1 & S & H2).
  apply (closed_ph_run f g c t2 s2 st x Hc H2).
  apply step_cases in S as [_ S]. destruct S as [n p q Hp M | ok -> _]; [|now elim (Hr x ok)].
  destruct (He s1 e n p q x I1 Hp M Hx) as [-> Hq]. cbn [moved ph]. now rewrite upd_same.
Qed.

Lemma leaves_by (f : phase -> bool) (E : node -> event -> Prop) :
  (forall st e n p q, move g c st e n p q -> f p = true -> f q = true \/ E n e) ->
  forall tr st st' n, run g c st tr = Some st' -> f (ph st n) = true ->
  f (ph st' n) = true \/ exists e, In e tr /\ E n e.
Proof.
  intro He. induction tr as [|e tr IH]; simpl; intros st st' n H Hf.
  - injection H as <-. now left.
  - destruct (step g c st e) as [s1|] eqn:S; [|discriminate].
    assert (Hs : f (ph s1 n) = true \/ E n e).
    { destruct (step_ph g c st e s1 n S) as [->|(p & q & Hp & <- & M)]; [now left|].
      apply (He st e n p _ M). now rewrite <- Hp. }
    destruct Hs as [Hs|Hs]; [|right; exists e; auto].
    destruct (IH s1 st' n H Hs) as [Hd|[e0 [Hin He0]]]; [now left|right; exists e0; auto].
Qed.
End Trace.

Section Order.
Variable g : graph.
Variable c : cfg.
Variable d0 : list node.

Lemma cb_seen tr st k n e : accepts g c d0 tr = Some st -> In e tr -> is_cb k n e = true ->
  cbpast_ph k (ph st n) = true.
Proof.
  intros Ha Hin Hc.
  apply (event_phase g c d0 (cbpast_ph k) (fun x e => is_cb k x e = true) (cbpast_closed k)) with (tr := tr) (e := e); auto.
  - intros s e0 m p q x _ _ M Hx. destruct (cb_move_past g c k x s e0 m p q M Hx) as [-> [_ Hq]]. auto.
  - discriminate.
Qed.

(* terminal notification of a node: PostCopy, OnCopySkipped or OnMounted was invoked (and returned nil) *)
Definition notified (x : node) (tr : list event) : Prop :=
  In (Cb CPost x) tr \/ In (Cb CSkip x) tr \/ In (Cb CMounted x) tr.

(* done, or (the root of a Tagger copy) being tagged after OnCopySkipped / OnMounted *)
Definition notified_ph (p : phase) : bool :=
  match p with Done | TagP0 true | TagP1 true => true | _ => false end.

Lemma notified_history tr st x : accepts g c d0 tr = Some st ->
  notified_ph (ph st x) = true -> notified x tr \/ root_refpush c x = true.
Proof.
  intros Ha Hx.
  destruct (phase_history g c d0 notified_ph
              (fun n e => e = Cb CPost n \/ e = Cb CSkip n \/ e = Cb CMounted n)
              (fun n => root_refpush c n = true) eq_refl) with (tr := tr) (st := st) (n := x)
    as [[e [Hin [->|[->| ->]]]]|Hr]; unfold notified; auto.
  intros s e n p q I Hp M Hq. pose proof (i_skflag g c d0 s I n) as SK. rewrite Hp in SK.
  (* the present root of a ReferencePusher copy is re-pushed and done without a notification *)
  move_cases M; try discriminate Hq; auto.
Qed.

Lemma postcopy_after_successors tr1 n tr2 st :
  accepts g c d0 (tr1 ++ Cb CPost n :: tr2) = Some st ->
  forall x, In x (succ' g n) -> notified x tr1 \/ root_refpush c x = true.
Proof.
  intros Ha x Hx. apply accepts_mid in Ha as (st1 & s2 & H1 & I1 & E & _).
  apply (notified_history tr1 st1 x H1).
  rewrite (i_settled g c d0 st1 I1 n); [reflexivity| |exact Hx].
  destruct (step_move g c st1 _ s2 n E eq_refl) as (p & q & Hp & M & _). rewrite Hp. now move_inv M.
Qed.

Lemma cbfail_dead tr st k n : accepts g c d0 tr = Some st -> In (CbFail k n) tr -> ph st n = Dead.
Proof.
  intros Ha Hin.
  assert (Hd : is_dead (ph st n) = true).
  { apply (event_phase g c d0 is_dead (fun x e => exists k, e = CbFail k x) dead_closed)
      with (tr := tr) (e := CbFail k n); eauto.
    - intros s e m p q x _ _ M [k0 ->]. now inversion M.
    - intros x ok [k0 Hk]. discriminate Hk. }
  destruct (ph st n); try discriminate Hd; reflexivity.
Qed.

Lemma callback_error_aborts tr1 k n tr2 st :
  accepts g c d0 (tr1 ++ CbFail k n :: tr2) = Some st -> returned st <> Some true.
Proof.
  intros Ha Hr. pose proof (cbfail_dead _ st k n Ha (in_elt _ _ _)) as Hd.
  destruct (ret_true_phase g c d0 _ st n Ha Hr); congruence.
Qed.
End Order.

Lemma eff_K_default dflt opt : (opt <= 0)%Z -> eff_K dflt opt = Z.to_nat dflt.
Proof. intro Ho. unfold eff_K. apply Z.leb_le in Ho. now rewrite Ho. Qed.

Lemma eff_K_positive dflt opt : (0 < dflt)%Z -> 1 <= eff_K dflt opt.
Proof.
  intro Hd. unfold eff_K. destruct (opt <=? 0)%Z eqn:E.
  - lia.
  - apply Z.leb_gt in E. lia.
Qed.

Lemma callbacks_once_lemma (g : graph) (c : cfg) (d0 : list node) tr st n :
  accepts g c d0 tr = Some st ->
  cnt (is_cb CPre n) tr <= 1 /\ cnt (is_cb CPost n) tr <= 1 /\ cnt (is_cb CSkip n) tr <= 1 /\
  cnt (is_cb CMounted n) tr <= 1 /\ cnt (is_cb CMountFrom n) tr <= 1.
Proof.
  intro H. repeat split; apply (cb_once g c _ n tr _ _ H).
Qed.

(* PreCopy was invoked and the node is on its way to PostCopy *)
Definition prep_ph (p : phase) : bool :=
  match p with
  | Rdy false | F1 false | F2 false | Pushing false _ | Closing false | TagP0 false | TagP1 false | PostP
  | MtPre | MtF1 | MtF2 | MtC => true
  | _ => false
  end.

(* uploaded, PostCopy not yet invoked (or failed) *)
Definition postwait_ph (p : phase) : bool :=
  match p with Closing false | TagP0 false | TagP1 false | PostP | Dead => true | _ => false end.

Lemma prep_not_termpast p : prep_ph p = true -> termpast_ph p = true -> False.
Proof. destruct p; simpl; try discriminate; destruct sk; discriminate. Qed.

(* the event by which the content of n is uploaded: a successful Push / PushReference, or
   a Mount that fell back to uploading *)
Definition is_xfer (n : node) (e : event) : Prop :=
  (exists ref, e = PuE n ref POk) \/ e = MtE n MCopied.

Section Exactly.
Variable g : graph.
Variable c : cfg.
Variable d0 : list node.

(* only PreCopy brings a node into [prep_ph] *)
Lemma prep_history tr st n : accepts g c d0 tr = Some st -> prep_ph (ph st n) = true -> In (Cb CPre n) tr.
Proof.
  apply (entered_by g c d0 prep_ph (Cb CPre) tr st n eq_refl).
  intros s e m p q M Hq. move_cases M; try discriminate Hq; auto.
Qed.

Lemma step_xfer st e n st' : Inv g c d0 st -> step g c st e = Some st' -> is_xfer n e ->
  prep_ph (ph st n) = true /\ postwait_ph (ph st' n) = true.
Proof.
  intros I H Hx.
  assert (Hn : ev_node e = Some n /\ stores e = Some n) by (destruct Hx as [[ref ->]| ->]; auto).
  destruct (step_move g c st e st' n H (proj1 Hn)) as (p & q & Hp & M & ->).
  destruct (move_stores g c st e n p q n M (proj2 Hn)) as [_ Hh].
  pose proof (i_present g c d0 st I n) as IP. rewrite Hp in *. cbn [moved ph]. rewrite upd_same.
  (* a node pushed with the skip flag is present: its push answers "exists" *)
  destruct Hx as [[ref ->]| ->]; move_inv M; auto; try destruct sk; auto;
    rewrite IP in Hh by reflexivity; discriminate Hh.
Qed.

(* a transferred node of a successful copy: exactly one PreCopy, exactly one PostCopy, no OnCopySkipped *)
Lemma transferred_exactly_once tr st n e :
  accepts g c d0 tr = Some st -> returned st = Some true ->
  In e tr -> is_xfer n e ->
  cnt (is_cb CPre n) tr = 1 /\ cnt (is_cb CPost n) tr = 1 /\ cnt (is_cb CSkip n) tr = 0.
Proof.
  intros Ha Hr Hin Hx. destruct (callbacks_once_lemma g c d0 tr st n Ha) as [L1 [L2 _]].
  apply in_split in Hin as [t1 [t2 ->]]. pose proof Ha as Hall.
  apply accepts_mid in Ha as (s1 & s2 & H1 & I1 & E & H2).
  destruct (step_xfer s1 e n s2 I1 E Hx) as [Hpre Hw].
  assert (PRE : In (Cb CPre n) t1) by exact (prep_history t1 s1 n H1 Hpre).
  assert (POST : In (Cb CPost n) t2).
  { destruct (leaves_by g c postwait_ph (fun n e => e = Cb CPost n)) with (tr := t2) (st := s2) (st' := st) (n := n)
      as [Hf|[e0 [Hi ->]]]; auto.
    - intros s e0 m p q M Hp. move_cases M; try discriminate Hp; auto.
    - (* still waiting at the successful return: impossible *)
      destruct (ret_true_phase g c d0 _ st n Hall Hr) as [Z|Z]; rewrite Z in Hf; discriminate Hf. }
  split; [|split].
  - assert (1 <= cnt (is_cb CPre n) (t1 ++ e :: t2)) by (apply cb_counted, in_or_app; now left). lia.
  - assert (1 <= cnt (is_cb CPost n) (t1 ++ e :: t2)) by (apply cb_counted, in_or_app; right; now right). lia.
  - rewrite cnt_app, cnt_cons.
    assert (Z1 : cnt (is_cb CSkip n) t1 = 0).
    { (* OnCopySkipped earlier would have put n past its terminal notification *)
      apply cnt_zero. intros e0 Hi. destruct (is_cb CSkip n e0) eqn:Ec; [exfalso|reflexivity].
      exact (prep_not_termpast _ Hpre (cb_seen g c d0 t1 s1 CSkip n e0 H1 Hi Ec)). }
    assert (Z2 : cnt (is_cb CSkip n) t2 = 0).
    { apply (blocked_ph g c (is_cb CSkip n) uploaded_ph n uploaded_closed) with (st := s2) (st' := st); auto.
      - intros s e0 m p q M Hc. apply is_cb_inv in Hc.
        move_cases M; destruct Hc as [Hc|Hc]; try discriminate Hc; injection Hc as <-; auto.
      - destruct (ph s2 n); try discriminate Hw; reflexivity. }
    rewrite Z1, Z2. destruct Hx as [[ref ->]| ->]; reflexivity.
Qed.

Lemma push_between_callbacks tr1 n e tr2 st :
  is_xfer n e ->
  accepts g c d0 (tr1 ++ e :: tr2) = Some st ->
  In (Cb CPre n) tr1 /\ ~ In (Cb CPost n) tr1.
Proof.
  intros Hx Ha. apply accepts_mid in Ha as (st1 & s2 & H1 & I1 & E & _).
  destruct (step_xfer st1 e n s2 I1 E Hx) as [Hq _].
  split; [exact (prep_history tr1 st1 n H1 Hq)|]. intro Hc.
  exact (prep_not_termpast _ Hq (cb_seen g c d0 tr1 st1 CPost n _ H1 Hc (is_cb_self CPost n))).
Qed.

(* a node that is not already in the destination is pushed only after its PreCopy (the push without
   PreCopy is the re-push with the reference of an already-present / mounted ReferencePusher root) *)
Lemma pre_before_push_begin tr1 n ref tr2 st :
  accepts g c d0 (tr1 ++ PuB n ref :: tr2) = Some st ->
  exists st1, accepts g c d0 tr1 = Some st1 /\
              (has g (dst st1) n = false -> In (Cb CPre n) tr1).
Proof.
  intro Ha. apply accepts_mid in Ha as (st1 & s2 & H1 & I1 & E & _).
  exists st1. split; [exact H1|]. intro Hh. apply (prep_history tr1 st1 n H1).
  destruct (step_move g c st1 _ s2 n E eq_refl) as (p & q & Hp & M & _).
  pose proof (i_present g c d0 st1 I1 n) as IP. rewrite Hp in *.
  move_inv M; (destruct sk; [rewrite IP in Hh by reflexivity; discriminate Hh | reflexivity]).
Qed.
End Exactly.

Definition mounted_ph (p : phase) : bool :=
  match p with MountedP => true | p => termpast_ph p end.

Lemma mounted_closed : closed_ph mounted_ph.
Proof. closed_ph_tac. Qed.

Section Mounted.
Variable g : graph.
Variable c : cfg.
Variable d0 : list node.

Lemma step_mounted st n st' : step g c st (MtE n MMounted) = Some st' ->
  ph st n = Mounting /\ ph st' n = MountedP.
Proof.
  intro H. destruct (step_move g c st _ st' n H eq_refl) as (p & q & Hp & M & ->).
  cbn [moved ph]. rewrite upd_same, Hp. now move_inv M.
Qed.

Lemma mounted_exactly_once tr st n :
  accepts g c d0 tr = Some st -> returned st = Some true ->
  In (MtE n MMounted) tr -> cnt (is_cb CMounted n) tr = 1.
Proof.
  intros Ha Hr Hin. pose proof (cb_once g c CMounted n tr _ _ Ha) as L.
  apply in_split in Hin as [t1 [t2 ->]]. pose proof Ha as Hall.
  apply accepts_mid in Ha as (s1 & s2 & _ & _ & E & H2).
  destruct (step_mounted s1 n s2 E) as [_ Hm].
  (* mounted, OnMounted not yet invoked (or failed): only OnMounted leads on *)
  destruct (leaves_by g c (fun p => match p with MountedP | Dead => true | _ => false end)
              (fun n e => e = Cb CMounted n)) with (tr := t2) (st := s2) (st' := st) (n := n)
    as [Hf|[e0 [Hi ->]]].
  - intros s e0 m p q M Hp. move_cases M; try discriminate Hp; auto.
  - exact H2.
  - now rewrite Hm.
  - destruct (ret_true_phase g c d0 _ st n Hall Hr) as [Z|Z]; rewrite Z in Hf; discriminate Hf.
  - assert (1 <= cnt (is_cb CMounted n) (t1 ++ MtE n MMounted :: t2))
      by (apply cb_counted, in_or_app; right; now right). lia.
Qed.

Lemma mounted_no_pre_post tr st n :
  accepts g c d0 tr = Some st -> In (MtE n MMounted) tr ->
  ~ In (Cb CPre n) tr /\ ~ In (Cb CPost n) tr.
Proof.
  intros Ha Hin.
  assert (Z : forall k, k = CPre \/ k = CPost -> ~ In (Cb k n) tr).
  { intros k Hk Hc. apply in_split in Hin as [t1 [t2 ->]].
    apply accepts_mid in Ha as (s1 & s2 & H1 & _ & E & H2).
    destruct (step_mounted s1 n s2 E) as [Hp Hm].
    apply in_app_iff in Hc as [Hc|[Hc|Hc]]; [|discriminate Hc|].
    - (* before Mount reported "mounted": the phase would be past the callback, not [Mounting] *)
      pose proof (cb_seen g c d0 t1 s1 k n _ H1 Hc (is_cb_self k n)) as Hs. rewrite Hp in Hs.
      destruct Hk as [-> | ->]; discriminate Hs.
    - (* after: from [MountedP] on, no phase in which PreCopy / PostCopy is invoked comes back *)
      pose proof (cb_counted k n t2 Hc) as G.
      rewrite (blocked_ph g c (is_cb k n) mounted_ph n mounted_closed) with (st := s2) (st' := st) in G;
        [lia| reflexivity | | exact H2 | now rewrite Hm].
      intros s e m p q M He. apply is_cb_inv in He.
      destruct Hk as [-> | ->]; move_cases M; destruct He as [He|He]; try discriminate He; injection He as <-; auto. }
  split; apply Z; auto.
Qed.
End Mounted.

(* reads of node n from the source in one Copy call: prologue + copyGraph *)
Definition reads_in_call (n : node) (pro : list node) (tr : list event) : nat :=
  count_occ Nat.eq_dec pro n + cnt (is_fetch n) tr.

(* "no blob is fetched from the source more than once" fails for the whole call: a blob root
   resolved through a ReferenceFetcher is opened in the prologue and fetched again by copyNode, as in
   this run (C04_single_fetch_refuted_by_prologue) *)
Definition tr_blobroot : list event :=
  [ExB 0; ExE 0 false; Cb CPre 0; SFB 0; SFE 0; PuB 0 false; PuE 0 false POk; SFC 0;
   TagB 0; TagE 0; Cb CPost 0; Ret true].

(* within copyGraph the bound is 1, so a call reads a node at most 1 + (its prologue reads) times *)
Lemma reads_in_call_bound g c d0 tr st n pro :
  accepts g c d0 tr = Some st -> reads_in_call n pro tr <= count_occ Nat.eq_dec pro n + 1.
Proof.
  intro H. unfold reads_in_call. pose proof (fetch_once g c n tr _ _ H). lia.
Qed.

Definition is_src_open (e : event) : bool := match e with SFB _ => true | _ => false end.
Definition is_src_close (e : event) : bool := match e with SFC _ => true | _ => false end.
Definition is_dst_open (e : event) : bool :=
  match e with ExB _ | PuB _ _ | TagB _ | MtB _ => true | _ => false end.
Definition is_dst_close (e : event) : bool :=
  match e with ExE _ _ | PuE _ _ _ | TagE _ | MtE _ _ => true | _ => false end.
Definition is_cbfail (e : event) : bool := match e with CbFail _ _ => true | _ => false end.

Section Gauges.
Variable g : graph.
Variable c : cfg.
Variable d0 : list node.

Lemma gauge_step (f : phase -> bool) st e st' : Inv g c d0 st -> step g c st e = Some st' ->
  (exists ok, e = Ret ok /\ count f g st' = count f g st) \/
  exists n p q, move g c st e n p q /\ count f g st' + b2n (f p) = count f g st + b2n (f q).
Proof.
  intros I H. apply step_cases in H as [_ S]. destruct S as [n p q Hp M | ok -> _]; [right|left; eauto].
  exists n, p, q. split; [exact M|].
  apply (ncount_moved (fun _ => f) g st e n p q Hp). exact (move_bound g c d0 st e n p q I Hp M).
Qed.

(* along an accepted trace without [skip] events, every [op] event that no [cl] event has matched
   yet accounts for a node in the phases [f] *)
Lemma gauge_trace (f : phase -> bool) (op cl skip : event -> bool) :
  (forall st e n p q, move g c st e n p q -> skip e = false ->
     b2n (f p) + b2n (op e) <= b2n (f q) + b2n (cl e)) ->
  (forall ok, op (Ret ok) = false) ->
  forall tr st, accepts g c d0 tr = Some st -> cnt skip tr = 0 ->
  cnt op tr <= count f g st + cnt cl tr.
Proof.
  intros Hm Hr. induction tr as [|e tr IH] using rev_ind; intros st Ha Z; [unfold cnt; simpl; lia|].
  apply accepts_mid in Ha as (s1 & s2 & H1 & I1 & S & H2). injection H2 as <-.
  rewrite !cnt_snoc in *. destruct (skip e) eqn:Sk; [simpl in Z; lia|].
  assert (Z1 : cnt skip tr = 0) by lia. specialize (IH s1 H1 Z1).
  destruct (gauge_step f s1 e s2 I1 S) as [(ok & -> & G)|(n & p & q & M & G)].
  - rewrite Hr. simpl. lia.
  - specialize (Hm s1 e n p q M Sk). lia.
Qed.

(* the bound, stated on the trace: at every prefix of an accepted trace the number of source reads
   begun and not yet closed is at most K; the same for destination operations as long as no callback
   has failed (when one fails inside a Mount, the model stops counting that Mount) *)
Lemma inflight_trace_lemma tr1 tr2 st :
  accepts g c d0 (tr1 ++ tr2) = Some st ->
  cnt is_src_open tr1 - cnt is_src_close tr1 <= c_K c /\
  (cnt is_cbfail tr1 = 0 -> cnt is_dst_open tr1 - cnt is_dst_close tr1 <= c_K c).
Proof.
  intro Ha. destruct (inflight_prefix_lemma g c d0 tr1 tr2 st Ha) as [st1 [H1 [B1 B2]]]. split.
  - (* a source read is in flight from its SFB to its SFC *)
    assert (cnt is_src_open tr1 <= inflight_src g st1 + cnt is_src_close tr1); [|lia].
    apply (gauge_trace src_ph is_src_open is_src_close (fun _ => false)) with (tr := tr1); auto.
    + intros s e n p q M _. move_cases M; simpl; lia.
    + now apply cnt_zero.
  - (* a destination operation from its begin to its end event *)
    intro Z. assert (cnt is_dst_open tr1 <= inflight_dst g st1 + cnt is_dst_close tr1); [|lia].
    apply (gauge_trace dst_ph is_dst_open is_dst_close is_cbfail) with (tr := tr1); auto.
    intros s e n p q M Sk. move_cases M; try discriminate Sk; simpl; lia.
Qed.
End Gauges.
