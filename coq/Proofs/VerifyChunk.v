(* The result of io.CopyBuffer over a VerifyReader does not depend on the size of the copy
   buffer: for every buffer size >= 1 the loop computes the same canonical function of the
   reader script ([drain]).  So the 32 KiB of os.File.ReadFrom / the 1 MiB pool buffer are
   irrelevant to everything the stores observe. *)
From Oras Require Import Base.Prelude Model.Verify Proofs.VerifyFacts.
From Coq Require Import Lia ZArith.

Local Open Scope nat_scope.

(* what repeated Reads of a fresh VerifyReader (limit lim) deliver before the first error,
   that error, and what is left: by recursion on the script, no buffer size involved *)
Fixpoint drain (comb : bool) (evs : list ev) (lim : Z) : ((str * rerr) * list ev) * Z :=
  match evs with
  | [] => if (lim <=? 0)%Z then ((([], EEof), []), lim) else ((([], EUnexpEof), []), lim)
  | Zero :: r => if (lim <=? 0)%Z then ((([], EEof), evs), lim) else drain comb r lim
  | Fail :: r => if (lim <=? 0)%Z then ((([], EEof), evs), lim) else ((([], EInjected), r), lim)
  | Eof :: r => if (lim <=? 0)%Z then ((([], EEof), evs), lim) else ((([], EUnexpEof), r), lim)
  | Data d :: r =>
      if (lim <=? 0)%Z then ((([], EEof), evs), lim)
      else if (Z.of_nat (length d) <=? lim)%Z then
        let lim1 := (lim - Z.of_nat (length d))%Z in
        let go := let '(((bs, e), evs'), lim2) := drain comb r lim1 in (((d ++ bs, e), evs'), lim2) in
        if comb then
          match r with
          | [] => (((d, if (lim1 >? 0)%Z then EUnexpEof else EEof), []), lim1)
          | Fail :: r' => (((d, EInjected), r'), lim1)
          | Eof :: r' => (((d, if (lim1 >? 0)%Z then EUnexpEof else EEof), r'), lim1)
          | _ => go
          end
        else go
      else (((firstn (Z.to_nat lim) d, EEof), Data (skipn (Z.to_nat lim) d) :: r), 0%Z)
  end.

Lemma firstn_add {A} (l : list A) a c : firstn (a + c) l = firstn a l ++ firstn c (skipn a l).
Proof. revert l. induction a as [|a IH]; intros [|x l]; simpl; auto. - destruct c; reflexivity. - rewrite IH. reflexivity. Qed.

Lemma skipn_add {A} (l : list A) a c : skipn (a + c) l = skipn c (skipn a l).
Proof. revert l. induction a as [|a IH]; intros [|x l]; simpl; auto. destruct c; reflexivity. Qed.

Lemma drain_split comb d r lim k :
  1 <= k -> k < length d -> (Z.of_nat k <= lim)%Z ->
  drain comb (Data d :: r) lim =
  let '(((bs, e), evs'), lim1) := drain comb (Data (skipn k d) :: r) (lim - Z.of_nat k) in
  (((firstn k d ++ bs, e), evs'), lim1).
Proof.
  intros K1 K2 K3. cbn [drain]. rewrite skipn_length.
  destruct (Z.leb_spec lim 0); [lia|].
  destruct (Z.leb_spec (Z.of_nat (length d)) lim).
  - destruct (Z.leb_spec (lim - Z.of_nat k) 0); [lia|].
    destruct (Z.leb_spec (Z.of_nat (length d - k)) (lim - Z.of_nat k)); [|lia].
    replace (lim - Z.of_nat k - Z.of_nat (length d - k))%Z with (lim - Z.of_nat (length d))%Z by lia.
    assert (G : forall X : ((str * rerr) * list ev) * Z,
              (let '(((bs, e), evs'), lim2) := X in (((d ++ bs, e), evs'), lim2)) =
              (let '(((bs0, e0), evs0), Hn0) := (let '(((bs, e), evs'), lim2) := X in (((skipn k d ++ bs, e), evs'), lim2)) in
               (((firstn k d ++ bs0, e0), evs0), Hn0))).
    { intros [[[bs e] evs'] lim2]. rewrite app_assoc, firstn_skipn. reflexivity. }
    destruct comb.
    + destruct r as [|[d'| | |] r']; try (rewrite firstn_skipn; reflexivity); apply G.
    + apply G.
  - destruct (Z.leb_spec (lim - Z.of_nat k) 0).
    + assert (lim = Z.of_nat k) by lia. subst lim. rewrite Nat2Z.id, app_nil_r.
      replace (Z.of_nat k - Z.of_nat k)%Z with 0%Z by lia. reflexivity.
    + destruct (Z.leb_spec (Z.of_nat (length d - k)) (lim - Z.of_nat k)); [lia|].
      replace (Z.to_nat lim) with (k + Z.to_nat (lim - Z.of_nat k)) by lia.
      rewrite firstn_add, skipn_add. reflexivity.
Qed.

Section Chunk.
  Variable H : str -> str -> str.
  Variable comb : bool.

  Definition drained (hashed out : str) (X : ((str * rerr) * list ev) * Z) : (option rerr * str) * vrd :=
    let '(((bs, e), evs'), lim1) := X in
    ((if is_eof e then None else Some e, out ++ bs), mkVr (mkBase evs' None) lim1 (hashed ++ bs) (Some e) false).

  Lemma drained_shift hashed out pre X :
    drained (hashed ++ pre) (out ++ pre) X =
    drained hashed out (let '(((bs, e), evs'), lim1) := X in (((pre ++ bs, e), evs'), lim1)).
  Proof. destruct X as [[[bs e] evs'] lim1]. unfold drained. rewrite !app_assoc. reflexivity. Qed.

  Lemma copy_loop_drain bufsz : 1 <= bufsz -> forall fuel evs lim out hashed,
    ev_weight evs < fuel ->
    copy_loop comb fuel (mkVr (mkBase evs None) lim hashed None false) bufsz out
    = drained hashed out (drain comb evs lim).
  Proof.
    intro B1. induction fuel as [|f IH]; intros evs lim out hashed Fu; [lia|].
    cbn [copy_loop]. unfold vr_read at 1. cbn [v_err v_N v_base v_hashed v_verified].
    destruct (lim <=? 0)%Z eqn:Hn0.
    - (* the LimitedReader is exhausted *)
      assert (D : drain comb evs lim = ((([], EEof), evs), lim)).
      { destruct evs as [|[d| | |] r]; cbn [drain]; rewrite Hn0; reflexivity. }
      rewrite D. unfold drained. rewrite !app_nil_r. reflexivity.
    - pose proof (proj1 (Z.leb_gt _ _) Hn0) as Lp.
      pose proof (clamp_ge1 bufsz lim B1 Lp) as K1. pose proof (clamp_le bufsz lim Lp) as [_ K2].
      remember (clamp bufsz lim) as k eqn:Ek. clear Ek.
      unfold base_read. cbn [b_lim b_evs].
      assert (G : (lim >? 0)%Z = true) by (apply Z.gtb_lt; lia).
      destruct evs as [|[d| | |] r].
      + cbn [script_read drain]. rewrite Hn0. cbn [length is_eof andb]. rewrite Z.sub_0_r, G. reflexivity.
      + cbn [script_read]. simpl in Fu.
        destruct (length d <=? k) eqn:Ld.
        * (* the rest of the chunk in one Read *)
          apply Nat.leb_le in Ld. cbn [drain]. rewrite Hn0.
          assert (W : (Z.of_nat (length d) <=? lim)%Z = true) by (apply Z.leb_le; lia). rewrite W.
          assert (Go : copy_loop comb f (mkVr (mkBase r None) (lim - Z.of_nat (length d)) (hashed ++ d) None false) bufsz (out ++ d)
                       = drained hashed out (let '(((bs, e), evs'), lim2) := drain comb r (lim - Z.of_nat (length d)) in (((d ++ bs, e), evs'), lim2))).
          { rewrite IH by lia. apply drained_shift. }
          destruct comb eqn:Cb.
          -- destruct r as [|[d'| | |] r']; try exact Go.
             ++ cbn [is_eof andb]. destruct (lim - Z.of_nat (length d) >? 0)%Z; reflexivity.
             ++ reflexivity.
             ++ cbn [is_eof andb]. destruct (lim - Z.of_nat (length d) >? 0)%Z; reflexivity.
          -- exact Go.
        * (* a partial Read *)
          apply Nat.leb_gt in Ld.
          rewrite (drain_split comb d r lim k K1 Ld K2).
          assert (Lf : length (firstn k d) = k) by (apply firstn_length_le; lia). rewrite Lf.
          rewrite IH by (simpl; rewrite skipn_length; lia).
          apply drained_shift.
      + cbn [script_read drain length app]. rewrite Hn0, Z.sub_0_r, !app_nil_r. simpl in Fu. apply IH. lia.
      + cbn [script_read drain length app is_eof andb]. rewrite Hn0, Z.sub_0_r. reflexivity.
      + cbn [script_read drain length app is_eof andb]. rewrite Hn0, Z.sub_0_r, G. reflexivity.
  Qed.

  Theorem copy_buffer_bufsz_indep fixed fuel evs b1 b2 dg sz :
    1 <= b1 -> 1 <= b2 -> ev_weight evs < fuel ->
    copy_buffer H comb fixed fuel (mkBase evs None) b1 dg sz = copy_buffer H comb fixed fuel (mkBase evs None) b2 dg sz.
  Proof.
    intros B1 B2 Fu. unfold copy_buffer, new_vr, new_vr_gen.
    destruct (negb (valid_digest dg)).
    - (* the reader is born with an error: no Read reaches the source *)
      destruct fuel as [|f]; [lia|]. reflexivity.
    - destruct (fixed && (sz <? 0)%Z).
      + destruct fuel as [|f]; [lia|]. reflexivity.
      + rewrite (copy_loop_drain b1 B1), (copy_loop_drain b2 B2) by exact Fu. reflexivity.
  Qed.
End Chunk.
