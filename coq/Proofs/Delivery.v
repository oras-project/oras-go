(* C14 — the channel-level delivery of a batch result (Model/Delivery.v) delivers the
   batch result to every waiting member exactly once, in every interleaving, also to
   receivers that come after the main caller has moved on; its maximal runs have exactly
   the effect of the atomic EComplete of Model/Merge.v. *)
From Oras Require Import Base.Prelude Model.Referrers Model.Merge Proofs.Merge Model.Delivery.

Lemma remove_tid_In t l x : In x (remove_tid t l) <-> In x l /\ x <> t.
Proof.
  unfold remove_tid. rewrite filter_In, negb_true_iff, Nat.eqb_neq. tauto.
Qed.

Lemma remove_tid_notin t l : ~ In t l -> remove_tid t l = l.
Proof.
  induction l as [|h l IH]; simpl; intro H; auto.
  destruct (Nat.eqb_spec h t) as [->|Hne]; simpl; [tauto|]. f_equal. apply IH. tauto.
Qed.

Lemma remove_tid_length t l : NoDup l -> In t l -> S (length (remove_tid t l)) = length l.
Proof.
  induction l as [|h l IH]; intros N H; [destruct H|].
  inversion N as [|? ? Hn Hd]; subst. simpl.
  destruct (Nat.eqb_spec h t) as [->|Hne]; simpl.
  - f_equal. fold (remove_tid t l). now rewrite remove_tid_notin.
  - destruct H as [H|H]; [congruence|]. f_equal. now apply IH.
Qed.

Definition bufn (d : dstate) : nat := match d_buf d with Some _ => 1 | None => 0 end.

Record DInv (r : result) (ws : list tid) (d : dstate) : Prop := {
  dv_recv : forall t x, In (t, x) (d_received d) -> x = r;
  dv_buf : forall x, d_buf d = Some x -> x = r /\ is_ok r = false;
  dv_nd_w : NoDup (d_waiting d);
  dv_nd_r : NoDup (map fst (d_received d));
  dv_disj : forall t, In t (d_waiting d) -> ~ In t (map fst (d_received d));
  dv_set : forall t, In t ws <-> In t (d_waiting d) \/ In t (map fst (d_received d));
  dv_err : is_ok r = false -> d_closed d = false /\ length (d_waiting d) = (d_remaining d + bufn d)%nat;
  dv_done : d_main_done d = true -> if is_ok r then d_closed d = true else d_remaining d = 0%nat
}.

Lemma dinv_init r ws : NoDup ws -> DInv r ws (dinit ws).
Proof.
  intro N. constructor; simpl; intros; try discriminate; try tauto; auto; try constructor.
  all: try (unfold bufn; simpl; auto; lia).
Qed.

Lemma dinv_main r ws d buf cl rem dn :
  DInv r ws d ->
  (forall x, buf = Some x -> x = r /\ is_ok r = false) ->
  (is_ok r = false -> cl = false /\ length (d_waiting d) = (rem + match buf with Some _ => 1 | None => 0 end)%nat) ->
  (dn = true -> if is_ok r then cl = true else rem = 0%nat) ->
  DInv r ws (mkD buf cl rem dn (d_waiting d) (d_received d)).
Proof. intros I Hb He Hd. destruct I. constructor; auto. Qed.

Lemma dinv_recv r ws d t x buf cl :
  DInv r ws d -> In t (d_waiting d) -> x = r ->
  (forall y, buf = Some y -> y = r /\ is_ok r = false) ->
  (is_ok r = false -> cl = false /\ length (remove_tid t (d_waiting d)) = (d_remaining d + match buf with Some _ => 1 | None => 0 end)%nat) ->
  (d_main_done d = true -> if is_ok r then cl = true else d_remaining d = 0%nat) ->
  DInv r ws (mkD buf cl (d_remaining d) (d_main_done d) (remove_tid t (d_waiting d)) ((t, x) :: d_received d)).
Proof.
  intros I Ew Hx Hb He Hd. destruct I. constructor; simpl; auto.
  - intros t0 x0 [E|E]; [congruence|eauto].
  - now apply NoDup_filter.
  - constructor; auto.
  - intros t0 H0 [E|E]; apply remove_tid_In in H0 as [H0 H1]; [congruence|]. eapply dv_disj0; eauto.
  - intro t0. rewrite dv_set0, remove_tid_In. destruct (Nat.eq_dec t0 t) as [->|Hne]; [tauto|].
    split; [intros [A|A]; auto|intros [[A _]|[A|A]]; auto; congruence].
Qed.

Lemma dstep_inv r ws d e d' : DInv r ws d -> dstep r d e = Some d' -> DInv r ws d'.
Proof.
  intros I H. destruct e; simpl in H.
  - (* DClose *)
    destruct (d_main_done d) eqn:Em; simpl in H; [discriminate|].
    destruct (is_ok r) eqn:Eo; simpl in H; [|discriminate].
    destruct (d_closed d) eqn:Ec; [discriminate|]. injection H as <-.
    apply dinv_main; [exact I|apply (dv_buf _ _ _ I)|congruence|discriminate].
  - (* DSend *)
    destruct (d_main_done d) eqn:Em; simpl in H; [discriminate|].
    destruct (is_ok r) eqn:Eo; [discriminate|].
    destruct (d_remaining d) as [|k] eqn:Er; [discriminate|].
    destruct (d_buf d) eqn:Eb; [discriminate|]. injection H as <-.
    apply dinv_main; auto; try discriminate.
    + intros x [= <-]. auto.
    + intros _. destruct (dv_err _ _ _ I Eo) as [A B]. unfold bufn in B. rewrite Eb, Er in B. split; [exact A|lia].
  - (* DFinish *)
    destruct (d_main_done d) eqn:Em; [discriminate|].
    destruct (if is_ok r then d_closed d else Nat.eqb (d_remaining d) 0) eqn:Eg; [|discriminate]. injection H as <-.
    apply dinv_main; auto; [apply (dv_buf _ _ _ I)|apply (dv_err _ _ _ I)|].
    intros _. destruct (is_ok r); [exact Eg|now apply Nat.eqb_eq].
  - (* DRecv *)
    destruct (mem t (d_waiting d)) eqn:Ew; [|discriminate]. apply mem_In in Ew.
    pose proof (remove_tid_length t _ (dv_nd_w _ _ _ I) Ew) as Hl.
    destruct (d_buf d) as [x|] eqn:Eb.
    + injection H as <-. destruct (dv_buf _ _ _ I x Eb) as [Hx Ho].
      apply dinv_recv; auto; try discriminate; [|apply (dv_done _ _ _ I)].
      intros _. destruct (dv_err _ _ _ I Ho) as [A B]. unfold bufn in B. rewrite Eb in B. split; [exact A|lia].
    + destruct (d_closed d) eqn:Ec; [|discriminate]. injection H as <-.
      assert (Ho : is_ok r = true).
      { destruct (is_ok r) eqn:E; auto. destruct (dv_err _ _ _ I E). congruence. }
      apply dinv_recv; auto; try discriminate; try congruence.
      * now destruct r.
      * now rewrite Ho.
Qed.

Lemma drun_inv r ws tr : forall d d', DInv r ws d -> drun r d tr = Some d' -> DInv r ws d'.
Proof.
  induction tr as [|e tr IH]; intros d d' I H; simpl in H.
  - now injection H as <-.
  - destruct (dstep r d e) as [d1|] eqn:E; [|discriminate].
    apply (IH d1 d'); [eapply dstep_inv; eauto|exact H].
Qed.

Lemma stuck_done r ws d : DInv r ws d -> dstuck r d -> d_waiting d = [] /\ d_main_done d = true.
Proof.
  intros I S.
  assert (Hw : d_waiting d = []).
  { destruct (d_waiting d) as [|t l] eqn:Ew; auto. exfalso.
    assert (Hm : mem t (d_waiting d) = true) by (apply mem_In; rewrite Ew; now left).
    pose proof (S (DRecv t)) as S1. simpl in S1. rewrite Hm in S1.
    destruct (d_buf d) eqn:Eb; [discriminate|].
    destruct (d_closed d) eqn:Ec; [discriminate|].
    destruct (is_ok r) eqn:Eo.
    - pose proof (S DClose) as S2. simpl in S2. rewrite Eo, Ec in S2.
      destruct (d_main_done d) eqn:Em; [|discriminate].
      pose proof (dv_done _ _ _ I Em) as Hd. rewrite Eo in Hd. congruence.
    - destruct (dv_err _ _ _ I Eo) as [_ Hl]. unfold bufn in Hl. rewrite Eb, Ew in Hl. simpl in Hl.
      pose proof (S DSend) as S2. simpl in S2. rewrite Eo, Eb in S2.
      destruct (d_main_done d) eqn:Em.
      + pose proof (dv_done _ _ _ I Em) as Hd. rewrite Eo in Hd. lia.
      + simpl in S2. destruct (d_remaining d); [lia|discriminate]. }
  split; auto.
  destruct (d_main_done d) eqn:Em; auto. exfalso.
  pose proof (S DFinish) as S1. simpl in S1. rewrite Em in S1.
  destruct (is_ok r) eqn:Eo.
  - destruct (d_closed d) eqn:Ec; [discriminate|].
    pose proof (S DClose) as S2. simpl in S2. rewrite Em, Eo, Ec in S2. discriminate.
  - destruct (dv_err _ _ _ I Eo) as [_ Hl]. rewrite Hw in Hl. simpl in Hl.
    assert (d_remaining d = 0%nat) by lia. rewrite H in S1. discriminate.
Qed.

Lemma delivery_exactly_once r ws tr d :
  NoDup ws -> drun r (dinit ws) tr = Some d ->
  (forall t x, In (t, x) (d_received d) -> In t ws /\ x = r) /\
  NoDup (map fst (d_received d)) /\
  (dstuck r d -> forall t, In t ws -> In (t, r) (d_received d)).
Proof.
  intros N H. pose proof (drun_inv r ws tr _ _ (dinv_init r ws N) H) as I.
  split; [|split; [apply (dv_nd_r _ _ _ I)|]].
  - intros t x Hin. split; [|eapply dv_recv; eauto].
    apply (dv_set _ _ _ I). right. apply in_map_iff. exists (t, x). auto.
  - intros S t Ht. destruct (stuck_done r ws d I S) as [Hw _].
    apply (dv_set _ _ _ I) in Ht. rewrite Hw in Ht. destruct Ht as [[]|Ht].
    apply in_map_iff in Ht as ((t', x) & E & Hin). simpl in E. subst t'.
    now rewrite <- (dv_recv _ _ _ I t x Hin).
Qed.

(* late receivers: when the main caller has moved on to the swap on the error path at most
   one member has not received yet, and its value is waiting in the buffer *)
Lemma late_receiver r ws tr d :
  NoDup ws -> drun r (dinit ws) tr = Some d -> d_main_done d = true -> is_ok r = false ->
  (length (d_waiting d) <= 1)%nat /\ (d_waiting d <> [] -> d_buf d = Some r).
Proof.
  intros N H Hm Ho. pose proof (drun_inv r ws tr _ _ (dinv_init r ws N) H) as I.
  destruct (dv_err _ _ _ I Ho) as [_ Hl]. pose proof (dv_done _ _ _ I Hm) as Hd. rewrite Ho in Hd.
  unfold bufn in Hl. destruct (d_buf d) as [x|] eqn:Eb.
  - split; [lia|]. intros _. now destruct (dv_buf _ _ _ I x Eb) as [-> _].
  - split; [lia|]. intro Hne. destruct (d_waiting d); [congruence|simpl in Hl; lia].
Qed.

Definition dmu (d : dstate) : nat :=
  (3 * length (d_waiting d) + d_remaining d + (if d_main_done d then 0 else 2) + (if d_closed d then 0 else 1))%nat.

Lemma dstep_decreases r ws d e d' : DInv r ws d -> dstep r d e = Some d' -> (dmu d' < dmu d)%nat.
Proof.
  intros I H. unfold dmu. destruct e; simpl in H.
  - destruct (d_main_done d) eqn:Em; simpl in H; [discriminate|].
    destruct (is_ok r); simpl in H; [|discriminate].
    destruct (d_closed d) eqn:Ec; [discriminate|]. injection H as <-. simpl. rewrite ?Em, ?Ec. lia.
  - destruct (d_main_done d) eqn:Em; simpl in H; [discriminate|].
    destruct (is_ok r); [discriminate|].
    destruct (d_remaining d) as [|k] eqn:Er; [discriminate|].
    destruct (d_buf d); [discriminate|]. injection H as <-. simpl. lia.
  - destruct (d_main_done d) eqn:Em; [discriminate|].
    destruct (if is_ok r then d_closed d else Nat.eqb (d_remaining d) 0); [|discriminate].
    injection H as <-. simpl. lia.
  - destruct (mem t (d_waiting d)) eqn:Ew; [|discriminate]. apply mem_In in Ew.
    pose proof (remove_tid_length t _ (dv_nd_w _ _ _ I) Ew) as Hl.
    destruct (d_buf d).
    + injection H as <-. simpl. lia.
    + destruct (d_closed d) eqn:Ec; [|discriminate]. injection H as <-. simpl. lia.
Qed.

Lemma delivery_bounded r ws tr : forall d d',
  DInv r ws d -> drun r d tr = Some d' -> (length tr + dmu d' <= dmu d)%nat.
Proof.
  induction tr as [|e tr IH]; intros d d' I H; simpl in H.
  - injection H as <-. simpl. lia.
  - destruct (dstep r d e) as [d1|] eqn:E; [|discriminate].
    pose proof (dstep_decreases _ _ _ _ _ I E). pose proof (IH d1 d' (dstep_inv _ _ _ _ _ I E) H). simpl. lia.
Qed.

(* refinement of the delivery step: for a state of the Merge system in which the main
   caller t is about to complete with result r, every maximal run of the channel-level
   delivery to the other members of the batch hands out exactly what the atomic
   EComplete writes into their program counters *)
Lemma delivery_refines_complete s t r tr d :
  InvS s -> pcs s t = Completing r ->
  drun r (dinit (waiters s t)) tr = Some d -> dstuck r d ->
  forall x, x <> t -> In x (batch s) ->
    (forall rr, In (x, rr) (d_received d) <-> complete_pcs s t r x = Ret rr).
Proof.
  intros I Hpc H S x Hne Hin rr.
  assert (N : NoDup (waiters s t)) by (apply NoDup_filter, (i_items_nd s I)).
  destruct (delivery_exactly_once r _ tr d N H) as (A & B & C).
  assert (Hw : In x (waiters s t)) by (apply remove_tid_In; auto).
  assert (Hc : complete_pcs s t r x = Ret r).
  { destruct (complete_pcs_cases s t r x) as [[_ E]|(_ & E & _)]; [exact E|tauto]. }
  rewrite Hc. split.
  - intro Hr. destruct (A x rr Hr) as [_ ->]. reflexivity.
  - intro E. injection E as <-. apply C; auto.
Qed.
