(* C12: arithmetic on the twelve mode bits, by masks: a bit of the result is decided by which of
   the masks 0777 / 07000 (and those inside them) the position belongs to, never by its number *)
From Oras Require Import Base.Prelude Generated.GC12 Model.TarRoundTrip.

Lemma submask a b i : N.land a b = a -> N.testbit a i = true -> N.testbit b i = true.
Proof. intros E H. rewrite <- E, N.land_spec in H. now apply andb_true_iff in H. Qed.

Lemma submask_false a b i : N.land a b = a -> N.testbit b i = false -> N.testbit a i = false.
Proof. intros E H. destruct (N.testbit a i) eqn:A; [|reflexivity]. now rewrite (submask a b i E A) in H. Qed.

Lemma disjoint a b i : N.land a b = 0 -> N.testbit a i = true -> N.testbit b i = false.
Proof.
  intros E H. assert (T : N.testbit (N.land a b) i = false) by (rewrite E; apply N.bits_0).
  now rewrite N.land_spec, H in T.
Qed.

Lemma land_small m k : m < 2 ^ k -> N.land m (N.ones k) = m.
Proof. intro Hm. rewrite N.land_ones. now apply N.mod_small. Qed.

(* from an equation between numbers to the equation between their bits at position i; then
   every bit that is still a variable is taken both ways *)
Ltac bit_specs :=
  repeat (rewrite N.lor_spec || rewrite N.land_spec || rewrite N.ldiff_spec).

Ltac var_bits :=
  repeat match goal with
  | |- context [N.testbit ?x ?k] => destruct (N.testbit x k)
  end.

(* narrowing a directory created with (mode | 0700) under the umask - or the pre-created base
   directory - to its recorded mode leaves mode minus umask *)
Lemma narrow_ok umask m :
  m <= 4095 -> umask <= 511 ->
  narrow_mode (mid_dir_mode umask m) m = N.ldiff m umask /\
  narrow_mode (N.ldiff 511 umask) m = N.ldiff m umask.
Proof.
  intros Hm Hu.
  assert (Em : N.land m (N.lor 511 3584) = m) by (apply (land_small m 12); change (2 ^ 12) with 4096; lia).
  assert (Eu : N.land umask 511 = umask) by (apply (land_small umask 9); change (2 ^ 9) with 512; lia).
  split; apply N.bits_inj; intro i;
    unfold narrow_mode, mid_dir_mode, create_mode, perm_bits, dir_create_bits, owner_rwx, c12_dir_owner_bits;
    bit_specs; (destruct (N.testbit 511 i) eqn:P; [|destruct (N.testbit 3584 i) eqn:S]).
  (* for both equations: a permission bit; a setuid/setgid/sticky bit; a bit above the twelve *)
  1,4: rewrite (disjoint 511 3584 i eq_refl P), ?(submask 511 1023 i eq_refl P); var_bits; reflexivity.
  1,3: rewrite (submask_false umask 511 i Eu P), ?(submask_false 448 511 i eq_refl P); var_bits; reflexivity.
  all: assert (M : N.testbit m i = false) by (apply (submask_false m _ i Em); now rewrite N.lor_spec, P, S);
    rewrite M, (submask_false umask 511 i Eu P), ?(submask_false 448 511 i eq_refl P); var_bits; reflexivity.
Qed.

(* restoreDirModes without PreservePermissions never drops a setuid/setgid/sticky bit that the
   directory already has (e.g. the set-group-ID bit inherited from the working directory) nor
   one that is recorded: the special bits of the result are exactly those two sets *)
Lemma narrow_special cur m :
  N.land (narrow_mode cur m) 3584 = N.lor (N.land cur 3584) (N.land m 3584).
Proof.
  apply N.bits_inj. intro i. unfold narrow_mode, perm_bits. bit_specs.
  destruct (N.testbit 511 i) eqn:P; [rewrite (disjoint 511 3584 i eq_refl P)|]; var_bits; reflexivity.
Qed.

Lemma narrow_never_widens cur m :
  N.land (narrow_mode cur m) 511 = N.land (N.land cur 511) (N.land m 511).
Proof.
  apply N.bits_inj. intro i. unfold narrow_mode, perm_bits. bit_specs.
  destruct (N.testbit 511 i) eqn:P; [rewrite (disjoint 511 3584 i eq_refl P)|]; var_bits; reflexivity.
Qed.

(* a bit above the permission bits that is set before stays set (the set-group-ID bit a directory
   inherits from its parent) *)
Lemma narrow_lor_special cur m sg :
  N.land sg 3584 = sg -> narrow_mode (N.lor cur sg) m = N.lor (narrow_mode cur m) sg.
Proof.
  intro E. apply N.bits_inj. intro i. unfold narrow_mode, perm_bits. bit_specs.
  destruct (N.testbit sg i) eqn:G; [|var_bits; reflexivity].
  rewrite (submask sg 3584 i E G), (disjoint 3584 511 i eq_refl (submask sg 3584 i E G)). var_bits; reflexivity.
Qed.

Lemma chmod_small m : m <= 4095 -> chmod_mode m = m.
Proof. intro Hm. apply (land_small m 12). change (2 ^ 12) with 4096. lia. Qed.

(* restoreDirModes on a directory that still has its creation mode, [sg] being what it inherited *)
Lemma final_ok umask preserve m cur sg :
  m <= 4095 -> (preserve = false -> umask <= 511) -> N.land sg 3584 = sg ->
  cur = mid_dir_mode umask m \/ cur = N.ldiff 511 umask ->
  final_dir_mode preserve (N.lor cur sg) m = if preserve then m else N.lor (N.ldiff m umask) sg.
Proof.
  intros Hm Hu Hs Hc. unfold final_dir_mode. destruct preserve; [now apply chmod_small|].
  rewrite (narrow_lor_special _ _ _ Hs). f_equal.
  destruct (narrow_ok umask m Hm (Hu eq_refl)) as [H1 H2]. destruct Hc as [-> | ->]; assumption.
Qed.

(* a directory made by mkdir(2) with a mode masked by 01777 is not set-group-ID by itself *)
Lemma create_dir_no_sgid umask m : N.land (create_mode dir_create_bits umask m) sgid = 0.
Proof.
  apply N.bits_inj. intro i. unfold create_mode, dir_create_bits, sgid. bit_specs. rewrite N.bits_0.
  destruct (N.testbit 1024 i) eqn:G; [rewrite (disjoint 1024 1023 i eq_refl G)|]; var_bits; reflexivity.
Qed.

Lemma land_lor_sgid pm : N.land pm sgid = 0 -> N.land (N.lor pm sgid) sgid = sgid.
Proof. intro Hp. rewrite N.land_lor_distr_l, Hp, N.lor_0_l. apply N.land_diag. Qed.

Lemma has_wx_created umask m :
  N.land umask owner_wx = 0 -> has_wx (create_mode dir_create_bits umask (N.lor m owner_rwx)) = true.
Proof.
  intro Hu. apply N.eqb_eq, N.bits_inj. intro i.
  unfold create_mode, dir_create_bits, owner_rwx, c12_dir_owner_bits, owner_wx in *. bit_specs.
  destruct (N.testbit 192 i) eqn:W; [|apply andb_false_r]. rewrite N.land_comm in Hu.
  rewrite (submask 192 448 i eq_refl W), (submask 192 1023 i eq_refl W), (disjoint 192 umask i Hu W).
  now rewrite orb_true_r.
Qed.

Lemma has_wx_lor a c : has_wx a = true -> has_wx (N.lor a c) = true.
Proof.
  unfold has_wx. intro Ha. apply N.eqb_eq in Ha. apply N.eqb_eq.
  rewrite N.land_lor_distr_l, Ha. apply N.bits_inj. intro i.
  rewrite N.lor_spec, N.land_spec. destruct (N.testbit owner_wx i), (N.testbit c i); reflexivity.
Qed.

Lemma has_wx_x m : has_wx m = true -> has_x m = true.
Proof.
  unfold has_wx, has_x, owner_wx, owner_x. intro Hw. apply N.eqb_eq in Hw. apply N.eqb_eq, N.bits_inj. intro i.
  rewrite N.land_spec, N.land_comm in *.
  destruct (N.testbit 64 i) eqn:X; [|apply andb_false_r].
  now rewrite (submask 192 m i Hw (submask 64 192 i eq_refl X)).
Qed.
