(* file.Store options.  With DisableOverwrite the property holds for ALL names, aliases
   included: a path that exists is never created again, so nothing visible is clobbered. *)
From Oras Require Import Base.Prelude Model.Verify Proofs.Verify.

Ltac refused := let E := fresh in intro E; inversion E; subst; split; [assumption|intros _; split; [discriminate|auto]].

Section Opts.
  Variable H : str -> str -> str.

  Lemma file_push_opt_default comb fuel s name d evs :
    file_push_opt H comb true default_opts fuel s name d evs = file_push_name H comb true fuel s name d evs.
  Proof. unfold file_push_opt, file_push_name, default_opts. destruct name; reflexivity. Qed.

  Lemma file_push_opt_do comb o fuel s name d evs e s' :
    file_ok H s -> o_disable_overwrite o = true ->
    file_push_opt H comb true o fuel s name d evs = (e, s') ->
    file_ok H s' /\
    (name <> [] ->
       (e = None ->
          exists bs, file_fetch s' name d = Some bs /\ file_exists s' name d = true /\
                     matches_desc H (d_dg d) (d_sz d) bs /\ exists rest, stream evs = bs ++ rest) /\
       (e <> None -> forall name' d', file_exists s' name' d' = file_exists s name' d' /\
                                      file_fetch s' name' d' = file_fetch s name' d')).
  Proof.
    intros Ok Do. unfold file_push_opt. destruct name as [|c n0].
    - destruct (o_ignore_noname o); [intro E; inversion E; subst; split; [exact Ok|congruence]|].
      destruct Ok as [Ok1 Ok2].
      destruct (o_fb_limit o) as [l|].
      + destruct (limited_push (mem_push H comb true fuel) l (f_fb s) d evs) as [e0 fb'] eqn:El.
        intro E; inversion E; subst. split; [|congruence]. split; auto. simpl.
        apply limited_push_spec in El as [(_ & ->)|(_ & Ep)]; auto. eapply mem_push_ok; eauto.
      + destruct (mem_push H comb true fuel (f_fb s) d (mkBase evs None)) as [e0 fb'] eqn:Ep.
        intro E; inversion E; subst. split; [|congruence]. split; auto. simpl. eapply mem_push_ok; eauto.
    - remember (c :: n0) as name eqn:Hn.
      destruct (name_in name (f_names s)); [refused|].
      destruct (resolve_name name) as [path|]; [|refused].
      rewrite Do. cbn [andb].
      destruct (assoc_get (f_files s) path) eqn:Gf; [refused|].
      intro E.
      assert (Pf : path_free s path).
      { intros dg p Gp. destruct (proj1 Ok _ _ Gp) as (bs & Fb & _).
        destruct (str_eqb path p) eqn:Q; auto. apply str_eqb_spec in Q. subst p. congruence. }
      destruct (file_push_spec H comb fuel s name path d evs e s' Ok (fun _ => Pf) E) as (A & B & C).
      split; [exact A|]. intros Nn. split; [|exact C].
      intro En. destruct (B En) as (bs & F1 & F2 & _ & _ & F5). exists bs.
      destruct (F5 (or_introl Nn)) as [G1 G2]. auto.
  Qed.

  Lemma file_reach_do_ok s : file_reach_do H s -> file_ok H s.
  Proof.
    induction 1 as [|o comb fuel s name d evs e s' R IH Do E].
    - split; intros d bs; discriminate.
    - exact (proj1 (file_push_opt_do comb o fuel s name d evs e s' IH Do E)).
  Qed.

  Theorem file_disable_overwrite comb o fuel s name d evs e s' :
    file_reach_do H s -> o_disable_overwrite o = true -> name <> [] ->
    file_push_opt H comb true o fuel s name d evs = (e, s') ->
    (e = None ->
       exists bs, file_fetch s' name d = Some bs /\ file_exists s' name d = true /\
                  matches_desc H (d_dg d) (d_sz d) bs /\ exists rest, stream evs = bs ++ rest) /\
    (e <> None -> forall name' d', file_exists s' name' d' = file_exists s name' d' /\
                                   file_fetch s' name' d' = file_fetch s name' d') /\
    (forall name' d' bs, file_fetch s' name' d' = Some bs ->
                         d_dg d' = digest_of H (alg_of (d_dg d')) bs /\ valid_digest (d_dg d') = true).
  Proof.
    intros R Do Nn E.
    destruct (file_push_opt_do comb o fuel s name d evs e s' (file_reach_do_ok s R) Do E) as (A & B).
    destruct (B Nn) as [B1 B2]. split; [exact B1|]. split; [exact B2|].
    intros name' d' bs. apply file_fetch_ok. exact A.
  Qed.

  Theorem file_ignore_noname comb o fuel s d evs :
    o_ignore_noname o = true -> file_push_opt H comb true o fuel s [] d evs = (None, s).
  Proof. intro I. unfold file_push_opt. rewrite I. reflexivity. Qed.
End Opts.

Lemma file_options (H : str -> str -> str) comb fuel s name d evs :
    file_push_opt H comb true default_opts fuel s name d evs = file_push_name H comb true fuel s name d evs /\
    (forall o, o_ignore_noname o = true -> file_push_opt H comb true o fuel s [] d evs = (None, s)).
Proof.
  split; [apply file_push_opt_default|]. intros o I. apply file_ignore_noname; auto.
Qed.
