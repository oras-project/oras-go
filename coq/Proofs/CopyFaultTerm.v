(* CopyFaultTerm: a potential function for the spec-level system without Mounter.  Every event of CopySpec
   other than a return moves exactly one node strictly forward through its phases, so a fault-free run has a
   bounded number of operation events; with the no-stuck-state theorem: from every state reached by a
   fault-free accepted trace there is a finite fault-free continuation to the successful return.  The completion
   argument is stated for any weight and any class of witness events ([nofault_completes_by]); CopyFaultTermM.v
   instantiates it for Mounter destinations. *)
From Oras Require Import Base.Prelude Model.CopySpec Model.CopyTop Model.CopyOpt Model.CopyFault
  Proofs.CopySpec Proofs.CopyFault Proofs.CopyFaultLive.
Local Open Scope nat_scope.

(* potential functions: the sum over the universe of a weight of each node's phase *)

Fixpoint wsum (w : phase -> nat) (f : node -> phase) (l : list node) : nat :=
  match l with [] => 0 | n :: r => w (f n) + wsum w f r end.

Definition measure (w : phase -> nat) (g : graph) (st : state) : nat := wsum w (ph st) (seq 0 (g_n g)).

Lemma wsum_upd_notin w f n p l : ~ In n l -> wsum w (upd f n p) l = wsum w f l.
Proof.
  induction l as [|a l IH]; simpl; intro H; [reflexivity|].
  rewrite IH by tauto. rewrite upd_other by (intro E; apply H; left; congruence). reflexivity.
Qed.

Lemma wsum_upd_lt w f n p l : NoDup l -> In n l -> w p < w (f n) -> wsum w (upd f n p) l < wsum w f l.
Proof.
  induction l as [|a l IH]; simpl; intros Hnd Hin Hw; [contradiction|].
  inversion Hnd as [|? ? Hna Hnd']; subst.
  destruct Hin as [->|Hin].
  - rewrite upd_same, wsum_upd_notin by assumption. lia.
  - assert (a <> n) by (intro E; subst; contradiction).
    rewrite upd_other by assumption. specialize (IH Hnd' Hin Hw). lia.
Qed.

Lemma wsum_le w b f l : (forall p, w p <= b) -> wsum w f l <= b * length l.
Proof. intro Hb. induction l as [|a l IH]; simpl; [lia|]. pose proof (Hb (f a)). lia. Qed.

Definition weight (p : phase) : nat :=
  match p with
  | Idle => 15 | ExQ _ => 14 | NeedFetch => 13 | MF1 => 12 | MF2 => 11 | Waiting => 10
  | Rdy _ => 9 | F1 _ => 8 | F2 _ => 7 | Pushing _ true => 6 | Pushing _ false => 5
  | Closing _ => 4 | SkipP => 4 | TagP0 _ => 3 | TagP1 _ => 2 | PostP => 1
  | Done => 0 | Dead => 0
  | MtRdy | Mounting | MtPre | MtF1 | MtF2 | MtC | MountedP => 0
  end.

Definition is_ev (fe : fevent) : bool := match fe with Ev _ => true | _ => false end.
Definition count_ev (tr : list fevent) : nat := length (filter is_ev tr).

Section T.
Variable g : graph.
Variable c : cfg.
Variable d0 : list node.

Lemma step_measure w st e st' : Inv g c d0 st -> step g c st e = Some st' -> (forall b, e <> Ret b) ->
  (forall n p q, ph st n = p -> move g c st e n p q -> w q < w p) ->
  measure w g st' < measure w g st.
Proof.
  intros I H Hrt Hw. apply step_cases in H as [_ S]. destruct S as [n p q Hp M|b -> _]; [|now destruct (Hrt b)].
  unfold measure. cbn [moved ph]. apply wsum_upd_lt.
  - apply seq_NoDup.
  - apply in_seq. pose proof (move_bound g c d0 _ _ _ _ _ I Hp M). lia.
  - rewrite Hp. exact (Hw n p q Hp M).
Qed.

(* [weight] decreases from every phase off the mount path, and without Mounter no node is on it *)
Lemma nomount_weight st : Inv g c d0 st -> c_mount c = false ->
  forall e n p q, ph st n = p -> move g c st e n p q -> weight q < weight p.
Proof.
  intros I Hnm e n p q Hp M.
  assert (Hmt : mt_ph p = false).
  { destruct (mt_ph p) eqn:E; [|reflexivity]. rewrite <- Hp in E.
    destruct (i_mt _ _ _ _ I n E) as [Hc _]. congruence. }
  move_cases M; try discriminate Hmt; cbn; lia.
Qed.

Variable ext : bool.

Lemma plain_fstep fs fe fs' : plain fs -> fstep g c ext fs fe = Some fs' -> is_fault fe = false -> plain fs'.
Proof.
  intros [Hc [Ha Hrd]] H Hf. apply fstep_inv in H as [_ H].
  destruct H as [| | |n _ _ Hm| |fe n p _ _ K| |]; try discriminate Hf; try (repeat split; assumption).
  - rewrite Hrd in Hm. discriminate.
  - rewrite (kills_fault _ _ _ _ _ K) in Hf. discriminate.
Qed.

Lemma nofault_fstep w fs fe fs' : Inv g c d0 (fb fs) -> plain fs -> fstep g c ext fs fe = Some fs' ->
  is_fault fe = false ->
  (forall e n p q, fe = Ev e -> ph (fb fs) n = p -> move g c (fb fs) e n p q -> w q < w p) ->
  (fe = ProOk /\ fs' = fs) \/
  (exists b, fe = Ev (Ret b) /\ returned (fb fs') = Some b) \/
  (exists e, fe = Ev e /\ returned (fb fs') = None /\ measure w g (fb fs') < measure w g (fb fs)).
Proof.
  intros I [Hc [Ha Hrd]] H Hf Hw. apply fstep_inv in H as [Hr H].
  destruct H as [| | |n _ _ Hm|e st' _ He Hs _|fe n p _ _ K| |]; try discriminate Hf.
  - right. left. exists true. split; reflexivity.
  - right. left. exists false. split; reflexivity.
  - rewrite Hrd in Hm. discriminate.
  - right. right. exists e. split; [reflexivity|]. cbn [fb with_base]. split.
    + rewrite <- Hr. now apply (step_keeps_returned g c _ _ _ Hs).
    + apply (step_measure w _ _ _ I Hs He). intros n p q. now apply Hw.
  - rewrite (kills_fault _ _ _ _ _ K) in Hf. discriminate.
  - left. split; reflexivity.
Qed.

Lemma nofault_ev_bound tr : c_mount c = false -> forall fs fs', Inv g c d0 (fb fs) -> plain fs ->
  returned (fb fs) = None -> frun g c ext fs tr = Some fs' -> existsb is_fault tr = false ->
  count_ev tr <= measure weight g (fb fs) + 1.
Proof.
  intro Hnm. induction tr as [|fe tr IH]; intros fs fs' I Hp Hr H Hf; [unfold count_ev; simpl; lia|].
  simpl in H. destruct (fstep g c ext fs fe) as [fs1|] eqn:E; [|discriminate].
  simpl in Hf. apply orb_false_iff in Hf as [Hf1 Hf2].
  pose proof (plain_fstep _ _ _ Hp E Hf1) as Hp1.
  destruct (nofault_fstep weight _ _ _ I Hp E Hf1) as [[-> ->]|[[b [-> Hb]]|[e [-> [Hn Hm]]]]].
  - intros e n p q _. now apply nomount_weight.
  - unfold count_ev in *. simpl. eapply IH; eauto.
  - destruct tr as [|fe2 tr2].
    + unfold count_ev. simpl. lia.
    + simpl in H. rewrite (fstep_after_ret g c ext fs1 fe2 b Hb) in H. discriminate.
  - pose proof (fstep_preserves_inv g c ext d0 _ _ _ I E) as I1.
    specialize (IH fs1 fs' I1 Hp1 Hn H Hf2). unfold count_ev in *. simpl. lia.
Qed.

Lemma faccepts_nofault tr fs : ext_ok g c ext d0 -> faccepts g c ext d0 tr = Some fs ->
  existsb is_fault tr = false -> live_inv g c ext d0 fs /\ plain fs /\ tainted g fs = false.
Proof.
  intros Hx Ha Hf. split; [exact (faccepts_live g c ext d0 tr fs Hx Ha)|]. split.
  - apply (frun_nofault_preserves g c ext plain plain_fstep tr (finit c ext d0) fs); auto. repeat split.
  - exact (frun_untainted g c ext tr _ fs Ha Hf (finit_untainted g c ext d0)).
Qed.

(* Completion.  Q: a further invariant of the steps; good: a class of events among which a fault-free
   one is enabled wherever the invariants hold, and under which the weight w of the event's node decreases. *)
Section Completion.
Variable w : phase -> nat.
Variable Q : fstate -> Prop.
Variable good : event -> Prop.
Hypothesis Q_fstep : forall fs fe fs', Q fs -> fstep g c ext fs fe = Some fs' -> Q fs'.
Hypothesis progress : forall fs, live_inv g c ext d0 fs -> Q fs -> returned (fb fs) = None ->
  exists e fs', is_fault (Ev e) = false /\ good e /\ fstep g c ext fs (Ev e) = Some fs'.
Hypothesis good_weight : forall st e n p q, Inv g c d0 st -> good e ->
  ph st n = p -> move g c st e n p q -> w q < w p.

Lemma completes_state : forall m fs, measure w g (fb fs) < m ->
  live_inv g c ext d0 fs -> Q fs -> plain fs -> tainted g fs = false -> returned (fb fs) = None ->
  exists tr fs', existsb is_fault tr = false /\ frun g c ext fs tr = Some fs' /\ returned (fb fs') = Some true.
Proof.
  induction m as [|m IH]; intros fs Hm HL HQ Hp Ht Hr; [lia|].
  destruct (progress fs HL HQ Hr) as [e [fs1 [Hf [Hg E]]]]. pose proof HL as [I _].
  destruct (nofault_fstep w _ _ _ I Hp E Hf) as [[Hx _]|[[b [[= ->] Hrb]]|[e' [_ [Hn Hlt]]]]].
  - intros e0 n p q [= <-]. now apply good_weight.
  - discriminate.
  - (* the return of an untainted state is the successful one *)
    exists [Ev (Ret b)], fs1. cbn [existsb frun]. rewrite E. repeat split.
    apply fstep_ret in E as [_ [Hb _]]. rewrite Ht in Hb. destruct b; [exact Hrb | discriminate].
  - destruct (IH fs1) as [tr [fs' [Hnf [Hrun Hret]]]];
      eauto using live_fstep, plain_fstep, untainted_step; [lia|].
    exists (Ev e :: tr), fs'. cbn [existsb frun]. rewrite Hf, Hnf, E. auto.
Qed.

Lemma nofault_completes_by tr fs : ext_ok g c ext d0 ->
  faccepts g c ext d0 tr = Some fs -> existsb is_fault tr = false -> Q fs -> returned (fb fs) = None ->
  exists tr2 fs2, existsb is_fault tr2 = false /\
    faccepts g c ext d0 (tr ++ tr2) = Some fs2 /\ returned (fb fs2) = Some true.
Proof.
  intros Hx Ha Hf HQ Hr. destruct (faccepts_nofault tr fs Hx Ha Hf) as [HL [Hp Ht]].
  destruct (completes_state _ fs (Nat.lt_succ_diag_r _) HL HQ Hp Ht Hr) as [tr2 [fs2 [Hnf [Hrun Hret]]]].
  exists tr2, fs2. split; [exact Hnf|]. split; [|exact Hret]. exact (frun_join g c ext _ _ _ _ _ Ha Hrun).
Qed.

End Completion.

End T.

(* without Mounter: every event is good *)
Theorem fnofault_completes (g : graph) (c : cfg) (ext : bool) (d0 : list node) (rank : node -> nat) :
  (forall n x, In x (succ' g n) -> rank x < rank n) ->
  1 <= c_K c -> c_root c < g_n g -> (forall x, In x (c_xroots c) -> x < g_n g) ->
  (forall n x, n < g_n g -> In x (succ' g n) -> x < g_n g) ->
  c_mount c = false ->
  (ext = true -> forall n, ~ In (c_root c) (succ' g n)) ->
  forall tr fs, ext_ok g c ext d0 ->
  faccepts g c ext d0 tr = Some fs -> existsb is_fault tr = false -> returned (fb fs) = None ->
  exists tr2 fs2, existsb is_fault tr2 = false /\
    faccepts g c ext d0 (tr ++ tr2) = Some fs2 /\ returned (fb fs2) = Some true.
Proof.
  intros Hrk HK Hroot Hxr Hsu Hnm Hvp tr fs Hx Ha Hf.
  apply (nofault_completes_by g c d0 ext weight (fun _ => True) (fun _ => True)); auto.
  - intros fs0 HL _ Hr.
    destruct (fprogress_state g c ext d0 rank Hrk HK Hroot Hxr Hsu Hnm Hvp fs0 HL Hr) as [e [fs1 [Hnf [_ E]]]].
    eauto.
  - intros st e n p q I _. now apply (nomount_weight g c d0).
Qed.

Lemma weight_le p : weight p <= 15.
Proof. destruct p; simpl; try lia; destruct rd; lia. Qed.

Theorem fnofault_bounded (g : graph) (c : cfg) (ext : bool) (d0 : list node) tr fs :
  ext_ok g c ext d0 -> c_mount c = false ->
  faccepts g c ext d0 tr = Some fs -> existsb is_fault tr = false ->
  count_ev tr <= 15 * g_n g + 1.
Proof.
  intros Hx Hnm Ha Hf.
  pose proof (nofault_ev_bound g c d0 ext tr Hnm (finit c ext d0) fs (finit_inv g c ext d0 Hx)
                (conj eq_refl (conj eq_refl eq_refl)) (finit_returned c ext d0) Ha Hf) as H.
  pose proof (wsum_le weight 15 (ph (fb (finit c ext d0))) (seq 0 (g_n g)) weight_le) as Hw.
  rewrite seq_length in Hw. unfold measure in H. lia.
Qed.

Theorem frerun_completes (g : graph) (c1 c2 : cfg) (ext1 ext2 : bool) (d0 : list node) (rank : node -> nat)
        tr1 fs1 tr2 fs2 :
  (forall n x, In x (succ' g n) -> rank x < rank n) ->
  1 <= c_K c2 -> c_root c2 < g_n g -> (forall x, In x (c_xroots c2) -> x < g_n g) ->
  (forall n x, n < g_n g -> In x (succ' g n) -> x < g_n g) ->
  c_mount c2 = false -> (ext2 = true -> forall n, ~ In (c_root c2) (succ' g n)) ->
  ext_ok g c1 ext1 d0 -> closed_nodes g d0 -> mt_consistent g ->
  faccepts g c1 ext1 d0 tr1 = Some fs1 ->
  ext_ok g c2 ext2 (dst (fb fs1)) ->
  faccepts g c2 ext2 (dst (fb fs1)) tr2 = Some fs2 -> existsb is_fault tr2 = false -> returned (fb fs2) = None ->
  exists tr3 fs3, existsb is_fault tr3 = false /\
    faccepts g c2 ext2 (dst (fb fs1)) (tr2 ++ tr3) = Some fs3 /\ returned (fb fs3) = Some true /\
    forall r n, is_call_root g c2 ext2 r -> reach g r n -> has g (dst (fb fs3)) n = true.
Proof.
  intros Hrk HK Hroot Hxr Hsu Hnm Hvp Hx1 Hc Hmt Ha1 Hx2 Ha2 Hnf Hr.
  destruct (fnofault_completes g c2 ext2 _ rank Hrk HK Hroot Hxr Hsu Hnm Hvp tr2 fs2 Hx2 Ha2 Hnf Hr)
    as [tr3 [fs3 [Hnf3 [Ha3 Hret]]]].
  exists tr3, fs3. repeat split; auto.
  exact (fretry_completes g c1 c2 ext1 ext2 d0 tr1 fs1 _ fs3 Hx1 Hc Hmt Ha1 Hx2 Ha3 Hret).
Qed.
