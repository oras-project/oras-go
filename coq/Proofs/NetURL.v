(* Proofs about the net/url model (Model/NetURL.v): what ValidateRegistry accepts is a clean URL
   authority ([reg_clean], the hypothesis of C20_url_exact is discharged for the modelled
   validator, whatever netip.ParseAddr does), and query escaping round-trips and is query-safe. *)
From Oras Require Import Base.Prelude Base.Regex Generated.GC20 Model.NetURL Model.Reference Model.RefOps
  Proofs.Reference Proofs.RefOps Proofs.RefURL.

Definition bytes_upto (n : nat) : list N := map N.of_nat (seq 0 n).

Lemma forall_bytes n (P : N -> bool) :
  forallb P (bytes_upto n) = true -> forall c, (c < N.of_nat n)%N -> P c = true.
Proof.
  intros H c Hc. rewrite forallb_forall in H. apply H. unfold bytes_upto.
  apply in_map_iff. exists (N.to_nat c). split; [apply N2Nat.id|].
  apply in_seq. lia.
Qed.

(* a byte that unescape(encodeHost / encodeZone) passes through unchanged *)
Definition hostc (c : N) : Prop := c <> c_pct /\ ((c <? 128) = true -> host_plain c = true).

(* [t] is [s] with its escapes resolved: never longer, and as long only if nothing was escaped *)
Definition resolved (s t : str) : Prop :=
  (length t <= length s)%nat /\ (length t = length s -> t = s /\ Forall hostc s).

Lemma resolved_nil : resolved [] [].
Proof. split; [lia|]. intros _. split; [reflexivity | constructor]. Qed.

Lemma resolved_cons c s t : hostc c -> resolved s t -> resolved (c :: s) (c :: t).
Proof.
  intros Hc [L Q]. split; [simpl; lia|]. simpl. intro HL. destruct Q as [-> F]; [lia|].
  split; [reflexivity | now constructor].
Qed.

Lemma resolved_pct h1 h2 s v t : resolved s t -> resolved (c_pct :: h1 :: h2 :: s) (v :: t).
Proof. intros [L _]. split; simpl; lia. Qed.

Lemma resolved_app s1 t1 s2 t2 : resolved s1 t1 -> resolved s2 t2 -> resolved (s1 ++ s2) (t1 ++ t2).
Proof.
  intros [L1 Q1] [L2 Q2]. unfold resolved. rewrite !app_length. split; [lia|]. intro HL.
  destruct Q1 as [-> F1]; [lia|]. destruct Q2 as [-> F2]; [lia|]. split; [reflexivity | now apply Forall_app].
Qed.

Lemma passed_hostc c : (c =? c_pct) = false -> (c <? 128) && negb (host_plain c) && negb (c =? 43) = false -> hostc c.
Proof.
  intros Ec Eb. split; [now apply N.eqb_neq|]. intro Hlt. rewrite Hlt in Eb. simpl in Eb.
  destruct (host_plain c) eqn:Hp; [reflexivity|]. simpl in Eb.
  destruct (c =? 43) eqn:E43; [|discriminate]. apply N.eqb_eq in E43. subst c. discriminate.
Qed.

Lemma unescape_host_spec : forall n s t, (length s <= n)%nat -> unescape_host s = Some t -> resolved s t.
Proof.
  induction n as [|n IH]; intros [|c r] t Hn H; simpl in Hn; try lia; try (injection H as <-; apply resolved_nil).
  simpl in H. destruct (c =? c_pct) eqn:Ec.
  - apply N.eqb_eq in Ec. subst c. destruct r as [|h1 [|h2 rest]]; try discriminate.
    destruct (is_hex_c h1 && is_hex_c h2); [|discriminate].
    destruct ((unhex_c h1 <? 8) && negb ((h1 =? 50) && (h2 =? 53))); [discriminate|].
    destruct (unescape_host rest) as [t'|] eqn:E; [|discriminate]. injection H as <-.
    apply resolved_pct, IH; [simpl in Hn; lia | exact E].
  - destruct ((c <? 128) && negb (host_plain c) && negb (c =? 43)) eqn:Eb; [discriminate|].
    destruct (unescape_host r) as [t'|] eqn:E; [|discriminate]. injection H as <-.
    apply resolved_cons; [now apply passed_hostc | apply IH; [lia | exact E]].
Qed.

Lemma unescape_zone_spec : forall n s t, (length s <= n)%nat -> unescape_zone s = Some t -> resolved s t.
Proof.
  induction n as [|n IH]; intros [|c r] t Hn H; simpl in Hn; try lia; try (injection H as <-; apply resolved_nil).
  simpl in H. destruct (c =? c_pct) eqn:Ec.
  - apply N.eqb_eq in Ec. subst c. destruct r as [|h1 [|h2 rest]]; try discriminate.
    destruct (is_hex_c h1 && is_hex_c h2); [|discriminate].
    match type of H with (if ?c then _ else _) = _ => destruct c end; [discriminate|].
    destruct (unescape_zone rest) as [t'|] eqn:E; [|discriminate]. injection H as <-.
    apply resolved_pct, IH; [simpl in Hn; lia | exact E].
  - destruct ((c <? 128) && negb (host_plain c) && negb (c =? 43)) eqn:Eb; [discriminate|].
    destruct (unescape_zone r) as [t'|] eqn:E; [|discriminate]. injection H as <-.
    apply resolved_cons; [now apply passed_hostc | apply IH; [lia | exact E]].
Qed.

Lemma unescape_host_resolved s t : unescape_host s = Some t -> resolved s t.
Proof. apply (unescape_host_spec (length s)). lia. Qed.

Lemma last_index_skipn c s i :
  last_index_of c s = Some i -> skipn i s = c :: skipn (S i) s.
Proof.
  revert i. induction s as [|x s IH]; intros i H; [discriminate|].
  simpl in H. destruct (last_index_of c s) as [j|] eqn:E.
  - injection H as <-. simpl. now apply IH.
  - destruct (x =? c) eqn:Ex; [|discriminate]. injection H as <-. apply N.eqb_eq in Ex. now subst.
Qed.

Lemma last_index_of_split c s i :
  last_index_of c s = Some i -> s = firstn i s ++ c :: skipn (S i) s.
Proof. intro H. rewrite <- (last_index_skipn c s i H). symmetry. apply firstn_skipn. Qed.

Lemma last_index_of_none c s : last_index_of c s = None <-> contains c s = false.
Proof.
  unfold contains. induction s as [|x s IH]; simpl; [tauto|].
  destruct (last_index_of c s); split; intro H; try discriminate.
  - apply orb_false_iff in H as [_ H]. apply IH in H. discriminate.
  - destruct (x =? c); [discriminate|]. simpl. now apply IH.
  - apply orb_false_iff in H as [H _]. now rewrite H.
Qed.

Lemma last_index_of_head c tl : last_index_of c (c :: tl) = Some 0%nat <-> contains c tl = false.
Proof.
  simpl. rewrite <- last_index_of_none. destruct (last_index_of c tl); rewrite ?N.eqb_refl; split; congruence.
Qed.

Lemma last_index_of_app c a t :
  contains c t = false -> last_index_of c (a ++ c :: t) = Some (length a).
Proof.
  intro H. induction a as [|x a IH]; simpl.
  - apply last_index_of_none in H. rewrite H, N.eqb_refl. reflexivity.
  - now rewrite IH.
Qed.

Lemma last_index_of_after c s i : last_index_of c s = Some i -> contains c (skipn (S i) s) = false.
Proof.
  revert i. induction s as [|x s IH]; intros i H; [discriminate|].
  simpl in H. destruct (last_index_of c s) as [j|] eqn:E.
  - injection H as <-. simpl. now apply IH.
  - destruct (x =? c); [|discriminate]. injection H as <-. simpl. now apply last_index_of_none.
Qed.

(* the host name inside brackets: unescaped as a host up to the first "%25", as a zone from there *)
Lemma uhost_spec hostname uh :
  match index_pct25 hostname with
  | Some z => match unescape_host (firstn z hostname), unescape_zone (skipn z hostname) with
              | Some a, Some c => Some (a ++ c)
              | _, _ => None
              end
  | None => unescape_host hostname
  end = Some uh -> resolved hostname uh.
Proof.
  destruct (index_pct25 hostname) as [z|]; [|apply unescape_host_resolved].
  destruct (unescape_host (firstn z hostname)) as [a|] eqn:Ea; [|discriminate].
  destruct (unescape_zone (skipn z hostname)) as [c|] eqn:Ezn; [|discriminate]. intros [= <-].
  rewrite <- (firstn_skipn z hostname) at 1.
  apply resolved_app; [now apply unescape_host_resolved | apply (unescape_zone_spec (length (skipn z hostname))); auto].
Qed.

Lemma parse_host_inv ip6 x h :
  parse_host ip6 x = Some h ->
  (contains 91 x = false /\ unescape_host x = Some h) \/
  exists hn port uh uport,
    x = 91 :: hn ++ 93 :: port /\ contains 91 (hn ++ 93 :: port) = false /\ contains 93 port = false /\
    valid_optional_port port = true /\ resolved hn uh /\ resolved port uport /\ ip6 uh = true /\
    h = 91 :: uh ++ 93 :: uport.
Proof.
  unfold parse_host. destruct (last_index_of 91 x) as [[|k]|] eqn:Eo; [| discriminate |].
  - destruct (last_index_of 93 x) as [cb|] eqn:Ec; [|discriminate].
    destruct (valid_optional_port (skipn (S cb) x)) eqn:Vp; cbn [negb]; [|discriminate].
    destruct (unescape_host (skipn (S cb) x)) as [uport|] eqn:Ep; [|discriminate].
    pose proof (last_index_of_split _ _ _ Ec) as Sc.
    pose proof (last_index_of_after _ _ _ Ec) as A93.
    destruct x as [|x0 tl]; [discriminate|].
    pose proof (last_index_of_split _ _ _ Eo) as So. injection So as ->.
    apply last_index_of_head in Eo.
    destruct cb as [|cb]; [discriminate Sc|].
    change (skipn (S (S cb)) (91 :: tl)) with (skipn (S cb) tl) in *.
    change (firstn (S cb) (91 :: tl)) with (91 :: firstn cb tl) in *.
    change (skipn 1 (91 :: firstn cb tl)) with (firstn cb tl).
    assert (St : tl = firstn cb tl ++ 93 :: skipn (S cb) tl) by (injection Sc as Sc; exact Sc).
    match goal with |- match ?u with _ => _ end = _ -> _ => destruct u as [uh|] eqn:Eu end; [|discriminate].
    destruct (ip6 uh) eqn:Hip; [|discriminate]. intros [= <-]. right.
    exists (firstn cb tl), (skipn (S cb) tl), uh, uport. rewrite <- St.
    do 4 (split; [auto|]). split; [now apply uhost_spec|]. split; [now apply unescape_host_resolved | auto].
  - apply last_index_of_none in Eo. intro U. left. split; [exact Eo|].
    destruct (last_index_of 58 x); [destruct (valid_optional_port _); [exact U | discriminate] | exact U].
Qed.

Lemma parse_host_fixed_inv ip6 reg :
  parse_host ip6 reg = Some reg ->
  (contains 91 reg = false /\ Forall hostc reg) \/
  exists h port,
    reg = 91 :: h ++ 93 :: port /\ contains 91 (h ++ 93 :: port) = false /\ contains 93 port = false /\
    Forall hostc h /\ Forall hostc port /\ ip6 h = true /\ valid_optional_port port = true.
Proof.
  intro P. destruct (parse_host_inv ip6 reg reg P)
    as [[C U] | (h & port & uh & uport & E & C91 & C93 & Vp & [Lh Ih] & [Lp Ip] & Hip & E')]; [left | right].
  - split; [exact C|]. now destruct (unescape_host_resolved _ _ U) as [_ [_ F]].
  - rewrite E in E' at 1. injection E' as E'.
    assert (LT : length (h ++ 93 :: port) = length (uh ++ 93 :: uport)) by now rewrite E'.
    rewrite !app_length in LT. simpl in LT.
    destruct Ih as [-> Fh]; [lia|]. destruct Ip as [_ Fp]; [lia|].
    exists h, port. repeat split; auto.
Qed.

Lemma parse_host_fixed ip6 reg : parse_host ip6 reg = Some reg -> Forall hostc reg.
Proof.
  intro P. destruct (parse_host_fixed_inv ip6 reg P) as [[_ F] | (h & port & -> & _ & _ & Fh & Fp & _)]; [exact F|].
  assert (B : forall c, c = 91 \/ c = 93 -> hostc c) by (intros c [-> | ->]; (split; [discriminate | reflexivity])).
  constructor; [auto|]. apply Forall_app. split; [exact Fh|]. constructor; auto.
Qed.

Lemma hostc_reg_char_ok c : hostc c -> reg_char_ok c = true.
Proof.
  intros [Hp Hh]. destruct (c <? 128) eqn:Hlt.
  - specialize (Hh eq_refl). apply N.ltb_lt in Hlt.
    assert (G : forall c, (c < 128)%N -> implb (host_plain c && negb (c =? c_pct)) (reg_char_ok c) = true)
      by (apply (forall_bytes 128); vm_compute; reflexivity).
    specialize (G c Hlt). rewrite Hh in G. apply N.eqb_neq in Hp. now rewrite Hp in G.
  - apply N.ltb_ge in Hlt. unfold reg_char_ok. apply negb_true_iff.
    repeat (apply orb_false_iff; split); try (apply N.eqb_neq; lia). apply N.leb_gt. lia.
Qed.

Lemma Forall_hostc_clean s : Forall hostc s -> forallb reg_char_ok s = true.
Proof. intro F. apply forallb_forall, Forall_forall. eapply Forall_impl; [|exact F]. apply hostc_reg_char_ok. Qed.

Lemma reg_chars_not_special s :
  forallb reg_char_ok s = true ->
  existsb is_ctl s = false /\ contains 63 s = false /\ contains 47 s = false /\ contains 64 s = false.
Proof.
  intro F. split.
  - induction s as [|c s IH]; [reflexivity|]. simpl in *. apply andb_true_iff in F as [A B]. rewrite (IH B), orb_false_r.
    unfold reg_char_ok in A. apply negb_true_iff in A. repeat (apply orb_false_iff in A as [A ?]).
    apply N.leb_gt in A. apply orb_false_iff. split; [apply N.ltb_ge; lia | assumption].
  - repeat split; (apply (Forall_contains (fun c => reg_char_ok c = true)); [discriminate | now apply Forall_forall, forallb_forall]).
Qed.

Definition hostcb (c : N) : bool := negb (c =? c_pct) && ((128 <=? c) || host_plain c).

Lemma hostcb_hostc c : hostcb c = true <-> hostc c.
Proof.
  unfold hostcb, hostc. split.
  - intro H. apply andb_true_iff in H as [A B]. apply negb_true_iff in A. apply N.eqb_neq in A.
    split; [exact A|]. intro L. apply N.ltb_lt in L. apply orb_true_iff in B as [B|B]; [apply N.leb_le in B; lia | exact B].
  - intros [A B]. apply andb_true_iff. split; [apply negb_true_iff; now apply N.eqb_neq|].
    destruct (c <? 128) eqn:L; [rewrite (B eq_refl); apply orb_true_r|].
    apply N.ltb_ge in L. apply orb_true_iff. left. now apply N.leb_le.
Qed.

Lemma hostcb_Forall s : forallb hostcb s = true <-> Forall hostc s.
Proof. rewrite forallb_forall, Forall_forall. split; intros H c Hc; apply hostcb_hostc, H, Hc. Qed.

Lemma unescape_host_fix s : Forall hostc s -> unescape_host s = Some s.
Proof.
  induction 1 as [|c s [Hc Hp] F IH]; [reflexivity|]. simpl.
  destruct (c =? c_pct) eqn:E; [apply N.eqb_eq in E; contradiction|].
  destruct (c <? 128) eqn:L; [rewrite (Hp eq_refl)|]; simpl; now rewrite IH.
Qed.

(* accepted: not empty and returned unchanged by parseHost; the shortcuts then hold of themselves *)
Lemma go_valid_registry_iff ip6 reg :
  go_valid_registry ip6 reg = true <-> reg <> [] /\ parse_host ip6 reg = Some reg.
Proof.
  unfold go_valid_registry. split.
  - intro H. apply andb_true_iff in H as [_ Hh]. destruct (parse_host ip6 reg) as [[|x h]|]; try discriminate.
    apply str_eqb_spec in Hh. rewrite Hh. split; [rewrite <- Hh; discriminate | reflexivity].
  - intros [Hne P].
    destruct (reg_chars_not_special reg (Forall_hostc_clean reg (parse_host_fixed ip6 reg P))) as (A & B & C & D).
    rewrite A, B, C, D, P. destruct reg; [contradiction|]. apply str_eqb_refl.
Qed.

Theorem go_valid_registry_clean ip6 reg :
  go_valid_registry ip6 reg = true -> reg_clean reg = true /\ contains c_slash reg = false.
Proof.
  intro H. apply go_valid_registry_iff in H as [Hne P].
  pose proof (Forall_hostc_clean reg (parse_host_fixed ip6 reg P)) as F.
  split; [destruct reg; [contradiction | exact F] | apply (reg_chars_not_special reg F)].
Qed.

Corollary go_valid_registry_ok ip6 reg :
  go_valid_registry ip6 reg = true -> ok_registry (go_valid_registry ip6) reg.
Proof. intro H. split; [exact H | now apply (go_valid_registry_clean ip6)]. Qed.

(* the property's URL clauses for the modelled validator: no hypothesis left *)
Section EndToEnd.
  Variable avail : str -> bool.
  Variable ip6 : str -> bool.
  Notation vr := (go_valid_registry ip6).

  Lemma vr_clean : forall reg, vr reg = true -> reg_clean reg = true.
  Proof. intros reg H. now destruct (go_valid_registry_clean ip6 reg H). Qed.

  Theorem url_exact_go plain s r :
    parse avail vr s = Some r -> r_reference r <> [] ->
    url_is (url_manifest plain r) plain r (b "manifests") /\
    url_is (url_blob plain r) plain r (b "blobs") /\
    url_is (url_referrers plain r) plain r (b "referrers").
  Proof.
    intros H Hne. apply (url_exact avail vr plain r vr_clean); [|exact Hne].
    eapply parse_wf; eauto.
  Qed.

  Theorem url_exact_noref_go plain s r :
    parse avail vr s = Some r ->
    url_split (url_taglist plain r)
    = Some (mkParts (scheme plain) (host_of (r_registry r)) (b "/v2/" ++ r_repository r ++ b "/tags/list") None None) /\
    url_split (url_upload plain r)
    = Some (mkParts (scheme plain) (host_of (r_registry r)) (b "/v2/" ++ r_repository r ++ b "/blobs/uploads/") None None).
  Proof.
    intro H. apply (url_exact_noref avail vr plain r vr_clean). eapply parse_wf; eauto.
  Qed.

  Theorem op_requests_exact_paths_go op plain breg brepo s d reqs :
    vr breg = true -> valid_repository brepo = true -> valid_digest avail d = true ->
    op_requests avail vr op plain breg brepo s d = Some reqs ->
    exists r, repo_parse avail vr breg brepo s = Some r /\
      Forall (fun mu => exists seg x,
                (seg = b "manifests" \/ seg = b "blobs") /\ (x = r_reference r \/ x = d) /\
                url_is (snd mu) plain (mkRef breg brepo x) seg) reqs.
  Proof.
    intros Hb Hp Hd H.
    exact (op_requests_exact_paths avail vr op plain breg brepo s d reqs vr_clean
             (go_valid_registry_ok ip6 breg Hb) Hp Hd H).
  Qed.
End EndToEnd.

Section Validate.
  Variable avail : str -> bool.
  Variable ip6 : str -> bool.
  Notation vr := (go_valid_registry ip6).

  (* every reference ParseReference returns passes Validate ... *)
  Theorem parse_validate s r : parse avail vr s = Some r -> validate avail vr r = true.
  Proof.
    intro H. destruct (parse_wf avail vr s r H) as ([Hr _] & Hp & Hf). unfold validate. rewrite Hr, Hp. simpl.
    unfold validate_reference. destruct (r_reference r) as [|x t] eqn:E; [reflexivity|].
    destruct Hf as [Hf|[Hf|Hf]]; [discriminate | |].
    - rewrite (tag_no_colon _ Hf). exact Hf.
    - rewrite (digest_has_colon avail _ Hf). exact Hf.
  Qed.

  (* ... and every Reference value that passes Validate (however it was built) with a non-empty
     repository survives String() / ParseReference unchanged *)
  Theorem validate_roundtrip r :
    validate avail vr r = true -> parse avail vr (format avail r) = Some r.
  Proof.
    unfold validate. intro H. apply andb_true_iff in H as [H Hf]. apply andb_true_iff in H as [Hr Hp].
    apply format_parse. split; [now apply go_valid_registry_ok|]. split; [exact Hp|].
    unfold validate_reference in Hf. destruct (r_reference r) as [|x t]; [now left|]. right.
    destruct (contains c_colon (x :: t)); [now right | now left].
  Qed.
End Validate.

(* a registry without brackets is accepted exactly when it is a non-empty string of host bytes
   (alphanumerics, - _ . ~ ! $ & ' ( ) * + , ; = : < > double-quote, and bytes >= 0x80) in which
   only digits follow the last colon *)
Theorem registry_regname_iff ip6 reg :
  contains 91 reg = false ->
  (go_valid_registry ip6 reg = true <->
   reg <> [] /\ forallb hostcb reg = true /\
   (forall i, last_index_of 58 reg = Some i -> forallb is_digit_c (skipn (S i) reg) = true)).
Proof.
  intro Hb. apply last_index_of_none in Hb. rewrite go_valid_registry_iff, hostcb_Forall. split.
  - intros [Hne P]. split; [exact Hne|]. split; [now apply (parse_host_fixed ip6)|].
    intros i Hi. unfold parse_host in P. rewrite Hb, Hi, (last_index_skipn _ _ _ Hi) in P.
    cbn [valid_optional_port] in P. rewrite N.eqb_refl in P. now destruct (forallb is_digit_c _).
  - intros (Hne & Fh & Hport). split; [exact Hne|]. unfold parse_host. rewrite Hb.
    destruct (last_index_of 58 reg) as [i|] eqn:Hi; [|now apply unescape_host_fix].
    rewrite (last_index_skipn _ _ _ Hi). cbn [valid_optional_port]. rewrite N.eqb_refl, (Hport i eq_refl).
    now apply unescape_host_fix.
Qed.

Definition qsafe (c : N) : bool := query_plain c || (c =? c_pct) || (c =? 43).

Lemma escape_byte_safe :
  forall c, (c < 256)%N ->
    (if c =? 32 then true else if query_plain c then qsafe c
     else qsafe (upperhex (c / 16)) && qsafe (upperhex (c mod 16))) = true.
Proof. apply (forall_bytes 256). vm_compute. reflexivity. Qed.

Lemma escape_byte_back :
  forall c, (c < 256)%N ->
    (if c =? 32 then true else if query_plain c then negb (c =? c_pct) && negb (c =? 43)
     else is_hex_c (upperhex (c / 16)) && is_hex_c (upperhex (c mod 16)) &&
          (unhex_c (upperhex (c / 16)) * 16 + unhex_c (upperhex (c mod 16)) =? c)) = true.
Proof. apply (forall_bytes 256). vm_compute. reflexivity. Qed.

Lemma query_escape_safe s : Forall (fun c => (c < 256)%N) s -> Forall (fun c => qsafe c = true) (query_escape s).
Proof.
  induction 1 as [|c s Hc F IH]; [constructor|]. simpl. pose proof (escape_byte_safe c Hc) as G.
  destruct (c =? 32); [constructor; [reflexivity | exact IH]|].
  destruct (query_plain c); [constructor; [exact G | exact IH]|].
  apply andb_true_iff in G as [G1 G2]. repeat constructor; auto.
Qed.

Theorem query_escape_roundtrip s :
  Forall (fun c => (c < 256)%N) s -> query_unescape (query_escape s) = Some s.
Proof.
  induction 1 as [|c s Hc F IH]; [reflexivity|]. simpl. pose proof (escape_byte_back c Hc) as G.
  destruct (c =? 32) eqn:E32.
  - apply N.eqb_eq in E32. subst c. simpl. now rewrite IH.
  - destruct (query_plain c).
    + apply andb_true_iff in G as [G1 G2]. apply negb_true_iff in G1, G2.
      simpl. rewrite G1, IH, G2. reflexivity.
    + apply andb_true_iff in G as [G G3]. apply N.eqb_eq in G3.
      simpl. rewrite G, IH, G3. reflexivity.
Qed.

Lemma qsafe_contains x s : qsafe x = false -> Forall (fun c => qsafe c = true) s -> contains x s = false.
Proof. intro Hx. apply Forall_contains. congruence. Qed.

(* a valid digest and a valid repository contain none of '&' '=' '#' '%' '+' '?': they are their own
   query encoding *)
Lemma mount_values_plain avail d from :
  valid_digest avail d = true -> valid_repository from = true ->
  Forall (fun x => contains x d = false /\ contains x from = false) [38; 61; c_hash; c_pct; 43; c_qm].
Proof.
  intros Hd Hfrom.
  repeat constructor; try (apply (digest_no avail); [reflexivity | exact Hd]);
    (apply repo_no; [vm_compute; reflexivity | exact Hfrom]).
Qed.

Section QueryURLs.
  Variable avail : str -> bool.
  Variable vr : str -> bool.
  Hypothesis vr_clean : forall reg, vr reg = true -> reg_clean reg = true.

  (* referrers URL with an artifactType filter: exact path, the query is exactly
     artifactType=<escaped>, the escaped value contains no '&', '=', '#', '?' and decodes back to
     the requested artifact type; no fragment *)
  Theorem url_referrers_at_exact plain r at_ :
    wf_ref avail vr r -> r_reference r <> [] -> at_ <> [] -> Forall (fun c => (c < 256)%N) at_ ->
    url_split (url_referrers_at plain r at_)
    = Some (mkParts (scheme plain) (host_of (r_registry r))
              (b "/v2/" ++ r_repository r ++ b "/referrers/" ++ r_reference r)
              (Some (b "artifactType=" ++ query_escape at_)) None) /\
    query_unescape (query_escape at_) = Some at_ /\
    contains 38 (query_escape at_) = false /\ contains 61 (query_escape at_) = false /\
    contains c_hash (query_escape at_) = false /\ contains c_qm (query_escape at_) = false.
  Proof.
    intros W Hne Hat Hb. pose proof (wf_ref_seg_clean avail _ _ W Hne) as Hs. destruct W as ([Hr _] & Hp & _).
    pose proof (query_escape_safe at_ Hb) as Fs.
    split; [|split; [now apply query_escape_roundtrip|]].
    - assert (Eu : url_referrers_at plain r at_ = url_referrers plain r ++ b "?artifactType=" ++ query_escape at_)
        by (unfold url_referrers_at; destruct at_; [contradiction | reflexivity]).
      rewrite Eu.
      assert (Hq : contains c_hash (b "artifactType=" ++ query_escape at_) = false).
      { rewrite contains_app. rewrite (qsafe_contains c_hash _ eq_refl Fs). reflexivity. }
      pose proof (url_split_query plain (r_registry r) (r_repository r) [b "referrers"; r_reference r]
                    (b "artifactType=" ++ query_escape at_) (vr_clean _ Hr) (repo_qf_free _ Hp)) as Q.
      assert (Hsegs : Forall seg_ok [b "referrers"; r_reference r]).
      { constructor; [repeat split; reflexivity|]. constructor; [now apply seg_clean_ok | constructor]. }
      specialize (Q Hsegs Hq). rewrite path_of_two in Q. refine (eq_trans _ Q).
      f_equal. unfold url_referrers, url_repo_base. rewrite <- !app_assoc. reflexivity.
    - repeat split; eapply qsafe_contains; try exact Fs; reflexivity.
  Qed.

  (* blob mount URL for a valid digest and a valid source repository: exact path, the query is
     exactly mount=<digest>&from=<repository>, neither value contains '&', '=', '#', '%', '+' (so
     they are their own query encoding) *)
  Theorem url_mount_exact plain r d from :
    wf_ref avail vr r -> valid_digest avail d = true -> valid_repository from = true ->
    url_split (url_mount plain r d from)
    = Some (mkParts (scheme plain) (host_of (r_registry r)) (b "/v2/" ++ r_repository r ++ b "/blobs/uploads/")
              (Some (b "mount=" ++ d ++ b "&from=" ++ from)) None) /\
    Forall (fun x => contains x d = false /\ contains x from = false) [38; 61; c_hash; c_pct; 43; c_qm].
  Proof.
    intros ([Hr _] & Hp & _) Hd Hfrom. pose proof (mount_values_plain avail d from Hd Hfrom) as M.
    split; [|exact M]. unfold url_mount.
    assert (Hq : contains c_hash (b "mount=" ++ d ++ b "&from=" ++ from) = false).
    { destruct (proj1 (Forall_forall _ _) M c_hash) as [A B]; [simpl; auto|].
      rewrite !contains_app, A, B. reflexivity. }
    assert (Hsegs : Forall seg_ok [b "blobs"; b "uploads"; []]).
    { constructor; [repeat split; reflexivity|]. constructor; [repeat split; reflexivity|].
      constructor; [|constructor]. repeat split; reflexivity. }
    refine (eq_trans _ (url_split_query plain (r_registry r) (r_repository r) [b "blobs"; b "uploads"; []] _
                          (vr_clean _ Hr) (repo_qf_free _ Hp) Hsegs Hq)).
    f_equal. unfold url_upload, url_repo_base, path_of. rewrite <- !app_assoc. reflexivity.
  Qed.
End QueryURLs.

Lemma Forall_hostc_no_pct s : Forall hostc s -> contains c_pct s = false.
Proof. apply Forall_contains. intros [Hc _]. now apply Hc. Qed.

Lemma index_pct25_none s : contains c_pct s = false -> index_pct25 s = None.
Proof.
  unfold contains. induction s as [|c s IH]; [reflexivity|]. intro H. simpl in H.
  apply orb_false_iff in H as [A B]. cbn [index_pct25 prefixb].
  rewrite N.eqb_sym in A. change (37 =? c) with (c_pct =? c). rewrite A. simpl. now rewrite (IH B).
Qed.

Lemma digit_host_plain : forall d, (d < 58)%N -> implb (48 <=? d) (host_plain d) = true.
Proof. apply (forall_bytes 58). vm_compute. reflexivity. Qed.

Lemma port_hostc p : valid_optional_port p = true -> Forall hostc p.
Proof.
  destruct p as [|c ds]; [constructor|]. simpl. intro H. apply andb_true_iff in H as [A B].
  apply N.eqb_eq in A. subst c. constructor; [split; [discriminate | reflexivity]|].
  rewrite forallb_forall in B. apply Forall_forall. intros d Hd. specialize (B d Hd).
  unfold is_digit_c in B. apply andb_true_iff in B as [B1 B2]. apply N.leb_le in B1, B2.
  split; [unfold c_pct; lia|]. intros _. pose proof (digit_host_plain d ltac:(lia)) as G.
  apply N.leb_le in B1. now rewrite B1 in G.
Qed.

Theorem registry_bracket_iff ip6 reg :
  contains 91 reg = true ->
  (go_valid_registry ip6 reg = true <->
   exists h port,
     reg = 91 :: h ++ 93 :: port /\ contains 91 h = false /\ contains 91 port = false /\ contains 93 port = false /\
     forallb hostcb h = true /\ ip6 h = true /\ valid_optional_port port = true).
Proof.
  intro Hb. rewrite go_valid_registry_iff. split.
  - intros [_ P].
    destruct (parse_host_fixed_inv ip6 reg P) as [[C _] | (h & port & -> & C91 & C93 & Fh & Fp & Hip & Vp)]; [congruence|].
    exists h, port. rewrite contains_app in C91. apply orb_false_iff in C91 as [C1 C2].
    unfold contains in C2. simpl in C2. apply hostcb_Forall in Fh. repeat split; auto.
  - intros (h & port & -> & C1 & C2 & C3 & Fh & Hip & Vp). split; [discriminate|].
    apply hostcb_Forall in Fh. pose proof (port_hostc port Vp) as Fp.
    unfold parse_host.
    assert (E0 : last_index_of 91 (91 :: h ++ 93 :: port) = Some 0%nat).
    { apply last_index_of_head. rewrite contains_app, C1. unfold contains. simpl. exact C2. }
    assert (E1 : last_index_of 93 (91 :: h ++ 93 :: port) = Some (S (length h))).
    { change (91 :: h ++ 93 :: port) with ((91 :: h) ++ 93 :: port). now rewrite last_index_of_app. }
    assert (S1 : skipn (S (S (length h))) (91 :: h ++ 93 :: port) = port).
    { change (skipn (S (S (length h))) (91 :: h ++ 93 :: port)) with (skipn (S (length h)) (h ++ 93 :: port)).
      rewrite skipn_app. rewrite skipn_all2 by lia. replace (S (length h) - length h)%nat with 1%nat by lia. reflexivity. }
    assert (F1 : skipn 1 (firstn (S (length h)) (91 :: h ++ 93 :: port)) = h).
    { change (firstn (S (length h)) (91 :: h ++ 93 :: port)) with (91 :: firstn (length h) (h ++ 93 :: port)).
      rewrite firstn_app, firstn_all, Nat.sub_diag. simpl. now rewrite app_nil_r. }
    rewrite E0, E1, S1, F1, Vp. simpl. rewrite (unescape_host_fix port Fp).
    rewrite (index_pct25_none h (Forall_hostc_no_pct h Fh)), (unescape_host_fix h Fh), Hip. reflexivity.
Qed.

Lemma parse_host_len ip6 x h : parse_host ip6 x = Some h -> (length h <= length x)%nat.
Proof.
  intro P. destruct (parse_host_inv ip6 x h P)
    as [[_ U] | (hn & port & uh & uport & -> & _ & _ & _ & [Lh _] & [Lp _] & _ & ->)].
  - now apply unescape_host_resolved.
  - simpl. rewrite !app_length. simpl. lia.
Qed.

Lemma cut_first_len c s : (length (fst (cut_first c s)) <= length s)%nat /\
                          (contains c s = true -> (length (fst (cut_first c s)) < length s)%nat).
Proof.
  unfold cut_first. destruct (index_of c s) as [i|] eqn:E; simpl.
  - apply index_of_some in E as (_ & Hn & _).
    assert (i < length s)%nat by (apply nth_error_Some; congruence).
    rewrite firstn_length_le by lia. split; [lia | intros _; lia].
  - split; [lia|]. intro H. apply index_of_none in E. congruence.
Qed.

Lemma cut_first_none c s : contains c s = false -> cut_first c s = (s, None).
Proof. intro H. unfold cut_first. apply index_of_none in H. now rewrite H. Qed.

(* the part of the registry in which url.ParseRequestURI looks for the host: shorter than the
   registry as soon as a '?', '/' or '@' cuts something off *)
Lemma hostpart_len reg auth path :
  cut_first 47 (fst (cut_first 63 reg)) = (auth, path) ->
  let hp := match last_index_of 64 auth with Some i => skipn (S i) auth | None => auth end in
  if contains 63 reg || contains 47 reg || contains 64 reg then (length hp < length reg)%nat
  else hp = reg /\ auth = reg /\ path = None.
Proof.
  intros E hp. pose proof (cut_first_len 63 reg) as [L63 S63].
  pose proof (cut_first_len 47 (fst (cut_first 63 reg))) as [L47 S47]. rewrite E in L47, S47. cbn [fst] in L47, S47.
  assert (Lh : (length hp <= length auth)%nat).
  { subst hp. destruct (last_index_of 64 auth); [rewrite skipn_length; lia | lia]. }
  destruct (contains 63 reg) eqn:Cq; cbn [orb]; [specialize (S63 eq_refl); lia|].
  rewrite (cut_first_none 63 reg Cq) in *. cbn [fst] in *.
  destruct (contains 47 reg) eqn:Cs; cbn [orb]; [specialize (S47 eq_refl); lia|].
  rewrite (cut_first_none 47 reg Cs) in E. injection E as <- <-. subst hp.
  destruct (last_index_of 64 reg) as [i|] eqn:E64.
  - assert (Ca : contains 64 reg = true).
    { destruct (contains 64 reg) eqn:C; [reflexivity|]. apply last_index_of_none in C. congruence. }
    rewrite Ca. rewrite (last_index_of_split _ _ _ E64) at 2. rewrite app_length. simpl. lia.
  - apply last_index_of_none in E64. rewrite E64. auto.
Qed.

(* the shortcuts of go_valid_registry are sound: it equals the step-by-step version *)
Theorem go_valid_registry_faithful_eq ip6 other_ok reg :
  (forall a, contains 64 a = false -> other_ok a None = true) ->
  go_valid_registry_faithful ip6 other_ok reg = go_valid_registry ip6 reg.
Proof.
  intro Hok. unfold go_valid_registry_faithful, request_uri_host, go_valid_registry.
  destruct (existsb is_ctl reg); [reflexivity|]. cbn [negb andb].
  destruct (cut_first 47 (fst (cut_first 63 reg))) as [auth path] eqn:E. pose proof (hostpart_len reg auth path E) as Hp.
  cbv zeta in Hp. destruct (contains 63 reg || contains 47 reg || contains 64 reg) eqn:C.
  - (* Host comes out of a strictly shorter string: it is not the registry *)
    assert (G : negb (contains 63 reg) && negb (contains 47 reg) && negb (contains 64 reg) = false)
      by (destruct (contains 63 reg), (contains 47 reg), (contains 64 reg); try reflexivity; discriminate).
    rewrite G. cbn [andb].
    destruct (parse_host ip6 _) as [h|] eqn:P; [|reflexivity]. destruct (other_ok auth path); [|reflexivity].
    destruct h as [|x0 h0]; [reflexivity|]. destruct (str_eqb (x0 :: h0) reg) eqn:Eq; [|reflexivity].
    apply str_eqb_spec in Eq. apply parse_host_len in P. rewrite Eq in P. lia.
  - (* the authority is the registry itself *)
    destruct Hp as (-> & -> & ->). apply orb_false_iff in C as [C Ca]. apply orb_false_iff in C as [Cq Cs].
    rewrite Cq, Cs, Ca. cbn [negb andb]. destruct (parse_host ip6 reg) as [h|]; [|reflexivity]. now rewrite (Hok reg Ca).
Qed.

(* Model/NetURL.v's host_plain (= not shouldEscape(c, encodeHost) = ... encodeZone), query_plain and
   is_hex_c, on every byte, are exactly the bits of net/url's generated encoding table as read off
   GOROOT/src/net/url/encoding_table.go by the translator on every run *)
Theorem neturl_classes_from_source c :
  (c < 256)%N ->
  host_plain c = mem_c c neturl_encodeHost /\ host_plain c = mem_c c neturl_encodeZone /\
  query_plain c = mem_c c neturl_encodeQueryComponent /\ is_hex_c c = mem_c c neturl_hexChar.
Proof.
  intro Hc. revert c Hc.
  assert (G : forall c, (c < 256)%N ->
            Bool.eqb (host_plain c) (mem_c c neturl_encodeHost) && Bool.eqb (host_plain c) (mem_c c neturl_encodeZone) &&
            Bool.eqb (query_plain c) (mem_c c neturl_encodeQueryComponent) && Bool.eqb (is_hex_c c) (mem_c c neturl_hexChar) = true).
  { apply (forall_bytes 256). vm_compute. reflexivity. }
  intros c Hc. specialize (G c Hc).
  apply andb_true_iff in G as [G G4]. apply andb_true_iff in G as [G G3]. apply andb_true_iff in G as [G1 G2].
  repeat split; now apply Bool.eqb_prop.
Qed.
