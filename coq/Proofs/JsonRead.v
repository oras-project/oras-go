(* The general reader (Model/JsonRead.v: what Load / GetCredential do with a text)
   reads the entry Put writes back to its fields. *)
From Coq Require Import Lia.
From Oras Require Import Base.Prelude Model.Utf8 Model.Json Model.Base64 Model.CredFile
  Model.JsonDoc Model.JsonRead Proofs.Json Proofs.Base64 Proofs.CredJson.

Definition all_ws (w : str) : Prop := Forall (fun c => is_ws c = true) w.

Lemma all_ws_nil : all_ws [].
Proof. constructor. Qed.

Lemma skip_ws_nows c r : is_ws c = false -> skip_ws (c :: r) = c :: r.
Proof. intro H. cbn [skip_ws]. now rewrite H. Qed.

Lemma skip_ws_app w r : all_ws w -> skip_ws (w ++ r) = skip_ws r.
Proof. induction 1 as [|c w C _ IH]; [reflexivity|]. cbn [app skip_ws]. now rewrite C. Qed.

Lemma src_between_app (X T : str) : src_between (X ++ T) T = X.
Proof.
  unfold src_between. rewrite app_length. replace (length X + length T - length T)%nat with (length X) by lia.
  apply firstn_app_exact.
Qed.

(* [t] is the text of a value: it starts with no white space, and whatever follows it the
   reader, given more fuel than t is long, reads v and stops behind t *)
Definition parses (t : str) (v : jval) : Prop :=
  (forall rest, skip_ws (t ++ rest) = t ++ rest) /\
  (forall n rest, (length t < n)%nat -> pvalue n (t ++ rest) = Some (v, rest)).

(* such a text alone is read by Decode and by Unmarshal *)
Lemma parses_text t v : parses t v -> parse_first t = Some v /\ parse_whole t = Some v.
Proof.
  intros [W P]. unfold parse_first, parse_whole. rewrite <- (app_nil_r t) at 2 4. rewrite W, P by lia. now split.
Qed.

Lemma parses_string v : valid_utf8 v = true -> parses ([dq] ++ json_quote v ++ [dq]) (JStr v).
Proof.
  intro V. split; [intro; now apply skip_ws_nows|]. intros [|n] rest L; [lia|].
  rewrite <- !app_assoc. cbn [app pvalue]. change (dq =? 110) with false. change (dq =? 116) with false.
  change (dq =? 102) with false. change (dq =? dq) with true. cbv iota.
  rewrite scan_json_quote, (json_string_roundtrip v V). reflexivity.
Qed.

Definition member_text (m : str * (jval * str)) : str * str := (fst m, snd (snd m)).
Definition member_parses (m : str * (jval * str)) : Prop :=
  valid_utf8 (fst m) = true /\ parses (snd (snd m)) (fst (snd m)).

Lemma pvalue_obj_step n r :
  pvalue (S n) (123 :: r) =
  match skip_ws r with
  | 125 :: rest => Some (JObj [], rest)
  | r1 => match pmembers n r1 with
          | Some (l, rest) => Some (JObj l, rest)
          | None => None
          end
  end.
Proof. reflexivity. Qed.

Section Laid.
  Variables Wm Wv Wc : str.
  Hypotheses (HWm : all_ws Wm) (HWv : all_ws Wv) (HWc : all_ws Wc).

  Lemma pmembers_member m n T :
    member_parses m -> (length (snd (snd m)) < n)%nat ->
    pmembers (S n) (skip_ws (laid_member Wm Wv (member_text m) ++ T)) =
    match skip_ws T with
    | 125 :: rest3 => Some ([m], rest3)
    | 44 :: rest3 => match pmembers n (skip_ws rest3) with
                     | Some (l, r4) => Some (m :: l, r4)
                     | None => None
                     end
    | _ => None
    end.
  Proof.
    destruct m as [k [v src]]. intros [VK [W P]] L. cbn [member_text fst snd] in *.
    unfold laid_member, member_text. cbn [fst snd]. rewrite <- !app_assoc, skip_ws_app by exact HWm.
    cbn [app skip_ws is_ws N.eqb Pos.eqb orb dq pmembers].
    rewrite scan_json_quote, (json_string_roundtrip k VK). cbn [skip_ws is_ws N.eqb Pos.eqb orb].
    rewrite skip_ws_app, W, P, src_between_app by assumption. reflexivity.
  Qed.

  Lemma pmembers_laid ms : forall n rest,
    ms <> [] -> Forall member_parses ms ->
    (length (join_comma (map (laid_member Wm Wv) (map member_text ms)) ++ Wc) < n)%nat ->
    pmembers n (skip_ws (join_comma (map (laid_member Wm Wv) (map member_text ms)) ++ Wc ++ 125 :: rest))
    = Some (ms, rest).
  Proof.
    induction ms as [|m ms IH]; intros n rest NE F L; [congruence|].
    inversion F as [|? ? M F']; subst.
    destruct n as [|n]; [lia|].
    pose proof (laid_member_length Wm Wv (member_text m)) as LM. cbn [member_text snd] in LM.
    destruct ms as [|m2 ms].
    - cbn [map join_comma] in *. rewrite app_length in L.
      rewrite pmembers_member, skip_ws_app by (assumption || lia). reflexivity.
    - cbn [map] in *. rewrite join_cons2, <- !app_assoc in *. rewrite app_length in L. cbn [app length] in L.
      rewrite pmembers_member by (assumption || lia).
      cbn [app skip_ws is_ws N.eqb Pos.eqb orb].
      rewrite IH; [reflexivity|discriminate|exact F'|lia].
  Qed.

  Lemma laid_head m ms T :
    exists y, skip_ws (join_comma (map (laid_member Wm Wv) (m :: ms)) ++ T) = 34 :: y.
  Proof.
    destruct ms; cbn [map join_comma]; unfold laid_member at 1;
      rewrite <- !app_assoc, skip_ws_app by exact HWm; eexists; reflexivity.
  Qed.

  Lemma parses_object ms :
    Forall member_parses ms -> parses (laid_object Wm Wv Wc (map member_text ms)) (JObj ms).
  Proof.
    intro F. split; [intro; now apply skip_ws_nows|]. intros [|n] rest L; [lia|].
    unfold laid_object in *. rewrite <- !app_assoc. cbn [app length] in *. rewrite pvalue_obj_step.
    destruct ms as [|m ms].
    - cbn [map join_comma app]. rewrite skip_ws_app by exact HWc. reflexivity.
    - rewrite app_assoc, app_length in L.
      pose proof (pmembers_laid (m :: ms) n rest ltac:(discriminate) F ltac:(lia)) as P.
      change (map member_text (m :: ms)) with (member_text m :: map member_text ms) in *.
      destruct (laid_head (member_text m) (map member_text ms) (Wc ++ 125 :: rest)) as [y Y].
      rewrite Y in *. now rewrite P.
  Qed.
End Laid.

Definition member_jval (kv : str * str) : str * (jval * str) :=
  (fst kv, (JStr (snd kv), [dq] ++ json_quote (snd kv) ++ [dq])).

Lemma member_text_jval l : map member_text (map member_jval l) = map string_member l.
Proof. rewrite map_map. reflexivity. Qed.

Lemma fresh_members_parse a i r :
  valid_utf8 a = true -> valid_utf8 i = true -> valid_utf8 r = true ->
  Forall member_parses (map member_jval (fresh_members a i r)).
Proof.
  intros VA VI VR. apply Forall_map. generalize (fresh_members_ok a i r VA VI VR). apply Forall_impl.
  intros kv [VK VV]. split; [exact VK|now apply parses_string].
Qed.

Lemma fresh_view a i r :
  view_of_jval (JObj (map member_jval (fresh_members a i r))) = VFields a i r [] [].
Proof. destruct a, i, r; reflexivity. Qed.

Lemma reader_reads_fresh a i r :
  valid_utf8 a = true -> valid_utf8 i = true -> valid_utf8 r = true ->
  exists v, parse_whole (render_fresh a i r) = Some v /\ view_of_jval v = VFields a i r [] [].
Proof.
  intros VA VI VR. exists (JObj (map member_jval (fresh_members a i r))). split; [|apply fresh_view].
  rewrite render_fresh_laid, <- member_text_jval. apply parses_text, parses_object; try apply all_ws_nil.
  now apply fresh_members_parse.
Qed.

(* ... hence GetCredential, reading with the general reader the bytes PutCredential
   produced, answers the credential that was stored *)
Lemma reader_reads_put_entry a c :
  put_accepts a c = true -> bytes (c_user c ++ colon :: c_pass c) ->
  exists v, parse_whole (entry_bytes b64_encode c) = Some v /\
            cred_of_entry b64_decode (Old (entry_bytes b64_encode c) (view_of_jval v)) = RCred c.
Proof.
  intros ACC B. destruct (put_fields_valid a c ACC B) as (_ & VE & VR & VT).
  destruct (reader_reads_fresh _ _ _ VE VR VT) as (v & P & W).
  exists v. split; [exact P|]. rewrite W. exact (put_cred_decodes a c ACC B).
Qed.
