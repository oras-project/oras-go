(* Closed form of the Retry-After parser of Model/Retry.v (C17): [parse_int64] is total, stays in
   the int64 range for EVERY byte string (saturation, never a wrapped value), and on a plain
   decimal numeral that fits it returns exactly the numeral's value -- so the hypothesis
   [parse_int64 h = n] of [retry_after_honoured] is discharged for every header value in the
   delay-seconds form. *)
From Coq Require Import ZifyBool.
From Oras Require Import Base.Prelude Base.RetryTypes Generated.GC17 Model.Retry Proofs.Retry.
Open Scope Z_scope.

Definition is_digit (c : N) : bool := ((48 <=? c) && (c <=? 57))%N.

Fixpoint dec_val (s : str) (acc : Z) : Z :=
  match s with
  | [] => acc
  | c :: s' => dec_val s' (acc * 10 + Z.of_N (c - 48)%N)
  end.

Lemma dec_val_ge s : forall acc, 0 <= acc -> acc <= dec_val s acc.
Proof.
  induction s as [|c s IH]; intros acc Ha; cbn [dec_val]; [lia|].
  specialize (IH (acc * 10 + Z.of_N (c - 48)%N) ltac:(lia)). lia.
Qed.

Lemma u64_vals : max_u64 = 18446744073709551615 /\ cutoff_u64 = 1844674407370955162 /\ two63 = 9223372036854775808.
Proof. repeat split. Qed.

Lemma digits_val_range s : forall acc v,
  0 <= acc <= max_u64 -> digits_val s acc = Some v -> 0 <= v <= max_u64.
Proof.
  destruct u64_vals as (Em & _).
  induction s as [|c s IH]; intros acc v Ha H; cbn [digits_val] in H; [now injection H as <-|].
  destruct ((48 <=? c) && (c <=? 57))%N; [|discriminate].
  destruct (acc >=? cutoff_u64); [injection H as <-; lia|].
  destruct (acc * 10 + Z.of_N (c - 48)%N >? max_u64) eqn:E2; [injection H as <-; lia|].
  apply (IH (acc * 10 + Z.of_N (c - 48)%N) v); [lia|exact H].
Qed.

(* a decimal numeral is read exactly while its value fits uint64, and saturates from then on
   (strconv's range error) *)
Lemma digits_val_digits s : forall acc,
  forallb is_digit s = true -> 0 <= acc <= max_u64 ->
  digits_val s acc = Some (Z.min (dec_val s acc) max_u64).
Proof.
  destruct u64_vals as (Em & Ec & _).
  induction s as [|c s IH]; intros acc Hd Ha; cbn [digits_val dec_val forallb] in *; [f_equal; lia|].
  apply andb_true_iff in Hd as [Hc Hd]. unfold is_digit in Hc. rewrite Hc.
  pose proof (dec_val_ge s (acc * 10 + Z.of_N (c - 48)%N) ltac:(lia)) as Hge.
  destruct (acc >=? cutoff_u64) eqn:E1; [f_equal; lia|].
  destruct (acc * 10 + Z.of_N (c - 48)%N >? max_u64) eqn:E2; [f_equal; lia|].
  apply IH; [exact Hd|lia].
Qed.

Lemma digits_val_none s : forall acc,
  0 <= acc -> dec_val s acc <= max_u64 -> forallb is_digit s = false -> digits_val s acc = None.
Proof.
  destruct u64_vals as (Em & Ec & _).
  induction s as [|c s IH]; intros acc Ha Hv Hd; cbn [digits_val dec_val forallb] in *; [discriminate|].
  unfold is_digit in Hd at 1.
  destruct ((48 <=? c) && (c <=? 57))%N eqn:Hc; [|reflexivity]. cbn [andb] in Hd.
  pose proof (dec_val_ge s (acc * 10 + Z.of_N (c - 48)%N) ltac:(lia)) as Hge.
  destruct (acc >=? cutoff_u64) eqn:E1; [lia|].
  destruct (acc * 10 + Z.of_N (c - 48)%N >? max_u64) eqn:E2; [lia|].
  apply IH; [lia|exact Hv|exact Hd].
Qed.

(* int64 range for EVERY byte string: whatever the sign, the digits' uint64 is saturated *)
Lemma parse_int64_range (s : str) : - two63 <= parse_int64 s <= two63 - 1.
Proof.
  destruct u64_vals as (Em & _ & E63).
  assert (H : forall (neg : bool) ds,
    - two63 <= match ds with
               | [] => 0
               | _ => match digits_val ds 0 with
                      | None => 0
                      | Some v => if neg then (if v >? two63 then - two63 else - v)
                                  else (if v >? two63 - 1 then two63 - 1 else v)
                      end
               end <= two63 - 1).
  { intros neg [|d ds]; [lia|]. destruct (digits_val (d :: ds) 0) as [v|] eqn:E; [|lia].
    apply digits_val_range in E; [|lia].
    destruct neg; [destruct (v >? two63) eqn:E1|destruct (v >? two63 - 1) eqn:E1]; lia. }
  unfold parse_int64. destruct s as [|c t]; [lia|].
  destruct (c =? 43)%N; [apply (H false)|destruct (c =? 45)%N; [apply (H true)|apply (H false (c :: t))]].
Qed.

Lemma parse_int64_decimal (s : str) :
  s <> [] -> forallb is_digit s = true ->
  (dec_val s 0 < two63 -> parse_int64 s = dec_val s 0) /\
  (two63 <= dec_val s 0 -> parse_int64 s = two63 - 1).
Proof.
  destruct u64_vals as (Em & _ & E63). intros Hne Hd. destruct s as [|c t]; [congruence|].
  assert (Hc : is_digit c = true) by (cbn [forallb] in Hd; apply andb_true_iff in Hd; tauto).
  unfold parse_int64. unfold is_digit in Hc.
  destruct (c =? 43)%N eqn:E43; [lia|]. destruct (c =? 45)%N eqn:E45; [lia|].
  rewrite (digits_val_digits (c :: t) 0 Hd ltac:(lia)).
  destruct (Z.min (dec_val (c :: t) 0) max_u64 >? two63 - 1) eqn:E; lia.
Qed.

(* a header that starts with no sign and holds a non-digit byte reads as 0, as long as the digit
   loop meets that byte before it saturates: [dec_val] counts a non-digit byte as byte - 48 cut at
   0, so the premise on it holds for strings of up to about 19 bytes.  It fails for every 29-byte
   HTTP-date, which this lemma therefore does not cover *)
Lemma parse_int64_non_numeral (c : N) (t : str) :
  c <> 43%N -> c <> 45%N -> forallb is_digit (c :: t) = false -> dec_val (c :: t) 0 <= max_u64 ->
  parse_int64 (c :: t) = 0.
Proof.
  intros H43 H45 Hd Hv. unfold parse_int64.
  destruct (c =? 43)%N eqn:E43; [lia|]. destruct (c =? 45)%N eqn:E45; [lia|].
  rewrite (digits_val_none (c :: t) 0 ltac:(lia) Hv Hd). reflexivity.
Qed.

Lemma retry_after_decimal guarded oob rnd e maxretry minw maxw pred attempt (h : str) ch :
  h <> [] -> forallb is_digit h = true -> 0 < dec_val h 0 -> dec_val h 0 * 1000000000 < two63 ->
  attempt < maxretry -> pred (OStatus 429 h ch) = PRetry ->
  generic_retry (mkPolicy maxretry minw maxw pred (exp_backoff_gen guarded oob rnd e)) attempt (OStatus 429 h ch)
  = DWait (clamp minw maxw (dec_val h 0 * 1000000000)).
Proof.
  intros Hne Hd Hpos Hfit Hat Hp.
  apply retry_after_honoured; try assumption.
  apply parse_int64_decimal; try assumption. lia.
Qed.

(* a Retry-After that parses to a value <= 0 ("0", a negative numeral, whatever reads as 0) is
   ignored: the backoff is exactly the one computed for the same answer without the header; and
   on any status other than 429 the header is never looked at *)
Lemma retry_after_unusable_ignored guarded oob rnd e attempt c (h : str) ch :
  (parse_int64 h <= 0 \/ c <> generated_backoff_retry_after_status) ->
  exp_backoff_gen guarded oob rnd e attempt (OStatus c h ch)
  = exp_backoff_gen guarded oob rnd e attempt (OStatus c [] ch).
Proof.
  intro Hp. unfold exp_backoff_gen, retry_after_secs, generated_backoff_retry_after_ok.
  destruct (c =? generated_backoff_retry_after_status) eqn:Ec; [|reflexivity].
  destruct h as [|x h']; [reflexivity|].
  destruct (parse_int64 (x :: h') >? 0) eqn:E; [lia|]. reflexivity.
Qed.
