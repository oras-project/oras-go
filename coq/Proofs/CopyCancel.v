(* Cancellation (Model/CopyCancel.v): a run that returns success is, after dropping the Cancel
   marks, a run of the transition system -- so success means closure and tag even when the
   caller's context ended during (or before) the call. *)
From Oras Require Import Base.Prelude Model.CopySpec Model.CopyOpt Model.CopyCancel
  Proofs.CopySpec Proofs.CopyAcct Proofs.CopyOpt.
Local Open Scope nat_scope.

Lemma run_leaves_idle g c l st st' x : run g c st l = Some st' -> ph st x = Idle -> ph st' x <> Idle ->
  exists e, In e l /\ ev_node e = Some x.
Proof.
  intros H Hi Hn.
  destruct (leaves_by g c (fun p => negb (visited_ph p)) (fun n e => ev_node e = Some n))
    with (tr := l) (st := st) (st' := st') (n := x) as [Hf|He]; auto.
  - intros s e n p q M _. right. exact (move_node g c s e n p q M).
  - now rewrite Hi.
  - destruct (ph st' x); try discriminate Hf. now elim Hn.
Qed.

Lemma step_opt_leaves_idle cs g c st e st' full x :
  step_opt cs g c st e = Some (st', full) -> ph st x = Idle -> ph st' x <> Idle -> ev_node e = Some x.
Proof.
  intros H Hi Hn. pose proof (step_opt_sound cs g c st e st' full H) as Hs.
  destruct (run_leaves_idle g c full st st' x Hs Hi Hn) as [e' [Hin He]].
  apply step_opt_inv in H as (_ & s2 & _ & _ & ->).
  apply in_app_iff in Hin as [Hin|[<-|Hin]]; [|exact He|].
  - now rewrite <- (proj2 (pre_events_spec cs st e e' Hin)).
  - now rewrite <- (proj2 (post_events_spec cs s2 e e' Hin)).
Qed.

Lemma cstep_opt_inv cs g c s ce s1 f1 : cstep_opt cs g c s ce = Some (s1, f1) ->
  (exists e, ce = Ev e /\ step_opt cs g c (cs_st s) e = Some (cs_st s1, f1)) \/
  (f1 = [] /\ (cs_st s1 = cs_st s \/ cs_st s1 = ret_false (cs_st s))).
Proof.
  destruct ce as [e|]; simpl.
  - destruct (step_opt cs g c (cs_st s) e) as [[st' fl]|] eqn:ES.
    + intro H. injection H as <- <-. left. exists e. split; [reflexivity|exact ES].
    + destruct e; try discriminate. destruct ok; [discriminate|].
      destruct (returned (cs_st s)); [discriminate|]. destruct (cs_cancelled s); [|discriminate].
      intro H. injection H as <- <-. auto.
  - destruct (returned (cs_st s)); [discriminate|]. intro H. injection H as <- <-. auto.
Qed.

Lemma crun_sound cs g c tr : forall s s' full,
  crun_opt cs g c s tr = Some (s', full) -> returned (cs_st s') = Some true ->
  run g c (cs_st s) full = Some (cs_st s').
Proof.
  induction tr as [|ce tr IH]; simpl; intros s s' full R Hr.
  - injection R as <- <-. reflexivity.
  - destruct (cstep_opt cs g c s ce) as [[s1 f1]|] eqn:E; [|discriminate].
    destruct (crun_opt cs g c s1 tr) as [[s2 f2]|] eqn:E2; [|discriminate].
    injection R as <- <-. specialize (IH _ _ _ E2 Hr).
    destruct (cstep_opt_inv cs g c s ce s1 f1 E) as [(e & _ & ES)|[-> [Es|Es]]].
    + exact (run_cat g c _ _ _ _ _ (step_opt_sound cs g c _ e _ _ ES) IH).
    + now rewrite <- Es.
    + (* the error return after cancellation: the run ends there with Some false *)
      destruct (run_after_ret g c f2 (cs_st s1) (cs_st s2) false) as [_ E3]; [now rewrite Es | exact IH |].
      rewrite E3, Es in Hr. discriminate Hr.
Qed.

Lemma closure_under_cancellation cs g c d0 tr s full :
  closed_nodes g d0 -> mt_consistent g ->
  caccepts_opt cs g c d0 tr = Some (s, full) -> returned (cs_st s) = Some true ->
  forall n, reach g (c_root c) n -> has g (dst (cs_st s)) n = true.
Proof.
  intros Hc Hm Ha Hr. apply (closure_lemma g c d0 full (cs_st s) Hc Hm); [|exact Hr].
  exact (crun_sound cs g c tr _ _ _ Ha Hr).
Qed.

Lemma tagged_under_cancellation cs g c d0 tr s full :
  caccepts_opt cs g c d0 tr = Some (s, full) -> returned (cs_st s) = Some true ->
  c_mode c <> MGraph -> tag_ok g c = true -> tag (cs_st s) = Some (c_root c).
Proof.
  intros Ha Hr. apply (tagged_lemma g c d0 full (cs_st s)); [|exact Hr].
  exact (crun_sound cs g c tr _ _ _ Ha Hr).
Qed.

(* the seeded defect as a statement about the model: if nothing at all was scheduled (no store or
   callback event), the call cannot have returned success -- whatever the cancellation did *)
Lemma no_success_without_work cs g c d0 tr s full :
  caccepts_opt cs g c d0 tr = Some (s, full) -> returned (cs_st s) = Some true ->
  exists e, In (Ev e) tr /\ ev_node e = Some (c_root c).
Proof.
  intros Ha Hr. unfold caccepts_opt in Ha.
  assert (G : forall tr s0 s' full, crun_opt cs g c s0 tr = Some (s', full) ->
            ph (cs_st s0) (c_root c) = Idle -> ph (cs_st s') (c_root c) <> Idle ->
            exists e, In (Ev e) tr /\ ev_node e = Some (c_root c)).
  { clear. induction tr as [|ce tr IH]; simpl; intros s0 s' full R Hi Hn.
    - injection R as <- <-. contradiction.
    - destruct (cstep_opt cs g c s0 ce) as [[s1 f1]|] eqn:E; [|discriminate].
      destruct (crun_opt cs g c s1 tr) as [[s2 f2]|] eqn:E2; [|discriminate].
      injection R as <- <-.
      destruct (phase_eq_idle (ph (cs_st s1) (c_root c))) as [Hi1|Hn1].
      + destruct (IH _ _ _ E2 Hi1 Hn) as [e [He Hr']]. exists e. split; [now right|exact Hr'].
      + destruct (cstep_opt_inv cs g c s0 ce s1 f1 E) as [(e & -> & ES)|[_ [Es|Es]]].
        * exists e. split; [now left|]. exact (step_opt_leaves_idle cs g c _ e _ _ _ ES Hi Hn1).
        * now rewrite Es in Hn1.
        * now rewrite Es in Hn1. }
  apply (G tr _ _ _ Ha); [reflexivity|].
  pose proof (crun_sound cs g c tr _ _ _ Ha Hr) as Hs. simpl in Hs.
  destruct (run_ret_true g c full _ _ Hs eq_refl Hr) as [Hd _]. rewrite (Hd _ (in_eq _ _)). discriminate.
Qed.

Lemma examples_cancellation :
  (exists s, caccepts_opt all_set g_ex c_ex [1] [Cancel; Ev (Ret false)] = Some (s, []) /\
             returned (cs_st s) = Some false) /\
  (exists s full, caccepts_opt (fun _ => false) g_ex c_ex [0; 1; 2; 3]
                    [Ev (ExB 3); Ev (ExE 3 true); Ev (TagB 3); Cancel; Ev (TagE 3); Ev (Ret true)] = Some (s, full) /\
                  returned (cs_st s) = Some true /\ tag (cs_st s) = Some 3).
Proof.
  split.
  - eexists. split; [vm_compute; reflexivity|reflexivity].
  - eexists. eexists. split; [vm_compute; reflexivity|]. split; reflexivity.
Qed.
