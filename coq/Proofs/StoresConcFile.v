(* C06 -- quiescent serialisability of the file store (names, digestToPath, files,
   fallback storage, resolver; the graph is in StoresConcFileGraph.v). *)
From Oras Require Import Base.Prelude Model.Stores Model.StoresConc Model.StoresConcFile
     Proofs.Stores Proofs.StoresConc.
From Coq Require Import Permutation.

Definition with_graph (s : file_store) (g : graph) : file_store :=
  mkFile (f_names s) (f_d2p s) (f_disk s) (f_cas s) (f_res s) g.

Lemma fcore_eq_graph s1 s2 : fcore s1 = fcore s2 -> s1 = with_graph s2 (f_graph s1).
Proof. destruct s1, s2. unfold fcore, with_graph. simpl. intro H. injection H as -> -> -> -> ->. reflexivity. Qed.

Lemma file_exists_graph d s g : file_exists d (with_graph s g) = file_exists d s.
Proof. reflexivity. Qed.
Lemma file_fetch_graph d s g : file_fetch d (with_graph s g) = file_fetch d s.
Proof. reflexivity. Qed.

Lemma file_named_push_graph fx ov s g k n c :
  file_named_push fx ov (with_graph s g) k n c =
  (with_graph (fst (file_named_push fx ov s k n c)) g, snd (file_named_push fx ov s k n c)).
Proof.
  unfold file_named_push, with_graph. cbn [f_names f_d2p f_disk f_cas f_res f_graph].
  destruct (mem N.eqb n (f_names s)); [reflexivity|]. destruct (bad_name n); [reflexivity|].
  destruct (ov && is_some (get N.eqb (path_of n) (f_disk s))); [reflexivity|].
  destruct ((k_dig k =? b_hash c) && (k_size k =? b_len c)); reflexivity.
Qed.

Lemma file_restore_graph fx ov tl : forall s g,
  file_restore fx ov tl (with_graph s g) =
  (with_graph (fst (file_restore fx ov tl s)) g, snd (file_restore fx ov tl s)).
Proof.
  induction tl as [|[k n] tl IH]; intros s g; [reflexivity|].
  cbn [file_restore]. rewrite file_fetch_graph.
  change (f_names (with_graph s g)) with (f_names s). change (f_d2p (with_graph s g)) with (f_d2p s).
  destruct ((n =? 0) || mem N.eqb n (f_names s)); [apply IH|].
  destruct (file_fetch (mkDesc (k_mt k) (k_dig k) (k_size k) 0) s) as [c2|]; [|apply IH].
  rewrite file_named_push_graph.
  destruct (file_named_push fx ov s k n _) as [s1 [e|]]; cbn [fst snd].
  - destruct e as [o|[| |]]; try reflexivity. apply IH.
  - apply IH.
Qed.

Lemma fcore_with_graph s g : fcore (with_graph s g) = fcore s.
Proof. reflexivity. Qed.

Lemma file_index_graph d s g :
  file_index d (with_graph s g) =
  (with_graph (fst (file_index d s)) (f_graph (fst (file_index d (with_graph s g)))), snd (file_index d s)).
Proof.
  unfold file_index. destruct (is_manifest (d_mt d)); [|reflexivity].
  rewrite file_fetch_graph. destruct (file_fetch d s) as [c1|]; [|reflexivity].
  destruct (d_dig d =? b_hash c1); reflexivity.
Qed.

Lemma file_index_after_graph fx ov d s g :
  fcore (fst (file_index_after fx ov d (with_graph s g))) = fcore (fst (file_index_after fx ov d s)).
Proof.
  unfold file_index_after. rewrite file_index_graph.
  pose proof (fcore_index d s) as Hc.
  set (g2 := f_graph (fst (file_index d (with_graph s g)))). clearbody g2.
  destruct (file_index d s) as [s2 r]. cbn [fst snd] in *.
  destruct r as [o|e]; [|reflexivity]. destruct o; try reflexivity.
  destruct (is_manifest (d_mt d)); [|reflexivity].
  rewrite file_fetch_graph. destruct (file_fetch d s2) as [c1|]; [|reflexivity].
  destruct (d_dig d =? b_hash c1); [|reflexivity].
  rewrite file_restore_graph. destruct (file_restore fx ov (b_tl c1) s2) as [s3 [e|]]; reflexivity.
Qed.

Lemma file_push_store_graph fx ig ov s g d c :
  file_push_store fx ig ov (with_graph s g) d c =
  (with_graph (fst (file_push_store fx ig ov s d c)) g, snd (file_push_store fx ig ov s d c)).
Proof.
  unfold file_push_store. change (f_cas (with_graph s g)) with (f_cas s).
  destruct (d_name d =? 0).
  - destruct ig.
    + destruct (is_manifest (d_mt d)); [|reflexivity]. destruct (verify d c); [|reflexivity].
      rewrite file_restore_graph. destruct (file_restore fx ov (b_tl c) s) as [s2 [e|]]; reflexivity.
    + destruct (get gkey_eqb (gk d) (f_cas s)); [reflexivity|].
      destruct (verify d (limit_reader d c)); reflexivity.
  - apply file_named_push_graph.
Qed.

Lemma file_push_store_snd_core fx ig ov s q d c :
  fcore s = fcore q -> snd (file_push_store fx ig ov s d c) = snd (file_push_store fx ig ov q d c).
Proof.
  intro H. rewrite (fcore_eq_graph _ _ H). set (g := f_graph s). clearbody g.
  rewrite file_push_store_graph. reflexivity.
Qed.

Lemma with_graph_self s : with_graph s (f_graph s) = s.
Proof. destruct s; reflexivity. Qed.

Lemma file_push_store_graph_same fx ig ov s d c : f_graph (fst (file_push_store fx ig ov s d c)) = f_graph s.
Proof.
  pose proof (file_push_store_graph fx ig ov s (f_graph s) d c) as H. rewrite with_graph_self in H.
  rewrite H. reflexivity.
Qed.

Lemma file_step_core fx ig ov s1 s2 o :
  fcore s1 = fcore s2 ->
  fcore (fst (file_step fx ig ov s1 o)) = fcore (fst (file_step fx ig ov s2 o)).
Proof.
  intro H. rewrite (fcore_eq_graph _ _ H). set (g := f_graph s1). clearbody g. clear H s1.
  destruct o.
  - rewrite !file_step_push_split. rewrite file_push_store_graph.
    destruct (file_push_store fx ig ov s2 d c) as [sb [x|]]; cbn [fst snd]; [reflexivity|].
    apply file_index_after_graph.
  - cbn [file_step]. rewrite file_fetch_graph. destruct (file_fetch d s2); reflexivity.
  - reflexivity.
  - cbn [file_step]. destruct r; try reflexivity;
      (rewrite file_exists_graph; destruct (file_exists d s2); reflexivity).
  - cbn [file_step]. destruct r; try reflexivity;
      (cbn [with_graph f_res]; destruct (get ref_eqb _ (r_index (f_res s2))); reflexivity).
  - reflexivity.
  - reflexivity.
  - reflexivity.
  - reflexivity.
Qed.

(* presence only grows *)
Definition fle (s s' : file_store) : Prop := forall d, file_exists d s = true -> file_exists d s' = true.

Lemma fle_refl s : fle s s.
Proof. intros d H; exact H. Qed.

Lemma fle_core s s' : fcore s = fcore s' -> fle s s'.
Proof. intro H. rewrite (fcore_eq_graph _ _ H). intros d X. exact X. Qed.

Lemma fle_trans s1 s2 s3 : fle s1 s2 -> fle s2 s3 -> fle s1 s3.
Proof. intros A C d H. auto. Qed.

Lemma fle_named_push fx ov s k n c : fle s (fst (file_named_push fx ov s k n c)).
Proof.
  unfold file_named_push.
  destruct (mem N.eqb n (f_names s)); [apply fle_refl|]. destruct (bad_name n); [apply fle_refl|].
  destruct (ov && is_some (get N.eqb (path_of n) (f_disk s))); [apply fle_refl|].
  destruct ((k_dig k =? b_hash c) && (k_size k =? b_len c)).
  - intros d0. unfold file_exists, name_ok. cbn [fst f_names f_d2p f_cas]. intro H.
    apply andb_true_iff in H as [A C]. apply andb_true_iff. split.
    + apply orb_true_iff in A as [A|A]; [now rewrite A|]. apply orb_true_iff. right.
      unfold mem in *. simpl. rewrite A. apply orb_true_r.
    + apply orb_true_iff in C as [C|C]; [|now rewrite C, orb_true_r].
      apply orb_true_iff. left. now apply (is_some_put_mono N.eqb Neqb_spec).
  - intros d0 H. exact H.
Qed.

Lemma fle_writes fx ig ov : respects_writes fx ig ov fle (fun _ => True) (fun _ => True).
Proof.
  constructor; [constructor|..].
  - apply fle_refl.
  - apply fle_trans.
  - intros. apply fle_named_push.
  - intros a d ss e X. exact X.
  - intros a d c _ _ _ _ e. unfold file_exists, name_ok. cbn [f_names f_d2p f_cas]. intro H.
    apply andb_true_iff in H as [A C]. rewrite A. simpl. apply orb_true_iff in C as [C|C]; [now rewrite C|].
    apply orb_true_iff. right. now apply (is_some_put_mono gkey_eqb gkey_eqb_spec).
  - intros a d r _ e X. exact X.
Qed.

Definition fremaining (t : fthread) : list op :=
  match ft_pc t with FTag2 d r => [Tag d r] | _ => [] end ++ ft_ops t.

Definition fthread_ok (s : file_store) (t : fthread) : Prop :=
  match ft_pc t with
  | FTag2 d r => file_exists d s = true /\ r <> REmpty
  | _ => True
  end.

Lemma fconf_step_cases fx ig ov cf i :
  fconf_step fx ig ov cf i = cf \/
  exists l1 t l2 s' t' lg,
    fc_threads cf = l1 ++ t :: l2 /\ fthread_step fx ig ov (fc_store cf) t = Some (s', t', lg) /\
    fconf_step fx ig ov cf i = mkFC s' (l1 ++ t' :: l2) (fc_log cf ++ map (pair (length l1)) lg).
Proof.
  unfold fconf_step. destruct (nth_error (fc_threads cf) i) as [t|] eqn:En; [|now left].
  apply nth_error_split in En as (l1 & l2 & Hth & <-).
  destruct (fthread_step fx ig ov (fc_store cf) t) as [[[s' t'] lg]|] eqn:Es; [right | now left].
  exists l1, t, l2, s', t', lg. rewrite Hth at 2. now rewrite upd_nth_split.
Qed.

Section FileConc.
  Variables fx ig ov : bool.

  Definition seq_fstate (L : list op) : file_store := fst (runf (file_step fx ig ov) file_init L).

  Lemma runf_app h1 : forall s h2,
    fst (runf (file_step fx ig ov) s (h1 ++ h2)) =
    fst (runf (file_step fx ig ov) (fst (runf (file_step fx ig ov) s h1)) h2).
  Proof.
    induction h1 as [|o h1 IH]; intros s h2; [reflexivity|].
    rewrite <- app_comm_cons, !runf_cons. cbn [fst]. apply IH.
  Qed.

  Lemma seq_fstate_snoc L o : seq_fstate (L ++ [o]) = fst (file_step fx ig ov (seq_fstate L) o).
  Proof. unfold seq_fstate. rewrite runf_app. rewrite runf_cons. reflexivity. Qed.

  Record finv (progs : list (list op)) (cf : fconf) : Prop := mkFInv {
    fi_sched : sched_inv fremaining progs (fc_log cf) (fc_threads cf);
    fi_core : fcore (fc_store cf) = fcore (seq_fstate (map snd (fc_log cf)));
    fi_unt : file_unt (fc_store cf);
    fi_threads : Forall (fthread_ok (fc_store cf)) (fc_threads cf) }.

  Lemma finv_init progs : finv progs (fconf_init progs).
  Proof.
    constructor; simpl.
    - now apply sched_inv_init.
    - reflexivity.
    - exact file_unt_init.
    - apply Forall_forall. intros t Ht. apply in_map_iff in Ht as (p & <- & _). exact I.
  Qed.

  Lemma fstep_idle s o rest x :
    fthread_step fx ig ov s (mkFT FIdle (o :: rest)) = Some x ->
    (exists d c, o = Push d c /\
       (fst (file_push_store fx ig ov s d c),
        mkFT (match snd (file_push_store fx ig ov s d c) with None => FIndex d | Some _ => FIdle end) rest, [o]) = x) \/
    (exists d r, o = Tag d r /\ r <> REmpty /\ file_exists d s = true /\ (s, mkFT (FTag2 d r) rest, []) = x) \/
    (match o with Push _ _ => False | _ => True end /\ fst (file_step fx ig ov s o) = s /\
     (s, mkFT FIdle rest, [o]) = x).
  Proof.
    destruct o; cbn [fthread_step ft_pc ft_ops file_step];
      try (intro H; injection H as <-; right; right; repeat split; reflexivity).
    - intro H. left. exists d, c. split; [reflexivity|].
      destruct (file_push_store fx ig ov s d c) as [s1 [e|]]; now injection H as <-.
    - intro H; injection H as <-. right. right. repeat split. now destruct (file_fetch d s).
    - destruct r as [m|g|]; [| |intro H; injection H as <-; right; right; repeat split; reflexivity];
        (destruct (file_exists d s) eqn:E; intro H; injection H as <-;
         [right; left; eexists _, _; repeat split; [discriminate | exact E] | right; right; repeat split; reflexivity]).
    - intro H; injection H as <-. right. right. repeat split.
      destruct r; try reflexivity; now destruct (get ref_eqb _ (r_index (f_res s))).
  Qed.

  Lemma fstep_facts s t s' t' lg :
    fthread_ok s t -> file_unt s -> (forall o, In o (fremaining t) -> untitled o) ->
    fthread_step fx ig ov s t = Some (s', t', lg) ->
    fremaining t = lg ++ fremaining t' /\ fle s s' /\ fthread_ok s' t' /\ file_unt s' /\
    ((lg = [] /\ fcore s' = fcore s) \/
     (exists o, lg = [o] /\ fcore s' = fcore (fst (file_step fx ig ov s o)))).
  Proof.
    destruct t as [[|d|d r] ops]; unfold fthread_ok at 1; cbn [ft_pc]; intros Hok Hu Hun.
    - destruct ops as [|o rest]; [discriminate|]. intro H.
      apply fstep_idle in H as [(d & c & -> & H)|[(d & r & -> & Hr & He & H)|(_ & E & H)]]; injection H as <- <- <-.
      + (* the store step of a Push *)
        assert (Huc : untitled_blob c) by (apply (Hun (Push d c)); now left).
        pose proof (unt_push_store fx ig ov s d c Huc Hu) as Hu1.
        split; [now destruct (snd (file_push_store fx ig ov s d c))|].
        split; [exact (file_push_store_rel _ _ _ _ _ _ (fle_writes fx ig ov) s d c I)|].
        split; [now destruct (snd (file_push_store fx ig ov s d c))|]. split; [exact Hu1|].
        right. exists (Push d c). split; [reflexivity|]. rewrite file_step_push_split.
        destruct (file_push_store fx ig ov s d c) as [s1 [x|]]; cbn [fst] in *; [reflexivity|].
        now rewrite fcore_index_after.
      + split; [reflexivity|]. split; [apply fle_refl|]. split; [now split|]. split; [exact Hu | now left].
      + split; [reflexivity|]. split; [apply fle_refl|]. split; [exact I|]. split; [exact Hu|].
        right. exists o. now rewrite E.
    - intro H. injection H as <- <- <-. pose proof (fcore_index_after fx ov d s Hu) as Hc.
      split; [reflexivity|]. split; [apply fle_core; now symmetry|].
      split; [exact I|]. split; [exact (file_unt_core _ _ (eq_sym Hc) Hu) | now left].
    - destruct Hok as [He Hr]. intro H. injection H as <- <- <-.
      split; [reflexivity|]. split; [intros d0 X; exact X|]. split; [exact I|].
      split; [destruct Hu as [UA UC]; constructor; [exact UA | exact UC]|].
      right. exists (Tag d r). split; auto. cbn [file_step]. destruct r; [| |congruence]; now rewrite He.
  Qed.

  Lemma fthread_ok_mono s s' t : fle s s' -> fthread_ok s t -> fthread_ok s' t.
  Proof. unfold fthread_ok. intro H. destruct (ft_pc t); auto. intros [A C]. split; auto. Qed.

  Lemma finv_step progs cf i :
    Forall untitled (concat progs) -> finv progs cf -> finv progs (fconf_step fx ig ov cf i).
  Proof.
    intros Hunall Hinv.
    destruct (fconf_step_cases fx ig ov cf i) as [->|(l1 & t & l2 & s' & t' & lg & Hth & Es & ->)]; [exact Hinv|].
    destruct cf as [s ths L]. cbn [fc_store fc_threads fc_log] in *. subst ths.
    destruct Hinv as [Hsched Hcore Hu Hthr]. cbn [fc_store fc_threads fc_log] in *.
    destruct (fstep_facts s t s' t' lg (Forall_elt _ _ _ Hthr) Hu
                (fun o => proj2 (sched_inv_Forall _ _ _ _ _ Hsched Hunall) t o (in_elt _ _ _)) Es)
      as (Hrem & Hle & Hok' & Hu' & Hc).
    constructor; cbn [fc_store fc_threads fc_log].
    - exact (sched_inv_step _ _ _ _ _ _ _ _ Hrem Hsched).
    - rewrite map_app, map_snd_pair. destruct Hc as [(-> & A)|(o & -> & A)].
      + rewrite app_nil_r. congruence.
      + rewrite seq_fstate_snoc, A. now apply file_step_core.
    - exact Hu'.
    - eapply Forall_mid; [|exact Hok' | exact Hthr]. intro x. now apply fthread_ok_mono.
  Qed.

  Lemma finv_run progs sched :
    Forall untitled (concat progs) -> forall cf, finv progs cf -> finv progs (fconf_run fx ig ov cf sched).
  Proof.
    intro Hun. apply fold_left_invariant. intros cf i. now apply finv_step.
  Qed.

  Lemma fquiescent_done cf : fquiescent cf = true -> forall t, In t (fc_threads cf) -> fremaining t = [].
  Proof.
    unfold fquiescent. rewrite forallb_forall. intros H t Ht. specialize (H t Ht).
    unfold fthread_done, fremaining in *. destruct (ft_pc t); try discriminate.
    destruct (ft_ops t); [auto|discriminate].
  Qed.

  Lemma file_reads_core s1 s2 :
    fcore s1 = fcore s2 ->
    forall d r, snd (file_step fx ig ov s1 (Fetch d)) = snd (file_step fx ig ov s2 (Fetch d)) /\
                snd (file_step fx ig ov s1 (Exists d)) = snd (file_step fx ig ov s2 (Exists d)) /\
                snd (file_step fx ig ov s1 (Resolve r)) = snd (file_step fx ig ov s2 (Resolve r)).
  Proof.
    intros H d r. rewrite (fcore_eq_graph _ _ H). cbn [file_step]. rewrite file_fetch_graph, file_exists_graph.
    repeat split.
    - now destruct (file_fetch d s2).
    - destruct r; try reflexivity; (cbn [with_graph f_res]; now destruct (get ref_eqb _ (r_index (f_res s2)))).
  Qed.

  (* Every interleaving of the file store's atomic steps, run to quiescence, ends with the
     names, digestToPath, files, fallback storage and resolver of a sequential execution of
     the same operations in program order; hence every Fetch, Exists and Resolve answers
     alike.  (Predecessors: StoresConcFileGraph.v.) *)
  Theorem quiescent_serialisable_file (progs : list (list op)) (sched : list nat) :
    Forall untitled (concat progs) -> Forall no_alias (concat progs) ->
    let cf := fconf_run fx ig ov (fconf_init progs) sched in
    fquiescent cf = true ->
    exists order : list (nat * op),
      Permutation (map snd order) (concat progs) /\
      (forall i, log_of i order = nth i progs []) /\
      let q := fst (runf (file_step fx ig ov) file_init (map snd order)) in
      fcore (fc_store cf) = fcore q /\
      forall d r, snd (file_step fx ig ov (fc_store cf) (Fetch d)) = snd (file_step fx ig ov q (Fetch d)) /\
                  snd (file_step fx ig ov (fc_store cf) (Exists d)) = snd (file_step fx ig ov q (Exists d)) /\
                  snd (file_step fx ig ov (fc_store cf) (Resolve r)) = snd (file_step fx ig ov q (Resolve r)).
  Proof.
    intros Hun _ cf Hq. pose proof (finv_run progs sched Hun _ (finv_init progs)) as Hinv. fold cf in Hinv.
    destruct Hinv as [Hsched Hcore Hu Hthr].
    destruct (sched_inv_done _ _ _ _ (fquiescent_done _ Hq) Hsched) as [Hperm Hord].
    exists (fc_log cf). split; [exact Hperm|]. split; [exact Hord|].
    cbn zeta. fold (seq_fstate (map snd (fc_log cf))). split; [exact Hcore|].
    intros d r. exact (file_reads_core _ _ Hcore d r).
  Qed.
End FileConc.

Definition fx_progs : list (list op) :=
  [ [Push w_named w_good; Tag w_named (RName 1); Fetch w_unnamed];
    [Push w_named w_good; Push w_unnamed w_good; Tag w_unnamed (RName 1)] ].
Definition fx_sched : list nat := [0; 1; 1; 0; 0; 1; 0; 1; 1; 0; 0; 1; 1; 1; 0; 1; 0; 1]%nat.
Lemma fx_hyps : Forall untitled (concat fx_progs) /\ Forall no_alias (concat fx_progs).
Proof.
  split.
  - repeat constructor.
  - repeat constructor; try reflexivity; intros k n [].
Qed.
Lemma fx_quiescent : fquiescent (fconf_run true false false (fconf_init fx_progs) fx_sched) = true.
Proof. vm_compute. reflexivity. Qed.

Theorem conc_fetch_matches_file (ig ov : bool) (progs : list (list op)) (sched : list nat) d hash len :
  Forall untitled (concat progs) -> Forall no_alias (concat progs) ->
  snd (file_step true ig ov (fc_store (fconf_run true ig ov (fconf_init progs) sched)) (Fetch d)) = FO (OBytes hash len) ->
  hash = d_dig d.
Proof.
  intros Hun Hna. pose proof (finv_run true ig ov progs sched Hun _ (finv_init true ig ov progs)) as [Hsched Hcore _ _].
  destruct (file_reads_core true ig ov _ _ Hcore d REmpty) as (-> & _).
  apply file_fetch_matches. exact (proj1 (sched_inv_Forall _ _ _ _ _ Hsched Hna)).
Qed.

(* known finding file-conc-titled-restore-not-serialisable: with titled successors
   Push = store ; graph.Index ; restoreDuplicates is not one atomic step.  Goroutine 0 pushes a
   manifest M under name 2 whose layer is titled with name 1; goroutine 1 pushes M again under
   name 2 -- refused with duplicate-name, so M's store step came first -- and THEN pushes the
   layer.  Under the schedule below M's restore step runs last and creates file 1 from the layer
   that was pushed after M was stored.  Every sequential order of the three operations that
   keeps goroutine 1's program order ends WITHOUT file 1 (whichever of the two manifest pushes
   comes first is stored when the layer is still absent, the other one is refused and restores
   nothing): the quiescent state is not the state of any sequential order. *)
Definition ft_M := mkDesc 1 9 20 16.
Definition ft_M' := mkDesc 1 9 20 18.
Definition ft_Mb := mkBlobT 9 20 [(6, 1, 5)] 9 [(6, 1, 5)] [((6, 1, 5), 1)] [((6, 1, 5), 1)].
Definition ft_progs : list (list op) := [[Push ft_M ft_Mb]; [Push ft_M' ft_Mb; Push w_unnamed w_good]].
Definition ft_sched : list nat := [0; 1; 1; 1; 0]%nat.
Definition ft_orders : list (list op) :=
  [ [Push ft_M ft_Mb; Push ft_M' ft_Mb; Push w_unnamed w_good];
    [Push ft_M' ft_Mb; Push ft_M ft_Mb; Push w_unnamed w_good];
    [Push ft_M' ft_Mb; Push w_unnamed w_good; Push ft_M ft_Mb] ].
Lemma file_titled_not_serialisable :
  let cf := fconf_run true false false (fconf_init ft_progs) ft_sched in
  fquiescent cf = true /\
  f_names (fc_store cf) = [1; 2] /\
  map (fun h => f_names (fst (runf (file_step true false false) file_init h))) ft_orders = [[2]; [2]; [2]].
Proof. vm_compute. repeat split; reflexivity. Qed.
