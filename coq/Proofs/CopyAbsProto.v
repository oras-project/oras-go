(* CopyAbsProto: the protocol system with a destination (Model/CopyImplDst.v) refines the abstract system of
   Model/CopyAbs.v: a push step is an abstract store (its guard: the successors are in the destination), the
   return of the top-level syncutil.Go is the abstract return (on nil: the closure of the roots is there),
   every other protocol step is a stutter. *)
From Coq Require Import List Arith Bool Lia.
From Oras Require Import Model.CopyImpl Model.CopyImplDst Model.CopyAbs Proofs.CopyImplBase Proofs.CopyImplInv2
  Proofs.CopyImplDst.
Import ListNotations.

Section Proofs.
Variable succ : nat -> list nat.
Variable K : nat.
Variable ext : bool.
Variable roots : list nat.
Variable d0 : list nat.
Hypothesis succ_dec : forall n m, In m (succ n) -> m < n.

Lemma result_step s l s' : Reachable succ K ext roots s -> step succ s l = Some s' ->
  (forall f, l <> LGoReturn f) -> result s' = result s.
Proof.
  intros Hr Hs Hn. unfold result.
  destruct (step_frame succ s l s' 0 Hs) as [_ _ _ [_ Ep|i Ep Ep'|Ep _ _ Ep'|E]|t H0 _ _].
  - now rewrite Ep.
  - now rewrite Ep, Ep'.
  - now rewrite Ep, Ep'.
  - now contradiction (Hn 0).
  - destruct (inv12_reach succ K ext roots succ_dec s Hr) as [_ I2]. pose proof (i2_nfpos _ _ I2) as Hnf. red in Hnf. lia.
Qed.

Definition pabs (x : dstate) : astate :=
  mkA (dd x) (match result (ds x) with Some e => Some (negb e) | None => None end).
Definition pheld (d : list nat) (m : nat) : Prop := In m d.
Definition proot (r : nat) : Prop := In r roots.

Lemma areach_dreach a b : areach succ a b -> dreach succ a b.
Proof. induction 1; econstructor; eauto. Qed.

Theorem dstep_refines x dl x' : dclosed succ d0 -> DReachable succ K ext roots d0 x ->
  result (ds x) = None -> dstep succ x dl = Some x' ->
  exists l, astep succ proot pheld (pabs x) l (pabs x').
Proof.
  intros Hc Hr Hres Hs.
  assert (Hr' : DReachable succ K ext roots d0 x') by (econstructor; eauto).
  pose proof (dstep_step succ _ _ _ Hs) as Hst.
  unfold pabs. rewrite Hres.
  destruct (dstep_inv succ _ _ _ Hs) as [_ [[[t [Hl E]]|[E _]] _]]; rewrite E.
  - (* a push: the successors are in the destination; the top-level call has not returned *)
    assert (Hres' : result (ds x') = None).
    { rewrite <- Hres. eapply (result_step (ds x)); eauto using dreach_proj.
      intros f Hf. destruct Hl as [->| ->]; discriminate Hf. }
    rewrite Hres'. exists (AStore (t_node (tasks (ds x) t))). apply as_store; [reflexivity|].
    intros m Hm. unfold pheld. cbn [a_dst].
    eapply (dpush_after_successors succ K ext roots d0 succ_dec); eauto. destruct Hl as [->| ->]; eauto.
  - (* the destination is untouched: a return of the top-level Go, or a stutter *)
    destruct (result (ds x')) as [[|]|] eqn:Hres'; cbn [negb].
    + exists (ARet false). now apply as_ret_err.
    + exists (ARet true). apply as_ret_ok; [reflexivity|]. intros r n Hroot Hreach. unfold pheld. cbn [a_dst].
      rewrite <- E. eapply (dsuccess_complete succ K ext roots d0 succ_dec); eauto using areach_dreach.
    + exists ATau. apply as_tau.
Qed.

End Proofs.
