(* CopyImplDeadlock: every reachable non-final state of the protocol LTS has an enabled protocol step
   (not a fault / cancellation choice of the environment). *)
From Coq Require Import List Arith Bool Lia Wf_nat.
From Oras Require Import Model.CopyImpl Proofs.CopyImplBase Proofs.CopyImplInv Proofs.CopyImplInv2
  Proofs.CopyImplLive.
Import ListNotations.

Section Proofs.
Variable succ : nat -> list nat.
Variable K : nat.
Variable ext : bool.
Variable roots : list nat.
Hypothesis succ_dec : forall n m, In m (succ n) -> m < n.
Local Notation Reachable := (Reachable succ K ext roots).
Local Notation Inv1 := (Inv1 K).
Local Notation Inv2 := (Inv2 succ).
Local Notation fires := (fires succ).

Lemma fires_intro s l : progress_label l = true ->
  (exists t, t < ntasks s /\ In l (task_labels t)) \/ (exists f, f < nframes s /\ In l (frame_labels f)) ->
  (exists s', step succ s l = Some s') -> fires s.
Proof.
  intros Hp Hc [s' Hs]. exists l, s'. repeat split; auto. apply filter_In. split; [|now rewrite Hs].
  right. apply in_or_app. destruct Hc as [[t [Ht Hl]]|[f [Hf Hl]]]; [right|left];
    apply in_flat_map; eexists; (split; [apply in_seq|eassumption]); lia.
Qed.

(* `fire l t Hpc` proves `fires s` by the label l of task t, whose pc Hpc gives; what is left to show is
   that `step` accepts l.  `fire_frame l f`: the same for a label of frame f. *)
Ltac in_labels := cbn [In task_labels frame_labels]; repeat first [left; reflexivity | right].
Ltac fire l t Hpc :=
  apply (fires_intro _ l); [reflexivity | left; exists t; split; [assumption | in_labels] | cbn [step]; rewrite Hpc].
Ltac fire_frame l f :=
  apply (fires_intro _ l); [reflexivity | right; exists f; split; [assumption | in_labels] | cbn [step]].

Definition simple_pc (p : pc) : bool :=
  match p with TSpawned | TTry | TExists | TFind | TEnd | TGo | TPush => true | _ => false end.

Lemma simple_fires s t : t < ntasks s -> simple_pc (t_pc (tasks s t)) = true -> fires s.
Proof.
  intros Ht Hp. destruct (t_pc (tasks s t)) eqn:Hpc; try discriminate.
  - fire (LChildRun t) t Hpc. eexists; reflexivity.
  - fire (LTryCommit t) t Hpc. destruct (tracker s _); eexists; reflexivity.
  - fire (LExists t ExFalse) t Hpc. eexists; reflexivity.
  - fire (LFind t true) t Hpc. eexists; reflexivity.
  - fire (LEnd t) t Hpc. eexists; reflexivity.
  - fire (LGo t) t Hpc. eexists; reflexivity.
  - fire (LPush t true) t Hpc. eexists; reflexivity.
Qed.

Lemma frame_dispatch_fires s f : I_wff s ->
  f_pc (frames s f) = FDispatch ->
  f_cancelled (frames s f) = true \/ 0 < free s -> fires s.
Proof.
  intros Hw Hpc Hc. pose proof (flive s f _ Hw Hpc eq_refl) as Hf.
  destruct (f_items (frames s f)) as [|i rest] eqn:Hit.
  - fire_frame (LDispatchEnd f) f. rewrite Hpc, Hit. eexists; reflexivity.
  - destruct (f_cancelled (frames s f)) eqn:Hcc.
    + fire_frame (LDispatchFail f) f. rewrite Hpc, Hit, Hcc. eexists; reflexivity.
    + destruct Hc as [Hc|Hc]; [discriminate|]. destruct (free s) as [|k] eqn:Hfr; [lia|].
      fire_frame (LDispatchAcq f) f. rewrite Hpc, Hit, Hfr. eexists; reflexivity.
Qed.

Lemma frame_wait_fires s f : Inv2 s ->
  f_pc (frames s f) = FWait -> frame_tasks_done s f = true -> fires s.
Proof.
  intros [Hwff Hnf Htf Hunf Hingo Hpar Htop Hself Hanc Hrank Hwait] Hpc Hd.
  pose proof (flive s f _ Hwff Hpc eq_refl) as Hf.
  fire_frame (LGoReturn f) f. rewrite Hpc, Hd.
  destruct (f_parent (frames s f)) as [p|] eqn:Hp; [|eexists; reflexivity].
  destruct (Hpar f p Hp) as [_ Hq]. rewrite Hq by (rewrite Hpc; reflexivity). rewrite Nat.eqb_refl.
  destruct (f_cancelled (frames s f)); eexists; reflexivity.
Qed.

Lemma frame_fires_if s f : Inv2 s -> is_ret (f_pc (frames s f)) = false ->
  (f_cancelled (frames s f) = true \/ (failed s = false /\ 0 < free s)) ->
  (forall c, t_frame (tasks s c) = f -> is_fin (t_pc (tasks s c)) = false -> fires s) -> fires s.
Proof.
  intros I2 Hret Hreg Hch.
  destruct (f_pc (frames s f)) eqn:Hfpc; try discriminate.
  - apply (frame_dispatch_fires s f); auto. apply I2. tauto.
  - destruct (frame_tasks_done s f) eqn:Hd.
    + apply (frame_wait_fires s f); auto.
    + destruct (ftd_false s f Hd) as [c [_ [Hc2 Hc3]]]. eauto.
Qed.

(* by induction on the rank: a task waits only for tasks of smaller rank *)
Lemma task_fires s : Inv1 s -> Inv2 s -> Inv3 s ->
  forall r t, trank (tasks s t) <= r -> is_fin (t_pc (tasks s t)) = false ->
    (f_cancelled (frames s (t_frame (tasks s t))) = true \/ (failed s = false /\ 0 < free s)) -> fires s.
Proof.
  intros [Hwf Hperm Hmust Hmay] I2 [Hcf Hfw Hown Hkfn].
  pose proof I2 as [Hwff Hnf Htf Hunf Hingo Hpar Htop Hself Hanc Hrank Hwait].
  induction r as [r IH] using lt_wf_ind. intros t Hr Hfin Hreg.
  pose proof (live_lt s t _ Hwf eq_refl Hfin) as Ht.
  destruct (t_pc (tasks s t)) eqn:Hpc; try discriminate.
  1-6, 10: apply (simple_fires s t); auto; rewrite Hpc; reflexivity.
  - (* TInGo f *)
    destruct (Hingo t f Hpc) as [Hp Hret]. apply (frame_fires_if s f); auto.
    + destruct Hreg as [Hc|Hc]; auto. left. now apply (Hanc f t Hp).
    + intros c Hc Hcf'. apply (IH (trank (tasks s c))) with (t := c); auto.
      * specialize (proj2 (Hrank f t Hp) c Hc). lia.
      * destruct Hreg as [Hr1|Hr1]; auto. left. rewrite Hc. now apply (Hanc f t Hp).
  - (* TWait *)
    destruct (Hwait t l Hpc) as [Hk [Hne Hsub]].
    destruct l as [|m rest]; [congruence|].
    destruct Hreg as [Hc|[Hfl Hfree]].
    + fire (LWaitCancel t) t Hpc. rewrite Hc. eexists; reflexivity.
    + destruct (tracker s m) eqn:Hm; try (fire (LWaitDone t) t Hpc; rewrite Hm; eexists; reflexivity).
      (* the node is being copied: by a task of smaller rank, which has not failed *)
      destruct (Hown Hfl m Hm) as [o [Ho1 [Ho2 Ho3]]].
      assert (Hlt : m < t_node (tasks s t)) by (apply succ_dec; apply Hsub; left; auto).
      apply (IH (trank (tasks s o))) with (t := o); auto.
      * unfold trank, crank in *. rewrite Ho2, Ho1. rewrite Hk in Hr. lia.
      * destruct (t_pc (tasks s o)); try discriminate; reflexivity.
  - (* TStart *)
    destruct (t_holds (tasks s t)) eqn:Hh.
    + fire (LStart t) t Hpc. rewrite Hh. destruct (t_kind (tasks s t)); eexists; reflexivity.
    + destruct Hreg as [Hc|[Hfl Hfree]].
      * fire (LStartFail t) t Hpc. rewrite Hh, Hc. eexists; reflexivity.
      * fire (LStart t) t Hpc. rewrite Hh. destruct (free s); [lia|].
        destruct (t_kind (tasks s t)); eexists; reflexivity.
Qed.

Lemma frame_fires s f : Inv1 s -> Inv2 s -> Inv3 s ->
  is_ret (f_pc (frames s f)) = false ->
  (f_cancelled (frames s f) = true \/ (failed s = false /\ 0 < free s)) -> fires s.
Proof.
  intros I1 I2 I3 Hret Hreg. apply (frame_fires_if s f); auto.
  intros c Hc Hfin. apply (task_fires s I1 I2 I3 (trank (tasks s c)) c); auto. now rewrite Hc.
Qed.

Theorem no_deadlock s : 1 <= K -> Reachable s -> is_final s = false -> fires s.
Proof.
  intros HK Hr Hnf. destruct (inv123_reach succ K ext roots succ_dec s Hr) as [I1 [I2 I3]].
  unfold is_final in Hnf.
  destruct (failed s) eqn:Hfl.
  - destruct (i3_failw s I3 Hfl) as [[f [Hc Hu]]|Ht].
    + apply (frame_fires s f); auto.
    + rewrite Ht in Hnf. discriminate.
  - destruct (free s) as [|k] eqn:Hfree.
    + pose proof I1 as I1'. destruct I1' as [Hwf Hperm Hmust Hmay].
      assert (Hh : 0 < holders s) by lia.
      destruct (count_upto_pos _ _ Hh) as [t [Ht1 Ht2]].
      apply (simple_fires s t); auto. specialize (Hmay t Ht2).
      destruct (t_pc (tasks s t)); try discriminate; reflexivity.
    + apply (frame_fires s 0); auto. right. split; auto. lia.
Qed.

End Proofs.
