(* C14 — "listing = exactly the live manifests" for every interleaving in which operations on
   the SAME manifest do not overlap (Model/Live.v), on top of the invariants of the Merge
   system. *)
From Oras Require Import Base.Prelude Model.Referrers Proofs.Referrers Model.Merge Proofs.Merge
  Proofs.MergeLin Proofs.MergeThm Model.Live.

Lemma step_lin sg s e s' : step sg s e = Some s' -> lin s' = lin s \/ lin s' = lin s ++ batch s.
Proof.
  intro H. destruct e; simpl in H; step_inv H; auto.
Qed.

Definition active (p : pc) : bool := match p with Idle | Done _ => false | _ => true end.

Lemma step_arg_lin sg r0 s e s' : InvS s -> InvV r0 s -> step sg s e = Some s' ->
  forall x, In x (lin s ++ batch s) -> arg s' x = arg s x.
Proof.
  intros I V H x Hx. eapply arg_stable; eauto. apply in_app_iff in Hx as [Hx|Hx].
  - now destruct (v_idle _ _ V x Hx).
  - destruct (batch_member s x I Hx) as [E|E]; [rewrite E; discriminate|].
    destruct (pcs s x); try discriminate.
Qed.

Lemma step_effect sg r0 s e s' : InvS s -> InvV r0 s -> InvV r0 s' -> step sg s e = Some s' ->
  (lin s' = lin s /\ forall k, memb (reg s') k = memb (reg s) k) \/
  (lin s' = lin s ++ batch s /\
   forall k, memb (reg s') k = member_after k (memb (reg s) k) (map (arg s) (batch s))).
Proof.
  intros I V V' H.
  assert (Ha : forall l, (forall x, In x l -> In x (lin s ++ batch s)) -> map (arg s') l = map (arg s) l).
  { intros l Hl. apply map_ext_in. intros x Hx. eapply step_arg_lin; eauto. }
  destruct (step_lin _ _ _ _ H) as [E|E]; [left|right]; split; auto; intro k.
  - rewrite (v_set _ _ V' k), (v_set _ _ V k), E. f_equal. apply Ha. intros x Hx. apply in_app_iff. now left.
  - rewrite (v_set _ _ V' k), (v_set _ _ V k), E, map_app, member_after_app. f_equal.
    + f_equal. apply Ha. intros x Hx. apply in_app_iff. now left.
    + apply Ha. intros x Hx. apply in_app_iff. now right.
Qed.

(* the value of key k after a list of changes in which every change of key k has the same kind *)
Lemma member_after_none k b cs : (forall c, In c cs -> ckey c <> k) -> member_after k b cs = b.
Proof.
  unfold member_after. revert b. induction cs as [|c t IH]; intros b H; simpl; auto.
  rewrite IH by (intros; apply H; now right).
  assert (Hc : ckey c <> k) by (apply H; now left).
  unfold ckey in Hc. destruct c as [d|d]; simpl in *; apply N.eqb_neq in Hc; now rewrite Hc.
Qed.

Lemma classic_dec_ex (cs : list change) k :
  (exists c, In c cs /\ ckey c = k) \/ (forall c, In c cs -> ckey c <> k).
Proof.
  induction cs as [|c t IH]; [right; intros c []|].
  destruct (N.eq_dec (ckey c) k) as [E|E]; [left; exists c; split; auto; now left|].
  destruct IH as [(c0 & H0 & H1)|IH]; [left; exists c0; split; auto; now right|].
  right. intros c1 [<-|H1]; auto.
Qed.

Lemma member_after_kind k kind cs : forall b,
  (forall c, In c cs -> ckey c = k -> is_add c = kind) ->
  (exists c, In c cs /\ ckey c = k) -> member_after k b cs = kind.
Proof.
  unfold member_after. induction cs as [|c t IH]; intros b Hall (c0 & Hin & Hk); [destruct Hin|]. simpl.
  destruct (classic_dec_ex t k) as [Hex|Hno].
  - apply IH; auto. intros c1 H1. apply Hall. now right.
  - change (fold_left (member_step k) t (member_step k b c)) with (member_after k (member_step k b c) t).
    rewrite member_after_none by exact Hno.
    destruct Hin as [->|Hin]; [|exfalso; eapply Hno; eauto].
    assert (Hkind := Hall c0 (or_introl eq_refl) Hk).
    unfold ckey in Hk. destruct c0 as [d|d]; simpl in *; rewrite Hk, N.eqb_refl; auto.
Qed.

Definition ents := list (tid * N * bool).

Lemma has_entry_In t k b (l : ents) : has_entry t k b l = true <-> In (t, k, b) l.
Proof.
  unfold has_entry. rewrite existsb_exists. split.
  - intros ([[t' k'] b'] & Hin & H). unfold ent_tid, ent_key in H. simpl in H.
    apply andb_true_iff in H as [H Hb]. apply andb_true_iff in H as [Ht Hk].
    apply Nat.eqb_eq in Ht. apply N.eqb_eq in Hk. apply Bool.eqb_prop in Hb. now subst.
  - intro Hin. exists (t, k, b). split; auto. unfold ent_tid, ent_key. simpl.
    now rewrite Nat.eqb_refl, N.eqb_refl, Bool.eqb_reflx.
Qed.

Lemma has_tid_false t (l : ents) : has_tid t l = false -> ~ In t (map ent_tid l).
Proof.
  intros H Hin. apply in_map_iff in Hin as (e & E & Hin).
  assert (has_tid t l = true); [|congruence].
  unfold has_tid. apply existsb_exists. exists e. split; auto. rewrite E. apply Nat.eqb_refl.
Qed.

Lemma has_key_false k (l : ents) : has_ent_key k l = false -> ~ In k (map ent_key l).
Proof.
  intros H Hin. apply in_map_iff in Hin as (e & E & Hin).
  assert (has_ent_key k l = true); [|congruence].
  unfold has_ent_key. apply existsb_exists. exists e. split; auto. rewrite E. apply N.eqb_refl.
Qed.

Lemma NoDup_map_inj {A B} (f : A -> B) l x y : NoDup (map f l) -> In x l -> In y l -> f x = f y -> x = y.
Proof.
  induction l as [|e l IH]; simpl; intros N H1 H2 E; [destruct H1|].
  inversion N as [|? ? Hn Hd]; subst.
  destruct H1 as [->|H1], H2 as [->|H2]; auto; exfalso; apply Hn; [rewrite E|rewrite <- E]; now apply in_map.
Qed.

Lemma ent_key_unique (l : ents) t k b t' b' :
  NoDup (map ent_key l) -> In (t, k, b) l -> In (t', k, b') l -> t = t' /\ b = b'.
Proof. intros N H1 H2. now injection (NoDup_map_inj ent_key l _ _ N H1 H2 eq_refl) as -> ->. Qed.

Lemma ent_tid_unique (l : ents) t k b k' b' :
  NoDup (map ent_tid l) -> In (t, k, b) l -> In (t, k', b') l -> k = k' /\ b = b'.
Proof. intros N H1 H2. now injection (NoDup_map_inj ent_tid l _ _ N H1 H2 eq_refl) as -> ->. Qed.

Lemma drop_tid_In t (l : ents) e : In e (drop_tid t l) <-> In e l /\ ent_tid e <> t.
Proof. unfold drop_tid. rewrite filter_In, negb_true_iff, Nat.eqb_neq. tauto. Qed.

Lemma live_mem_cons k x l : live_mem k (x :: l) = (k =? x) || live_mem k l.
Proof. reflexivity. Qed.

Lemma live_mem_filter k x l : live_mem k (filter (fun y => negb (y =? x)) l) = negb (k =? x) && live_mem k l.
Proof. apply existsb_filter_neq. Qed.

Record LInv (m : lstate) : Prop := {
  li_nd_k : NoDup (map ent_key (l_inflight m));
  li_nd_t : NoDup (map ent_tid (l_inflight m));
  li_act : forall t, active (pcs (l_s m) t) = true ->
      In (t, ckey (arg (l_s m) t), is_add (arg (l_s m) t)) (l_inflight m);
  li_ent : forall t k b, In (t, k, b) (l_inflight m) ->
      live_mem k (l_live m) = true /\ k <> 0 /\
      (pcs (l_s m) t = Idle -> b = true) /\
      (pcs (l_s m) t <> Idle -> ckey (arg (l_s m) t) = k /\ is_add (arg (l_s m) t) = b);
  li_lin : forall t k b, In (t, k, b) (l_inflight m) -> In t (lin (l_s m)) -> memb (reg (l_s m)) k = b;
  li_cons : forall k, ~ In k (map ent_key (l_inflight m)) -> ~ In k (l_taint m) -> consistent m k
}.

Lemma linv_init r0 st0 live0 : tracks (r0, live0) -> LInv (linit r0 st0 live0).
Proof.
  intro T. constructor; simpl; try constructor; try tauto.
  - intros t H. discriminate.
  - intros k _ _. unfold consistent. simpl. apply (T k).
Qed.

Definition not_get (e : event) : Prop := forall t c, e <> EGet t c.

Lemma pcs_facts sg s e s' : InvS s -> step sg s e = Some s' -> not_get e ->
  forall x, (pcs s' x = Idle <-> pcs s x = Idle) /\ (active (pcs s' x) = true -> active (pcs s x) = true).
Proof.
  intros I H Hn x. destruct (step_pcs sg s e s' H) as [(t & p' & Hs & ->)|[(t & r & -> & Hpc & ->)|[_ ->]]]; [| |tauto].
  - tcase x t; [|tauto]. destruct (pc_step_inside e t _ p' Hs) as (Hh & Hp' & _); [intros c ->; now apply (Hn t c)|].
    split; [|auto]. split; intro E; [contradiction|now rewrite E in Hh].
  - destruct (complete_pcs_cases s t r x) as [[A ->]|(_ & _ & ->)]; [|tauto].
    assert (Hh : holding (pcs s x) = true).
    { destruct A as [->|A]; [now rewrite Hpc|]. destruct (batch_member s x I A) as [E|E]; [now rewrite E|now apply main_holding]. }
    split; [|auto]. split; intro E; [discriminate|now rewrite E in Hh].
Qed.

Lemma linv_idx sg r0 m e s' :
  LInv m -> InvS (l_s m) -> InvV r0 (l_s m) -> InvV r0 s' ->
  step sg (l_s m) e = Some s' -> not_get e ->
  LInv (mkL s' (l_live m) (l_inflight m) (l_taint m)).
Proof.
  intros L I V V' H Hn. set (s := l_s m) in *.
  pose proof (pcs_facts sg s e s' I H Hn) as Hp.
  assert (Harg : forall x, pcs s x <> Idle -> arg s' x = arg s x) by (intros; eapply arg_stable; eauto).
  assert (Hmem : forall x, In x (batch s) -> In (x, ckey (arg s x), is_add (arg s x)) (l_inflight m)).
  { intros x Hx. apply (li_act m L). destruct (batch_member s x I Hx) as [E|E]; [fold s; now rewrite E|].
    fold s. destruct (pcs s x); try discriminate; reflexivity. }
  assert (Hkey : forall x t k b, In x (batch s) -> In (t, k, b) (l_inflight m) -> ckey (arg s x) = k ->
            x = t /\ is_add (arg s x) = b).
  { intros x t k b Hx Hin Hk. specialize (Hmem x Hx). rewrite Hk in Hmem.
    exact (ent_key_unique _ _ _ _ _ _ (li_nd_k m L) Hmem Hin). }
  constructor; simpl.
  - apply (li_nd_k m L).
  - apply (li_nd_t m L).
  - intros t Ha. destruct (Hp t) as [Hi Hact]. specialize (Hact Ha).
    assert (pcs s t <> Idle) by (intro E; rewrite E in Hact; discriminate).
    rewrite Harg by auto. now apply (li_act m L).
  - intros t k b Hin. destruct (li_ent m L t k b Hin) as (A & B & C & D). fold s in C, D.
    destruct (Hp t) as [Hi _]. split; [exact A|]. split; [exact B|]. split; [intro E; apply C; now apply Hi|].
    intro Hni. assert (pcs s t <> Idle) by (intro E; apply Hni; now apply Hi). rewrite Harg by auto. now apply D.
  - intros t k b Hin Hl.
    destruct (step_effect sg r0 s e s' I V V' H) as [[El Em]|[El Em]].
    + rewrite Em. apply (li_lin m L t k b Hin). fold s. now rewrite <- El.
    + rewrite Em. rewrite El in Hl. apply in_app_iff in Hl.
      destruct (in_dec Nat.eq_dec t (batch s)) as [Hb|Hnb].
      * apply member_after_kind.
        -- intros c Hc Hk. apply in_map_iff in Hc as (x & <- & Hx). now destruct (Hkey x t k b Hx Hin Hk).
        -- exists (arg s t). split; [now apply in_map|].
           destruct (li_ent m L t k b Hin) as (_ & _ & _ & D). fold s in D. apply D.
           destruct (batch_member s t I Hb) as [E|E]; [rewrite E; discriminate|]. destruct (pcs s t); try discriminate.
      * rewrite member_after_none.
        -- apply (li_lin m L t k b Hin). fold s. tauto.
        -- intros c Hc Hk. apply in_map_iff in Hc as (x & <- & Hx). apply Hnb.
           now destruct (Hkey x t k b Hx Hin Hk) as [<- _].
  - intros k Hk Ht. unfold consistent. simpl.
    pose proof (li_cons m L k Hk Ht) as Hc. unfold consistent in Hc. fold s in Hc.
    destruct (step_effect sg r0 s e s' I V V' H) as [[El Em]|[El Em]]; rewrite Em; auto.
    rewrite member_after_none; auto.
    intros c Hc' Hkk. apply in_map_iff in Hc' as (x & <- & Hx). apply Hk.
    apply in_map_iff. exists (x, ckey (arg s x), is_add (arg s x)). split; auto.
Qed.

Lemma get_facts sg s t c s' : step sg s (EGet t c) = Some s' ->
  pcs s t = Idle /\ ckey c <> 0 /\ arg s' t = c /\ pcs s' t = Got c /\
  lin s' = lin s /\ reg s' = reg s /\
  (forall x, x <> t -> pcs s' x = pcs s x /\ arg s' x = arg s x).
Proof.
  intro H. destruct (arg_set _ _ _ _ _ H) as [A B]. simpl in H.
  destruct (pcs s t) eqn:Hpc; try discriminate.
  destruct (is_empty (cdesc c)) eqn:Hne; try discriminate.
  assert (Hk : ckey c <> 0) by (unfold ckey, is_empty in *; now apply N.eqb_neq).
  destruct (pool s); injection H as <-; simpl; repeat split; auto;
    try (intros y Hy; rewrite !upd_neq by auto; auto); try (rewrite !upd_neq by auto; auto).
Qed.

(* an EGet: [fl'] is the old list, possibly with the new entry of t in front *)
Lemma linv_get sg m t c s' fl' :
  LInv m -> step sg (l_s m) (EGet t c) = Some s' ->
  (forall e, In e fl' <-> e = (t, ckey c, is_add c) \/ In e (l_inflight m)) ->
  NoDup (map ent_key fl') -> NoDup (map ent_tid fl') ->
  live_mem (ckey c) (l_live m) = true ->
  ~ In t (lin (l_s m)) ->
  LInv (mkL s' (l_live m) fl' (l_taint m)).
Proof.
  intros L H Hfl Nk Nt Hlive Hnl. set (s := l_s m) in *.
  destruct (get_facts _ _ _ _ _ H) as (Hidle & Hk & Ha & Hp & El & Er & Ho).
  constructor; simpl; auto.
  - intros x Hx. apply Hfl. destruct (Nat.eq_dec x t) as [->|Hne].
    + left. now rewrite Ha.
    + right. destruct (Ho x Hne) as [E1 E2]. rewrite E1 in Hx. rewrite E2. now apply (li_act m L).
  - intros x k b Hin. apply Hfl in Hin. destruct (Nat.eq_dec x t) as [->|Hne].
    + assert (E : (t, k, b) = (t, ckey c, is_add c)).
      { destruct Hin as [E|Hin]; auto.
        assert (Hin1 : In (t, k, b) fl') by (apply Hfl; now right).
        assert (Hin2 : In (t, ckey c, is_add c) fl') by (apply Hfl; now left).
        destruct (ent_tid_unique _ _ _ _ _ _ Nt Hin1 Hin2) as [-> ->]. reflexivity. }
      injection E as -> ->. rewrite Hp, Ha. repeat split; auto; try discriminate.
    + destruct Hin as [E|Hin]; [injection E as -> _ _; congruence|].
      destruct (Ho x Hne) as [E1 E2]. rewrite E1, E2. apply (li_ent m L x k b Hin).
  - intros x k b Hin Hl. rewrite El in Hl. rewrite Er. apply Hfl in Hin.
    destruct Hin as [E|Hin]; [injection E as -> _ _; tauto|]. now apply (li_lin m L x k b Hin).
  - intros k Hk' Ht. unfold consistent. simpl. rewrite Er. apply (li_cons m L k); auto.
    intro Hin. apply Hk'. apply in_map_iff in Hin as (e & E & Hin). apply in_map_iff. exists e. split; auto.
    apply Hfl. now right.
Qed.

Lemma drop_keys (l : ents) t k b k' :
  NoDup (map ent_tid l) -> In (t, k, b) l -> k' <> k ->
  ~ In k' (map ent_key (drop_tid t l)) -> ~ In k' (map ent_key l).
Proof.
  intros Nt Hin Hne Hn Hk. apply Hn. apply in_map_iff in Hk as ([[t1 k1] b1] & E & H1).
  unfold ent_key in E. simpl in E. subst k1. apply in_map_iff. exists (t1, k', b1). split; auto.
  apply drop_tid_In. split; auto. unfold ent_tid. simpl. intro; subst t1.
  destruct (ent_tid_unique _ _ _ _ _ _ Nt Hin H1). congruence.
Qed.

Lemma linv_drop m t k b live' taint' :
  LInv m -> In (t, k, b) (l_inflight m) -> active (pcs (l_s m) t) = false ->
  (forall k', k' <> k -> live_mem k' live' = live_mem k' (l_live m)) ->
  (forall k', In k' (l_taint m) -> In k' taint') ->
  (In k taint' \/ memb (reg (l_s m)) k = negb (k =? 0) && live_mem k live') ->
  LInv (mkL (l_s m) live' (drop_tid t (l_inflight m)) taint').
Proof.
  intros L Hin Hna Hlive Htaint Hk. constructor; simpl.
  - apply NoDup_map_filter, (li_nd_k m L).
  - apply NoDup_map_filter, (li_nd_t m L).
  - intros x Hx. apply drop_tid_In. split; [now apply (li_act m L)|].
    unfold ent_tid. simpl. intro; subst x. congruence.
  - intros x k' b' Hin'. apply drop_tid_In in Hin' as [Hin' Hne]. unfold ent_tid in Hne. simpl in Hne.
    destruct (li_ent m L x k' b' Hin') as (A & B & C & D). repeat split; auto; try (now apply D).
    rewrite Hlive; auto. intro; subst k'.
    destruct (ent_key_unique _ _ _ _ _ _ (li_nd_k m L) Hin Hin'). congruence.
  - intros x k' b' Hin' Hl. apply drop_tid_In in Hin' as [Hin' _]. now apply (li_lin m L x k' b').
  - intros k' Hk' Ht. unfold consistent. simpl. destruct (N.eq_dec k' k) as [->|Hne].
    + destruct Hk as [Hk|Hk]; [tauto|exact Hk].
    + rewrite Hlive by auto. apply (li_cons m L k').
      * eapply drop_keys; eauto. apply (li_nd_t m L).
      * intro Hx. apply Ht. auto.
Qed.

Lemma lstep_inv sg r0 m e m' :
  LInv m -> InvS (l_s m) -> InvV r0 (l_s m) -> lstep sg m e = Some m' ->
  LInv m' /\ InvS (l_s m') /\ InvV r0 (l_s m').
Proof.
  intros L I V H. destruct e as [t d|e|t|t|d]; cbn -[step] in H.
  - (* LPut *)
    destruct (pcs (l_s m) t) eqn:Hpc; try discriminate.
    destruct (is_empty d) eqn:He; simpl in H; [discriminate|].
    destruct (has_tid t (l_inflight m)) eqn:Ht; simpl in H; [discriminate|].
    destruct (has_ent_key (dkey d) (l_inflight m)) eqn:Hk; [discriminate|]. injection H as <-.
    split; [|split; auto]. constructor; cbn [l_s l_live l_inflight l_taint map].
    + constructor; [now apply has_key_false|apply (li_nd_k m L)].
    + constructor; [now apply has_tid_false|apply (li_nd_t m L)].
    + intros x Hx. right. now apply (li_act m L).
    + intros x k b [E|Hin].
      * injection E as <- <- <-. rewrite live_mem_cons, N.eqb_refl. repeat split; auto; try congruence.
        unfold is_empty in He. now apply N.eqb_neq.
      * destruct (li_ent m L x k b Hin) as (A & B & C & D). rewrite live_mem_cons, A, orb_true_r. auto.
    + intros x k b [E|Hin] Hl.
      * injection E as <- _ _. destruct (v_idle _ _ V t Hl). congruence.
      * now apply (li_lin m L x k b).
    + intros k Hk' Ht'. unfold consistent. cbn [l_s l_live]. rewrite live_mem_cons.
      assert (k <> dkey d) by (intro; subst; apply Hk'; left; reflexivity).
      apply N.eqb_neq in H. rewrite H. simpl. apply (li_cons m L k); auto.
      intro Hx. apply Hk'. now right.
  - (* LIdx *)
    assert (Hgen : forall s', step sg (l_s m) e = Some s' -> not_get e ->
              LInv (mkL s' (l_live m) (l_inflight m) (l_taint m)) /\ InvS s' /\ InvV r0 s').
    { intros s' Hs Hn. assert (I' : InvS s') by exact (stepS sg (l_s m) e s' I Hs).
      assert (V' : InvV r0 s') by exact (stepV sg r0 (l_s m) e s' I V Hs).
      split; [|split; auto]. apply (linv_idx sg r0 m e s'); auto. }
    destruct e as [t c|t|t|t f|t|t f|t|t f|t|t|t|]; cbn -[step] in H;
      try (match type of H with match step ?a ?b ?ev with _ => _ end = _ =>
             destruct (step a b ev) as [s'|] eqn:Hs; [|discriminate]; injection H as <-;
             apply Hgen; auto; intros ? ? ?; discriminate end).
    destruct c as [d|d].
    + destruct (has_entry t (dkey d) true (l_inflight m)) eqn:He; [|discriminate].
      destruct (step sg (l_s m) (EGet t (Add d))) as [s'|] eqn:Hs; [|discriminate]. injection H as <-.
      apply has_entry_In in He.
      split; [|split; [exact (stepS _ _ _ _ I Hs)|exact (stepV _ _ _ _ _ I V Hs)]].
      destruct (get_facts _ _ _ _ _ Hs) as (Hidle & _).
      apply (linv_get sg m t (Add d) s' (l_inflight m) L Hs); try apply L.
      * intro e. split; [now right|]. intros [->|]; auto.
      * now destruct (li_ent m L t (dkey d) true He).
      * intro Hl. destruct (v_idle _ _ V t Hl). congruence.
    + destruct (has_tid t (l_inflight m)) eqn:Ht; cbn -[step] in H; [discriminate|].
      destruct (has_ent_key (dkey d) (l_inflight m)) eqn:Hk; cbn -[step] in H; [discriminate|].
      destruct (live_mem (dkey d) (l_live m)) eqn:Hl; cbn -[step] in H; [|discriminate].
      destruct (step sg (l_s m) (EGet t (Remove d))) as [s'|] eqn:Hs; [|discriminate]. injection H as <-.
      split; [|split; [exact (stepS _ _ _ _ I Hs)|exact (stepV _ _ _ _ _ I V Hs)]].
      destruct (get_facts _ _ _ _ _ Hs) as (Hidle & _).
      apply (linv_get sg m t (Remove d) s' _ L Hs); auto.
      * intro e. simpl. unfold ckey. simpl. split; intros [E|E]; auto.
      * simpl. constructor; [now apply has_key_false|apply (li_nd_k m L)].
      * simpl. constructor; [now apply has_tid_false|apply (li_nd_t m L)].
      * intro Hx. destruct (v_idle _ _ V t Hx). congruence.
  - (* LDel *)
    destruct (pcs (l_s m) t) as [|c0| | |old|nw o|oi ap|r|r|r] eqn:Hpc; try discriminate.
    destruct (has_entry t (ckey (arg (l_s m) t)) false (l_inflight m)) eqn:He; [|discriminate].
    destruct (plain_err r) eqn:Hr; [discriminate|]. injection H as <-. apply has_entry_In in He.
    split; [|split; auto]. apply (linv_drop m t _ _ _ _ L He); auto.
    + now rewrite Hpc.
    + intros k' Hne. rewrite live_mem_filter. apply N.eqb_neq in Hne. now rewrite Hne.
    + right. rewrite live_mem_filter, N.eqb_refl. simpl. rewrite andb_false_r.
      apply (li_lin m L t _ false He), (v_ret _ _ V t _ (or_intror Hpc)). now intros ->.
  - (* LEnd *)
    destruct (pcs (l_s m) t) as [|c0| | |old|nw o|oi ap|r|r|r] eqn:Hpc; try discriminate.
    destruct (has_entry t (ckey (arg (l_s m) t)) (is_add (arg (l_s m) t)) (l_inflight m)) eqn:He; [|discriminate].
    apply has_entry_In in He.
    (* a push whose index update took effect is over; everything else leaves the key tainted *)
    assert (Hm' : m' = mkL (l_s m) (l_live m) (drop_tid t (l_inflight m)) (ckey (arg (l_s m) t) :: l_taint m) \/
                  m' = mkL (l_s m) (l_live m) (drop_tid t (l_inflight m)) (l_taint m) /\
                  r <> RErr /\ is_add (arg (l_s m) t) = true).
    { destruct r; try destruct (is_add (arg (l_s m) t)); injection H as <-; auto; right; repeat split; discriminate. }
    destruct Hm' as [->|(-> & Hr & Ha)]; (split; [|split; auto]);
      apply (linv_drop m t _ _ _ _ L He); auto; try (now rewrite Hpc).
    + intros k' Hk'. now right.
    + left. now left.
    + right. destruct (li_ent m L _ _ _ He) as (A & B & _). rewrite A. apply N.eqb_neq in B. rewrite B. simpl.
      rewrite <- Ha. now apply (li_lin m L t _ _ He), (v_ret _ _ V t _ (or_intror Hpc)).
  - (* LPutLost *)
    destruct (is_empty d) eqn:He; simpl in H; [discriminate|].
    destruct (has_ent_key (dkey d) (l_inflight m)) eqn:Hk; [discriminate|]. injection H as <-.
    split; [|split; auto]. constructor; cbn [l_s l_live l_inflight l_taint map].
    + apply (li_nd_k m L).
    + apply (li_nd_t m L).
    + apply (li_act m L).
    + intros x k b Hin. destruct (li_ent m L x k b Hin) as (A & B & C & D). rewrite live_mem_cons, A, orb_true_r. auto.
    + apply (li_lin m L).
    + intros k Hk' Ht'. unfold consistent. cbn [l_s l_live]. rewrite live_mem_cons.
      assert (Hd : k <> dkey d) by (intro; subst; apply Ht'; left; reflexivity).
      apply N.eqb_neq in Hd. rewrite Hd. simpl. apply (li_cons m L k); auto. intro Hx. apply Ht'. now right.
Qed.

Lemma lrun_inv sg r0 tr : forall m m',
  LInv m -> InvS (l_s m) -> InvV r0 (l_s m) -> lrun sg m tr = Some m' ->
  LInv m' /\ InvS (l_s m') /\ InvV r0 (l_s m').
Proof.
  induction tr as [|e tr IH]; intros m m' L I V H; simpl in H.
  - injection H as <-. auto.
  - destruct (lstep sg m e) as [m1|] eqn:E; [|discriminate].
    destruct (lstep_inv sg r0 m e m1 L I V E) as (L1 & I1 & V1). eapply IH; eauto.
Qed.

(* every interleaving of operations on one subject in which operations on the same manifest
   do not overlap: a manifest that no operation is working on (and no failed operation has
   touched) is listed iff it is live *)
Lemma listing_is_live sg r0 st0 live0 tr m :
  tracks (r0, live0) -> lrun sg (linit r0 st0 live0) tr = Some m ->
  forall k, ~ In k (map ent_key (l_inflight m)) -> ~ In k (l_taint m) -> consistent m k.
Proof.
  intros T H. destruct (lrun_inv sg r0 tr _ _ (linv_init r0 st0 live0 T) (invS_init r0 st0) (invV_init r0 st0) H) as (L & _ & _).
  apply (li_cons m L).
Qed.
