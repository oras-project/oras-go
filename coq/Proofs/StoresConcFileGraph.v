(* C06 -- the file store's graph under interleavings: at quiescence the set of indexed nodes,
   and hence every Predecessors answer, is the one of the sequential execution in commit
   order (untitled content, no aliasing name, collision-free bytes B). *)
From Oras Require Import Base.Prelude Model.Stores Model.StoresConc Model.StoresConcFile
     Proofs.Stores Proofs.StoresConc Proofs.StoresConcFile Proofs.StoresFile.
From Coq Require Import Permutation.

Lemma file_inv_core s q : fcore s = fcore q -> file_inv q -> file_inv s.
Proof.
  intro H. rewrite (fcore_eq_graph _ _ H). intros [A C D]. constructor; [exact A | exact C | exact D].
Qed.

Lemma file_index_after_graph_eq fx ov d s :
  f_graph (fst (file_index_after fx ov d s)) = f_graph (fst (file_index d s)).
Proof.
  destruct (file_index_after_state fx ov d s) as [->|(c1 & _ & ->)]; [reflexivity | apply file_restore_graph_same].
Qed.

Lemma index_after_nodes fx ov d s k :
  file_inv s -> file_exists d s = true ->
  (indexed k (fst (file_index_after fx ov d s)) <-> (k = gk d \/ indexed k s)).
Proof.
  intros Hi He. unfold indexed. rewrite file_index_after_graph_eq.
  assert (E : exists ss, f_graph (fst (file_index d s)) = g_index d ss (f_graph s)).
  { unfold file_index. destruct (is_manifest (d_mt d)); [|eexists; reflexivity].
    destruct (file_exists_fetch d s Hi He) as [c1 Hf]. rewrite Hf.
    destruct (file_fetch_inv _ _ _ Hi Hf) as [Hh _]. rewrite Hh, N.eqb_refl. eexists; reflexivity. }
  destruct E as [ss ->]. rewrite g_index_nodes, mem_keys_put, orb_true_iff, gkey_eqb_spec. reflexivity.
Qed.

Lemma file_step_nonpush_graph fx ig ov s o :
  match o with Push _ _ => False | _ => True end -> f_graph (fst (file_step fx ig ov s o)) = f_graph s.
Proof.
  intro H. destruct (file_step_nonpush fx ig ov s o) as [(d & c & ->)|[->|(d & r & _ & _ & ->)]];
    [contradiction | reflexivity | reflexivity].
Qed.

Section FileConcGraph.
  Variable B : N -> blob.
  Variables ig ov : bool.

  Lemma file_B_core s q : fcore s = fcore q -> file_B B q -> file_B B s.
  Proof. intro H. rewrite (fcore_eq_graph _ _ H). intros [A C]. constructor; [exact A | exact C]. Qed.

  Definition fpending (t : fthread) : list gkey := match ft_pc t with FIndex d => [gk d] | _ => [] end.
  Definition fthread_ix (s : file_store) (t : fthread) : Prop :=
    match ft_pc t with FIndex d => file_exists d s = true | _ => True end.
  Definition good_op (o : op) : Prop := untitled o /\ no_alias o /\ wfB_op B o.

  Lemma fthread_ix_mono s s' t : fle s s' -> fthread_ix s t -> fthread_ix s' t.
  Proof. unfold fthread_ix. intro H. destruct (ft_pc t); auto. Qed.

  (* one atomic step against the sequential state q of the commit log: the nodes it adds to the
     sequential graph ([add]) are the ones it indexes or leaves pending *)
  Lemma fgstep s q t s' t' lg :
    fcore s = fcore q -> file_G B q -> file_unt q -> file_ginv B s -> fthread_ix s t ->
    (forall o, In o (fremaining t) -> good_op o) ->
    fthread_step true ig ov s t = Some (s', t', lg) ->
    let q' := fst (runf (file_step true ig ov) q lg) in
    file_ginv B s' /\ fthread_ix s' t' /\
    exists add, (forall k, indexed k q' <-> indexed k q \/ In k add) /\
                (forall k, indexed k s' \/ In k (fpending t') <-> (indexed k s \/ In k (fpending t)) \/ In k add).
  Proof.
    intros Hc HG Huq Hg Hix Hgood. destruct t as [[|d|d r] ops]; unfold fthread_ix in Hix; cbn [ft_pc] in Hix.
    - destruct ops as [|o rest]; [discriminate|]. intro H.
      apply fstep_idle in H as [(d & c & -> & H)|[(d & r & -> & _ & _ & H)|(Hnp & _ & H)]]; injection H as <- <- <-.
      + (* the store step of a Push: stored on both sides or on neither *)
        destruct (Hgood (Push d c) (or_introl eq_refl)) as (Hu & Hna & Hw).
        pose proof (file_push_store_graph_same true ig ov s d c) as Gs.
        pose proof (file_push_store_graph_same true ig ov q d c) as Gq.
        pose proof (file_push_store_snd_core true ig ov s q d c Hc) as Hsnd.
        pose proof (push_store_result true ig ov s d c) as Exs.
        pose proof (push_store_result true ig ov q d c) as Exq.
        pose proof (file_step_push_split true ig ov q d c) as Hsp.
        pose proof (file_step_G B ig ov q (Push d c) Hna Hw HG) as HG'.
        pose proof (unt_push_store true ig ov q d c Hu Huq) as Hu1.
        unfold fthread_ix, fpending. rewrite runf_cons. cbn [fst runf ft_pc].
        destruct (file_push_store true ig ov s d c) as [s1 [x|]]; cbn [fst snd] in *;
          (split; [unfold file_ginv; rewrite Gs; exact Hg|]).
        * split; [exact I|]. exists []. split; intro k; [|unfold indexed; rewrite Gs; simpl; tauto].
          rewrite Hsp. destruct (file_push_store true ig ov q d c) as [q1 [y|]]; cbn [fst snd] in *; [|discriminate].
          unfold indexed. rewrite Gq. simpl. tauto.
        * split; [exact Exs|]. exists [gk d]. split; intro k; [|unfold indexed; rewrite Gs; simpl; intuition].
          rewrite Hsp in *. destruct (file_push_store true ig ov q d c) as [q1 [y|]]; cbn [fst snd] in *; [discriminate|].
          assert (Hi1 : file_inv q1).
          { eapply file_inv_core; [|exact (fg_inv _ _ HG')]. symmetry. now apply fcore_index_after. }
          rewrite (index_after_nodes true ov d q1 k Hi1 Exq). unfold indexed. rewrite Gq. simpl. intuition.
      + cbn [runf fst]. split; [exact Hg|]. split; [exact I|]. exists []. split; intro k; simpl; tauto.
      + (* finished at once, and not a Push: the sequential graph stays *)
        rewrite runf_cons. cbn [fst runf]. split; [exact Hg|]. split; [exact I|]. exists []. split; intro k.
        * unfold indexed. rewrite (file_step_nonpush_graph true ig ov q o Hnp). simpl. tauto.
        * simpl. tauto.
    - (* FIndex *)
      intro H. injection H as <- <- <-. unfold fthread_ix, fpending. cbn [ft_pc fst runf].
      assert (Hi : file_inv s) by (eapply file_inv_core; [exact Hc | exact (fg_inv _ _ HG)]).
      assert (Hb : file_B B s) by (eapply file_B_core; [exact Hc | exact (fg_B _ _ HG)]).
      split; [exact (fg_g _ _ (file_index_after_G B ov d s (mkFG B s Hi Hb Hg)))|].
      split; [exact I|]. exists []. split; intro k; [simpl; tauto|].
      rewrite (index_after_nodes true ov d s k Hi Hix). simpl. intuition.
    - (* FTag2 *)
      intro H. injection H as <- <- <-. unfold fthread_ix, fpending. cbn [ft_pc]. rewrite runf_cons. cbn [fst runf].
      split; [exact Hg|]. split; [exact I|]. exists []. split; intro k; [|simpl; tauto].
      unfold indexed. rewrite (file_step_nonpush_graph true ig ov q (Tag d r) I). simpl. tauto.
  Qed.

  Lemma file_G_seq L : Forall good_op L -> file_G B (seq_fstate true ig ov L).
  Proof.
    intro H. apply file_run_G; [| |exact (file_G_init B)]; (eapply Forall_impl; [|exact H]); intros o Ho; apply Ho.
  Qed.

  Record fginv (cf : fconf) : Prop := mkFGI {
    fgi_g : file_ginv B (fc_store cf);
    fgi_nodes : forall k, (indexed k (fc_store cf) \/ In k (flat_map fpending (fc_threads cf))) <->
                          indexed k (seq_fstate true ig ov (map snd (fc_log cf)));
    fgi_ix : Forall (fthread_ix (fc_store cf)) (fc_threads cf) }.

  Lemma fginv_init progs : fginv (fconf_init progs).
  Proof.
    constructor; simpl.
    - exact (file_ginv_init B).
    - intro k. assert (E : flat_map fpending (map (fun p => mkFT FIdle p) progs) = []).
      { induction progs as [|p ps IH]; simpl; auto. }
      rewrite E. simpl. tauto.
    - apply Forall_forall. intros t Ht. apply in_map_iff in Ht as (p & <- & _). exact I.
  Qed.

  Lemma fginv_step progs cf i :
    Forall good_op (concat progs) -> finv true ig ov progs cf -> fginv cf -> fginv (fconf_step true ig ov cf i).
  Proof.
    intros Hall Hinv Hgi.
    destruct (fconf_step_cases true ig ov cf i) as [->|(l1 & t & l2 & s' & t' & lg & Hth & Es & ->)]; [exact Hgi|].
    destruct cf as [s ths L]. cbn [fc_store fc_threads fc_log] in *. subst ths.
    destruct Hinv as [Hsched Hcore Hu Hthr]. destruct Hgi as [Hg Hn Hix]. cbn [fc_store fc_threads fc_log] in *.
    destruct (sched_inv_Forall _ _ _ _ _ Hsched Hall) as [HallL Hallt]. specialize (Hallt t).
    pose proof (file_G_seq _ HallL) as HGq.
    assert (Huq : file_unt (seq_fstate true ig ov (map snd L))) by (eapply file_unt_core; [exact Hcore | exact Hu]).
    destruct (fstep_facts true ig ov s t s' t' lg (Forall_elt _ _ _ Hthr) Hu
                (fun o Ho => proj1 (Hallt o (in_elt _ _ _) Ho)) Es) as (_ & Hle & _).
    destruct (fgstep s _ t s' t' lg Hcore HGq Huq Hg (Forall_elt _ _ _ Hix) (fun o => Hallt o (in_elt _ _ _)) Es)
      as (Hg' & Hix' & add & Hq' & Hs').
    constructor; cbn [fc_store fc_threads fc_log].
    - exact Hg'.
    - intro k. rewrite map_app, map_snd_pair. unfold seq_fstate. rewrite runf_app.
      fold (seq_fstate true ig ov (map snd L)). rewrite (Hq' k), <- (Hn k).
      rewrite !flat_map_app. cbn [flat_map]. rewrite !in_app_iff.
      (* bring the stepping goroutine's share next to the store's before using what the step did *)
      assert (Hmid : forall A L1 P L2 : Prop, A \/ L1 \/ P \/ L2 <-> (A \/ P) \/ (L1 \/ L2)) by (intros; tauto).
      rewrite !Hmid, (Hs' k). clear. tauto.
    - eapply Forall_mid; [|exact Hix' | exact Hix]. intro x. now apply fthread_ix_mono.
  Qed.

  Lemma fginv_run progs sched :
    Forall good_op (concat progs) ->
    forall cf, finv true ig ov progs cf -> fginv cf ->
    finv true ig ov progs (fconf_run true ig ov cf sched) /\ fginv (fconf_run true ig ov cf sched).
  Proof.
    intro Hall. assert (Hun : Forall untitled (concat progs)).
    { apply Forall_forall. intros o Ho. rewrite Forall_forall in Hall. exact (proj1 (Hall o Ho)). }
    intros cf H1 H2.
    apply (fold_left_invariant (fconf_step true ig ov) (fun cf => finv true ig ov progs cf /\ fginv cf)); [|now split].
    intros cf0 i [A C]. split; [now apply finv_step | now apply (fginv_step progs)].
  Qed.

  (* Every interleaving of the file store's atomic steps (store ; index as separate steps), run
     to quiescence, ends with the core state AND the Predecessors answers of the sequential
     execution of the same operations in commit order, which keeps program order. *)
  Theorem quiescent_serialisable_file_graph (progs : list (list op)) (sched : list nat) :
    Forall good_op (concat progs) ->
    let cf := fconf_run true ig ov (fconf_init progs) sched in
    fquiescent cf = true ->
    exists order : list (nat * op),
      Permutation (map snd order) (concat progs) /\
      (forall i, log_of i order = nth i progs []) /\
      let q := fst (runf (file_step true ig ov) file_init (map snd order)) in
      fcore (fc_store cf) = fcore q /\
      forall n k, In k (map gk (g_predecessors n (f_graph (fc_store cf)))) <->
                  In k (map gk (g_predecessors n (f_graph q))).
  Proof.
    intros Hall cf Hq.
    destruct (fginv_run progs sched Hall _ (finv_init true ig ov progs) (fginv_init progs)) as [Hinv Hgi].
    fold cf in Hinv, Hgi. destruct Hinv as [Hsched Hcore Hu Hthr]. destruct Hgi as [Hg Hn _].
    destruct (sched_inv_done _ _ _ _ (fquiescent_done _ Hq) Hsched) as [Hperm Hord].
    assert (Hpend : flat_map fpending (fc_threads cf) = []).
    { unfold fquiescent in Hq. clear - Hq. induction (fc_threads cf) as [|t ths IH]; simpl in *; auto.
      apply andb_true_iff in Hq as [A C]. rewrite (IH C), app_nil_r.
      unfold fthread_done in A. unfold fpending. destruct (ft_pc t); auto; discriminate. }
    exists (fc_log cf). split; [exact Hperm|]. split; [exact Hord|].
    { cbn zeta. fold (seq_fstate true ig ov (map snd (fc_log cf))). split; [exact Hcore|].
      intros n k.
      pose proof (file_G_seq _ (Permutation_Forall (Permutation_sym Hperm) Hall)) as HGq.
      rewrite (g_predecessors_spec _ _ _ _ Hg), (g_predecessors_spec _ _ _ _ (fg_g _ _ HGq)).
      assert (Hm : mem gkey_eqb k (map fst (g_nodes (f_graph (fc_store cf)))) =
                   mem gkey_eqb k (map fst (g_nodes (f_graph (seq_fstate true ig ov (map snd (fc_log cf))))))).
      { specialize (Hn k). rewrite Hpend in Hn. unfold indexed in Hn. simpl in Hn.
        destruct (mem gkey_eqb k (map fst (g_nodes (f_graph (fc_store cf)))));
          destruct (mem gkey_eqb k (map fst (g_nodes (f_graph (seq_fstate true ig ov (map snd (fc_log cf)))))));
          auto; [symmetry; apply Hn; now left | destruct (proj2 Hn eq_refl) as [X|[]]; exact X]. }
      unfold S_file. rewrite Hm. reflexivity. }
  Qed.
End FileConcGraph.

(* non-vacuity: two goroutines push a layer and a manifest listing it; a schedule that runs
   both store steps before either index step is quiescent and Predecessors lists the manifest *)
Definition fgc_man := mkDesc 1 9 20 0.
Definition fgc_man_blob := mkBlob 9 20 [(6, 1, 5)] 9 [(6, 1, 5)].
Definition fgc_progs : list (list op) := [ [Push w_named w_good; Preds w_layer]; [Push fgc_man fgc_man_blob] ].
Definition fgc_sched : list nat := [1; 0; 1; 0; 0]%nat.
Lemma fgc_good : Forall (good_op fgx_B) (concat fgc_progs).
Proof.
  repeat constructor; try reflexivity; try (intros _; reflexivity); try (intros k n []).
Qed.
Lemma fgc_quiescent :
  let cf := fconf_run true false false (fconf_init fgc_progs) fgc_sched in
  fquiescent cf = true /\ map gk (g_predecessors w_layer (f_graph (fc_store cf))) = [(1, 9, 20)].
Proof. vm_compute. split; reflexivity. Qed.
