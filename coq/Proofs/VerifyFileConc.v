(* Concurrent named pushes into one file.Store: for every schedule, what the store
   serves matches (invariant of the transition system fstep), provided no two different
   names in play resolve to one path; the explorer of that system. *)
From Oras Require Import Base.Prelude Model.Verify Proofs.Verify Proofs.VerifyConc Proofs.VerifyNames.
From Coq Require Import Lia.

Lemma nth_error_set_nth_neq {A} (l : list A) i j x :
  i <> j -> nth_error (set_nth l i x) j = nth_error l j.
Proof.
  revert i j. induction l as [|y l IH]; intros [|i] [|j] N; simpl; auto; try congruence.
Qed.

Lemma Forall_set_nth_others {A} (P : A -> Prop) l i x :
  (forall j tj, nth_error l j = Some tj -> j <> i -> P tj) -> P x -> Forall P (set_nth l i x).
Proof.
  revert i. induction l as [|y l IH]; intros i Hp Px; simpl; [destruct i; constructor|].
  destruct i as [|i].
  - constructor; auto. apply Forall_forall. intros z Iz. apply In_nth_error in Iz as (j & Ej).
    apply (Hp (S j) z); auto.
  - constructor.
    + apply (Hp 0%nat y); auto.
    + apply IH; auto. intros j tj Ej Nj. apply (Hp (S j) tj); auto.
Qed.

Lemma name_in_In n l : name_in n l = true <-> In n l.
Proof.
  unfold name_in. rewrite existsb_exists. split.
  - intros (x & Ix & E). apply str_eqb_spec in E. subst. exact Ix.
  - intro I. exists n. split; auto. apply str_eqb_refl.
Qed.

Section FileConc.
  Variable H : str -> str -> str.
  Variable U : list str.                       (* all names in play *)
  Hypothesis U_inj : forall a c, In a U -> In c U -> resolve_name a = resolve_name c -> a = c.

  Definition fthr_ok (s : fstore) (t : fthr) : Prop :=
    In (ft_name t) U /\
    match ft_pc t with
    | FWrite e out path =>
        ft_name t <> [] /\ resolve_name (ft_name t) = Some path /\ name_in (ft_name t) (f_names s) = false /\
        exists v, copy_buffer H (ft_comb t) true (ft_fuel t) (mkBase (ft_evs t) None) file_bufsz
                              (d_dg (ft_d t)) (d_sz (ft_d t)) = ((e, out), v)
    | _ => True
    end.

  Definition lock_unique (thr : list fthr) : Prop :=
    forall i j ti tj, nth_error thr i = Some ti -> nth_error thr j = Some tj ->
                      writing ti = true -> writing tj = true -> ft_name ti = ft_name tj -> i = j.

  Definition finv (st : fcstate) : Prop :=
    file_ok H (fc_st st) /\ d2p_named (fc_st st) /\
    (forall n, name_in n (f_names (fc_st st)) = true -> In n U) /\
    Forall (fthr_ok (fc_st st)) (fc_thr st) /\ lock_unique (fc_thr st).

  Lemma locked_false thr n : locked thr n = false ->
    forall j tj, nth_error thr j = Some tj -> writing tj = true -> ft_name tj <> n.
  Proof.
    unfold locked. intros L j tj Ej W E.
    assert (X : existsb (fun t => writing t && str_eqb (ft_name t) n) thr = true).
    { apply existsb_exists. exists tj. split; [eapply nth_error_In; eauto|]. rewrite W, E, str_eqb_refl. reflexivity. }
    congruence.
  Qed.

  Lemma fresh_path_free s name path :
    d2p_named s -> (forall n, name_in n (f_names s) = true -> In n U) ->
    In name U -> name_in name (f_names s) = false -> resolve_name name = Some path -> path_free s path.
  Proof.
    intros Dn Su Iu. apply no_alias_path_free; [exact Dn|]. intros n In_ Rn. apply U_inj; auto.
  Qed.

  Lemma lock_unique_step thr i t p :
    lock_unique thr -> nth_error thr i = Some t ->
    writing (with_fpc t p) = false \/ locked thr (ft_name t) = false ->
    lock_unique (set_nth thr i (with_fpc t p)).
  Proof.
    intros Lu Ei Free a c ta tc Ea Ec Wa Wc En.
    assert (Mine : forall j tj, i <> j -> nth_error (set_nth thr i (with_fpc t p)) j = Some tj ->
              writing (with_fpc t p) = true -> writing tj = true -> ft_name tj = ft_name t -> False).
    { intros j tj Nj Ej Wn Wj Enj. rewrite nth_error_set_nth_neq in Ej by exact Nj.
      destruct Free as [Nw|Lk]; [congruence|exact (locked_false _ _ Lk j tj Ej Wj Enj)]. }
    destruct (Nat.eq_dec i a) as [<-|Na], (Nat.eq_dec i c) as [<-|Nc]; auto.
    - rewrite (nth_error_set_nth_eq _ _ _ _ Ei) in Ea. injection Ea as <-. destruct (Mine c tc Nc Ec Wa Wc). auto.
    - rewrite (nth_error_set_nth_eq _ _ _ _ Ei) in Ec. injection Ec as <-. destruct (Mine a ta Na Ea Wc Wa En).
    - rewrite nth_error_set_nth_neq in Ea, Ec by auto. eapply Lu; eauto.
  Qed.

  Lemma finv_touch st path files' thr' :
    finv st -> path_free (fc_st st) path ->
    (forall p, str_eqb path p = false -> assoc_get files' p = assoc_get (f_files (fc_st st)) p) ->
    Forall (fthr_ok (fc_st st)) thr' -> lock_unique thr' ->
    finv (mkFC (mkFs files' (f_names (fc_st st)) (f_d2p (fc_st st)) (f_fb (fc_st st))) thr').
  Proof.
    intros (Fo & Dn & Su & _) Pf Fr Ft Lu.
    split; [exact (proj1 (file_touch H _ _ _ Fo Pf Fr))|]. split; [exact Dn|]. split; [exact Su|]. split; assumption.
  Qed.

  Lemma fstep_inv st i st' : finv st -> fstep H st i = Some st' -> finv st'.
  Proof.
    intros Iv. pose proof Iv as (Fo & Dn & Su & Ft & Lu). unfold fstep.
    destruct (nth_error (fc_thr st) i) as [t|] eqn:Ei; [|discriminate].
    pose proof (Forall_nth_error _ _ _ _ Ft Ei) as [Tu Pt].
    assert (Done : forall r, Forall (fthr_ok (fc_st st)) (set_nth (fc_thr st) i (with_fpc t (FDone r))) /\
                             lock_unique (set_nth (fc_thr st) i (with_fpc t (FDone r)))).
    { intro r. split; [apply Forall_set_nth; auto; split; auto; exact I|apply lock_unique_step; auto]. }
    destruct (ft_pc t) as [|e out path|r] eqn:Epc; [| |discriminate].
    - destruct (ft_name t) as [|c n0] eqn:En; [discriminate|].
      assert (Nn : ft_name t <> []) by (rewrite En; discriminate). rewrite <- En in *.
      destruct (locked (fc_thr st) (ft_name t)) eqn:Lk; [discriminate|].
      destruct (name_in (ft_name t) (f_names (fc_st st))) eqn:Nin;
        [|destruct (resolve_name (ft_name t)) as [path|] eqn:Rn].
      1,3: intro E; injection E as <-; split; [exact Fo|]; split; [exact Dn|]; split; [exact Su|]; apply Done.
      destruct (copy_buffer H (ft_comb t) true (ft_fuel t) (mkBase (ft_evs t) None) file_bufsz
                            (d_dg (ft_d t)) (d_sz (ft_d t))) as [[e out] v] eqn:Ec.
      intro E; injection E as <-.
      apply (finv_touch st path); [exact Iv|exact (fresh_path_free _ _ _ Dn Su Tu Nin Rn)| | |].
      + intros p Q. rewrite assoc_get_set, Q. reflexivity.
      + apply Forall_set_nth; [exact Ft|]. split; [exact Tu|]. simpl. eauto 6.
      + apply lock_unique_step; auto.
    - destruct Pt as (Nn & Rn & Nin & v & Ec).
      pose proof (fresh_path_free _ _ _ Dn Su Tu Nin Rn) as Pf.
      assert (Wt : writing t = true) by (unfold writing; rewrite Epc; reflexivity).
      destruct e as [er|]; intro E; injection E as <-.
      + destruct (Done (Some er)). apply (finv_touch st path); auto.
        intros p Q. rewrite assoc_get_del, Q. reflexivity.
      + (* success: the verified bytes become visible *)
        apply copy_buffer_sound in Ec as (A & _).
        split; [exact (proj1 (file_commit H _ _ _ _ _ Fo Pf A Nn))|].
        split; [apply d2p_named_commit; assumption|]. split; [|split; [|apply lock_unique_step; auto]].
        * intros n. cbn [fc_st f_names]. rewrite name_in_cons. intro X. apply orb_true_iff in X as [X|X]; auto.
          apply str_eqb_spec in X. subst. exact Tu.
        * apply Forall_set_nth_others; [|split; auto; exact I].
          (* the other writers keep a name that is not in use: the lock *)
          intros j t0 Ej Nj.
          pose proof (Forall_nth_error _ _ _ _ Ft Ej) as [A0 Bq]. split; auto.
          destruct (ft_pc t0) as [|e0 out0 path0|r0] eqn:Ep0; auto.
          destruct Bq as (B0 & B1 & B2 & B3). split; auto. split; auto. split; auto.
          cbn [fc_st f_names]. rewrite name_in_cons, B2, orb_false_r.
          destruct (str_eqb (ft_name t0) (ft_name t)) eqn:Q; auto. apply str_eqb_spec in Q.
          assert (W0 : writing t0 = true) by (unfold writing; rewrite Ep0; reflexivity).
          exfalso. apply Nj. eapply Lu; eauto.
  Qed.

  Lemma frun_inv sched : forall st st', finv st -> frun H st sched = Some st' -> finv st'.
  Proof.
    induction sched as [|i r IH]; intros st st' Iv; simpl.
    - intro E; inversion E; subst; auto.
    - destruct (fstep H st i) as [st1|] eqn:Es; [|discriminate]. apply IH. eapply fstep_inv; eauto.
  Qed.

  Lemma finv_start s ts :
    file_reach_names H s -> (forall n, name_in n (f_names s) = true -> In n U) ->
    Forall (fun t => ft_pc t = FStart /\ In (ft_name t) U) ts -> finv (mkFC s ts).
  Proof.
    intros R Su F. destruct (file_reach_names_ok H s R) as [Rs Dn].
    split; [apply file_reach_ok; exact Rs|]. split; [exact Dn|]. split; [exact Su|]. split.
    - simpl. eapply Forall_impl; [|exact F]. intros t [E Iu]. split; auto. rewrite E. exact I.
    - intros a c ta tc Ea Ec Wa. simpl in Ea.
      pose proof (Forall_nth_error _ _ _ _ F Ea) as [E _]. unfold writing in Wa. rewrite E in Wa. discriminate.
  Qed.

  Lemma fstep_success st i st' t out path :
    finv st -> fstep H st i = Some st' -> nth_error (fc_thr st) i = Some t -> ft_pc t = FWrite None out path ->
    file_fetch (fc_st st') (ft_name t) (ft_d t) = Some out /\
    exists v, copy_buffer H (ft_comb t) true (ft_fuel t) (mkBase (ft_evs t) None) file_bufsz
                          (d_dg (ft_d t)) (d_sz (ft_d t)) = ((None, out), v).
  Proof.
    intros (Fo & Dn & Su & Ft & Lu) Es Ei Ep.
    pose proof (Forall_nth_error _ _ _ _ Ft Ei) as [Tu Pt]. rewrite Ep in Pt. destruct Pt as (Nn & Rn & Nin & v & Ec).
    unfold fstep in Es. rewrite Ei, Ep in Es. injection Es as <-. split; [|eauto].
    pose proof (proj1 (copy_buffer_sound _ _ _ _ _ _ _ _ _ Ec)) as A.
    exact (proj1 (proj2 (file_commit H _ _ _ _ _ Fo (fresh_path_free _ _ _ Dn Su Tu Nin Rn) A Nn))).
  Qed.

  (* any number of named pushes (good and bad, one digest under several names, one name
     several times), any schedule: whatever Fetch serves at any instant hashes to the
     digest asked for, and a push that reports success has made its reader's exact
     bytes visible under its name *)
  Theorem file_concurrent s ts sched st :
    file_reach_names H s -> (forall n, name_in n (f_names s) = true -> In n U) ->
    Forall (fun t => ft_pc t = FStart /\ In (ft_name t) U) ts ->
    frun H (mkFC s ts) sched = Some st ->
    (forall name d bs, file_fetch (fc_st st) name d = Some bs ->
                       d_dg d = digest_of H (alg_of (d_dg d)) bs /\ valid_digest (d_dg d) = true) /\
    (forall i st' t out path, fstep H st i = Some st' -> nth_error (fc_thr st) i = Some t ->
       ft_pc t = FWrite None out path ->
       file_fetch (fc_st st') (ft_name t) (ft_d t) = Some out /\
       matches_desc H (d_dg (ft_d t)) (d_sz (ft_d t)) out /\ (neof (ft_evs t) = 0%nat -> stream (ft_evs t) = out)).
  Proof.
    intros R Su F E. pose proof (frun_inv sched _ _ (finv_start s ts R Su F) E) as Iv.
    split.
    - intros name d bs. apply file_fetch_ok. apply Iv.
    - intros i st' t out path Es Ei Ep. destruct (fstep_success _ _ _ _ _ _ Iv Es Ei Ep) as [Ff [v Ec]].
      apply copy_buffer_sound in Ec as (A & _ & C). split; [exact Ff|split; [exact A|exact (C eq_refl)]].
  Qed.
End FileConc.

Section FileExplore.
  Variable H : str -> str -> str.
  Local Open Scope nat_scope.

  Lemma fstep_index st i st' : fstep H st i = Some st' -> i < length (fc_thr st).
  Proof.
    unfold fstep. destruct (nth_error (fc_thr st) i) eqn:E; [|discriminate]. intros _. eapply nth_error_lt; eauto.
  Qed.

  Lemma explore_f_reachable fuel st st' :
    In st' (explore_f H fuel st) -> exists sched, frun H st sched = Some st'.
  Proof.
    apply (ex_reachable (fstep H) (fun st => length (fc_thr st)) (frun H) (explore_f H)); try reflexivity.
    apply fstep_index.
  Qed.

  Lemma explore_f_complete sched fuel st st' :
    frun H st sched = Some st' -> (forall i, fstep H st' i = None) -> length sched < fuel ->
    In st' (explore_f H fuel st).
  Proof.
    apply (ex_complete (fstep H) (fun st => length (fc_thr st)) (frun H) (explore_f H)); try reflexivity.
    apply fstep_index.
  Qed.
End FileExplore.
