(* Lemmas about Model/Verify.v (property C05): every use of a VerifyReader over the scripted
   reader that ends in a Verify answering nil has read exactly the descriptor's bytes, and what
   that says about ReadAll, CopyBuffer, the stores' push paths and their histories. *)
From Oras Require Import Base.Prelude Generated.GC05 Model.Verify Model.VerifyAny Proofs.VerifyFacts Proofs.VerifyAny.
From Coq Require Import Lia ZArith.

Local Open Scope nat_scope.

Section Reader.
  Variable H : str -> str -> str.
  Variable comb : bool.

  Notation vr_read := (vr_read comb).
  Notation vr_verify := (vr_verify H comb).
  Notation vr_run := (vr_run H comb).
  Notation matches_desc := (matches_desc H).

  Lemma new_vr_shape fixed src dg sz : exists e, new_vr_gen fixed src dg sz = mkVr src sz [] e false.
  Proof. unfold new_vr_gen. destruct (negb _); [|destruct (_ && _)]; eexists; reflexivity. Qed.

  (* ensureEOF answered true: [b'] is what 0-byte Reads, the last of which answered io.EOF,
     left of [b] *)
  Record at_eof (b b' : base) : Prop := mkAtEof {
    ae_stream : stream (b_evs b) = stream (b_evs b');
    ae_lim : lim_none b' = lim_none b;
    ae_nfail : nfail (b_evs b') = nfail (b_evs b);
    ae_neof : neof (b_evs b') <= neof (b_evs b);
    ae_upto : lim_none b = true -> upto_eof (b_evs b) = [];
    ae_end : lim_none b = true -> neof (b_evs b) = 0 -> b_evs b' = [] }.

  Lemma ensure_eof_true fuel b h b' h' :
    ensure_eof comb fuel (b, h) = (true, (b', h')) -> h' = h /\ at_eof b b'.
  Proof.
    unfold ensure_eof.
    destruct (read_full (tee_read comb) fuel (b, h) 1 []) as [[acc [[]|]] [b1 h1]] eqn:E; try discriminate.
    intro X; injection X as <- <-.
    apply (read_full_eof (tee_read comb) (fun st st' => snd st' = snd st /\ at_eof (fst st) (fst st'))) in E;
      [apply E| |];
      intros [b0 h0] k; unfold tee_read; simpl; destruct (base_read comb b0 k) as [[bs e] b2] eqn:Eb;
      apply base_read_facts in Eb as [R Lm].
    - intros st' Y; injection Y as -> -> <-. simpl. split; [apply app_nil_r|].
      assert (Q : quiet (Some EEof)) by (right; reflexivity).
      destruct R. split; auto.
    - intros st1 st' Y; injection Y as -> -> <-. simpl. rewrite app_nil_r.
      assert (Q : quiet None) by (left; reflexivity). assert (N : @None rerr <> Some EEof) by discriminate.
      destruct R. simpl in rf_stream. intros (-> & []). split; [reflexivity|].
      split; [congruence|congruence|rewrite ae_nfail0; auto|lia| |].
      + intro L. rewrite rf_upto by exact N. apply ae_upto0. congruence.
      + intros L Z. apply ae_end0; [congruence|lia].
  Qed.

  (* ReadAll and CopyBuffer are uses of a VerifyReader: their loops are sequences of Reads *)
  Lemma read_full_run fuel : forall v want acc acc' e v',
    read_full vr_read fuel v want acc = ((acc', e), v') ->
    exists ops d, acc' = acc ++ d /\ forall f dg out, vr_run f dg ops v out = (v', out ++ d).
  Proof.
    assert (Stop : forall v acc, exists ops d, acc = acc ++ d /\ forall f dg out, vr_run f dg ops v out = (v, out ++ d)).
    { intros v acc. exists [], []. simpl. split; intros; rewrite app_nil_r; reflexivity. }
    induction fuel as [|f IH]; intros v want acc acc' e v'; simpl.
    - destruct (want <=? length acc); intro E; injection E as <- _ <-; apply Stop.
    - destruct (want <=? length acc); [intro E; injection E as <- _ <-; apply Stop|].
      destruct (vr_read v (want - length acc)) as [[bs [e0|]] v1] eqn:Er.
      + assert (One : exists ops d, acc ++ bs = acc ++ d /\ forall f dg out, vr_run f dg ops v out = (v1, out ++ d)).
        { exists [OpRead (want - length acc)], bs. split; [reflexivity|]. intros. simpl. rewrite Er. reflexivity. }
        destruct (want <=? length (acc ++ bs)); [|destruct (_ && _)]; intro E; injection E as <- _ <-; exact One.
      + intro E. apply IH in E as (ops & d & -> & R). exists (OpRead (want - length acc) :: ops), (bs ++ d).
        split; [symmetry; apply app_assoc|]. intros. simpl. rewrite Er, R, app_assoc. reflexivity.
  Qed.

  Lemma copy_loop_run bufsz fuel : forall v out e out' v',
    copy_loop comb fuel v bufsz out = ((e, out'), v') ->
    exists ops, forall f dg, vr_run f dg ops v out = (v', out').
  Proof.
    induction fuel as [|f IH]; intros v out e out' v'; simpl.
    - intro E; injection E as _ <- <-. exists []. reflexivity.
    - destruct (vr_read v bufsz) as [[bs [e0|]] v1] eqn:Er.
      + assert (One : exists ops, forall f dg, vr_run f dg ops v out = (v1, out ++ bs)).
        { exists [OpRead bufsz]. intros. simpl. rewrite Er. reflexivity. }
        destruct e0; intro E; injection E as _ <- <-; exact One.
      + intro E. apply IH in E as (ops & R). exists (OpRead bufsz :: ops). intros. simpl. rewrite Er. apply R.
  Qed.

  Definition accepted fixed fuel src dg sz out v' : Prop :=
    exists ops v, vr_run fuel dg ops (new_vr fixed src dg sz) [] = (v, out) /\ vr_verify fuel dg v = (None, v').

  Lemma read_all_accepted fixed fuel src dg sz buf v :
    read_all H comb fixed fuel src dg sz = ((None, buf), v) ->
    (0 <= sz)%Z /\ accepted fixed fuel src dg sz buf v.
  Proof.
    unfold read_all. destruct (Z.ltb_spec sz 0) as [|Z0]; [discriminate|].
    destruct (read_full vr_read fuel (new_vr fixed src dg sz) (Z.to_nat sz) []) as [[b0 [e|]] v0] eqn:Er; [discriminate|].
    destruct (vr_verify fuel dg v0) as [r v1] eqn:Ev. intro E; injection E as -> <- <-. split; [exact Z0|].
    apply read_full_run in Er as (ops & d & -> & R). exists ops, v0. rewrite R. auto.
  Qed.

  Lemma copy_buffer_accepted fixed fuel src bufsz dg sz out v :
    copy_buffer H comb fixed fuel src bufsz dg sz = ((None, out), v) -> accepted fixed fuel src dg sz out v.
  Proof.
    unfold copy_buffer.
    destruct (copy_loop comb fuel (new_vr fixed src dg sz) bufsz []) as [[[e|] o] v0] eqn:Ec; [discriminate|].
    destruct (vr_verify fuel dg v0) as [r v1] eqn:Ev. intro E; injection E as -> <- <-.
    apply copy_loop_run in Ec as (ops & R). exists ops, v0. rewrite R. auto.
  Qed.

  (* The VerifyReader over the scripted reader is the generic one (Model/VerifyAny.v) at
     [base_read]: an invariant [P] of that reader (kept by Read, silent on error states) that gives [F out]
     at an accepting Verify gives [F out] for whatever is accepted *)
  Notation g_read := (g_read (base_read comb)).

  Lemma accepted_inv fuel dg (P : gvr -> str -> Prop) (F : str -> Prop) :
    (forall v out k bs e v', P v out -> g_read v k = ((bs, e), v') -> P v' (out ++ bs)) ->
    (forall v out, g_verified v = false -> ~ quiet (g_err v) -> P v out) ->
    (forall v out b', P v out -> g_verified v = false -> quiet (g_err v) ->
       (g_err v = None -> (g_N v <= 0)%Z) -> verified H dg (g_hashed v) = true -> at_eof (g_src v) b' -> F out) ->
    forall fixed src sz out v',
      P (to_g (new_vr fixed src dg sz)) [] -> accepted fixed fuel src dg sz out v' ->
      F out /\ v_err v' = Some EEof /\ v_verified v' = true.
  Proof.
    intros Pr Pd Pn fixed src sz out v' P0 (ops & v & Er & Ev).
    destruct (to_g_run _ _ _ _ _ _ _ 0 _ _ Er) as [oks Gr]. apply to_g_verify_eq in Ev.
    apply (g_accept H (base_read comb) fuel dg P F Pr Pd) with (4 := Gr) (5 := Ev); [|exact P0|].
    - intros v0 o s' Pv V Q N Vf Ee. apply ensure_eof_true in Ee as [_ A]. exact (Pn v0 o s' Pv V Q N Vf A).
    - unfold new_vr. destruct (new_vr_shape fixed src dg sz) as [e ->]. reflexivity.
  Qed.

  (* What Reads that answered nil or EOF conserve of the source: its bytes, its injected
     failures; its EOF answers can only get fewer. *)
  Definition ledger (S0 : str) (L : bool) (Z0 NF : nat) (v : gvr) (out : str) : Prop :=
    quiet (g_err v) ->
    S0 = out ++ stream (b_evs (g_src v)) /\ lim_none (g_src v) = L /\
    neof (b_evs (g_src v)) <= Z0 /\ nfail (b_evs (g_src v)) = NF.

  Lemma ledger_read S0 L Z0 NF v out k bs e v' :
    ledger S0 L Z0 NF v out -> g_read v k = ((bs, e), v') -> ledger S0 L Z0 NF v' (out ++ bs).
  Proof.
    intros I E Q'.
    apply g_read_cases in E as (_ & _ & [(-> & -> & _ & _ & _ & Ee)|(Ee & _ & _ & _ & e0 & Eb & C)]).
    - rewrite app_nil_r. apply I. destruct Ee as [<-|(-> & _)]; [exact Q'|left; reflexivity].
    - destruct (I (or_introl Ee)) as (A & B & C0 & D). apply base_read_facts in Eb as [R Lm].
      assert (Q0 : quiet e0) by (destruct C as [[-> _]|[[-> _]|X]]; [left|right|destruct (X Q')]; reflexivity).
      destruct R. rewrite <- app_assoc, <- rf_stream, rf_nfail by exact Q0. repeat split; auto; try congruence; lia.
  Qed.

  Lemma to_g_new fixed src dg sz :
    fixed = true \/ (0 <= sz)%Z -> to_g (new_vr fixed src dg sz) = g_new src dg sz.
  Proof.
    intro Hs. unfold new_vr, new_vr_gen, g_new. destruct (negb (valid_digest dg)); [reflexivity|].
    destruct (Z.ltb_spec sz 0); [|rewrite andb_false_r; reflexivity].
    destruct Hs as [->|]; [reflexivity|lia].
  Qed.

  Theorem accepted_sound fixed fuel src dg sz out v :
    fixed = true \/ (0 <= sz)%Z -> accepted fixed fuel src dg sz out v ->
    ((matches_desc dg sz out /\ (exists rest, stream (b_evs src) = out ++ rest) /\
      (b_lim src = None -> neof (b_evs src) = 0 -> stream (b_evs src) = out)) /\
     (b_lim src = None -> neof (b_evs src) = 0 -> nfail (b_evs src) = 0)) /\
    v_err v = Some EEof /\ v_verified v = true.
  Proof.
    intros Hs A.
    apply (accepted_inv fuel dg (fun v out => ginv dg sz v out /\
             ledger (stream (b_evs src)) (lim_none src) (neof (b_evs src)) (nfail (b_evs src)) v out)
           (fun out => (matches_desc dg sz out /\ (exists rest, stream (b_evs src) = out ++ rest) /\
                        (b_lim src = None -> neof (b_evs src) = 0 -> stream (b_evs src) = out)) /\
                       (b_lim src = None -> neof (b_evs src) = 0 -> nfail (b_evs src) = 0)))
      with (5 := A).
    - intros v0 o k bs e v' [I L] E. split; [|eapply ledger_read; eauto].
      exact (g_read_inv _ (base_read_ok comb) dg sz v0 o k bs e v' I E).
    - intros v0 o V Q. split; intro X; destruct (Q X).
    - intros v0 o b' [I L] V Q N Vf [A1 _ A3 _ _ A5].
      destruct (L Q) as (S & Lm & Z & NFq).
      destruct (ginv_nil H dg sz v0 o I Q N Vf) as (M1 & M2 & M3).
      (* an unlimited source without EOF answers is at its end *)
      assert (E : b_lim src = None -> neof (b_evs src) = 0 -> b_evs b' = []).
      { intros Ls Zs. apply A5; [rewrite Lm; unfold lim_none; rewrite Ls; reflexivity|lia]. }
      split; [split; [split; [exact M1|split; [apply str_eqb_spec; exact M2|exact M3]]|split; [eexists; exact S|]]|].
      + intros Ls Zs. rewrite S, A1, (E Ls Zs). apply app_nil_r.
      + intros Ls Zs. rewrite <- NFq, <- A3, (E Ls Zs). reflexivity.
    - split; [rewrite to_g_new by exact Hs; apply ginv_new|].
      intros _. unfold new_vr. destruct (new_vr_shape fixed src dg sz) as [e ->]. simpl. auto.
  Qed.

  Lemma read_all_sound fixed fuel src dg sz buf v :
    read_all H comb fixed fuel src dg sz = ((None, buf), v) ->
    matches_desc dg sz buf /\
    (exists rest, stream (b_evs src) = buf ++ rest) /\
    (b_lim src = None -> neof (b_evs src) = 0 -> stream (b_evs src) = buf).
  Proof.
    intro E. apply read_all_accepted in E as [Z A]. exact (proj1 (proj1 (accepted_sound _ _ _ _ _ _ _ (or_intror Z) A))).
  Qed.

  Lemma copy_buffer_sound fuel src bufsz dg sz out v :
    copy_buffer H comb true fuel src bufsz dg sz = ((None, out), v) ->
    matches_desc dg sz out /\
    (exists rest, stream (b_evs src) = out ++ rest) /\
    (b_lim src = None -> neof (b_evs src) = 0 -> stream (b_evs src) = out).
  Proof.
    intro E. apply copy_buffer_accepted in E. exact (proj1 (proj1 (accepted_sound _ _ _ _ _ _ _ (or_introl eq_refl) E))).
  Qed.

  Lemma verify_reader_sound fuel src dg sz ops v out v' :
    vr_run fuel dg ops (new_vr true src dg sz) [] = (v, out) ->
    vr_verify fuel dg v = (None, v') ->
    matches_desc dg sz out /\
    (exists rest, stream (b_evs src) = out ++ rest) /\
    (b_lim src = None -> neof (b_evs src) = 0 -> stream (b_evs src) = out) /\
    (forall k, vr_read v' k = (([], Some EEof), v')) /\ vr_verify fuel dg v' = (None, v').
  Proof.
    intros Er Ev.
    destruct (accepted_sound true fuel src dg sz out v' (or_introl eq_refl)) as (((M & P & X) & _) & Ee & V).
    { exists ops, v. auto. }
    split; [exact M|]. split; [exact P|]. split; [exact X|]. split.
    - intro k. unfold Verify.vr_read. rewrite Ee. reflexivity.
    - unfold Verify.vr_verify. rewrite V. reflexivity.
  Qed.
End Reader.

Section Stores.
  Variable H : str -> str -> str.
  Variable comb : bool.
  Notation matches_desc := (matches_desc H).

  Lemma desc_eqb_spec x y : desc_eqb x y = true <-> x = y.
  Proof.
    destruct x as [m1 d1 s1], y as [m2 d2 s2]. unfold desc_eqb; simpl.
    rewrite !andb_true_iff, !str_eqb_spec, Z.eqb_eq. split.
    - intros [[-> ->] ->]. reflexivity.
    - intro E; inversion E; auto.
  Qed.

  Lemma desc_eqb_refl d : desc_eqb d d = true.
  Proof. apply desc_eqb_spec. reflexivity. Qed.

  Lemma assoc_get_set l k v k' :
    assoc_get (assoc_set l k v) k' = if str_eqb k k' then Some v else assoc_get l k'.
  Proof.
    unfold assoc_set; simpl. destruct (str_eqb k k') eqn:E; [reflexivity|].
    induction l as [|[k0 v0] l IH]; simpl; [reflexivity|].
    destruct (str_eqb k0 k) eqn:E0; simpl.
    - apply str_eqb_spec in E0. subst k0. rewrite E. exact IH.
    - destruct (str_eqb k0 k'); [reflexivity|exact IH].
  Qed.

  Lemma assoc_get_del l k k' :
    assoc_get (assoc_del l k) k' = if str_eqb k k' then None else assoc_get l k'.
  Proof.
    unfold assoc_del. induction l as [|[k0 v0] l IH]; simpl.
    - destruct (str_eqb k k'); reflexivity.
    - destruct (str_eqb k0 k) eqn:E0; simpl.
      + apply str_eqb_spec in E0. subst k0. rewrite IH. destruct (str_eqb k k'); reflexivity.
      + rewrite IH. destruct (str_eqb k k') eqn:E.
        * apply str_eqb_spec in E. subst k'. rewrite E0. reflexivity.
        * reflexivity.
  Qed.

  Arguments assoc_set : simpl never.
  Arguments assoc_del : simpl never.

  Definition desc_ok (d : desc) (bs : str) : Prop := matches_desc (d_dg d) (d_sz d) bs.

  Definition mem_ok (m : mem) : Prop := forall d bs, mem_get m d = Some bs -> desc_ok d bs.

  Lemma mem_get_cons d buf m d' :
    mem_get ((d, buf) :: m) d' = if desc_eqb d d' then Some buf else mem_get m d'.
  Proof. reflexivity. Qed.

  Lemma mem_ok_cons m d buf : mem_ok m -> desc_ok d buf -> mem_ok ((d, buf) :: m).
  Proof.
    intros Ok A d' bs. rewrite mem_get_cons. destruct (desc_eqb d d') eqn:Q; [|apply Ok].
    apply desc_eqb_spec in Q as <-. intro X; injection X as <-. exact A.
  Qed.

  Lemma mem_push_inv fixed fuel m d src e m' :
    mem_push H comb fixed fuel m d src = (e, m') ->
    (e <> None /\ m' = m) \/
    (e = None /\ mem_get m d = None /\
     exists buf v, read_all H comb fixed fuel src (d_dg d) (d_sz d) = ((None, buf), v) /\ m' = (d, buf) :: m).
  Proof.
    unfold mem_push. destruct (mem_get m d).
    - intro E; injection E as <- <-. left. split; [discriminate|reflexivity].
    - destruct (read_all H comb fixed fuel src (d_dg d) (d_sz d)) as [[[e0|] buf] v];
        intro E; injection E as <- <-; [left; split; [discriminate|reflexivity]|right; eauto 6].
  Qed.

  Lemma mem_push_spec fixed fuel m d src e m' :
    mem_push H comb fixed fuel m d src = (e, m') ->
    (e = None /\ mem_get m d = None /\
     exists buf, m' = (d, buf) :: m /\ desc_ok d buf /\
                 (exists rest, stream (b_evs src) = buf ++ rest) /\
                 (b_lim src = None -> neof (b_evs src) = 0 -> stream (b_evs src) = buf))
    \/ (e <> None /\ m' = m).
  Proof.
    intro E. apply mem_push_inv in E as [X|(-> & G & buf & v & Er & ->)]; [right; exact X|left].
    apply read_all_sound in Er. eauto.
  Qed.

  Lemma mem_push_ok fixed fuel m d src e m' :
    mem_ok m -> mem_push H comb fixed fuel m d src = (e, m') -> mem_ok m'.
  Proof.
    intros Ok E. apply mem_push_spec in E as [(_ & _ & buf & -> & A & _)|(_ & ->)]; [|exact Ok].
    apply mem_ok_cons; assumption.
  Qed.

  Lemma limited_push_spec {St} (push : St -> desc -> base -> option rerr * St) limit st d evs e st' :
    limited_push push limit st d evs = (e, st') ->
    (e = Some ETooBig /\ st' = st) \/
    ((d_sz d <= limit)%Z /\ push st d (mkBase evs (Some (d_sz d))) = (e, st')).
  Proof.
    unfold limited_push. destruct (d_sz d >? limit)%Z eqn:G.
    - intro E; inversion E; auto.
    - intro E. right. split; [lia|exact E].
  Qed.

  Definition oci_ok (s : oci) : Prop :=
    forall dg bs, oci_get s dg = Some bs -> dg = digest_of H (alg_of dg) bs /\ valid_digest dg = true.

  Lemma oci_ok_cons s dg out sz : oci_ok s -> matches_desc dg sz out -> oci_ok ((dg, out) :: s).
  Proof.
    intros Ok (_ & A & V) dg' bs. simpl. destruct (str_eqb dg dg') eqn:Q; [|apply Ok].
    apply str_eqb_spec in Q as <-. intro X; injection X as <-. auto.
  Qed.

  Lemma oci_push_inv fixed fuel s d src e s' :
    oci_push H comb fixed fuel s d src = (e, s') ->
    (e <> None /\ s' = s) \/
    (e = None /\ oci_get s (d_dg d) = None /\
     exists out v, copy_buffer H comb fixed fuel src oci_bufsz (d_dg d) (d_sz d) = ((None, out), v) /\
                   s' = (d_dg d, out) :: s).
  Proof.
    unfold oci_push. destruct (negb (valid_digest (d_dg d))); [|destruct (oci_get s (d_dg d))].
    1,2: intro E; injection E as <- <-; left; split; [discriminate|reflexivity].
    destruct (copy_buffer H comb fixed fuel src oci_bufsz (d_dg d) (d_sz d)) as [[[e0|] out] v];
      intro E; injection E as <- <-; [left; split; [discriminate|reflexivity]|right; eauto 6].
  Qed.

  Lemma oci_push_spec fuel s d src e s' :
    oci_push H comb true fuel s d src = (e, s') ->
    (e = None /\ oci_get s (d_dg d) = None /\
     exists out, s' = (d_dg d, out) :: s /\ desc_ok d out /\
                 (exists rest, stream (b_evs src) = out ++ rest) /\
                 (b_lim src = None -> neof (b_evs src) = 0 -> stream (b_evs src) = out))
    \/ (e <> None /\ s' = s).
  Proof.
    intro E. apply oci_push_inv in E as [X|(-> & G & out & v & Ec & ->)]; [right; exact X|left].
    apply copy_buffer_sound in Ec. eauto.
  Qed.

  Lemma oci_push_ok fuel s d src e s' :
    oci_ok s -> oci_push H comb true fuel s d src = (e, s') -> oci_ok s'.
  Proof.
    intros Ok E. apply oci_push_spec in E as [(_ & _ & out & -> & A & _)|(_ & ->)]; [|exact Ok].
    eapply oci_ok_cons; eassumption.
  Qed.

  Definition file_ok (s : fstore) : Prop :=
    (forall dg p, assoc_get (f_d2p s) dg = Some p ->
       exists bs, assoc_get (f_files s) p = Some bs /\ dg = digest_of H (alg_of dg) bs /\ valid_digest dg = true)
    /\ mem_ok (f_fb s).

  Lemma name_in_neq name p l : name_in name l = false -> name_in p l = true -> str_eqb name p = false.
  Proof.
    intros A B. destruct (str_eqb name p) eqn:E; auto. apply str_eqb_spec in E. subst. congruence.
  Qed.

  Lemma file_push_named_inv fixed fuel s name path d evs e s' :
    name <> [] -> file_push H comb fixed fuel s name path d evs = (e, s') ->
    (e <> None /\ (s' = s \/ s' = mkFs (assoc_del (f_files s) path) (f_names s) (f_d2p s) (f_fb s))) \/
    (e = None /\ name_in name (f_names s) = false /\
     exists out v, copy_buffer H comb fixed fuel (mkBase evs None) file_bufsz (d_dg d) (d_sz d) = ((None, out), v) /\
       s' = mkFs (assoc_set (f_files s) path out) (name :: f_names s) (assoc_set (f_d2p s) (d_dg d) path) (f_fb s)).
  Proof.
    intro Nn. unfold file_push. destruct name as [|c n0]; [congruence|].
    destruct (name_in (c :: n0) (f_names s)).
    { intro E; injection E as <- <-. left. split; [discriminate|left; reflexivity]. }
    destruct (copy_buffer H comb fixed fuel (mkBase evs None) file_bufsz (d_dg d) (d_sz d)) as [[[e0|] out] v];
      intro E; injection E as <- <-; [left; split; [discriminate|right; reflexivity]|right; eauto 7].
  Qed.

  Lemma file_touch s path files' :
    file_ok s -> path_free s path ->
    (forall p, str_eqb path p = false -> assoc_get files' p = assoc_get (f_files s) p) ->
    file_ok (mkFs files' (f_names s) (f_d2p s) (f_fb s)) /\
    forall name d, file_exists (mkFs files' (f_names s) (f_d2p s) (f_fb s)) name d = file_exists s name d /\
                   file_fetch (mkFs files' (f_names s) (f_d2p s) (f_fb s)) name d = file_fetch s name d.
  Proof.
    intros [Ok1 Ok2] Pf Fr. split.
    - split; [|exact Ok2]. intros dg p Gp. cbn [f_files f_d2p] in *. rewrite (Fr p (Pf _ _ Gp)). exact (Ok1 _ _ Gp).
    - intros name d. split; [reflexivity|]. unfold file_fetch; cbn [f_d2p f_files f_names f_fb].
      destruct (negb _); [reflexivity|].
      destruct (assoc_get (f_d2p s) (d_dg d)) as [p|] eqn:Gp; [|reflexivity]. apply Fr, (Pf _ _ Gp).
  Qed.

  Lemma file_commit s name path d out :
    file_ok s -> path_free s path -> desc_ok d out -> name <> [] ->
    let s' := mkFs (assoc_set (f_files s) path out) (name :: f_names s) (assoc_set (f_d2p s) (d_dg d) path) (f_fb s) in
    file_ok s' /\ file_fetch s' name d = Some out /\ file_exists s' name d = true.
  Proof.
    intros [Ok1 Ok2] Pf (A1 & A2 & A3) Nn. split; [split; [|exact Ok2]|].
    - intros dg p. cbn [f_d2p f_files]. rewrite assoc_get_set. destruct (str_eqb (d_dg d) dg) eqn:Q.
      + apply str_eqb_spec in Q as <-. intro X; injection X as <-.
        exists out. rewrite assoc_get_set, str_eqb_refl. auto.
      + intro Gp. destruct (Ok1 _ _ Gp) as (bs & Fb & Db). exists bs. rewrite assoc_get_set, (Pf _ _ Gp). auto.
    - unfold file_fetch, file_exists; cbn [f_d2p f_files f_names f_fb name_in existsb].
      rewrite !assoc_get_set, !str_eqb_refl. destruct name; [congruence|].
      cbn [orb negb]. rewrite !assoc_get_set, !str_eqb_refl. auto.
  Qed.

  Lemma file_push_spec fuel s name path d evs e s' :
    file_ok s -> (name <> [] -> path_free s path) -> file_push H comb true fuel s name path d evs = (e, s') ->
    file_ok s' /\
    (e = None ->
       exists bs, file_fetch s' name d = Some bs /\ file_exists s' name d = true /\
                  d_dg d = digest_of H (alg_of (d_dg d)) bs /\ valid_digest (d_dg d) = true /\
                  (* unless the digest was already served from a named file, these are
                     the pushed bytes, of the announced size *)
                  ((name <> [] \/ assoc_get (f_d2p s) (d_dg d) = None) ->
                   desc_ok d bs /\ exists rest, stream evs = bs ++ rest)) /\
    (e <> None -> forall name' d', file_exists s' name' d' = file_exists s name' d' /\
                                   file_fetch s' name' d' = file_fetch s name' d').
  Proof.
    intros Ok Pf0. destruct name as [|c n0].
    - (* fallback: LimitedStorage over cas.Memory *)
      destruct Ok as [Ok1 Ok2]. unfold file_push.
      destruct (limited_push (mem_push H comb true fuel) defaultFallbackPushSizeLimit (f_fb s) d evs) as [e0 fb'] eqn:El.
      intro E; injection E as <- <-.
      assert (C : (e0 <> None /\ fb' = f_fb s) \/
                  (e0 = None /\ exists buf, fb' = (d, buf) :: f_fb s /\ mem_get (f_fb s) d = None /\
                                           desc_ok d buf /\ exists rest, stream evs = buf ++ rest)).
      { apply limited_push_spec in El as [(-> & ->)|(_ & Ep)]; [left; split; [discriminate|reflexivity]|].
        apply mem_push_spec in Ep as [(-> & G & buf & -> & A & B & _)|X]; [right; eauto 8|left; exact X]. }
      destruct C as [(Ne & ->)|(-> & buf & -> & G & A & B)].
      { replace (mkFs (f_files s) (f_names s) (f_d2p s) (f_fb s)) with s by (destruct s; reflexivity).
        split; [split; auto|]. split; [congruence|auto]. }
      split; [split; [exact Ok1|apply mem_ok_cons; assumption]|]. split; [|congruence].
      intros _. unfold file_fetch, file_exists; cbn [f_d2p f_files f_names f_fb negb].
      destruct (assoc_get (f_d2p s) (d_dg d)) as [p|] eqn:Gp.
      + destruct (Ok1 _ _ Gp) as (bs & Fb & Db & Vb). exists bs. rewrite Fb.
        do 4 (split; [auto|]). intros [X|X]; congruence.
      + exists buf. rewrite mem_get_cons, desc_eqb_refl. pose proof A as (_ & A2 & A3). auto 8.
    - intro E. assert (Nn : c :: n0 <> []) by discriminate. specialize (Pf0 Nn).
      apply file_push_named_inv in E as [(Ne & [->| ->])|(-> & Nin & out & v & Ec & ->)]; [| | |exact Nn].
      + split; [exact Ok|]. split; [congruence|auto].
      + destruct (file_touch s path (assoc_del (f_files s) path) Ok Pf0) as [Ok' Fr].
        { intros p Q. rewrite assoc_get_del, Q. reflexivity. }
        split; [exact Ok'|]. split; [congruence|auto].
      + apply copy_buffer_sound in Ec as (A & B & _).
        destruct (file_commit s (c :: n0) path d out Ok Pf0 A Nn) as (Ok' & Ff & Fe).
        split; [exact Ok'|]. split; [|congruence]. intros _. exists out. pose proof A as (_ & A2 & A3). auto 8.
  Qed.

  Lemma mem_push_refused fixed fuel m d src e m' :
    (forall buf v, read_all H comb fixed fuel src (d_dg d) (d_sz d) <> ((None, buf), v)) ->
    mem_push H comb fixed fuel m d src = (e, m') -> e <> None /\ m' = m.
  Proof.
    intros RA E. apply mem_push_inv in E as [X|(_ & _ & buf & v & Er & _)]; [exact X|destruct (RA _ _ Er)].
  Qed.

  Lemma oci_push_refused fixed fuel s d src e s' :
    (forall out v, copy_buffer H comb fixed fuel src oci_bufsz (d_dg d) (d_sz d) <> ((None, out), v)) ->
    oci_push H comb fixed fuel s d src = (e, s') -> e <> None /\ s' = s.
  Proof.
    intros CB E. apply oci_push_inv in E as [X|(_ & _ & out & v & Ec & _)]; [exact X|destruct (CB _ _ Ec)].
  Qed.

  Lemma limited_push_refused fixed fuel limit m d evs e m' :
    (forall buf v, read_all H comb fixed fuel (mkBase evs (Some (d_sz d))) (d_dg d) (d_sz d) <> ((None, buf), v)) ->
    limited_push (mem_push H comb fixed fuel) limit m d evs = (e, m') -> e <> None /\ m' = m.
  Proof.
    intros RA E. apply limited_push_spec in E as [(-> & ->)|(_ & E)]; [split; [discriminate|reflexivity]|].
    revert E. apply mem_push_refused, RA.
  Qed.

  Lemma file_push_refused fuel s name path d evs e s' :
    (name = [] -> forall buf v,
       read_all H comb true fuel (mkBase evs (Some (d_sz d))) (d_dg d) (d_sz d) <> ((None, buf), v)) ->
    (name <> [] -> forall out v,
       copy_buffer H comb true fuel (mkBase evs None) file_bufsz (d_dg d) (d_sz d) <> ((None, out), v)) ->
    file_push H comb true fuel s name path d evs = (e, s') -> e <> None.
  Proof.
    intros RA CB. destruct name as [|c n0].
    - unfold file_push. destruct (limited_push _ _ _ _ _) as [e0 fb'] eqn:El. intro E; injection E as <- _.
      eapply limited_push_refused in El; [apply El|auto].
    - intro E. assert (Nn : c :: n0 <> []) by discriminate.
      apply file_push_named_inv in E as [(Ne & _)|(_ & _ & out & v & Ec & _)]; [exact Ne| |exact Nn].
      destruct (CB Nn _ _ Ec).
  Qed.

  Lemma file_fetch_ok s name d bs :
    file_ok s -> file_fetch s name d = Some bs ->
    d_dg d = digest_of H (alg_of (d_dg d)) bs /\ valid_digest (d_dg d) = true.
  Proof.
    intros [Ok1 Ok2]. unfold file_fetch. destruct (negb _); [discriminate|].
    destruct (assoc_get (f_d2p s) (d_dg d)) as [p|] eqn:Gp.
    - destruct (Ok1 _ _ Gp) as (bs' & Fb & Db & Vb). intro X. rewrite Fb in X. inversion X; subst. auto.
    - intro G. apply Ok2 in G. destruct G as (A1 & A2 & A3). auto.
  Qed.
End Stores.

Section HistoryProofs.
  Variable H : str -> str -> str.

  Lemma mem_reach_ok m : mem_reach H m -> mem_ok H m.
  Proof.
    induction 1 as [|comb fuel m d src e m' R IH E|comb fuel limit m d evs e m' R IH E].
    - intros d bs; discriminate.
    - eapply mem_push_ok; eauto.
    - apply limited_push_spec in E as [(_ & ->)|(_ & E)]; auto. eapply mem_push_ok; eauto.
  Qed.

  Lemma oci_reach_ok s : oci_reach H s -> oci_ok H s.
  Proof.
    induction 1 as [|comb fuel s d src e s' R IH E|comb fuel limit s d evs e s' R IH E].
    - intros d bs; discriminate.
    - eapply oci_push_ok; eauto.
    - apply limited_push_spec in E as [(_ & ->)|(_ & E)]; auto. eapply oci_push_ok; eauto.
  Qed.

  Lemma file_reach_ok s : file_reach H s -> file_ok H s.
  Proof.
    induction 1 as [|comb fuel s name path d evs e s' R IH Pf E].
    - split; intros d bs; discriminate.
    - eapply file_push_spec in E; eauto. apply E.
  Qed.

  Definition sha256_name : str := b "sha256".
  Definition empty_digest : str := digest_of H sha256_name [].

  Lemma verified_empty_digest : verified H empty_digest [] = true.
  Proof. apply str_eqb_refl. Qed.

  (* before the repair: CopyBuffer (hence oci.Storage.Push and file.Store) accepts a
     negative Size with empty content and stores the empty blob under it: N = -1 makes the
     first Read answer EOF, and Verify only asks ensureEOF and the digest *)
  Lemma copy_buffer_prefix_negative_size comb bufsz :
    valid_digest empty_digest = true ->
    copy_buffer H comb false 1 (mkBase [] None) bufsz empty_digest (-1)
    = ((None, []), mkVr (mkBase [] None) (-1) [] (Some EEof) true).
  Proof.
    intro V. unfold copy_buffer, new_vr, new_vr_gen. rewrite V. cbn -[verified empty_digest].
    rewrite verified_empty_digest. reflexivity.
  Qed.

  Lemma oci_push_prefix_negative_size comb mt :
    valid_digest empty_digest = true ->
    oci_push H comb false 1 [] (mkDesc mt empty_digest (-1)) (mkBase [] None)
    = (None, [(empty_digest, [])]).
  Proof.
    intro V. unfold oci_push. cbn [d_dg d_sz]. rewrite V. cbn [negb oci_get].
    rewrite (copy_buffer_prefix_negative_size comb _ V). reflexivity.
  Qed.
End HistoryProofs.

Section Rejects.
  Variable H : str -> str -> str.

  (* the reasons for which (reader, descriptor) is not "exactly the bytes the
     descriptor names": malformed / unsupported digest, negative size, fewer than
     Size bytes in the reader, first Size bytes hashing to something else, and --
     when the reader is not cut by a LimitReader and never answers EOF before its end --
     bytes beyond Size *)
  Definition bad_input (src : base) (dg : str) (sz : Z) : Prop :=
    valid_digest dg = false \/ (sz < 0)%Z \/
    (Z.of_nat (length (stream (b_evs src))) < sz)%Z \/
    dg <> digest_of H (alg_of dg) (firstn (Z.to_nat sz) (stream (b_evs src))) \/
    (b_lim src = None /\ neof (b_evs src) = 0 /\ (sz < Z.of_nat (length (stream (b_evs src))))%Z).

  Lemma good_not_bad src dg sz out :
    matches_desc H dg sz out -> (exists rest, stream (b_evs src) = out ++ rest) ->
    (b_lim src = None -> neof (b_evs src) = 0 -> stream (b_evs src) = out) -> ~ bad_input src dg sz.
  Proof.
    intros (A1 & A2 & A3) (rest & B) C [X|[X|[X|[X|[X1 [X3 X2]]]]]].
    - congruence.
    - lia.
    - rewrite B, app_length in X. lia.
    - apply X. rewrite B. replace (Z.to_nat sz) with (length out) by lia.
      rewrite firstn_app_exact. exact A2.
    - rewrite (C X1 X3) in X2. lia.
  Qed.

  Lemma read_all_rejects comb fixed fuel src dg sz buf v :
    bad_input src dg sz -> read_all H comb fixed fuel src dg sz <> ((None, buf), v).
  Proof.
    intros B E. apply read_all_sound in E as (A1 & A2 & A3). eapply good_not_bad; eauto.
  Qed.

  Lemma copy_buffer_rejects comb fuel src bufsz dg sz out v :
    bad_input src dg sz -> copy_buffer H comb true fuel src bufsz dg sz <> ((None, out), v).
  Proof.
    intros B E. apply copy_buffer_sound in E as (A1 & A2 & A3). eapply good_not_bad; eauto.
  Qed.

  Lemma file_push_rejects comb fuel s name path d evs e s' :
    bad_input (mkBase evs (match name with [] => Some (d_sz d) | _ => None end)) (d_dg d) (d_sz d) ->
    file_push H comb true fuel s name path d evs = (e, s') -> e <> None.
  Proof.
    intro B. apply file_push_refused; intros N o v; [rewrite N in B; apply read_all_rejects, B|].
    destruct name; [congruence|apply copy_buffer_rejects, B].
  Qed.
End Rejects.

Section FailingReader.
  Variable H : str -> str -> str.
  Variable comb : bool.

  Lemma nfail_in evs : In Fail evs -> nfail evs <> 0.
  Proof.
    induction evs as [|e r IH]; simpl; [intros []|].
    intros [X|X]; [subst e; simpl; discriminate|destruct e; simpl; auto].
  Qed.

  (* a reader that reports an error at any point before it is exhausted (and does not
     answer EOF before the end of its script: what lies behind an EOF is never read) *)
  Lemma failing_reader_rejected fuel evs d :
    In Fail evs -> neof evs = 0 ->
    (forall fixed buf v, read_all H comb fixed fuel (mkBase evs None) (d_dg d) (d_sz d) <> ((None, buf), v)) /\
    (forall bufsz out v, copy_buffer H comb true fuel (mkBase evs None) bufsz (d_dg d) (d_sz d) <> ((None, out), v)) /\
    (forall fixed m e m', mem_push H comb fixed fuel m d (mkBase evs None) = (e, m') -> e <> None /\ m' = m) /\
    (forall s e s', oci_push H comb true fuel s d (mkBase evs None) = (e, s') -> e <> None /\ s' = s) /\
    (forall s name path e s', name <> [] -> file_push H comb true fuel s name path d evs = (e, s') -> e <> None).
  Proof.
    intros F Ne. apply nfail_in in F.
    assert (RA : forall fixed buf v, read_all H comb fixed fuel (mkBase evs None) (d_dg d) (d_sz d) <> ((None, buf), v)).
    { intros fixed buf v E. apply read_all_accepted in E as [Z A].
      destruct (accepted_sound H comb _ _ _ _ _ _ _ (or_intror Z) A) as ((_ & X) & _). exact (F (X eq_refl Ne)). }
    assert (CB : forall bufsz out v, copy_buffer H comb true fuel (mkBase evs None) bufsz (d_dg d) (d_sz d) <> ((None, out), v)).
    { intros bufsz out v E. apply copy_buffer_accepted in E.
      destruct (accepted_sound H comb _ _ _ _ _ _ _ (or_introl eq_refl) E) as ((_ & X) & _). exact (F (X eq_refl Ne)). }
    split; [exact RA|]. split; [exact CB|].
    split; [intros fixed m e m'; apply mem_push_refused, RA|].
    split; [intros s e s'; apply oci_push_refused, CB|].
    intros s name path e s' Nn. apply file_push_refused; [congruence|intros _; apply CB].
  Qed.
End FailingReader.

Section EarlyFailure.
  Variable H : str -> str -> str.
  Variable comb : bool.

  (* while the VerifyReader has seen no error: bytes handed out + bytes still deliverable
     before the first failure / EOF = what the script could deliver at the start ([avail]);
     once it has seen EOF: at most that much was handed out (what lies behind an EOF does
     not count) *)
  Definition budget (A : nat) (v : gvr) (out : str) : Prop :=
    (g_err v = None -> length out + avail (b_evs (g_src v)) = A) /\ (quiet (g_err v) -> length out <= A).

  Lemma budget_read A v out k bs e v' :
    budget A v out -> g_read (base_read comb) v k = ((bs, e), v') -> budget A v' (out ++ bs).
  Proof.
    intros [I1 I2] E. unfold budget.
    apply g_read_cases in E as (_ & _ & [(-> & -> & _ & _ & Nn & Ee)|(Ee & _ & _ & _ & e0 & Eb & C)]).
    - rewrite app_nil_r. split; [intro X; destruct (Nn X)|].
      intro Q. apply I2. destruct Ee as [<-|(-> & _)]; [exact Q|left; reflexivity].
    - specialize (I1 Ee). apply base_read_facts in Eb as [[] _]. rewrite app_length.
      destruct C as [[-> ->]|[(-> & _ & ->)|X]].
      + specialize (rf_avail eq_refl). split; intros _; lia.
      + specialize (rf_avail_eof eq_refl). split; [discriminate|intros _; lia].
      + split; [intro Y; destruct X; left; exact Y|intro Y; destruct (X Y)].
  Qed.

  Lemma accepted_early fixed fuel src dg sz out v :
    fixed = true \/ (0 <= sz)%Z -> accepted H comb fixed fuel src dg sz out v ->
    (sz <= Z.of_nat (avail (b_evs src)))%Z.
  Proof.
    intros Hs A. destruct (accepted_sound H comb _ _ _ _ _ _ _ Hs A) as ((((L & _) & _) & _) & _).
    enough (length out <= avail (b_evs src)) by lia.
    apply (accepted_inv H comb fuel dg (budget (avail (b_evs src))) (fun out => length out <= avail (b_evs src)))
      with (5 := A).
    - apply budget_read.
    - intros v0 o _ Q. split; intro X; destruct Q; [left|]; exact X.
    - intros v0 o b' [_ I2] _ Q _ _ _. exact (I2 Q).
    - unfold new_vr. destruct (new_vr_shape fixed src dg sz) as [e ->]. split; intros _; simpl; lia.
  Qed.

  Lemma early_failure_rejected fuel evs d :
    (Z.of_nat (avail evs) < d_sz d)%Z ->
    (forall fixed lim buf v, read_all H comb fixed fuel (mkBase evs lim) (d_dg d) (d_sz d) <> ((None, buf), v)) /\
    (forall lim bufsz out v, copy_buffer H comb true fuel (mkBase evs lim) bufsz (d_dg d) (d_sz d) <> ((None, out), v)) /\
    (forall fixed lim m e m', mem_push H comb fixed fuel m d (mkBase evs lim) = (e, m') -> e <> None /\ m' = m) /\
    (forall lim s e s', oci_push H comb true fuel s d (mkBase evs lim) = (e, s') -> e <> None /\ s' = s) /\
    (forall s name path e s', file_push H comb true fuel s name path d evs = (e, s') -> e <> None).
  Proof.
    intro A.
    assert (RA : forall fixed lim buf v, read_all H comb fixed fuel (mkBase evs lim) (d_dg d) (d_sz d) <> ((None, buf), v)).
    { intros fixed lim buf v E. apply read_all_accepted in E as [Z Ac].
      apply accepted_early in Ac; [simpl in Ac; lia|auto]. }
    assert (CB : forall lim bufsz out v, copy_buffer H comb true fuel (mkBase evs lim) bufsz (d_dg d) (d_sz d) <> ((None, out), v)).
    { intros lim bufsz out v E. apply copy_buffer_accepted, accepted_early in E; [simpl in E; lia|auto]. }
    split; [exact RA|]. split; [exact CB|].
    split; [intros fixed lim m e m'; apply mem_push_refused, RA|].
    split; [intros lim s e s'; apply oci_push_refused, CB|].
    intros s name path e s'. apply file_push_refused; intros _; [apply RA|apply CB].
  Qed.
End EarlyFailure.
