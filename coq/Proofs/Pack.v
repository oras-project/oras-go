(* Lemmas about Model/Pack.v (C19). *)
From Oras Require Import Base.Prelude Base.Regex Generated.GC19 Model.Pack.

(* mediaTypeRegexp is RFC 6838 type-name "/" subtype-name *)

Definition is_alnum (c : N) : bool :=
  ((48 <=? c) && (c <=? 57)) || ((65 <=? c) && (c <=? 90)) || ((97 <=? c) && (c <=? 122)).

(* restricted-name-chars = ALPHA / DIGIT / "!" / "#" / "$" / "&" / "-" / "^" / "_" / "." / "+" *)
Definition rn_char (c : N) : bool :=
  is_alnum c || (c =? 33) || (c =? 35) || (c =? 36) || (c =? 38) || (c =? 45) || (c =? 94) ||
  (c =? 95) || (c =? 46) || (c =? 43).

(* restricted-name = restricted-name-first *126restricted-name-chars *)
Definition restricted_name (t : str) : Prop :=
  exists c r, t = c :: r /\ is_alnum c = true /\ (length r <= 126)%nat /\
              Forall (fun x => rn_char x = true) r.

Definition RFC6838 (s : str) : Prop :=
  exists t u, s = t ++ [47] ++ u /\ restricted_name t /\ restricted_name u.

Lemma in_ranges_first c : in_ranges [(48, 57); (65, 90); (97, 122)] c = is_alnum c.
Proof. unfold is_alnum. ranges_lia. Qed.

Lemma in_ranges_rest c :
  in_ranges [(33, 33); (35, 36); (38, 38); (43, 43); (45, 46); (48, 57); (65, 90); (94, 95); (97, 122)] c
  = rn_char c.
Proof. unfold rn_char, is_alnum. ranges_lia. Qed.

Theorem media_type_grammar s : valid_media_type s = true <-> RFC6838 s.
Proof.
  pose proof (fun t => Lang_cls_rep _ _ 126 _ _ t in_ranges_first in_ranges_rest) as name.
  unfold valid_media_type, mediaTypeRegexp, RFC6838. rewrite matches_spec, <- Lang_Cat_assoc, Lang_Cat.
  split.
  - intros (t & r & -> & Ht & Hr). apply Lang_Cat in Hr as (l & u & -> & Hl & Hu).
    apply Lang_Lit in Hl as ->. exists t, u. split; [reflexivity|]. split; now apply name.
  - intros (t & u & -> & Ht & Hu). exists t, ([47] ++ u). split; [reflexivity|]. split; [now apply name|].
    constructor; [now apply Lang_Lit | now apply name].
Qed.

Lemma valid_unknown_config : valid_media_type MediaTypeUnknownConfig = true.
Proof. vm_compute. reflexivity. Qed.
Lemma valid_empty_json : valid_media_type MediaTypeEmptyJSON = true.
Proof. vm_compute. reflexivity. Qed.

Lemma ann_get_app_fresh k l v : ann_get k l = None -> ann_get k (l ++ [(k, v)]) = Some v.
Proof.
  induction l as [|[k' v'] l IH]; simpl.
  - now rewrite str_eqb_refl.
  - destruct (str_eqb k k'); [discriminate | exact IH].
Qed.

Lemma ann_get_app_other k k' l v : k <> k' -> ann_get k (l ++ [(k', v)]) = ann_get k l.
Proof.
  intro N. induction l as [|[k2 v2] l IH]; simpl.
  - destruct (str_eqb k k') eqn:E; auto. apply str_eqb_spec in E. contradiction.
  - destruct (str_eqb k k2); auto.
Qed.

(* On success the created key carries a timestamp time.Parse accepts (the caller's
   or the clock's) and every other annotation is untouched. *)
Lemma ensure_created_spec ann key now ann' :
  ensure_created ann key now = Some ann' ->
  (exists v, ann_get key ann' = Some v /\
             (ann_get key ann = Some v /\ rfc3339_ok v = true /\ ann' = ann \/
              ann_get key ann = None /\ v = now /\ ann' = ann ++ [(key, now)])) /\
  (forall k, k <> key -> ann_get k ann' = ann_get k ann).
Proof.
  unfold ensure_created. destruct (ann_get key ann) as [v|] eqn:G.
  - destruct (rfc3339_ok v) eqn:R; [|discriminate]. intros [= <-]. split; [|auto].
    exists v. split; auto.
  - intros [= <-]. split.
    + exists now. split; [now apply ann_get_app_fresh | right; auto].
    + intros k N. now apply ann_get_app_other.
Qed.

Lemma ensure_created_fixed ann key now now' v :
  ann_get key ann = Some v ->
  ensure_created ann key now = ensure_created ann key now'.
Proof. unfold ensure_created. now intros ->. Qed.

Lemma ensure_created_supplied ann key now v ann' :
  ann_get key ann = Some v -> ensure_created ann key now = Some ann' -> ann' = ann.
Proof. unfold ensure_created. intros ->. now destruct (rfc3339_ok v); intros [= <-]. Qed.

Definition from_push (evs : list event) (e : entry) : Prop :=
  exists r d bytes n, In (EvPush r d bytes) evs /\ e = mkEntry (d_mt d) (d_dg d) (d_sz d) bytes n.

(* [steps s s' evs]: going from s to s' issued exactly the storage operations evs,
   and the store only grew, by content of pushes among evs. *)
Definition steps (s s' : state) (evs : list event) : Prop :=
  s_events s' = s_events s ++ evs /\
  s_ops s' = (s_ops s + length evs)%nat /\
  exists l, s_store s' = s_store s ++ l /\ Forall (from_push evs) l.

Lemma steps_refl s : steps s s [].
Proof.
  unfold steps. split; [now rewrite app_nil_r|]. split; [simpl; lia|].
  exists nil. split; [now rewrite app_nil_r | constructor].
Qed.

Lemma from_push_mono e1 e2 e : from_push e1 e \/ from_push e2 e -> from_push (e1 ++ e2) e.
Proof.
  intros [(r & d & bs & n & I & E) | (r & d & bs & n & I & E)]; exists r, d, bs, n; split; auto;
    apply in_or_app; auto.
Qed.

Lemma steps_trans s s1 s2 e1 e2 : steps s s1 e1 -> steps s1 s2 e2 -> steps s s2 (e1 ++ e2).
Proof.
  intros (A1 & B1 & l1 & C1 & D1) (A2 & B2 & l2 & C2 & D2). repeat split.
  - now rewrite A2, A1, app_assoc.
  - rewrite B2, B1, app_length. lia.
  - exists (l1 ++ l2). split; [now rewrite C2, C1, app_assoc|].
    apply Forall_app. split; eapply Forall_impl; try eassumption; intros; apply from_push_mono; auto.
Qed.

Lemma name_exists_app st l n : name_exists (st ++ l) n = name_exists st n || name_exists l n.
Proof. unfold name_exists. apply existsb_app. Qed.

Lemma stored_mono k st l d : stored k st d = true -> stored k (st ++ l) d = true.
Proof.
  unfold stored. intro E. apply andb_true_iff in E as [N X]. apply andb_true_iff. split.
  - destruct k; auto. unfold name_ok in *. apply orb_true_iff in N as [N|N]; [now rewrite N|].
    now rewrite name_exists_app, N, orb_true_r.
  - now rewrite existsb_app, X.
Qed.

Lemma stored_steps bd s s' evs d :
  steps s s' evs -> stored bd (s_store s) d = true -> stored bd (s_store s') d = true.
Proof. intros (_ & _ & l & -> & _) St. now apply stored_mono. Qed.

Lemma stored_pushed k st d bytes :
  stored k (st ++ [mkEntry (d_mt d) (d_dg d) (d_sz d) bytes (entry_name k d)]) d = true.
Proof.
  unfold stored. apply andb_true_iff. split.
  - destruct k; auto. unfold name_ok, entry_name. destruct (is_nil (title d)) eqn:T; auto.
    cbn [orb]. rewrite name_exists_app. unfold name_exists at 2. cbn [existsb e_name].
    rewrite str_eqb_refl. cbn [orb]. apply orb_true_r.
  - rewrite existsb_app. apply orb_true_iff. right. simpl. rewrite orb_false_r.
    unfold same_key, full_key, is_named, entry_name. simpl. rewrite str_eqb_refl.
    destruct k; simpl; auto.
    + now rewrite str_eqb_refl, Z.eqb_refl.
    + apply Bool.eqb_reflx.
    + destruct (is_nil (title d)); simpl; auto. now rewrite str_eqb_refl, Z.eqb_refl.
Qed.

(* an answer ErrAlreadyExists is only given for untitled descriptors (see do_push) *)
Lemma push_dup_stored k st d : is_nil (entry_name k d) = true -> push_dup k st d = true -> stored k st d = true.
Proof.
  unfold push_dup, stored. intros T E. apply existsb_exists in E as (e & I & P). apply andb_true_iff. split.
  - destruct k; auto. unfold name_ok. unfold entry_name in T. now rewrite T.
  - apply existsb_exists. exists e. split; auto. destruct k; auto. simpl in P.
    apply andb_true_iff in P as [_ P]. exact P.
Qed.

(* a storage operation can fail by an injected fault or, on a file store, by a taken file name *)
Definition may_fail (tc : tcfg) (fa : option nat) : Prop := fa <> None \/ t_key tc = KFile.

Lemma faulty_may_fail tc fa s : faulty fa s = true -> may_fail tc fa.
Proof. intro F. left. now destruct fa. Qed.

(* [stepsk]: steps, with the key discipline in view: a new entry is the one Push writes for its
   descriptor, and an unnamed new entry was not already there for Push (no ErrAlreadyExists) *)
Definition as_desc (e : entry) : desc := mkDesc (e_mt e) (e_dg e) (e_sz e) [] [] no_extra.
Definition fresh (k : keykind) (st : list entry) (e : entry) : Prop :=
  is_nil (e_name e) = true -> push_dup k st (as_desc e) = false.
Definition pushed_by (k : keykind) (evs : list event) (e : entry) : Prop :=
  exists r d bytes, In (EvPush r d bytes) evs /\ e = mkEntry (d_mt d) (d_dg d) (d_sz d) bytes (entry_name k d).

Definition stepsk (k : keykind) (s s' : state) (evs : list event) : Prop :=
  steps s s' evs /\
  exists l, s_store s' = s_store s ++ l /\ Forall (pushed_by k evs) l /\ Forall (fresh k (s_store s)) l.

Lemma stepsk_steps k s s' evs : stepsk k s s' evs -> steps s s' evs.
Proof. now intros [S _]. Qed.

Lemma stepsk_refl k s : stepsk k s s [].
Proof. split; [apply steps_refl|]. exists nil. split; [now rewrite app_nil_r|]. split; constructor. Qed.

Lemma push_dup_app k st l d : push_dup k (st ++ l) d = push_dup k st d || push_dup k l d.
Proof. unfold push_dup. apply existsb_app. Qed.

Lemma pushed_by_mono k e1 e2 e : pushed_by k e1 e \/ pushed_by k e2 e -> pushed_by k (e1 ++ e2) e.
Proof.
  intros [(r & d & bs & I & E) | (r & d & bs & I & E)]; exists r, d, bs; split; auto; apply in_or_app; auto.
Qed.

Lemma stepsk_trans k s s1 s2 e1 e2 : stepsk k s s1 e1 -> stepsk k s1 s2 e2 -> stepsk k s s2 (e1 ++ e2).
Proof.
  intros (S1 & l1 & C1 & P1 & F1) (S2 & l2 & C2 & P2 & F2). split; [eapply steps_trans; eauto|].
  exists (l1 ++ l2). split; [now rewrite C2, C1, app_assoc|]. split.
  - apply Forall_app. split.
    + eapply Forall_impl; [|exact P1]. intros e Pe. apply pushed_by_mono. now left.
    + eapply Forall_impl; [|exact P2]. intros e Pe. apply pushed_by_mono. now right.
  - apply Forall_app. split; auto. eapply Forall_impl; [|exact F2]. intros e Fr N.
    specialize (Fr N). rewrite C1, push_dup_app in Fr. now apply orb_false_iff in Fr as [Fr _].
Qed.

Lemma stepsk_nogrow k s ev :
  stepsk k s (tick s ev) [ev].
Proof.
  split.
  - split; [reflexivity|]. split; [simpl; lia|]. exists nil. split; [now rewrite app_nil_r | constructor].
  - exists nil. split; [simpl; now rewrite app_nil_r|]. split; constructor.
Qed.

Lemma do_exists_spec tc fa s d s' r :
  do_exists tc fa s d = (s', r) ->
  stepsk (t_key tc) s s' [EvExists d] /\
  (r = None -> may_fail tc fa) /\
  (r = Some true -> stored (t_key tc) (s_store s') d = true).
Proof.
  unfold do_exists. destruct (faulty fa s) eqn:F; intros [= <- <-]; (split; [apply stepsk_nogrow|split]);
    try discriminate.
  - intros _. now apply (faulty_may_fail tc fa s).
  - simpl. congruence.
Qed.

Lemma push_dup_as_desc k st d bytes n :
  push_dup k st (as_desc (mkEntry (d_mt d) (d_dg d) (d_sz d) bytes n)) = push_dup k st d.
Proof. reflexivity. Qed.

Lemma do_push_spec tc fa s r d bytes s' ok :
  do_push tc fa s r d bytes = (s', ok) ->
  stepsk (t_key tc) s s' [EvPush r d bytes] /\
  (ok = false -> may_fail tc fa) /\
  (ok = true -> stored (t_key tc) (s_store s') d = true).
Proof.
  unfold do_push.
  destruct (faulty fa s) eqn:F.
  { intros [= <- <-]. split; [apply stepsk_nogrow|]. split; [|discriminate].
    intros _. now apply (faulty_may_fail tc fa s). }
  destruct (push_refused (t_key tc) (s_store s) d) eqn:R.
  { intros [= <- <-]. split; [apply stepsk_nogrow|]. split; [|discriminate].
    intros _. right. unfold push_refused in R. destruct (t_key tc); try discriminate. reflexivity. }
  destruct (is_nil (entry_name (t_key tc) d) && push_dup (t_key tc) (s_store s) d) eqn:D; intros [= <- <-].
  - apply andb_true_iff in D as [D1 D2]. split; [apply stepsk_nogrow|]. split; [discriminate|].
    intros _. simpl. now apply push_dup_stored.
  - split.
    + split.
      * split; [reflexivity|]. split; [simpl; lia|].
        exists [mkEntry (d_mt d) (d_dg d) (d_sz d) bytes (entry_name (t_key tc) d)]. split; auto.
        constructor; [|constructor]. exists r, d, bytes, (entry_name (t_key tc) d). simpl; auto.
      * exists [mkEntry (d_mt d) (d_dg d) (d_sz d) bytes (entry_name (t_key tc) d)]. split; [reflexivity|].
        split; (constructor; [|constructor]).
        -- exists r, d, bytes. simpl; auto.
        -- intro N. cbn [e_name] in N. rewrite push_dup_as_desc. rewrite N in D. exact D.
    + split; [discriminate|]. intros _. simpl. apply stored_pushed.
Qed.

Section PackProofs.
  Variable marshal : manifest -> str.
  Variable H : str -> str.
  Hypothesis H_empty : H empty_json = empty_json_digest.

  Definition blob_desc (d : desc) : Prop := d_dg d = H empty_json /\ d_sz d = 2%Z.

  Definition blob_ev (ev : event) : Prop :=
    match ev with
    | EvExists d => blob_desc d
    | EvPush RBlob d bytes => bytes = empty_json /\ blob_desc d
    | EvPush RManifest _ _ => False
    end.

  (* pushIfNotExist issues Exists and / or Push for d and nothing else ([Q]: any property of these two) *)
  Lemma pine_spec (Q : event -> Prop) tc fa s d s' ok :
    Q (EvExists d) -> Q (EvPush RBlob d empty_json) ->
    push_if_not_exist tc fa s d empty_json = (s', ok) ->
    exists evs, stepsk (t_key tc) s s' evs /\ Forall Q evs /\
                (ok = false -> may_fail tc fa) /\
                (ok = true -> stored (t_key tc) (s_store s') d = true).
  Proof.
    intros OX OP. unfold push_if_not_exist. destruct (t_exists tc).
    - destruct (do_exists tc fa s d) as [s1 r] eqn:E. apply do_exists_spec in E as (S1 & F1 & T1).
      destruct r as [[|]|].
      + intros [= <- <-]. exists [EvExists d]. split; [exact S1|]. split; [auto|]. split; [discriminate | auto].
      + intro P. apply do_push_spec in P as (S2 & F2 & T2).
        exists ([EvExists d] ++ [EvPush RBlob d empty_json]). split; [eapply stepsk_trans; eauto|]. simpl. auto.
      + intros [= <- <-]. exists [EvExists d]. split; [exact S1|]. split; [auto|]. split; [auto | discriminate].
    - intro P. apply do_push_spec in P as (S2 & F2 & T2).
      exists [EvPush RBlob d empty_json]. auto.
  Qed.

  (* what the caller asked for, written from the documentation *)

  Definition created_key (f : fn) : str :=
    match f with FArtifact => AnnotationArtifactCreated | _ => AnnotationCreated end.

  Definition is_some {A} (x : option A) : bool := match x with Some _ => true | None => false end.

  Definition invalid_config (o : opts) : bool :=
    match o_config o with Some c => negb (valid_media_type (d_mt c)) | None => false end.

  (* PackManifest must refuse: unknown version; v1.0 with a subject; a config or artifact
     type that is used and violates RFC 6838; v1.1 without artifact type when the config
     is absent or the empty JSON config.  Pack (deprecated) refuses nothing. *)
  Definition must_reject (f : fn) (at_ : str) (o : opts) : bool :=
    match f with
    | FBadVersion => true
    | FV10 => is_some (o_subject o) || invalid_config o ||
              (negb (is_some (o_config o)) && negb (is_empty at_) && negb (valid_media_type at_))
    | FV11 => (is_empty at_ && config_is_empty_or_nil o) ||
              (negb (is_empty at_) && negb (valid_media_type at_)) || invalid_config o
    | FRC2 | FArtifact => false
    end.

  Definition validation_err (e : err) : Prop :=
    e = EUnsupported \/ e = EInvalidMediaType \/ e = EMissingArtifactType.

  (* the config blob Pack invents when the caller gives no ConfigDescriptor *)
  Definition invented_config (f : fn) (at_ : str) (o : opts) : option desc :=
    match f with
    | FV10 | FRC2 =>
      match o_config o with
      | Some _ => None
      | None =>
        Some (with_ann (desc_from_bytes H (if is_empty at_ then MediaTypeUnknownConfig else at_) empty_json)
                       (o_config_ann o))
      end
    | FV11 =>
      match o_config o with
      | Some _ => None
      | None => Some (with_ann DescriptorEmptyJSON (o_config_ann o))
      end
    | FArtifact | FBadVersion => None
    end.

  Definition invented_layer (f : fn) (o : opts) : list desc :=
    match f, layers_or_empty (o_layers o) with
    | FV11, [] => [DescriptorEmptyJSON]
    | _, _ => []
    end.

  Definition invented (f : fn) (at_ : str) (o : opts) : list desc :=
    match invented_config f at_ o with Some c => [c] | None => [] end ++ invented_layer f o.

  Definition requested_config (f : fn) (at_ : str) (o : opts) : option desc :=
    match o_config o with Some c => Some c | None => invented_config f at_ o end.

  (* the manifest document the caller asked for, [ann] being the annotations with created filled in *)
  Definition requested_manifest (f : fn) (at_ : str) (o : opts) (ann : list kv) : manifest :=
    match f with
    | FV10 =>
      mkManifest KImage (requested_config f at_ o) (Some (layers_or_empty (o_layers o))) None [] ann
    | FRC2 =>
      mkManifest KImage (requested_config f at_ o) (Some (layers_or_empty (o_layers o))) (o_subject o) [] ann
    | FV11 =>
      mkManifest KImage (requested_config f at_ o)
                 (Some (match layers_or_empty (o_layers o) with [] => [DescriptorEmptyJSON] | l => l end))
                 (o_subject o) at_ ann
    | FArtifact | FBadVersion =>
      mkManifest KArtifact None
                 (match layers_or_empty (o_layers o) with [] => None | l => Some l end)
                 (o_subject o) (if is_empty at_ then MediaTypeUnknownArtifact else at_) ann
    end.

  (* the descriptor of manifest m: media type, digest and size of its bytes; artifactType
     and annotations copied from the manifest (v1.0 / rc2: the config media type) *)
  Definition result_desc (f : fn) (m : manifest) : desc :=
    mkDesc (kind_mt (m_kind m)) (H (marshal m)) (Z.of_nat (length (marshal m))) (m_ann m)
           (match f with
            | FV10 | FRC2 => match m_config m with Some c => d_mt c | None => [] end
            | _ => m_at m
            end) no_extra.

  Definition inv_ev (f : fn) (at_ : str) (o : opts) (ev : event) : Prop :=
    blob_ev ev /\ exists d, In d (invented f at_ o) /\ (ev = EvExists d \/ ev = EvPush RBlob d empty_json).

  Lemma inv_blob f at_ o evs : Forall (inv_ev f at_ o) evs -> Forall blob_ev evs.
  Proof. intro F. eapply Forall_impl; [|exact F]. intros ev [B _]. exact B. Qed.

  Inductive outcome (f : fn) (tc : tcfg) (fa : option nat) (s : state) (at_ : str) (o : opts) (now : str)
    : state -> result -> Prop :=
  | OutReject e :
      must_reject f at_ o = true -> validation_err e ->
      outcome f tc fa s at_ o now s (Err e)
  | OutBadCreated s' evs :
      must_reject f at_ o = false ->
      ensure_created (o_ann o) (created_key f) now = None ->
      stepsk (t_key tc) s s' evs -> Forall (inv_ev f at_ o) evs ->
      outcome f tc fa s at_ o now s' (Err EInvalidDateTime)
  | OutFaultBlob s' evs :
      must_reject f at_ o = false -> may_fail tc fa ->
      stepsk (t_key tc) s s' evs -> Forall (inv_ev f at_ o) evs ->
      outcome f tc fa s at_ o now s' (Err EInjected)
  | OutFaultManifest s' evs ann m :
      must_reject f at_ o = false -> may_fail tc fa ->
      ensure_created (o_ann o) (created_key f) now = Some ann ->
      m = requested_manifest f at_ o ann ->
      stepsk (t_key tc) s s' (evs ++ [EvPush RManifest (result_desc f m) (marshal m)]) -> Forall (inv_ev f at_ o) evs ->
      outcome f tc fa s at_ o now s' (Err EInjected)
  | OutOk s' evs ann m :
      must_reject f at_ o = false ->
      ensure_created (o_ann o) (created_key f) now = Some ann ->
      m = requested_manifest f at_ o ann ->
      stepsk (t_key tc) s s' (evs ++ [EvPush RManifest (result_desc f m) (marshal m)]) -> Forall (inv_ev f at_ o) evs ->
      stored (t_key tc) (s_store s') (result_desc f m) = true ->
      Forall (fun x => stored (t_key tc) (s_store s') x = true) (invented f at_ o) ->
      outcome f tc fa s at_ o now s' (Ok (result_desc f m) m).

  Lemma push_manifest_spec tc fa s m at_ s' r :
    push_manifest marshal H tc fa s m at_ = (s', r) ->
    forall d, d = mkDesc (kind_mt (m_kind m)) (H (marshal m)) (Z.of_nat (length (marshal m))) (m_ann m) at_ no_extra ->
    stepsk (t_key tc) s s' [EvPush RManifest d (marshal m)] /\
    (r = Ok d m /\ stored (t_key tc) (s_store s') d = true \/ r = Err EInjected /\ may_fail tc fa).
  Proof.
    unfold push_manifest. intros P d ->.
    destruct (do_push tc fa s RManifest _ (marshal m)) as [s1 ok] eqn:E.
    apply do_push_spec in E as (S1 & F1 & T1).
    destruct ok; injection P as <- <-; split; auto.
  Qed.

  Lemma blob_desc_custom mt ann : blob_desc (with_ann (desc_from_bytes H mt empty_json) ann).
  Proof. split; reflexivity. Qed.
  Lemma blob_desc_empty ann : blob_desc (with_ann DescriptorEmptyJSON ann).
  Proof. split; simpl; [now rewrite H_empty | reflexivity]. Qed.
  Lemma blob_desc_empty0 : blob_desc DescriptorEmptyJSON.
  Proof. exact (blob_desc_empty []). Qed.

  Definition sofar (f : fn) (tc : tcfg) (s : state) (at_ : str) (o : opts) (s1 : state) : Prop :=
    exists evs, stepsk (t_key tc) s s1 evs /\ Forall (inv_ev f at_ o) evs.

  Lemma sofar_refl f tc s at_ o : sofar f tc s at_ o s.
  Proof. exists []. split; [apply stepsk_refl | constructor]. Qed.

  Lemma blob_stage f tc fa s at_ o now d s1 ok :
    must_reject f at_ o = false -> In d (invented f at_ o) -> blob_desc d ->
    push_if_not_exist tc fa s d empty_json = (s1, ok) ->
    sofar f tc s at_ o s1 /\
    (ok = false -> outcome f tc fa s at_ o now s1 (Err EInjected)) /\
    (ok = true -> Forall (fun x => stored (t_key tc) (s_store s1) x = true) [d]).
  Proof.
    intros MR I Bd P.
    assert (OX : inv_ev f at_ o (EvExists d)) by (split; [exact Bd | eauto]).
    assert (OP : inv_ev f at_ o (EvPush RBlob d empty_json)) by (split; [split; auto | eauto]).
    destruct (pine_spec _ _ _ _ _ _ _ OX OP P) as (evs & S & B & F & T).
    split; [exists evs; auto|]. split; intro E.
    - apply (OutFaultBlob f tc fa s at_ o now s1 evs); auto.
    - constructor; auto.
  Qed.

  Lemma bad_created_outcome f tc fa s at_ o now s1 :
    must_reject f at_ o = false -> ensure_created (o_ann o) (created_key f) now = None ->
    sofar f tc s at_ o s1 -> outcome f tc fa s at_ o now s1 (Err EInvalidDateTime).
  Proof. intros MR EC (evs & S & B). now apply (OutBadCreated f tc fa s at_ o now s1 evs). Qed.

  Lemma final_outcome f tc fa s at_ o now s1 ann s' r :
    must_reject f at_ o = false ->
    ensure_created (o_ann o) (created_key f) now = Some ann ->
    sofar f tc s at_ o s1 ->
    Forall (fun x => stored (t_key tc) (s_store s1) x = true) (invented f at_ o) ->
    push_manifest marshal H tc fa s1 (requested_manifest f at_ o ann)
                  (d_at (result_desc f (requested_manifest f at_ o ann))) = (s', r) ->
    outcome f tc fa s at_ o now s' r.
  Proof.
    intros MR EC (evs & S0 & B0) I0 P.
    destruct (push_manifest_spec _ _ _ _ _ _ _ P _ eq_refl) as (S1 & [(-> & St) | (-> & F)]).
    - apply (OutOk f tc fa s at_ o now s' evs ann (requested_manifest f at_ o ann));
        [exact MR | exact EC | reflexivity | eapply stepsk_trans; eauto | exact B0 | exact St |].
      eapply Forall_impl; [|exact I0]. intro x. apply (stored_steps _ _ _ _ _ (stepsk_steps _ _ _ _ S1)).
    - apply (OutFaultManifest f tc fa s at_ o now s' evs ann (requested_manifest f at_ o ann));
        [exact MR | exact F | exact EC | reflexivity | eapply stepsk_trans; eauto | exact B0].
  Qed.

  Lemma tail_outcome f tc fa s at_ o now s1 s' r :
    must_reject f at_ o = false -> sofar f tc s at_ o s1 ->
    Forall (fun x => stored (t_key tc) (s_store s1) x = true) (invented f at_ o) ->
    match ensure_created (o_ann o) (created_key f) now with
    | None => (s1, Err EInvalidDateTime)
    | Some ann => push_manifest marshal H tc fa s1 (requested_manifest f at_ o ann)
                    (d_at (result_desc f (requested_manifest f at_ o ann)))
    end = (s', r) ->
    outcome f tc fa s at_ o now s' r.
  Proof.
    intros MR So I0. destruct (ensure_created (o_ann o) (created_key f) now) as [ann|] eqn:EC.
    - now apply final_outcome.
    - intros [= <- <-]. now apply bad_created_outcome.
  Qed.

  (* the config blob of v1.0 and rc2: "{}" under a media type of the caller's choosing *)
  Lemma pcec_spec f tc fa s at_ o now mt s1 rc :
    must_reject f at_ o = false ->
    In (with_ann (desc_from_bytes H mt empty_json) (o_config_ann o)) (invented f at_ o) ->
    push_custom_empty_config H tc fa s mt (o_config_ann o) = (s1, rc) ->
    sofar f tc s at_ o s1 /\
    (rc = None /\ outcome f tc fa s at_ o now s1 (Err EInjected) \/
     rc = Some (with_ann (desc_from_bytes H mt empty_json) (o_config_ann o)) /\
     Forall (fun x => stored (t_key tc) (s_store s1) x = true)
            [with_ann (desc_from_bytes H mt empty_json) (o_config_ann o)]).
  Proof.
    unfold push_custom_empty_config. intros MR I P.
    destruct (push_if_not_exist tc fa s _ empty_json) as [s2 ok] eqn:E.
    destruct (blob_stage f _ _ _ at_ o now _ _ _ MR I (blob_desc_custom mt _) E) as (So & F & T).
    destruct ok; injection P as <- <-; (split; [exact So|]); [right | left]; auto.
  Qed.

  Ltac mr V :=
    try match goal with o := _ |- _ => subst o end;
    unfold must_reject, invalid_config, config_is_empty_or_nil, is_some;
    cbn [o_subject o_config is_empty negb orb andb]; rewrite ?V; reflexivity.

  Lemma rc2_outcome tc fa s at_ o now s' r :
    pack_rc2 marshal H tc fa s at_ o now = (s', r) -> outcome FRC2 tc fa s at_ o now s' r.
  Proof.
    unfold pack_rc2. destruct o as [subj lay ann0 [c|] cann]; cbn [o_config o_config_ann].
    - exact (tail_outcome FRC2 tc fa s at_ (mkOpts subj lay ann0 (Some c) cann) now s s' r eq_refl
               (sofar_refl _ _ _ _ _) (Forall_nil _)).
    - pose (o := mkOpts subj lay ann0 None cann).
      destruct (push_custom_empty_config H tc fa s _ cann) as [s1 rc] eqn:PC.
      destruct (pcec_spec FRC2 tc fa s at_ o now _ s1 rc eq_refl (or_introl eq_refl) PC) as (So & [(-> & F) | (-> & St)]).
      + now intros [= <- <-].
      + exact (tail_outcome FRC2 tc fa s at_ o now s1 s' r eq_refl So St).
  Qed.

  Lemma v1_0_outcome tc fa s at_ o now s' r :
    pack_v1_0 marshal H tc fa s at_ o now = (s', r) -> outcome FV10 tc fa s at_ o now s' r.
  Proof.
    unfold pack_v1_0. destruct o as [[sj|] lay ann0 cfg cann]; cbn [o_subject o_config o_config_ann].
    { intros [= <- <-]. apply OutReject; [reflexivity | left; reflexivity]. }
    destruct cfg as [c|].
    - pose (o := mkOpts None lay ann0 (Some c) cann).
      destruct (valid_media_type (d_mt c)) eqn:V.
      + refine (tail_outcome FV10 tc fa s at_ o now s s' r _ (sofar_refl _ _ _ _ _) (Forall_nil _)). mr V.
      + intros [= <- <-]. apply OutReject; [mr V | right; left; reflexivity].
    - pose (o := mkOpts None lay ann0 None cann).
      destruct at_ as [|a0 at_]; cbn [is_empty]; [|destruct (valid_media_type (a0 :: at_)) eqn:V].
      3:{ intros [= <- <-]. apply OutReject; [mr V | right; left; reflexivity]. }
      + destruct (push_custom_empty_config H tc fa s _ cann) as [s1 rc] eqn:PC.
        destruct (pcec_spec FV10 tc fa s [] o now _ s1 rc eq_refl (or_introl eq_refl) PC) as (So & [(-> & F) | (-> & St)]).
        * now intros [= <- <-].
        * exact (tail_outcome FV10 tc fa s [] o now s1 s' r eq_refl So St).
      + assert (MR : must_reject FV10 (a0 :: at_) o = false) by mr V.
        destruct (push_custom_empty_config H tc fa s _ cann) as [s1 rc] eqn:PC.
        destruct (pcec_spec FV10 tc fa s (a0 :: at_) o now _ s1 rc MR (or_introl eq_refl) PC) as (So & [(-> & F) | (-> & St)]).
        * now intros [= <- <-].
        * exact (tail_outcome FV10 tc fa s (a0 :: at_) o now s1 s' r MR So St).
  Qed.

  (* the placeholder layer is the config blob without its annotations: found wherever that one is *)
  Lemma stored_untitled k st d a :
    title d = [] -> stored k st (with_ann d a) = true -> stored k st d = true.
  Proof.
    unfold stored. intros T E. apply andb_true_iff in E as [_ X]. apply andb_true_iff. split; [|exact X].
    destruct k; auto. unfold name_ok. now rewrite T.
  Qed.

  Lemma v1_1_body_outcome tc fa s at_ o now s' r :
    must_reject FV11 at_ o = invalid_config o ->
    pack_v1_1_body marshal H tc fa s at_ o now = (s', r) -> outcome FV11 tc fa s at_ o now s' r.
  Proof.
    unfold pack_v1_1_body, invalid_config. destruct o as [subj lay ann0 [c|] cann];
      cbn [o_config o_config_ann o_ann o_layers o_subject]; intro MR.
    - destruct (valid_media_type (d_mt c)); cbn [negb] in MR.
      2:{ intros [= <- <-]. apply OutReject; [exact MR | right; left; reflexivity]. }
      destruct (ensure_created ann0 AnnotationCreated now) as [ann|] eqn:EC.
      2:{ intros [= <- <-]. apply bad_created_outcome; [exact MR | exact EC | apply sofar_refl]. }
      destruct lay as [[|d0 l0]|]; cbn [layers_or_empty].
      2:{ exact (final_outcome FV11 tc fa s at_ _ now s ann s' r MR EC (sofar_refl _ _ _ _ _) (Forall_nil _)). }
      (* without layers the placeholder layer is pushed *)
      all: destruct (push_if_not_exist tc fa s DescriptorEmptyJSON empty_json) as [s2 ok] eqn:PL;
        destruct (blob_stage FV11 tc fa s at_ _ now _ s2 ok MR (or_introl eq_refl) blob_desc_empty0 PL) as (So & F & T);
        destruct ok; [exact (final_outcome FV11 tc fa s at_ _ now s2 ann s' r MR EC So (T eq_refl)) | intros [= <- <-]; now apply F].
    - pose (o := mkOpts subj lay ann0 None cann).
      destruct (push_if_not_exist tc fa s (with_ann DescriptorEmptyJSON cann) empty_json) as [s1 ok] eqn:PC.
      destruct (blob_stage FV11 tc fa s at_ o now _ s1 ok MR (or_introl eq_refl) (blob_desc_empty cann) PC) as (So & F & T).
      destruct ok; [specialize (T eq_refl) | intros [= <- <-]; now apply F].
      destruct (ensure_created ann0 AnnotationCreated now) as [ann|] eqn:EC.
      2:{ intros [= <- <-]. now apply bad_created_outcome. }
      assert (I : Forall (fun x => stored (t_key tc) (s_store s1) x = true) (invented FV11 at_ o)).
      { inversion T as [|? ? T1 _]; subst. constructor; [exact T1|]. unfold invented_layer. subst o. cbn [o_layers].
        destruct (layers_or_empty lay); constructor; [|constructor].
        now apply (stored_untitled _ _ _ cann). }
      subst o. destruct lay as [[|d0 l0]|]; exact (final_outcome FV11 tc fa s at_ _ now s1 ann s' r MR EC So I).
  Qed.

  Lemma v1_1_outcome tc fa s at_ o now s' r :
    pack_v1_1 marshal H tc fa s at_ o now = (s', r) -> outcome FV11 tc fa s at_ o now s' r.
  Proof.
    unfold pack_v1_1.
    destruct (is_empty at_ && config_is_empty_or_nil o) eqn:G1.
    { intros [= <- <-]. apply OutReject; [|right; right; reflexivity]. unfold must_reject. now rewrite G1. }
    destruct (negb (is_empty at_) && negb (valid_media_type at_)) eqn:G2.
    { intros [= <- <-]. apply OutReject; [|right; left; reflexivity]. unfold must_reject. rewrite G1, G2. reflexivity. }
    apply v1_1_body_outcome. unfold must_reject. now rewrite G1, G2.
  Qed.

  Theorem pack_outcome f tc fa s at_ o now s' r :
    pack marshal H f tc fa s at_ o now = (s', r) -> outcome f tc fa s at_ o now s' r.
  Proof.
    destruct f; simpl.
    - apply v1_0_outcome.
    - apply v1_1_outcome.
    - intros [= <- <-]. apply OutReject; [reflexivity | left; reflexivity].
    - apply rc2_outcome.
    - exact (tail_outcome FArtifact tc fa s at_ o now s s' r eq_refl (sofar_refl _ _ _ _ _) (Forall_nil _)).
  Qed.

  Theorem reject_before_push f tc fa s at_ o now :
    must_reject f at_ o = true ->
    exists e, pack marshal H f tc fa s at_ o now = (s, Err e) /\ validation_err e.
  Proof.
    intro MR. destruct (pack marshal H f tc fa s at_ o now) as [s' r] eqn:P.
    apply pack_outcome in P. inversion P; subst; try congruence. eauto.
  Qed.

  Theorem validation_error_only_before_push f tc fa s at_ o now s' e :
    pack marshal H f tc fa s at_ o now = (s', Err e) -> validation_err e ->
    s' = s /\ must_reject f at_ o = true.
  Proof.
    intros P V. apply pack_outcome in P. inversion P; subst; auto;
      destruct V as [V|[V|V]]; discriminate.
  Qed.

  Theorem ok_not_rejected f tc fa s at_ o now s' d m :
    pack marshal H f tc fa s at_ o now = (s', Ok d m) -> must_reject f at_ o = false.
  Proof. intro P. apply pack_outcome in P. inversion P; subst; auto. Qed.

  Lemma pack_events f tc fa s at_ o now s' r :
    pack marshal H f tc fa s at_ o now = (s', r) ->
    exists evs, Forall (inv_ev f at_ o) evs /\
      (stepsk (t_key tc) s s' evs \/
       exists ann m, ensure_created (o_ann o) (created_key f) now = Some ann /\
         stepsk (t_key tc) s s' (evs ++ [EvPush RManifest (result_desc f m) (marshal m)])).
  Proof.
    intro P. apply pack_outcome in P. inversion P; subst.
    - exists []. split; [constructor | left; apply stepsk_refl].
    - exists evs. auto.
    - exists evs. auto.
    - exists evs. split; [assumption | right; eauto].
    - exists evs. split; [assumption | right; eauto].
  Qed.

  (* a malformed created annotation: an error, and only the blob "{}" was touched *)
  Definition only_empty_blob_added (st st' : list entry) : Prop :=
    exists l, st' = st ++ l /\ Forall (fun e => e_bytes e = empty_json /\ e_dg e = H empty_json /\ e_sz e = 2%Z) l.

  Lemma blob_steps_store s s' evs :
    steps s s' evs -> Forall blob_ev evs -> only_empty_blob_added (s_store s) (s_store s').
  Proof.
    intros (_ & _ & l & E & F) B. exists l. split; auto.
    eapply Forall_impl; [|exact F]. intros e (r & d & bs & n & I & ->).
    rewrite Forall_forall in B. specialize (B _ I). destruct r; simpl in B; [|contradiction].
    destruct B as (-> & D1 & D2). simpl. auto.
  Qed.

  Theorem bad_created_no_manifest f tc fa s at_ o now s' r v :
    ann_get (created_key f) (o_ann o) = Some v -> rfc3339_ok v = false ->
    pack marshal H f tc fa s at_ o now = (s', r) ->
    (exists e, r = Err e /\ (must_reject f at_ o = false -> fa = None -> t_key tc <> KFile -> e = EInvalidDateTime)) /\
    (exists evs, steps s s' evs /\ Forall blob_ev evs) /\
    only_empty_blob_added (s_store s) (s_store s').
  Proof.
    intros G R P.
    assert (EC : ensure_created (o_ann o) (created_key f) now = None) by (unfold ensure_created; now rewrite G, R).
    split.
    - apply pack_outcome in P. inversion P as [e MR | | s2 evs MR [F|F] | |]; subst; try congruence;
        eexists; (split; [reflexivity | congruence]).
    - destruct (pack_events _ _ _ _ _ _ _ _ _ P) as (evs & B & [S | (ann & m & EC' & _)]); [|congruence].
      apply inv_blob in B. apply stepsk_steps in S. split; [eauto | eapply blob_steps_store; eauto].
  Qed.

  Theorem ok_consistent f tc fa s at_ o now s' d m :
    pack marshal H f tc fa s at_ o now = (s', Ok d m) ->
    exists ann evs,
      ensure_created (o_ann o) (created_key f) now = Some ann /\
      m = requested_manifest f at_ o ann /\
      d = result_desc f m /\
      steps s s' (evs ++ [EvPush RManifest d (marshal m)]) /\ Forall blob_ev evs /\
      stored (t_key tc) (s_store s') d = true /\
      Forall (fun x => stored (t_key tc) (s_store s') x = true) (invented f at_ o).
  Proof.
    intro P. apply pack_outcome in P. inversion P as [| | | | s2 evs ann m' MR EC Em S B St I]; subst.
    apply stepsk_steps in S. apply inv_blob in B. exists ann, evs. auto 10.
  Qed.

  (* which storage operations a successful call issues: Exists / Push of "{}" for descriptors it
     invented -- nothing else -- and then the push of the manifest *)
  Theorem ok_operations f tc fa s at_ o now s' d m :
    pack marshal H f tc fa s at_ o now = (s', Ok d m) ->
    exists evs, s_events s' = s_events s ++ evs ++ [EvPush RManifest d (marshal m)] /\
                Forall (inv_ev f at_ o) evs.
  Proof.
    intro P. apply pack_outcome in P. inversion P as [| | | | s2 evs ann m' MR EC Em ((E & _) & _) B]; subst.
    exists evs. auto.
  Qed.

  (* ... and a failing call issues at most such operations and the manifest push *)
  Theorem err_operations f tc fa s at_ o now s' e :
    pack marshal H f tc fa s at_ o now = (s', Err e) ->
    exists evs, Forall (inv_ev f at_ o) evs /\
                (s_events s' = s_events s ++ evs \/
                 exists d m, s_events s' = s_events s ++ evs ++ [EvPush RManifest d (marshal m)]).
  Proof.
    intro P. destruct (pack_events _ _ _ _ _ _ _ _ _ P) as (evs & B & [((E & _) & _) | (ann & m & _ & (E & _) & _)]);
      exists evs; eauto.
  Qed.

  (* for these key disciplines Exists and "Push answers ErrAlreadyExists" are the same question *)
  Lemma stored_push_dup k st d : k <> KFile -> stored k st d = push_dup k st d.
  Proof. destruct k; try reflexivity. congruence. Qed.

  Lemma entry_name_nofile k d : k <> KFile -> entry_name k d = [].
  Proof. destruct k; try reflexivity. congruence. Qed.

  Lemma stepsk_present k s s' evs :
    k <> KFile -> stepsk k s s' evs ->
    (forall r d bytes, In (EvPush r d bytes) evs -> stored k (s_store s) d = true) ->
    s_store s' = s_store s.
  Proof.
    intros NF (_ & l & E & PB & FR) St. rewrite E.
    destruct l as [|e l]; [apply app_nil_r | exfalso].
    inversion PB as [|? ? (r & d & bytes & I & ->) _]; subst. inversion FR as [|? ? Fe _]; subst.
    unfold fresh in Fe. cbn [e_name] in Fe. rewrite (entry_name_nofile _ _ NF) in Fe. specialize (Fe eq_refl).
    rewrite push_dup_as_desc, <- (stored_push_dup _ _ _ NF), (St _ _ _ I) in Fe. discriminate.
  Qed.

  (* Idempotence on content-addressed targets (memory, OCI layout, registry; with or without Exists,
     whatever they held before): in any state in which the result and the invented blobs are present
     the call finds everything there, returns the same, stores nothing -- every Exists answers true or
     every Push answers ErrAlreadyExists, which Pack swallows. *)
  Theorem settled_call_changes_nothing f tc s at_ o now ann s2 r2 :
    t_key tc <> KFile ->
    must_reject f at_ o = false ->
    ensure_created (o_ann o) (created_key f) now = Some ann ->
    stored (t_key tc) (s_store s) (result_desc f (requested_manifest f at_ o ann)) = true ->
    Forall (fun x => stored (t_key tc) (s_store s) x = true) (invented f at_ o) ->
    pack marshal H f tc None s at_ o now = (s2, r2) ->
    r2 = Ok (result_desc f (requested_manifest f at_ o ann)) (requested_manifest f at_ o ann) /\
    s_store s2 = s_store s.
  Proof.
    intros NF MR EC St I P.
    apply pack_outcome in P. inversion P as [| | ? ? ? [F|F] | ? ? ? ? ? [F|F] | s2' evs ann2 m2 MR2 EC2 Em2 S2 B2];
      subst; try congruence.
    rewrite EC in EC2. injection EC2 as <-. split; [reflexivity|].
    apply (stepsk_present _ _ _ _ NF S2). intros r d bytes In0. apply in_app_or in In0 as [In0 | [[= _ <- _] | []]]; [|exact St].
    rewrite Forall_forall in B2, I. destruct (B2 _ In0) as (_ & d' & Id' & [[=] | [= _ -> _]]). now apply I.
  Qed.

  (* which error a rejected call returns (the order of the checks in the source) *)
  Definition reject_err (f : fn) (at_ : str) (o : opts) : err :=
    match f with
    | FV10 => if is_some (o_subject o) then EUnsupported else EInvalidMediaType
    | FV11 => if is_empty at_ && config_is_empty_or_nil o then EMissingArtifactType else EInvalidMediaType
    | _ => EUnsupported
    end.

  Theorem reject_exact f tc fa s at_ o now :
    must_reject f at_ o = true ->
    pack marshal H f tc fa s at_ o now = (s, Err (reject_err f at_ o)).
  Proof.
    intro MR. destruct f; try discriminate; try reflexivity.
    - (* v1.0 *)
      unfold pack, pack_v1_0, reject_err. unfold must_reject, invalid_config in MR.
      destruct o as [subj lay ann0 cfg cann]. cbn [o_subject o_config o_config_ann o_ann o_layers] in *.
      destruct subj as [sj|]; [reflexivity|]. cbn [is_some orb] in *.
      destruct cfg as [c|]; cbn [is_some negb andb orb] in *.
      + rewrite orb_false_r in MR. apply negb_true_iff in MR. now rewrite MR.
      + destruct at_ as [|a0 at_]; cbn [is_empty negb andb] in *; [discriminate|].
        apply negb_true_iff in MR. now rewrite MR.
    - (* v1.1 *)
      unfold pack, pack_v1_1, reject_err. unfold must_reject in MR.
      destruct (is_empty at_ && config_is_empty_or_nil o) eqn:G1; [reflexivity|].
      destruct (negb (is_empty at_) && negb (valid_media_type at_)) eqn:G2; [reflexivity|].
      cbn [orb] in MR. unfold pack_v1_1_body. unfold invalid_config in MR.
      destruct (o_config o) as [c|]; [|discriminate]. apply negb_true_iff in MR. now rewrite MR.
  Qed.

  (* Progress: on a target that does not fail (no injected fault, not a file store, which may refuse a
     taken name) a call is classified by its input alone -- rejected, malformed created, or success; a
     valid input always succeeds. *)
  Theorem healthy_target_classification f tc s at_ o now s' r :
    t_key tc <> KFile ->
    pack marshal H f tc None s at_ o now = (s', r) ->
    (must_reject f at_ o = true /\ exists e, r = Err e /\ validation_err e /\ s' = s) \/
    (must_reject f at_ o = false /\ ensure_created (o_ann o) (created_key f) now = None /\ r = Err EInvalidDateTime) \/
    (must_reject f at_ o = false /\
     exists ann, ensure_created (o_ann o) (created_key f) now = Some ann /\
                 r = Ok (result_desc f (requested_manifest f at_ o ann)) (requested_manifest f at_ o ann)).
  Proof.
    intros NF P. apply pack_outcome in P.
    inversion P as [e MR V | s2 evs MR EC S B | s2 evs MR [F|F] S B | s2 evs ann m MR [F|F] EC Em S B
                    | s2 evs ann m MR EC Em S B St I]; subst; try congruence.
    - left. split; auto. exists e. auto.
    - right. left. auto.
    - right. right. split; auto. exists ann. auto.
  Qed.

  Corollary valid_input_succeeds f tc s at_ o now ann s' r :
    t_key tc <> KFile ->
    must_reject f at_ o = false ->
    ensure_created (o_ann o) (created_key f) now = Some ann ->
    pack marshal H f tc None s at_ o now = (s', r) ->
    r = Ok (result_desc f (requested_manifest f at_ o ann)) (requested_manifest f at_ o ann).
  Proof.
    intros NF MR EC P.
    destruct (healthy_target_classification _ _ _ _ _ _ _ _ NF P) as [(MR' & _) | [(_ & EC' & _) | (_ & ann' & EC' & ->)]];
      congruence.
  Qed.

  Lemma requested_ann f at_ o ann : m_ann (requested_manifest f at_ o ann) = ann.
  Proof. destruct f; reflexivity. Qed.

  (* the created annotation is there and parses; every other annotation is the caller's *)
  Theorem ok_created f tc fa s at_ o now s' d m :
    rfc3339_ok now = true ->
    pack marshal H f tc fa s at_ o now = (s', Ok d m) ->
    (exists v, ann_get (created_key f) (m_ann m) = Some v /\ rfc3339_ok v = true /\
               (ann_get (created_key f) (o_ann o) = Some v \/
                ann_get (created_key f) (o_ann o) = None /\ v = now)) /\
    (forall k, k <> created_key f -> ann_get k (m_ann m) = ann_get k (o_ann o)) /\
    d_ann d = m_ann m.
  Proof.
    intros RN P. apply ok_consistent in P as (ann & evs & EC & -> & -> & _).
    rewrite requested_ann. apply ensure_created_spec in EC as ((v & G & C) & O).
    split; [|split; [exact O | simpl; now rewrite requested_ann]].
    exists v. split; auto. destruct C as [(G0 & R & _) | (G0 & -> & _)]; auto.
  Qed.

  (* every push Pack attempts describes its own content; so a store in which every entry is
     addressed by the digest and size of its bytes stays that way *)
  Definition wf_entry (e : entry) : Prop :=
    e_dg e = H (e_bytes e) /\ e_sz e = Z.of_nat (length (e_bytes e)).
  Definition wf_store (st : list entry) : Prop := Forall wf_entry st.

  Definition consistent_ev (ev : event) : Prop :=
    match ev with
    | EvExists _ => True
    | EvPush _ d bytes => d_dg d = H bytes /\ d_sz d = Z.of_nat (length bytes)
    end.

  Lemma blob_ev_consistent ev : blob_ev ev -> consistent_ev ev.
  Proof.
    destruct ev as [d | [|] d bs]; simpl; auto; [|contradiction].
    intros (-> & D1 & D2). split; auto.
  Qed.

  Lemma steps_wf s s' evs :
    steps s s' evs -> Forall consistent_ev evs -> wf_store (s_store s) -> wf_store (s_store s').
  Proof.
    intros (_ & _ & l & -> & F) C W. apply Forall_app. split; auto.
    eapply Forall_impl; [|exact F]. intros e (r & d & bs & n & I & ->).
    rewrite Forall_forall in C. apply (C _ I).
  Qed.

  Theorem pack_pushes_consistent f tc fa s at_ o now s' r :
    pack marshal H f tc fa s at_ o now = (s', r) ->
    exists evs, steps s s' evs /\ Forall consistent_ev evs.
  Proof.
    intro P. destruct (pack_events _ _ _ _ _ _ _ _ _ P) as (evs & B & [S | (ann & m & _ & S)]);
      apply stepsk_steps in S; apply inv_blob in B;
      assert (C : Forall consistent_ev evs) by (eapply Forall_impl; [|exact B]; apply blob_ev_consistent).
    - eauto.
    - eexists. split; [exact S|]. apply Forall_app. split; [exact C|]. repeat constructor.
  Qed.

  Theorem pack_preserves_wf f tc fa s at_ o now s' r :
    pack marshal H f tc fa s at_ o now = (s', r) -> wf_store (s_store s) -> wf_store (s_store s').
  Proof.
    intros P W. apply pack_pushes_consistent in P as (evs & S & C). eapply steps_wf; eauto.
  Qed.

  Lemma stored_wf k st d :
    wf_store st -> stored k st d = true ->
    exists e, In e st /\ same_key k d e = true /\ H (e_bytes e) = d_dg d /\ wf_entry e.
  Proof.
    unfold stored, same_key. intros W E. apply andb_true_iff in E as [_ E].
    apply existsb_exists in E as (e & I & K). exists e. split; [exact I|]. split; [exact K|].
    apply andb_true_iff in K as [K _]. apply str_eqb_spec in K.
    unfold wf_store in W. rewrite Forall_forall in W. destruct (W _ I) as [D1 D2].
    split; [congruence | now split].
  Qed.

  (* the returned descriptor's digest (and, for a collision-free digest, size and bytes) are
     those of the content now stored under it, which decodes to the requested manifest *)
  Theorem ok_descriptor_describes_stored f tc fa s at_ o now s' d m :
    wf_store (s_store s) ->
    pack marshal H f tc fa s at_ o now = (s', Ok d m) ->
    d_dg d = H (marshal m) /\ d_sz d = Z.of_nat (length (marshal m)) /\ d_mt d = kind_mt (m_kind m) /\
    exists e, In e (s_store s') /\ same_key (t_key tc) d e = true /\
              H (e_bytes e) = d_dg d /\
              ((forall x y, H x = H y -> x = y) -> e_bytes e = marshal m /\ e_sz e = d_sz d).
  Proof.
    intros W P. pose proof (pack_preserves_wf _ _ _ _ _ _ _ _ _ P W) as W'.
    apply ok_consistent in P as (ann & evs & EC & -> & -> & S & B & St & I).
    do 3 (split; [reflexivity|]).
    destruct (stored_wf _ _ _ W' St) as (e & In' & K & D & _ & D2). exists e. do 3 (split; [assumption|]).
    intros Hinj. apply Hinj in D. split; [exact D|]. rewrite D2, D. reflexivity.
  Qed.

  Lemma invented_blob f at_ o x : In x (invented f at_ o) -> blob_desc x.
  Proof.
    unfold invented, invented_config, invented_layer. intro I. apply in_app_or in I as [I|I].
    - destruct f, (o_config o); simpl in I; try contradiction; destruct I as [<-|[]];
        (apply blob_desc_custom || apply blob_desc_empty).
    - destruct f, (layers_or_empty (o_layers o)); simpl in I; try contradiction.
      destruct I as [<-|[]]. apply blob_desc_empty0.
  Qed.

  Theorem ok_invented_present f tc fa s at_ o now s' d m :
    wf_store (s_store s) ->
    pack marshal H f tc fa s at_ o now = (s', Ok d m) ->
    forall x, In x (invented f at_ o) ->
      d_dg x = H empty_json /\ d_sz x = 2%Z /\
      exists e, In e (s_store s') /\ same_key (t_key tc) x e = true /\ H (e_bytes e) = H empty_json /\
                ((forall a c, H a = H c -> a = c) -> e_bytes e = empty_json).
  Proof.
    intros W P x Ix. pose proof (pack_preserves_wf _ _ _ _ _ _ _ _ _ P W) as W'.
    apply ok_consistent in P as (ann & evs & _ & _ & _ & _ & _ & _ & I).
    rewrite Forall_forall in I. destruct (invented_blob _ _ _ _ Ix) as (D1 & D2).
    do 2 (split; [assumption|]).
    destruct (stored_wf _ _ _ W' (I _ Ix)) as (e & In' & K & D & _). rewrite D1 in D.
    exists e. auto.
  Qed.

  (* closure: each successor of the packed manifest is a descriptor the caller supplied or is
     present in the target (so the hypotheses of C01 about the source graph are the caller's) *)
  Definition opt_list {A} (x : option A) : list A := match x with Some a => [a] | None => [] end.

  Definition successors (m : manifest) : list desc :=
    opt_list (m_config m) ++ match m_layers m with Some l => l | None => [] end ++ opt_list (m_subject m).

  Definition supplied (o : opts) : list desc :=
    opt_list (o_config o) ++ layers_or_empty (o_layers o) ++ opt_list (o_subject o).

  Lemma requested_successors f at_ o ann x :
    In x (successors (requested_manifest f at_ o ann)) -> In x (supplied o) \/ In x (invented f at_ o).
  Proof.
    unfold successors, supplied, invented, requested_manifest, requested_config, invented_config, invented_layer.
    destruct f, (o_config o), (layers_or_empty (o_layers o));
      cbn [opt_list m_config m_layers m_subject]; rewrite ?in_app_iff; cbn [In]; tauto.
  Qed.

  Theorem ok_closed f tc fa s at_ o now s' d m :
    pack marshal H f tc fa s at_ o now = (s', Ok d m) ->
    forall x, In x (successors m) ->
      In x (supplied o) \/ stored (t_key tc) (s_store s') x = true.
  Proof.
    intros P x Ix. apply ok_consistent in P as (ann & evs & _ & -> & _ & _ & _ & _ & I).
    rewrite Forall_forall in I. apply requested_successors in Ix as [Ix|Ix]; auto.
  Qed.

  Definition same_but_ann (o o' : opts) : Prop :=
    o_subject o = o_subject o' /\ o_layers o = o_layers o' /\ o_config o = o_config o' /\
    o_config_ann o = o_config_ann o'.

  Lemma supplied_calls f at_ o o' v v' tc1 fa1 s1 now1 s1' d1 m1 tc2 fa2 s2 now2 s2' d2 m2 :
    same_but_ann o o' ->
    ann_get (created_key f) (o_ann o) = Some v -> ann_get (created_key f) (o_ann o') = Some v' ->
    pack marshal H f tc1 fa1 s1 at_ o now1 = (s1', Ok d1 m1) ->
    pack marshal H f tc2 fa2 s2 at_ o' now2 = (s2', Ok d2 m2) ->
    exists k c l sj a,
      m1 = mkManifest k c l sj a (o_ann o) /\ m2 = mkManifest k c l sj a (o_ann o') /\
      d1 = result_desc f m1 /\ d2 = result_desc f m2.
  Proof.
    intros (E1 & E2 & E3 & E4) G G' P1 P2.
    apply ok_consistent in P1 as (a1 & e1 & EC1 & -> & -> & _).
    apply ok_consistent in P2 as (a2 & e2 & EC2 & -> & -> & _).
    apply (ensure_created_supplied _ _ _ _ _ G) in EC1 as ->.
    apply (ensure_created_supplied _ _ _ _ _ G') in EC2 as ->.
    unfold requested_manifest, requested_config, invented_config. rewrite <- E1, <- E2, <- E3, <- E4.
    destruct f; eexists _, _, _, _, _; repeat split.
  Qed.

  (* identical inputs with a fixed created annotation give an identical descriptor and
     manifest, whatever the target, its content, the clock and the faults *)
  Theorem deterministic f at_ o v tc1 fa1 s1 now1 s1' d1 m1 tc2 fa2 s2 now2 s2' d2 m2 :
    ann_get (created_key f) (o_ann o) = Some v ->
    pack marshal H f tc1 fa1 s1 at_ o now1 = (s1', Ok d1 m1) ->
    pack marshal H f tc2 fa2 s2 at_ o now2 = (s2', Ok d2 m2) ->
    d1 = d2 /\ m1 = m2.
  Proof.
    intros G P1 P2.
    destruct (supplied_calls _ _ _ _ _ _ _ _ _ _ _ _ _ _ _ _ _ _ _ _ (conj eq_refl (conj eq_refl (conj eq_refl eq_refl))) G G P1 P2)
      as (k & c & l & sj & a & -> & -> & -> & ->).
    auto.
  Qed.
End PackProofs.

(* Go maps carry no order: permuting the annotations changes nothing *)
From Coq Require Import Sorting.Permutation.

Lemma ann_get_perm k l l' :
  NoDup (map fst l) -> Permutation l l' -> ann_get k l = ann_get k l'.
Proof.
  intros N P. induction P as [| [k1 v1] l l' P IH | [k1 v1] [k2 v2] l | l l' l'' P1 IH1 P2 IH2].
  - reflexivity.
  - simpl. destruct (str_eqb k k1); auto. apply IH. now inversion N.
  - simpl. destruct (str_eqb k k2) eqn:E2; destruct (str_eqb k k1) eqn:E1; auto.
    apply str_eqb_spec in E1, E2. subst. simpl in N. inversion N as [|? ? NI _]. elim NI. simpl. auto.
  - rewrite IH1 by exact N. apply IH2.
    eapply Permutation_NoDup; [|exact N]. now apply Permutation_map.
Qed.

Section PermProofs.
  Variable marshal : manifest -> str.
  Variable H : str -> str.
  Hypothesis H_empty : H empty_json = empty_json_digest.
  (* json.Marshal writes map keys in sorted order: the bytes do not depend on the order in which
     the annotations are listed *)
  Hypothesis marshal_perm : forall k c l sj a ann ann',
      NoDup (map fst ann) -> Permutation ann ann' ->
      marshal (mkManifest k c l sj a ann) = marshal (mkManifest k c l sj a ann').

  Theorem deterministic_perm f at_ o o' v tc1 fa1 s1 now1 s1' d1 m1 tc2 fa2 s2 now2 s2' d2 m2 :
    NoDup (map fst (o_ann o)) -> Permutation (o_ann o) (o_ann o') -> same_but_ann o o' ->
    ann_get (created_key f) (o_ann o) = Some v ->
    pack marshal H f tc1 fa1 s1 at_ o now1 = (s1', Ok d1 m1) ->
    pack marshal H f tc2 fa2 s2 at_ o' now2 = (s2', Ok d2 m2) ->
    d_dg d1 = d_dg d2 /\ d_sz d1 = d_sz d2 /\ d_mt d1 = d_mt d2 /\ d_at d1 = d_at d2 /\
    d_extra d1 = d_extra d2 /\ Permutation (d_ann d1) (d_ann d2) /\
    m_config m1 = m_config m2 /\ m_layers m1 = m_layers m2 /\ m_subject m1 = m_subject m2 /\ m_at m1 = m_at m2.
  Proof.
    intros N P S G P1 P2.
    assert (G' : ann_get (created_key f) (o_ann o') = Some v) by (rewrite <- (ann_get_perm _ _ _ N P); exact G).
    destruct (supplied_calls marshal H H_empty _ _ _ _ _ _ _ _ _ _ _ _ _ _ _ _ _ _ _ _ S G G' P1 P2)
      as (k & c & l & sj & a & -> & -> & -> & ->).
    unfold result_desc. cbn [m_kind m_ann m_config m_at d_dg d_sz d_mt d_at d_ann d_extra m_layers m_subject].
    rewrite (marshal_perm k c l sj a _ _ N P). repeat split; auto.
  Qed.
End PermProofs.

Section HistoryProofs.
  Variable marshal : manifest -> str.
  Variable H : str -> str.
  Hypothesis H_empty : H empty_json = empty_json_digest.

  Lemma run_calls_cons tc fa s c cs s' rs :
    run_calls marshal H tc fa s (c :: cs) = (s', rs) ->
    exists s1 r1 rs1, pack marshal H (c_fn c) tc fa s (c_at c) (c_opts c) (c_now c) = (s1, r1) /\
                      run_calls marshal H tc fa s1 cs = (s', rs1) /\ rs = r1 :: rs1.
  Proof.
    cbn [run_calls]. destruct (pack _ _ _ _ _ _ _ _ _) as [s1 r1]. destruct (run_calls _ _ _ _ _ _) as [s2 rs1] eqn:R.
    intros [= <- <-]. exists s1, r1, rs1. auto.
  Qed.

  Lemma run_calls_steps tc fa cs : forall s s' rs,
    run_calls marshal H tc fa s cs = (s', rs) ->
    exists evs, steps s s' evs /\ Forall (consistent_ev H) evs.
  Proof.
    induction cs as [|c cs IH]; intros s s' rs R.
    - injection R as <- <-. exists []. split; [apply steps_refl | constructor].
    - apply run_calls_cons in R as (s1 & r1 & rs1 & P & R & _).
      destruct (pack_pushes_consistent marshal H H_empty _ _ _ _ _ _ _ _ _ P) as (e1 & S1 & C1).
      destruct (IH _ _ _ R) as (e2 & S2 & C2).
      exists (e1 ++ e2). split; [eapply steps_trans; eauto | apply Forall_app; auto].
  Qed.

  Theorem history_preserves_wf tc fa cs s s' rs :
    run_calls marshal H tc fa s cs = (s', rs) -> wf_store H (s_store s) -> wf_store H (s_store s').
  Proof.
    intros R W. destruct (run_calls_steps _ _ _ _ _ _ R) as (evs & S & C). eapply steps_wf; eauto.
  Qed.

  (* what an earlier call returned is still there after any later calls (failed ones included):
     its descriptor answers Exists, and under it lies content with the digest of its manifest --
     for a collision-free digest, exactly the marshalled manifest *)
  Theorem history_results_stay tc fa cs : forall s s' rs d m,
    wf_store H (s_store s) ->
    run_calls marshal H tc fa s cs = (s', rs) ->
    In (Ok d m) rs ->
    stored (t_key tc) (s_store s') d = true /\
    d_dg d = H (marshal m) /\
    exists e, In e (s_store s') /\ same_key (t_key tc) d e = true /\ H (e_bytes e) = H (marshal m) /\
              ((forall x y, H x = H y -> x = y) -> e_bytes e = marshal m).
  Proof.
    induction cs as [|c cs IH]; intros s s' rs d m W R I.
    - injection R as <- <-. contradiction.
    - apply run_calls_cons in R as (s1 & r1 & rs1 & P & R & ->).
      pose proof (pack_preserves_wf marshal H H_empty _ _ _ _ _ _ _ _ _ P W) as W1.
      destruct I as [-> | I]; [|eapply IH; eauto].
      pose proof (history_preserves_wf _ _ _ _ _ _ R W1) as W2.
      destruct (run_calls_steps _ _ _ _ _ _ R) as (evs & S2 & _).
      apply (ok_consistent marshal H H_empty) in P as (ann & e1 & _ & -> & -> & _ & _ & St & _).
      pose proof (stored_steps _ _ _ _ _ S2 St) as St2. split; [exact St2|]. split; [reflexivity|].
      destruct (stored_wf H _ _ _ W2 St2) as (e & In' & K & D & _). exists e. auto.
  Qed.

  (* "so the result can be copied": when the descriptors the caller supplied are in the target, the
     packed manifest and all its successors are -- the source-closed hypothesis of the copy theorems
     (C01) holds one level down from the new root, the rest is the caller's graph *)
  Theorem ok_closed_when_supplied_present f tc fa s at_ o now s' d m :
    Forall (fun x => stored (t_key tc) (s_store s) x = true) (supplied o) ->
    pack marshal H f tc fa s at_ o now = (s', Ok d m) ->
    stored (t_key tc) (s_store s') d = true /\
    Forall (fun x => stored (t_key tc) (s_store s') x = true) (successors m).
  Proof.
    intros Sup P. pose proof (ok_closed marshal H H_empty _ _ _ _ _ _ _ _ _ _ P) as C.
    destruct (ok_consistent marshal H H_empty _ _ _ _ _ _ _ _ _ _ P) as (ann & evs & _ & _ & _ & S & _ & St & _).
    split; [exact St|]. apply Forall_forall. intros x Ix. destruct (C x Ix) as [I | I]; auto.
    rewrite Forall_forall in Sup. eapply stored_steps; eauto.
  Qed.

  (* Repeating an earlier successful call (fixed created) after ANY other calls on a content-addressed
     target -- or at once, with no call in between -- returns what it returned then and stores nothing. *)
  Theorem history_repeat_changes_nothing tc c cs fa1 s s1 d m v sB rsB now' sC r :
    t_key tc <> KFile ->
    ann_get (created_key (c_fn c)) (o_ann (c_opts c)) = Some v ->
    pack marshal H (c_fn c) tc fa1 s (c_at c) (c_opts c) (c_now c) = (s1, Ok d m) ->
    run_calls marshal H tc None s1 cs = (sB, rsB) ->
    pack marshal H (c_fn c) tc None sB (c_at c) (c_opts c) now' = (sC, r) ->
    r = Ok d m /\ s_store sC = s_store sB.
  Proof.
    intros NF G P1 R P2.
    pose proof (ok_not_rejected marshal H H_empty _ _ _ _ _ _ _ _ _ _ P1) as MR.
    destruct (ok_consistent marshal H H_empty _ _ _ _ _ _ _ _ _ _ P1) as (ann & evs & EC & -> & -> & _ & _ & St & I).
    destruct (run_calls_steps _ _ _ _ _ _ R) as (evs2 & S2 & _).
    rewrite (ensure_created_fixed _ _ (c_now c) now' v G) in EC.
    apply (settled_call_changes_nothing marshal H H_empty (c_fn c) tc sB (c_at c) (c_opts c) now' ann sC r NF MR EC).
    - eapply stored_steps; eauto.
    - eapply Forall_impl; [|exact I]. intros x Sx. eapply stored_steps; eauto.
    - exact P2.
  Qed.

  (* On a healthy target (no fault; not a file store) the result of every call of a history is a function
     of that call's own input: it does not depend on the target's content, on the calls made before, or on
     the order in which the calls of the history are made. *)
  Definition pure_result (c : call) : result :=
    if must_reject (c_fn c) (c_at c) (c_opts c) then Err (reject_err (c_fn c) (c_at c) (c_opts c))
    else match ensure_created (o_ann (c_opts c)) (created_key (c_fn c)) (c_now c) with
         | None => Err EInvalidDateTime
         | Some ann =>
           Ok (result_desc marshal H (c_fn c) (requested_manifest H (c_fn c) (c_at c) (c_opts c) ann))
              (requested_manifest H (c_fn c) (c_at c) (c_opts c) ann)
         end.

  Lemma pack_pure_result tc s c s' r :
    t_key tc <> KFile ->
    pack marshal H (c_fn c) tc None s (c_at c) (c_opts c) (c_now c) = (s', r) -> r = pure_result c.
  Proof.
    intros NF P. unfold pure_result.
    destruct (must_reject (c_fn c) (c_at c) (c_opts c)) eqn:MR.
    - rewrite (reject_exact marshal H _ tc None s _ _ (c_now c) MR) in P. now injection P as _ <-.
    - destruct (healthy_target_classification marshal H H_empty _ _ _ _ _ _ _ _ NF P)
        as [(MR' & _) | [(_ & EC & ->) | (_ & ann & EC & ->)]]; try congruence; now rewrite EC.
  Qed.

  Theorem history_results_pure tc cs : forall s s' rs,
    t_key tc <> KFile ->
    run_calls marshal H tc None s cs = (s', rs) -> rs = map pure_result cs.
  Proof.
    induction cs as [|c cs IH]; intros s s' rs NF R.
    - now injection R as _ <-.
    - apply run_calls_cons in R as (s1 & r1 & rs1 & P & R & ->).
      cbn [map]. f_equal; [eapply pack_pure_result; eauto | eapply IH; eauto].
  Qed.

  Corollary history_order_irrelevant tc1 tc2 cs cs' s1 s2 s1' s2' rs rs' :
    t_key tc1 <> KFile -> t_key tc2 <> KFile ->
    Permutation cs cs' ->
    run_calls marshal H tc1 None s1 cs = (s1', rs) ->
    run_calls marshal H tc2 None s2 cs' = (s2', rs') ->
    Permutation rs rs' /\ (forall c r, In (c, r) (combine cs rs) -> In (c, r) (combine cs' rs')).
  Proof.
    intros N1 N2 P R1 R2.
    rewrite (history_results_pure _ _ _ _ _ N1 R1), (history_results_pure _ _ _ _ _ N2 R2).
    split; [now apply Permutation_map|].
    intros c r I. assert (E : forall l, combine l (map pure_result l) = map (fun x => (x, pure_result x)) l).
    { induction l; simpl; congruence. }
    rewrite E in *. apply in_map_iff in I as (x & Ex & Ix). apply in_map_iff. exists x. split; auto.
    eapply Permutation_in; eauto.
  Qed.

  Lemma run_calls_length tc fa cs : forall s s' rs,
    run_calls marshal H tc fa s cs = (s', rs) -> length rs = length cs.
  Proof.
    induction cs as [|c cs IH]; intros s s' rs R.
    - now injection R as <- <-.
    - apply run_calls_cons in R as (s1 & r1 & rs1 & _ & R & ->). simpl. f_equal. eapply IH; eauto.
  Qed.
End HistoryProofs.
