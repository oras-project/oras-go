(* Top-level statements of Properties/C05.v that need more than one proof step, and
   concrete witnesses. *)
From Oras Require Import Base.Prelude Model.Verify Proofs.Verify.

Definition toyH (alg data : str) : str := repeat (48 + (fold_left N.add data 0) mod 10) 64.
Definition toy_dg (data : str) : str := digest_of toyH (b "sha256") data.

Lemma file_alias_refuted :
  exists (H : str -> str -> str) dX dY s1 s2 s2' e,
    file_push H false true 20 (mkFs [] [] [] []) (b "a") (b "a") dX [Data [1;2;3]] = (None, s1) /\
    file_push H false true 20 s1 (b "./a") (b "a") dY [Data [7;7]] = (None, s2) /\
    file_fetch s1 (b "a") dX = Some [1;2;3] /\ file_fetch s2 (b "a") dX = Some [7;7] /\
    d_dg dX <> digest_of H (alg_of (d_dg dX)) [7;7] /\
    file_push H false true 20 s1 (b "./a") (b "a") dY [Data [9]] = (Some e, s2') /\
    file_exists s2' (b "a") dX = true /\ file_fetch s2' (b "a") dX = None.
Proof.
  exists toyH, (mkDesc [] (toy_dg [1;2;3]) 3), (mkDesc [] (toy_dg [7;7]) 2).
  do 3 eexists. exists EUnexpEof.
  split; [vm_compute; reflexivity|]. split; [vm_compute; reflexivity|].
  split; [vm_compute; reflexivity|]. split; [vm_compute; reflexivity|].
  split; [vm_compute; discriminate|]. split; [vm_compute; reflexivity|].
  split; vm_compute; reflexivity.
Qed.

Lemma read_all_served :
  forall (H : str -> str -> str) comb fixed fuel served dg sz buf v,
    read_all H comb fixed fuel (mkBase [Data served] None) dg sz = ((None, buf), v) ->
    buf = served /\ matches_desc H dg sz served.
Proof.
  intros H comb fixed fuel served dg sz buf v E.
  destruct (read_all_sound H comb fixed fuel _ dg sz buf v E) as (A & _ & C).
  specialize (C eq_refl eq_refl). simpl in C. rewrite app_nil_r in C. subst buf. split; [reflexivity|exact A].
Qed.

Lemma stream_serve_script c : stream (serve_script c) = c.
Proof. destruct c; simpl; auto. rewrite app_nil_r. reflexivity. Qed.

Lemma fetch_all_sound (H : str -> str -> str) fetched d b :
  fetch_all H fetched d = (None, b) ->
  fetched = Some b /\ matches_desc H (d_dg d) (d_sz d) b.
Proof.
  unfold fetch_all. destruct fetched as [c|]; [|discriminate].
  destruct (read_all H false true (S (S (S (ev_weight (serve_script c))))) (mkBase (serve_script c) None) (d_dg d) (d_sz d))
    as [[e buf] v] eqn:Er.
  simpl. intro X; inversion X; subst.
  apply read_all_sound in Er as (A & _ & C). specialize (C eq_refl).
  assert (Z0 : neof (serve_script c) = 0%nat) by (destruct c; reflexivity). specialize (C Z0). simpl in C.
  rewrite stream_serve_script in C. subst. auto.
Qed.

(* FetchAll on every store returns data only when the store serves exactly the bytes the
   descriptor names -- whatever the store holds (no reachability needed: FetchAll
   verifies again) *)
Lemma fetch_all_stores (H : str -> str -> str) :
  (forall m d b, mem_fetch_all H m d = (None, b) -> mem_get m d = Some b /\ matches_desc H (d_dg d) (d_sz d) b) /\
  (forall s d b, oci_fetch_all H s d = (None, b) -> oci_get s (d_dg d) = Some b /\ matches_desc H (d_dg d) (d_sz d) b) /\
  (forall s name d b, file_fetch_all H s name d = (None, b) ->
                      file_fetch s name d = Some b /\ matches_desc H (d_dg d) (d_sz d) b).
Proof.
  split; [|split].
  - intros m d b E. exact (fetch_all_sound H _ d b E).
  - intros s d b. unfold oci_fetch_all. destruct (negb (valid_digest (d_dg d))); [discriminate|].
    intro E. exact (fetch_all_sound H _ d b E).
  - intros s name d b E. exact (fetch_all_sound H _ d b E).
Qed.

Lemma file_exists_iff_fetch (H : str -> str -> str) s name d :
  file_ok H s -> (file_exists s name d = true <-> exists bs, file_fetch s name d = Some bs).
Proof.
  intros [Ok1 _]. unfold file_exists, file_fetch.
  assert (Core : (match assoc_get (f_d2p s) (d_dg d) with
                  | Some _ => true
                  | None => match mem_get (f_fb s) d with Some _ => true | None => false end
                  end = true) <->
                 exists bs, match assoc_get (f_d2p s) (d_dg d) with
                            | Some p => assoc_get (f_files s) p
                            | None => mem_get (f_fb s) d
                            end = Some bs).
  { destruct (assoc_get (f_d2p s) (d_dg d)) as [p|] eqn:G.
    - destruct (Ok1 _ _ G) as (bs & Fb & _). split; [intros _; exists bs; exact Fb|reflexivity].
    - destruct (mem_get (f_fb s) d) as [c|]; split; try discriminate; eauto. intros [bs X]; discriminate. }
  destruct name as [|c n0]; [exact Core|].
  destruct (name_in (c :: n0) (f_names s)); cbn [negb]; [exact Core|].
  split; [discriminate|intros [bs X]; discriminate].
Qed.

Lemma exists_iff_fetch (H : str -> str -> str) :
  (forall s d, valid_digest (d_dg d) = true ->
     (oci_exists s d = (None, true) <-> exists bs, oci_get s (d_dg d) = Some bs)) /\
  (forall s name d, file_reach H s ->
     (file_exists s name d = true <-> exists bs, file_fetch s name d = Some bs)).
Proof.
  split.
  - intros s d V. unfold oci_exists. rewrite V. cbn [negb].
    destruct (oci_get s (d_dg d)) as [c|]; split; try discriminate; eauto.
    + intros [bs X]; discriminate.
  - intros s name d R. apply (file_exists_iff_fetch H). apply file_reach_ok. exact R.
Qed.
