(* C18 -- lemmas about the credentials FileStore model (Model/CredFile.v). *)
From Coq Require Import Permutation.
From Oras Require Import Base.Prelude Generated.GC18 Model.Utf8 Model.CredFile.

Lemma str_eqb_false x y : str_eqb x y = false <-> x <> y.
Proof. rewrite <- (str_eqb_spec x y). symmetry. apply not_true_iff_false. Qed.

Lemma str_eqb_sym x y : str_eqb x y = str_eqb y x.
Proof.
  destruct (str_eqb x y) eqn:E.
  - apply str_eqb_spec in E. subst. symmetry. apply str_eqb_refl.
  - symmetry. apply str_eqb_false. apply str_eqb_false in E. congruence.
Qed.

Section AssocLemmas.
  Context {V : Type}.
  Implicit Types (l : list (str * V)).

  Lemma lookup_del_case k a l : lookup a (del k l) = if str_eqb k a then None else lookup a l.
  Proof.
    induction l as [|[k' v] l IH]; [now destruct (str_eqb k a)|].
    unfold del in *. cbn [filter fst lookup]. destruct (str_eqb k k') eqn:E; cbn [negb lookup]; rewrite IH.
    - apply str_eqb_spec in E. subst k'. rewrite (str_eqb_sym a k). now destruct (str_eqb k a).
    - destruct (str_eqb a k') eqn:E2; [|reflexivity]. apply str_eqb_spec in E2. subst k'. now rewrite E.
  Qed.

  Lemma lookup_set_case k a v l : lookup a (set k v l) = if str_eqb k a then Some v else lookup a l.
  Proof.
    unfold set. cbn [lookup]. rewrite (str_eqb_sym a k), lookup_del_case. now destruct (str_eqb k a).
  Qed.

  Lemma lookup_del_eq k l : lookup k (del k l) = None.
  Proof. now rewrite lookup_del_case, str_eqb_refl. Qed.

  Lemma lookup_del_neq k k' l : k <> k' -> lookup k' (del k l) = lookup k' l.
  Proof. intro N. now rewrite lookup_del_case, (proj2 (str_eqb_false k k') N). Qed.

  Lemma lookup_set_eq k v l : lookup k (set k v l) = Some v.
  Proof. now rewrite lookup_set_case, str_eqb_refl. Qed.

  Lemma lookup_set_neq k k' v l : k <> k' -> lookup k' (set k v l) = lookup k' l.
  Proof. intro N. now rewrite lookup_set_case, (proj2 (str_eqb_false k k') N). Qed.

  Lemma del_absent k l : lookup k l = None -> del k l = l.
  Proof.
    induction l as [|[k' v] l IH]; [reflexivity|]. unfold del in *. cbn [lookup filter fst].
    destruct (str_eqb k k'); [discriminate|]. intro H. cbn [negb]. now rewrite IH.
  Qed.

  Lemma in_del k k' v l : In (k', v) (del k l) <-> k <> k' /\ In (k', v) l.
  Proof.
    unfold del. rewrite filter_In. simpl. rewrite negb_true_iff, str_eqb_false. tauto.
  Qed.

  Lemma lookup_in k v l : lookup k l = Some v -> In (k, v) l.
  Proof.
    induction l as [|[k' v'] l IH]; simpl; [discriminate|].
    destruct (str_eqb k k') eqn:E.
    - intro H. injection H as ->. apply str_eqb_spec in E. subst. now left.
    - intro H. right. now apply IH.
  Qed.

  Lemma lookup_none_notin k l : lookup k l = None -> forall v, ~ In (k, v) l.
  Proof.
    induction l as [|[k' v'] l IH]; simpl; intros H v; [tauto|].
    destruct (str_eqb k k') eqn:E; [discriminate|].
    intros [X|X].
    - injection X as -> ->. rewrite str_eqb_refl in E. discriminate.
    - exact (IH H v X).
  Qed.

  Lemma in_lookup k v l : NoDup (map fst l) -> In (k, v) l -> lookup k l = Some v.
  Proof.
    induction l as [|[k' v'] l IH]; simpl; intros ND I; [contradiction|].
    inversion ND as [|? ? NI ND']; subst.
    destruct I as [E|I].
    - injection E as -> ->. now rewrite str_eqb_refl.
    - destruct (str_eqb k k') eqn:E; [|now apply IH].
      apply str_eqb_spec in E. subst k'. elim NI. apply in_map_iff. now exists (k, v).
  Qed.

  Lemma lookup_perm k l l' : NoDup (map fst l) -> Permutation l l' -> lookup k l' = lookup k l.
  Proof.
    intros ND P.
    assert (ND' : NoDup (map fst l')) by (eapply Permutation_NoDup; [apply Permutation_map; exact P|exact ND]).
    destruct (lookup k l) as [v|] eqn:E.
    - apply lookup_in in E. apply in_lookup; [exact ND'|]. eapply Permutation_in; eauto.
    - destruct (lookup k l') as [v|] eqn:E'; [|reflexivity]. apply lookup_in in E'.
      elim (lookup_none_notin _ _ E v). eapply Permutation_in; [apply Permutation_sym; exact P|exact E'].
  Qed.

  Lemma filter_perm (f : str * V -> bool) l l' : Permutation l l' -> Permutation (filter f l) (filter f l').
  Proof.
    induction 1; simpl.
    - constructor.
    - destruct (f x); [now constructor|assumption].
    - destruct (f x), (f y); try apply Permutation_refl. apply perm_swap.
    - eapply perm_trans; eauto.
  Qed.
End AssocLemmas.

(* the generated tables say what this development assumes about the code *)
Lemma put_guards_order :
  fileStorePut_guards = [b "DisablePut"; b "call:validateCredentialFormat"; b "utf8:serverAddress"].
Proof. reflexivity. Qed.

Lemma put_accepts_spec a c :
  put_accepts a c =
  negb (contains colon (c_user c)) && valid_utf8 a && valid_utf8 (c_refresh c) && valid_utf8 (c_access c).
Proof.
  destruct c as [u p r t].
  cbv - [contains valid_utf8].
  destruct (contains 58 u), (valid_utf8 a), (valid_utf8 r), (valid_utf8 t); reflexivity.
Qed.

Lemma put_accepts_true a c :
  put_accepts a c = true ->
  contains colon (c_user c) = false /\
  valid_utf8 a = true /\ valid_utf8 (c_refresh c) = true /\ valid_utf8 (c_access c) = true.
Proof. rewrite put_accepts_spec, !andb_true_iff, negb_true_iff. tauto. Qed.

(* the order of the effects the models assume, as it stands in the source (kind callseq):
   saveFile = MkdirAll, Ingest, [deferred Remove], Rename; Ingest = CreateTemp, [deferred
   Close, Remove], Chmod, Copy; every operation takes its lock first, releases it by a
   deferred call, and a writer saves inside it *)
Lemma call_orders :
  calls_saveFile = [b "os.MkdirAll"; b "ioutil.Ingest"; b "os.Remove"; b "os.Rename"] /\
  calls_Ingest = [b "os.CreateTemp"; b "tempFile.Close"; b "os.Remove"; b "tempFile.Chmod"; b "io.Copy"] /\
  calls_PutCredential = [b "cfg.rwLock.Lock"; b "cfg.rwLock.Unlock"; b "json.Marshal"; b "cfg.saveFile"] /\
  calls_DeleteCredential = [b "cfg.rwLock.Lock"; b "cfg.rwLock.Unlock"; b "cfg.saveFile"] /\
  calls_SetCredentialsStore = [b "cfg.rwLock.Lock"; b "cfg.rwLock.Unlock"; b "cfg.saveFile"] /\
  calls_GetCredential = [b "cfg.rwLock.RLock"; b "cfg.rwLock.RUnlock"; b "json.Unmarshal"] /\
  calls_IsAuthConfigured = [b "cfg.rwLock.RLock"; b "cfg.rwLock.RUnlock"] /\
  calls_getHelperSuffix = [b "ds.config.GetCredentialHelper"; b "ds.config.CredentialsStore"].
Proof. repeat split; reflexivity. Qed.

Lemma to_hostname_spec addr :
  to_hostname addr = cut_before slash (trim_prefix (b "https://") (trim_prefix (b "http://") addr)).
Proof. reflexivity. Qed.

Definition writes (a : str) (o : op) : Prop :=
  match o with
  | Get _ => False
  | Put a' _ => a' = a
  | Delete a' => a' = a
  | SetCs _ => False
  end.

Definition is_setcs (o : op) : Prop := match o with SetCs _ => True | _ => False end.

Definition file_top (k : str) (f : option fdoc) : option tval :=
  match f with Some d => lookup k d | None => None end.

Definition file_entry (a : str) (f : option fdoc) : option entry :=
  match file_top configFieldAuths f with
  | Some (TAuths l) => lookup a l
  | _ => None
  end.

Definition cache_of (st : state) := m_cache (st_mem st).

Section Proofs.
  Variable b64enc : str -> str.
  Variable b64dec : str -> option str.
  (* [b64ok]: the strings the codec is specified on (byte strings for the concrete codec) *)
  Variable b64ok : str -> Prop.
  Hypothesis b64_roundtrip : forall s, b64ok s -> b64dec (b64enc s) = Some s.
  Hypothesis b64_nonempty : forall s, b64enc s = [] -> s = [].

  Notation step := (step b64enc b64dec).
  Notation run := (run b64enc b64dec).
  Notation get_candidates := (get_candidates b64dec).
  Notation get_cache := (get_cache b64dec).
  Notation cred_of_entry := (cred_of_entry b64dec).
  Notation entry_of_cred := (entry_of_cred b64enc).

  (* encodeAuth / decodeAuth / AuthConfig.Credential *)
  Lemma codec_roundtrip c :
    contains colon (c_user c) = false ->
    b64ok (c_user c ++ colon :: c_pass c) ->
    cred_of_entry (entry_of_cred c) = RCred c.
  Proof.
    intros NC OK. destruct c as [u p r a]. cbn [c_user c_pass] in *.
    assert (D : cred_of_fields b64dec (b64enc (u ++ colon :: p)) r a [] [] =
                RCred {| c_user := u; c_pass := p; c_refresh := r; c_access := a |}).
    { unfold cred_of_fields, decode_auth.
      destruct (b64enc (u ++ colon :: p)) eqn:EE; [apply b64_nonempty in EE; now destruct u|].
      now rewrite <- EE, (b64_roundtrip _ OK), (index_of_app_fresh colon u p NC), firstn_app_exact, skipn_S_app. }
    unfold CredFile.entry_of_cred, CredFile.cred_of_entry, encode_auth. cbn [c_user c_pass c_refresh c_access].
    destruct u, p; [reflexivity|exact D..].
  Qed.

  Lemma candidates_single cache a r : get_candidates cache a = [r] -> get_cache cache a = r.
  Proof.
    unfold CredFile.get_cache, CredFile.get_candidates. destruct (lookup a cache); [congruence|].
    destruct (legacy_matches a cache) as [|[k e] l]; cbn [map snd]; congruence.
  Qed.

  Lemma candidates_exact cache a e :
    lookup a cache = Some e -> get_candidates cache a = [cred_of_entry e].
  Proof. intro H. unfold CredFile.get_candidates. now rewrite H. Qed.

  Lemma candidates_none cache a :
    lookup a cache = None ->
    (forall k e, In (k, e) cache -> to_hostname k <> a) ->
    get_candidates cache a = [RCred empty_cred].
  Proof.
    intros H L. unfold CredFile.get_candidates. rewrite H.
    destruct (legacy_matches a cache) as [|[k e] l] eqn:E; [reflexivity|].
    assert (I : In (k, e) (legacy_matches a cache)) by (rewrite E; now left).
    apply filter_In in I as [I T]. apply str_eqb_spec in T. elim (L k e I T).
  Qed.

  (* Go's map iteration order: [get_candidates] is exactly the set of answers
     GetCredential can give over all orders of the (key-unique) cache *)
  Lemma candidates_all_orders cache a r :
    NoDup (map fst cache) ->
    (In r (get_candidates cache a) <->
     exists cache', Permutation cache cache' /\ get_cache cache' a = r).
  Proof.
    intro ND. unfold CredFile.get_candidates. split.
    - destruct (lookup a cache) as [e|] eqn:L.
      + intros [<-|[]]. exists cache. split; [apply Permutation_refl|].
        unfold CredFile.get_cache. now rewrite L.
      + destruct (legacy_matches a cache) as [|kv l] eqn:M.
        * intros [<-|[]]. exists cache. split; [apply Permutation_refl|].
          unfold CredFile.get_cache. now rewrite L, M.
        * intro I. apply in_map_iff in I as ([k e] & <- & I). rewrite <- M in I.
          unfold legacy_matches in I. apply filter_In in I as [IC T]. cbn [fst] in T.
          destruct (in_split _ _ IC) as (l1 & l2 & ->).
          exists ((k, e) :: l1 ++ l2). split; [apply Permutation_sym, Permutation_middle|].
          unfold CredFile.get_cache.
          rewrite (lookup_perm a _ _ ND (Permutation_sym (Permutation_middle l1 l2 (k, e)))), L.
          unfold legacy_matches. cbn [filter fst]. rewrite T. reflexivity.
    - intros (cache' & P & <-). unfold CredFile.get_cache.
      rewrite (lookup_perm a _ _ ND P).
      destruct (lookup a cache) as [e|] eqn:L; [now left|].
      pose proof (filter_perm (fun kv => str_eqb (to_hostname (fst kv)) a) _ _ P) as PF.
      fold (legacy_matches a cache) in PF. fold (legacy_matches a cache') in PF.
      destruct (legacy_matches a cache') as [|[k e] l'] eqn:M'.
      + apply Permutation_sym, Permutation_nil in PF. rewrite PF. now left.
      + assert (I : In (k, e) (legacy_matches a cache)).
        { eapply Permutation_in; [apply Permutation_sym; exact PF|now left]. }
        destruct (legacy_matches a cache) as [|kv l]; [contradiction|].
        apply in_map_iff. now exists (k, e).
  Qed.

  Lemma step_get st a : step st (Get a) = (st, get_cache (cache_of st) a).
  Proof. reflexivity. Qed.

  Lemma get_pure st a : fst (step st (Get a)) = st.
  Proof. reflexivity. Qed.

  Lemma put_accepts_colon a c : put_accepts a c = true -> contains colon (c_user c) = false.
  Proof. intro H. apply (put_accepts_true a c H). Qed.

  Lemma put_refused st a c :
    put_accepts a c = false -> step st (Put a c) = (st, RErrBadCred).
  Proof. intro H. cbn [CredFile.step]. now rewrite H. Qed.

  Lemma colon_refused st a c :
    contains colon (c_user c) = true -> step st (Put a c) = (st, RErrBadCred).
  Proof. intro H. apply put_refused. rewrite put_accepts_spec. now rewrite H. Qed.

  Definition updated (m : mem) (o : op) : mem :=
    {| m_content := m_content m;
       m_cache := match o with
                  | Put a c => set a (entry_of_cred c) (m_cache m)
                  | Delete a => del a (m_cache m)
                  | _ => m_cache m
                  end;
       m_cs := match o with SetCs s => s | _ => m_cs m end |}.

  Lemma step_saves st o : fst (step st o) = if saves st o then save (updated (st_mem st) o) else st.
  Proof.
    destruct o as [a|a c|a|s]; cbn [CredFile.step saves]; [reflexivity| | |reflexivity].
    - now destruct (put_accepts a c).
    - now destruct (lookup a (m_cache (st_mem st))).
  Qed.

  (* the cache after an operation (a Delete that finds nothing deletes nothing) *)
  Lemma step_cache st o :
    cache_of (fst (step st o)) =
    match o with
    | Put a c => if put_accepts a c then set a (entry_of_cred c) (cache_of st) else cache_of st
    | Delete a => del a (cache_of st)
    | _ => cache_of st
    end.
  Proof.
    rewrite step_saves. unfold cache_of. destruct o as [a|a c|a|s]; cbn [saves]; [reflexivity| | |reflexivity].
    - now destruct (put_accepts a c).
    - destruct (lookup a (m_cache (st_mem st))) eqn:E; [reflexivity|]. symmetry. now apply del_absent.
  Qed.

  Lemma run_inv (P : state -> Prop) h : forall st,
    (forall st' o, In o h -> P st' -> P (fst (step st' o))) -> P st -> P (run st h).
  Proof.
    induction h as [|o h IH]; intros st S H; [exact H|].
    apply IH; [intros st' o' I; apply S; now right|apply S; [now left|exact H]].
  Qed.

  Definition is_get (o : op) : Prop := match o with Get _ => True | _ => False end.

  Lemma gets_pure h : forall st, Forall is_get h -> run st h = st.
  Proof.
    intros st F. apply (run_inv (fun st' => st' = st)); [|reflexivity].
    intros st' o I ->. apply (proj1 (Forall_forall _ _) F) in I. now destruct o.
  Qed.

  Lemma run_cache_untouched h st a :
    (forall o, In o h -> ~ writes a o) ->
    lookup a (cache_of (run st h)) = lookup a (cache_of st).
  Proof.
    intro NW. apply (run_inv (fun st' => lookup a (cache_of st') = lookup a (cache_of st))); [|reflexivity].
    intros st' o I <-. apply NW in I. rewrite step_cache.
    destruct o as [|a' c| |]; [reflexivity| |now apply lookup_del_neq|reflexivity].
    destruct (put_accepts a' c); [now apply lookup_set_neq|reflexivity].
  Qed.

  (* C18_roundtrip *)
  Lemma roundtrip st a c h :
    put_accepts a c = true ->
    b64ok (c_user c ++ colon :: c_pass c) ->
    (forall o, In o h -> ~ writes a o) ->
    snd (step st (Put a c)) = ROk /\
    get_candidates (cache_of (run (fst (step st (Put a c))) h)) a = [RCred c] /\
    snd (step (run (fst (step st (Put a c))) h) (Get a)) = RCred c.
  Proof.
    intros ACC OK NW.
    assert (G : get_candidates (cache_of (run (fst (step st (Put a c))) h)) a = [RCred c]).
    { rewrite <- (codec_roundtrip c (put_accepts_colon a c ACC) OK). apply candidates_exact.
      rewrite run_cache_untouched, step_cache, ACC by exact NW. apply lookup_set_eq. }
    split; [cbn [CredFile.step]; now rewrite ACC|]. split; [exact G|].
    rewrite step_get. now apply candidates_single.
  Qed.

  Definition cs_value (s : str) : option tval :=
    match s with [] => None | _ => Some (TCs s) end.

  Lemma saved_doc_other m k :
    k <> configFieldAuths -> k <> configFieldCredentialsStore ->
    lookup k (saved_doc m) = lookup k (m_content m).
  Proof.
    intros N1 N2. unfold saved_doc. rewrite lookup_set_neq by congruence.
    destruct (m_cs m); [apply lookup_del_neq|apply lookup_set_neq]; congruence.
  Qed.

  Lemma saved_doc_auths m : lookup configFieldAuths (saved_doc m) = Some (TAuths (m_cache m)).
  Proof. unfold saved_doc. apply lookup_set_eq. Qed.

  Lemma saved_doc_cs m : lookup configFieldCredentialsStore (saved_doc m) = cs_value (m_cs m).
  Proof.
    unfold saved_doc. rewrite lookup_set_neq by discriminate.
    destruct (m_cs m); [apply lookup_del_eq|apply lookup_set_eq].
  Qed.

  Lemma save_entry m a : file_entry a (st_file (save m)) = lookup a (m_cache m).
  Proof. unfold file_entry, file_top. cbn [save st_file]. now rewrite saved_doc_auths. Qed.

  (* C18_delete_local *)
  Lemma delete_local st a :
    let st' := fst (step st (Delete a)) in
    snd (step st (Delete a)) = ROk /\
    lookup a (cache_of st') = None /\
    (forall a', a' <> a -> lookup a' (cache_of st') = lookup a' (cache_of st)) /\
    (lookup a (cache_of st) = None -> st' = st) /\
    (lookup a (cache_of st) <> None ->
       file_top configFieldAuths (st_file st') = Some (TAuths (cache_of st')) /\
       file_entry a (st_file st') = None /\
       forall a', a' <> a -> file_entry a' (st_file st') = lookup a' (cache_of st)).
  Proof.
    cbv zeta. rewrite step_cache.
    split; [cbn [CredFile.step]; now destruct (lookup a (m_cache (st_mem st)))|]. split; [apply lookup_del_eq|].
    split; [intros a' N; apply lookup_del_neq; congruence|].
    rewrite step_saves. cbn [saves]. unfold cache_of.
    destruct (lookup a (m_cache (st_mem st))); [|split; [reflexivity|intro X; now elim X]].
    split; [discriminate|]. intros _. rewrite !save_entry. cbn [updated m_cache].
    split; [apply saved_doc_auths|]. split; [apply lookup_del_eq|].
    intros a' N. apply lookup_del_neq. congruence.
  Qed.

  Lemma delete_then_get st a :
    (forall k e, In (k, e) (cache_of st) -> k <> a -> to_hostname k <> a) ->
    get_candidates (cache_of (fst (step st (Delete a)))) a = [RCred empty_cred].
  Proof.
    intro L. apply candidates_none; rewrite step_cache; [apply lookup_del_eq|].
    intros k e I. apply in_del in I as [NE I]. apply (L k e I). congruence.
  Qed.

  (* [st] descends from [st0]: credsStore and every foreign top-level key are
     untouched in memory, and the file either still is the one [st0] saw or is
     exactly the in-memory document with the current cache as its auths *)
  Definition descends (st0 st : state) : Prop :=
    (forall k, k <> configFieldAuths -> k <> configFieldCredentialsStore ->
               lookup k (m_content (st_mem st)) = lookup k (m_content (st_mem st0))) /\
    (st = st0 \/
     st_file st = Some (m_content (st_mem st)) /\
     lookup configFieldAuths (m_content (st_mem st)) = Some (TAuths (cache_of st)) /\
     lookup configFieldCredentialsStore (m_content (st_mem st)) = cs_value (m_cs (st_mem st))).

  Lemma run_descends h st0 : descends st0 (run st0 h).
  Proof.
    apply run_inv; [|split; [reflexivity|now left]].
    intros st o _ D. rewrite step_saves. destruct (saves st o); [|exact D]. destruct D as [O _].
    unfold descends, cache_of. cbn [save st_mem st_file m_content m_cache m_cs]. split.
    - intros k N1 N2. rewrite saved_doc_other by assumption. now apply O.
    - right. split; [reflexivity|]. split; [apply saved_doc_auths|apply saved_doc_cs].
  Qed.

  Lemma open_store_spec f st0 :
    open_store f = Some st0 ->
    st_file st0 = f /\
    (forall k, lookup k (m_content (st_mem st0)) = file_top k f) /\
    (forall a, lookup a (cache_of st0) = file_entry a f) /\
    (forall s, file_top configFieldCredentialsStore f = Some (TCs s) -> m_cs (st_mem st0) = s) /\
    helpers_ok (m_content (st_mem st0)) = true.
  Proof.
    unfold open_store. destruct f as [d|].
    - unfold load_doc. destruct (cs_ok d), (helpers_ok d) eqn:HOK, (auths_ok d); try discriminate.
      intro H. injection H as <-. unfold cache_of, file_entry, file_top. simpl.
      repeat split; [|now intros s ->|exact HOK].
      intro a. destruct (lookup configFieldAuths d) as [[| |]|]; reflexivity.
    - intro H. injection H as <-. repeat split. discriminate.
  Qed.

  Lemma step_cs_untouched st o : ~ is_setcs o -> m_cs (st_mem (fst (step st o))) = m_cs (st_mem st).
  Proof.
    intro N. rewrite step_saves. destruct (saves st o); [|reflexivity].
    destruct o; [reflexivity..|now elim N].
  Qed.

  Lemma setcs_step st s :
    let st' := fst (step st (SetCs s)) in
    snd (step st (SetCs s)) = ROk /\
    cache_of st' = cache_of st /\
    file_top configFieldCredentialsStore (st_file st') = cs_value s /\
    file_top configFieldAuths (st_file st') = Some (TAuths (cache_of st)) /\
    (forall k, k <> configFieldAuths -> k <> configFieldCredentialsStore ->
               file_top k (st_file st') = lookup k (m_content (st_mem st))).
  Proof.
    cbn [step fst snd save st_file file_top cache_of st_mem m_cache].
    split; [reflexivity|]. split; [reflexivity|].
    split; [exact (saved_doc_cs _)|]. split; [exact (saved_doc_auths _)|exact (saved_doc_other _)].
  Qed.

  Lemma preserves_rest f st0 h :
    open_store f = Some st0 ->
    let stf := run st0 h in
    (forall k, k <> configFieldAuths -> k <> configFieldCredentialsStore ->
               file_top k (st_file stf) = file_top k f) /\
    ((forall o, In o h -> ~ is_setcs o) ->
     forall s, s <> [] -> file_top configFieldCredentialsStore f = Some (TCs s) ->
               file_top configFieldCredentialsStore (st_file stf) = Some (TCs s)) /\
    (forall a, (forall o, In o h -> ~ writes a o) ->
               file_entry a (st_file stf) = file_entry a f).
  Proof.
    intros OP. cbv zeta. destruct (open_store_spec f st0 OP) as (F0 & T0 & E0 & C0 & _).
    destruct (run_descends h st0) as (OT & [SAME|(FE & AE & CE)]).
    { rewrite SAME, F0. repeat split; auto. }
    split; [|split].
    - intros k N1 N2. rewrite FE. simpl. rewrite OT by assumption. apply T0.
    - intros NS s NE TC. rewrite FE. simpl. rewrite CE.
      replace (m_cs (st_mem (run st0 h))) with s; [now destruct s|]. rewrite <- (C0 s TC). symmetry.
      apply (run_inv (fun st => m_cs (st_mem st) = m_cs (st_mem st0))); [|reflexivity].
      intros st o I E. now rewrite step_cs_untouched by auto.
    - intros a NW. unfold file_entry at 1. rewrite FE. simpl. rewrite AE.
      rewrite run_cache_untouched by exact NW. apply E0.
  Qed.

  Lemma step_io_failed st o :
    saves st o = true -> step_io b64enc b64dec true st o = (st, RErrIO).
  Proof. intro S. unfold step_io. now rewrite S. Qed.

  Lemma step_io_unaffected io st o :
    io = false \/ saves st o = false -> step_io b64enc b64dec io st o = step st o.
  Proof. intros [->|S]; unfold step_io; [reflexivity|]. rewrite S. now rewrite andb_false_r. Qed.

  (* before the fix the failed Put stayed visible: Get answers the credential whose
     Put reported an error (and the next successful save writes it) *)
  Lemma step_io_prefix_visible :
    exists st o a,
      snd (step_io_prefix b64enc b64dec true st o) = RErrIO /\
      get_candidates (cache_of (fst (step_io_prefix b64enc b64dec true st o))) a <>
      get_candidates (cache_of st) a.
  Proof.
    exists {| st_mem := empty_mem; st_file := None |},
           (Put [97] {| c_user := []; c_pass := []; c_refresh := [116]; c_access := [] |}), [97].
    split; [reflexivity|]. vm_compute. discriminate.
  Qed.

  Notation fs_step := (fs_step b64enc b64dec).
  Notation fs_run := (fs_run b64enc b64dec).

  Lemma fs_run_enabled h : forall st, fs_run false st h = run st h.
  Proof. induction h as [|o h IH]; intro st; [reflexivity|]. destruct o; apply IH. Qed.

  Lemma put_disabled st a c : fs_step true st (Put a c) = (st, RErrPutDisabled).
  Proof. reflexivity. Qed.

  Definition not_put (o : op) : bool := match o with Put _ _ => false | _ => true end.

  Lemma fs_run_disabled h : forall st, fs_run true st h = run st (filter not_put h).
  Proof.
    induction h as [|o h IH]; intro st; [reflexivity|].
    destruct o as [a|a c|a|s']; simpl; now rewrite IH.
  Qed.

  Lemma step_cache_shrinks st o a e :
    not_put o = true ->
    lookup a (cache_of (fst (step st o))) = Some e -> lookup a (cache_of st) = Some e.
  Proof.
    intro NP. rewrite step_cache. destruct o as [a'|a' c|a'|s']; [trivial|discriminate| |trivial].
    rewrite lookup_del_case. now destruct (str_eqb a' a).
  Qed.

  (* with DisablePut every auths entry in the file after any history is an entry
     the opened document already had, unchanged *)
  Lemma disable_put_no_new_entry f st0 h a e :
    open_store f = Some st0 ->
    file_entry a (st_file (fs_run true st0 h)) = Some e -> file_entry a f = Some e.
  Proof.
    intros OP FE. rewrite fs_run_disabled in FE.
    destruct (open_store_spec f st0 OP) as (F0 & _ & E0 & _).
    destruct (run_descends (filter not_put h) st0) as (_ & [SAME|(FEQ & AE & _)]).
    - rewrite SAME, F0 in FE. exact FE.
    - unfold file_entry in FE at 1. rewrite FEQ in FE. simpl in FE. rewrite AE in FE.
      rewrite <- E0. revert FE.
      apply (run_inv (fun st => lookup a (cache_of st) = Some e -> lookup a (cache_of st0) = Some e)); [|trivial].
      intros st o I S L. apply filter_In in I as [_ NP]. exact (S (step_cache_shrinks st o a e NP L)).
  Qed.

  (* on plain host addresses the FileStore is the in-memory Store *)
  Definition plain (a : str) : Prop := to_hostname a = a.
  Definition good (c : cred) : Prop :=
    contains colon (c_user c) = false /\ b64ok (c_user c ++ colon :: c_pass c).
  Definition good_op (o : op) : Prop :=
    plain (op_addr o) /\ match o with Put _ c => b64ok (c_user c ++ colon :: c_pass c) | _ => True end.

  (* the file store's cache is the map, entry by entry, and holds plain keys only *)
  Definition sim (st : state) (m : list (str * cred)) : Prop :=
    (forall k e, In (k, e) (cache_of st) -> plain k) /\
    (forall a, lookup a (cache_of st) = option_map entry_of_cred (lookup a m)) /\
    (forall a c, lookup a m = Some c -> good c).

  Lemma sim_get st m a :
    sim st m -> plain a ->
    get_candidates (cache_of st) a = [RCred (match lookup a m with Some c => c | None => empty_cred end)].
  Proof.
    intros (PK & LK & GD) PA. destruct (lookup a m) as [c|] eqn:L.
    - rewrite (candidates_exact _ _ (entry_of_cred c)); [|now rewrite LK, L].
      destruct (GD a c L) as [NC OK]. now rewrite codec_roundtrip.
    - apply candidates_none; [now rewrite LK, L|].
      intros k e I H. pose proof (PK k e I) as PKK. unfold plain in PKK. rewrite PKK in H. subst k.
      apply (lookup_none_notin a (cache_of st)) in I; [exact I|now rewrite LK, L].
  Qed.

  Lemma sim_step st m o :
    sim st m -> good_op o ->
    snd (step st o) = snd (mem_step m o) /\ sim (fst (step st o)) (fst (mem_step m o)).
  Proof.
    intros S (PA & OKO). pose proof S as (PK & LK & GD). unfold sim. rewrite step_cache.
    destruct o as [a|a c|a|s']; cbn [op_addr] in PA; [| | |split; [reflexivity|exact S]].
    - split; [|exact S]. rewrite step_get. apply candidates_single. now apply sim_get.
    - cbn [mem_step CredFile.step]. destruct (put_accepts a c) eqn:ACC; cbn [negb fst snd]; [|split; [reflexivity|exact S]].
      split; [reflexivity|]. split; [|split].
      + intros k e [E|I]; [injection E as <- _; exact PA|]. apply in_del in I as [_ I]. now apply (PK k e).
      + intro a'. rewrite !lookup_set_case, LK. now destruct (str_eqb a a').
      + intros a' c' L. rewrite lookup_set_case in L. destruct (str_eqb a a'); [|now apply (GD a')].
        injection L as <-. split; [now apply (put_accepts_colon a)|exact OKO].
    - cbn [mem_step fst snd]. split; [exact (proj1 (delete_local st a))|]. split; [|split].
      + intros k e I. apply in_del in I as [_ I]. now apply (PK k e).
      + intro a'. rewrite !lookup_del_case, LK. now destruct (str_eqb a a').
      + intros a' c' L. rewrite lookup_del_case in L. destruct (str_eqb a a'); [discriminate|]. now apply (GD a').
  Qed.

  Lemma refines_memory_store h : forall st m,
    sim st m -> Forall good_op h ->
    map fst (run_obs b64enc b64dec st h) = mem_results m h.
  Proof.
    induction h as [|o h IH]; intros st m S F; [reflexivity|].
    inversion F as [|? ? GO F']; subst.
    destruct (sim_step st m o S GO) as [R S'].
    cbn [run_obs mem_results]. destruct (step st o) as [st' r] eqn:E. cbn [map fst]. cbn [fst snd] in *.
    rewrite R. f_equal. now apply IH.
  Qed.

  Lemma sim_empty f : sim {| st_mem := empty_mem; st_file := f |} [].
  Proof. split; [intros k e []|]. split; [reflexivity|discriminate]. Qed.

  Notation ds_step := (ds_step b64enc b64dec).
  Notation ds_run := (ds_run b64enc b64dec).

  Lemma ds_native_untouched allow helpers st o h :
    ds_route helpers st (op_addr o) = Some h -> (forall s, o <> SetCs s) ->
    ds_step allow helpers st o = (st, RNative).
  Proof. intros R NS. destruct o as [a|a c|a|s]; cbn [CredFile.ds_step op_addr] in *; try now rewrite R. now elim (NS s). Qed.

  (* with no credential helper and no credsStore configured, the DynamicStore IS the file
     store with DisablePut = not AllowPlaintextPut, over every history of Get/Put/Delete *)
  Definition dyn_op (o : op) : Prop := match o with SetCs _ => False | _ => True end.

  Lemma ds_step_file allow helpers st o :
    (forall a, helper_of helpers a = []) ->
    m_cs (st_mem st) = [] -> dyn_op o ->
    ds_step allow helpers st o = fs_step (negb allow) st o.
  Proof.
    intros NH CS D. destruct o as [a|a c|a|s]; cbn [CredFile.ds_step]; try contradiction;
      unfold ds_route; rewrite (NH a), CS; reflexivity.
  Qed.

  Lemma fs_step_cs dp st o : dyn_op o -> m_cs (st_mem (fst (fs_step dp st o))) = m_cs (st_mem st).
  Proof.
    intro D. assert (N : ~ is_setcs o) by (now destruct o).
    destruct o; try exact (step_cs_untouched st _ N). now destruct dp; [|apply step_cs_untouched].
  Qed.

  Lemma ds_run_file allow helpers h : forall st,
    (forall a, helper_of helpers a = []) ->
    m_cs (st_mem st) = [] -> Forall dyn_op h ->
    ds_run allow helpers st h = fs_run (negb allow) st h.
  Proof.
    induction h as [|o h IH]; intros st NH CS F; [reflexivity|].
    inversion F as [|? ? D F']; subst. cbn [CredFile.ds_run CredFile.fs_run].
    rewrite (ds_step_file allow helpers st o NH CS D).
    apply IH; [exact NH| |exact F']. rewrite fs_step_cs by exact D. exact CS.
  Qed.

  Lemma reopen f st0 h :
    open_store f = Some st0 ->
    exists st1, open_store (st_file (run st0 h)) = Some st1 /\
                cache_of st1 = cache_of (run st0 h) /\
                m_cs (st_mem st1) = m_cs (st_mem (run st0 h)).
  Proof.
    intros OP. destruct (open_store_spec f st0 OP) as (F0 & _ & _ & _ & HOK).
    destruct (run_descends h st0) as (OT & [SAME|(FE & AE & CE)]).
    - exists st0. rewrite SAME, F0. auto.
    - unfold helpers_ok in HOK. rewrite <- OT in HOK by discriminate.
      rewrite FE. unfold open_store, load_doc, cs_ok, auths_ok, helpers_ok, cache_of. rewrite AE, CE, HOK.
      destruct (m_cs (st_mem (run st0 h))); eexists; repeat split.
  Qed.
End Proofs.

(* reading the file: lossy decoding of keys (known finding lone-surrogate) *)
Lemma sanitize_fuel_valid n : forall s, valid_fuel n s = true -> sanitize_fuel n s = s.
Proof.
  induction n as [|n IH]; intros [|c r] V; try reflexivity; try discriminate.
  cbn [valid_fuel] in V. cbn [sanitize_fuel].
  destruct (rune_len (c :: r)) as [k|]; [|discriminate].
  rewrite (IH _ V). apply firstn_skipn.
Qed.

Lemma sanitize_valid s : valid_utf8 s = true -> sanitize s = s.
Proof. apply sanitize_fuel_valid. Qed.

(* every string encoding/json decodes when loading the document is valid UTF-8 *)
Definition tval_utf8 (v : tval) : Prop :=
  match v with
  | TRaw _ _ => True
  | TAuths l => Forall (fun ae => valid_utf8 (fst ae) = true) l
  | TCs s => valid_utf8 s = true
  end.
Definition doc_utf8 (d : fdoc) : Prop :=
  Forall (fun kv => valid_utf8 (fst kv) = true /\ tval_utf8 (snd kv)) d.

Lemma decode_doc_utf8 d : doc_utf8 d -> decode_doc d = d.
Proof.
  induction 1 as [|[k v] d [K V] _ IH]; [reflexivity|].
  cbn [decode_doc map fst snd] in *. fold (decode_doc d). rewrite IH. f_equal. f_equal.
  - now apply sanitize_valid.
  - destruct v as [raw kd|l|cs]; cbn [decode_tval tval_utf8] in *; [reflexivity| |now rewrite sanitize_valid].
    f_equal. induction V as [|[a e] l A _ IHl]; [reflexivity|].
    cbn [map fst snd] in *. rewrite IHl. now rewrite (sanitize_valid a A).
Qed.

Lemma open_file_utf8 d : doc_utf8 d -> open_file (Some d) = open_store (Some d).
Proof.
  intro U. unfold open_file. rewrite (decode_doc_utf8 d U).
  unfold open_store. destruct (load_doc d); reflexivity.
Qed.

Definition file_utf8 (f : option fdoc) : Prop :=
  match f with Some d => doc_utf8 d | None => True end.

Lemma open_file_store f : file_utf8 f -> open_file f = open_store f.
Proof. destruct f as [d|]; [apply open_file_utf8|reflexivity]. Qed.

Section Lossy.
  Variable b64enc : str -> str.
  Variable b64dec : str -> option str.

  Lemma preserves_rest_partial f st0 h :
    file_utf8 f -> open_file f = Some st0 ->
    let stf := run b64enc b64dec st0 h in
    (forall k, k <> configFieldAuths -> k <> configFieldCredentialsStore ->
               file_top k (st_file stf) = file_top k f) /\
    ((forall o, In o h -> ~ is_setcs o) ->
     forall s, s <> [] -> file_top configFieldCredentialsStore f = Some (TCs s) ->
               file_top configFieldCredentialsStore (st_file stf) = Some (TCs s)) /\
    (forall a, (forall o, In o h -> ~ writes a o) ->
               file_entry a (st_file stf) = file_entry a f).
  Proof. intros U OP. rewrite (open_file_store f U) in OP. now apply preserves_rest. Qed.

  (* without that hypothesis it fails: a top-level key holding a lone surrogate
     escape is renamed by the first save *)
  Definition lone_key : str := [107; 237; 160; 128].        (* "k\ud800" *)
  Definition lone_doc : fdoc := [(lone_key, TRaw [49] KOther)].
  Definition lone_put : op :=
    Put [97] {| c_user := []; c_pass := []; c_refresh := [116]; c_access := [] |}.

  Lemma preserves_rest_refuted :
    exists f st0 h k,
      open_file f = Some st0 /\
      k <> configFieldAuths /\ k <> configFieldCredentialsStore /\
      file_top k f <> None /\
      file_top k (st_file (run b64enc b64dec st0 h)) = None.
  Proof.
    exists (Some lone_doc). eexists. exists [lone_put], lone_key.
    split; [vm_compute; reflexivity|].
    split; [discriminate|]. split; [discriminate|].
    split; [vm_compute; discriminate|vm_compute; reflexivity].
  Qed.
End Lossy.

(* witness of the defect fixed in config.Load *)
Lemma null_document_refuted :
  exists j cache, save_content_prefix (load_content_prefix j) cache = None.
Proof. exists JNull, []. reflexivity. Qed.

Lemma null_document_fixed :
  forall j cache, save_content_prefix (load_content j) cache <> None.
Proof. intros [|d] cache; discriminate. Qed.
