(* C05, every reader behaviour: the verifying reader is sound over ANY underlying reader
   (Model/VerifyAny.v), nested verifying readers included, and the generic definitions
   coincide with the harness-exercised model of Model/Verify.v at [base_read].  The
   invariant scheme of this file ([g_accept]) is also what Proofs/Verify.v instantiates for
   what the scripted reader conserves. *)
From Oras Require Import Base.Prelude Model.Verify Model.VerifyAny Proofs.VerifyFacts.
From Coq Require Import Lia ZArith.
Local Open Scope nat_scope.

Section AnyProofs.
  Variable H : str -> str -> str.
  Context {S : Type}.
  Variable rd : S -> nat -> rres * S.

  (* the io.Reader contract: a Read never returns more bytes than it was given room for *)
  Definition rd_ok : Prop := forall s k, length (fst (fst (rd s k))) <= k.

  Notation g_read := (g_read rd).
  Notation g_verify := (g_verify H rd).
  Notation g_run := (g_run H rd).

  Lemma g_ensure_eof_true fuel s h s' h' :
    g_ensure_eof rd fuel (s, h) = (true, (s', h')) -> h' = h.
  Proof.
    unfold g_ensure_eof.
    destruct (read_full (g_tee_read rd) fuel (s, h) 1 []) as [[acc [[]|]] [s1 h1]] eqn:E; try discriminate.
    intro X; injection X as <- <-.
    apply (read_full_eof (g_tee_read rd) (fun st st' => snd st' = snd st)) in E; [apply E| |];
      intros [s0 h0] k; unfold g_tee_read; simpl; destruct (rd s0 k) as [[bs e] s2].
    - intros st' Y; injection Y as -> _ <-. apply app_nil_r.
    - intros st1 st' Y; injection Y as -> _ <-. simpl. rewrite app_nil_r. auto.
  Qed.

  Lemma g_read_cases v k bs e v' :
    g_read v k = ((bs, e), v') ->
    g_verified v' = g_verified v /\ e = g_err v' /\
    ((bs = [] /\ g_src v' = g_src v /\ g_N v' = g_N v /\ g_hashed v' = g_hashed v /\ g_err v' <> None /\
      (g_err v' = g_err v \/ g_err v = None /\ (g_N v <= 0)%Z /\ g_err v' = Some EEof)) \/
     (g_err v = None /\ (0 < g_N v)%Z /\
      g_N v' = (g_N v - Z.of_nat (length bs))%Z /\ g_hashed v' = g_hashed v ++ bs /\
      exists e0, rd (g_src v) (clamp k (g_N v)) = ((bs, e0), g_src v') /\
        (e0 = None /\ g_err v' = None \/
         e0 = Some EEof /\ (g_N v' <= 0)%Z /\ g_err v' = Some EEof \/ ~ quiet (g_err v')))).
  Proof.
    unfold VerifyAny.g_read. destruct (g_err v) as [e0|] eqn:Ee.
    - intro E; injection E as <- <- <-. rewrite Ee. repeat split. left. repeat split; auto. discriminate.
    - destruct (Z.leb_spec (g_N v) 0).
      + intro E; injection E as <- <- <-. repeat split. left. repeat split; auto. discriminate.
      + destruct (rd (g_src v) (clamp k (g_N v))) as [[bs0 [e0|]] s1] eqn:Eb;
          intro E; injection E as <- <- <-; repeat split; right; repeat split; auto;
          eexists; (split; [reflexivity|]); auto.
        cbn [g_set_err g_err g_N]. destruct e0; cbn [is_eof andb]; try (right; right; intros [X|X]; discriminate X).
        destruct (Z.gtb_spec (g_N v - Z.of_nat (length bs0)) 0); [right; right; intros [X|X]; discriminate X|auto].
  Qed.

  Lemma g_verify_cases fuel dg v r v' :
    g_verify fuel dg v = (r, v') ->
    (v' = v /\ (r = None -> g_verified v = true)) \/
    (g_verified v' = false /\ ~ quiet (g_err v') /\ r <> None) \/
    (r = None /\ g_verified v = false /\ quiet (g_err v) /\ (g_err v = None -> (g_N v <= 0)%Z) /\
     verified H dg (g_hashed v) = true /\
     exists s', g_ensure_eof rd fuel (g_src v, g_hashed v) = (true, (s', g_hashed v)) /\
                v' = mkG s' (g_N v) (g_hashed v) (Some EEof) true).
  Proof.
    unfold VerifyAny.g_verify. destruct (g_verified v) eqn:V.
    { intro E; injection E as <- <-. auto. }
    destruct (match g_err v with None => if (g_N v >? 0)%Z then Some EEarly else None
                            | Some EEof => None | Some e => Some e end) as [e|] eqn:Stop.
    { intro E; injection E as <- <-. left. split; [reflexivity|discriminate]. }
    assert (Q : quiet (g_err v) /\ (g_err v = None -> (g_N v <= 0)%Z)).
    { destruct (g_err v) as [[]|]; try discriminate Stop.
      - split; [right; reflexivity|discriminate].
      - destruct (Z.gtb_spec (g_N v) 0); [discriminate Stop|]. split; [left; reflexivity|auto]. }
    assert (D : forall (s : S) N h e0 x, x <> EEof ->
              g_verified (g_set_err (mkG s N h e0 false) x) = false /\
              ~ quiet (g_err (g_set_err (mkG s N h e0 false) x)) /\ Some x <> None).
    { intros s N h e0 x Nx. split; [reflexivity|]. split; [|discriminate]. intros [X|X]; inversion X; auto. }
    destruct (g_ensure_eof rd fuel (g_src v, g_hashed v)) as [[] [s' h']] eqn:Ee; cbn [negb].
    - pose proof (g_ensure_eof_true _ _ _ _ _ Ee) as ->.
      destruct (verified H dg (g_hashed v)) eqn:Vf; intro E; injection E as <- <-.
      + right; right. destruct Q. repeat split; auto. eauto.
      + right; left. apply D. discriminate.
    - intro E; injection E as <- <-. right; left. apply D. discriminate.
  Qed.

  (* [P v out] is kept by Read (out = the bytes handed out), says nothing of a reader in an error
     state, and at an accepting Verify gives [F out]: then whatever the caller does (any
     sequence of Read(k) and Verify), once a Verify has answered nil, [F out] holds *)
  Section RunInv.
    Variables (fuel : nat) (dg : str) (P : gvr (S := S) -> str -> Prop) (F : str -> Prop).
    Hypothesis P_read : forall v out k bs e v', P v out -> g_read v k = ((bs, e), v') -> P v' (out ++ bs).
    Hypothesis P_dead : forall v out, g_verified v = false -> ~ quiet (g_err v) -> P v out.
    Hypothesis P_nil : forall v out s', P v out -> g_verified v = false -> quiet (g_err v) ->
      (g_err v = None -> (g_N v <= 0)%Z) -> verified H dg (g_hashed v) = true ->
      g_ensure_eof rd fuel (g_src v, g_hashed v) = (true, (s', g_hashed v)) -> F out.

    Let R v out := (g_verified v = false /\ P v out) \/ (g_verified v = true /\ g_err v = Some EEof /\ F out).

    Lemma g_verify_R v out r v' :
      R v out -> g_verify fuel dg v = (r, v') -> R v' out /\ (r = None -> g_verified v' = true).
    Proof.
      intros [[V Pv]|(V & Ee & Fo)] E.
      - apply g_verify_cases in E as [(-> & N)|[(V' & Q & N)|(-> & _ & Q & N0 & Vf & s' & Ee & ->)]].
        + split; [left; auto|exact N].
        + split; [left; auto|]. intro X. destruct (N X).
        + split; [right; eauto|reflexivity].
      - unfold VerifyAny.g_verify in E. rewrite V in E. injection E as <- <-. split; [right|]; auto.
    Qed.

    Lemma g_run_R ops : forall v out oks v' out' oks',
      R v out -> g_run fuel dg ops v out oks = (v', out', oks') ->
      R v' out' /\ oks <= oks' /\ (oks < oks' \/ g_verified v = true -> g_verified v' = true).
    Proof.
      induction ops as [|[k|] r IH]; intros v out oks v' out' oks' Rv; simpl.
      - intro E; injection E as <- <- <-. split; [exact Rv|]. split; [lia|]. intros [L|V]; [lia|exact V].
      - destruct (g_read v k) as [[bs e] v1] eqn:Er. pose proof (g_read_cases _ _ _ _ _ Er) as (V1 & _).
        intro E. apply IH in E as (R2 & L & V2); [rewrite V1 in V2; auto|].
        destruct Rv as [[V Pv]|(V & Ee & Fo)].
        + left. split; [congruence|eapply P_read; eauto].
        + unfold VerifyAny.g_read in Er. rewrite Ee in Er. injection Er as <- _ <-. rewrite app_nil_r. right; auto.
      - destruct (g_verify fuel dg v) as [e v1] eqn:Ev. destruct (g_verify_R _ _ _ _ Rv Ev) as [R1 V1].
        intro E. apply IH in E as (R2 & L & V2); [|exact R1]. split; [exact R2|].
        assert (Vv : g_verified v = true -> e = None).
        { intro V. unfold VerifyAny.g_verify in Ev. rewrite V in Ev. injection Ev as <- _. reflexivity. }
        destruct e as [e|]; [|split; [lia|auto]].
        split; [exact L|]. intros [X|X]; [auto|]. discriminate (Vv X).
    Qed.

    Theorem g_run_accept ops v0 v out oks :
      P v0 [] -> g_verified v0 = false -> g_run fuel dg ops v0 [] 0 = (v, out, oks) -> 0 < oks -> F out.
    Proof.
      intros P0 V0 Er L. destruct (g_run_R ops v0 [] 0 v out oks (or_introl (conj V0 P0)) Er) as (Rv & _ & V).
      destruct Rv as [[X _]|(_ & _ & Fo)]; [|exact Fo]. rewrite V in X by auto. discriminate.
    Qed.

    Theorem g_accept ops v0 v out oks v' :
      P v0 [] -> g_verified v0 = false -> g_run fuel dg ops v0 [] 0 = (v, out, oks) ->
      g_verify fuel dg v = (None, v') -> F out /\ g_err v' = Some EEof /\ g_verified v' = true.
    Proof.
      intros P0 V0 Er Ev. destruct (g_run_R ops v0 [] 0 v out oks (or_introl (conj V0 P0)) Er) as (Rv & _).
      destruct (g_verify_R _ _ _ _ Rv Ev) as [[[X _]|(X & Ee & Fo)] V']; [|auto].
      rewrite (V' eq_refl) in X. discriminate.
    Qed.
  End RunInv.

  (* the bookkeeping of a VerifyReader built for (dg, sz) over an rd_ok reader, while it can
     still be verified *)
  Definition ginv (dg : str) (sz : Z) (v : gvr (S := S)) (out : str) : Prop :=
    quiet (g_err v) ->
    out = g_hashed v /\ valid_digest dg = true /\ (0 <= g_N v)%Z /\
    (Z.of_nat (length (g_hashed v)) + g_N v = sz)%Z /\ (g_err v = Some EEof -> g_N v = 0%Z).

  Lemma ginv_new src dg sz : ginv dg sz (g_new src dg sz) [].
  Proof.
    unfold g_new. destruct (valid_digest dg) eqn:Vd; [destruct (Z.ltb_spec sz 0)|]; cbn [negb];
      intros [Q|Q]; try discriminate Q. simpl. repeat split; auto; try lia. discriminate.
  Qed.

  Lemma g_read_inv (OK : rd_ok) dg sz v out k bs e v' :
    ginv dg sz v out -> g_read v k = ((bs, e), v') -> ginv dg sz v' (out ++ bs).
  Proof.
    intros I E Q'.
    apply g_read_cases in E as (_ & _ & [(-> & _ & -> & -> & _ & Ee)|(Ee & Np & -> & -> & e0 & Er & C)]).
    - rewrite app_nil_r. destruct Ee as [Ee|(Ee & Nz & Ee')].
      + rewrite Ee in *. exact (I Q').
      + destruct (I (or_introl Ee)) as (-> & Vd & N0 & L & _). repeat split; auto. intros _. lia.
    - destruct (I (or_introl Ee)) as (-> & Vd & N0 & L & _).
      pose proof (OK (g_src v) (clamp k (g_N v))) as Len. rewrite Er in Len. simpl in Len.
      destruct (clamp_le k _ Np) as [_ CL]. rewrite app_length, Nat2Z.inj_add.
      repeat split; auto; try lia.
      destruct C as [[_ ->]|[(_ & Nz & _)|X]]; [discriminate|intros _; lia|destruct (X Q')].
  Qed.

  Lemma ginv_nil dg sz v out :
    ginv dg sz v out -> quiet (g_err v) -> (g_err v = None -> (g_N v <= 0)%Z) ->
    verified H dg (g_hashed v) = true ->
    Z.of_nat (length out) = sz /\ verified H dg out = true /\ valid_digest dg = true.
  Proof.
    intros I Q N Vf. destruct (I Q) as (-> & Vd & N0 & L & Z).
    assert (g_N v = 0%Z) by (destruct Q as [Q|Q]; [specialize (N Q); lia|exact (Z Q)]).
    repeat split; auto. lia.
  Qed.

  (* over any rd_ok reader, whatever the caller does with the VerifyReader (any sequence of
     Read(k) and Verify): if some Verify answered nil, then everything the Reads handed out is
     exactly the bytes the descriptor names: sz bytes that hash to dg *)
  Theorem verify_any_reader_sound (OK : rd_ok) src dg sz fuel ops v' out' oks' :
    g_run fuel dg ops (g_new src dg sz) [] 0 = (v', out', oks') ->
    0 < oks' ->
    Z.of_nat (length out') = sz /\ verified H dg out' = true /\ valid_digest dg = true.
  Proof.
    intros R L. apply (g_run_accept fuel dg (ginv dg sz)) with (6 := R) (7 := L).
    - intros v out k bs e v1. apply (g_read_inv OK).
    - intros v out _ Q X. destruct (Q X).
    - intros v out s' I _ Q N Vf _. exact (ginv_nil dg sz v out I Q N Vf).
    - apply ginv_new.
    - unfold g_new. destruct (negb _); [|destruct (_ <? _)%Z]; reflexivity.
  Qed.

  (* closure: a VerifyReader over an rd_ok reader is itself an rd_ok reader - nesting to any depth *)
  Lemma g_read_ok (OK : rd_ok) : forall v k, length (fst (fst (g_read v k))) <= k.
  Proof.
    intros v k. destruct (g_read v k) as [[bs e] v'] eqn:E. simpl.
    apply g_read_cases in E as (_ & _ & [(-> & _)|(_ & Np & _ & _ & e0 & Er & _)]); [simpl; lia|].
    pose proof (OK (g_src v) (clamp k (g_N v))) as Len. rewrite Er in Len. simpl in Len.
    destruct (clamp_le k _ Np). lia.
  Qed.
End AnyProofs.

Lemma to_g_read comb v k :
  g_read (base_read comb) (to_g v) k = (fst (vr_read comb v k), to_g (snd (vr_read comb v k))).
Proof.
  destruct v as [b n h er vf]. unfold g_read, vr_read, to_g; simpl.
  destruct er; [reflexivity|].
  destruct (n <=? 0)%Z; [reflexivity|].
  destruct (base_read comb b (clamp k n)) as [[bs e] b'].
  destruct e; reflexivity.
Qed.

Lemma to_g_verify H comb fuel dg v :
  g_verify H (base_read comb) fuel dg (to_g v) =
  (fst (vr_verify H comb fuel dg v), to_g (snd (vr_verify H comb fuel dg v))).
Proof.
  destruct v as [b n h er vf]. unfold g_verify, vr_verify, to_g, g_ensure_eof, ensure_eof; simpl.
  destruct vf; [reflexivity|].
  destruct (match er with None => if (n >? 0)%Z then Some EEarly else None
                         | Some EEof => None | Some e => Some e end); [reflexivity|].
  change (g_tee_read (base_read comb)) with (tee_read comb).
  destruct (read_full (tee_read comb) fuel (b, h) 1 []) as [[acc e] [b' h']].
  destruct (match e with Some EEof => true | _ => false end); simpl; [|reflexivity].
  destruct (verified H dg h'); reflexivity.
Qed.

Lemma to_g_read_eq comb v k r v' :
  vr_read comb v k = (r, v') -> g_read (base_read comb) (to_g v) k = (r, to_g v').
Proof. intro E. rewrite to_g_read, E. reflexivity. Qed.

Lemma to_g_verify_eq H comb fuel dg v r v' :
  vr_verify H comb fuel dg v = (r, v') -> g_verify H (base_read comb) fuel dg (to_g v) = (r, to_g v').
Proof. intro E. rewrite to_g_verify, E. reflexivity. Qed.

Lemma to_g_run H comb fuel dg ops : forall v out oks v' out',
  vr_run H comb fuel dg ops v out = (v', out') ->
  exists oks', g_run H (base_read comb) fuel dg ops (to_g v) out oks = (to_g v', out', oks').
Proof.
  induction ops as [|[k|] r IH]; intros v out oks v' out'; simpl.
  - intro E; injection E as <- <-. eauto.
  - destruct (vr_read comb v k) as [[bs e] v1] eqn:Er. rewrite (to_g_read_eq _ _ _ _ _ Er). apply IH.
  - destruct (vr_verify H comb fuel dg v) as [e v1] eqn:Ev. rewrite (to_g_verify_eq _ _ _ _ _ _ _ Ev). apply IH.
Qed.

Lemma base_read_ok comb : rd_ok (base_read comb).
Proof.
  intros s k. destruct (base_read comb s k) as [[bs e] s'] eqn:E.
  apply base_read_facts in E as [[] _]. assumption.
Qed.

(* nested: a VerifyReader (for ANY inner descriptor) handed to NewVerifyReader / Push / ReadAll *)
Lemma nested_verify_reader_sound H comb (src : base) dgi szi dg sz fuel ops v' out' oks' :
  g_run H (g_read (base_read comb)) fuel dg ops (g_new (g_new src dgi szi) dg sz) [] 0 = (v', out', oks') ->
  0 < oks' ->
  Z.of_nat (length out') = sz /\ verified H dg out' = true /\ valid_digest dg = true.
Proof.
  apply (verify_any_reader_sound H (g_read (base_read comb))).
  exact (g_read_ok _ (base_read_ok comb)).
Qed.

Lemma nested3_verify_reader_sound H comb (src : base) d1 s1 d2 s2 dg sz fuel ops v' out' oks' :
  g_run H (g_read (g_read (base_read comb))) fuel dg ops (g_new (g_new (g_new src d1 s1) d2 s2) dg sz) [] 0 = (v', out', oks') ->
  0 < oks' ->
  Z.of_nat (length out') = sz /\ verified H dg out' = true /\ valid_digest dg = true.
Proof.
  apply (verify_any_reader_sound H (g_read (g_read (base_read comb)))).
  exact (g_read_ok _ (g_read_ok _ (base_read_ok comb))).
Qed.

(* non-vacuity and the seeded mistake: 10 bytes behind an inner VerifyReader built with the true
   length; the outer descriptor names the digest of the 10 bytes but size 5.  The outer Verify
   refuses (mismatch) - and would answer nil if the inner reader were used in place of a new one *)
Local Open Scope N_scope.
Definition any_toyH (alg data : str) : str := repeat (48 + (fold_left N.add data 0) mod 10) 64%nat.
Definition any_bytes : str := [1;2;3;4;5;6;7;8;9;10].
Definition any_dg : str := digest_of any_toyH (b "sha256") any_bytes.
Definition any_src : base := mkBase [Data [1;2;3]; Zero; Data [4;5;6;7;8;9;10]] None.
Definition rd64 : vop := OpRead 64%nat.

Example nested_accepts_right_size :
  let '(_, out, oks) := g_run any_toyH (g_read (base_read false)) 8%nat any_dg [OpRead 4%nat; rd64; rd64; rd64; OpVerify]
                               (g_new (g_new any_src any_dg 10%Z) any_dg 10%Z) [] 0%nat in
  out = any_bytes /\ oks = 1%nat.
Proof. vm_compute. split; reflexivity. Qed.

Example nested_rejects_short_size :
  let '(_, out, oks) := g_run any_toyH (g_read (base_read false)) 8%nat any_dg [rd64; rd64; rd64; OpVerify]
                               (g_new (g_new any_src any_dg 10%Z) any_dg 5%Z) [] 0%nat in
  length out = 5%nat /\ oks = 0%nat.
Proof. vm_compute. split; reflexivity. Qed.

Example inner_reused_would_accept :
  let '(_, out, oks) := g_run any_toyH (base_read false) 8%nat any_dg [rd64; rd64; rd64; OpVerify]
                               (g_new any_src any_dg 10%Z) [] 0%nat in
  out = any_bytes /\ oks = 1%nat.
Proof. vm_compute. split; reflexivity. Qed.
