(* CopyImplDstLive: liveness and end-to-end statements for the protocol LTS WITH destination
   (Model/CopyImplDst.v; its safety theorems are in Proofs/CopyImplDst.v): the combined system never
   deadlocks although dst.Exists is answered by the destination, its executions are bounded by the
   bound of the protocol model, content enters the destination only through a push of the call, and
   one call summarised: closed throughout, nothing lost, fault/cancel => error, no fault => nil and
   the closure of the roots stored. *)
From Coq Require Import List Arith Bool Lia.
From Oras Require Import Model.CopyImpl Model.CopyImplDst Proofs.CopyImplDeadlock Proofs.CopyImplFault
  Proofs.CopyImplTerm Proofs.CopyImplNoFault Proofs.CopyImplDst.
Import ListNotations.

Section Proofs.
Variable succ : nat -> list nat.
Variable K : nat.
Variable ext : bool.
Variable roots : list nat.
Variable d0 : list nat.
Hypothesis succ_dec : forall n m, In m (succ n) -> m < n.
Local Notation DReachable := (DReachable succ K ext roots d0).

Lemma exists_any s t r s' : step succ s (LExists t r) = Some s' ->
  forall r', exists s'', step succ s (LExists t r') = Some s''.
Proof.
  cbn. intros H r'. destruct (t_pc (tasks s t)); try discriminate. destruct r'; eexists; reflexivity.
Qed.

Lemma dstep_of_step x l s' : step succ (ds x) l = Some s' ->
  (forall t, l <> LExists t ExTrue) -> (forall t, l <> LExists t ExFalse) ->
  exists x', dstep succ x (DL l) = Some x'.
Proof.
  intros Hs H1 H2. unfold dstep. cbn [dlab]. rewrite Hs.
  destruct l; try (eexists; reflexivity).
  - destruct r; try (eexists; reflexivity).
    + exfalso. eapply H1; eauto.
    + exfalso. eapply H2; eauto.
  - destruct ok; eexists; reflexivity.
Qed.

(* every reachable state in which the top-level syncutil.Go has not returned has an enabled step of
   the protocol itself (not a fault / cancellation choice) *)
Theorem dno_deadlock x : 1 <= K -> DReachable x -> is_final (ds x) = false ->
  exists dl x', progress_label (dlab dl) = true /\ dstep succ x dl = Some x'.
Proof.
  intros HK Hr Hnf.
  destruct (no_deadlock succ K ext roots succ_dec (ds x) HK (dreach_proj succ K ext roots d0 x Hr) Hnf)
    as [l [s' [Hp [Hs _]]]].
  destruct l; try (destruct (dstep_of_step x _ s' Hs) as [x' Hx]; [intros; discriminate | intros; discriminate |];
                   eexists (DL _), x'; split; [exact Hp | exact Hx]).
  (* LExists: answer what the destination holds *)
  destruct (dmem (t_node (tasks (ds x) t)) (dd x)) eqn:Hd.
  - destruct (exists_any _ _ _ _ Hs ExTrue) as [s1 Hs1].
    exists (DL (LExists t ExTrue)). eexists. split; [reflexivity|].
    unfold dstep. cbn [dlab]. rewrite Hs1, Hd. reflexivity.
  - destruct (exists_any _ _ _ _ Hs ExFalse) as [s1 Hs1].
    exists (DL (LExists t ExFalse)). eexists. split; [reflexivity|].
    unfold dstep. cbn [dlab]. rewrite Hs1, Hd. reflexivity.
Qed.

Theorem dst_written_only_by_push x dl x' n : dstep succ x dl = Some x' -> In n (dd x') ->
  In n (dd x) \/
  (exists t, (dl = DL (LPush t true) \/ dl = DPushFailStored t) /\ n = t_node (tasks (ds x) t)).
Proof.
  intros H Hn. destruct (dstep_inv succ x dl x' H) as [_ [[[t [Hl E]]|[E _]] _]]; rewrite E in Hn; [|now left].
  destruct Hn as [<-|Hn]; [right; now exists t | now left].
Qed.

Section Bounded.
Variable N : nat.
Hypothesis roots_lt : forall r, In r roots -> r < N.

Theorem dterminates ls x : drun succ (dinit K ext roots d0) ls = Some x -> length ls <= bound succ ext roots N.
Proof.
  intros H. pose proof (drun_run succ ls _ _ H) as Hb. cbn in Hb.
  pose proof (terminates succ K ext roots N succ_dec roots_lt _ _ Hb) as Ht. rewrite map_length in Ht. auto.
Qed.
End Bounded.

Lemma drun_mono ls : forall y x, drun succ y ls = Some x -> forall n, In n (dd y) -> In n (dd x).
Proof.
  induction ls as [|l ls IH]; cbn; intros y x H n Hn.
  - inversion H; subst; auto.
  - destruct (dstep succ y l) as [y1|] eqn:E; [|discriminate]. eapply IH; eauto. eapply dstep_mono; eauto.
Qed.

Theorem call_summary ls x : dclosed succ d0 -> drun succ (dinit K ext roots d0) ls = Some x ->
  dclosed succ (dd x) /\
  (forall n, In n d0 -> In n (dd x)) /\
  (is_final (ds x) = true ->
     (existsb is_fault (map dlab ls) = true -> result (ds x) = Some true) /\
     (existsb is_fault (map dlab ls) = false -> result (ds x) = Some false /\
        forall r n, In r roots -> dreach succ r n -> In n (dd x))).
Proof.
  intros Hc Hrun.
  assert (Hr : DReachable x) by (eapply drun_reach; eauto; constructor).
  split; [eapply dclosed_always; eauto|]. split.
  - intros n Hn. eapply (drun_mono ls (dinit K ext roots d0)); eauto.
  - intros Hfin. pose proof (drun_run succ ls _ _ Hrun) as Hb. cbn in Hb. split; intros Hf.
    + eapply fault_surfaces; eauto.
    + destruct (nofault_returns_nil succ K ext roots succ_dec _ _ Hb Hf Hfin) as [_ Hres].
      split; auto. intros r n Hin Hn. eapply dsuccess_complete; eauto.
Qed.

End Proofs.
