(* Fuel: the loops of the model (io.ReadFull, io.CopyBuffer, ensureEOF) never run out
   of fuel when fuel > ev_weight of the reader script, and their results do not
   depend on the fuel beyond that bound.  So the error EFuel excludes nothing. *)
From Oras Require Import Base.Prelude Model.Verify Proofs.VerifyFacts.
From Coq Require Import Lia ZArith.

Local Open Scope nat_scope.

Definition bw (s : base) : nat := ev_weight (b_evs s).

(* io.ReadFull over any reader whose Reads that answer nil make progress on a measure [mu]:
   with more fuel than [mu] it does not run out, and no other fuel above [mu] changes its result *)
Section GenericReadFull.
  Context {S : Type}.
  Variable rd : S -> nat -> rres * S.
  Variable mu : S -> nat.
  Variable P : S -> Prop.
  Hypothesis rd_ok : forall s k bs e s', P s -> rd s k = ((bs, e), s') ->
    P s' /\ mu s' <= mu s /\ (1 <= k -> e = None -> mu s' < mu s) /\ e <> Some EFuel.

  Lemma read_full_fuel fuel : forall s want acc acc' e s',
    P s -> mu s < fuel -> read_full rd fuel s want acc = ((acc', e), s') ->
    e <> Some EFuel /\ P s' /\ mu s' <= mu s /\
    forall f2, mu s < f2 -> read_full rd f2 s want acc = ((acc', e), s').
  Proof.
    induction fuel as [|f IH]; intros s want acc acc' e s' Ps Fu; [lia|]. simpl.
    destruct (want <=? length acc) eqn:W.
    { intro E; injection E as <- <- <-. repeat split; auto; try discriminate.
      intros [|g] F2; [lia|]. simpl. rewrite W. reflexivity. }
    destruct (rd s (want - length acc)) as [[bs e0] s1] eqn:Er.
    destruct (rd_ok _ _ _ _ _ Ps Er) as (P1 & M1 & M2 & NF).
    destruct e0 as [e0|].
    - intro E. assert (X : e <> Some EFuel /\ s' = s1).
      { destruct (want <=? length (acc ++ bs)); [|destruct (_ && _)]; injection E as _ <- <-; split; auto; discriminate. }
      destruct X as [X ->]. repeat split; auto. intros [|g] F2; [lia|]. simpl. rewrite W, Er. exact E.
    - intro E. assert (M3 : mu s1 < mu s) by (apply M2; auto; apply Nat.leb_gt in W; lia).
      destruct (IH _ _ _ _ _ _ P1 ltac:(lia) E) as (A & B & C & D). repeat split; auto; [lia|].
      intros [|g] F2; [lia|]. simpl. rewrite W, Er. apply D. lia.
  Qed.
End GenericReadFull.

Section Fuel.
  Variable H : str -> str -> str.
  Variable comb : bool.

  Definition vw (v : vrd) : nat := bw (v_base v).
  Definition nofuel (v : vrd) : Prop := v_err v <> Some EFuel.

  Lemma tee_ok : forall (s : base * str) k bs e s', True -> tee_read comb s k = ((bs, e), s') ->
    True /\ bw (fst s') <= bw (fst s) /\ (1 <= k -> e = None -> bw (fst s') < bw (fst s)) /\ e <> Some EFuel.
  Proof.
    intros [b0 h] k bs e s' _. unfold tee_read. simpl.
    destruct (base_read comb b0 k) as [[bs0 e0] b1] eqn:Eb. intro E; injection E as <- <- <-.
    apply base_read_facts in Eb as [[] _]. repeat split; auto.
    destruct rf_errors as [->|[->| ->]]; discriminate.
  Qed.

  Lemma vr_ok : forall v k bs e v', nofuel v -> vr_read comb v k = ((bs, e), v') ->
    nofuel v' /\ vw v' <= vw v /\ (1 <= k -> e = None -> vw v' < vw v) /\ e <> Some EFuel.
  Proof.
    intros v k bs e v' NF. unfold vr_read, nofuel, vw, bw in *.
    destruct (v_err v) as [e0|] eqn:Ee.
    - intro E; inversion E; subst. rewrite Ee. repeat split; auto. discriminate.
    - destruct (v_N v <=? 0)%Z eqn:N0.
      + intro E; inversion E; subst; simpl. repeat split; auto; discriminate.
      + destruct (base_read comb (v_base v) (clamp k (v_N v))) as [[bs0 e1] b1] eqn:Eb.
        apply base_read_facts in Eb as [[] _].
        destruct e1 as [e1|]; intro E; inversion E; subst; simpl.
        * destruct rf_errors as [C|[C|C]]; inversion C; subst; simpl;
            repeat split; auto; try discriminate; destruct (_ >? 0)%Z; discriminate.
        * repeat split; auto; try discriminate. intros K1 _. apply rf_progress; auto. apply clamp_ge1; auto. lia.
  Qed.

  Lemma ensure_eof_indep f1 f2 b h :
    bw b < f1 -> bw b < f2 -> ensure_eof comb f1 (b, h) = ensure_eof comb f2 (b, h).
  Proof.
    intros F1 F2. unfold ensure_eof.
    destruct (read_full (tee_read comb) f1 (b, h) 1 []) as [[acc e] st] eqn:E.
    apply (read_full_fuel (tee_read comb) (fun s => bw (fst s)) (fun _ => True) tee_ok) in E as (_ & _ & _ & D); auto.
    rewrite (D f2 F2). reflexivity.
  Qed.

  Lemma ensure_eof_weight fuel b h ok b' h' :
    ensure_eof comb fuel (b, h) = (ok, (b', h')) -> bw b < fuel -> bw b' <= bw b.
  Proof.
    unfold ensure_eof. destruct (read_full (tee_read comb) fuel (b, h) 1 []) as [[acc e] [b1 h1]] eqn:E.
    intros X Fu; inversion X; subst.
    destruct (read_full_fuel (tee_read comb) (fun s => bw (fst s)) (fun _ => True) tee_ok fuel (b, h) 1 [] _ _ _ I Fu E) as (_ & _ & C & _).
    exact C.
  Qed.

  Lemma ensure_eof_no_fuel fuel b h acc e st :
    bw b < fuel -> read_full (tee_read comb) fuel (b, h) 1 [] = ((acc, e), st) -> e <> Some EFuel.
  Proof.
    intros Fu E.
    destruct (read_full_fuel (tee_read comb) (fun s => bw (fst s)) (fun _ => True) tee_ok fuel (b, h) 1 [] _ _ _ I Fu E) as (A & _).
    exact A.
  Qed.

  Lemma vr_verify_indep f1 f2 dg v :
    vw v < f1 -> vw v < f2 -> vr_verify H comb f1 dg v = vr_verify H comb f2 dg v.
  Proof.
    intros F1 F2. unfold vr_verify. rewrite (ensure_eof_indep f1 f2); auto.
  Qed.

  Lemma vr_verify_no_fuel fuel dg v r v' :
    nofuel v -> vr_verify H comb fuel dg v = (r, v') -> r <> Some EFuel.
  Proof.
    unfold vr_verify, nofuel. intros NF. destruct (v_verified v); [intro E; inversion E; discriminate|].
    destruct (ensure_eof comb fuel (v_base v, v_hashed v)) as [ok [b1 h1]].
    destruct (v_err v) as [e0|].
    - destruct e0; try (intro E; inversion E; subst; try discriminate; congruence);
        destruct (negb ok); try (intro E; inversion E; discriminate);
        destruct (verified H dg h1); intro E; inversion E; discriminate.
    - destruct (v_N v >? 0)%Z; [intro E; inversion E; discriminate|].
      destruct (negb ok); try (intro E; inversion E; discriminate);
        destruct (verified H dg h1); intro E; inversion E; discriminate.
  Qed.

  Lemma new_vr_nofuel fixed src dg sz : nofuel (new_vr_gen fixed src dg sz) /\ vw (new_vr_gen fixed src dg sz) = bw src.
  Proof.
    unfold new_vr_gen, nofuel, vw. destruct (negb (valid_digest dg)); [split; [discriminate|reflexivity]|].
    destruct (fixed && (sz <? 0)%Z); split; try discriminate; reflexivity.
  Qed.

  Lemma verify_after_fuel fuel dg src v0 :
    bw src < fuel -> nofuel v0 -> vw v0 <= bw src ->
    fst (vr_verify H comb fuel dg v0) <> Some EFuel /\
    forall fuel', bw src < fuel' -> vr_verify H comb fuel' dg v0 = vr_verify H comb fuel dg v0.
  Proof.
    intros Fu NF W. split.
    - destruct (vr_verify H comb fuel dg v0) as [r v1] eqn:Ev. exact (vr_verify_no_fuel _ _ _ _ _ NF Ev).
    - intros fuel' Fu'. apply vr_verify_indep; lia.
  Qed.

  Theorem read_all_fuel fixed fuel src dg sz :
    bw src < fuel ->
    fst (fst (read_all H comb fixed fuel src dg sz)) <> Some EFuel /\
    forall fuel', bw src < fuel' -> read_all H comb fixed fuel' src dg sz = read_all H comb fixed fuel src dg sz.
  Proof.
    intro Fu. unfold read_all. destruct (sz <? 0)%Z; [split; [discriminate|reflexivity]|].
    destruct (new_vr_nofuel fixed src dg sz) as [NF W]. fold (new_vr fixed src dg sz) in NF, W.
    destruct (read_full (vr_read comb) fuel (new_vr fixed src dg sz) (Z.to_nat sz) []) as [[buf e] v0] eqn:Er.
    apply (read_full_fuel (vr_read comb) vw nofuel vr_ok) in Er as (A & B & C & D); [|exact NF|lia].
    destruct (verify_after_fuel fuel dg src v0 Fu B ltac:(lia)) as [V1 V2].
    split.
    - destruct e as [e|]; [exact A|]. destruct (vr_verify H comb fuel dg v0). exact V1.
    - intros fuel' Fu'. rewrite (D fuel') by lia. destruct e; [reflexivity|]. rewrite (V2 fuel' Fu'). reflexivity.
  Qed.

  Lemma copy_loop_fuel bufsz : 1 <= bufsz -> forall fuel v out e out' v',
    nofuel v -> vw v < fuel -> copy_loop comb fuel v bufsz out = ((e, out'), v') ->
    e <> Some EFuel /\ nofuel v' /\ vw v' <= vw v /\
    forall f2, vw v < f2 -> copy_loop comb f2 v bufsz out = ((e, out'), v').
  Proof.
    intro B1. induction fuel as [|f IH]; intros v out e out' v' NF Fu; [lia|]. simpl.
    destruct (vr_read comb v bufsz) as [[bs e0] v1] eqn:Er.
    destruct (vr_ok _ _ _ _ _ NF Er) as (P1 & M1 & M2 & NF1).
    destruct e0 as [e0|].
    - intro E. assert (X : e <> Some EFuel /\ v' = v1) by (destruct e0; injection E as <- _ <-; split; congruence).
      destruct X as [X ->]. repeat split; auto. intros [|g] F2; [lia|]. simpl. rewrite Er. exact E.
    - intro E. assert (M3 : vw v1 < vw v) by (apply M2; auto).
      destruct (IH _ _ _ _ _ P1 ltac:(lia) E) as (A & B & C & D). repeat split; auto; [lia|].
      intros [|g] F2; [lia|]. simpl. rewrite Er. apply D. lia.
  Qed.

  Theorem copy_buffer_fuel fixed fuel src bufsz dg sz :
    1 <= bufsz -> bw src < fuel ->
    fst (fst (copy_buffer H comb fixed fuel src bufsz dg sz)) <> Some EFuel /\
    forall fuel', bw src < fuel' ->
      copy_buffer H comb fixed fuel' src bufsz dg sz = copy_buffer H comb fixed fuel src bufsz dg sz.
  Proof.
    intros B1 Fu. unfold copy_buffer. destruct (new_vr_nofuel fixed src dg sz) as [NF W].
    fold (new_vr fixed src dg sz) in NF, W.
    destruct (copy_loop comb fuel (new_vr fixed src dg sz) bufsz []) as [[e o] v0] eqn:Ec.
    apply (copy_loop_fuel bufsz B1) in Ec as (A & B & C & D); [|exact NF|lia].
    destruct (verify_after_fuel fuel dg src v0 Fu B ltac:(lia)) as [V1 V2].
    split.
    - destruct e as [e|]; [exact A|]. destruct (vr_verify H comb fuel dg v0). exact V1.
    - intros fuel' Fu'. rewrite (D fuel') by lia. destruct e; [reflexivity|]. rewrite (V2 fuel' Fu'). reflexivity.
  Qed.
End Fuel.
