(* encoding/json's string codec (Model/Json.v) round-trips every valid UTF-8 string; what a
   scanner sees of a quoted string ([quoted]); the text of an object ([laid_object]), and
   the entry Put writes read back by parse_fresh. *)
From Coq Require Import Lia.
From Oras Require Import Base.Prelude Model.Utf8 Model.Json.

Definition cons_opt (u : str) (o : option str) : option str :=
  match o with Some t => Some (u ++ t) | None => None end.

Lemma in_range_iff lo hi c : in_range lo hi c = true <-> lo <= c <= hi.
Proof. unfold in_range. rewrite andb_true_iff, !N.leb_le. reflexivity. Qed.

Lemma in_range_out lo hi c : c < lo \/ hi < c -> in_range lo hi c = false.
Proof. intro H. destruct (in_range lo hi c) eqn:E; [apply in_range_iff in E; lia|reflexivity]. Qed.

Lemma rune_len_inv c r k :
  rune_len (c :: r) = Some k ->
  length (firstn k (c :: r)) = k /\
  (forall Q, rune_len (firstn k (c :: r) ++ Q) = Some k) /\
  (k = 1%nat /\ c < 128 \/ (2 <= k)%nat /\ Forall (fun x => 128 <= x) (firstn k (c :: r))).
Proof.
  intro H. unfold rune_len in H.
  destruct (c <? 128) eqn:E0.
  { injection H as <-. split; [reflexivity|]. split; [|left; split; [reflexivity|now apply N.ltb_lt]].
    intro Q. cbn [firstn app]. unfold rune_len. now rewrite E0. }
  pose proof (proj1 (N.ltb_ge _ _) E0) as C.
  destruct (in_range 194 223 c) eqn:E1.
  { destruct r as [|c1 r]; [discriminate|]. destruct (cont c1) eqn:E2; [|discriminate]. injection H as <-.
    split; [reflexivity|]. split; [intro Q; cbn [firstn app]; unfold rune_len; now rewrite E0, E1, E2|].
    apply in_range_iff in E2. right. split; [lia|]. repeat constructor; [exact C|apply E2]. }
  destruct (in_range 224 239 c) eqn:E3.
  { destruct r as [|c1 [|c2 r]]; try discriminate.
    match type of H with (if ?b then _ else _) = _ => destruct b eqn:E4; [|discriminate] end. injection H as <-.
    split; [reflexivity|]. split; [intro Q; cbn [firstn app]; unfold rune_len; now rewrite E0, E1, E3, E4|].
    apply andb_true_iff in E4 as [E4 E5]. apply in_range_iff in E4, E5.
    right. split; [lia|]. repeat constructor; [exact C| |apply E5]. destruct (c =? 224); lia. }
  destruct (in_range 240 244 c) eqn:E5; [|discriminate].
  destruct r as [|c1 [|c2 [|c3 r]]]; try discriminate.
  match type of H with (if ?b then _ else _) = _ => destruct b eqn:E6; [|discriminate] end. injection H as <-.
  split; [reflexivity|]. split; [intro Q; cbn [firstn app]; unfold rune_len; now rewrite E0, E1, E3, E5, E6|].
  apply andb_true_iff in E6 as [E6 E8]. apply andb_true_iff in E6 as [E6 E7]. apply in_range_iff in E6, E7, E8.
  right. split; [lia|]. repeat constructor; [exact C| |apply E7|apply E8]. destruct (c =? 240); lia.
Qed.

Lemma unquote_copied c r k Q m :
  rune_len (c :: r) = Some k -> c <> bs -> c <> dq -> 32 <= c ->
  unquote_fuel (S m) (firstn k (c :: r) ++ Q) = cons_opt (firstn k (c :: r)) (unquote_fuel m Q).
Proof.
  intros RL NB ND C. destruct (rune_len_inv c r k RL) as (KL & RQ & K1).
  assert (K : exists u, firstn k (c :: r) = c :: u).
  { destruct k; [lia|]. now eexists. }
  destruct K as [u K]. rewrite K in *. cbn [app unquote_fuel].
  apply N.eqb_neq in NB, ND. apply N.ltb_ge in C. rewrite NB, C, ND. cbn [orb].
  change (c :: u ++ Q) with ((c :: u) ++ Q). rewrite RQ, <- KL, firstn_app_exact, skipn_app_exact.
  reflexivity.
Qed.

Lemma hex_val_digit n : n < 16 -> hex_val (hex_digit n) = Some n.
Proof.
  intro H. unfold hex_digit, hex_val. destruct (N.ltb_spec n 10).
  - rewrite (proj2 (in_range_iff 48 57 _)) by lia. f_equal. lia.
  - rewrite (in_range_out 48 57), (proj2 (in_range_iff 97 102 _)) by lia. f_equal. lia.
Qed.

(* the \u00XX escape of a byte *)
Lemma hex4_u00 c Q : c < 256 -> hex4 (48 :: 48 :: hex_digit (c / 16) :: hex_digit (c mod 16) :: Q) = Some (c, Q).
Proof.
  intro H. cbn [hex4]. change (hex_val 48) with (Some 0).
  rewrite !hex_val_digit by (try apply N.mod_lt; try apply N.div_lt_upper_bound; lia).
  f_equal. f_equal. rewrite (N.div_mod c 16) at 3 by lia. lia.
Qed.

Lemma u00_unit c Q m :
  c < 128 ->
  unquote_fuel (S m) ([bs; 117; 48; 48; hex_digit (c / 16); hex_digit (c mod 16)] ++ Q) = cons_opt [c] (unquote_fuel m Q).
Proof.
  intro C. cbn [app unquote_fuel]. change (bs =? bs) with true. cbv iota. rewrite hex4_u00 by lia.
  unfold is_high, is_low, utf8_bmp. rewrite !in_range_out by lia. now rewrite (proj2 (N.ltb_lt c 128) C).
Qed.

Lemma ascii_unit c Q m :
  c < 128 -> unquote_fuel (S m) (quote_ascii c ++ Q) = cons_opt [c] (unquote_fuel m Q).
Proof.
  intro C. unfold quote_ascii.
  destruct (N.eqb_spec c dq) as [->|D]; [reflexivity|].
  destruct (N.eqb_spec c bs) as [->|B]; [reflexivity|].
  destruct (N.eqb_spec c 8) as [->|_]; [reflexivity|].
  destruct (N.eqb_spec c 12) as [->|_]; [reflexivity|].
  destruct (N.eqb_spec c 10) as [->|_]; [reflexivity|].
  destruct (N.eqb_spec c 13) as [->|_]; [reflexivity|].
  destruct (N.eqb_spec c 9) as [->|_]; [reflexivity|].
  destruct (_ || _ || _ || _) eqn:E; [now apply u00_unit|].
  rewrite !orb_false_iff in E. destruct E as [[[E _] _] _]. apply N.ltb_ge in E.
  apply (unquote_copied c Q 1 Q m); try assumption.
  unfold rune_len. now rewrite (proj2 (N.ltb_lt c 128) C).
Qed.

Lemma ls_ps_inv s d :
  ls_ps s = Some d -> exists x r, s = 226 :: 128 :: x :: r /\ (x = 168 /\ d = 56 \/ x = 169 /\ d = 57).
Proof.
  unfold ls_ps. destruct s as [|a [|b0 [|x r]]]; try discriminate.
  destruct (N.eqb_spec a 226) as [->|]; [|discriminate].
  destruct (N.eqb_spec b0 128) as [->|]; [|discriminate]. cbn [andb].
  destruct (N.eqb_spec x 168) as [->|]; [intro H; injection H as <-; eauto 6|].
  destruct (N.eqb_spec x 169) as [->|]; [intro H; injection H as <-; eauto 6|discriminate].
Qed.

Lemma ls_ps_unit s d Q m :
  ls_ps s = Some d ->
  unquote_fuel (S m) ([bs; 117; 50; 48; 50; d] ++ Q) = cons_opt (firstn 3 s) (unquote_fuel m Q) /\ rune_len s = Some 3%nat.
Proof. intro H. apply ls_ps_inv in H as (x & r & -> & [[-> ->]|[-> ->]]); split; reflexivity. Qed.

Lemma quote_ascii_nonempty c : (1 <= length (quote_ascii c))%nat.
Proof.
  unfold quote_ascii.
  repeat match goal with |- (_ <= length (if ?b then _ else _))%nat => destruct b; [cbn; lia|] end. cbn; lia.
Qed.

Lemma roundtrip_fuel n : forall s,
  valid_fuel n s = true ->
  forall m, (length (quote_fuel n s) <= m)%nat -> unquote_fuel m (quote_fuel n s) = Some s.
Proof.
  induction n as [|n IH]; intros [|c r] V m L; try (destruct m; reflexivity); try discriminate.
  cbn [valid_fuel] in V. cbn [quote_fuel] in *.
  destruct (rune_len (c :: r)) as [k|] eqn:RL; [|discriminate].
  destruct (rune_len_inv c r k RL) as (KL & _ & [[-> C]|[K H]]).
  - (* ASCII *)
    pose proof (quote_ascii_nonempty c). rewrite app_length in L.
    destruct m as [|m]; [lia|]. rewrite (ascii_unit c _ m C), (IH r V m) by lia. reflexivity.
  - (* multi-byte *)
    destruct k as [|[|k]]; try lia.
    rewrite <- (firstn_skipn (S (S k)) (c :: r)) at 2.
    destruct (ls_ps (c :: r)) as [d|] eqn:LP.
    + destruct m as [|m]; [cbn in L; lia|].
      destruct (ls_ps_unit _ d (quote_fuel n (skipn (S (S k)) (c :: r))) m LP) as [U R3].
      rewrite RL in R3. injection R3 as ->.
      rewrite U, (IH _ V m); [reflexivity|cbn [app length] in L; lia].
    + destruct m as [|m]; [rewrite app_length, KL in L; lia|].
      inversion H as [|? ? C _]; subst.
      rewrite (unquote_copied c r _ _ m RL), (IH _ V m).
      * reflexivity.
      * rewrite app_length, KL in L. lia.
      * unfold bs; lia.
      * unfold dq; lia.
      * lia.
Qed.

(* text that can stand between the quotes of a JSON string: no bare quote,
   and every backslash protects the byte after it.  A scanner that knows only these
   two rules (scan_string, json.Indent) finds the closing quote right after it. *)
Inductive quoted : str -> Prop :=
| q_nil : quoted []
| q_byte c u : c <> dq -> c <> bs -> quoted u -> quoted (c :: u)
| q_esc e u : quoted u -> quoted (bs :: e :: u).

Lemma quoted_app u v : quoted u -> quoted v -> quoted (u ++ v).
Proof. induction 1; intro V; cbn [app]; [exact V|apply q_byte; auto|apply q_esc; auto]. Qed.

Lemma quoted_bytes u : Forall (fun c => c <> dq /\ c <> bs) u -> quoted u.
Proof. induction 1 as [|c u [D B] _ IH]; [apply q_nil|now apply q_byte]. Qed.

Lemma scan_quoted u : quoted u -> forall Q, scan_string (u ++ dq :: Q) = Some (u, Q).
Proof.
  induction 1 as [|c u D B _ IH|e u _ IH]; intro Q; cbn [app scan_string].
  - reflexivity.
  - apply N.eqb_neq in D, B. now rewrite D, B, IH.
  - change (bs =? dq) with false. change (bs =? bs) with true. cbv iota. now rewrite IH.
Qed.

Lemma hex_digit_plain n : hex_digit n <> dq /\ hex_digit n <> bs.
Proof. unfold hex_digit, dq, bs. destruct (N.ltb_spec n 10); lia. Qed.

Lemma quoted_ascii c : quoted (quote_ascii c).
Proof.
  unfold quote_ascii.
  destruct (N.eqb_spec c dq) as [|D]; [apply q_esc, q_nil|].
  destruct (N.eqb_spec c bs) as [|B]; [apply q_esc, q_nil|].
  repeat match goal with |- quoted (if ?b then _ else _) => destruct b; [apply q_esc, q_nil|] end.
  destruct (_ || _).
  - apply q_esc, quoted_bytes. repeat apply Forall_cons; try apply hex_digit_plain; try apply Forall_nil; split; discriminate.
  - apply q_byte; [exact D|exact B|apply q_nil].
Qed.

Lemma quoted_quote_fuel n : forall s, quoted (quote_fuel n s).
Proof.
  induction n as [|n IH]; intros [|c r]; try apply q_nil.
  cbn [quote_fuel].
  destruct (rune_len (c :: r)) as [k|] eqn:RL; [|apply quoted_app; [apply q_esc, quoted_bytes; repeat constructor; discriminate|apply IH]].
  destruct (rune_len_inv c r k RL) as (_ & _ & [[-> _]|[K H]]); [apply quoted_app; [apply quoted_ascii|apply IH]|].
  destruct k as [|[|k]]; try lia.
  destruct (ls_ps (c :: r)) as [d|] eqn:LP; apply quoted_app; try apply IH.
  - apply ls_ps_inv in LP as (x & r' & _ & [[_ ->]|[_ ->]]); apply q_esc, quoted_bytes; repeat constructor; discriminate.
  - apply quoted_bytes. revert H. apply Forall_impl. unfold dq, bs. lia.
Qed.

Lemma quoted_json_quote x : quoted (json_quote x).
Proof. apply quoted_quote_fuel. Qed.

Lemma scan_json_quote x Q : scan_string (json_quote x ++ dq :: Q) = Some (json_quote x, Q).
Proof. apply scan_quoted, quoted_json_quote. Qed.

Lemma json_string_roundtrip s : valid_utf8 s = true -> json_unquote (json_quote s) = Some s.
Proof. intro V. unfold json_unquote, json_quote. apply roundtrip_fuel; [exact V|lia]. Qed.

Lemma ascii_valid_fuel n : forall s, Forall (fun c => c < 128) s -> (length s <= n)%nat -> valid_fuel n s = true.
Proof.
  induction n as [|n IH]; intros [|c r] F L; try reflexivity; [cbn in L; lia|].
  inversion F as [|? ? C F']; subst. cbn [valid_fuel]. unfold rune_len.
  apply N.ltb_lt in C. rewrite C. cbn [skipn]. apply IH; [exact F'|cbn in L; lia].
Qed.

Lemma ascii_valid s : Forall (fun c => c < 128) s -> valid_utf8 s = true.
Proof. intro F. apply ascii_valid_fuel; [exact F|lia]. Qed.

(* an object laid out with white space: Wm before every member, Wv after the
   colon, Wc before the closing brace; members are (key, text of the value) *)
Definition laid_member (Wm Wv : str) (m : str * str) : str :=
  Wm ++ [dq] ++ json_quote (fst m) ++ [dq; 58] ++ Wv ++ snd m.
Definition laid_object (Wm Wv Wc : str) (ms : list (str * str)) : str :=
  [123] ++ join_comma (map (laid_member Wm Wv) ms) ++ Wc ++ [125].

Definition string_member (kv : str * str) : str * str := (fst kv, [dq] ++ json_quote (snd kv) ++ [dq]).

Definition member_valid (kv : str * str) : Prop := valid_utf8 (fst kv) = true /\ valid_utf8 (snd kv) = true.

Lemma join_cons2 x y r : join_comma (x :: y :: r) = x ++ 44 :: join_comma (y :: r).
Proof. reflexivity. Qed.

Lemma parse_members_laid l : forall n,
  l <> [] -> Forall member_valid l -> (length l <= n)%nat ->
  parse_members n (join_comma (map (laid_member [] []) (map string_member l)) ++ [125]) = Some l.
Proof.
  induction l as [|[k v] l IH]; intros n NE F L; [congruence|].
  inversion F as [|? ? [VK VV] F']; subst. cbn [fst snd] in *.
  destruct n as [|n]; [cbn in L; lia|].
  assert (M : forall T, parse_members (S n) (laid_member [] [] (string_member (k, v)) ++ T) =
              match T with
              | [125] => Some [(k, v)]
              | 44 :: r4 => match parse_members n r4 with Some l => Some ((k, v) :: l) | None => None end
              | _ => None
              end).
  { intro T. unfold laid_member, string_member. cbn [fst snd]. rewrite <- !app_assoc. cbn [app parse_members].
    rewrite scan_json_quote, scan_json_quote, (json_string_roundtrip k VK), (json_string_roundtrip v VV). reflexivity. }
  destruct l as [|kv2 l].
  - apply M.
  - cbn [map] in IH |- *. rewrite join_cons2, <- app_assoc, M. cbn [app].
    rewrite (IH n); [reflexivity|discriminate|exact F'|cbn in L |- *; lia].
Qed.

Definition fresh_members (a i r : str) : list (str * str) :=
  filter (fun kv => match snd kv with [] => false | _ => true end) [(k_auth, a); (k_idtok, i); (k_regtok, r)].

Lemma render_fresh_laid a i r :
  render_fresh a i r = laid_object [] [] [] (map string_member (fresh_members a i r)).
Proof. destruct a, i, r; reflexivity. Qed.

Lemma fresh_members_ok a i r :
  valid_utf8 a = true -> valid_utf8 i = true -> valid_utf8 r = true -> Forall member_valid (fresh_members a i r).
Proof.
  intros VA VI VR. unfold fresh_members. apply Forall_forall. intros kv I.
  apply filter_In in I as [I _]. cbn [In] in I.
  destruct I as [<-|[<-|[<-|[]]]]; (split; [reflexivity|assumption]).
Qed.

Lemma fresh_fields a i r :
  let l := fresh_members a i r in (field_of k_auth l, field_of k_idtok l, field_of k_regtok l) = (a, i, r).
Proof. destruct a, i, r; reflexivity. Qed.

Lemma laid_member_length Wm Wv m : (length (snd m) < length (laid_member Wm Wv m))%nat.
Proof. destruct m as [k t]. unfold laid_member. rewrite !app_length. cbn [length fst snd]. lia. Qed.

Lemma join_length l (T : str) : (length l <= length (join_comma (map (laid_member [] []) l) ++ 125%N :: T))%nat.
Proof.
  induction l as [|m [|m2 l] IH]; [cbn; lia| |]; pose proof (laid_member_length [] [] m).
  - cbn [map join_comma length]. rewrite app_length. lia.
  - cbn [map] in *. rewrite join_cons2, <- app_assoc, app_length. cbn [length app] in *. lia.
Qed.

Lemma fresh_roundtrip a i r :
  valid_utf8 a = true -> valid_utf8 i = true -> valid_utf8 r = true ->
  parse_fresh (render_fresh a i r) = Some (a, i, r).
Proof.
  intros VA VI VR. rewrite render_fresh_laid, <- (fresh_fields a i r).
  pose proof (fresh_members_ok a i r VA VI VR) as F.
  destruct (fresh_members a i r) as [|kv l]; [reflexivity|].
  unfold laid_object. cbn [app].
  assert (Y : exists y, join_comma (map (laid_member [] []) (map string_member (kv :: l))) ++ [125] = 34 :: y).
  { destruct l; cbn [map join_comma]; unfold laid_member at 1; cbn [app]; unfold dq; eexists; reflexivity. }
  destruct Y as [y Y]. rewrite Y. cbn [parse_fresh]. rewrite <- Y.
  rewrite parse_members_laid; [reflexivity|discriminate|exact F|].
  rewrite <- (map_length string_member (kv :: l)). apply join_length.
Qed.
