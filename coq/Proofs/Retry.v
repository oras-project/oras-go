(* Facts about the retry model (Model/Retry.v) behind C17.  The decision function in closed form
   (clamp_eq, generic_retry_eq, generic_retry_wait); one iteration of the transport's loop as a
   relation (step_spec) with an invariant rule over it (round_trip_inv), which gives the bounds,
   the bodies and the cancellation of one send; the auth flows and the blob push as compositions
   of sends (sent_whole for bodies, sends_post for cancellation); the refinements to the stateless
   specifications; the acceptor of the correspondence run. *)
From Coq Require Import QArith.
From Oras Require Import Base.Prelude Base.RetryTypes Generated.GC17 Model.Retry.
Open Scope Z_scope.

(* the two clamping steps of the source, whatever the order of lo and hi *)
Lemma clamp_eq lo hi x : clamp lo hi x = Z.min hi (Z.max lo x).
Proof.
  unfold clamp. destruct (x <? lo) eqn:E1; [destruct (lo >? hi) eqn:E2|destruct (x >? hi) eqn:E2]; lia.
Qed.

Lemma clamp_bounds lo hi x : lo <= hi -> lo <= clamp lo hi x <= hi.
Proof. rewrite clamp_eq. lia. Qed.

Lemma clamp_id lo hi x : lo <= x <= hi -> clamp lo hi x = x.
Proof. rewrite clamp_eq. lia. Qed.

Lemma clamp_mono lo hi x y : x <= y -> clamp lo hi x <= clamp lo hi y.
Proof. rewrite !clamp_eq. lia. Qed.

Lemma generic_retry_eq p attempt o :
  generic_retry p attempt o =
  if attempt >=? p_max_retry p then DStop
  else match p_pred p o with
       | PFail => DFail
       | PStop => DStop
       | PRetry => match p_backoff p attempt o with
                   | BPanic => DPanic
                   | BRet x => DWait (clamp (p_min p) (p_max p) x)
                   end
       end.
Proof. reflexivity. Qed.

Lemma generic_retry_wait p attempt o d :
  generic_retry p attempt o = DWait d ->
  attempt < p_max_retry p /\ p_pred p o = PRetry /\
  exists x, p_backoff p attempt o = BRet x /\ d = clamp (p_min p) (p_max p) x.
Proof.
  rewrite generic_retry_eq. destruct (attempt >=? p_max_retry p) eqn:E; [discriminate|].
  destruct (p_pred p o); try discriminate. destruct (p_backoff p attempt o) as [x|]; [|discriminate].
  intros [= <-]. repeat split; [lia|eauto].
Qed.

(* each pause GenericPolicy.Retry computes lies within [MinWait, MaxWait],
   for any predicate, any backoff function, any attempt and any answer *)
Lemma generic_retry_bounds p attempt o d :
  p_min p <= p_max p -> generic_retry p attempt o = DWait d -> p_min p <= d <= p_max p.
Proof. intros H E. apply generic_retry_wait in E as (_ & _ & x & _ & ->). now apply clamp_bounds. Qed.

Lemma generic_retry_min_gt_max p attempt o d :
  p_max p < p_min p -> generic_retry p attempt o = DWait d -> d = p_max p.
Proof. intros H E. apply generic_retry_wait in E as (_ & _ & x & _ & ->). rewrite clamp_eq. lia. Qed.

Lemma generic_retry_nonretryable p attempt o :
  p_pred p o <> PRetry ->
  generic_retry p attempt o = DStop \/ generic_retry p attempt o = DFail.
Proof.
  rewrite generic_retry_eq. intro H. destruct (attempt >=? p_max_retry p); [now left|].
  destruct (p_pred p o); auto. congruence.
Qed.

Lemma generic_retry_exhausted p attempt o :
  p_max_retry p <= attempt -> generic_retry p attempt o = DStop.
Proof. rewrite generic_retry_eq. intro H. destruct (attempt >=? p_max_retry p) eqn:E; [reflexivity|lia]. Qed.

Lemma generic_retry_stop p attempt o : p_pred p o = PStop -> generic_retry p attempt o = DStop.
Proof. rewrite generic_retry_eq. intros ->. now destruct (attempt >=? p_max_retry p). Qed.

Lemma generic_retry_no_panic p attempt o :
  (forall a o', p_backoff p a o' <> BPanic) -> generic_retry p attempt o <> DPanic.
Proof.
  intro H. rewrite generic_retry_eq. destruct (attempt >=? p_max_retry p); [discriminate|].
  destruct (p_pred p o); try discriminate.
  destruct (p_backoff p attempt o) eqn:E; [discriminate|]. now apply H in E.
Qed.

Lemma default_predicate_status_spec c :
  default_predicate_status c = true <-> (c = 408 \/ c = 429 \/ c = 0 \/ 500 <= c).
Proof.
  unfold default_predicate_status.
  rewrite !orb_true_iff, !Z.eqb_eq, Z.geb_le. tauto.
Qed.

(* the documented rule for transport errors: only timeouts (of net.Error values) are retried *)
Lemma default_predicate_error_outcome ne to tmp :
  default_predicate (OErr ne to tmp) = PRetry <-> (ne = true /\ to = true).
Proof. destruct ne, to; cbn; intuition discriminate. Qed.

Lemma default_policy_wellformed :
  0 < default_min_wait /\ default_min_wait <= default_max_wait /\ 0 <= default_max_retry.
Proof. unfold default_min_wait, default_max_wait, default_max_retry. lia. Qed.

Lemma exp_arith_eq e attempt :
  exp_temp e attempt = (inject_Z (e_base e) * Qpower (e_factor e) attempt)%Q /\
  exp_a e attempt = (exp_temp e attempt * (1 - e_jitter e))%Q /\
  exp_n e attempt = ((2 # 1) * e_jitter e * exp_temp e attempt)%Q /\
  generated_backoff_retry_after_status = 429 /\ generated_backoff_retry_after_unit = 1000000000 /\
  (forall ra, generated_backoff_retry_after_ok ra = (ra >? 0)).
Proof. repeat split; reflexivity. Qed.

Lemma exp_backoff_fixed_total oob rnd e attempt o :
  exists d, exp_backoff_fixed oob rnd e attempt o = BRet d.
Proof.
  unfold exp_backoff_fixed, exp_backoff_gen.
  destruct (generated_backoff_retry_after_ok (retry_after_secs o)); [eauto|].
  destruct (f2i oob (exp_n e attempt) >? 0); eauto.
Qed.

(* the current source (the guard flag is read from policy.go) *)
Lemma exp_backoff_total oob rnd e attempt o :
  exists d, exp_backoff oob rnd e attempt o = BRet d.
Proof. exact (exp_backoff_fixed_total oob rnd e attempt o). Qed.

Lemma default_policy_never_panics oob rnd a o : p_backoff (default_policy oob rnd) a o <> BPanic.
Proof. destruct (exp_backoff_total oob rnd default_eparams a o) as [d E]. cbn [default_policy p_backoff]. congruence. Qed.

(* the original source: a zero jitter panics, whatever the conversion of out-of-range
   floats and whatever the random source *)
Lemma exp_backoff_prefix_refuted :
  exists e attempt o, forall oob rnd, exp_backoff_prefix oob rnd e attempt o = BPanic.
Proof. now exists (mkE 250000000 (2 # 1) (0 # 1)), 0, (OErr true true true). Qed.

Lemma wrap64_id z : - two63 <= z < two63 -> wrap64 z = z.
Proof. intro H. unfold wrap64, two64, two63 in *. rewrite Z.mod_small by lia. lia. Qed.

(* Retry-After on 429: the backoff is exactly that many seconds *)
Lemma exp_backoff_retry_after guarded oob rnd e attempt h ch n :
  h <> [] -> parse_int64 h = n -> 0 < n -> n * 1000000000 < two63 ->
  exp_backoff_gen guarded oob rnd e attempt (OStatus 429 h ch) = BRet (n * 1000000000).
Proof.
  intros Hh Hp Hn Hr. unfold exp_backoff_gen. cbn [retry_after_secs].
  change (429 =? generated_backoff_retry_after_status) with true.
  destruct h as [|c h']; [congruence|]. rewrite Hp.
  unfold generated_backoff_retry_after_ok, generated_backoff_retry_after_unit.
  destruct (n >? 0) eqn:E; [|lia]. rewrite wrap64_id by (unfold two63 in *; lia). reflexivity.
Qed.

(* ... and GenericPolicy.Retry honours it within [MinWait, MaxWait] *)
Lemma retry_after_honoured guarded oob rnd e maxretry minw maxw pred attempt h ch n :
  h <> [] -> parse_int64 h = n -> 0 < n -> n * 1000000000 < two63 ->
  attempt < maxretry -> pred (OStatus 429 h ch) = PRetry ->
  generic_retry (mkPolicy maxretry minw maxw pred (exp_backoff_gen guarded oob rnd e)) attempt (OStatus 429 h ch)
  = DWait (clamp minw maxw (n * 1000000000)).
Proof.
  intros Hh Hp Hn Hr Ha Hpred. rewrite generic_retry_eq. cbn [p_max_retry p_pred p_backoff p_min p_max].
  destruct (attempt >=? maxretry) eqn:E; [lia|].
  now rewrite Hpred, (exp_backoff_retry_after guarded oob rnd e attempt h ch n Hh Hp Hn Hr).
Qed.

Lemma attempts_app tr1 tr2 : attempts (tr1 ++ tr2) = attempts tr1 ++ attempts tr2.
Proof. induction tr1 as [|[t g|t d] tr IH]; simpl; congruence. Qed.

Lemma pauses_app tr1 tr2 : pauses (tr1 ++ tr2) = pauses tr1 ++ pauses tr2.
Proof. induction tr1 as [|[t g|t d] tr IH]; simpl; congruence. Qed.

Lemma attempts_snoc_attempt tr t g : attempts (tr ++ [EAttempt t g]) = attempts tr ++ [(t, g)].
Proof. apply attempts_app. Qed.
Lemma attempts_snoc_pause tr t d : attempts (tr ++ [EPause t d]) = attempts tr.
Proof. rewrite attempts_app. apply app_nil_r. Qed.
Lemma pauses_snoc_attempt tr t g : pauses (tr ++ [EAttempt t g]) = pauses tr.
Proof. rewrite pauses_app. apply app_nil_r. Qed.
Lemma pauses_snoc_pause tr t d : pauses (tr ++ [EPause t d]) = pauses tr ++ [(t, d)].
Proof. apply pauses_app. Qed.
#[local] Hint Rewrite attempts_snoc_attempt attempts_snoc_pause pauses_snoc_attempt pauses_snoc_pause : trace.

Definition maxr (p : policy) : Z := Z.max 0 (p_max_retry p).

Inductive step_spec (p : policy) (cn : cancel) (bd : body) (st : bstate) (sc : list beh)
          (t attempt : Z) (tr : list event) : step_res -> Prop :=
| SSdone bh sc' got st1 o t1 r :
    next_beh sc = (bh, sc') -> serve cn bd st bh t = (got, st1, o, t1) ->
    r = result_of_outcome o \/ r = fail_result o \/ (r = RPanic /\ generic_retry p attempt o = DPanic) ->
    step_spec p cn bd st sc t attempt tr (Done (mkOut r st1 sc' t1 (tr ++ [EAttempt t got])))
| SScancel bh sc' got st1 o t1 d st2 :
    next_beh sc = (bh, sc') -> serve cn bd st bh t = (got, st1, o, t1) ->
    generic_retry p attempt o = DWait d -> 0 <= d -> rt_rewind bd st1 = RwOk st2 ->
    pause_cancelled cn (t1 + d) = true ->
    step_spec p cn bd st sc t attempt tr
              (Done (mkOut RCtx st2 sc' (cancel_clock cn t1) ((tr ++ [EAttempt t got]) ++ [EPause t1 d])))
| SSnext bh sc' got st1 o t1 d st2 :
    next_beh sc = (bh, sc') -> serve cn bd st bh t = (got, st1, o, t1) ->
    generic_retry p attempt o = DWait d -> 0 <= d -> rt_rewind bd st1 = RwOk st2 ->
    pause_cancelled cn (t1 + d) = false ->
    step_spec p cn bd st sc t attempt tr
              (Next st2 sc' (t1 + d) ((tr ++ [EAttempt t got]) ++ [EPause t1 d])).

Lemma rt_step_spec p cn bd st sc t attempt tr :
  step_spec p cn bd st sc t attempt tr (rt_step p cn bd st sc t attempt tr).
Proof.
  unfold rt_step.
  destruct (next_beh sc) as [bh sc'] eqn:Hn.
  destruct (serve cn bd st bh t) as [[[got st1] o] t1] eqn:Hs.
  destruct (generic_retry p attempt o) as [| |d|] eqn:Hg; try (eapply SSdone; eauto).
  destruct (d <? 0) eqn:Hd; [eapply SSdone; eauto|].
  destruct (rt_rewind bd st1) as [st2| |] eqn:Hr; try (eapply SSdone; eauto).
  destruct (pause_cancelled cn (t1 + d)) eqn:Hc; [eapply SScancel|eapply SSnext]; eauto; lia.
Qed.

(* an invariant carried by every iteration gives the postcondition: the fuel of round_trip always
   suffices, since a pause is only decided below the attempt bound.  Applied with [Inv] alone:
   [Post] is read off the goal *)
Section LoopInv.
  Variables (p : policy) (cn : cancel) (bd : body).
  Variable Inv : bstate -> list beh -> Z -> Z -> list event -> Prop.
  Variable Post : rt_out -> Prop.
  Hypothesis step_ok :
    forall st sc t a tr r, Inv st sc t a tr -> 0 <= a <= maxr p -> step_spec p cn bd st sc t a tr r ->
      match r with
      | Done o => Post o
      | Next st' sc' t' tr' => Inv st' sc' t' (a + 1) tr'
      end.

  Lemma rt_loop_inv fuel : forall st sc t a tr,
    Inv st sc t a tr -> 0 <= a <= maxr p -> maxr p - a < Z.of_nat fuel ->
    Post (rt_loop fuel p cn bd st sc t a tr).
  Proof.
    induction fuel as [|fuel IH]; intros st sc t a tr HI Ha Hf; [simpl in Hf; lia|].
    cbn [rt_loop]. pose proof (rt_step_spec p cn bd st sc t a tr) as Hspec.
    specialize (step_ok st sc t a tr _ HI Ha Hspec).
    destruct Hspec as [| |bh sc' got st1 o t1 d st2 _ _ Hg _ _ _]; try exact step_ok.
    apply generic_retry_wait in Hg as [Hlt _]. apply IH; [exact step_ok|unfold maxr in *; lia..].
  Qed.

  Lemma round_trip_inv st sc t :
    Inv st sc t 0 [] -> Post (round_trip p cn bd st sc t).
  Proof.
    intro HI. unfold round_trip. apply rt_loop_inv; [exact HI|unfold maxr; lia|].
    unfold rt_fuel, maxr. lia.
  Qed.
End LoopInv.

(* a transport whose backoff cannot panic never panics; the model artefact RFuel never shows up *)
Lemma round_trip_result p cn bd st sc t :
  o_res (round_trip p cn bd st sc t) <> RFuel /\
  ((forall a o, p_backoff p a o <> BPanic) -> o_res (round_trip p cn bd st sc t) <> RPanic).
Proof.
  apply (round_trip_inv p cn bd (fun _ _ _ _ _ => True)); [|exact I].
  intros st0 sc0 t0 a tr r _ _ H. destruct H as [bh sc' got st1 o t1 r _ _ Hr| |]; cbn [o_res]; [|easy..].
  destruct Hr as [->|[->|[-> Hg]]].
  - destruct o; easy.
  - destruct o; easy.
  - split; [easy|]. intros Hb _. now apply (generic_retry_no_panic p a o Hb).
Qed.

Lemma round_trip_no_fuel p cn bd st sc t : o_res (round_trip p cn bd st sc t) <> RFuel.
Proof. apply round_trip_result. Qed.

Lemma round_trip_attempts p cn bd st sc t :
  let n := Z.of_nat (length (attempts (o_trace (round_trip p cn bd st sc t)))) in
  1 <= n <= maxr p + 1.
Proof.
  apply (round_trip_inv p cn bd (fun _ _ _ a tr => Z.of_nat (length (attempts tr)) = a)); [|reflexivity].
  intros st0 sc0 t0 a tr r HI Ha H.
  destruct H; cbn [o_trace]; autorewrite with trace; rewrite app_length; cbn [length]; lia.
Qed.

Lemma round_trip_pauses p cn bd st sc t :
  p_min p <= p_max p ->
  Forall (fun td => p_min p <= snd td <= p_max p /\ 0 <= snd td)
         (pauses (o_trace (round_trip p cn bd st sc t))).
Proof.
  intro Hmm.
  apply (round_trip_inv p cn bd
           (fun _ _ _ _ tr => Forall (fun td => p_min p <= snd td <= p_max p /\ 0 <= snd td) (pauses tr)));
    [|constructor].
  intros st0 sc0 t0 a tr r HI Ha H.
  assert (Hd : forall t1 d o, generic_retry p a o = DWait d -> 0 <= d ->
            Forall (fun td => p_min p <= snd td <= p_max p /\ 0 <= snd td) (pauses tr ++ [(t1, d)])).
  { intros t1 d o Hg H0. apply Forall_app. split; [exact HI|]. constructor; [|constructor].
    split; [now apply (generic_retry_bounds p a o)|exact H0]. }
  destruct H; cbn [o_trace]; autorewrite with trace; eauto.
Qed.

Lemma round_trip_nonretryable p cn bd st sc t bh sc' got st1 o t1 :
  next_beh sc = (bh, sc') -> serve cn bd st bh t = (got, st1, o, t1) ->
  p_pred p o <> PRetry ->
  exists r, (r = result_of_outcome o \/ r = fail_result o) /\
            round_trip p cn bd st sc t = mkOut r st1 sc' t1 [EAttempt t got].
Proof.
  intros Hn Hs Hp. unfold round_trip, rt_fuel. cbn [rt_loop]. unfold rt_step. rewrite Hn, Hs.
  destruct (generic_retry_nonretryable p 0 o Hp) as [-> | ->]; eauto.
Qed.

Definition received (bd : body) (bh : beh) : str := fst (take_body (b_read bh) (bdata bd)).
Definition wf_body (bd : body) : Prop := bk bd = KNone \/ bk bd = KNoBody -> bdata bd = [].

Lemma received_prefix bd bh : exists rest, bdata bd = received bd bh ++ rest.
Proof.
  unfold received, take_body. destruct (b_read bh) as [k|]; cbn [fst].
  - exists (skipn k (bdata bd)). symmetry. apply firstn_skipn.
  - exists []. now rewrite app_nil_r.
Qed.

Lemma received_all bd bh : b_read bh = None -> received bd bh = bdata bd.
Proof. unfold received, take_body. now intros ->. Qed.

Lemma serve_eq cn bd st bh t :
  serve cn bd st bh t =
  (fst (take_body (b_read bh) (s_rest st)), mkSt (snd (take_body (b_read bh) (s_rest st))) (s_calls st),
   (if ended_at cn t || cancelled_before cn (t + b_lat bh) then cancel_outcome cn else b_out bh),
   (if ended_at cn t || cancelled_before cn (t + b_lat bh) then cancel_clock cn t else t + b_lat bh)).
Proof.
  unfold serve. destruct (take_body (b_read bh) (s_rest st)) as [g r].
  destruct (ended_at cn t || cancelled_before cn (t + b_lat bh)); reflexivity.
Qed.

Lemma serve_none_eq bd st bh t :
  serve None bd st bh t =
  (fst (take_body (b_read bh) (s_rest st)), mkSt (snd (take_body (b_read bh) (s_rest st))) (s_calls st),
   b_out bh, t + b_lat bh).
Proof. apply serve_eq. Qed.

Lemma take_body_nil r : take_body r [] = ([], []).
Proof. destruct r as [k|]; [|reflexivity]. unfold take_body. now rewrite firstn_nil, skipn_nil. Qed.

Lemma rewind_eq bd st : rewind bd st = rewind_closed bd st.
Proof.
  unfold rewind, rewind_closed, body_nil, body_nobody, getbody_nil, getbody_fails.
  destruct (bk bd) as [| | | |k]; try reflexivity. destruct (s_calls st <? k)%nat; reflexivity.
Qed.
Lemma rt_rewind_eq bd st : rt_rewind bd st = rt_rewind_closed bd st.
Proof.
  unfold rt_rewind, rt_rewind_closed, rewind_closed, body_nil, body_nobody, getbody_nil, getbody_fails.
  destruct (bk bd) as [| | | |k]; try reflexivity. destruct (s_calls st <? k)%nat; reflexivity.
Qed.

(* the transport rewinds only where auth.rewindRequestBody would *)
Lemma rt_rewind_ok bd st st2 : rt_rewind bd st = RwOk st2 -> rewind bd st = RwOk st2.
Proof. rewrite rt_rewind_eq, rewind_eq. unfold rt_rewind_closed. destruct (bk bd); auto; discriminate. Qed.

Lemma rewind_fresh bd st st2 :
  wf_body bd -> (bk bd = KNone \/ bk bd = KNoBody -> s_rest st = []) -> rewind bd st = RwOk st2 -> s_rest st2 = bdata bd.
Proof.
  rewrite rewind_eq. unfold rewind_closed, wf_body. intros Hwf Hn.
  destruct (bk bd) as [| | | |k]; try destruct (s_calls st <? k)%nat; intros [= <-]; try reflexivity;
    rewrite Hn, Hwf; auto.
Qed.

Definition replayable (bd : body) : Prop := bk bd = KReplay \/ bk bd = KNone.

Lemma rewind_replayable bd st : replayable bd -> exists st2, rewind bd st = RwOk st2.
Proof. intros [H|H]; rewrite rewind_eq; unfold rewind_closed; rewrite H; eauto. Qed.

Lemma rt_rewind_replayable bd st : replayable bd -> exists st2, rt_rewind bd st = RwOk st2.
Proof. intros [H|H]; rewrite rt_rewind_eq; unfold rt_rewind_closed, rewind_closed; rewrite H; eauto. Qed.

Lemma next_beh_skipn k : forall sc,
  next_beh (skipn k sc) = (nth k sc default_beh, skipn (S k) sc).
Proof.
  induction k as [|k IH]; intros [|x sc]; try reflexivity.
  cbn [skipn nth]. rewrite IH. reflexivity.
Qed.

Definition bodies_ok (bd : body) (sc : list beh) (base : nat) (l : list (Z * str)) : Prop :=
  forall i t got, nth_error l i = Some (t, got) -> got = received bd (nth (base + i) sc default_beh).

Lemma bodies_ok_nil bd sc base : bodies_ok bd sc base [].
Proof. intros [|i] t got Hi; discriminate. Qed.

Lemma bodies_ok_app bd sc base l1 l2 :
  bodies_ok bd sc base l1 -> bodies_ok bd sc (base + length l1) l2 -> bodies_ok bd sc base (l1 ++ l2).
Proof.
  intros B1 B2 i t got Hi.
  destruct (Nat.lt_ge_cases i (length l1)) as [Hlt|Hge].
  - rewrite nth_error_app1 in Hi by exact Hlt. exact (B1 i t got Hi).
  - rewrite nth_error_app2 in Hi by exact Hge. apply B2 in Hi.
    replace (base + i)%nat with (base + length l1 + (i - length l1))%nat by lia. exact Hi.
Qed.

(* what a send that starts with the whole body leaves behind, [base] = requests the server saw
   before: every attempt received what the script position asks for, the script moved on by the
   attempts, a request without body is still empty *)
Definition sent_whole (bd : body) (sc0 : list beh) (base : nat) (o : rt_out) : Prop :=
  bodies_ok bd sc0 base (attempts (o_trace o)) /\
  o_script o = skipn (base + length (attempts (o_trace o))) sc0 /\
  (bk bd = KNone \/ bk bd = KNoBody -> s_rest (o_st o) = []).

Lemma round_trip_bodies_gen p cn bd sc0 base st t :
  wf_body bd -> s_rest st = bdata bd ->
  sent_whole bd sc0 base (round_trip p cn bd st (skipn base sc0) t).
Proof.
  intros Hwf Hfresh.
  apply (round_trip_inv p cn bd
     (fun st' sc' _ _ tr => s_rest st' = bdata bd /\ sc' = skipn (base + length (attempts tr)) sc0 /\
                            bodies_ok bd sc0 base (attempts tr))).
  2:{ cbn [attempts length]. rewrite Nat.add_0_r. auto using bodies_ok_nil. }
  intros st0 sc1 t0 a tr r (Hr & Hsc & Hb) Ha H.
  assert (Hstep : forall bh sc' got st1 o t1,
             next_beh sc1 = (bh, sc') -> serve cn bd st0 bh t0 = (got, st1, o, t1) ->
             bodies_ok bd sc0 base (attempts tr ++ [(t0, got)]) /\
             sc' = skipn (base + length (attempts tr ++ [(t0, got)])) sc0 /\
             (bk bd = KNone \/ bk bd = KNoBody -> s_rest st1 = [])).
  { intros bh sc' got st1 o t1 Hn Hs.
    subst sc1. rewrite next_beh_skipn in Hn. rewrite serve_eq, Hr in Hs. injection Hn as <- <-. injection Hs as <- <- _ _.
    split; [|split].
    - apply bodies_ok_app; [exact Hb|]. intros [|[|i]] t' got' [=]. subst. now rewrite Nat.add_0_r.
    - rewrite app_length, Nat.add_1_r, Nat.add_succ_r. reflexivity.
    - intro Hk. cbn [s_rest]. now rewrite (Hwf Hk), take_body_nil. }
  destruct H as [bh sc' got st1 o t1 r Hn Hs _|bh sc' got st1 o t1 d st2 Hn Hs _ _ Hrw _|bh sc' got st1 o t1 d st2 Hn Hs _ _ Hrw _];
    destruct (Hstep _ _ _ _ _ _ Hn Hs) as (B1 & B2 & B3);
    unfold sent_whole; cbn [o_trace o_script o_st]; autorewrite with trace.
  - auto.
  - apply rt_rewind_ok, (rewind_fresh bd st1 st2 Hwf B3) in Hrw. repeat split; auto.
    intro Hk. rewrite Hrw. exact (Hwf Hk).
  - apply rt_rewind_ok, (rewind_fresh bd st1 st2 Hwf B3) in Hrw. repeat split; auto.
Qed.

Lemma resend_bodies p cn bd sc0 base o1 st2 t :
  wf_body bd -> sent_whole bd sc0 base o1 -> rewind bd (o_st o1) = RwOk st2 ->
  sent_whole bd sc0 (base + length (attempts (o_trace o1))) (round_trip p cn bd st2 (o_script o1) t).
Proof.
  intros Hwf (_ & -> & N1) Hrw. apply round_trip_bodies_gen; [exact Hwf|]. now apply (rewind_fresh bd (o_st o1)).
Qed.

Lemma round_trip_bodies p cn bd sc st t :
  wf_body bd -> s_rest st = bdata bd ->
  forall i t' got, nth_error (attempts (o_trace (round_trip p cn bd st sc t))) i = Some (t', got) ->
    got = received bd (nth i sc default_beh).
Proof. intros Hwf Hf. exact (proj1 (round_trip_bodies_gen p cn bd sc 0%nat st t Hwf Hf)). Qed.

(* a body that cannot be replayed is sent once; the call ends with that answer
   (or the policy's panic), never with a second attempt *)
Lemma round_trip_not_replayable p cn bd st sc t :
  (forall st', rewind bd st' = RwNoGetBody \/ rewind bd st' = RwGetBodyErr) ->
  exists bh sc' got st1 o t1,
    next_beh sc = (bh, sc') /\ serve cn bd st bh t = (got, st1, o, t1) /\
    o_trace (round_trip p cn bd st sc t) = [EAttempt t got] /\
    (o_res (round_trip p cn bd st sc t) = result_of_outcome o \/
     o_res (round_trip p cn bd st sc t) = fail_result o \/
     o_res (round_trip p cn bd st sc t) = RPanic).
Proof.
  intro Hrw. unfold round_trip, rt_fuel. cbn [rt_loop].
  destruct (rt_step_spec p cn bd st sc t 0 [])
    as [bh sc' got st1 o t1 r Hn Hs Hr|bh sc' got st1 o t1 d st2 _ _ _ _ Hr _|bh sc' got st1 o t1 d st2 _ _ _ _ Hr _].
  - exists bh, sc', got, st1, o, t1. cbn [o_trace o_res app]. intuition.
  - apply rt_rewind_ok in Hr. destruct (Hrw st1); congruence.
  - apply rt_rewind_ok in Hr. destruct (Hrw st1); congruence.
Qed.

Lemma not_replayable_once p cn bd st sc t :
  (forall st', rewind bd st' = RwNoGetBody \/ rewind bd st' = RwGetBodyErr) ->
  length (attempts (o_trace (round_trip p cn bd st sc t))) = 1%nat.
Proof.
  intro Hrw. destruct (round_trip_not_replayable p cn bd st sc t Hrw) as (bh & sc' & got & st1 & o & t1 & _ & _ & -> & _).
  reflexivity.
Qed.

Lemma oneshot_not_replayable bd : bk bd = KOneShot ->
  forall st', rewind bd st' = RwNoGetBody \/ rewind bd st' = RwGetBodyErr.
Proof. intros H st'. left. rewrite rewind_eq. unfold rewind_closed. now rewrite H. Qed.

Lemma manifest_push_replayable bd :
  bk (manifest_push_body true bd) <> KOneShot /\ bdata (manifest_push_body true bd) = bdata bd.
Proof. unfold manifest_push_body. destruct (bk bd) eqn:E; cbn; rewrite ?E; split; congruence. Qed.

(* the select of the current source: a pause ending at x ends the call iff the context has
   ended by then (the generated flag says the timer branch re-checks ctx.Err()) *)
Lemma pause_cancelled_spec tc dl x : pause_cancelled (Some (tc, dl)) x = (tc <=? x).
Proof. reflexivity. Qed.

Lemma pause_cancelled_none x : pause_cancelled None x = false.
Proof. reflexivity. Qed.

(* the original select: the loop could go on at an instant at which the context had ended *)
Lemma pause_cancelled_prefix_refuted :
  exists cn x, ended_at cn x = true /\ pause_cancelled_gen false cn x = false.
Proof. exists (Some (5, true)), 5. split; reflexivity. Qed.

Lemma serve_time_cancel tc dl bd st bh t got st1 o t1 :
  serve (Some (tc, dl)) bd st bh t = (got, st1, o, t1) ->
  t1 <= Z.max t tc /\ (t < tc -> t1 <= tc) /\ (tc <= t -> t1 = Z.max t tc).
Proof.
  rewrite serve_eq. cbn [ended_at cancelled_before cancel_clock].
  destruct (tc <=? t) eqn:E1; destruct (tc <? t + b_lat bh) eqn:E2; cbn [orb]; intros [= _ _ _ <-]; lia.
Qed.

Lemma tl_snoc {A} (l : list A) x : tl (l ++ [x]) = match l with [] => [] | _ => tl l ++ [x] end.
Proof. destruct l; reflexivity. Qed.

(* context ending at tc, call started at t *)
Definition cancel_post (tc t : Z) (o : rt_out) : Prop :=
  Forall (fun a => fst a < tc) (tl (attempts (o_trace o))) /\
  o_time o <= Z.max t tc /\
  Forall (fun pd => fst pd + snd pd < tc \/ (o_res o = RCtx /\ o_time o = Z.max (fst pd) tc))
         (pauses (o_trace o)) /\
  (tc <= t -> length (attempts (o_trace o)) = 1%nat).

(* every attempt but the first of a send starts strictly before the context ends; the call is
   over when the context ends; a pause the context ends in (or has ended before: zero pauses,
   contexts that were over from the start) ends the call with the context's error; a context
   that is over when the call starts allows the first attempt only.  No hypothesis on the
   policy (MinWait = 0 included), the start instant or the script. *)
Lemma round_trip_cancel p bd st sc t tc dl :
  cancel_post tc t (round_trip p (Some (tc, dl)) bd st sc t).
Proof.
  apply (round_trip_inv p (Some (tc, dl)) bd
     (fun _ _ t' _ tr => ((tr = [] /\ t' = t) \/ (attempts tr <> [] /\ t' < tc /\ t < tc)) /\
                         Forall (fun a => fst a < tc) (tl (attempts tr)) /\
                         Forall (fun pd => fst pd + snd pd < tc) (pauses tr))).
  2:{ repeat split; auto; constructor. }
  intros st0 sc0 t0 a tr r (Hpos & Ha & Hp) _ H.
  assert (Hold : forall (res : result) (time : Z), Forall (fun pd => fst pd + snd pd < tc \/
                    (res = RCtx /\ time = Z.max (fst pd) tc)) (pauses tr)).
  { intros res time. eapply Forall_impl; [|exact Hp]. intros pd A. auto. }
  assert (Hatt : forall got, Forall (fun a => fst a < tc) (tl (attempts tr ++ [(t0, got)]))).
  { intro got. rewrite tl_snoc. destruct Hpos as [[-> _]|(Hne & Hlt & _)]; [constructor|].
    destruct (attempts tr) eqn:E; [congruence|]. rewrite <- E in *.
    apply Forall_app. split; [exact Ha|]. constructor; [exact Hlt|constructor]. }
  assert (Hlen : forall got, tc <= t -> length (attempts tr ++ [(t0, got)]) = 1%nat).
  { intros got Hge. destruct Hpos as [[-> _]|(_ & _ & Hlt)]; [reflexivity|lia]. }
  assert (Hsrv : forall bh got st1 o t1, serve (Some (tc, dl)) bd st0 bh t0 = (got, st1, o, t1) ->
             t1 <= Z.max t tc /\ (tc <= t -> t1 = Z.max t tc)).
  { intros bh got st1 o t1 Hs. destruct (serve_time_cancel _ _ _ _ _ _ _ _ _ _ Hs) as (T1 & T2 & T3).
    destruct Hpos as [[_ ->]|(_ & Hlt & ?)]; [auto|]. split; [specialize (T2 Hlt)|]; lia. }
  unfold cancel_post.
  destruct H as [bh sc' got st1 o t1 r _ Hs _|bh sc' got st1 o t1 d st2 _ Hs _ _ _ Hc|bh sc' got st1 o t1 d st2 _ Hs _ H0 _ Hc];
    cbn [o_trace o_time o_res]; autorewrite with trace;
    destruct (Hsrv _ _ _ _ _ Hs) as (T1 & T3).
  - auto.
  - cbn [cancel_clock]. repeat split; auto; [lia|].
    apply Forall_app. split; [apply Hold|]. constructor; [right; split; reflexivity|constructor].
  - rewrite pause_cancelled_spec in Hc. apply Z.leb_gt in Hc.
    assert (Htlt : t < tc) by (destruct (Z.lt_ge_cases t tc) as [L|G]; [exact L|specialize (T3 G); lia]).
    split; [|split].
    + right. split; [destruct (attempts tr); discriminate|lia].
    + apply Hatt.
    + apply Forall_app. split; [exact Hp|]. repeat constructor. exact Hc.
Qed.

(* Calls made of several sends: auth.Client.Do (token served at once, token request spelled out,
   warm cache) and blobStore.Push on top.  Every property below goes by cases on the control flow
   of the call; in each case a trace is empty or that of one round trip, and the facts about one
   round trip compose. *)

Lemma send_bounded p cn bd st sc t :
  Z.of_nat (length (attempts (o_trace (round_trip p cn bd st sc t)))) <= maxr p + 1.
Proof. apply round_trip_attempts. Qed.

Lemma no_send_bounded p : Z.of_nat (length (attempts [])) <= maxr p + 1.
Proof. unfold maxr. cbn. lia. Qed.

Lemma auth_do_at_attempts warm p cn bd sc t0 :
  let a := auth_do_at warm p cn bd sc t0 in
  1 <= Z.of_nat (length (attempts (a_first a))) <= maxr p + 1 /\
  Z.of_nat (length (attempts (a_second a))) <= maxr p + 1 /\
  Z.of_nat (length (attempts (a_third a))) <= maxr p + 1.
Proof.
  unfold auth_do_at. pose proof (no_send_bounded p) as H0.
  pose proof (round_trip_attempts p cn bd (init_state bd) sc t0) as H1. cbv zeta in H1.
  set (o1 := round_trip p cn bd (init_state bd) sc t0) in *.
  destruct (challenged (o_res o1)); [|cbn [a_first a_second a_third]; auto].
  destruct (rewind bd (o_st o1)) as [st2| |]; [|cbn [a_first a_second a_third]; auto..].
  destruct (_ && _ && _); [|cbn [a_first a_second a_third]; auto using send_bounded].
  destruct (rewind _ _); cbn [a_first a_second a_third]; auto using send_bounded.
Qed.

Lemma auth_do_tok_at_attempts p cn bd sc tb tsc t0 :
  let a := auth_do_tok_at p cn bd sc tb tsc t0 in
  1 <= Z.of_nat (length (attempts (ak_first a))) <= maxr p + 1 /\
  Z.of_nat (length (attempts (ak_token a))) <= maxr p + 1 /\
  Z.of_nat (length (attempts (ak_second a))) <= maxr p + 1.
Proof.
  unfold auth_do_tok_at. pose proof (no_send_bounded p) as H0.
  pose proof (round_trip_attempts p cn bd (init_state bd) sc t0) as H1. cbv zeta in H1.
  set (o1 := round_trip p cn bd (init_state bd) sc t0) in *.
  destruct (challenged (o_res o1)); [|cbn [ak_first ak_token ak_second]; auto].
  set (k := if bearer_challenged (o_res o1) then _ else _).
  assert (HK : Z.of_nat (length (attempts (k_trace k))) <= maxr p + 1).
  { unfold k, fetch_token. destruct (bearer_challenged (o_res o1)); [apply send_bounded|exact H0]. }
  destruct (k_ok k); [|cbn [ak_first ak_token ak_second]; auto].
  destruct (rewind bd (o_st o1)); cbn [ak_first ak_token ak_second]; auto using send_bounded.
Qed.

Lemma auth_do_tokw_at_attempts p cn bd sc tb tsc t0 :
  let a := auth_do_tokw_at p cn bd sc tb tsc t0 in
  1 <= Z.of_nat (length (attempts (aw_first a))) <= maxr p + 1 /\
  Z.of_nat (length (attempts (aw_second a))) <= maxr p + 1 /\
  Z.of_nat (length (attempts (aw_token a))) <= maxr p + 1 /\
  Z.of_nat (length (attempts (aw_third a))) <= maxr p + 1.
Proof.
  unfold auth_do_tokw_at, fetch_token. pose proof (no_send_bounded p) as H0.
  pose proof (round_trip_attempts p cn bd (init_state bd) sc t0) as H1. cbv zeta in H1.
  set (o1 := round_trip p cn bd (init_state bd) sc t0) in *.
  destruct (challenged (o_res o1)); [|cbn [aw_first aw_second aw_token aw_third]; auto].
  destruct (rewind bd (o_st o1)) as [st2| |]; [|cbn [aw_first aw_second aw_token aw_third]; auto..].
  destruct (_ && _); [|cbn [aw_first aw_second aw_token aw_third]; auto using send_bounded].
  cbn [k_ok k_trace]. destruct (token_ok _); [|cbn [aw_first aw_second aw_token aw_third]; auto 6 using send_bounded].
  destruct (rewind _ _); cbn [aw_first aw_second aw_token aw_third]; auto 6 using send_bounded.
Qed.

Lemma auth_do_at_bodies_gen warm p cn bd sc0 base t0 :
  wf_body bd ->
  let a := auth_do_at warm p cn bd (skipn base sc0) t0 in
  bodies_ok bd sc0 base (auth_attempts a).
Proof.
  intro Hwf. unfold auth_do_at, auth_attempts.
  pose proof (round_trip_bodies_gen p cn bd sc0 base (init_state bd) t0 Hwf eq_refl) as S1.
  set (o1 := round_trip p cn bd (init_state bd) (skipn base sc0) t0) in *.
  assert (B1 : bodies_ok bd sc0 base (attempts (o_trace o1) ++ [])) by (rewrite app_nil_r; apply S1).
  destruct (challenged (o_res o1)); [|exact B1].
  destruct (rewind bd (o_st o1)) as [st2| |] eqn:R1; [|exact B1..].
  pose proof (resend_bodies p cn bd sc0 base o1 st2 (o_time o1) Hwf S1 R1) as S2.
  set (o2 := round_trip p cn bd st2 (o_script o1) (o_time o1)) in *.
  assert (B2 : bodies_ok bd sc0 base (attempts (o_trace o1) ++ attempts (o_trace o2) ++ [])).
  { rewrite app_nil_r. apply bodies_ok_app; [apply S1|apply S2]. }
  destruct (_ && _ && _); [|exact B2].
  destruct (rewind bd (o_st o2)) as [st3| |] eqn:R2; [|exact B2..].
  apply bodies_ok_app; [apply S1|]. apply bodies_ok_app; [apply S2|].
  apply (resend_bodies p cn bd sc0 _ o2 st3 (o_time o2) Hwf S2 R2).
Qed.

Lemma plain_do_at_bodies_gen p cn bd sc0 base t0 :
  wf_body bd ->
  bodies_ok bd sc0 base (auth_attempts (plain_do_at p cn bd (skipn base sc0) t0)).
Proof.
  intro Hwf. unfold plain_do_at, auth_attempts. cbn [a_first a_second a_third attempts].
  rewrite !app_nil_r. apply round_trip_bodies_gen; auto.
Qed.

Lemma fetch_token_bodies_gen p cn tb tsc0 kbase t0 :
  wf_body tb -> bodies_ok tb tsc0 kbase (attempts (k_trace (fetch_token p cn tb (skipn kbase tsc0) t0))).
Proof. intro Hwf. unfold fetch_token. cbn [k_trace]. apply round_trip_bodies_gen; auto. Qed.

(* the registry's requests: first send and re-send carry the whole body; the token service's
   requests carry the whole form ([base], [kbase]: requests the registry / the token service
   saw before) *)
Lemma auth_do_tok_at_bodies_gen p cn bd sc0 base tb tsc0 kbase t0 :
  wf_body bd -> wf_body tb ->
  let a := auth_do_tok_at p cn bd (skipn base sc0) tb (skipn kbase tsc0) t0 in
  bodies_ok bd sc0 base (attempts (ak_first a) ++ attempts (ak_second a)) /\
  bodies_ok tb tsc0 kbase (attempts (ak_token a)).
Proof.
  intros Hwf Hwt. unfold auth_do_tok_at.
  pose proof (round_trip_bodies_gen p cn bd sc0 base (init_state bd) t0 Hwf eq_refl) as S1.
  set (o1 := round_trip p cn bd (init_state bd) (skipn base sc0) t0) in *.
  assert (B1 : bodies_ok bd sc0 base (attempts (o_trace o1) ++ [])) by (rewrite app_nil_r; apply S1).
  destruct (challenged (o_res o1)); [|split; [exact B1|apply bodies_ok_nil]].
  set (k := if bearer_challenged (o_res o1) then _ else _).
  assert (BK : bodies_ok tb tsc0 kbase (attempts (k_trace k))).
  { unfold k. destruct (bearer_challenged (o_res o1)); [now apply fetch_token_bodies_gen|apply bodies_ok_nil]. }
  destruct (k_ok k); [|split; [exact B1|exact BK]].
  destruct (rewind bd (o_st o1)) as [st2| |] eqn:R1; [|split; [exact B1|exact BK]..].
  split; [|exact BK]. apply bodies_ok_app; [apply S1|].
  apply (resend_bodies p cn bd sc0 base o1 st2 (k_time k) Hwf S1 R1).
Qed.

Lemma plain_tok_at_bodies_gen p cn bd sc0 base t0 :
  wf_body bd ->
  bodies_ok bd sc0 base (authk_attempts (plain_tok_at p cn bd (skipn base sc0) t0)).
Proof.
  intro Hwf. unfold plain_tok_at, authk_attempts. cbn [ak_first ak_second attempts]. rewrite app_nil_r.
  apply round_trip_bodies_gen; auto.
Qed.

Lemma auth_do_tokw_at_bodies p cn bd sc tb tsc t0 :
  wf_body bd -> wf_body tb ->
  let a := auth_do_tokw_at p cn bd sc tb tsc t0 in
  bodies_ok bd sc 0 (attempts (aw_first a) ++ attempts (aw_second a) ++ attempts (aw_third a)) /\
  bodies_ok tb tsc 0 (attempts (aw_token a)).
Proof.
  intros Hwf Hwt. unfold auth_do_tokw_at.
  pose proof (round_trip_bodies_gen p cn bd sc 0%nat (init_state bd) t0 Hwf eq_refl) as S1. cbn [skipn] in S1.
  set (o1 := round_trip p cn bd (init_state bd) sc t0) in *.
  assert (B1 : bodies_ok bd sc 0 (attempts (o_trace o1) ++ [])) by (rewrite app_nil_r; apply S1).
  destruct (challenged (o_res o1)); [|split; [exact B1|apply bodies_ok_nil]].
  destruct (rewind bd (o_st o1)) as [st2| |] eqn:R1; [|split; [exact B1|apply bodies_ok_nil]..].
  pose proof (resend_bodies p cn bd sc 0%nat o1 st2 (o_time o1) Hwf S1 R1) as S2.
  set (o2 := round_trip p cn bd st2 (o_script o1) (o_time o1)) in *.
  assert (B2 : bodies_ok bd sc 0 (attempts (o_trace o1) ++ attempts (o_trace o2) ++ [])).
  { rewrite app_nil_r. apply bodies_ok_app; [apply S1|apply S2]. }
  destruct (_ && _); [|split; [exact B2|apply bodies_ok_nil]].
  pose proof (fetch_token_bodies_gen p cn tb tsc 0%nat (o_time o2) Hwt) as BK. cbn [skipn] in BK.
  set (k := fetch_token p cn tb tsc (o_time o2)) in *.
  destruct (k_ok k); [|split; [exact B2|exact BK]].
  destruct (rewind bd (o_st o2)) as [st3| |] eqn:R2; [|split; [exact B2|exact BK]..].
  split; [|exact BK]. apply bodies_ok_app; [apply S1|]. apply bodies_ok_app; [apply S2|].
  apply (resend_bodies p cn bd sc _ o2 st3 (k_time k) Hwf S2 R2).
Qed.

(* a body that cannot be replayed reaches the registry once; a challenge then ends the call
   with the rewind error instead of a truncated re-send *)

Lemma auth_do_at_not_replayable warm p cn bd sc t0 :
  (forall st', rewind bd st' = RwNoGetBody \/ rewind bd st' = RwGetBodyErr) ->
  let a := auth_do_at warm p cn bd sc t0 in
  length (attempts (a_first a)) = 1%nat /\ a_second a = [] /\ a_third a = [] /\
  (a_res a = RNotRewindable \/ a_res a = RGetBodyFailed \/
   a_res a = o_res (round_trip p cn bd (init_state bd) sc t0)) /\
  (challenged (o_res (round_trip p cn bd (init_state bd) sc t0)) = true ->
   a_res a = RNotRewindable \/ a_res a = RGetBodyFailed).
Proof.
  intro Hrw. unfold auth_do_at.
  pose proof (not_replayable_once p cn bd (init_state bd) sc t0 Hrw) as H1.
  set (o1 := round_trip p cn bd (init_state bd) sc t0) in *.
  destruct (challenged (o_res o1)).
  - destruct (Hrw (o_st o1)) as [E|E]; rewrite E; cbn [a_first a_second a_third a_res rewind_error]; repeat split; auto.
  - cbn [a_first a_second a_third a_res]. repeat split; auto. discriminate.
Qed.

Lemma auth_do_tok_at_not_replayable p cn bd sc tb tsc t0 :
  (forall st', rewind bd st' = RwNoGetBody \/ rewind bd st' = RwGetBodyErr) ->
  let a := auth_do_tok_at p cn bd sc tb tsc t0 in
  length (attempts (ak_first a)) = 1%nat /\ ak_second a = [].
Proof.
  intro Hrw. unfold auth_do_tok_at.
  pose proof (not_replayable_once p cn bd (init_state bd) sc t0 Hrw) as H1.
  set (o1 := round_trip p cn bd (init_state bd) sc t0) in *.
  destruct (challenged (o_res o1)); [|cbn [ak_first ak_second]; auto].
  destruct (k_ok _); [|cbn [ak_first ak_second]; auto].
  destruct (Hrw (o_st o1)) as [E|E]; rewrite E; cbn [ak_first ak_second]; auto.
Qed.

Lemma auth_do_tokw_at_not_replayable p cn bd sc tb tsc t0 :
  (forall st', rewind bd st' = RwNoGetBody \/ rewind bd st' = RwGetBodyErr) ->
  let a := auth_do_tokw_at p cn bd sc tb tsc t0 in
  length (attempts (aw_first a)) = 1%nat /\ aw_second a = [] /\ aw_token a = [] /\ aw_third a = [].
Proof.
  intro Hrw. unfold auth_do_tokw_at.
  pose proof (not_replayable_once p cn bd (init_state bd) sc t0 Hrw) as H1.
  set (o1 := round_trip p cn bd (init_state bd) sc t0) in *.
  destruct (challenged (o_res o1)); [|cbn [aw_first aw_second aw_token aw_third]; auto].
  destruct (Hrw (o_st o1)) as [E|E]; rewrite E; cbn [aw_first aw_second aw_token aw_third]; auto.
Qed.

(* a call started at t0 that ends with [res] at [time]; [trs]: the traces of its sends in the
   order of time, [] for a send that did not happen *)
Definition sends_post (tc t0 : Z) (res : result) (time : Z) (trs : list (list event)) : Prop :=
  Forall (fun tr => Forall (fun x => fst x < tc) (tl (attempts tr))) trs /\
  time <= Z.max t0 tc /\
  Forall (fun pd => fst pd + snd pd < tc \/ (res = RCtx /\ time = Z.max (fst pd) tc)) (concat (map pauses trs)).

Lemma sends_post_end tc t res trs : Forall (eq []) trs -> sends_post tc t res t trs.
Proof.
  intro H. split; [|split; [lia|]]; induction H as [|tr trs <- _ IH]; cbn [map concat pauses app]; auto.
  constructor; [constructor|exact IH].
Qed.

Lemma sends_post_skip tc t res time trs : sends_post tc t res time trs -> sends_post tc t res time ([] :: trs).
Proof. intros (A & T & P). split; [constructor; [constructor|exact A]|auto]. Qed.

Lemma sends_post_cons tc t o res time trs :
  cancel_post tc t o -> (o_res o = RCtx -> res = RCtx /\ time = o_time o) ->
  sends_post tc (o_time o) res time trs -> sends_post tc t res time (o_trace o :: trs).
Proof.
  intros (A1 & T1 & P1 & _) Hc (A & T & P). split; [constructor; assumption|]. split; [lia|].
  cbn [map concat]. apply Forall_app. split; [|exact P].
  eapply Forall_impl; [|exact P1]. intros pd [D|[E1 E2]]; [now left|right].
  destruct (Hc E1) as [-> ->]. auto.
Qed.

Lemma sends_post_then tc t o res time trs :
  cancel_post tc t o -> o_res o <> RCtx ->
  sends_post tc (o_time o) res time trs -> sends_post tc t res time (o_trace o :: trs).
Proof. intros C N. apply sends_post_cons; [exact C|]. intro E. contradiction. Qed.

Lemma sends_post_last tc t o res trs :
  cancel_post tc t o -> (o_res o = RCtx -> res = RCtx) -> Forall (eq []) trs ->
  sends_post tc t res (o_time o) (o_trace o :: trs).
Proof. intros C N F. apply sends_post_cons; [exact C|auto|now apply sends_post_end]. Qed.

Lemma sends_post_done tc t0 res time trs res' time' :
  sends_post tc t0 res time trs -> res <> RCtx -> time' <= Z.max t0 tc -> sends_post tc t0 res' time' trs.
Proof.
  intros (A & T & P) N T'. repeat split; auto. eapply Forall_impl; [|exact P]. intros pd [D|[E _]]; [now left|contradiction].
Qed.

Arguments sends_post_then {tc t o res time trs}.
Arguments sends_post_last {tc t o res trs}.

Lemma challenged_not_ctx r : challenged r = true -> r <> RCtx.
Proof. destruct r; cbn; congruence. Qed.
Lemma unauthorized_not_ctx r : unauthorized r = true -> r <> RCtx.
Proof. destruct r; cbn; congruence. Qed.
Lemma accepted_not_ctx r : accepted r = true -> r <> RCtx.
Proof. destruct r; cbn; congruence. Qed.
Lemma token_ok_not_ctx r : token_ok r = true -> r <> RCtx.
Proof. destruct r; cbn; congruence. Qed.
Lemma token_error_ctx r : r = RCtx -> token_error r = RCtx.
Proof. intros ->. reflexivity. Qed.

Definition all_pauses (a : auth_out) : list (Z * Z) :=
  pauses (a_first a) ++ pauses (a_second a) ++ pauses (a_third a).

(* [res], [time]: how the whole call ended *)
Definition sends_cancel_post (tc t0 : Z) (res : result) (time : Z) (a : auth_out) : Prop :=
  Forall (fun x => fst x < tc) (tl (attempts (a_first a))) /\
  Forall (fun x => fst x < tc) (tl (attempts (a_second a))) /\
  Forall (fun x => fst x < tc) (tl (attempts (a_third a))) /\
  a_time a <= Z.max t0 tc /\
  Forall (fun pd => fst pd + snd pd < tc \/ (res = RCtx /\ time = Z.max (fst pd) tc)) (all_pauses a).

Definition authk_cancel_post_at (tc t0 : Z) (res : result) (time : Z) (a : authk_out) : Prop :=
  Forall (fun x => fst x < tc) (tl (attempts (ak_first a))) /\
  Forall (fun x => fst x < tc) (tl (attempts (ak_token a))) /\
  Forall (fun x => fst x < tc) (tl (attempts (ak_second a))) /\
  ak_time a <= Z.max t0 tc /\
  Forall (fun pd => fst pd + snd pd < tc \/ (res = RCtx /\ time = Z.max (fst pd) tc))
         (pauses (ak_first a) ++ pauses (ak_token a) ++ pauses (ak_second a)).

Definition authw_cancel_post (tc t0 : Z) (a : authw_out) : Prop :=
  Forall (fun x => fst x < tc) (tl (attempts (aw_first a))) /\
  Forall (fun x => fst x < tc) (tl (attempts (aw_second a))) /\
  Forall (fun x => fst x < tc) (tl (attempts (aw_token a))) /\
  Forall (fun x => fst x < tc) (tl (attempts (aw_third a))) /\
  aw_time a <= Z.max t0 tc /\
  Forall (fun pd => fst pd + snd pd < tc \/ (aw_res a = RCtx /\ aw_time a = Z.max (fst pd) tc))
         (pauses (aw_first a) ++ pauses (aw_second a) ++ pauses (aw_token a) ++ pauses (aw_third a)).

(* the three record shapes, read as lists of sends *)
Lemma sends_cancel_post_intro tc t0 res time a :
  a_time a <= Z.max t0 tc -> sends_post tc t0 res time [a_first a; a_second a; a_third a] ->
  sends_cancel_post tc t0 res time a.
Proof.
  intros T (A & _ & P). repeat (apply Forall_cons_iff in A as [? A]). cbn [map concat] in P. rewrite app_nil_r in P.
  unfold sends_cancel_post, all_pauses. auto.
Qed.

Lemma authk_cancel_post_intro tc t0 res time a :
  ak_time a <= Z.max t0 tc -> sends_post tc t0 res time [ak_first a; ak_token a; ak_second a] ->
  authk_cancel_post_at tc t0 res time a.
Proof.
  intros T (A & _ & P). repeat (apply Forall_cons_iff in A as [? A]). cbn [map concat] in P. rewrite app_nil_r in P.
  unfold authk_cancel_post_at. auto.
Qed.

Lemma authw_cancel_post_intro tc t0 a :
  sends_post tc t0 (aw_res a) (aw_time a) [aw_first a; aw_second a; aw_token a; aw_third a] ->
  authw_cancel_post tc t0 a.
Proof.
  intros (A & T & P). repeat (apply Forall_cons_iff in A as [? A]). cbn [map concat] in P. rewrite app_nil_r in P.
  unfold authw_cancel_post. auto 6.
Qed.

Lemma plain_do_at_post p bd sc t0 tc dl :
  let a := plain_do_at p (Some (tc, dl)) bd sc t0 in
  sends_post tc t0 (a_res a) (a_time a) [a_first a; a_second a; a_third a].
Proof. apply sends_post_last; [apply round_trip_cancel|auto|repeat constructor]. Qed.

Lemma auth_do_at_post warm p bd sc t0 tc dl :
  let a := auth_do_at warm p (Some (tc, dl)) bd sc t0 in
  sends_post tc t0 (a_res a) (a_time a) [a_first a; a_second a; a_third a].
Proof.
  unfold auth_do_at.
  pose proof (round_trip_cancel p bd (init_state bd) sc t0 tc dl) as C1.
  set (o1 := round_trip p (Some (tc, dl)) bd (init_state bd) sc t0) in *.
  destruct (challenged (o_res o1)) eqn:N1; [apply challenged_not_ctx in N1|].
  2:{ apply (sends_post_last C1); [auto|repeat constructor]. }
  destruct (rewind bd (o_st o1)) as [st2| |];
    [|apply (sends_post_then C1 N1), sends_post_end; repeat constructor..].
  pose proof (round_trip_cancel p bd st2 (o_script o1) (o_time o1) tc dl) as C2.
  set (o2 := round_trip p (Some (tc, dl)) bd st2 (o_script o1) (o_time o1)) in *.
  destruct (_ && _ && _) eqn:N2; [apply andb_true_iff in N2 as [_ N2]; apply unauthorized_not_ctx in N2|].
  2:{ apply (sends_post_then C1 N1), (sends_post_last C2); [auto|repeat constructor]. }
  destruct (rewind bd (o_st o2)) as [st3| |];
    [|apply (sends_post_then C1 N1), (sends_post_then C2 N2), sends_post_end; repeat constructor..].
  apply (sends_post_then C1 N1), (sends_post_then C2 N2), sends_post_last;
    [apply round_trip_cancel|auto|constructor].
Qed.

Lemma auth_do_cancel warm p bd sc tc dl :
  let a := auth_do warm p (Some (tc, dl)) bd sc in
  sends_cancel_post tc 0 (a_res a) (a_time a) a.
Proof.
  pose proof (auth_do_at_post warm p bd sc 0 tc dl) as H. apply sends_cancel_post_intro; [apply H|exact H].
Qed.

(* a push: a POST from instant t0 that was accepted, then a PUT from where it ended *)
Lemma push_post tc t0 r1 t1 trs1 r2 t2 trs2 :
  sends_post tc t0 r1 t1 trs1 -> r1 <> RCtx -> sends_post tc t1 r2 t2 trs2 ->
  sends_post tc t0 r2 t2 trs1 /\ t1 <= Z.max t0 tc /\ t2 <= Z.max t0 tc.
Proof.
  intros H1 N H2. assert (T1 : t1 <= Z.max t0 tc) by apply H1. assert (T2 : t2 <= Z.max t0 tc) by (destruct H2 as (_ & T & _); lia).
  split; [|auto]. now apply (sends_post_done tc t0 r1 t1).
Qed.

(* blob push under a context ending at tc: POST and PUT requests other than the first of a
   send start before tc, the push is over at tc, and a pause the context ends in ends the
   push with the context's error *)
Lemma blob_push_cancel authc warm0 p bd sc tc dl :
  let u := blob_push_gen authc warm0 p (Some (tc, dl)) bd sc in
  sends_cancel_post tc 0 (u_res u) (u_time u) (u_post u) /\
  u_time u <= Z.max 0 tc /\
  match u_put u with
  | Some put => exists t1, t1 <= Z.max 0 tc /\ sends_cancel_post tc t1 (u_res u) (u_time u) put
  | None => True
  end.
Proof.
  assert (Hdo : forall (b0 : bool) bd' sc' t0,
            let a := if b0 then auth_do_at false p (Some (tc, dl)) bd' sc' t0 else plain_do_at p (Some (tc, dl)) bd' sc' t0 in
            sends_post tc t0 (a_res a) (a_time a) [a_first a; a_second a; a_third a]).
  { intros [|] bd' sc' t0; [apply auth_do_at_post|apply plain_do_at_post]. }
  unfold blob_push_gen. pose proof (Hdo authc no_body sc 0) as Hpost. cbv zeta in Hpost.
  set (post := if authc then _ else _) in *.
  destruct (accepted (a_res post)) eqn:Hacc; cbn [u_res u_time u_post u_put].
  2:{ split; [apply sends_cancel_post_intro; [apply Hpost|exact Hpost]|]. split; [apply Hpost|exact I]. }
  set (put := if authc && _ then _ else _).
  pose proof (Hdo _ bd (skipn (length (auth_attempts post)) sc) (a_time post) : sends_post tc (a_time post) (a_res put) (a_time put) _) as Hput.
  destruct (push_post _ _ _ _ _ _ _ _ Hpost (accepted_not_ctx _ Hacc) Hput) as (P1 & T1 & T2).
  split; [now apply sends_cancel_post_intro|]. split; [exact T2|]. exists (a_time post). split; [exact T1|].
  apply sends_cancel_post_intro; [apply Hput|exact Hput].
Qed.

Lemma plain_tok_at_post p bd sc t0 tc dl :
  let a := plain_tok_at p (Some (tc, dl)) bd sc t0 in
  sends_post tc t0 (ak_res a) (ak_time a) [ak_first a; ak_token a; ak_second a].
Proof. apply sends_post_last; [apply round_trip_cancel|auto|repeat constructor]. Qed.

Lemma auth_do_tok_at_post p bd sc tb tsc t0 tc dl :
  let a := auth_do_tok_at p (Some (tc, dl)) bd sc tb tsc t0 in
  sends_post tc t0 (ak_res a) (ak_time a) [ak_first a; ak_token a; ak_second a].
Proof.
  unfold auth_do_tok_at, fetch_token.
  pose proof (round_trip_cancel p bd (init_state bd) sc t0 tc dl) as C1.
  set (o1 := round_trip p (Some (tc, dl)) bd (init_state bd) sc t0) in *.
  destruct (challenged (o_res o1)) eqn:N1; [apply challenged_not_ctx in N1|].
  2:{ apply (sends_post_last C1); [auto|repeat constructor]. }
  destruct (bearer_challenged (o_res o1)); cbn [k_ok k_res k_trace k_time].
  - pose proof (round_trip_cancel p tb (init_state tb) tsc (o_time o1) tc dl) as CK.
    set (ok := round_trip p (Some (tc, dl)) tb (init_state tb) tsc (o_time o1)) in *.
    destruct (token_ok (o_res ok)) eqn:NK; [apply token_ok_not_ctx in NK|].
    2:{ apply (sends_post_then C1 N1), (sends_post_last CK); [apply token_error_ctx|repeat constructor]. }
    destruct (rewind bd (o_st o1)) as [st2| |];
      [|apply (sends_post_then C1 N1), (sends_post_then CK NK), sends_post_end; repeat constructor..].
    apply (sends_post_then C1 N1), (sends_post_then CK NK), sends_post_last;
      [apply round_trip_cancel|auto|constructor].
  - destruct (rewind bd (o_st o1)) as [st2| |];
      [|apply (sends_post_then C1 N1), sends_post_end; repeat constructor..].
    apply (sends_post_then C1 N1), sends_post_skip, sends_post_last; [apply round_trip_cancel|auto|constructor].
Qed.

Lemma auth_do_tok_cancel p bd sc tb tsc tc dl :
  let a := auth_do_tok p (Some (tc, dl)) bd sc tb tsc in
  authk_cancel_post_at tc 0 (ak_res a) (ak_time a) a.
Proof.
  pose proof (auth_do_tok_at_post p bd sc tb tsc 0 tc dl) as H. apply authk_cancel_post_intro; [apply H|exact H].
Qed.

Lemma blob_push_tok_cancel authc p bd sc tb tsc tc dl :
  let u := blob_push_tok authc p (Some (tc, dl)) bd sc tb tsc in
  authk_cancel_post_at tc 0 (uk_res u) (uk_time u) (uk_post u) /\
  uk_time u <= Z.max 0 tc /\
  match uk_put u with
  | Some put => exists t1, t1 <= Z.max 0 tc /\ authk_cancel_post_at tc t1 (uk_res u) (uk_time u) put
  | None => True
  end.
Proof.
  assert (Hdo : forall (b0 : bool) bd' sc' tsc' t0,
            let a := if b0 then auth_do_tok_at p (Some (tc, dl)) bd' sc' tb tsc' t0
                     else plain_tok_at p (Some (tc, dl)) bd' sc' t0 in
            sends_post tc t0 (ak_res a) (ak_time a) [ak_first a; ak_token a; ak_second a]).
  { intros [|] bd' sc' tsc' t0; [apply auth_do_tok_at_post|apply plain_tok_at_post]. }
  unfold blob_push_tok. pose proof (Hdo authc no_body sc tsc 0) as Hpost. cbv zeta in Hpost.
  set (post := if authc then _ else _) in *.
  destruct (accepted (ak_res post)) eqn:Hacc; cbn [uk_res uk_time uk_post uk_put].
  2:{ split; [apply authk_cancel_post_intro; [apply Hpost|exact Hpost]|]. split; [apply Hpost|exact I]. }
  set (put := if authc && _ then _ else _).
  pose proof (Hdo _ bd (skipn (length (authk_attempts post)) sc) (skipn (length (attempts (ak_token post))) tsc) (ak_time post)
              : sends_post tc (ak_time post) (ak_res put) (ak_time put) _) as Hput.
  destruct (push_post _ _ _ _ _ _ _ _ Hpost (accepted_not_ctx _ Hacc) Hput) as (P1 & T1 & T2).
  split; [now apply authk_cancel_post_intro|]. split; [exact T2|]. exists (ak_time post). split; [exact T1|].
  apply authk_cancel_post_intro; [apply Hput|exact Hput].
Qed.

Lemma auth_do_tokw_at_post p bd sc tb tsc t0 tc dl :
  let a := auth_do_tokw_at p (Some (tc, dl)) bd sc tb tsc t0 in
  sends_post tc t0 (aw_res a) (aw_time a) [aw_first a; aw_second a; aw_token a; aw_third a].
Proof.
  unfold auth_do_tokw_at, fetch_token.
  pose proof (round_trip_cancel p bd (init_state bd) sc t0 tc dl) as C1.
  set (o1 := round_trip p (Some (tc, dl)) bd (init_state bd) sc t0) in *.
  destruct (challenged (o_res o1)) eqn:N1; [apply challenged_not_ctx in N1|].
  2:{ apply (sends_post_last C1); [auto|repeat constructor]. }
  destruct (rewind bd (o_st o1)) as [st2| |];
    [|apply (sends_post_then C1 N1), sends_post_end; repeat constructor..].
  pose proof (round_trip_cancel p bd st2 (o_script o1) (o_time o1) tc dl) as C2.
  set (o2 := round_trip p (Some (tc, dl)) bd st2 (o_script o1) (o_time o1)) in *.
  destruct (_ && _) eqn:N2; [apply andb_true_iff in N2 as [_ N2]; apply unauthorized_not_ctx in N2|].
  2:{ apply (sends_post_then C1 N1), (sends_post_last C2); [auto|repeat constructor]. }
  cbn [k_ok k_res k_trace k_time].
  pose proof (round_trip_cancel p tb (init_state tb) tsc (o_time o2) tc dl) as CK.
  set (ok := round_trip p (Some (tc, dl)) tb (init_state tb) tsc (o_time o2)) in *.
  destruct (token_ok (o_res ok)) eqn:NK; [apply token_ok_not_ctx in NK|].
  2:{ apply (sends_post_then C1 N1), (sends_post_then C2 N2), (sends_post_last CK);
        [apply token_error_ctx|repeat constructor]. }
  destruct (rewind bd (o_st o2)) as [st3| |];
    [|apply (sends_post_then C1 N1), (sends_post_then C2 N2), (sends_post_then CK NK), sends_post_end;
      repeat constructor..].
  apply (sends_post_then C1 N1), (sends_post_then C2 N2), (sends_post_then CK NK), sends_post_last;
    [apply round_trip_cancel|auto|constructor].
Qed.

Lemma auth_do_tokw_at_cancel p bd sc tb tsc t0 tc dl :
  authw_cancel_post tc t0 (auth_do_tokw_at p (Some (tc, dl)) bd sc tb tsc t0).
Proof. apply authw_cancel_post_intro, auth_do_tokw_at_post. Qed.

(* blob push: every request of the PUT -- first attempt, retries, re-send after a challenge --
   carries the blob as far as the registry reads it; the script position of the PUT's
   requests starts after the POST's *)
Lemma blob_push_bodies authc warm0 p cn bd sc :
  wf_body bd ->
  match u_put (blob_push_gen authc warm0 p cn bd sc) with
  | Some put => bodies_ok bd sc (length (auth_attempts (u_post (blob_push_gen authc warm0 p cn bd sc)))) (auth_attempts put)
  | None => True
  end.
Proof.
  intro Hwf. unfold blob_push_gen. set (post := if authc then _ else _).
  destruct (accepted (a_res post)); cbn [u_put u_post]; [|exact I].
  destruct (authc && _); [now apply auth_do_at_bodies_gen|now apply plain_do_at_bodies_gen].
Qed.

(* a one-shot blob is sent once by the PUT; nothing truncated is ever re-sent *)
Lemma blob_push_not_replayable authc warm0 p cn bd sc :
  (forall st', rewind bd st' = RwNoGetBody \/ rewind bd st' = RwGetBodyErr) ->
  match u_put (blob_push_gen authc warm0 p cn bd sc) with
  | Some put => length (auth_attempts put) = 1%nat
  | None => True
  end.
Proof.
  intro Hrw. unfold blob_push_gen. set (post := if authc then _ else _).
  destruct (accepted (a_res post)); cbn [u_put]; [|exact I].
  destruct (authc && _); unfold auth_attempts at 1.
  - destruct (auth_do_at_not_replayable false p cn bd (skipn (length (auth_attempts post)) sc) (a_time post) Hrw)
      as (L & -> & -> & _). cbn [attempts]. now rewrite !app_nil_r.
  - cbn [plain_do_at a_first a_second a_third attempts]. rewrite !app_nil_r. now apply not_replayable_once.
Qed.

(* blobStore.Mount declined with 202: the upload reads from an io.ReadCloser (GetBody nil): the
   PUT is exactly one request, whatever the registry answers *)
Lemma mount_fallback_once authc warm0 p cn data sc :
  match u_put (blob_push_gen authc warm0 p cn (mkBody KOneShot data) sc) with
  | Some put => length (auth_attempts put) = 1%nat
  | None => True
  end.
Proof. apply blob_push_not_replayable. now apply oneshot_not_replayable. Qed.

(* every request of the PUT carries the blob as far as the registry reads it, at the script
   position after the POST's requests; every token request of the push (the POST's and the
   PUT's) carries the whole form, at the token service's script position *)
Lemma blob_push_tok_bodies authc p cn bd sc tb tsc :
  wf_body bd -> wf_body tb ->
  let u := blob_push_tok authc p cn bd sc tb tsc in
  bodies_ok tb tsc 0 (attempts (ak_token (uk_post u))) /\
  match uk_put u with
  | Some put =>
    bodies_ok bd sc (length (authk_attempts (uk_post u))) (authk_attempts put) /\
    bodies_ok tb tsc (length (attempts (ak_token (uk_post u)))) (attempts (ak_token put))
  | None => True
  end.
Proof.
  intros Hwf Hwt. unfold blob_push_tok.
  assert (Hpost : bodies_ok tb tsc 0 (attempts (ak_token
            (if authc then auth_do_tok_at p cn no_body sc tb tsc 0 else plain_tok_at p cn no_body sc 0)))).
  { destruct authc; [|apply bodies_ok_nil].
    apply (auth_do_tok_at_bodies_gen p cn no_body sc 0%nat tb tsc 0%nat 0); [intros _; reflexivity|exact Hwt]. }
  set (post := if authc then _ else _) in *.
  destruct (accepted (ak_res post)); cbn [uk_post uk_put]; [|auto].
  split; [exact Hpost|].
  destruct (authc && _); [now apply auth_do_tok_at_bodies_gen|].
  split; [now apply plain_tok_at_bodies_gen|apply bodies_ok_nil].
Qed.

Lemma blob_push_tok_not_replayable authc p cn bd sc tb tsc :
  (forall st', rewind bd st' = RwNoGetBody \/ rewind bd st' = RwGetBodyErr) ->
  match uk_put (blob_push_tok authc p cn bd sc tb tsc) with
  | Some put => length (authk_attempts put) = 1%nat
  | None => True
  end.
Proof.
  intro Hrw. unfold blob_push_tok. set (post := if authc then _ else _).
  destruct (accepted (ak_res post)); cbn [uk_put]; [|exact I].
  destruct (authc && _); unfold authk_attempts at 1.
  - destruct (auth_do_tok_at_not_replayable p cn bd (skipn (length (authk_attempts post)) sc) tb
                (skipn (length (attempts (ak_token post))) tsc) (ak_time post) Hrw) as (L & ->).
    cbn [attempts]. now rewrite app_nil_r.
  - cbn [plain_tok_at ak_first ak_second attempts]. rewrite app_nil_r. now apply not_replayable_once.
Qed.

(* "Non-retryable answers are returned at once", on the whole trace (no cancellation):
   every answer but the last was retryable for the policy's predicate, and the call returns
   the last answer (or the predicate's error for it, or the backoff's panic) *)

Definition last_answer (sc : list beh) (n : nat) : outcome := b_out (nth (n - 1) sc default_beh).

Lemma round_trip_stops_at_first_nonretryable p bd st sc t :
  let out := round_trip p None bd st sc t in
  let n := length (attempts (o_trace out)) in
  (forall i, (S i < n)%nat -> p_pred p (b_out (nth i sc default_beh)) = PRetry) /\
  (1 <= n)%nat /\
  (o_res out = result_of_outcome (last_answer sc n) \/ o_res out = fail_result (last_answer sc n) \/
   o_res out = RPanic).
Proof.
  apply (round_trip_inv p None bd
     (fun _ sc' _ _ tr => sc' = skipn (length (attempts tr)) sc /\
                          forall i, (i < length (attempts tr))%nat -> p_pred p (b_out (nth i sc default_beh)) = PRetry)).
  2:{ split; [reflexivity|]. intros i Hi. cbn in Hi. lia. }
  intros st0 sc0 t0 a tr r (-> & Hpre) _ H.
  destruct H as [bh sc' got st1 o t1 r Hn Hs Hr|bh sc' got st1 o t1 d st2 _ _ _ _ _ Hc|bh sc' got st1 o t1 d st2 Hn Hs Hg _ _ _];
    [| now rewrite pause_cancelled_none in Hc |];
    rewrite next_beh_skipn in Hn; rewrite serve_none_eq in Hs; injection Hn as <- <-; injection Hs as <- <- <- <-;
    cbn [o_trace o_res]; autorewrite with trace; rewrite app_length, Nat.add_1_r.
  - cbv zeta. unfold last_answer. rewrite Nat.sub_1_r. cbn [Nat.pred].
    split; [intros i Hi; apply Hpre; lia|]. split; [lia|]. intuition.
  - split; [reflexivity|]. intros i Hi.
    destruct (Nat.eq_dec i (length (attempts tr))) as [->|Hne]; [|apply Hpre; lia].
    now apply generic_retry_wait in Hg.
Qed.

(* the model in which the token is served at once is the one with the token request spelled out,
   for a token service that answers 200 immediately and a policy that does not retry that answer *)
Lemma auth_do_tok_instant p bd sc tb :
  p_pred p (OStatus 200 [] 0%N) = PStop ->
  let a := auth_do false p None bd sc in
  let k := auth_do_tok p None bd sc tb [] in
  ak_res k = a_res a /\ ak_first k = a_first a /\ ak_second k = a_second a /\ ak_time k = a_time a.
Proof.
  intro Hp. unfold auth_do, auth_do_at, auth_do_tok, auth_do_tok_at.
  set (o1 := round_trip p None bd (init_state bd) sc 0).
  destruct (challenged (o_res o1)); [|cbn; auto].
  assert (Hk : forall t0, k_ok (fetch_token p None tb [] t0) = true /\ k_time (fetch_token p None tb [] t0) = t0).
  { intro t0. unfold fetch_token, round_trip, rt_fuel. cbn [rt_loop]. unfold rt_step. cbn [next_beh].
    rewrite serve_none_eq. cbn [b_out default_beh]. rewrite (generic_retry_stop p 0 _ Hp).
    cbn [k_ok k_time o_res o_time result_of_outcome token_ok b_lat default_beh]. split; [reflexivity|lia]. }
  destruct (bearer_challenged (o_res o1)).
  - destruct (Hk (o_time o1)) as (-> & ->). destruct (rewind bd (o_st o1)); cbn; auto.
  - cbn [k_ok k_time]. destruct (rewind bd (o_st o1)); cbn; auto.
Qed.

(* Refinement: Transport.RoundTrip (with its request state, script threading and trace) computes
   exactly the stateless specification spec_send_c, for replayable bodies and every context *)

Lemma rt_loop_spec_c p cn bd sc : wf_body bd -> replayable bd ->
  forall fuel i st t tr, s_rest st = bdata bd ->
    let out := rt_loop fuel p cn bd st (skipn i sc) t (Z.of_nat i) tr in
    o_res out = fst (fst (spec_run_c p cn bd sc t i fuel)) /\
    o_time out = snd (fst (spec_run_c p cn bd sc t i fuel)) /\
    attempts (o_trace out) = attempts tr ++ snd (spec_run_c p cn bd sc t i fuel).
Proof.
  intros Hwf Hrep. induction fuel as [|fuel IH]; intros i st t tr Hst.
  - cbn. rewrite app_nil_r. auto.
  - cbn [rt_loop spec_run_c]. unfold rt_step. rewrite next_beh_skipn, serve_eq, Hst.
    set (bh := nth i sc default_beh).
    set (got := fst (take_body (b_read bh) (bdata bd))).
    set (o := if ended_at cn t || cancelled_before cn (t + b_lat bh) then cancel_outcome cn else b_out bh).
    set (t1 := if ended_at cn t || cancelled_before cn (t + b_lat bh) then cancel_clock cn t else t + b_lat bh).
    destruct (generic_retry p (Z.of_nat i) o) as [| |d|] eqn:Hg;
      try (cbn [o_res o_time o_trace fst snd]; autorewrite with trace; auto).
    destruct (d <? 0) eqn:Hd;
      [cbn [o_res o_time o_trace fst snd]; autorewrite with trace; auto|].
    set (st1 := mkSt (snd (take_body (b_read bh) (bdata bd))) (s_calls st)).
    destruct (rt_rewind_replayable bd st1 Hrep) as (st2 & Hrw). rewrite Hrw.
    assert (Hfresh : s_rest st2 = bdata bd).
    { apply (rewind_fresh bd st1); [exact Hwf| |now apply rt_rewind_ok].
      intro Hk. cbn [st1 s_rest]. now rewrite (Hwf Hk), take_body_nil. }
    destruct (pause_cancelled cn (t1 + d)).
    + cbn [o_res o_time o_trace fst snd]. autorewrite with trace. auto.
    + replace (Z.of_nat i + 1) with (Z.of_nat (S i)) by lia.
      specialize (IH (S i) st2 (t1 + d) ((tr ++ [EAttempt t got]) ++ [EPause t1 d]) Hfresh).
      cbv zeta in IH. destruct IH as (R & T & A).
      destruct (spec_run_c p cn bd sc (t1 + d) (S i) fuel) as [[r te] l].
      cbn [fst snd] in *. rewrite R, T, A. autorewrite with trace. rewrite <- app_assoc.
      auto.
Qed.

Lemma round_trip_refines_spec_c_st p cn bd sc t st :
  wf_body bd -> replayable bd -> s_rest st = bdata bd ->
  (o_res (round_trip p cn bd st sc t), o_time (round_trip p cn bd st sc t),
   attempts (o_trace (round_trip p cn bd st sc t))) = spec_send_c p cn bd sc t.
Proof.
  intros Hwf Hrep Hst. unfold round_trip, spec_send_c.
  destruct (rt_loop_spec_c p cn bd sc Hwf Hrep (rt_fuel p) 0%nat st t [] Hst) as (R & T & A).
  cbn [skipn Z.of_nat app] in *. rewrite R, T, A.
  destruct (spec_run_c p cn bd sc t 0 (rt_fuel p)) as [[r te] l]. reflexivity.
Qed.

Lemma round_trip_refines_spec_c p cn bd sc t :
  wf_body bd -> replayable bd ->
  let out := round_trip p cn bd (init_state bd) sc t in
  (o_res out, o_time out, attempts (o_trace out)) = spec_send_c p cn bd sc t.
Proof. intros Hwf Hrep. now apply round_trip_refines_spec_c_st. Qed.

Lemma round_trip_refines_spec_st p bd sc t st :
  wf_body bd -> replayable bd -> s_rest st = bdata bd ->
  let out := round_trip p None bd st sc t in
  (o_res out, o_time out, attempts (o_trace out)) = spec_send p bd sc t.
Proof. exact (round_trip_refines_spec_c_st p None bd sc t st). Qed.

Lemma round_trip_refines_spec p bd sc t :
  wf_body bd -> replayable bd ->
  let out := round_trip p None bd (init_state bd) sc t in
  (o_res out, o_time out, attempts (o_trace out)) = spec_send p bd sc t.
Proof. exact (round_trip_refines_spec_c p None bd sc t). Qed.

Lemma resend_refines p cn bd sc0 base o1 t :
  wf_body bd -> replayable bd -> sent_whole bd sc0 base o1 ->
  exists st2, rewind bd (o_st o1) = RwOk st2 /\
    let o2 := round_trip p cn bd st2 (o_script o1) t in
    sent_whole bd sc0 (base + length (attempts (o_trace o1))) o2 /\
    (o_res o2, o_time o2, attempts (o_trace o2))
    = spec_send_c p cn bd (skipn (base + length (attempts (o_trace o1))) sc0) t.
Proof.
  intros Hwf Hrep S1. destruct (rewind_replayable bd (o_st o1) Hrep) as (st2 & Hrw).
  exists st2. split; [exact Hrw|]. split; [now apply resend_bodies|].
  destruct S1 as (_ & <- & N1). apply round_trip_refines_spec_c_st; auto. now apply (rewind_fresh bd (o_st o1)).
Qed.

Lemma auth_do_tok_at_refines_spec_c p cn bd sc tb tsc t0 :
  wf_body bd -> replayable bd -> wf_body tb -> replayable tb ->
  let a := auth_do_tok_at p cn bd sc tb tsc t0 in
  (ak_res a, ak_time a, attempts (ak_first a), attempts (ak_token a), attempts (ak_second a))
  = spec_auth_at_c p cn bd sc tb tsc t0.
Proof.
  intros Hwf Hrep Hwt Hrt. unfold auth_do_tok_at, spec_auth_at_c, fetch_token.
  pose proof (round_trip_bodies_gen p cn bd sc 0%nat (init_state bd) t0 Hwf eq_refl) as S1. cbn [skipn] in S1.
  rewrite <- (round_trip_refines_spec_c_st p cn bd sc t0 (init_state bd) Hwf Hrep eq_refl).
  set (o1 := round_trip p cn bd (init_state bd) sc t0) in *.
  destruct (challenged (o_res o1)); [|reflexivity].
  destruct (bearer_challenged (o_res o1)); cbn [negb orb k_ok k_res k_trace k_time].
  - rewrite <- (round_trip_refines_spec_c_st p cn tb tsc (o_time o1) (init_state tb) Hwt Hrt eq_refl).
    set (ok := round_trip p cn tb (init_state tb) tsc (o_time o1)).
    destruct (token_ok (o_res ok)); [|reflexivity].
    destruct (resend_refines p cn bd sc 0%nat o1 (o_time ok) Hwf Hrep S1) as (st2 & -> & _ & E2).
    cbn [Nat.add] in E2. now rewrite <- E2.
  - destruct (resend_refines p cn bd sc 0%nat o1 (o_time o1) Hwf Hrep S1) as (st2 & -> & _ & E2).
    cbn [Nat.add] in E2. now rewrite <- E2.
Qed.

Lemma plain_tok_at_refines_spec_c p cn bd sc t0 :
  wf_body bd -> replayable bd ->
  let a := plain_tok_at p cn bd sc t0 in
  (ak_res a, ak_time a, attempts (ak_first a), attempts (ak_token a), attempts (ak_second a))
  = spec_plain_at_c p cn bd sc t0.
Proof.
  intros Hwf Hrep. unfold plain_tok_at, spec_plain_at_c.
  now rewrite <- (round_trip_refines_spec_c_st p cn bd sc t0 (init_state bd) Hwf Hrep eq_refl).
Qed.

Lemma plain_tok_at_refines_spec p bd sc t0 :
  wf_body bd -> replayable bd ->
  let a := plain_tok_at p None bd sc t0 in
  (ak_res a, ak_time a, attempts (ak_first a), attempts (ak_token a), attempts (ak_second a))
  = spec_plain_at p bd sc t0.
Proof. exact (plain_tok_at_refines_spec_c p None bd sc t0). Qed.

Definition show_authk (a : authk_out) :=
  (ak_res a, ak_time a, attempts (ak_first a), attempts (ak_token a), attempts (ak_second a)).

Lemma blob_push_tok_refines_spec_c authc p cn bd sc tb tsc :
  wf_body bd -> replayable bd -> wf_body tb -> replayable tb ->
  let u := blob_push_tok authc p cn bd sc tb tsc in
  (uk_res u, uk_time u, show_authk (uk_post u), option_map show_authk (uk_put u))
  = spec_push_c authc p cn bd sc tb tsc.
Proof.
  intros Hwf Hrep Hwt Hrt.
  assert (Hdo : forall (b0 : bool) bd' sc' tsc' t0, wf_body bd' -> replayable bd' ->
            show_authk (if b0 then auth_do_tok_at p cn bd' sc' tb tsc' t0 else plain_tok_at p cn bd' sc' t0)
            = (if b0 then spec_auth_at_c p cn bd' sc' tb tsc' t0 else spec_plain_at_c p cn bd' sc' t0)).
  { intros [|] bd' sc' tsc' t0 Hw Hr; [now apply auth_do_tok_at_refines_spec_c|now apply plain_tok_at_refines_spec_c]. }
  unfold blob_push_tok, spec_push_c.
  rewrite <- (Hdo authc no_body sc tsc 0) by (try (intros _); try right; reflexivity).
  unfold show_authk. cbv beta iota zeta. set (post := if authc then _ else _).
  destruct (accepted (ak_res post)); cbn [uk_res uk_time uk_post uk_put option_map]; [|reflexivity].
  unfold authk_attempts. now rewrite <- Hdo.
Qed.

Lemma auth_do_tokw_at_refines_spec_c p cn bd sc tb tsc t0 :
  wf_body bd -> replayable bd -> wf_body tb -> replayable tb ->
  let a := auth_do_tokw_at p cn bd sc tb tsc t0 in
  (aw_res a, aw_time a, attempts (aw_first a), attempts (aw_second a), attempts (aw_token a), attempts (aw_third a))
  = spec_authw_at_c p cn bd sc tb tsc t0.
Proof.
  intros Hwf Hrep Hwt Hrt. unfold auth_do_tokw_at, spec_authw_at_c, fetch_token.
  pose proof (round_trip_bodies_gen p cn bd sc 0%nat (init_state bd) t0 Hwf eq_refl) as S1. cbn [skipn] in S1.
  rewrite <- (round_trip_refines_spec_c_st p cn bd sc t0 (init_state bd) Hwf Hrep eq_refl).
  set (o1 := round_trip p cn bd (init_state bd) sc t0) in *.
  destruct (challenged (o_res o1)); [|reflexivity].
  destruct (resend_refines p cn bd sc 0%nat o1 (o_time o1) Hwf Hrep S1) as (st2 & -> & S2 & E2).
  cbn [Nat.add] in S2, E2. cbv zeta in S2. rewrite <- E2.
  set (o2 := round_trip p cn bd st2 (o_script o1) (o_time o1)) in *.
  destruct (bearer_challenged (o_res o1) && unauthorized (o_res o2)); [|reflexivity].
  cbn [k_ok k_res k_trace k_time].
  rewrite <- (round_trip_refines_spec_c_st p cn tb tsc (o_time o2) (init_state tb) Hwt Hrt eq_refl).
  set (ok := round_trip p cn tb (init_state tb) tsc (o_time o2)).
  destruct (token_ok (o_res ok)); [|reflexivity].
  destruct (resend_refines p cn bd sc _ o2 (o_time ok) Hwf Hrep S2) as (st3 & -> & _ & E3). now rewrite <- E3.
Qed.

(* The acceptor used by the correspondence run admits every value the model of
   ExponentialBackoff can produce (so an observed pause it rejects is outside the
   model), for a random source within its range and a float conversion that is
   not positive below -2^63. *)

Lemma tol_pos e attempt : 2 <= tol_a e attempt /\ 2 <= tol_n e attempt.
Proof. unfold tol_a, tol_n. lia. Qed.

Lemma f2i_in_range oob q : - two63 <= qtrunc q < two63 -> f2i oob q = qtrunc q.
Proof.
  intro H. unfold f2i. cbv zeta.
  destruct (Z.leb_spec (- two63) (qtrunc q)); [|lia]. destruct (Z.ltb_spec (qtrunc q) two63); [reflexivity|lia].
Qed.

Lemma f2i_nonpos oob q :
  (forall q', qtrunc q' < - two63 -> oob q' <= 0) -> qtrunc q <= 0 -> f2i oob q <= 0.
Proof.
  intros Hoob H. unfold f2i. cbv zeta.
  destruct (Z.leb_spec (- two63) (qtrunc q)); [|now apply Hoob].
  destruct (Z.ltb_spec (qtrunc q) two63); [exact H|unfold two63 in *; lia].
Qed.

Lemma exp_class_sound guarded oob rnd e attempt o :
  (forall n, 0 < n -> 0 <= rnd n < n) ->
  (forall q, qtrunc q < - two63 -> oob q <= 0) ->
  match exp_class guarded e attempt o with
  | ECPanic => exp_backoff_gen guarded oob rnd e attempt o = BPanic
  | ECRange lo hi => exists d, exp_backoff_gen guarded oob rnd e attempt o = BRet d /\ lo <= d <= hi
  | ECUnjudged => True
  end.
Proof.
  intros Hrnd Hoob. unfold exp_class, exp_backoff_gen. cbv zeta.
  destruct (generated_backoff_retry_after_ok (retry_after_secs o)); [eexists; split; [reflexivity|lia]|].
  destruct (tol_pos e attempt) as [Hta Htn].
  set (a := qtrunc (exp_a e attempt)) in *. set (n := qtrunc (exp_n e attempt)) in *.
  set (ta := tol_a e attempt) in *. set (tn := tol_n e attempt) in *.
  destruct (qnear (exp_n e attempt) 1); [exact I|].
  destruct (Z.leb_spec (two63 - tn) n) as [|E1]; [exact I|].
  destruct (Z.leb_spec n 0) as [E2|E2].
  - pose proof (f2i_nonpos oob (exp_n e attempt) Hoob E2) as Hn.
    destruct (f2i oob (exp_n e attempt) >? 0) eqn:E3; [lia|].
    destruct guarded; [|reflexivity].
    destruct (Z.ltb_spec (- two63 + ta) a); [|exact I]. destruct (Z.ltb_spec (a + ta) two63); [|exact I].
    rewrite f2i_in_range by (fold a; lia). fold a. eexists; split; [reflexivity|lia].
  - destruct (Z.ltb_spec (- two63 + ta) a); [|exact I]. destruct (Z.ltb_spec (a + n + ta + tn) two63); [|exact I].
    rewrite (f2i_in_range oob (exp_n e attempt)) by (fold n; unfold two63 in *; lia).
    rewrite (f2i_in_range oob (exp_a e attempt)) by (fold a; lia). fold a n.
    destruct (n >? 0) eqn:E3; [|lia].
    specialize (Hrnd n E2). rewrite wrap64_id by lia.
    eexists; split; [reflexivity|lia].
Qed.

(* how the harness projects a decision: a negative duration reads as "no retry" *)
Definition project_decision (d : decision) : obs_decision :=
  match d with
  | DStop => ODStop | DFail => ODFail | DPanic => ODPanic
  | DWait x => if x <? 0 then ODStop else ODWait x
  end.

Lemma accept_decision_complete guarded oob rnd e maxretry minw maxw attempt o :
  (forall n, 0 < n -> 0 <= rnd n < n) ->
  (forall q, qtrunc q < - two63 -> oob q <= 0) ->
  accept_decision guarded maxretry minw maxw e attempt o
    (project_decision
       (generic_retry (mkPolicy maxretry minw maxw default_predicate (exp_backoff_gen guarded oob rnd e))
                      attempt o)) <> VNo.
Proof.
  intros Hrnd Hoob. unfold accept_decision. rewrite generic_retry_eq. cbn [p_max_retry p_pred p_backoff p_min p_max].
  destruct (attempt >=? maxretry); [discriminate|].
  destruct (default_predicate o); try discriminate.
  pose proof (exp_class_sound guarded oob rnd e attempt o Hrnd Hoob) as Hs.
  destruct (exp_class guarded e attempt o) as [|lo hi|]; [|destruct Hs as (d & -> & Hd)|discriminate].
  - rewrite Hs. discriminate.
  - cbn [project_decision].
    pose proof (clamp_mono minw maxw lo d (proj1 Hd)) as M1.
    pose proof (clamp_mono minw maxw d hi (proj2 Hd)) as M2.
    destruct (Z.ltb_spec (clamp minw maxw d) 0).
    + destruct (Z.ltb_spec (clamp minw maxw lo) 0); [discriminate|lia].
    + destruct (Z.leb_spec (clamp minw maxw lo) (clamp minw maxw d)); [|lia].
      destruct (Z.leb_spec (clamp minw maxw d) (clamp minw maxw hi)); [discriminate|lia].
Qed.

(* Soundness of the acceptor up to its allowances: a pause it accepts is the clamp of a value
   that lies within the rounding allowances of the model's exact range *)

(* the point of [lo, hi] nearest to d is clamped to d *)
Lemma clamp_ivt minw maxw lo hi d :
  minw <= maxw -> lo <= hi -> clamp minw maxw lo <= d <= clamp minw maxw hi ->
  exists x, lo <= x <= hi /\ d = clamp minw maxw x.
Proof.
  intros Hm Hl Hd. rewrite !clamp_eq in Hd.
  destruct (Z_lt_le_dec d lo); [exists lo|destruct (Z_lt_le_dec hi d); [exists hi|exists d]];
    rewrite clamp_eq; lia.
Qed.

Lemma exp_class_range guarded e attempt o lo hi :
  exp_class guarded e attempt o = ECRange lo hi ->
  lo <= hi /\
  ((generated_backoff_retry_after_ok (retry_after_secs o) = true /\
    lo = wrap64 (retry_after_secs o * generated_backoff_retry_after_unit) /\ hi = lo) \/
   (generated_backoff_retry_after_ok (retry_after_secs o) = false /\
    qtrunc (exp_a e attempt) - tol_a e attempt <= lo /\
    hi <= qtrunc (exp_a e attempt) + Z.max 0 (qtrunc (exp_n e attempt)) + tol_a e attempt + tol_n e attempt)).
Proof.
  unfold exp_class. cbv zeta. destruct (tol_pos e attempt) as [Hta Htn].
  destruct (generated_backoff_retry_after_ok (retry_after_secs o)) eqn:Hra.
  - intros [= <- <-]. split; [lia|]. left. auto.
  - destruct (qnear (exp_n e attempt) 1); [discriminate|].
    destruct (two63 - tol_n e attempt <=? qtrunc (exp_n e attempt)); [discriminate|].
    destruct (Z.leb_spec (qtrunc (exp_n e attempt)) 0) as [En|En].
    + destruct guarded; [|discriminate]. destruct (_ && _); [|discriminate].
      intros [= <- <-]. split; [lia|]. right. repeat split; auto; lia.
    + destruct (_ && _); [|discriminate].
      intros [= <- <-]. split; [lia|]. right. repeat split; auto; lia.
Qed.

Lemma accept_decision_sound guarded maxretry minw maxw e attempt o d :
  minw <= maxw ->
  accept_decision guarded maxretry minw maxw e attempt o (ODWait d) = VYes ->
  attempt < maxretry /\ default_predicate o = PRetry /\
  exists x, d = clamp minw maxw x /\
    ((generated_backoff_retry_after_ok (retry_after_secs o) = true /\
      x = wrap64 (retry_after_secs o * generated_backoff_retry_after_unit)) \/
     (generated_backoff_retry_after_ok (retry_after_secs o) = false /\
      qtrunc (exp_a e attempt) - tol_a e attempt <= x <=
      qtrunc (exp_a e attempt) + Z.max 0 (qtrunc (exp_n e attempt)) + tol_a e attempt + tol_n e attempt)).
Proof.
  intro Hm. unfold accept_decision.
  destruct (attempt >=? maxretry) eqn:Ea; [discriminate|].
  destruct (default_predicate o); try discriminate.
  destruct (exp_class guarded e attempt o) as [|lo hi|] eqn:Ec; try discriminate.
  destruct (Z.leb_spec (clamp minw maxw lo) d) as [E1|]; [|discriminate].
  destruct (Z.leb_spec d (clamp minw maxw hi)) as [E2|]; [|discriminate]. intros _.
  destruct (exp_class_range guarded e attempt o lo hi Ec) as (Hl & Hr).
  destruct (clamp_ivt minw maxw lo hi d Hm Hl (conj E1 E2)) as (x & Hx & Hd).
  split; [lia|]. split; [reflexivity|]. exists x. split; [exact Hd|].
  destruct Hr as [(R1 & R2 & R3)|(R1 & R2 & R3)]; [left|right]; split; auto; lia.
Qed.

(* the status constants the model reads from the sources *)
Lemma status_constants :
  challenge_status = 401 /\ challenge_status_2 = 401 /\ token_ok_status = 200 /\ accepted_status = 202 /\
  fetch_oauth2_status_cmps = fetch_distribution_status_cmps /\
  blob_put_status_cmps = [(1, 201)] /\ manifest_push_status_cmps = [(1, 201)] /\
  blob_mount_status_cmps = [(0, 201); (1, 202)].
Proof. repeat split; reflexivity. Qed.
