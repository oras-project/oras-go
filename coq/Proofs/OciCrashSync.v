(* C10 -- concurrent callers, what indexLock is for: when all concurrent calls have returned,
   index.json is the index of the resolver (no completed Tag / Untag / Push is missing from it),
   whatever the schedule was.  Together with CInv this re-establishes the sequential model's
   invariant, so sequential histories and concurrent batches alternate freely.  Then: a call
   that has returned has left its effect, whatever ran beside it (an action of a thread's
   program is pending until the thread fires it, Section Pending). *)
From Oras Require Import Base.Prelude Model.OciCrash Model.OciCrashSpec Model.OciCrashConc Proofs.OciCrash Proofs.OciCrashConc.

Section Sync.
Variable H : list N -> N.
Variable shuffle : nat -> list entry -> list entry.
Hypothesis shuffle_In : forall c l e, In e (shuffle c l) <-> In e l.

Notation stepN := (sched_step shuffle).

(* the shape of what a thread has left to do, given whether it holds indexLock: index.json is
   published only under the lock and before the lock is released, a resolver update is followed
   by a save, a finished thread holds nothing *)
Fixpoint shape (held : bool) (p : list act) : Prop :=
  match p with
  | [] => held = false
  | TLockSnap :: r => held = false /\ In TPublishIndex r /\ shape true r
  | TPublishIndex :: r => held = true /\ shape true r
  | TUnlock :: r => held = true /\ shape false r
  | TTagMem _ _ :: r => held = false /\ In TLockSnap r /\ shape false r
  | TUntagMem _ :: r => held = false /\ In TLockSnap r /\ shape false r
  | _ :: r => shape held r
  end.

Lemma shape_pub p : forall h, shape h p -> In TPublishIndex p -> h = true \/ In TLockSnap p.
Proof.
  induction p as [|a p IH]; intros h S Hin; [destruct Hin|].
  destruct a; cbn [shape] in S; destruct Hin as [E|Hin]; try discriminate E;
    try (destruct (IH h S Hin) as [X|X]; [now left|right; now right]).
  - right; right; apply S.
  - right; right; apply S.
  - right; now left.
  - left; apply S.
  - left; apply S.
  - left; apply S.
Qed.

Lemma locksnap_dec p : {In TLockSnap p} + {~ In TLockSnap p}.
Proof.
  induction p as [|a p IH]; [right; intros []|].
  destruct IH as [Y|Nn]; [left; now right|].
  destruct a; try (right; intros [E|Hin]; [discriminate|contradiction]).
  left; now left.
Qed.

Lemma nth_set_same {A} (l : list A) : forall i t t', nth_error l i = Some t -> nth_error (set_nth i t' l) i = Some t'.
Proof.
  induction l as [|x l IH]; intros i t t' E; [destruct i; discriminate|].
  destruct i; cbn in *; [reflexivity|]. now apply (IH i t).
Qed.

Lemma nth_set_other {A} (l : list A) : forall i j t', i <> j -> nth_error (set_nth i t' l) j = nth_error l j.
Proof.
  induction l as [|x l IH]; intros i j t' Hn; [destruct i; reflexivity|].
  destruct i, j; cbn; try reflexivity; [congruence|]. apply IH. congruence.
Qed.

Lemma in_set_idx {A} (l : list A) i t t' u :
  nth_error l i = Some t -> In u (set_nth i t' l) -> u = t' \/ exists j, j <> i /\ nth_error l j = Some u.
Proof.
  intros E Hin. apply In_nth_error in Hin as (j & Ej).
  destruct (Nat.eq_dec j i) as [->|Hn].
  - rewrite (nth_set_same l i t t' E) in Ej. injection Ej as <-. now left.
  - right. exists j. split; [exact Hn|]. rewrite nth_set_other in Ej by congruence. exact Ej.
Qed.

Lemma in_keep {A} (l : list A) i t t' u :
  nth_error l i = Some t -> In u l -> u = t \/ In u (set_nth i t' l).
Proof.
  intros E Hin. apply In_nth_error in Hin as (j & Ej).
  destruct (Nat.eq_dec j i) as [->|Hn].
  - rewrite E in Ej. injection Ej as <-. now left.
  - right. apply (nth_error_In _ j). rewrite nth_set_other by congruence. exact Ej.
Qed.

Lemma in_new {A} (l : list A) i t t' : nth_error l i = Some t -> In t' (set_nth i t' l).
Proof. intro E. apply (nth_error_In _ i). now apply (nth_set_same l i t). Qed.

(* indexLock: mutual exclusion, and the programs' shape *)
Record LInv (c : conf) : Prop := {
  li_shape : forall t, In t (cthreads c) -> shape (tholds t) (tprog t);
  li_free : clock c = false -> forall t, In t (cthreads c) -> tholds t = false;
  li_one : forall i j ti tj, nth_error (cthreads c) i = Some ti -> nth_error (cthreads c) j = Some tj ->
                             tholds ti = true -> tholds tj = true -> i = j
}.

Lemma linv_update c i t t' fs' tags' digs' lk' cnt' :
  LInv c -> nth_error (cthreads c) i = Some t ->
  shape (tholds t') (tprog t') ->
  (tholds t' = true -> tholds t = true \/ clock c = false) ->
  (lk' = false -> tholds t' = false /\ (clock c = false \/ tholds t = true)) ->
  LInv (mkConf fs' tags' digs' lk' cnt' (set_nth i t' (cthreads c))).
Proof.
  intros [Sh Fr One] En St Hh Hl. constructor; cbn [cthreads clock].
  - intros u Hin. apply In_set_nth in Hin as [->|Hin]; [exact St|now apply Sh].
  - intros E u Hin. destruct (Hl E) as [Ht' Hc].
    destruct (in_set_idx _ i t _ u En Hin) as [->|(j & Hn & Ej)]; [exact Ht'|].
    destruct Hc as [Hc|Hc]; [apply Fr; [exact Hc|now apply (nth_error_In _ j)]|].
    destruct (tholds u) eqn:Eu; [|reflexivity]. exfalso. apply Hn. exact (One j i u t Ej En Eu Hc).
  - intros a b ta tb Ea Eb Ha Hb.
    destruct (Nat.eq_dec a i) as [->|Na], (Nat.eq_dec b i) as [->|Nb]; [reflexivity| | |].
    + rewrite (nth_set_same _ i t t' En) in Ea. injection Ea as <-.
      rewrite nth_set_other in Eb by congruence.
      destruct (Hh Ha) as [Ht|Hc]; [symmetry; exact (One b i tb t Eb En Hb Ht)|].
      rewrite (Fr Hc tb (nth_error_In _ b Eb)) in Hb. discriminate.
    + rewrite (nth_set_same _ i t t' En) in Eb. injection Eb as <-.
      rewrite nth_set_other in Ea by congruence.
      destruct (Hh Hb) as [Ht|Hc]; [exact (One a i ta t Ea En Ha Ht)|].
      rewrite (Fr Hc ta (nth_error_In _ a Ea)) in Ha. discriminate.
    + rewrite nth_set_other in Ea by congruence. rewrite nth_set_other in Eb by congruence.
      exact (One a b ta tb Ea Eb Ha Hb).
Qed.

Lemma linv_same c i t t' fs' tags' digs' cnt' :
  LInv c -> nth_error (cthreads c) i = Some t ->
  tholds t' = tholds t -> shape (tholds t) (tprog t') ->
  LInv (mkConf fs' tags' digs' (clock c) cnt' (set_nth i t' (cthreads c))).
Proof.
  intros L En Eh St. apply (linv_update c i t); [exact L|exact En|now rewrite Eh|rewrite Eh; now left|].
  intro E. rewrite Eh. split; [exact (li_free c L E t (nth_error_In _ _ En))|now left].
Qed.

Lemma lstep_inv c i : LInv c -> LInv (stepN c i).
Proof.
  intro L. pose proof L as [Sh Fr One]. unfold sched_step.
  destruct (nth_error (cthreads c) i) as [t|] eqn:En; [|exact L].
  pose proof (Sh t (nth_error_In _ _ En)) as St. unfold fire.
  destruct (tprog t) as [|a rest] eqn:Ep; [exact L|].
  destruct a; cbn [shape] in St; cbv beta iota zeta; cbn [cfs ctags cdigs clock ccnt cthreads];
    try (apply (linv_same c i t); [exact L|exact En|reflexivity|cbn [tprog]]).
  - exact St.
  - exact St.
  - exact St.
  - destruct St as (-> & _ & S2). exact S2.
  - destruct St as (-> & _ & S2). exact S2.
  - (* TLockSnap: the lock is free, so nobody holds it *)
    destruct (clock c) eqn:Ec; [exact L|]. cbn [cfs ctags cdigs clock ccnt cthreads].
    destruct St as (Hf & _ & S2). apply (linv_update c i t); auto; cbn [tholds tprog]; auto.
  - destruct St as (Ht & S2). destruct (tsnap t); cbn [cfs ctags cdigs clock ccnt cthreads];
      (apply (linv_same c i t); [exact L|exact En|reflexivity|now rewrite Ht]).
  - (* TUnlock: the holder lets go *)
    destruct St as (Ht & S2). rewrite Ht. apply (linv_update c i t); auto; cbn [tholds tprog]; auto.
Qed.

Definition same_as (l : list entry) (tags : list (N * N)) (digs : list N) : Prop :=
  forall e, In e l <-> In e (save tags digs).
Definition fresh (tags : list (N * N)) (digs : list N) (t : thread) : Prop :=
  exists l, tsnap t = Some l /\ same_as l tags digs.
Definition synced (fs : FS) (tags : list (N * N)) (digs : list N) : Prop :=
  exists l, read_index fs = Some l /\ same_as l tags digs.
Definition Apend (l : list thread) : Prop := exists t, In t l /\ In TLockSnap (tprog t).
Definition Epub (l : list thread) : Prop := exists t, In t l /\ tholds t = true /\ In TPublishIndex (tprog t).
Definition Fpub (tags : list (N * N)) (digs : list N) (l : list thread) : Prop :=
  forall t, In t l -> tholds t = true -> In TPublishIndex (tprog t) -> fresh tags digs t.
(* somebody will still take a snapshot; or the holder of the lock is about to publish the current
   resolver; or index.json is the current resolver *)
Definition Sy (c : conf) : Prop :=
  Apend (cthreads c) \/
  (Fpub (ctags c) (cdigs c) (cthreads c) /\ (Epub (cthreads c) \/ synced (cfs c) (ctags c) (cdigs c))).

Lemma apend_keep l i t t' a rest :
  nth_error l i = Some t -> tprog t = a :: rest -> tprog t' = rest -> a <> TLockSnap ->
  Apend l -> Apend (set_nth i t' l).
Proof.
  intros En Ep Ep' Na (u & Hin & Hl). destruct (in_keep l i t t' u En Hin) as [->|Hin'].
  - exists t'. split; [now apply (in_new l i t)|]. rewrite Ep in Hl. rewrite Ep'.
    destruct Hl as [X|X]; [congruence|exact X].
  - exists u. now split.
Qed.

Lemma fpub_keep tags digs l i t' :
  (tholds t' = true -> In TPublishIndex (tprog t') -> fresh tags digs t') ->
  Fpub tags digs l -> Fpub tags digs (set_nth i t' l).
Proof. intros Ht' F u Hin. apply In_set_nth in Hin as [->|Hin]; [exact Ht'|now apply F]. Qed.

Lemma apend_dec l : {Apend l} + {~ Apend l}.
Proof.
  destruct (Exists_dec (fun t => In TLockSnap (tprog t)) l (fun t => locksnap_dec (tprog t))) as [Y|Nn].
  - left. apply Exists_exists in Y. exact Y.
  - right. intro A. apply Nn. apply Exists_exists. exact A.
Qed.

Lemma sy_frame c i t t1 a rest fs' lk cnt :
  nth_error (cthreads c) i = Some t -> tprog t = a :: rest ->
  a <> TLockSnap -> a <> TPublishIndex ->
  tprog t1 = rest -> tsnap t1 = tsnap t -> tholds t1 = tholds t ->
  read_index fs' = read_index (cfs c) ->
  Sy c -> Sy (mkConf fs' (ctags c) (cdigs c) lk cnt (set_nth i t1 (cthreads c))).
Proof.
  intros En Ep N1 N2 P1 P2 P3 Er [A|[F E]]; unfold Sy; cbn [cfs ctags cdigs cthreads].
  - left. exact (apend_keep _ i t t1 a rest En Ep P1 N1 A).
  - right. split.
    + apply fpub_keep; [|exact F]. intros Hu Hp.
      destruct (F t (nth_error_In _ _ En)) as (l & El & Hl); [congruence|rewrite Ep, <- P1; now right|].
      exists l. split; [congruence|exact Hl].
    + destruct E as [(u & Hin & Hu & Hp)|(l & El & Hl)].
      * left. destruct (in_keep _ i t t1 u En Hin) as [->|Hin'].
        -- exists t1. split; [now apply (in_new _ i t)|]. split; [congruence|].
           rewrite Ep in Hp. destruct Hp as [X|X]; [congruence|]. now rewrite P1.
        -- exists u. now split.
      * right. exists l. split; [congruence|exact Hl].
Qed.

Lemma sstep_inv c i : LInv c -> Sy c -> Sy (stepN c i).
Proof.
  intros [Sh Fr One] S. unfold sched_step.
  destruct (nth_error (cthreads c) i) as [t|] eqn:En; [|exact S].
  pose proof (Sh t (nth_error_In _ _ En)) as St. unfold fire.
  destruct (tprog t) as [|a rest] eqn:Ep; [exact S|].
  destruct a; cbn [shape] in St; cbv beta iota zeta; cbn [cfs ctags cdigs clock ccnt cthreads].
  - apply (sy_frame c i t _ (TWrite a) rest); auto; discriminate.
  - apply (sy_frame c i t _ (TPublishBlob d) rest); auto; discriminate.
  - apply (sy_frame c i t _ TDropTemp rest); auto; discriminate.
  - left. exists (mkThread rest (ttmp t) (tsnap t) (tholds t)). split; [now apply (in_new _ i t)|apply St].
  - left. exists (mkThread rest (ttmp t) (tsnap t) (tholds t)). split; [now apply (in_new _ i t)|apply St].
  - (* TLockSnap *)
    destruct (clock c) eqn:Ec; [exact S|]. cbn [cfs ctags cdigs clock ccnt cthreads].
    destruct St as (Hf & Hp & S2).
    set (t1 := mkThread rest (ttmp t) (Some (shuffle (ccnt c) (save (ctags c) (cdigs c)))) true).
    destruct (apend_dec (set_nth i t1 (cthreads c))) as [A|NA]; [now left|]. right.
    cbn [cfs ctags cdigs cthreads]. split.
    + intros u Hin Hu _. apply In_set_nth in Hin as [->|Hin].
      * exists (shuffle (ccnt c) (save (ctags c) (cdigs c))). split; [reflexivity|]. intro e. apply shuffle_In.
      * rewrite (Fr eq_refl u Hin) in Hu. discriminate.
    + left. exists t1. split; [now apply (in_new _ i t)|]. split; [reflexivity|exact Hp].
  - (* TPublishIndex *)
    destruct St as (Ht & S2). destruct S as [A|[F E]].
    + destruct (tsnap t); cbn [cfs ctags cdigs clock ccnt cthreads]; left;
        (apply (apend_keep _ i t _ TPublishIndex rest En Ep); [reflexivity|discriminate|exact A]).
    + (* the holder publishes its snapshot, which is the current resolver *)
      destruct (F t (nth_error_In _ _ En) Ht) as (l & El & Hl); [rewrite Ep; now left|].
      rewrite El. cbn [cfs ctags cdigs clock ccnt cthreads]. right. split.
      * apply fpub_keep; [|exact F]. intros _ _. exists l. split; [reflexivity|exact Hl].
      * right. exists l. split; [reflexivity|exact Hl].
  - (* TUnlock *)
    destruct St as (Ht & S2). destruct S as [A|[F E]].
    + left. apply (apend_keep _ i t _ TUnlock rest En Ep); [reflexivity|discriminate|exact A].
    + destruct E as [(u & Hin & Hu & Hp)|Sn].
      * apply In_nth_error in Hin as (j & Ej). pose proof (One j i u t Ej En Hu Ht) as ->.
        rewrite En in Ej. injection Ej as <-. rewrite Ep in Hp. destruct Hp as [X|Hp]; [discriminate|].
        destruct (shape_pub rest false S2 Hp) as [X|X]; [discriminate|].
        left. exists (mkThread rest (ttmp t) None false). split; [now apply (in_new _ i t)|exact X].
      * right. split; [|now right]. apply fpub_keep; [intro Hu; discriminate Hu|exact F].
Qed.

Lemma sync_sched is c : LInv c -> Sy c -> LInv (sched shuffle c is) /\ Sy (sched shuffle c is).
Proof.
  intros L S. apply (sched_ind shuffle (fun c => LInv c /\ Sy c)); [|now split].
  intros c' i [L' S']. split; [now apply lstep_inv|now apply sstep_inv].
Qed.

Lemma shape_writes (cont : list N) rest : shape false rest -> shape false (map (fun x => TWrite (AChunk x)) cont ++ rest).
Proof. induction cont as [|x cont IH]; intro S; [exact S|]. cbn [map app shape]. now apply IH. Qed.

Lemma call_prog_shape fs tags x : shape false (call_prog H fs tags x).
Proof.
  destruct x as [d cont man|d r|r|]; cbn [call_prog].
  - destruct (exists_file fs (FBlob d)); [reflexivity|]. unfold push_prog. apply shape_writes.
    destruct (H cont =? d); [|cbn; reflexivity]. destruct man; cbn; intuition.
  - destruct (exists_file fs (FBlob d)); cbn; intuition.
  - destruct (tag_get r tags); cbn; intuition.
  - cbn; intuition.
Qed.

Definition quiet (c : conf) : Prop := forall t, In t (cthreads c) -> tprog t = [].

(* entering a concurrent phase: an agreeing state, threads none of which holds the lock *)
Lemma entry_sync s ths :
  Agree s -> (forall t, In t ths -> tholds t = false /\ shape false (tprog t)) ->
  let c := mkConf (sfs s) (stags s) (sdigs s) false (sctr s) ths in LInv c /\ Sy c.
Proof.
  intros A Hh c. split.
  - constructor; cbn [cthreads clock].
    + intros t Hin. destruct (Hh t Hin) as [-> S]. exact S.
    + intros _ t Hin. now destruct (Hh t Hin).
    + intros i j ti tj Ei _ Hi _. destruct (Hh ti (nth_error_In _ _ Ei)) as [E _]. congruence.
  - destruct (apend_dec ths) as [Y|Nn]; [now left|]. right. split.
    + intros t Hin Ht. destruct (Hh t Hin) as [E _]. congruence.
    + right. exact A.
Qed.

Lemma start_sync s calls : Agree s -> LInv (start H s calls) /\ Sy (start H s calls).
Proof.
  intro A. apply entry_sync; [exact A|]. intros t Hin. apply in_map_iff in Hin as (x & <- & _).
  split; [reflexivity|apply call_prog_shape].
Qed.

(* nobody has a snapshot or a publication left to do *)
Lemma sy_quiet c : Sy c -> quiet c -> synced (cfs c) (ctags c) (cdigs c).
Proof.
  intros [(t & Hin & Hl)|[_ [(t & Hin & _ & Hp)|Sn]]] Q; [| |exact Sn].
  - rewrite (Q t Hin) in Hl. destruct Hl.
  - rewrite (Q t Hin) in Hp. destruct Hp.
Qed.

(* when every call has returned, index.json is what saveIndex would write from the resolver *)
Theorem quiet_synced s calls is :
  Agree s ->
  let c := sched shuffle (start H s calls) is in
  quiet c -> Agree (st_of c).
Proof.
  intros A c Q. destruct (start_sync s calls A) as [L0 S0].
  exact (sy_quiet c (proj2 (sync_sched is _ L0 S0)) Q).
Qed.

Lemma quietb_quiet c : quietb c = true -> quiet c.
Proof.
  unfold quietb, quiet. rewrite forallb_forall. intros Q t Hin. specialize (Q t Hin).
  destruct (tprog t); [reflexivity|discriminate].
Qed.

(* the sequential invariant is back when the batch is over *)
Record KInv (s : st) (c : conf) : Prop := {
  ki_temp : forall p, is_temp p = true -> files (cfs c) p = files (sfs s) p;
  ki_cnt : (sctr s <= ccnt c)%nat;
  ki_fun : forall r n n', In (r, n) (ctags c) -> In (r, n') (ctags c) -> n = n'
}.

Lemma kstep_inv s c i : KInv s c -> KInv s (stepN c i).
Proof.
  intros [T C F]. unfold sched_step.
  destruct (nth_error (cthreads c) i) as [t|]; [|constructor; assumption].
  unfold fire. destruct (tprog t) as [|a rest]; [constructor; assumption|].
  destruct a; cbv beta iota zeta; try (constructor; cbn [cfs ctags ccnt]; assumption).
  - constructor; cbn [cfs ctags ccnt]; try assumption.
    intros p Hp. unfold set_file. cbn [files]. rewrite upd_other; [now apply T|]. intros ->. discriminate.
  - constructor; cbn [cfs ctags ccnt]; try assumption.
    destruct r as [r|]; [|exact F]. now apply tag_set_fun.
  - constructor; cbn [cfs ctags ccnt]; try assumption.
    intros r0 n n' H1 H2. unfold tag_del in H1, H2. apply filter_In in H1 as [H1 _], H2 as [H2 _]. exact (F r0 n n' H1 H2).
  - destruct (clock c); constructor; cbn [cfs ctags ccnt]; try assumption. lia.
  - destruct (tsnap t); constructor; cbn [cfs ctags ccnt]; try assumption.
    intros p Hp. unfold set_file. cbn [files]. rewrite upd_other; [now apply T|]. intros ->. discriminate.
Qed.

Lemma ksched_inv s is c : KInv s c -> KInv s (sched shuffle c is).
Proof. apply sched_ind, kstep_inv. Qed.

Lemma entry_kinv s lk ths : Inv H s -> KInv s (mkConf (sfs s) (stags s) (sdigs s) lk (sctr s) ths).
Proof. intro I. constructor; cbn [cfs ctags ccnt]; [reflexivity|lia|exact (inv_fun H s I)]. Qed.

Lemma start_kinv s calls : Inv H s -> KInv s (start H s calls).
Proof. apply entry_kinv. Qed.

Theorem quiet_inv s calls is :
  Inv H s -> Agree s ->
  let c := sched shuffle (start H s calls) is in
  quiet c -> Inv H (st_of c) /\ Agree (st_of c).
Proof.
  intros I A c Q. pose proof (quiet_synced s calls is A Q) as A'. fold c in A'.
  split; [|exact A'].
  destruct (sched_inv H shuffle shuffle_In is _ (start_cinv H s calls I)) as [L B Ix TD D _]. fold c in L, B, Ix, TD, D.
  destruct (ksched_inv s is _ (start_kinv s calls I)) as [KT KC KF]. fold c in KT, KC, KF. destruct A' as (l & Hl & Hs). cbn [st_of sfs stags sdigs] in Hl, Hs.
  constructor; cbn [st_of sfs stags sdigs sctr]; try assumption.
  - intros p Hp Hq. rewrite KT by exact Hp. apply (inv_temp H s I p Hp). lia.
  - exists l. split; [exact Hl|]. intros e Hin. apply Hs in Hin. exact (save_in_digs _ _ TD e Hin).
  - exists l. split; [exact Hl|]. intros r n. rewrite Hs. apply save_tagged.
Qed.

(* crashes: the index a reopened store loads is well-formed, so it agrees again *)
Lemma save_untagged tags digs n : In (n, None) (save tags digs) <-> In n digs /\ forall r, ~ In (r, n) tags.
Proof.
  unfold save. rewrite in_app_iff. split.
  - intros [Hin|Hin].
    + apply in_map_iff in Hin as ([r' n'] & E & _). discriminate.
    + apply in_map_iff in Hin as (d & E & Hf). injection E as ->. apply filter_In in Hf as [Hd Hb].
      split; [exact Hd|]. intros r Hr. apply negb_true_iff in Hb.
      assert (X : existsb (fun e : N * N => snd e =? n) tags = true).
      { apply existsb_exists. exists (r, n). split; [exact Hr|]. cbn. apply N.eqb_refl. }
      congruence.
  - intros [Hd Hn]. right. apply in_map_iff. exists n. split; [reflexivity|]. apply filter_In. split; [exact Hd|].
    apply negb_true_iff. destruct (existsb (fun e : N * N => snd e =? n) tags) eqn:E; [|reflexivity].
    apply existsb_exists in E as ([r' n'] & Hin & He). cbn in He. apply N.eqb_eq in He. subst n'.
    exfalso. exact (Hn r' Hin).
Qed.

Definition wf (l : list entry) : Prop :=
  (forall r n n', In (n, Some r) l -> In (n', Some r) l -> n = n') /\
  (forall n r, In (n, None) l -> ~ In (n, Some r) l).

Lemma wf_same l tags digs :
  same_as l tags digs -> (forall r n n', In (r, n) tags -> In (r, n') tags -> n = n') -> wf l.
Proof.
  intros Hs Hf. split.
  - intros r n n' H1 H2. apply Hs in H1, H2. apply save_tagged in H1, H2. exact (Hf r n n' H1 H2).
  - intros n r H1 H2. apply Hs in H1, H2. apply save_untagged in H1 as [_ H1]. apply save_tagged in H2. exact (H1 r H2).
Qed.

Lemma agree_reopen fs cnt l : read_index fs = Some l -> wf l -> Agree (reopen fs cnt).
Proof.
  intros Hl [Hfl W2]. unfold reopen. rewrite Hl. exists l. split; [exact Hl|].
  intros [n [r|]]; cbn [sfs stags sdigs].
  - rewrite save_tagged. symmetry. now apply load_named0.
  - rewrite save_untagged, (load_digs0 H). split.
    + intro Hin. split; [now exists None|]. intros r Hr. apply (load_named0 l Hfl) in Hr. exact (W2 n r Hin Hr).
    + intros [([r|] & Hx) Hn]; [|exact Hx]. destruct (Hn r). now apply load_named0.
Qed.

Lemma agree_wf s : Inv H s -> Agree s -> forall l, read_index (sfs s) = Some l -> wf l.
Proof.
  intros I (l0 & Hl0 & Hs) l Hl. rewrite Hl0 in Hl. injection Hl as <-.
  exact (wf_same l0 _ _ Hs (inv_fun H s I)).
Qed.

Lemma agree_hop s x : Inv H s -> Agree s -> Agree (run_hop H shuffle false false true s x).
Proof.
  intros I A. destruct (op_safe H shuffle shuffle_In s (match x with Done o => o | Crashed o _ => o end) I) as (I1 & A1 & _ & R).
  destruct x as [o|o k]; cbn [run_hop]; [now apply A1|].
  destruct (R k) as (_ & _ & (l & Hl & _) & RI & _).
  apply (agree_reopen _ _ l Hl).
  destruct RI as [RI|RI]; rewrite Hl in RI; symmetry in RI.
  - exact (agree_wf s I A l RI).
  - exact (agree_wf _ I1 (A1 A) l RI).
Qed.

Lemma agree_runc h : forall s, Inv H s -> Agree s -> Agree (runc H shuffle false false true h s).
Proof.
  induction h as [|x h IH]; intros s I A; [exact A|].
  cbn [runc fold_left]. apply IH; [now apply inv_run_hop|now apply agree_hop].
Qed.

(* index.json and every snapshot, at every point of every schedule *)
Definition WfInv (c : conf) : Prop :=
  (forall l, read_index (cfs c) = Some l -> wf l) /\
  forall t, In t (cthreads c) -> forall l, tsnap t = Some l -> wf l.

Lemma wstep_inv s c i : KInv s c -> WfInv c -> WfInv (stepN c i).
Proof.
  intros K [D T]. unfold sched_step.
  destruct (nth_error (cthreads c) i) as [t|] eqn:En; [|now split].
  pose proof (T t (nth_error_In _ _ En)) as Tt. unfold fire.
  destruct (tprog t) as [|a rest]; [now split|].
  assert (Others : forall t', (forall l, tsnap t' = Some l -> wf l) ->
            forall u, In u (set_nth i t' (cthreads c)) -> forall l, tsnap u = Some l -> wf l).
  { intros t' Ht' u Hin. apply In_set_nth in Hin as [->|Hin]; [exact Ht'|now apply T]. }
  destruct a; cbv beta iota zeta;
    try (split; cbn [cfs cthreads]; [exact D|apply Others; cbn [tsnap]; exact Tt]).
  - destruct (clock c); [now split|]. split; cbn [cfs cthreads]; [exact D|].
    apply Others. cbn [tsnap]. intros l E. injection E as <-.
    apply (wf_same _ (ctags c) (cdigs c)); [intro e; apply shuffle_In|exact (ki_fun _ _ K)].
  - destruct (tsnap t) as [l|] eqn:Es.
    + split; cbn [cfs cthreads].
      * intros l0 E. change (Some l = Some l0) in E. injection E as <-. exact (Tt l eq_refl).
      * apply Others. cbn [tsnap]. intros l0 E. injection E as <-. exact (Tt l eq_refl).
    + split; cbn [cfs cthreads]; [exact D|]. apply Others. cbn [tsnap]. intros l0 E. discriminate.
  - split; cbn [cfs cthreads]; [exact D|]. apply Others. cbn [tsnap]. intros l0 E. discriminate.
Qed.

Lemma entry_wfinv s lk ths :
  Inv H s -> Agree s -> (forall t, In t ths -> tsnap t = None) ->
  WfInv (mkConf (sfs s) (stags s) (sdigs s) lk (sctr s) ths).
Proof.
  intros I A Ht. split; cbn [cfs cthreads]; [exact (agree_wf s I A)|].
  intros t Hin l E. rewrite (Ht t Hin) in E. discriminate.
Qed.

Lemma wsched_inv s is c : KInv s c -> WfInv c -> WfInv (sched shuffle c is).
Proof.
  intros K W. apply (sched_ind shuffle (fun c => KInv s c /\ WfInv c)); [|now split].
  intros c' i [K' W']. split; [now apply kstep_inv|now apply (wstep_inv s)].
Qed.

(* a batch killed after any prefix of any schedule, and the store reopened *)
Theorem conc_reopen s calls is :
  Inv H s -> Agree s ->
  let c := sched shuffle (start H s calls) is in
  Inv H (reopen (cfs c) (S (ccnt c))) /\ Agree (reopen (cfs c) (S (ccnt c))).
Proof.
  intros I A c.
  destruct (sched_inv H shuffle shuffle_In is _ (start_cinv H s calls I)) as [L B (l & Hl & He) _ _ _]. fold c in L, B, Hl, He.
  pose proof (ksched_inv s is _ (start_kinv s calls I)) as K. fold c in K.
  assert (W0 : WfInv (start H s calls)).
  { apply entry_wfinv; [exact I|exact A|]. intros t Hin. now apply in_map_iff in Hin as (x & <- & _). }
  destruct (wsched_inv s is _ (start_kinv s calls I) W0) as [WD _]. fold c in WD.
  pose proof (WD l Hl) as W. split; [|exact (agree_reopen _ _ l Hl W)].
  apply (inv_reopen H _ _ l); try assumption; [apply W|].
  intros p Hp Hq. rewrite (ki_temp _ _ K) by exact Hp. apply (inv_temp H s I p Hp).
  pose proof (ki_cnt _ _ K). lia.
Qed.

(* thread j fires the head [a] of its program: what the step changes *)
Definition fires (c : conf) (j : nat) (t : thread) (a : act) (rest : list act) (t' : thread) : Prop :=
  nth_error (cthreads c) j = Some t /\ tprog t = a :: rest /\ tprog t' = rest /\
  cthreads (stepN c j) = set_nth j t' (cthreads c) /\
  ctags (stepN c j) = match a with
                      | TTagMem d (Some r) => tag_set r d (ctags c)
                      | TUntagMem r => tag_del r (ctags c)
                      | _ => ctags c
                      end /\
  (forall d, a = TPublishBlob d -> has (cfs (stepN c j)) (FBlob d)) /\
  (forall d r, a = TTagMem d r -> In d (cdigs (stepN c j))).

(* the step does fire: every clause of [fires] holds by computation, but for what is left open *)
Ltac fired := right; eexists _, _, _, _; repeat split; try eassumption; try reflexivity; try discriminate.

Lemma step_cases c j : stepN c j = c \/ exists t a rest t', fires c j t a rest t'.
Proof.
  unfold fires, sched_step. destruct (nth_error (cthreads c) j) as [t|] eqn:En; [|now left].
  unfold fire. destruct (tprog t) as [|a rest] eqn:Ep; [now left|].
  destruct a as [x|d0| |d0 r0|r0| | |]; cbv beta iota zeta.
  - fired.
  - fired. intros d [= <-]. unfold has, set_file. cbn [cfs files]. rewrite upd_same. discriminate.
  - fired.
  - fired. intros d r [= <- _]. apply dig_add_self.
  - fired.
  - destruct (clock c); [now left|fired].
  - destruct (tsnap t); fired.
  - fired.
Qed.

Lemma step_digs c j d : In d (cdigs c) -> In d (cdigs (stepN c j)).
Proof.
  intro Hd. unfold sched_step. destruct (nth_error (cthreads c) j) as [t|]; [|exact Hd].
  unfold fire. destruct (tprog t) as [|a rest]; [exact Hd|].
  destruct a; cbv beta iota zeta; cbn [cdigs]; try exact Hd.
  - now apply (dig_add_incl H).
  - destruct (clock c); exact Hd.
  - destruct (tsnap t); exact Hd.
Qed.

(* an action [a] of thread i's program is pending until thread i fires it; [E] is its lasting
   effect, under an invariant [J] of the batch *)
Definition pending (i : nat) (a : act) (c : conf) : Prop :=
  exists t, nth_error (cthreads c) i = Some t /\ In a (tprog t).

Lemma quiet_pending i a c : quiet c -> ~ pending i a c.
Proof. intros Q (t & Et & Hin). rewrite (Q t (nth_error_In _ _ Et)) in Hin. destruct Hin. Qed.

Section Pending.
Variables (J E : conf -> Prop) (i : nat) (a : act).
Hypothesis J_step : forall c j, J c -> J (stepN c j).
Hypothesis E_step : forall c j, J c -> E c -> E (stepN c j).
Hypothesis E_fired : forall c t rest t', J c -> fires c i t a rest t' -> E (stepN c i).

Lemma pend_step c j : J c -> pending i a c \/ E c -> pending i a (stepN c j) \/ E (stepN c j).
Proof.
  intros Jc [(u & Eu & Hin)|He]; [|right; now apply E_step].
  destruct (step_cases c j) as [->|(t & b & rest & t' & F)]; [left; now exists u|].
  pose proof F as (En & Ep & Ep' & Ec & _). destruct (Nat.eq_dec j i) as [->|Hn].
  - rewrite En in Eu. injection Eu as <-. rewrite Ep in Hin. destruct Hin as [->|Hin].
    + right. exact (E_fired c t rest t' Jc F).
    + left. exists t'. rewrite Ec. split; [now apply (nth_set_same _ i t)|now rewrite Ep'].
  - left. exists u. rewrite Ec. split; [rewrite nth_set_other by exact Hn; exact Eu|exact Hin].
Qed.

Lemma pend_sched is c : J c -> pending i a c \/ E c ->
  pending i a (sched shuffle c is) \/ E (sched shuffle c is).
Proof.
  intros Jc P. apply (sched_ind shuffle (fun c => J c /\ (pending i a c \/ E c))); [|now split].
  intros c' j [Jc' P']. split; [now apply J_step|now apply pend_step].
Qed.

Lemma pend_quiet is c : J c -> pending i a c \/ E c -> quiet (sched shuffle c is) -> E (sched shuffle c is).
Proof.
  intros Jc P Q. destruct (pend_sched is c Jc P) as [P'|E']; [destruct (quiet_pending _ _ _ Q P')|exact E'].
Qed.
End Pending.

Lemma start_pending s calls i x a :
  nth_error calls i = Some x -> In a (call_prog H (sfs s) (stags s) x) -> pending i a (start H s calls).
Proof.
  intros Ei Hin. eexists. split; [cbn [start cthreads]; apply map_nth_error; exact Ei|exact Hin].
Qed.

Lemma save_has_dig tags digs d : In d digs -> exists r, In (d, r) (save tags digs).
Proof.
  intro Hd. destruct (existsb (fun e : N * N => snd e =? d) tags) eqn:E.
  - apply existsb_exists in E as ([r n] & Hin & He). cbn in He. apply N.eqb_eq in He. subst n.
    exists (Some r). now apply save_tagged.
  - exists None. apply save_untagged. split; [exact Hd|]. intros r Hr.
    pose proof (existsb_false _ _ E (r, d) Hr) as X. cbn in X. now rewrite N.eqb_refl in X.
Qed.

(* a Push that has returned: the blob is there, and a manifest has its entry in index.json,
   whatever else ran at the same time *)
Theorem conc_completed_push s calls is i d cont man :
  Inv H s -> Agree s ->
  let c := sched shuffle (start H s calls) is in
  nth_error calls i = Some (CPush d cont man) -> H cont = d -> quiet c ->
  has (cfs c) (FBlob d) /\
  (exists_file (sfs s) (FBlob d) = false -> man = true ->
   exists l r, read_index (cfs c) = Some l /\ In (d, r) l).
Proof.
  intros I A c Ei Hc Q. apply N.eqb_eq in Hc.
  destruct (exists_file (sfs s) (FBlob d)) eqn:Ex.
  - split; [|discriminate]. apply (sched_grows shuffle is (start H s calls)). now apply exists_file_has.
  - assert (Prog : forall a, In a (TPublishBlob d :: if man then TTagMem d None :: save_prog else []) ->
                     pending i a (start H s calls)).
    { intros a Hin. apply (start_pending s calls i _ a Ei). cbn [call_prog]. rewrite Ex. unfold push_prog. rewrite Hc.
      apply in_or_app. now right. }
    split.
    + apply (pend_quiet (fun _ => True) (fun c => has (cfs c) (FBlob d)) i (TPublishBlob d)); [| | |exact Logic.I| |exact Q].
      * intros c0 j _. exact Logic.I.
      * intros c0 j _. apply step_grows.
      * intros c0 t rest t' _ (_ & _ & _ & _ & _ & F & _). now apply F.
      * left. apply Prog. now left.
    + intros _ ->.
      assert (E : In d (cdigs c)).
      { apply (pend_quiet (fun _ => True) (fun c => In d (cdigs c)) i (TTagMem d None)); [| | |exact Logic.I| |exact Q].
        - intros c0 j _. exact Logic.I.
        - intros c0 j _. apply step_digs.
        - intros c0 t rest t' _ (_ & _ & _ & _ & _ & _ & F). now apply (F d None).
        - left. apply Prog. right. now left. }
      destruct (quiet_synced s calls is A Q) as (l & Hl & Hs). destruct (save_has_dig (ctags c) (cdigs c) d E) as (r & Hr).
      exists l, r. split; [exact Hl|now apply Hs].
Qed.

Definition sets_ref (r : N) (a : act) : Prop := (exists d, a = TTagMem d (Some r)) \/ a = TUntagMem r.

(* the only action of the batch that updates reference r is A, in thread i *)
Definition Only (r : N) (i : nat) (A : act) (c : conf) : Prop :=
  forall j t a, nth_error (cthreads c) j = Some t -> In a (tprog t) -> sets_ref r a -> j = i /\ a = A.

Lemma only_step r i A c j : Only r i A c -> Only r i A (stepN c j).
Proof.
  intro O. destruct (step_cases c j) as [->|(t & a & rest & t' & En & Ep & Ep' & Ec & _)]; [exact O|].
  intros k u b Eu Hin T. rewrite Ec in Eu. destruct (Nat.eq_dec j k) as [->|Hn].
  - rewrite (nth_set_same _ k t t' En) in Eu. injection Eu as <-. apply (O k t b En); [|exact T].
    rewrite Ep. right. now rewrite <- Ep'.
  - rewrite nth_set_other in Eu by exact Hn. exact (O k u b Eu Hin T).
Qed.

Lemma only_tags r i A c j :
  Only r i A c ->
  (forall n, In (r, n) (ctags (stepN c j)) <-> In (r, n) (ctags c)) \/ exists t rest t', fires c j t A rest t'.
Proof.
  intro O. destruct (step_cases c j) as [->|(t & a & rest & t' & F)]; [now left|].
  pose proof F as (En & Ep & _ & _ & Et & _). rewrite Et.
  assert (Ha : forall T, sets_ref r a -> T \/ exists t rest t', fires c j t A rest t').
  { intros T Hr. right. destruct (O j t a En) as [_ <-]; [rewrite Ep; now left|exact Hr|now exists t, rest, t']. }
  destruct a as [x|d0| |d0 [r0|]|r0| | |]; try (now left).
  - destruct (N.eq_dec r r0) as [<-|Hn]; [apply Ha; left; now exists d0|left].
    intro n. rewrite tag_set_iff. tauto.
  - destruct (N.eq_dec r r0) as [<-|Hn]; [apply Ha; now right|left].
    intro n. unfold tag_del. rewrite filter_In. cbn [fst]. rewrite negb_true_iff, N.eqb_neq. tauto.
Qed.

Definition alone_on (r : N) (i : nat) (calls : list ccall) : Prop :=
  forall j x, nth_error calls j = Some x -> j <> i -> (forall d, x <> CTag d r) /\ x <> CUntag r.

Lemma start_only s calls i r x A :
  nth_error calls i = Some x -> alone_on r i calls ->
  (forall a, In a (call_prog H (sfs s) (stags s) x) -> sets_ref r a -> a = A) ->
  Only r i A (start H s calls).
Proof.
  intros Ei Ho Hx j t a Et Hin T. cbn [start cthreads] in Et.
  rewrite nth_error_map in Et. destruct (nth_error calls j) as [y|] eqn:Ey; [injection Et as <-|discriminate Et].
  cbn [tprog] in Hin.
  destruct (Nat.eq_dec j i) as [->|Hn].
  - split; [reflexivity|]. rewrite Ei in Ey. injection Ey as <-. now apply Hx.
  - exfalso. destruct (Ho j y Ey Hn) as [N1 N2]. apply (call_prog_names H) in Hin.
    destruct T as [[d ->]| ->]; [exact (N1 d Hin)|exact (N2 Hin)].
Qed.

(* reference r is updated by action A alone, in thread i: a property [E] of r's entries that A
   establishes holds when the batch is quiet, if A was pending or [E] held already *)
Lemma only_quiet r i A (E : list (N * N) -> Prop) c is :
  (forall tags tags', (forall n, In (r, n) tags' <-> In (r, n) tags) -> E tags -> E tags') ->
  (forall c0 j t rest t', fires c0 j t A rest t' -> E (ctags (stepN c0 j))) ->
  Only r i A c -> pending i A c \/ E (ctags c) ->
  quiet (sched shuffle c is) -> E (ctags (sched shuffle c is)).
Proof.
  intros Eext Efire O P Q.
  apply (pend_quiet (Only r i A) (fun c => E (ctags c)) i A); try assumption.
  - intros c0 j. apply only_step.
  - intros c0 j O0 He. destruct (only_tags r i A c0 j O0) as [Eq|(t & rest & t' & F)];
      [exact (Eext _ _ Eq He)|exact (Efire _ _ _ _ _ F)].
  - intros c0 t rest t' _. apply Efire.
Qed.

(* a Tag that has returned, no other call of the batch naming its reference: index.json has it *)
Theorem conc_completed_tag s calls is i d r :
  Inv H s -> Agree s ->
  let c := sched shuffle (start H s calls) is in
  nth_error calls i = Some (CTag d r) -> exists_file (sfs s) (FBlob d) = true ->
  alone_on r i calls -> quiet c ->
  exists l, read_index (cfs c) = Some l /\ In (d, Some r) l.
Proof.
  intros I A c Ei Ex Ho Q. set (A0 := TTagMem d (Some r)).
  assert (E : In (r, d) (ctags c)).
  { apply (only_quiet r i A0 (fun tags => In (r, d) tags)); [| | |left|exact Q].
    - intros tags tags' Eq Hin. now apply Eq.
    - intros c0 j t rest t' (_ & _ & _ & _ & -> & _). apply tag_set_iff. left. now split.
    - apply (start_only s calls i r (CTag d r)); [exact Ei|exact Ho|].
      intros a Hin T. apply (call_prog_names H) in Hin.
      destruct T as [[d' ->]| ->]; [now injection Hin as ->|discriminate].
    - apply (start_pending s calls i _ A0 Ei). cbn [call_prog]. rewrite Ex. right. now left. }
  destruct (quiet_synced s calls is A Q) as (l & Hl & Hs). exists l. split; [exact Hl|]. apply Hs. now apply save_tagged.
Qed.

(* an Untag that has returned, no other call of the batch naming its reference: index.json has not *)
Theorem conc_completed_untag s calls is i r :
  Inv H s -> Agree s ->
  let c := sched shuffle (start H s calls) is in
  nth_error calls i = Some (CUntag r) -> alone_on r i calls -> quiet c ->
  exists l, read_index (cfs c) = Some l /\ forall n, ~ In (n, Some r) l.
Proof.
  intros I A c Ei Ho Q. set (A0 := TUntagMem r).
  assert (E : forall n, ~ In (r, n) (ctags c)).
  { apply (only_quiet r i A0 (fun tags => forall n, ~ In (r, n) tags)); [| | | |exact Q].
    - intros tags tags' Eq Hno n Hin. now apply Eq, Hno in Hin.
    - intros c0 j t rest t' (_ & _ & _ & _ & -> & _) n Hin. apply filter_In in Hin as [_ Hn].
      cbn [fst] in Hn. now rewrite N.eqb_refl in Hn.
    - apply (start_only s calls i r (CUntag r)); [exact Ei|exact Ho|].
      intros a Hin T. apply (call_prog_names H) in Hin. destruct T as [[d' ->]| ->]; [discriminate|reflexivity].
    - cbn [start ctags]. destruct (tag_get r (stags s)) as [x|] eqn:Eg; [left|right; now apply tag_get_none].
      apply (start_pending s calls i _ A0 Ei). cbn [call_prog]. rewrite Eg. now left. }
  destruct (quiet_synced s calls is A Q) as (l & Hl & Hs). exists l. split; [exact Hl|].
  intros n Hin. apply Hs, save_tagged in Hin. exact (E n Hin).
Qed.

Lemma phases_inv ps : forall s,
  Inv H s -> Agree s -> phases_quiet H shuffle false false s ps = true ->
  Inv H (run_phases H shuffle false false s ps) /\ Agree (run_phases H shuffle false false s ps).
Proof.
  induction ps as [|p ps IH]; intros s I A Q; [now split|].
  cbn [phases_quiet] in Q. apply andb_true_iff in Q as [Q1 Q2].
  cbn [run_phases fold_left]. destruct p as [h|calls is|calls is]; cbn [run_phase] in *.
  - apply IH; [now apply inv_runc|now apply agree_runc|exact Q2].
  - destruct (quiet_inv s calls is I A (quietb_quiet _ Q1)) as [I' A']. apply IH; assumption.
  - destruct (conc_reopen s calls is I A) as [I' A']. apply IH; assumption.
Qed.

Theorem phases_synced ps :
  phases_quiet H shuffle false false init ps = true ->
  Inv H (run_phases H shuffle false false init ps) /\ Agree (run_phases H shuffle false false init ps).
Proof. apply phases_inv; [apply inv_init|apply agree_init]. Qed.

Lemma phases_runc ps h :
  phases_quiet H shuffle false false init ps = true ->
  let s := runc H shuffle false false true h (run_phases H shuffle false false init ps) in
  Inv H s /\ Agree s.
Proof. intros Q s. destruct (phases_synced ps Q) as [I A]. split; [now apply inv_runc|now apply agree_runc]. Qed.

End Sync.

(* two Tag calls of the same reference: the hypothesis "no other call names r" is needed *)
Lemma conc_completed_tag_needs_alone :
  exists (H : list N -> N) (s : st) (calls : list ccall) (is : list nat),
    let c := sched (fun _ l => l) (start H s calls) is in
    nth_error calls 0 = Some (CTag 1 10) /\ quietb c = true /\ read_index (cfs c) = Some [(2, Some 10); (1, None)].
Proof.
  exists (fun c => match c with [5] => 1 | _ => 2 end),
         (run (fun c => match c with [5] => 1 | _ => 2 end) (fun _ l => l) false false true [Push 1 [5] true; Push 2 [6] true] init),
         [CTag 1 10; CTag 2 10], [0; 0; 0; 0; 0; 1; 1; 1; 1; 1]%nat.
  vm_compute. repeat split; reflexivity.
Qed.

(* without indexLock (two saveIndex calls interleave: the earlier snapshot is published last) the
   first statement is false: both Tag calls have returned, the resolver has both references,
   index.json has one *)
Lemma conc_unsynced_without_indexlock :
  exists (H : list N -> N) (s : st) (calls : list ccall) (is : list nat),
    let c := sched_nolock (fun _ l => l) (start H s calls) is in
    quietb c = true /\ In (11, 1) (ctags c) /\ read_index (cfs c) = Some [(1, Some 10)].
Proof.
  exists (fun _ => 1), (run (fun _ => 1) (fun _ l => l) false false true [Push 1 [5] true] init),
         [CTag 1 10; CTag 1 11], [0; 0; 0; 1; 1; 1; 1; 0; 0; 1]%nat.
  vm_compute. split; [reflexivity|split; [now left|reflexivity]].
Qed.

(* the hypotheses are satisfiable: a push, two concurrent Tag calls under some schedule that lets
   both return, an Untag, a concurrent SaveIndex and Push of the blob that exists *)
Lemma phases_example :
  let ps := [PSeq [Done (Push 1 [5] true)];
             PConc [CTag 1 10; CTag 1 11] [0; 1; 0; 1; 0; 0; 0; 1; 1; 1]%nat;
             PSeq [Crashed (Untag 10) 1; Done (Untag 10)];
             PConcCrash [CTag 1 12; CSaveIndex] [0; 1; 0]%nat;
             PConc [CPush 1 [6] false; CSaveIndex] [1; 0; 1; 0; 1; 0]%nat] in
  phases_quiet (fun _ => 1) (fun _ l => l) src_inplace src_unlink_first init ps = true /\
  read_index (sfs (run_phases (fun _ => 1) (fun _ l => l) src_inplace src_unlink_first init ps)) = Some [(1, Some 11)].
Proof. vm_compute. split; reflexivity. Qed.
