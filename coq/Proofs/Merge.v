(* C14 — structural invariant of the Merge / Pool / updateReferrersIndex transition system of
   Model/Merge.v, for every trace: InvS (Proofs/MergeBase.v) is preserved by every event. *)
From Oras Require Import Base.Prelude Model.Referrers Proofs.Referrers Model.Merge.
From Oras Require Export Proofs.MergeBase Proofs.MergeSC.

Lemma invS_arg s t c : InvS s -> pcs s t = Idle ->
  InvS (mkSt (pool s) (committed s) (items s) (token s) (pending s) (pcs s) (reg s) (store s)
             (upd (arg s) t c) (lin s) (junk s) (applied s)).
Proof.
  intros I Hpc.
  assert (Ha : forall x, pcs s x <> Idle -> upd (arg s) t c x = arg s x) by (intros x Hx; tcase x t; congruence).
  constructor; simpl; try apply I.
  - intros x c0 Hin. rewrite Ha; [now apply (i_items s I)|].
    destruct (i_items s I x c0 Hin) as [[A|A] _]; intro E; rewrite E in A; discriminate.
  - intros x c0 Hin. rewrite Ha; [now apply (i_pend s I)|].
    destruct (i_pend s I x c0 Hin) as [A _]. congruence.
  - intros x c0 Hx. rewrite Ha by congruence. now apply (i_got s I).
Qed.

(* with the invariant, Get on a fresh (zero) Merge is no special case: the fields that are reset
   had these values *)
Lemma step_get sg s t c s' : InvS s -> step sg s (EGet t c) = Some s' ->
  pcs s t = Idle /\ is_empty (cdesc c) = false /\
  s' = mkSt (fst (pool_get (pool s))) (committed s) (items s) (token s) (pending s) (upd (pcs s) t (Got c))
            (reg s) (store s) (upd (arg s) t c) (lin s) (junk s) (applied s).
Proof.
  intros I H. simpl in H.
  destruct (pcs s t) eqn:Hpc; try discriminate. destruct (is_empty (cdesc c)); try discriminate.
  repeat split. destruct (pool s) eqn:Hpool; injection H as <-; [reflexivity|].
  destruct (pool_none s I Hpool) as (_ & Ei & Ep). destruct (i_nomain s I Ei) as (Et & Ec & _ & Ea).
  now rewrite Ei, Ep, Et, Ec, Ea.
Qed.

Lemma stepS_get sg s t c s' : InvS s -> step sg s (EGet t c) = Some s' -> InvS s'.
Proof.
  intros I H. destruct (step_get sg s t c s' I H) as (Hpc & _ & ->).
  apply (invS_move _ t (Got c) _ _ _ _ _ _ _ (invS_arg s t c I Hpc)); simpl; auto.
  - rewrite Hpc, upd_eq. constructor; try reflexivity; try discriminate. + split; discriminate. + now intros c0 [= ->].
  - apply pool_ok_get; [now rewrite Hpc|reflexivity|apply (i_pool s I)].
  - apply (i_applied s I).
Qed.

Lemma stepS_done sg s t s' : InvS s -> step sg s (EDone t) = Some s' -> InvS s'.
Proof.
  intros I H. simpl in H.
  destruct (pcs s t) as [|c0| | |o|nw o|oi ap|r|r|r] eqn:Hpc; try discriminate.
  destruct (pool s) as [rc|] eqn:Hpool; try discriminate. injection H as <-.
  apply invS_move; auto.
  - rewrite Hpc. constructor; try reflexivity; try discriminate. split; discriminate.
  - change (pool_ok holding (pool_put (Some rc)) (upd (pcs s) t (Done r))). rewrite <- Hpool.
    apply pool_ok_put; [now rewrite Hpc|reflexivity|apply (i_pool s I)].
  - apply (i_applied s I).
Qed.

Lemma got_outside s t c : InvS s -> pcs s t = Got c -> ~ In t (batch s) /\ ~ In t (map fst (pending s)).
Proof. intros I Hpc. split; [apply not_in_batch|apply not_in_pending]; auto; now rewrite Hpc. Qed.

Section Assign.
  Variables (s : state) (t : tid) (c : change).
  Hypotheses (I : InvS s) (Hpc : pcs s t = Got c).

  (* no clause tells Wait and Got apart by a boolean test *)
  Let Ho : forall (P : pc -> bool) x, P Wait = P (Got c) -> P (upd (pcs s) t Wait x) = P (pcs s x).
  Proof. intros P x E. tcase x t; [now rewrite Hpc|reflexivity]. Qed.

  Let Hne : forall {B} x (y : B) l, In (x, y) l -> ~ In t (map fst l) -> x <> t.
  Proof. intros B x y l Hin Hn ->. eauto using in_fst. Qed.

  Lemma invS_pend : committed s = true ->
    InvS (mkSt (pool s) true (items s) (token s) (pending s ++ [(t, c)]) (upd (pcs s) t Wait)
               (reg s) (store s) (arg s) (lin s) (junk s) (applied s)).
  Proof.
    intro Hc. destruct (got_outside s t c I Hpc) as [Hnb Hnp]. constructor; simpl; try apply I.
    - intros x c0 Hin. rewrite upd_neq by eauto. now apply (i_items s I).
    - intros x c0 Hin. apply in_snoc in Hin as [Hin|Hin].
      + rewrite upd_neq by eauto. now apply (i_pend s I).
      + injection Hin as -> ->. rewrite upd_eq. repeat split; auto. now apply (i_got s I).
    - apply NoDup_map_fst_snoc; [apply (i_pend_nd s I)|exact Hnp].
    - intros x Hx. rewrite Ho in Hx by reflexivity. now apply (i_main_in s I).
    - intros x1 x2 H1 H2. rewrite Ho in H1, H2 by reflexivity. now apply (i_main_unique s I).
    - intro Ht. destruct (i_token s I Ht). congruence.
    - intro Ei. destruct (i_nomain s I Ei) as (_ & A & _). congruence.
    - reflexivity.
    - reflexivity.
    - intros x c0 Hx. tcase x t; [discriminate|now apply (i_got s I)].
    - intros x Hx. rewrite in_map_fst_snoc. tcase x t; [auto|]. destruct (i_wait s I x Hx); auto.
    - intro Hi. destruct (i_token_or_main s I Hi) as [A|(x & A)]; [now left|right]. exists x. now rewrite Ho.
    - apply pool_ok_same; [now rewrite Hpc|apply (i_pool s I)].
  Qed.

  Lemma invS_join : committed s = false ->
    InvS (mkSt (pool s) false (items s ++ [(t, c)]) (if is_nil (items s) then true else token s) (pending s)
               (upd (pcs s) t Wait) (reg s) (store s) (arg s) (lin s) (junk s) (applied s)).
  Proof.
    intro Hc. destruct (got_outside s t c I Hpc) as [Hnb Hnp]. constructor; unfold batch; simpl; try apply I.
    - intros x c0 Hin. apply in_snoc in Hin as [Hin|Hin].
      + rewrite upd_neq by eauto. now apply (i_items s I).
      + injection Hin as -> ->. rewrite upd_eq. split; [now left|now apply (i_got s I)].
    - apply NoDup_map_fst_snoc; [apply (i_items_nd s I)|exact Hnb].
    - intros x c0 Hin. rewrite upd_neq by eauto.
      destruct (i_pend s I x c0 Hin) as (A & B & C). repeat split; auto. rewrite in_map_fst_snoc.
      intros [E|E]; [now apply C|]. subst x. eauto using in_fst.
    - intros x Hx. rewrite Ho in Hx by reflexivity. destruct (i_main_in s I x Hx) as [A B]. split.
      + apply in_map_fst_snoc. now left.
      + unfold batch in A. destruct (items s); [destruct A|exact B].
    - intros x1 x2 H1 H2. rewrite Ho in H1, H2 by reflexivity. now apply (i_main_unique s I).
    - intros _. split; [apply snoc_not_nil|reflexivity].
    - intro Hi. now apply snoc_not_nil in Hi.
    - intros x Hx. rewrite Ho in Hx by reflexivity. rewrite <- Hc. now apply (i_committed s I x).
    - intro Ha. rewrite <- Hc. now apply (i_applied s I).
    - intros x c0 Hx. tcase x t; [discriminate|now apply (i_got s I)].
    - intros x Hx. rewrite in_map_fst_snoc. tcase x t; [auto|]. destruct (i_wait s I x Hx); auto.
    - intros _. destruct (items s) eqn:Ei; [now left|]. simpl.
      destruct (i_token_or_main s I) as [A|(x & A)]; [now rewrite Ei|now left|right]. exists x. now rewrite Ho.
    - apply pool_ok_same; [now rewrite Hpc|apply (i_pool s I)].
  Qed.
End Assign.

Lemma stepS_assign sg s t s' : InvS s -> step sg s (EAssign t) = Some s' -> InvS s'.
Proof.
  intros I H. simpl in H. destruct (pcs s t) eqn:Hpc; try discriminate.
  destruct (committed s) eqn:Hc; injection H as <-; [now apply invS_pend|now apply invS_join].
Qed.

Lemma stepS_recv sg s t s' : InvS s -> step sg s (ERecvMain t) = Some s' -> InvS s'.
Proof.
  intros I H. simpl in H.
  destruct (pcs s t) eqn:Hpc; try discriminate.
  destruct (token s) eqn:Htok; simpl in H; try discriminate.
  destruct (mem t (batch s)) eqn:Hmem; try discriminate. injection H as <-. apply mem_In in Hmem.
  destruct (i_token s I Htok) as [Hni Hcm].
  assert (Hnm : forall x, is_main (pcs s x) = false).
  { intro x. destruct (is_main (pcs s x)) eqn:E; auto. destruct (i_main_in s I x E). congruence. }
  assert (Hm : forall x, is_main (upd (pcs s) t Prep x) = true -> x = t).
  { intros x Hx. tcase x t; [reflexivity|]. now rewrite Hnm in Hx. }
  constructor; simpl; try apply I.
  - intros x c Hin. destruct (i_items s I x c Hin) as [A B]. split; [|exact B]. tcase x t; auto.
  - intros x c Hin. destruct (i_pend s I x c Hin) as (A & B & C). repeat split; auto. tcase x t; [tauto|exact A].
  - intros x Hx. now rewrite (Hm x Hx).
  - intros x1 x2 H1 H2. now rewrite (Hm x1 H1), (Hm x2 H2).
  - discriminate.
  - intro E. now apply Hni in E.
  - intros x Hx. tcase x t; [discriminate|]. apply post_commit_main in Hx. now rewrite Hnm in Hx.
  - intros x c Hx. tcase x t; [discriminate|now apply (i_got s I)].
  - intros x Hx. tcase x t; [discriminate|now apply (i_wait s I)].
  - intros _. right. exists t. now rewrite upd_eq.
  - apply pool_ok_same; [now rewrite Hpc|apply (i_pool s I)].
Qed.

(* the main caller's lock regions and exchanges *)
Definition main_event (e : event) : option tid :=
  match e with
  | EPrepare t _ | ECommit t | EPut t _ | EPutLost t | EDel t _ | EDelLost t => Some t
  | _ => None
  end.

Definition weight (p : pc) : nat :=
  match p with
  | Idle => 0 | Got _ => 9 | Wait => 8 | Prep => 7 | Prepared _ => 6 | NeedPut _ _ => 5
  | NeedDel _ _ => 4 | Completing _ => 3 | Ret _ => 1 | Done _ => 0
  end%nat.

Lemma step_main sg s e s' t :
  main_event e = Some t -> step sg s e = Some s' ->
  is_main (pcs s t) = true /\ exists p' cm r st l j ap,
    s' = mkSt (pool s) cm (items s) (token s) (pending s) (upd (pcs s) t p') r st (arg s) l j ap /\
    is_main p' = true /\ (weight p' < weight (pcs s t))%nat /\ (committed s = true -> cm = true) /\
    (post_commit p' = true -> post_commit (pcs s t) = true \/ cm = true) /\
    (ap = true -> applied s = true \/ post_commit (pcs s t) = true \/ cm = true).
Proof.
  intros He H. destruct e; try discriminate; injection He as ->; unfold step in H;
    destruct (pcs s t) as [|c0| | |old|nw o|oi a|r|r|r] eqn:Hpc; try discriminate; (split; [reflexivity|]).
  - injection H as <-. repeat eexists; simpl; auto; discriminate.
  - destruct old as [o|]; [|injection H as <-; repeat eexists; simpl; auto].
    destruct (apply_changes (idx o) (map snd (items s))) as [|new]; [injection H as <-; repeat eexists; simpl; auto|].
    destruct (negb (is_nil new) || sg); [injection H as <-; repeat eexists; simpl; auto|].
    destruct o; injection H as <-; repeat eexists; simpl; auto.
  - destruct fail; injection H as <-; repeat eexists; simpl; auto;
      unfold after_put; destruct sg; simpl; auto; destruct o; simpl; auto.
  - injection H as <-. repeat eexists; simpl; auto.
  - destruct fail; [|destruct a]; injection H as <-; repeat eexists; simpl; auto.
  - destruct a; injection H as <-; repeat eexists; simpl; auto.
Qed.

Lemma stepS_main sg s e s' t : InvS s -> main_event e = Some t -> step sg s e = Some s' -> InvS s'.
Proof.
  intros I He H. destruct (step_main sg s e s' t He H) as (Hm & p' & cm & r & st & l & j & ap & -> & Hp' & _ & Hc & Hpost & Hap).
  assert (Hcm : post_commit (pcs s t) = true \/ cm = true -> cm = true).
  { intros [E|E]; [|exact E]. apply Hc. now apply (i_committed s I t). }
  apply invS_move; auto.
  - apply smoves_main; auto.
  - apply pool_ok_same; [now rewrite !main_holding|apply (i_pool s I)].
  - intro E. destruct (Hap E) as [A|A]; [|now apply Hcm]. apply Hc. now apply (i_applied s I).
Qed.

Inductive pc_step : event -> tid -> pc -> pc -> Prop :=
| pcs_get t c : pc_step (EGet t c) t Idle (Got c)
| pcs_assign t c : pc_step (EAssign t) t (Got c) Wait
| pcs_recv t : pc_step (ERecvMain t) t Wait Prep
| pcs_done t r : pc_step (EDone t) t (Ret r) (Done r)
| pcs_main e t p p' : main_event e = Some t -> is_main p = true -> is_main p' = true -> (weight p' < weight p)%nat ->
    pc_step e t p p'.

Lemma pc_step_inside e t p p' : pc_step e t p p' -> (forall c, e <> EGet t c) ->
  holding p = true /\ p' <> Idle /\ (weight p' < weight p)%nat.
Proof.
  intros [] Hn; [now destruct (Hn c)|..]; simpl; repeat split; auto; try discriminate.
  - now apply main_holding.
  - intros ->. discriminate.
Qed.

Lemma step_pcs sg s e s' : step sg s e = Some s' ->
  (exists t p', pc_step e t (pcs s t) p' /\ pcs s' = upd (pcs s) t p') \/
  (exists t r, e = EComplete t /\ pcs s t = Completing r /\ pcs s' = complete_pcs s t r) \/
  (e = EExtDrop /\ pcs s' = pcs s).
Proof.
  intro H.
  destruct (main_event e) as [t|] eqn:He.
  { destruct (step_main sg s e s' t He H) as (Hm & p' & cm & r & st & l & j & ap & -> & Hp' & Hw & _).
    left. exists t, p'. split; [now apply pcs_main|reflexivity]. }
  destruct e; try discriminate; simpl in H.
  - destruct (pcs s t) eqn:Hpc; try discriminate. destruct (is_empty (cdesc c)); try discriminate.
    left. exists t, (Got c). split; [rewrite Hpc; constructor|]. destruct (pool s); now injection H as <-.
  - destruct (pcs s t) eqn:Hpc; try discriminate.
    left. exists t, Wait. split; [rewrite Hpc; constructor|]. destruct (committed s); now injection H as <-.
  - destruct (pcs s t) eqn:Hpc; try discriminate. destruct (token s && mem t (batch s)); try discriminate.
    injection H as <-. left. exists t, Prep. split; [rewrite Hpc; constructor|reflexivity].
  - destruct (pcs s t) as [| | | | | | |r| |] eqn:Hpc; try discriminate. injection H as <-. right; left. now exists t, r.
  - destruct (pcs s t) as [| | | | | | | |r|] eqn:Hpc; try discriminate. destruct (pool s); try discriminate.
    injection H as <-. left. exists t, (Done r). split; [rewrite Hpc; constructor|reflexivity].
  - destruct (reg s) as [x|]; try discriminate. destruct (forallb is_empty x); try discriminate.
    injection H as <-. auto.
Qed.

Lemma stepS sg s e s' : InvS s -> step sg s e = Some s' -> InvS s'.
Proof.
  intros I H. destruct (main_event e) as [t|] eqn:He; [now apply (stepS_main sg s e s' t)|].
  destruct e; try discriminate.
  - now apply (stepS_get sg s t c).
  - now apply (stepS_assign sg s t).
  - now apply (stepS_recv sg s t).
  - now apply (stepS_complete sg s t).
  - now apply (stepS_done sg s t).
  - (* EExtDrop: only the registry cell changes *)
    simpl in H. destruct (reg s) as [x|]; [|discriminate].
    destruct (forallb is_empty x); [|discriminate]. injection H as <-.
    destruct I. constructor; simpl; auto.
Qed.
