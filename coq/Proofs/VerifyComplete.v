(* Completeness: a well-behaved reader of exactly the right bytes is accepted (and the model
   never runs out of fuel on it); with soundness: ReadAll and CopyBuffer accept the same
   (reader, descriptor) pairs. *)
From Oras Require Import Base.Prelude Generated.GC05 Model.Verify Proofs.VerifyFacts Proofs.Verify Proofs.VerifyChunk.
From Coq Require Import Lia ZArith.

Local Open Scope nat_scope.

Section Complete.
  Variable H : str -> str -> str.
  Variable comb : bool.

  (* the reader is not limited, or (LimitedStorage) limited to exactly [N] more bytes *)
  Definition lim_is (lim : option Z) (N : Z) : Prop := forall n, lim = Some n -> n = N.

  Lemma lim_is_map (lim : option Z) N : lim_is (option_map (fun _ => N) lim) N.
  Proof. destruct lim; intros n X; inversion X; reflexivity. Qed.

  Lemma base_read_exact lim k evs :
    lim_is lim (Z.of_nat k) -> 0 < k ->
    base_read comb (mkBase evs lim) k =
    let '((bs, e), evs') := script_read comb evs k in
    ((bs, e), mkBase evs' (option_map (fun _ => (Z.of_nat k - Z.of_nat (length bs))%Z) lim)).
  Proof.
    intros Hl K. unfold base_read; cbn [b_lim b_evs]. destruct lim as [n|]; cbn [option_map].
    - rewrite (Hl n eq_refl), clamp_same. destruct (Z.leb_spec (Z.of_nat k) 0); [lia|].
      destruct (script_read comb evs k) as [[bs e] evs']. reflexivity.
    - destruct (script_read comb evs k) as [[bs e] evs']. reflexivity.
  Qed.

  Lemma read_full_exact : forall evs fuel acc want lim,
    nfail evs + neof evs = 0 -> length evs < fuel ->
    lim_is lim (Z.of_nat (length (stream evs))) -> want = length acc + length (stream evs) ->
    exists evs' err' lim',
      read_full (vr_read comb) fuel (mkVr (mkBase evs lim) (Z.of_nat (length (stream evs))) acc None false) want acc
      = ((acc ++ stream evs, None), mkVr (mkBase evs' lim') 0 (acc ++ stream evs) err' false) /\
      stream evs' = [] /\ nfail evs' + neof evs' = 0 /\ length evs' <= length evs /\
      (err' = None \/ err' = Some EEof) /\ lim_is lim' 0.
  Proof.
    induction evs as [|e r IH]; intros fuel acc want lim NF Fu Hl EW.
    - simpl in *. subst. exists [], None, lim. rewrite Nat.add_0_r, app_nil_r.
      destruct fuel; simpl; rewrite Nat.leb_refl; repeat split; auto.
    - destruct (stream (e :: r)) as [|c0 s0] eqn:ES.
      + (* nothing missing: the loop does not run *)
        simpl in EW. subst. exists (e :: r), None, lim. rewrite Nat.add_0_r, app_nil_r.
        destruct fuel; simpl; rewrite Nat.leb_refl; repeat split; auto.
      + destruct fuel as [|f]; [simpl in Fu; lia|]. simpl in Fu.
        assert (Wgt : (want <=? length acc) = false) by (apply Nat.leb_gt; subst want; simpl; lia).
        assert (K : want - length acc = length (c0 :: s0)) by (subst want; lia).
        cbn [read_full]. rewrite Wgt.
        unfold vr_read at 1. cbn [v_err v_N v_base v_hashed v_verified].
        destruct (Z.leb_spec (Z.of_nat (length (c0 :: s0))) 0) as [X|_]; [simpl in X; lia|].
        rewrite K, clamp_same, base_read_exact by (auto; simpl; lia).
        (* one Read that takes the chunk [d] and goes on with [r] *)
        assert (Go : forall d, c0 :: s0 = d ++ stream r -> nfail r + neof r = 0 -> exists evs' err' lim',
                  read_full (vr_read comb) f
                    (mkVr (mkBase r (option_map (fun _ => (Z.of_nat (length (c0 :: s0)) - Z.of_nat (length d))%Z) lim))
                          (Z.of_nat (length (c0 :: s0)) - Z.of_nat (length d)) (acc ++ d) None false) want (acc ++ d)
                  = ((acc ++ c0 :: s0, None), mkVr (mkBase evs' lim') 0 (acc ++ c0 :: s0) err' false) /\
                  stream evs' = [] /\ nfail evs' + neof evs' = 0 /\ length evs' <= length (e :: r) /\
                  (err' = None \/ err' = Some EEof) /\ lim_is lim' 0).
        { intros d Ed NF'. rewrite Ed, app_length.
          replace (Z.of_nat (length d + length (stream r)) - Z.of_nat (length d))%Z
            with (Z.of_nat (length (stream r))) by lia.
          destruct (IH f (acc ++ d) want _ NF' ltac:(lia) (lim_is_map lim _)) as (evs' & err' & lim' & E1 & E2 & E3 & E4 & E5).
          { subst want. rewrite Ed, !app_length. lia. }
          exists evs', err', lim'. rewrite app_assoc. simpl. auto 7. }
        destruct e as [d| | |]; [| |exfalso; simpl in NF; lia|exfalso; simpl in NF; lia]; simpl in ES, NF.
        * cbn [script_read].
          assert (Ld : (length d <=? length (c0 :: s0)) = true) by (apply Nat.leb_le; rewrite <- ES, app_length; lia).
          rewrite Ld.
          destruct comb; [destruct r as [|[d'| | |] r']; try (exfalso; simpl in NF; lia)|]; try (apply Go; auto).
          (* data together with EOF *)
          simpl in ES. rewrite app_nil_r in ES. subst d.
          rewrite Z.sub_diag. cbn [is_eof andb Z.gtb Z.compare set_err v_base v_N v_hashed v_verified].
          assert (Wl : (want <=? length (acc ++ c0 :: s0)) = true) by (apply Nat.leb_le; subst want; rewrite app_length; lia).
          rewrite Wl. exists [], (Some EEof), (option_map (fun _ => 0%Z) lim).
          repeat split; auto using lim_is_map; simpl; lia.
        * cbn [script_read]. apply (Go []); auto.
  Qed.

  Lemma ensure_eof_exhausted : forall evs lim fuel h,
    stream evs = [] -> nfail evs + neof evs = 0 -> length evs < fuel -> lim_is lim 0 ->
    exists b', read_full (tee_read comb) fuel (mkBase evs lim, h) 1 [] = (([], Some EEof), (b', h)).
  Proof.
    intros evs [n|] fuel h ES NF Fu Hl.
    { rewrite (Hl n eq_refl). destruct fuel; [lia|]. eexists. cbn. rewrite app_nil_r. reflexivity. }
    clear Hl. revert fuel h ES NF Fu.
    induction evs as [|e r IH]; intros fuel h ES NF Fu; (destruct fuel as [|f]; [simpl in Fu; lia|]).
    - exists (mkBase [] None). cbn. rewrite app_nil_r. reflexivity.
    - cbn [read_full length Nat.leb]. unfold tee_read at 1. cbn [fst snd Nat.sub].
      unfold base_read. cbn [b_lim b_evs]. simpl in Fu.
      destruct e as [d| | |]; [| |exfalso; simpl in NF; lia|exfalso; simpl in NF; lia].
      + simpl in ES. apply app_eq_nil in ES as [-> ES]. simpl in NF.
        cbn [script_read length Nat.leb].
        destruct comb; [destruct r as [|[d'| | |] r']; try (exfalso; simpl in NF; lia)|];
          cbn [app]; rewrite app_nil_r; try (apply IH; auto; lia).
        exists (mkBase [] None). reflexivity.
      + simpl in ES, NF. cbn [script_read app]. rewrite app_nil_r. apply IH; auto. lia.
  Qed.

  Lemma length_le_weight evs : length evs <= ev_weight evs.
  Proof. induction evs as [|[d| | |] r IH]; simpl; lia. Qed.

  (* content.ReadAll accepts every well-behaved reader of exactly the right bytes:
     any chunking, any number of 0-byte reads, EOF with or after the last chunk; also
     behind an io.LimitReader whose bound is exactly those bytes (LimitedStorage) *)
  Lemma read_all_complete_gen fixed fuel evs lim dg :
    lim_is lim (Z.of_nat (length (stream evs))) ->
    nfail evs + neof evs = 0 -> valid_digest dg = true -> dg = digest_of H (alg_of dg) (stream evs) ->
    ev_weight evs < fuel ->
    fst (read_all H comb fixed fuel (mkBase evs lim) dg (Z.of_nat (length (stream evs))))
    = (None, stream evs).
  Proof.
    intros Hl NF V D Fu. pose proof (length_le_weight evs) as LW.
    unfold read_all. assert (Z0 : (Z.of_nat (length (stream evs)) <? 0)%Z = false) by (apply Z.ltb_ge; lia).
    rewrite Z0. unfold new_vr, new_vr_gen. rewrite V, Z0, andb_false_r. cbn [negb].
    rewrite Nat2Z.id.
    destruct (read_full_exact evs fuel [] (length (stream evs)) lim NF)
      as (evs' & err' & lim' & E1 & E2 & E3 & E4 & E5 & E6); try reflexivity; try lia; [exact Hl|].
    rewrite E1. cbn [app].
    unfold vr_verify. cbn [v_verified v_err v_N v_base v_hashed].
    destruct (ensure_eof_exhausted evs' lim' fuel (stream evs) E2 E3) as (b' & Ee); [lia|exact E6|].
    unfold ensure_eof. rewrite Ee. cbn [negb].
    assert (Vd : verified H dg (stream evs) = true).
    { unfold verified. rewrite <- D. apply str_eqb_refl. }
    rewrite Vd. destruct E5 as [-> | ->]; reflexivity.
  Qed.

  Theorem read_all_complete fixed fuel evs dg :
    nfail evs + neof evs = 0 -> valid_digest dg = true -> dg = digest_of H (alg_of dg) (stream evs) ->
    ev_weight evs < fuel ->
    fst (read_all H comb fixed fuel (mkBase evs None) dg (Z.of_nat (length (stream evs))))
    = (None, stream evs).
  Proof. apply read_all_complete_gen. intros n X. discriminate. Qed.

  (* a memory store, directly or behind LimitedStorage (= the file store's fallback for
     unnamed content), that does not have the descriptor yet stores it *)
  Lemma mem_push_complete_gen fixed fuel m d evs lim :
    lim_is lim (d_sz d) ->
    mem_get m d = None -> nfail evs + neof evs = 0 -> valid_digest (d_dg d) = true ->
    d_dg d = digest_of H (alg_of (d_dg d)) (stream evs) -> d_sz d = Z.of_nat (length (stream evs)) ->
    ev_weight evs < fuel ->
    mem_push H comb fixed fuel m d (mkBase evs lim) = (None, (d, stream evs) :: m).
  Proof.
    intros Hl G NF V D Sz Fu. unfold mem_push. rewrite G, Sz in *.
    pose proof (read_all_complete_gen fixed fuel evs lim (d_dg d) Hl NF V D Fu) as C.
    destruct (read_all H comb fixed fuel (mkBase evs lim) (d_dg d) (Z.of_nat (length (stream evs)))) as [[e buf] v].
    simpl in C. inversion C; subst. reflexivity.
  Qed.

  Theorem mem_push_complete fixed fuel m d evs :
    mem_get m d = None -> nfail evs + neof evs = 0 -> valid_digest (d_dg d) = true ->
    d_dg d = digest_of H (alg_of (d_dg d)) (stream evs) -> d_sz d = Z.of_nat (length (stream evs)) ->
    ev_weight evs < fuel ->
    mem_push H comb fixed fuel m d (mkBase evs None) = (None, (d, stream evs) :: m).
  Proof. apply mem_push_complete_gen. intros n X. discriminate. Qed.

  Theorem limited_mem_push_complete fixed fuel limit m d evs :
    (d_sz d <= limit)%Z -> mem_get m d = None -> nfail evs + neof evs = 0 -> valid_digest (d_dg d) = true ->
    d_dg d = digest_of H (alg_of (d_dg d)) (stream evs) -> d_sz d = Z.of_nat (length (stream evs)) ->
    ev_weight evs < fuel ->
    limited_push (mem_push H comb fixed fuel) limit m d evs = (None, (d, stream evs) :: m).
  Proof.
    intros Lm. unfold limited_push.
    assert (Q : (d_sz d >? limit)%Z = false) by (rewrite Z.gtb_ltb; apply Z.ltb_ge; lia). rewrite Q.
    apply mem_push_complete_gen. intros n X. injection X as <-. reflexivity.
  Qed.

  Theorem file_push_fallback_complete fuel s path d evs :
    (d_sz d <= defaultFallbackPushSizeLimit)%Z -> mem_get (f_fb s) d = None ->
    nfail evs + neof evs = 0 -> valid_digest (d_dg d) = true ->
    d_dg d = digest_of H (alg_of (d_dg d)) (stream evs) -> d_sz d = Z.of_nat (length (stream evs)) ->
    ev_weight evs < fuel ->
    file_push H comb true fuel s [] path d evs
    = (None, mkFs (f_files s) (f_names s) (f_d2p s) ((d, stream evs) :: f_fb s)).
  Proof.
    intros Lm G NF V D Sz Fu. unfold file_push.
    rewrite (limited_mem_push_complete true fuel _ _ _ _ Lm G NF V D Sz Fu). reflexivity.
  Qed.

  (* what the copy loop does is [drain] (Proofs/VerifyChunk.v); on such a reader it delivers
     everything and ends with EOF at the limit *)
  Lemma drain_exact : forall evs, nfail evs + neof evs = 0 ->
    exists evs', drain comb evs (Z.of_nat (length (stream evs))) = (((stream evs, EEof), evs'), 0%Z) /\
                 stream evs' = [] /\ nfail evs' + neof evs' = 0 /\ length evs' <= length evs.
  Proof.
    induction evs as [|[d| | |] r IH]; intro NF; try (simpl in NF; lia); cbn [drain stream].
    - exists []. auto.
    - destruct (Z.leb_spec (Z.of_nat (length (d ++ stream r))) 0) as [L|L].
      { destruct (d ++ stream r) eqn:E; [|simpl in L; lia]. exists (Data d :: r). auto. }
      rewrite app_length in *.
      destruct (Z.leb_spec (Z.of_nat (length d)) (Z.of_nat (length d + length (stream r)))) as [_|X]; [|lia].
      replace (Z.of_nat (length d + length (stream r)) - Z.of_nat (length d))%Z
        with (Z.of_nat (length (stream r))) by lia.
      destruct (IH NF) as (evs' & -> & E2 & E3 & E4).
      assert (Go : exists evs0, (((d ++ stream r, EEof), evs'), 0%Z) = (((d ++ stream r, EEof), evs0), 0%Z) /\
                                stream evs0 = [] /\ nfail evs0 + neof evs0 = 0 /\ length evs0 <= length (Data d :: r))
        by (exists evs'; simpl; auto).
      destruct comb; [destruct r as [|[d'| | |] r']; try (simpl in NF; lia)|]; try exact Go.
      exists []. simpl. rewrite app_nil_r. auto with arith.
    - destruct (IH NF) as (evs' & E1 & E2 & E3 & E4).
      destruct (Z.leb_spec (Z.of_nat (length (stream r))) 0) as [L|L]; [|exists evs'; simpl; auto].
      destruct (stream r) eqn:E; [|simpl in L; lia]. exists (Zero :: r). auto.
  Qed.

  Theorem copy_buffer_complete fuel evs bufsz dg :
    1 <= bufsz -> nfail evs + neof evs = 0 -> valid_digest dg = true -> dg = digest_of H (alg_of dg) (stream evs) ->
    ev_weight evs < fuel ->
    fst (copy_buffer H comb true fuel (mkBase evs None) bufsz dg (Z.of_nat (length (stream evs))))
    = (None, stream evs).
  Proof.
    intros B1 NF V D Fu. pose proof (length_le_weight evs) as LW.
    unfold copy_buffer, new_vr, new_vr_gen.
    assert (Z0 : (Z.of_nat (length (stream evs)) <? 0)%Z = false) by (apply Z.ltb_ge; lia).
    rewrite V, Z0. cbn [negb andb].
    destruct (drain_exact evs NF) as (evs' & E1 & E2 & E3 & E4).
    rewrite (copy_loop_drain comb bufsz B1) by exact Fu. rewrite E1. cbn [drained is_eof app].
    unfold vr_verify. cbn [v_verified v_err v_N v_base v_hashed].
    destruct (ensure_eof_exhausted evs' None fuel (stream evs) E2 E3) as (b' & Ee); [|intros n X; discriminate|].
    { lia. }
    unfold ensure_eof. rewrite Ee. cbn [negb].
    assert (Vd : verified H dg (stream evs) = true).
    { unfold verified. rewrite <- D. apply str_eqb_refl. }
    rewrite Vd. reflexivity.
  Qed.

  Lemma oci_bufsz_pos : 1 <= oci_bufsz.
  Proof. apply Nat.leb_le. vm_compute. reflexivity. Qed.

  Theorem oci_push_complete fuel s d evs :
    oci_get s (d_dg d) = None -> nfail evs + neof evs = 0 -> valid_digest (d_dg d) = true ->
    d_dg d = digest_of H (alg_of (d_dg d)) (stream evs) -> d_sz d = Z.of_nat (length (stream evs)) ->
    ev_weight evs < fuel ->
    oci_push H comb true fuel s d (mkBase evs None) = (None, (d_dg d, stream evs) :: s).
  Proof.
    intros G NF V D Sz Fu. unfold oci_push. rewrite V, G, Sz. cbn [negb].
    pose proof (copy_buffer_complete fuel evs oci_bufsz (d_dg d) oci_bufsz_pos NF V D Fu) as C.
    destruct (copy_buffer H comb true fuel (mkBase evs None) oci_bufsz (d_dg d) (Z.of_nat (length (stream evs)))) as [[e out] v].
    simpl in C. inversion C; subst. reflexivity.
  Qed.

  Lemma file_bufsz_pos : 1 <= file_bufsz.
  Proof. apply Nat.leb_le. vm_compute. reflexivity. Qed.

  (* file.Store, named push: a fresh name and a well-behaved reader of the right bytes *)
  Theorem file_push_complete fuel s name path d evs :
    name <> [] -> name_in name (f_names s) = false ->
    nfail evs + neof evs = 0 -> valid_digest (d_dg d) = true ->
    d_dg d = digest_of H (alg_of (d_dg d)) (stream evs) -> d_sz d = Z.of_nat (length (stream evs)) ->
    ev_weight evs < fuel ->
    file_push H comb true fuel s name path d evs
    = (None, mkFs (assoc_set (f_files s) path (stream evs)) (name :: f_names s)
                  (assoc_set (f_d2p s) (d_dg d) path) (f_fb s)).
  Proof.
    intros Nn Nin NF V D Sz Fu. unfold file_push. destruct name as [|c n0]; [congruence|].
    rewrite Nin, Sz.
    pose proof (copy_buffer_complete fuel evs file_bufsz (d_dg d) file_bufsz_pos NF V D Fu) as C.
    destruct (copy_buffer H comb true fuel (mkBase evs None) file_bufsz (d_dg d) (Z.of_nat (length (stream evs)))) as [[e out] v].
    simpl in C. inversion C; subst. reflexivity.
  Qed.
End Complete.

(* content.ReadAll (memory store, FetchAll) and ioutil.CopyBuffer (OCI layout, file store)
   accept exactly the same (reader, descriptor) pairs and hand on the same bytes. *)
Section PathsAgree.
  Variable H : str -> str -> str.
  Variable comb : bool.
  Local Open Scope nat_scope.

  Lemma accepted_whole fuel evs dg sz buf v :
    neof evs = 0 -> accepted H comb true fuel (mkBase evs None) dg sz buf v ->
    buf = stream evs /\ sz = Z.of_nat (length (stream evs)) /\ nfail evs + neof evs = 0 /\
    valid_digest dg = true /\ dg = digest_of H (alg_of dg) (stream evs).
  Proof.
    intros Ne A.
    destruct (accepted_sound H comb _ _ _ _ _ _ _ (or_introl eq_refl) A) as ((((A1 & A2 & A3) & _ & C) & NF) & _).
    specialize (C eq_refl Ne). specialize (NF eq_refl Ne). simpl in C, NF. subst buf. repeat split; auto; lia.
  Qed.

  Theorem paths_agree fuel evs bufsz dg sz buf :
    1 <= bufsz -> ev_weight evs < fuel -> neof evs = 0 ->
    (fst (read_all H comb true fuel (mkBase evs None) dg sz) = (None, buf) <->
     fst (copy_buffer H comb true fuel (mkBase evs None) bufsz dg sz) = (None, buf)).
  Proof.
    intros B1 Fu Ne. split; intro E.
    - destruct (read_all H comb true fuel (mkBase evs None) dg sz) as [[e b0] v] eqn:Er.
      simpl in E. injection E as -> ->. apply read_all_accepted in Er as [_ A].
      destruct (accepted_whole _ _ _ _ _ _ Ne A) as (-> & -> & NF & V & D).
      apply copy_buffer_complete; auto.
    - destruct (copy_buffer H comb true fuel (mkBase evs None) bufsz dg sz) as [[e b0] v] eqn:Ec.
      simpl in E. injection E as -> ->. apply copy_buffer_accepted in Ec.
      destruct (accepted_whole _ _ _ _ _ _ Ne Ec) as (-> & -> & NF & V & D).
      apply read_all_complete; auto.
  Qed.

  (* hence a memory store and an OCI layout that do not hold the descriptor yet accept the
     same pushes, and store the same bytes *)
  Theorem stores_agree fuel m s d evs buf :
    ev_weight evs < fuel -> neof evs = 0 -> mem_get m d = None -> oci_get s (d_dg d) = None ->
    (mem_push H comb true fuel m d (mkBase evs None) = (None, (d, buf) :: m) <->
     oci_push H comb true fuel s d (mkBase evs None) = (None, (d_dg d, buf) :: s)).
  Proof.
    intros Fu Ne Gm Go.
    pose proof (paths_agree fuel evs oci_bufsz (d_dg d) (d_sz d) buf oci_bufsz_pos Fu Ne) as P.
    unfold mem_push, oci_push. rewrite Gm, Go.
    destruct (read_all H comb true fuel (mkBase evs None) (d_dg d) (d_sz d)) as [[e1 b1] v1] eqn:Er.
    destruct (copy_buffer H comb true fuel (mkBase evs None) oci_bufsz (d_dg d) (d_sz d)) as [[e2 b2] v2] eqn:Ec.
    simpl in P. split; intro E.
    - destruct e1 as [e1|]; [discriminate|]. inversion E; subst b1.
      assert (X : (e2, b2) = (None, buf)) by (apply P; reflexivity). inversion X; subst.
      apply copy_buffer_sound in Ec as ((_ & _ & V) & _). rewrite V. reflexivity.
    - destruct (negb (valid_digest (d_dg d))); [discriminate|].
      destruct e2 as [e2|]; [discriminate|]. inversion E; subst b2.
      assert (X : (e1, b1) = (None, buf)) by (apply P; reflexivity). inversion X; subst. reflexivity.
  Qed.
End PathsAgree.
