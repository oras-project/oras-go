(* Proofs/RemotePaged.v -- composition with C15 (Model/Paging.v, Proofs/Paging.v):
   against a registry that PAGINATES the Referrers API in any legal way, the pages the
   client's page loop delivers, concatenated, are exactly the manifests the C13 registry
   model stores with the given subject (and artifact type). *)
From Oras Require Import Base.Prelude Model.Registry Proofs.RemoteClient.
From Oras Require Model.Paging Proofs.Paging.
Module P := Oras.Model.Paging.
Module PP := Oras.Proofs.Paging.


Definition keys {V} (m : list (str * V)) : list str := map fst m.

Definition keys_ok (g : reg) : Prop :=
  NoDup (keys (g_mans g)) /\ Forall (fun k => k <> []) (keys (g_mans g)).

Section Keys.
  Variable H : str -> str.
  Variable sj : str -> option desc.
  Variables main other : str.
  Variable p : profile.
  Hypothesis Hne : forall c, H c <> [].

  (* a request changes the manifest map by at most one insertion under the digest of the
     body, or one removal; the tag map by an insertion or by dropping bindings *)
  Lemma handle_maps g q :
    let g' := fst (handle H sj main other p g q) in
    (g_mans g' = g_mans g \/
     (exists mt, g_mans g' = insert (H (q_body q)) (mt, q_body q) (g_mans g)) \/
     (exists k, g_mans g' = remove k (g_mans g))) /\
    (g_tags g' = g_tags g \/ (exists rf d, g_tags g' = insert rf d (g_tags g)) \/
     (exists f, g_tags g' = filter f (g_tags g))).
  Proof.
    unfold handle, open_session.
    repeat match goal with
           | |- context [match ?x with _ => _ end] => destruct x
           | |- context [if ?x then _ else _] => destruct x
           end; cbn; split; eauto.
  Qed.

  Theorem handle_keys_ok g q : keys_ok g -> keys_ok (fst (handle H sj main other p g q)).
  Proof.
    intros [Hn Hf]. destruct (handle_maps g q) as [[E|[[mt E]|[k E]]] _]; unfold keys_ok, keys in *; rewrite E.
    - auto.
    - split; [now apply NoDup_fst_insert|]. unfold insert. cbn. constructor; [apply Hne|].
      now apply Forall_fst_filter.
    - split; [now apply NoDup_fst_filter|now apply Forall_fst_filter].
  Qed.

  Theorem reachable_keys_ok ob qs :
    keys_ok (fold_left (fun g q => fst (handle H sj main other p g q)) qs (reg0 ob)).
  Proof.
    assert (G : forall g, keys_ok g -> keys_ok (fold_left (fun g q => fst (handle H sj main other p g q)) qs g)).
    { induction qs as [|q qs IH]; intros g Hk; cbn; auto. apply IH. now apply handle_keys_ok. }
    apply G. split; constructor.
  Qed.

  (* one binding per tag (used by the tag-schema theorems) *)
  Theorem reachable_tags_unique ob qs :
    NoDup (keys (g_tags (fold_left (fun g q => fst (handle H sj main other p g q)) qs (reg0 ob)))).
  Proof.
    assert (G : forall g, NoDup (keys (g_tags g)) ->
              NoDup (keys (g_tags (fold_left (fun g q => fst (handle H sj main other p g q)) qs g)))).
    { induction qs as [|q qs IH]; intros g Hk; cbn; auto. apply IH. unfold keys in *.
      destruct (handle_maps g q) as [_ [E|[(rf & d & E)|[f E]]]]; rewrite E;
        auto using NoDup_fst_insert, NoDup_fst_filter. }
    apply G. constructor.
  Qed.

  Variable atype : str -> str.      (* artifact type of a manifest (JSON decoding: external) *)

  Definition ref_items (g : reg) (dg : str) : list P.item :=
    flat_map (fun e => let '(k, (mt, c)) := e in
                match sj c with
                | Some s => if str_eqb (d_dg s) dg then [(k, atype c)] else []
                | None => []
                end) (g_mans g).

  Lemma ref_items_names g dg : map fst (ref_items g dg) = map d_dg (referrers_of sj g dg).
  Proof.
    unfold ref_items, referrers_of. induction (g_mans g) as [|[k [mt c]] m IH]; [reflexivity|].
    cbn. rewrite !map_app, IH. destruct (sj c) as [s|]; [destruct (str_eqb (d_dg s) dg)|]; reflexivity.
  Qed.

  Lemma ref_items_keys g dg :
    map fst (ref_items g dg)
    = map fst (filter (fun e => match sj (snd (snd e)) with Some s => str_eqb (d_dg s) dg | None => false end)
                      (g_mans g)).
  Proof.
    unfold ref_items. induction (g_mans g) as [|[k [mt c]] m IH]; [reflexivity|].
    cbn [flat_map filter snd]. rewrite map_app, IH.
    destruct (sj c) as [s|]; [destruct (str_eqb (d_dg s) dg)|]; reflexivity.
  Qed.

  (* Referrers(artifactType) over a paginating registry (C15: any page split below the cap,
     any legal Link rendering, filtering announced or not) = the stored manifests whose
     subject is [dg], of that artifact type: all of them, once, in registry order. *)
  Theorem referrers_paged g dg (cap : nat) (ds : nat -> P.decision)
          (render : nat -> P.url -> P.url -> str) (trailer : nat -> str)
          (resolve : P.url -> str -> option P.url) (c : P.cfg)
          (cu : P.cursor) (npath : nat -> str -> str) (vis : P.item -> bool) (path : str) (fuel : nat) :
    keys_ok g ->
    PP.cursor_ok cu ->
    P.c_kind c = P.KReferrers ->
    (forall i base x, In x (map fst (ref_items g dg)) ->
       contains P.c_gt (render i base (PP.link_target ds cu npath i base x)) = false) ->
    (forall i base x, In x (map fst (ref_items g dg)) ->
       resolve base (render i base (PP.link_target ds cu npath i base x)) = Some (PP.link_target ds cu npath i base x)) ->
    (forall i, (Z.of_N (P.d_doc_len (ds i)) <= P.eff_limit (P.c_limit c))%Z) ->
    (forall i, P.qget P.k_at (P.d_extra (ds i)) = None) ->
    (length (ref_items g dg) < fuel)%nat ->
    let t := P.loop (P.reg_serve P.KReferrers cu npath vis (ref_items g dg) cap ds render trailer) resolve (fun _ => false) c
                    fuel 0 0 (P.mkUrl path (PP.referrers_query (P.c_at c))) [] in
    P.t_out t = P.Done /\
    concat (P.t_pages t) = P.filter_referrers (filter vis (ref_items g dg)) (P.c_at c) /\
    (length (P.t_reqs t) <= S (length (ref_items g dg)))%nat.
  Proof.
    intros [Hn Hf] Hcu K Hgt Hres Hfit Hex Hfuel.
    apply PP.referrers_exactly_once; auto.
    - rewrite ref_items_keys. now apply NoDup_fst_filter.
    - intros it Hin. apply (in_map fst) in Hin. rewrite ref_items_keys in Hin.
      rewrite Forall_forall in Hf. eapply Hf, in_fst_filter, Hin.
  Qed.

  Lemma filter_all {A} (f : A -> bool) l : (forall x, f x = true) -> filter f l = l.
  Proof. intro Hf. induction l as [|x l IH]; cbn; [reflexivity|]. now rewrite Hf, IH. Qed.

  (* Predecessors = Referrers with no artifact type, against a registry that shows every entry:
     the digests of the concatenated pages are the digests of [referrers_of], the list
     C13_predecessors_reflect speaks of *)
  Corollary predecessors_paged g dg cap ds render trailer resolve c cu npath vis path fuel :
    keys_ok g -> PP.cursor_ok cu -> P.c_kind c = P.KReferrers -> P.c_at c = [] ->
    (forall it, vis it = true) ->
    (forall i base x, In x (map fst (ref_items g dg)) ->
       contains P.c_gt (render i base (PP.link_target ds cu npath i base x)) = false) ->
    (forall i base x, In x (map fst (ref_items g dg)) ->
       resolve base (render i base (PP.link_target ds cu npath i base x)) = Some (PP.link_target ds cu npath i base x)) ->
    (forall i, (Z.of_N (P.d_doc_len (ds i)) <= P.eff_limit (P.c_limit c))%Z) ->
    (forall i, P.qget P.k_at (P.d_extra (ds i)) = None) ->
    (length (ref_items g dg) < fuel)%nat ->
    let t := P.loop (P.reg_serve P.KReferrers cu npath vis (ref_items g dg) cap ds render trailer) resolve (fun _ => false) c
                    fuel 0 0 (P.mkUrl path []) [] in
    P.t_out t = P.Done /\
    map fst (concat (P.t_pages t)) = map d_dg (referrers_of sj g dg).
  Proof.
    intros Hk Hcu K Ha Hv Hgt Hres Hfit Hex Hfuel.
    destruct (referrers_paged g dg cap ds render trailer resolve c cu npath vis path fuel Hk Hcu K Hgt Hres Hfit Hex Hfuel)
      as (A & B & _).
    rewrite Ha in *. cbn in A, B. split; [exact A|]. rewrite B, (filter_all vis _ Hv). apply ref_items_names.
  Qed.
End Keys.
