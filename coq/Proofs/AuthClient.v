(* C16 -- lemmas about Model/AuthClient.v: the cache key laws, the taint invariant
   of the cache, and Client.Do: its runs listed once, phase by phase ([call_run]),
   and read off that list what every send may carry, the send/fetch budget, the
   cause of every non-success outcome and where a re-used token comes from --
   for arbitrary cache reads (Model/AuthConc.v) and, as the special case, over
   one cache. *)
From Oras Require Import Base.Prelude Model.Scopes Model.Challenge Model.AuthClient Model.AuthConc.

Lemma tok_get_set t k v k' :
  tok_get (tok_set t k v) k' = if str_eqb k' k then Some v else tok_get t k'.
Proof.
  induction t as [|[k0 v0] t IH]; simpl; [reflexivity|].
  destruct (str_eqb k k0) eqn:E; simpl.
  - apply str_eqb_spec in E as <-. now destruct (str_eqb k' k).
  - rewrite IH. destruct (str_eqb k' k) eqn:E'; [|reflexivity].
    apply str_eqb_spec in E' as ->. now rewrite E.
Qed.

Lemma cc_entry_put c h e h' :
  cc_entry (cc_put c h e) h' = if h' =? h then Some e else cc_entry c h'.
Proof.
  induction c as [|[h0 e0] c IH]; simpl; [reflexivity|].
  destruct (h =? h0) eqn:E; simpl.
  - apply N.eqb_eq in E as <-. now destruct (h' =? h).
  - rewrite IH. destruct (h' =? h) eqn:E'; [|reflexivity].
    apply N.eqb_eq in E' as ->. now rewrite E.
Qed.

Lemma scheme_eqb_spec a c : scheme_eqb a c = true <-> a = c.
Proof. destruct a, c; simpl; split; intro; congruence. Qed.

Lemma scheme_eqb_refl a : scheme_eqb a a = true.
Proof. now destruct a. Qed.

Lemma cc_get_store c h s k v h' s' k' :
  cc_get_token (cc_store c h s k v) h' s' k' =
  if h' =? h then
    if scheme_eqb s' s then
      if str_eqb k' k then Some v
      else match cc_entry c h with
           | Some (s0, t) => if scheme_eqb s s0 then tok_get t k' else None
           | None => None
           end
    else None
  else cc_get_token c h' s' k'.
Proof.
  unfold cc_get_token, cc_store.
  destruct (cc_entry c h) as [[s0 t]|] eqn:E.
  - destruct (scheme_eqb s s0) eqn:Es; rewrite cc_entry_put; destruct (h' =? h) eqn:Eh; auto;
      destruct (scheme_eqb s' s); auto; rewrite ?tok_get_set; simpl; destruct (str_eqb k' k); auto.
  - rewrite cc_entry_put. destruct (h' =? h) eqn:Eh; auto.
Qed.

Lemma cc_get_scheme_store c h s k v h' :
  cc_get_scheme (cc_store c h s k v) h' = if h' =? h then Some s else cc_get_scheme c h'.
Proof.
  unfold cc_get_scheme, cc_store.
  destruct (cc_entry c h) as [[s0 t]|] eqn:E.
  - destruct (scheme_eqb s s0); rewrite cc_entry_put; destruct (h' =? h); auto.
  - rewrite cc_entry_put; destruct (h' =? h); auto.
Qed.

Lemma cache_scheme_store f c h s k v h' :
  cache_get_scheme f (cache_store f c h s k v) h' =
  match f with
  | FNone => None
  | _ => if h' =? h then Some s else cc_get_scheme c h'
  end.
Proof.
  destruct f; simpl; auto.
  - apply cc_get_scheme_store.
  - rewrite !cc_get_scheme_store. destruct (h' =? h); auto.
Qed.

Lemma get_store_same c h s k v : cc_get_token (cc_store c h s k v) h s k = Some v.
Proof. now rewrite cc_get_store, N.eqb_refl, scheme_eqb_refl, str_eqb_refl. Qed.

Lemma get_store_other_host c h s k v h' s' k' :
  h' <> h -> cc_get_token (cc_store c h s k v) h' s' k' = cc_get_token c h' s' k'.
Proof. intro H. rewrite cc_get_store. apply N.eqb_neq in H. now rewrite H. Qed.

Lemma get_store_hit c h s k v h' s' k' t :
  cc_get_token (cc_store c h s k v) h' s' k' = Some t ->
  (h' = h /\ s' = s /\ k' = k /\ t = v) \/ cc_get_token c h' s' k' = Some t.
Proof.
  rewrite cc_get_store. destruct (h' =? h) eqn:Eh; auto.
  apply N.eqb_eq in Eh. subst h'.
  destruct (scheme_eqb s' s) eqn:Es; [|discriminate]. apply scheme_eqb_spec in Es. subst s'.
  destruct (str_eqb k' k) eqn:Ek.
  - apply str_eqb_spec in Ek. intros [= <-]. auto.
  - unfold cc_get_token. destruct (cc_entry c h) as [[s0 t0]|]; [|discriminate].
    destruct (scheme_eqb s s0); [auto | discriminate].
Qed.

Lemma scheme_change_drops c h s0 s k v s' k' t :
  cc_get_scheme c h = Some s0 -> s0 <> s ->
  cc_get_token (cc_store c h s k v) h s' k' = Some t -> s' = s /\ k' = k /\ t = v.
Proof.
  unfold cc_get_scheme. intros H0 Hne. rewrite cc_get_store, N.eqb_refl.
  destruct (scheme_eqb s' s) eqn:Es; [|discriminate]. apply scheme_eqb_spec in Es. subst s'.
  destruct (str_eqb k' k) eqn:Ek.
  - apply str_eqb_spec in Ek. intros [= <-]. auto.
  - destruct (cc_entry c h) as [[s1 t1]|]; [|discriminate]. injection H0 as ->.
    destruct (scheme_eqb s s0) eqn:E; [|discriminate].
    apply scheme_eqb_spec in E. congruence.
Qed.

Lemma shared_key_sensitive h s k v k' :
  k' <> k -> cache_get_token FShared (cache_store FShared [] h s k v) h s k' = None.
Proof.
  intro H. simpl. rewrite cc_get_store, N.eqb_refl, scheme_eqb_refl.
  destruct (str_eqb k' k) eqn:E; auto. apply str_eqb_spec in E. congruence.
Qed.

(* the single-context cache is documented to ignore scopes: host and scheme only *)
Lemma single_ignores_scopes c h s k v k' :
  exists t, cache_get_token FSingle (cache_store FSingle c h s k v) h s k' = Some t.
Proof.
  simpl. destruct (cc_get_token (cc_store (cc_store c h s k v) h s [] v) h s k') eqn:E; eauto.
  exists v. apply get_store_same.
Qed.

Lemma single_other_host c h s k v h' s' k' :
  h' <> h ->
  cache_get_token FSingle (cache_store FSingle c h s k v) h' s' k' = cache_get_token FSingle c h' s' k'.
Proof. intro H. simpl. now rewrite !get_store_other_host. Qed.

Definition tok_fits (h : host) (s : scheme) (t : secret) : Prop :=
  match s with
  | SchBasic => t = SBasicTok h
  | SchBearer => t = SAccess h \/ exists id, t = SIssued h id
  | SchUnknown => False
  end.

Definition cache_ok (c : cc) : Prop :=
  forall h s k t, cc_get_token c h s k = Some t -> tok_fits h s t.

Lemma tok_fits_taint h s t : tok_fits h s t -> taint t = h.
Proof. destruct s; simpl; [tauto | intros -> | intros [->|(id & ->)]]; reflexivity. Qed.

Lemma cache_ok_nil : cache_ok [].
Proof. intros h s k t. discriminate. Qed.

Lemma cc_store_ok c h s k v : cache_ok c -> tok_fits h s v -> cache_ok (cc_store c h s k v).
Proof.
  intros H Hv h' s' k' t Hg. apply get_store_hit in Hg as [(-> & -> & -> & ->)|Hg]; auto.
  eapply H; eauto.
Qed.

Lemma cache_store_ok f c h s k v : cache_ok c -> tok_fits h s v -> cache_ok (cache_store f c h s k v).
Proof. intros H Hv. destruct f; simpl; auto using cc_store_ok. Qed.

Lemma cache_get_token_ok f c h s k t :
  cache_ok c -> cache_get_token f c h s k = Some t -> tok_fits h s t.
Proof.
  intros H. destruct f; simpl; [discriminate | apply H |].
  destruct (cc_get_token c h s k) eqn:E; [intros [= <-]; eapply H; eauto | apply H].
Qed.

Definition auth_fits (h : host) (a : auth) : Prop :=
  match a with
  | NoAuth => True
  | ABasic t => tok_fits h SchBasic t
  | ABearer t => tok_fits h SchBearer t
  end.

(* [call_run] lists the runs of [do_request_rd] (Client.Do with its cache reads as
   oracles, Model/AuthConc.v) phase by phase; the theorems about Client.Do, with
   oracles or over one cache, are read off it. *)

Definition first_auth (osch : option scheme) (otok1 : option secret) : auth :=
  match osch, otok1 with
  | Some SchBasic, Some t => ABasic t
  | Some SchBearer, Some t => ABearer t
  | _, _ => NoAuth
  end.

Section Run.
Variables (parse : str -> scheme * params) (clean : list str -> list str) (cf : config) (rq : request).

Definition challenge_scopes (ps : params) : list str :=
  let hinted := get_all_scopes clean (rq_hints_host rq) (rq_hints_global rq) in
  let pscope := get_param s_scope ps in
  if is_empty pscope then hinted else clean (hinted ++ split_on c_space pscope).

Definition challenge_key (ps : params) : str := join [c_space] (challenge_scopes ps).

Definition challenge_plan (ps : params) : fetch_plan :=
  fetch_bearer_plan cf (rq_host rq) (get_param s_realm ps) (get_param s_service ps) (challenge_scopes ps).

(* a send whose answer, if it is not a challenge, ends the call *)
Inductive ends (s : send) : list event -> result -> Prop :=
| e_ok : ends s [(s, AOk)] (RResp false)
| e_err : ends s [(s, AErr)] (RErr ETransport)
| e_bad : ends s [] RBad.

(* after the token was obtained: the request is sent again if its body can be rewound *)
Inductive finish_run (a : auth) : list event -> result -> Prop :=
| fin_norewind : rewind_ok (rq_body rq) = false -> finish_run a [] (RErr ERewind)
| fin_ends evs r : ends (SReg (rq_host rq) a true) evs r -> finish_run a evs r
| fin_401 hdr : finish_run a [(SReg (rq_host rq) a true, A401 hdr)] (RResp true).

(* the token fetch planned as [p], storing under [key], and what follows it *)
Inductive fetch_run (key : str) : fetch_plan -> list event -> store_op -> result -> Prop :=
| fr_err e : fetch_run key (FPErr e) [] None (RErr e)
| fr_direct tok evs r :
    finish_run (ABearer tok) evs r -> fetch_run key (FPDirect tok) evs (Some (SchBearer, key, tok)) r
| fr_tok s id evs r :
    finish_run (ABearer (SIssued (rq_host rq) id)) evs r ->
    fetch_run key (FPSend s) ((s, ATok id) :: evs) (Some (SchBearer, key, SIssued (rq_host rq) id)) r
| fr_share s id evs r :
    finish_run (ABearer (SIssued (rq_host rq) id)) evs r ->
    fetch_run key (FPSend s) evs (Some (SchBearer, key, SIssued (rq_host rq) id)) r
| fr_sharefail s : fetch_run key (FPSend s) [] None (RErr EShared)
| fr_fail s : fetch_run key (FPSend s) [(s, AFail)] None (RErr EFetch)
| fr_transport s : fetch_run key (FPSend s) [(s, AErr)] None (RErr ETransport)
| fr_bad p : fetch_run key p [] None RBad.

(* [a1] is what the first attempt carries, [otok2] the cache read of the second cached attempt *)
Inductive call_run (a1 : auth) (otok2 : str -> option secret) : list event -> store_op -> result -> Prop :=
| cr_ends evs r : ends (SReg (rq_host rq) a1 false) evs r -> call_run a1 otok2 evs None r
| cr_unknown hdr ps :
    parse hdr = (SchUnknown, ps) ->
    call_run a1 otok2 [(SReg (rq_host rq) a1 false, A401 hdr)] None (RResp true)
| cr_basic_err hdr ps r :
    parse hdr = (SchBasic, ps) -> fetch_basic cf (rq_host rq) = inl r ->
    call_run a1 otok2 [(SReg (rq_host rq) a1 false, A401 hdr)] None r
| cr_basic hdr ps tok evs r :
    parse hdr = (SchBasic, ps) -> fetch_basic cf (rq_host rq) = inr tok -> finish_run (ABasic tok) evs r ->
    call_run a1 otok2 ((SReg (rq_host rq) a1 false, A401 hdr) :: evs) (Some (SchBasic, [], tok)) r
| cr_bearer hdr ps p evs op r :
    parse hdr = (SchBearer, ps) -> challenge_plan ps = p -> fetch_run (challenge_key ps) p evs op r ->
    call_run a1 otok2 ((SReg (rq_host rq) a1 false, A401 hdr) :: evs) op r
| cr_again_norewind hdr ps :
    parse hdr = (SchBearer, ps) -> rewind_ok (rq_body rq) = false ->
    call_run a1 otok2 [(SReg (rq_host rq) a1 false, A401 hdr)] None (RErr ERewind)
| cr_again_ends hdr ps tok2 evs r :
    parse hdr = (SchBearer, ps) -> otok2 (challenge_key ps) = Some tok2 ->
    ends (SReg (rq_host rq) (ABearer tok2) false) evs r ->
    call_run a1 otok2 ((SReg (rq_host rq) a1 false, A401 hdr) :: evs) None r
| cr_again_bearer hdr ps tok2 hdr2 p evs op r :
    parse hdr = (SchBearer, ps) -> otok2 (challenge_key ps) = Some tok2 ->
    challenge_plan ps = p -> fetch_run (challenge_key ps) p evs op r ->
    call_run a1 otok2
      ((SReg (rq_host rq) a1 false, A401 hdr) :: (SReg (rq_host rq) (ABearer tok2) false, A401 hdr2) :: evs) op r.

Lemma fin_send a script evs r :
  rewind_ok (rq_body rq) = true -> final_send (SReg (rq_host rq) a true) script = (evs, r) -> finish_run a evs r.
Proof.
  intros _. destruct script as [|[| hdr | | | | |] ?]; intros [= <- <-];
    first [apply fin_401 | apply fin_ends; constructor].
Qed.

(* The proof follows the case tree of [do_request_rd]; each leaf is the constructor
   of that name.  [continue_] is called at two places, hence two goals for the
   token fetch. *)
Lemma do_request_rd_run osch otok1 otok2 script :
  let '(evs, op, r) := do_request_rd clean parse cf rq osch otok1 otok2 script in
  call_run (first_auth osch otok1) otok2 evs op r.
Proof.
  unfold do_request_rd.
  set (p := match osch with Some SchBasic => _ | Some SchBearer => _ | _ => _ end).
  assert (A : snd p = first_auth osch otok1) by (subst p; destruct osch as [[| |]|], otok1; reflexivity).
  destruct p as [attempted a1]. simpl in A. subst a1.
  destruct script as [|[| hdr | | | | |] script1]; try (apply cr_ends; constructor).
  destruct (parse hdr) as [[| |] ps] eqn:P.
  - eapply cr_unknown; eassumption.
  - destruct (fetch_basic cf (rq_host rq)) as [r|tok] eqn:B; [eapply cr_basic_err; eassumption|].
    destruct (rewind_ok (rq_body rq)) eqn:Rw; [destruct (final_send _ script1) as [evs r] eqn:Fs|];
      eapply cr_basic; eauto using fin_norewind, fin_send.
  - fold (challenge_scopes ps). fold (challenge_key ps). fold (challenge_plan ps).
    destruct (rewind_ok (rq_body rq)) eqn:Rw.
    all: destruct (if str_eqb _ attempted then None else otok2 _) as [tok2|] eqn:E2;
      [ assert (T : otok2 (challenge_key ps) = Some tok2)
          by (destruct (str_eqb _ attempted); [discriminate | exact E2]);
        try (eapply cr_again_norewind; eassumption);
        destruct script1 as [|[| hdr2 | | | | |] script2];
        try (eapply cr_again_ends; [eassumption..|constructor])
      | rename script1 into script2 ].
    all: destruct (challenge_plan ps) as [tok|s|e] eqn:Pl;
      [| destruct script2 as [|[| | id | | id | |] script3] |].
    all: try destruct (final_send _ _) as [evs r] eqn:Fs.
    all: cbn [app]; eauto using call_run, fetch_run, fin_norewind, fin_send.
Qed.

(* [do_request] is the run in which the three reads see the cache [c] and the write
   is applied to it.  Both sides have the same case tree and agree at each leaf. *)
Lemma do_request_rd_eq c script :
  do_request clean parse cf c rq script =
  let osch := rd_scheme (cf_flavour cf) c rq in
  let '(evs, op, r) :=
    do_request_rd clean parse cf rq osch (rd_tok1 clean (cf_flavour cf) c rq osch)
                  (rd_tok2 (cf_flavour cf) c rq) script in
  (evs, apply_op (cf_flavour cf) c (rq_host rq) op, r).
Proof.
  unfold do_request, do_request_rd, rd_scheme, rd_tok2. cbv zeta.
  set (p := match cache_get_scheme _ _ _ with Some SchBasic => _ | Some SchBearer => _ | _ => _ end).
  set (p' := match cache_get_scheme _ _ _ with Some SchBasic => _ | Some SchBearer => _ | _ => _ end).
  assert (A : p = p')
    by (subst p p'; unfold rd_tok1; now destruct (cache_get_scheme _ _ _) as [[| |]|]).
  clearbody p p'. subst p'. destruct p as [attempted a1].
  destruct script as [|[| hdr | | | | |] script1]; try reflexivity.
  destruct (parse hdr) as [[| |] ps]; [reflexivity| |].
  - destruct (fetch_basic cf (rq_host rq)) as [r|tok]; [reflexivity|].
    now destruct (rewind_ok (rq_body rq)); [destruct (final_send _ script1)|].
  - destruct (rewind_ok (rq_body rq)).
    all: destruct (if str_eqb _ attempted then None else cache_get_token _ _ _ _ _) as [tok2|];
      [ try reflexivity; destruct script1 as [|[| hdr2 | | | | |] script2]; try reflexivity
      | rename script1 into script2 ].
    all: destruct (fetch_bearer_plan _ _ _ _ _) as [tok|s|e];
      [| destruct script2 as [|[| | id | | id | |] script3] |].
    all: try destruct (final_send _ _).
    all: reflexivity.
Qed.

Lemma do_request_run c script :
  let '(evs, c', r) := do_request clean parse cf c rq script in
  exists op, c' = apply_op (cf_flavour cf) c (rq_host rq) op /\
    call_run (first_auth (rd_scheme (cf_flavour cf) c rq)
                         (rd_tok1 clean (cf_flavour cf) c rq (rd_scheme (cf_flavour cf) c rq)))
             (rd_tok2 (cf_flavour cf) c rq) evs op r.
Proof.
  rewrite do_request_rd_eq. cbv zeta.
  pose proof (do_request_rd_run (rd_scheme (cf_flavour cf) c rq)
                (rd_tok1 clean (cf_flavour cf) c rq (rd_scheme (cf_flavour cf) c rq))
                (rd_tok2 (cf_flavour cf) c rq) script) as R.
  destruct (do_request_rd _ _ _ _ _ _ _ _) as [[evs op] r]. eauto.
Qed.
End Run.

Section WithParse.
Variable parse : str -> scheme * params.

Definition advertised (h : host) (realm : str) (pre : list event) : Prop :=
  exists a fr hdr ps, In (SReg h a fr, A401 hdr) pre /\
                      parse hdr = (SchBearer, ps) /\ get_param s_realm ps = realm.

Definition basic_challenged (h : host) (pre : list event) : Prop :=
  exists a fr hdr ps, In (SReg h a fr, A401 hdr) pre /\ parse hdr = (SchBasic, ps).

Definition send_ok (h : host) (pre : list event) (s : send) : Prop :=
  match s with
  | SReg h' a fresh =>
    h' = h /\ auth_fits h a /\
    (fresh = true -> match a with ABasic _ => basic_challenged h pre | _ => True end)
  | SDist forh realm _ _ basic =>
    forh = h /\ (basic = None \/ basic = Some (SUserPass h)) /\ advertised h realm pre
  | SOAuth forh realm _ _ grant =>
    forh = h /\ (grant = SRefresh h \/ grant = SUserPass h) /\ advertised h realm pre
  end.

Fixpoint trace_ok_from (h : host) (pre evs : list event) : Prop :=
  match evs with
  | [] => True
  | ev :: rest => send_ok h pre (fst ev) /\ trace_ok_from h (pre ++ [ev]) rest
  end.

Definition trace_ok (h : host) (evs : list event) : Prop :=
  forall pre ev post, evs = pre ++ ev :: post -> send_ok h pre (fst ev).

Lemma trace_ok_from_split h evs : forall pre0,
  trace_ok_from h pre0 evs ->
  forall pre ev post, evs = pre ++ ev :: post -> send_ok h (pre0 ++ pre) (fst ev).
Proof.
  induction evs as [|e evs IH]; intros pre0 H pre ev post E.
  - destruct pre; discriminate.
  - destruct H as [H1 H2]. destruct pre as [|p pre]; simpl in E.
    + injection E as <- _. now rewrite app_nil_r.
    + injection E as <- E. specialize (IH _ H2 _ _ _ E).
      now rewrite <- app_assoc in IH.
Qed.

Lemma trace_ok_of_from h evs : trace_ok_from h [] evs -> trace_ok h evs.
Proof. intros H pre ev post E. exact (trace_ok_from_split h evs [] H pre ev post E). Qed.

Definition send_secrets (s : send) : list secret :=
  match s with
  | SReg _ NoAuth _ => []
  | SReg _ (ABasic t) _ | SReg _ (ABearer t) _ => [t]
  | SDist _ _ _ _ None => []
  | SDist _ _ _ _ (Some t) => [t]
  | SOAuth _ _ _ _ t => [t]
  end.

Definition long_lived (t : secret) : bool :=
  match t with SBasicTok _ | SUserPass _ | SRefresh _ => true | _ => false end.

(* reading of [send_ok] in the words of the property *)
Lemma send_ok_reading h pre s :
  send_ok h pre s ->
  (forall t, In t (send_secrets s) -> taint t = h) /\
  match s with
  | SReg h' a fresh =>
    h' = h /\
    (forall t, In t (send_secrets s) -> long_lived t = true ->
               t = SBasicTok h /\ (fresh = true -> basic_challenged h pre))
  | SDist _ realm _ _ _ | SOAuth _ realm _ _ _ =>
    advertised h realm pre /\ (forall t, In t (send_secrets s) -> t = SUserPass h \/ t = SRefresh h)
  end.
Proof.
  destruct s as [h' a fresh | forh realm service scopes basic | forh realm service scopes grant]; simpl.
  - intros (-> & Ha & Hf). destruct a as [|t|t]; simpl in *.
    + repeat split; contradiction.
    + subst t. split; [intros ? [<-|[]]; reflexivity|]. split; [reflexivity|]. intros ? [<-|[]] _. auto.
    + split; [intros ? [<-|[]]; exact (tok_fits_taint _ SchBearer _ Ha)|]. split; [reflexivity|].
      intros ? [<-|[]] L. destruct Ha as [->|(id & ->)]; discriminate.
  - intros (-> & Hb & Ha). split; [|split; [exact Ha|]];
      destruct Hb as [->| ->]; simpl; intros x Hx; try contradiction; destruct Hx as [<-|[]]; auto.
  - intros (-> & Hg & Ha). split; [|split; [exact Ha|]]; intros x [<-|[]]; destruct Hg as [->| ->]; auto.
Qed.

Definition is_reg (ev : event) : bool :=
  match fst ev with SReg _ _ _ => true | _ => false end.

Definition reg_sends (evs : list event) : nat := length (filter is_reg evs).
Definition fetches (evs : list event) : nat := length (filter (fun ev => negb (is_reg ev)) evs).

Definition no_event : event := (SReg 0 NoAuth false, AFail).

Definition outcome_ok (cf : config) (rq : request) (evs : list event) (r : result) : Prop :=
  match r with
  | RResp false => exists h a fresh, last evs no_event = (SReg h a fresh, AOk)
  | RResp true =>
    exists h a fresh hdr, last evs no_event = (SReg h a fresh, A401 hdr) /\
      (fresh = true \/ exists ps, parse hdr = (SchUnknown, ps))
  | RErr ENoCred => cred_empty (cf_creds cf (rq_host rq)) = true
  | RErr EMissing =>
    c_user (cf_creds cf (rq_host rq)) && c_pass (cf_creds cf (rq_host rq)) = false
  | RErr EFetch => exists s, last evs no_event = (s, AFail) /\ is_reg (s, AFail) = false
  | RErr ERewind => rewind_ok (rq_body rq) = false
  | RErr ECred => cf_cred_err cf (rq_host rq) = true
  | RErr EShared => True   (* the error of another call's fetch: its cause is in that call's outcome *)
  | RErr ETransport => exists s, last evs no_event = (s, AErr)
  | RBad => True
  end.

(* nothing is sent after a send that got no response (transport error / cancelled context) *)
Fixpoint stops_after_failure (evs : list event) : Prop :=
  match evs with
  | [] => True
  | (s, a) :: rest => (a = AErr -> rest = []) /\ stops_after_failure rest
  end.

Definition do_key (clean : list str -> list str) (rq : request) (k : str) : Prop :=
  let hinted := get_all_scopes clean (rq_hints_host rq) (rq_hints_global rq) in
  k = join [c_space] hinted \/ exists extra, k = join [c_space] (clean (hinted ++ extra)).

Definition cached_send_ok (clean : list str -> list str) (f : flavour) (c : cc) (rq : request) (ev : event) : Prop :=
  match fst ev with
  | SReg h (ABearer t) false =>
    h = rq_host rq /\ exists k, do_key clean rq k /\ cache_get_token f c h SchBearer k = Some t
  | SReg h (ABasic t) false => h = rq_host rq /\ cache_get_token f c h SchBasic [] = Some t
  | _ => True
  end.

Lemma fetch_basic_tok cf h tok : fetch_basic cf h = inr tok -> tok = SBasicTok h.
Proof.
  unfold fetch_basic. destruct (cf_cred_err cf h); [discriminate|].
  destruct (cred_empty _); [discriminate|]. destruct (_ || _); [discriminate|]. now intros [= <-].
Qed.

Lemma fetch_basic_err cf rq r evs : fetch_basic cf (rq_host rq) = inl r -> outcome_ok cf rq evs r.
Proof.
  unfold fetch_basic. destruct (cf_cred_err cf _) eqn:E1; [now intros [= <-]|].
  destruct (cred_empty _) eqn:E2; [now intros [= <-]|].
  destruct (_ || _) eqn:E3; [intros [= <-] | discriminate].
  simpl. now destruct (c_user _), (c_pass _).
Qed.

(* what fetchBearerToken does: without a request the token is the host's access token;
   a token request goes to the realm of the challenge and carries the host's own
   password or refresh token; an error has its cause *)
Definition plan_fits (cf : config) (rq : request) (realm : str) (p : fetch_plan) : Prop :=
  match p with
  | FPDirect tok => tok = SAccess (rq_host rq)
  | FPSend (SReg _ _ _) => False
  | FPSend (SDist forh realm' _ _ basic) =>
    forh = rq_host rq /\ realm' = realm /\ (basic = None \/ basic = Some (SUserPass (rq_host rq)))
  | FPSend (SOAuth forh realm' _ _ grant) =>
    forh = rq_host rq /\ realm' = realm /\ (grant = SRefresh (rq_host rq) \/ grant = SUserPass (rq_host rq))
  | FPErr e => forall evs, outcome_ok cf rq evs (RErr e)
  end.

Lemma fetch_plan_fits cf rq realm service scopes :
  plan_fits cf rq realm (fetch_bearer_plan cf (rq_host rq) realm service scopes).
Proof.
  unfold fetch_bearer_plan. destruct (cf_cred_err cf _) eqn:E1; [intro; exact E1|].
  destruct (c_access _); [reflexivity|].
  destruct (cred_empty _ || _); [destruct (c_user _ || c_pass _); simpl; auto|].
  destruct (c_refresh _); [simpl; auto|]. destruct (c_user _ && c_pass _) eqn:E2; [simpl; auto | intro; exact E2].
Qed.

Lemma plan_send_ok cf rq realm s pre :
  plan_fits cf rq realm (FPSend s) -> advertised (rq_host rq) realm pre -> send_ok (rq_host rq) pre s.
Proof. intros H A. destruct s; [contradiction| |]; destruct H as (-> & -> & H); simpl; auto. Qed.

Lemma plan_send_not_reg cf rq realm s ans : plan_fits cf rq realm (FPSend s) -> is_reg (s, ans) = false.
Proof. now destruct s. Qed.

Lemma ends_ok h pre s evs r : send_ok h pre s -> ends s evs r -> trace_ok_from h pre evs.
Proof. intros S []; simpl; auto. Qed.

Lemma finish_run_ok rq a pre evs r :
  send_ok (rq_host rq) pre (SReg (rq_host rq) a true) -> finish_run rq a evs r ->
  trace_ok_from (rq_host rq) pre evs.
Proof. intros S [Rw|? ? E|hdr]; [exact I | eapply ends_ok; eassumption | simpl; auto]. Qed.

Lemma issued_fits h id : tok_fits h SchBearer (SIssued h id).
Proof. right. now exists id. Qed.

Lemma fetch_run_ok cf rq key p realm pre evs op r :
  plan_fits cf rq realm p -> advertised (rq_host rq) realm pre -> fetch_run rq key p evs op r ->
  trace_ok_from (rq_host rq) pre evs /\ match op with Some (s, _, v) => tok_fits (rq_host rq) s v | None => True end.
Proof.
  intros Hp A F.
  assert (Fin : forall tok pre evs r, tok_fits (rq_host rq) SchBearer tok -> finish_run rq (ABearer tok) evs r ->
                trace_ok_from (rq_host rq) pre evs)
    by (intros; eapply finish_run_ok; [|eassumption]; simpl; auto).
  destruct F as [e|tok ? ? F|s id ? ? F|s id ? ? F|s|s|s|p].
  1, 5-8: split; [simpl; eauto using plan_send_ok | exact I].
  - simpl in Hp. subst tok. split; [eapply Fin; [now left | eassumption] | now left].
  - split; [|apply issued_fits].
    split; [eapply plan_send_ok; eassumption | eapply Fin; [apply issued_fits | eassumption]].
  - split; [eapply Fin; [apply issued_fits | eassumption] | apply issued_fits].
Qed.

Lemma cached_send_fits h pre a : auth_fits h a -> send_ok h pre (SReg h a false).
Proof. repeat split; [assumption | discriminate]. Qed.

Lemma challenge_advertised h a fr hdr ps l :
  parse hdr = (SchBearer, ps) -> advertised h (get_param s_realm ps) ((SReg h a fr, A401 hdr) :: l).
Proof. intro P. exists a, fr, hdr, ps. split; [now left | auto]. Qed.

Lemma call_run_ok clean cf rq a1 otok2 evs op r :
  auth_fits (rq_host rq) a1 ->
  (forall k t, otok2 k = Some t -> tok_fits (rq_host rq) SchBearer t) ->
  call_run parse clean cf rq a1 otok2 evs op r ->
  trace_ok_from (rq_host rq) [] evs /\ match op with Some (s, _, v) => tok_fits (rq_host rq) s v | None => True end.
Proof.
  intros A1 F2 R. pose proof (cached_send_fits _ [] _ A1) as S1.
  destruct R as [? ? E|hdr ps P|hdr ps ? P B|hdr ps tok evs r P B F|hdr ps ? evs op r P <- F
                |hdr ps P Rw|hdr ps tok2 evs r P T E|hdr ps tok2 hdr2 ? evs op r P T <- F].
  1-3, 6: split; [|exact I]; simpl; eauto using ends_ok.
  - apply fetch_basic_tok in B. subst tok.
    split; [|reflexivity]. split; [exact S1|]. eapply finish_run_ok; [|eassumption].
    repeat split. intros _. exists a1, false, hdr, ps. split; [now left | exact P].
  - destruct (fetch_run_ok _ _ _ _ _ _ _ _ _ (fetch_plan_fits _ _ _ _ _) (challenge_advertised _ a1 false _ _ [] P) F).
    split; [split|]; assumption.
  - split; [|exact I]. split; [exact S1|]. eapply ends_ok; [|eassumption]. apply cached_send_fits, (F2 _ _ T).
  - destruct (fetch_run_ok _ _ _ _ _ _ _ _ _ (fetch_plan_fits _ _ _ _ _)
                (challenge_advertised _ a1 false _ _ [(SReg (rq_host rq) (ABearer tok2) false, A401 hdr2)] P) F).
    split; [split; [|split]|]; [exact S1 | apply cached_send_fits, (F2 _ _ T) | assumption..].
Qed.

Lemma first_auth_fits h osch otok1 :
  (forall t, otok1 = Some t -> match osch with Some s => tok_fits h s t | None => True end) ->
  auth_fits h (first_auth osch otok1).
Proof. intro H. destruct osch as [[| |]|], otok1; simpl; auto; exact (H _ eq_refl). Qed.

Lemma rd_tok1_fits clean f c rq osch t :
  cache_ok c -> rd_tok1 clean f c rq osch = Some t ->
  match osch with Some s => tok_fits (rq_host rq) s t | None => True end.
Proof.
  intros H. unfold rd_tok1. destruct osch as [[| |]|]; try discriminate; intro E;
    eapply cache_get_token_ok; eauto.
Qed.

Lemma do_request_ok clean cf c rq script :
  cache_ok c ->
  let '(evs, c', r) := do_request clean parse cf c rq script in
  cache_ok c' /\ trace_ok_from (rq_host rq) [] evs.
Proof.
  intro H. pose proof (do_request_run parse clean cf rq c script) as R.
  destruct (do_request clean parse cf c rq script) as [[evs c'] r]. destruct R as (op & -> & R).
  apply call_run_ok in R as [T O].
  - split; [|exact T]. destruct op as [[[s k] v]|]; [|exact H].
    apply cache_store_ok; [exact H | exact O].
  - apply first_auth_fits. intros t E. exact (rd_tok1_fits _ _ _ _ _ _ H E).
  - intros k t E. exact (cache_get_token_ok _ _ _ _ _ _ H E).
Qed.

Lemma run_history_ok clean cf : forall hist c,
  cache_ok c ->
  cache_ok (snd (run_history clean parse cf c hist)) /\
  Forall2 (fun rs out => trace_ok (rq_host (fst rs)) (fst out))
          hist (fst (run_history clean parse cf c hist)).
Proof.
  induction hist as [|[rq script] hist IH]; intros c H; simpl.
  - split; auto.
  - pose proof (do_request_ok clean cf c rq script H) as D.
    destruct (do_request clean parse cf c rq script) as [[evs c'] r]. destruct D as [Hc Ht].
    specialize (IH c' Hc). destruct (run_history clean parse cf c' hist) as [rest c'']. simpl in *.
    destruct IH as [IH1 IH2]. split; auto. constructor; auto. simpl. now apply trace_ok_of_from.
Qed.

Definition budget (cf : config) (rq : request) (n m : nat) (evs : list event) (r : result) : Prop :=
  (reg_sends evs <= n)%nat /\ (fetches evs <= m)%nat /\ outcome_ok cf rq evs r /\ stops_after_failure evs.

(* [no_event] is no registry send and has answer AFail: an outcome read off the last
   event is not read off an empty list, so events in front do not change it *)
Lemma outcome_ok_cons cf rq x evs r : outcome_ok cf rq evs r -> outcome_ok cf rq (x :: evs) r.
Proof.
  destruct evs as [|y evs]; [|exact (fun H => H)].
  destruct r as [[|]|[| | | | | |]|]; simpl; auto.
  - intros (h & a & fresh & hdr & E & _). discriminate.
  - intros (h & a & fresh & E). discriminate.
  - intros (s & [= <-] & E). discriminate.
  - intros (s & E). discriminate.
Qed.

Lemma budget_nil cf rq n m r : outcome_ok cf rq [] r -> budget cf rq n m [] r.
Proof. intro O. repeat split; [unfold reg_sends; simpl; lia | unfold fetches; simpl; lia | exact O]. Qed.

Lemma budget_cons cf rq n m n' m' x evs r :
  snd x <> AErr -> budget cf rq n m evs r ->
  (if is_reg x then S n <= n' /\ m <= m' else n <= n' /\ S m <= m')%nat ->
  budget cf rq n' m' (x :: evs) r.
Proof.
  intros N (B1 & B2 & O & St) L. unfold budget, reg_sends, fetches in *. simpl filter.
  destruct x as [s a], (is_reg (s, a)); simpl; repeat split; auto using outcome_ok_cons; try lia; contradiction.
Qed.

Lemma budget_one cf rq n m x r :
  outcome_ok cf rq [x] r -> (if is_reg x then 1 <= n else 1 <= m)%nat -> budget cf rq n m [x] r.
Proof.
  intros O L. unfold budget, reg_sends, fetches. simpl filter.
  destruct x as [s a], (is_reg (s, a)); simpl; repeat split; auto; lia.
Qed.

Lemma ends_budget cf rq n m h a fresh evs r :
  (1 <= n)%nat -> ends (SReg h a fresh) evs r -> budget cf rq n m evs r.
Proof. intros L []; [apply budget_one; simpl; eauto..|now apply budget_nil]. Qed.

Lemma finish_run_budget cf rq n m a evs r : (1 <= n)%nat -> finish_run rq a evs r -> budget cf rq n m evs r.
Proof.
  intros L [Rw|? ? E|hdr]; [now apply budget_nil | eapply ends_budget; eassumption|].
  apply budget_one; [|exact L]. exists (rq_host rq), a, true, hdr. auto.
Qed.

Lemma fetch_run_budget cf rq key p realm evs op r :
  plan_fits cf rq realm p -> fetch_run rq key p evs op r -> budget cf rq 1 1 evs r.
Proof.
  intros Hp F. destruct F as [e|tok ? ? F|s id ? ? F|s id ? ? F|s|s|s|?];
    try (apply budget_nil; first [exact I | exact (Hp [])]);
    try (eapply finish_run_budget; [lia | eassumption]).
  - eapply budget_cons; [discriminate | eapply (finish_run_budget cf rq 1 0); [lia | eassumption]|].
    rewrite (plan_send_not_reg _ _ _ _ _ Hp). lia.
  - apply budget_one; rewrite ?(plan_send_not_reg _ _ _ _ _ Hp); [simpl; eauto using plan_send_not_reg | lia].
  - apply budget_one; rewrite ?(plan_send_not_reg _ _ _ _ _ Hp); [simpl; eauto | lia].
Qed.

Lemma call_run_budget clean cf rq a1 otok2 evs op r :
  call_run parse clean cf rq a1 otok2 evs op r -> budget cf rq 3 1 evs r.
Proof.
  intros [? ? E|hdr ps P|hdr ps ? P B|hdr ps tok ? ? P B F|hdr ps ? ? ? ? P <- F
         |hdr ps P Rw|hdr ps tok2 ? ? P T E|hdr ps tok2 hdr2 ? ? ? ? P T <- F].
  - eapply ends_budget; [lia | eassumption].
  - apply budget_one; [|simpl; lia]. exists (rq_host rq), a1, false, hdr. eauto.
  - apply budget_one; [eapply fetch_basic_err, B | simpl; lia].
  - eapply budget_cons; [discriminate | eapply (finish_run_budget cf rq 1 0); [lia | eassumption] | simpl; lia].
  - eapply budget_cons; [discriminate | eapply fetch_run_budget; [apply fetch_plan_fits | eassumption] | simpl; lia].
  - apply budget_one; [exact Rw | simpl; lia].
  - eapply budget_cons; [discriminate | eapply (ends_budget cf rq 1 0); [lia | eassumption] | simpl; lia].
  - eapply (budget_cons cf rq 2 1); [discriminate | | simpl; lia].
    eapply (budget_cons cf rq 1 1); [discriminate | eapply fetch_run_budget; [apply fetch_plan_fits | eassumption] | simpl; lia].
Qed.

Lemma do_request_rd_budget clean cf rq osch otok1 otok2 script :
  let '(evs, op, r) := do_request_rd clean parse cf rq osch otok1 otok2 script in
  (reg_sends evs <= 3)%nat /\ (fetches evs <= 1)%nat /\ outcome_ok cf rq evs r /\ stops_after_failure evs.
Proof.
  pose proof (do_request_rd_run parse clean cf rq osch otok1 otok2 script) as R.
  destruct (do_request_rd clean parse cf rq osch otok1 otok2 script) as [[evs op] r].
  exact (call_run_budget _ _ _ _ _ _ _ _ R).
Qed.

Lemma do_request_budget clean cf c rq script :
  let '(evs, c', r) := do_request clean parse cf c rq script in
  (reg_sends evs <= 3)%nat /\ (fetches evs <= 1)%nat /\ outcome_ok cf rq evs r.
Proof.
  pose proof (do_request_run parse clean cf rq c script) as R.
  destruct (do_request clean parse cf c rq script) as [[evs c'] r]. destruct R as (op & _ & R).
  apply call_run_budget in R. unfold budget in R. tauto.
Qed.

Lemma last_in {A} (l : list A) d x : last l d = x -> x <> d -> In x l.
Proof.
  induction l as [|a l IH]; simpl; intros E N; [congruence|].
  destruct l as [|a' l']; [left; auto | right; apply IH; auto].
Qed.

Lemma valid_outcome cf rq evs r :
  outcome_ok cf rq evs r ->
  r <> RBad ->
  rewind_ok (rq_body rq) = true ->
  r <> RErr ENoCred -> r <> RErr EMissing -> r <> RErr ECred -> r <> RErr EShared ->
  (forall s, ~ In (s, AFail) evs) ->
  (forall s, ~ In (s, AErr) evs) ->
  (forall h a hdr, ~ In (SReg h a true, A401 hdr) evs) ->
  (forall s hdr ps, In (s, A401 hdr) evs -> parse hdr <> (SchUnknown, ps)) ->
  r = RResp false /\ exists h a fresh, last evs no_event = (SReg h a fresh, AOk).
Proof.
  intros O Hbad Hbody Hnc Hmiss Hce Hsh Hfail Herr Hfresh Hknown.
  destruct r as [[|]|[| | | | | |]|]; simpl in O; try congruence.
  - exfalso. destruct O as (h & a & fresh & hdr & L & [->|(ps & P)]).
    + apply (Hfresh h a hdr). apply (last_in _ _ _ L). discriminate.
    + apply (Hknown (SReg h a fresh) hdr ps); auto. apply (last_in _ _ _ L). discriminate.
  - auto.
  - exfalso. destruct O as (s & L & Hs). apply (Hfail s).
    apply (last_in _ _ _ L). intro E. rewrite E in Hs. discriminate.
  - exfalso. destruct O as (s & L). apply (Herr s). apply (last_in _ _ _ L). discriminate.
Qed.

(* With valid credentials the request ends with the registry's non-401 answer:
   the credential for the challenged scheme exists and is complete (no
   ENoCred/EMissing), the token endpoint and the registry accept it, the schemes
   are known and the body can be re-sent. *)
Lemma valid_credentials_succeed clean cf c rq script :
  let '(evs, c', r) := do_request clean parse cf c rq script in
  r <> RBad ->
  rewind_ok (rq_body rq) = true ->
  r <> RErr ENoCred -> r <> RErr EMissing -> r <> RErr ECred -> r <> RErr EShared ->
  (forall s, ~ In (s, AFail) evs) ->
  (forall s, ~ In (s, AErr) evs) ->
  (forall h a hdr, ~ In (SReg h a true, A401 hdr) evs) ->
  (forall s hdr ps, In (s, A401 hdr) evs -> parse hdr <> (SchUnknown, ps)) ->
  r = RResp false /\ (reg_sends evs <= 3)%nat /\ (fetches evs <= 1)%nat /\
  exists h a fresh, last evs no_event = (SReg h a fresh, AOk).
Proof.
  pose proof (do_request_budget clean cf c rq script) as B.
  destruct (do_request clean parse cf c rq script) as [[evs c'] r].
  destruct B as (B1 & B2 & O).
  intros H1 H2 H3 H4 H5 H6 H7 H8 H9 H10. destruct (valid_outcome _ _ _ _ O H1 H2 H3 H4 H5 H6 H7 H8 H9 H10). auto.
Qed.

Lemma missing_credentials_cause clean cf c rq script :
  let '(evs, c', r) := do_request clean parse cf c rq script in
  (r = RErr ENoCred -> cred_empty (cf_creds cf (rq_host rq)) = true) /\
  (r = RErr EMissing ->
   c_user (cf_creds cf (rq_host rq)) && c_pass (cf_creds cf (rq_host rq)) = false).
Proof.
  pose proof (do_request_budget clean cf c rq script) as B.
  destruct (do_request clean parse cf c rq script) as [[evs c'] r].
  destruct B as (_ & _ & O). split; intros ->; exact O.
Qed.

Lemma finish_run_events rq a evs r :
  finish_run rq a evs r -> evs = [] \/ exists ans, evs = [(SReg (rq_host rq) a true, ans)].
Proof. intros [Rw|? ? []|hdr]; eauto. Qed.

Lemma call_run_stored clean cf rq a1 otok2 evs op r :
  call_run parse clean cf rq a1 otok2 evs op r -> op <> None ->
  is_reg (last evs no_event) = true \/ exists id, snd (last evs no_event) = ATok id.
Proof.
  intros [? ? E|hdr ps P|hdr ps ? P B|hdr ps tok ? ? P B F|hdr ps ? ? ? ? P _ F
         |hdr ps P Rw|hdr ps tok2 ? ? P T E|hdr ps tok2 hdr2 ? ? ? ? P T _ F] N;
    try contradiction;
    try destruct F as [e|tok ? ? F|s id ? ? F|s id ? ? F|s|s|s|?]; try contradiction.
  all: destruct (finish_run_events _ _ _ _ F) as [->|(ans & ->)]; simpl; eauto.
Qed.

(* nothing is sent after a send that got no response, and a token fetch that
   failed or was cancelled leaves the cache as it was *)
Lemma do_request_failures clean cf c rq script :
  let '(evs, c', r) := do_request clean parse cf c rq script in
  stops_after_failure evs /\
  ((exists s, last evs no_event = (s, AErr) /\ is_reg (s, AErr) = false) -> c' = c) /\
  ((exists s, last evs no_event = (s, AFail) /\ is_reg (s, AFail) = false) -> c' = c).
Proof.
  pose proof (do_request_run parse clean cf rq c script) as R.
  destruct (do_request clean parse cf c rq script) as [[evs c'] r]. destruct R as (op & -> & R).
  split; [apply (call_run_budget _ _ _ _ _ _ _ _ R)|].
  destruct op as [o|]; [|simpl; auto].
  destruct (call_run_stored _ _ _ _ _ _ _ _ R) as [Hr|(id & Hid)]; [discriminate|..];
    split; intros (s & L & NR); rewrite L in *; simpl in *; congruence.
Qed.

Lemma do_key_challenge clean rq ps : do_key clean rq (challenge_key clean rq ps).
Proof.
  unfold do_key, challenge_key, challenge_scopes. cbv zeta.
  destruct (is_empty _); [left; reflexivity | right; eexists; reflexivity].
Qed.

Lemma first_auth_cached clean f c rq ans :
  cached_send_ok clean f c rq
    (SReg (rq_host rq) (first_auth (rd_scheme f c rq) (rd_tok1 clean f c rq (rd_scheme f c rq))) false, ans).
Proof.
  unfold cached_send_ok, rd_tok1. simpl. destruct (rd_scheme f c rq) as [[| |]|]; simpl; auto.
  - destruct (cache_get_token _ _ _ _ _) eqn:E; simpl; auto.
  - destruct (cache_get_token _ _ _ _ _) eqn:E; simpl; auto.
    split; [reflexivity|]. eexists. split; [left; reflexivity | exact E].
Qed.

Lemma ends_cached clean f c rq s evs r :
  (forall ans, cached_send_ok clean f c rq (s, ans)) -> ends s evs r -> Forall (cached_send_ok clean f c rq) evs.
Proof. intros H []; auto. Qed.

Lemma finish_run_cached clean f c rq a evs r :
  finish_run rq a evs r -> Forall (cached_send_ok clean f c rq) evs.
Proof.
  intro F. destruct (finish_run_events _ _ _ _ F) as [->|(ans & ->)]; repeat constructor. now destruct a.
Qed.

Lemma fetch_run_cached clean f c cf rq key p realm evs op r :
  plan_fits cf rq realm p -> fetch_run rq key p evs op r -> Forall (cached_send_ok clean f c rq) evs.
Proof.
  intros Hp F. destruct F as [e|tok ? ? F|s id ? ? F|s id ? ? F|s|s|s|?]; eauto using finish_run_cached.
  all: constructor; eauto using finish_run_cached.
  all: now destruct s.
Qed.

(* every token that Client.Do re-uses (a send that is not fresh) was found in the
   cache as it was when the call started, under the request's host, the scheme,
   and one of the request's own keys *)
Lemma do_request_cached_sends clean cf c rq script :
  let '(evs, c', r) := do_request clean parse cf c rq script in
  Forall (cached_send_ok clean (cf_flavour cf) c rq) evs.
Proof.
  pose proof (do_request_run parse clean cf rq c script) as R.
  destruct (do_request clean parse cf c rq script) as [[evs c'] r]. destruct R as (op & _ & R).
  pose proof (first_auth_cached clean (cf_flavour cf) c rq) as H1.
  assert (H2 : forall ps tok2 ans, rd_tok2 (cf_flavour cf) c rq (challenge_key clean rq ps) = Some tok2 ->
               cached_send_ok clean (cf_flavour cf) c rq (SReg (rq_host rq) (ABearer tok2) false, ans))
    by (intros ps tok2 ans T; split; [reflexivity|]; eexists; split; [apply do_key_challenge | exact T]).
  destruct R as [? ? E|hdr ps P|hdr ps ? P B|hdr ps tok ? ? P B F|hdr ps ? ? ? ? P <- F
                |hdr ps P Rw|hdr ps tok2 ? ? P T E|hdr ps tok2 hdr2 ? ? ? ? P T <- F];
    repeat (constructor; [solve [auto]|]);
    eauto using ends_cached, finish_run_cached, fetch_run_cached, fetch_plan_fits.
Qed.

Lemma run_history_lift clean cf (P : cc -> request * list answer -> list event * result -> Prop) :
  (forall c rq script, let '(evs, c', r) := do_request clean parse cf c rq script in P c (rq, script) (evs, r)) ->
  forall hist c,
    Forall2 (fun rs out => exists c0, P c0 rs out) hist (fst (run_history clean parse cf c hist)).
Proof.
  intros HP. induction hist as [|[rq script] hist IH]; intro c; simpl; [constructor|].
  pose proof (HP c rq script) as D.
  destruct (do_request clean parse cf c rq script) as [[evs c'] r].
  specialize (IH c'). destruct (run_history clean parse cf c' hist) as [rest c'']. simpl in *.
  constructor; auto. exists c. exact D.
Qed.

Lemma history_budget_and_reuse clean cf hist c :
  Forall2 (fun rs out => exists c0,
             (reg_sends (fst out) <= 3)%nat /\ (fetches (fst out) <= 1)%nat /\
             outcome_ok cf (fst rs) (fst out) (snd out) /\
             stops_after_failure (fst out) /\
             Forall (cached_send_ok clean (cf_flavour cf) c0 (fst rs)) (fst out))
          hist (fst (run_history clean parse cf c hist)).
Proof.
  apply run_history_lift. intros c0 rq script.
  pose proof (do_request_budget clean cf c0 rq script) as B.
  pose proof (do_request_failures clean cf c0 rq script) as F.
  pose proof (do_request_cached_sends clean cf c0 rq script) as K.
  destruct (do_request clean parse cf c0 rq script) as [[evs c'] r].
  destruct B as (B1 & B2 & B3). destruct F as (F1 & _). repeat split; auto.
Qed.

End WithParse.
