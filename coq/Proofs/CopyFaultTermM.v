(* CopyFaultTermM: fault-free completion for registry.Mounter destinations too.  The acceptor allows any number
   of Mount candidates (MtRdy -> MtB -> Mounting -> MtE MSkipped -> MtRdy ...), so fault-free runs are not bounded
   there; but every event OTHER than a further Mount attempt (MtB) moves one node strictly forward for the
   potential function below, and the no-stuck-state witnesses of CopyFaultLive never are MtB (at MtRdy the
   witness is PreCopy: "no candidate left, copy").  Hence: from every state reached by a fault-free accepted
   trace there is a finite fault-free continuation to the successful return -- with or without Mounter, when
   content keys are injective. *)
From Oras Require Import Base.Prelude Model.CopySpec Model.CopyTop Model.CopyOpt Model.CopyFault
  Model.CopyFaultOpt Proofs.CopySpec Proofs.CopyFault Proofs.CopyFaultOpt Proofs.CopyFaultLive Proofs.CopyFaultTerm.
Local Open Scope nat_scope.

Definition weight2 (p : phase) : nat :=
  match p with
  | Idle => 45 | ExQ _ => 42 | NeedFetch => 39 | MF1 => 36 | MF2 => 33 | Waiting => 30
  | Mounting => 29 | MtRdy => 28 | MountedP => 28
  | Rdy _ => 27 | F1 _ => 24 | F2 _ => 21 | Pushing _ true => 18 | Pushing _ false => 15
  | MtPre => 14 | MtF1 => 13 | MtF2 => 12 | MtC => 11
  | Closing _ => 10 | SkipP => 10 | TagP0 _ => 9 | TagP1 _ => 6 | PostP => 3
  | Done => 0 | Dead => 0
  end.

Lemma move_weight2 g c st e n p q : (forall k, e <> MtB k) -> move g c st e n p q -> weight2 q < weight2 p.
Proof.
  intros Hmb M. move_cases M; cbn; try lia. now destruct (Hmb n).
Qed.

(* the good events are all but a further Mount attempt; the further invariants are P3 and P4 *)
Theorem fnofault_completes_m (g : graph) (c : cfg) (ext : bool) (d0 : list node) (rank : node -> nat) :
  (forall n x, In x (succ' g n) -> rank x < rank n) ->
  1 <= c_K c -> c_root c < g_n g -> (forall x, In x (c_xroots c) -> x < g_n g) ->
  (forall n x, n < g_n g -> In x (succ' g n) -> x < g_n g) ->
  (ext = true -> forall n, ~ In (c_root c) (succ' g n)) ->
  (forall a b, g_dkey g a = g_dkey g b -> a = b) ->
  forall tr fs, ext_ok g c ext d0 ->
  faccepts g c ext d0 tr = Some fs -> existsb is_fault tr = false -> returned (fb fs) = None ->
  exists tr2 fs2, existsb is_fault tr2 = false /\
    faccepts g c ext d0 (tr ++ tr2) = Some fs2 /\ returned (fb fs2) = Some true.
Proof.
  intros Hrk HK Hroot Hxr Hsu Hvp Hinj tr fs Hx Ha Hf.
  apply (nofault_completes_by g c d0 ext weight2 (fun fs => P3 (fb fs) /\ P4 g d0 (fb fs))
           (fun e => forall k, e <> MtB k)); auto.
  - intros fs0 fe fs1 [H3 H4]. now apply P34_fstep.
  - intros fs0 [I [H1 [H2 Hw]]] [H3 H4] Hr.
    exact (fprogress_state_m2 g c ext d0 rank Hrk HK Hroot Hxr Hsu Hvp fs0 I H1 H2 H3 H4 Hw Hr).
  - intros st e n p q _ Hmb _. now apply move_weight2.
  - exact (faccepts_mount g c ext d0 tr fs Hinj Ha).
Qed.

Theorem frerun_completes_m (g : graph) (c1 c2 : cfg) (ext1 ext2 : bool) (d0 : list node) (rank : node -> nat)
        tr1 fs1 tr2 fs2 :
  (forall n x, In x (succ' g n) -> rank x < rank n) ->
  1 <= c_K c2 -> c_root c2 < g_n g -> (forall x, In x (c_xroots c2) -> x < g_n g) ->
  (forall n x, n < g_n g -> In x (succ' g n) -> x < g_n g) ->
  (ext2 = true -> forall n, ~ In (c_root c2) (succ' g n)) ->
  (forall a b, g_dkey g a = g_dkey g b -> a = b) ->
  ext_ok g c1 ext1 d0 -> closed_nodes g d0 ->
  faccepts g c1 ext1 d0 tr1 = Some fs1 ->
  ext_ok g c2 ext2 (dst (fb fs1)) ->
  faccepts g c2 ext2 (dst (fb fs1)) tr2 = Some fs2 -> existsb is_fault tr2 = false -> returned (fb fs2) = None ->
  exists tr3 fs3, existsb is_fault tr3 = false /\
    faccepts g c2 ext2 (dst (fb fs1)) (tr2 ++ tr3) = Some fs3 /\ returned (fb fs3) = Some true /\
    forall r n, is_call_root g c2 ext2 r -> reach g r n -> has g (dst (fb fs3)) n = true.
Proof.
  intros Hrk HK Hroot Hxr Hsu Hvp Hinj Hx1 Hc Ha1 Hx2 Ha2 Hnf Hr.
  destruct (fnofault_completes_m g c2 ext2 _ rank Hrk HK Hroot Hxr Hsu Hvp Hinj tr2 fs2 Hx2 Ha2 Hnf Hr)
    as [tr3 [fs3 [Hnf3 [Ha3 Hret]]]].
  exists tr3, fs3. repeat split; auto.
  exact (fretry_completes g c1 c2 ext1 ext2 d0 tr1 fs1 _ fs3 Hx1 Hc (mt_consistent_inj g Hinj) Ha1 Hx2 Ha3 Hret).
Qed.

Theorem fopt_nofault_completes (cs : Model.CopyOpt.cbset) (g : graph) (c : cfg) (ext : bool) (d0 : list node)
        (rank : node -> nat) tr fs full :
  (forall n x, In x (succ' g n) -> rank x < rank n) ->
  1 <= c_K c -> c_root c < g_n g -> (forall x, In x (c_xroots c) -> x < g_n g) ->
  (forall n x, n < g_n g -> In x (succ' g n) -> x < g_n g) ->
  (ext = true -> forall n, ~ In (c_root c) (succ' g n)) ->
  (forall a b, g_dkey g a = g_dkey g b -> a = b) ->
  ext_ok g c ext d0 ->
  Model.CopyFaultOpt.faccepts_opt cs g c ext d0 tr = Some (fs, full) -> existsb is_fault tr = false ->
  returned (fb fs) = None ->
  exists tr2 fs2, existsb is_fault tr2 = false /\
    faccepts g c ext d0 (full ++ tr2) = Some fs2 /\ returned (fb fs2) = Some true.
Proof.
  intros Hrk HK Hroot Hxr Hsu Hvp Hinj Hx Ha Hf Hr.
  destruct (Proofs.CopyFaultOpt.fopt_elaborates cs g c ext d0 tr fs full Ha) as [Hacc [_ He]].
  apply (fnofault_completes_m g c ext d0 rank Hrk HK Hroot Hxr Hsu Hvp Hinj full fs Hx Hacc); congruence.
Qed.
