(* Proofs/GraphStore.v -- Predecessors at the level of the OCI store (Model/GraphStore.v).  One
   store invariant [JX]: graph manifests = stored manifests, every stored manifest is entered by
   digest or has a stored parent, index.json names what the resolver names -- with what
   operations in flight still owe as parameters.  Every operation of a sequential history keeps
   it, so Predecessors is exact with respect to the blobs on disk after every history of Push /
   Tag / Untag / Delete / GC / reopen / foreign index, also with AutoSaveIndex off, and a reopen
   changes no answer; refuted for the code before the repairs.  Also here: the file store,
   sufficient fuel for steps and histories, the refinement of [spec_preds]. *)
From Coq Require Import List NArith Bool Lia Permutation.
Import ListNotations.
From Oras Require Import Model.GraphMem Model.GraphStore Proofs.GraphMem.

Lemma list_max_In (f : node -> nat) (l : list node) x : In x l -> f x <= list_max (map f l).
Proof.
  induction l as [|a r IH]; simpl; [tauto|].
  intros [<-|H]; [lia | specialize (IH H); lia].
Qed.

Section Store.
Variable content : node -> list node.
Variable isman : node -> bool.
Variable rank : node -> nat.
(* only the five manifest media types have successors *)
Hypothesis content_isman : forall p, content p <> [] -> isman p = true.
(* content addressing: a node's successors were hashed before it *)
Hypothesis rank_dec : forall p c, In c (content p) -> rank c < rank p.

Definition parented (s : ostore) (p : node) : Prop :=
  exists q, In q (o_blobs s) /\ isman q = true /\ In p (content q).

Definition synced (s : ostore) : Prop :=
  forall p, In p (o_bydigest s) <-> In p (o_dbydigest s) \/ In p (o_dtagged s).

(* The store invariant, with what operations in flight still owe: [unrooted p] the by-digest
   entry of the stored manifest p, [unindexed p] its graph.Index, [unsaved] a saveIndex.
   Sequential histories owe nothing (J); with AutoSaveIndex off the save is owed (Jc below);
   Proofs/StoreLTS.v reads the debts off the program counters of the threads. *)
Record JX (unrooted unindexed : node -> Prop) (unsaved : Prop) (s : ostore) : Prop := mkJ {
  j_inv : Inv content (o_graph s);
  j_local : forall p, isman p = true -> In p (o_blobs s) ->
            In p (o_bydigest s) \/ parented s p \/ unrooted p;
  j_graph_stored : forall p, In p (g_nodes (o_graph s)) -> isman p = true -> In p (o_blobs s);
  j_stored_graph : forall p, In p (o_blobs s) -> isman p = true ->
            In p (g_nodes (o_graph s)) \/ unindexed p;
  j_tagged : forall p, In p (o_tagged s) -> In p (o_bydigest s);
  j_sync : synced s \/ unsaved
}.

Definition no_debt (p : node) : Prop := False.
Definition J : ostore -> Prop := JX no_debt no_debt False.

Lemma J_empty : J empty_store.
Proof. constructor; simpl; try tauto. - apply Inv_empty. - left. intro p. simpl. tauto. Qed.

Lemma JX_mono (unrooted unindexed unrooted' unindexed' : node -> Prop) (u u' : Prop) s :
  JX unrooted unindexed u s ->
  (forall p, isman p = true -> unrooted p -> unrooted' p) ->
  (forall p, isman p = true -> unindexed p -> unindexed' p) ->
  (u -> u') -> JX unrooted' unindexed' u' s.
Proof.
  intros [H1 H2 H3 H4 H5 H6] A B C. constructor; auto.
  - intros p Hm Hp. destruct (H2 p Hm Hp) as [H|[H|H]]; auto.
  - intros p Hp Hm. destruct (H4 p Hp Hm); auto.
  - destruct H6; auto.
Qed.

Lemma parented_mono s s' p :
  (forall q, In q (o_blobs s) -> In q (o_blobs s')) -> parented s p -> parented s' p.
Proof. intros H (q & Hq & Hm & Hc). exists q. auto. Qed.


(* storage.Push: the blob still has to be indexed and, a manifest, entered by digest *)
Lemma JX_store_blob unrooted unindexed u s n :
  JX unrooted unindexed u s ->
  JX (fun p => p = n \/ unrooted p) (fun p => p = n \/ unindexed p) u
     (mkO (n :: o_blobs s) (o_bydigest s) (o_tagged s) (o_graph s) (o_dbydigest s) (o_dtagged s)).
Proof.
  intros [H1 H2 H3 H4 H5 H6]. constructor; simpl; auto.
  - intros p Hm [<-|Hp]; [auto|]. destruct (H2 p Hm Hp) as [H|[H|H]]; auto.
    right. left. apply (parented_mono s); simpl; auto.
  - intros p [<-|Hp] Hm; [auto|]. destruct (H4 p Hp Hm); auto.
Qed.

(* graph.Index of a stored blob *)
Lemma JX_index unrooted unindexed u s n :
  JX unrooted unindexed u s -> In n (o_blobs s) ->
  JX unrooted (fun p => p <> n /\ unindexed p) u
     (mkO (o_blobs s) (o_bydigest s) (o_tagged s) (index (o_graph s) n (content n))
          (o_dbydigest s) (o_dtagged s)).
Proof.
  intros [H1 H2 H3 H4 H5 H6] Hn. constructor; simpl; auto.
  - apply index_Inv, H1.
  - intros p Hp Hm. apply In_sadd in Hp. destruct Hp as [->|Hp]; auto.
  - intros p Hp Hm. rewrite In_sadd. destruct (N.eq_dec p n) as [->|Hne]; [auto|].
    destruct (H4 p Hp Hm); auto.
Qed.

(* the resolver gains entries by digest, the names change: a saveIndex is due *)
Lemma JX_resolver unrooted unindexed u (u' : Prop) s bd tg :
  JX unrooted unindexed u s -> (forall p, In p (o_bydigest s) -> In p bd) -> (forall p, In p tg -> In p bd) ->
  u' ->
  JX (fun p => unrooted p /\ ~ In p bd) unindexed u'
     (mkO (o_blobs s) bd tg (o_graph s) (o_dbydigest s) (o_dtagged s)).
Proof.
  intros [H1 H2 H3 H4 H5 H6] Hbd Htg Hu. constructor; simpl; auto.
  intros p Hm Hp. destruct (in_dec N.eq_dec p bd) as [Hi|Hi]; [auto|].
  destruct (H2 p Hm Hp) as [H|[H|H]]; auto.
Qed.

Lemma JX_save unrooted unindexed u (u' : Prop) s :
  JX unrooted unindexed u s -> JX unrooted unindexed u' (osave s).
Proof.
  intros [H1 H2 H3 H4 H5 H6]. constructor; simpl; auto.
  left. intro p. simpl. split; [auto | intros [H|H]; auto].
Qed.

(* a sequential Tag / Untag: the resolver changes, then saveIndex *)
Lemma J_retag (u : Prop) s bd tg :
  JX no_debt no_debt u s -> (forall p, In p (o_bydigest s) -> In p bd) -> (forall p, In p tg -> In p bd) ->
  JX no_debt no_debt u (osave (mkO (o_blobs s) bd tg (o_graph s) (o_dbydigest s) (o_dtagged s))).
Proof.
  intros HJ Hbd Htg. apply (JX_save _ _ True).
  eapply JX_mono; [exact (JX_resolver _ _ _ True s bd tg HJ Hbd Htg I) | | |]; auto.
  intros p _ [[] _].
Qed.

Lemma exists_node_In g x : exists_node g x = true <-> In x (g_nodes g).
Proof. apply smem_In. Qed.

Lemma o_sok_true s p : o_sok isman s p = true <-> isman p = false \/ In p (o_blobs s).
Proof. unfold o_sok. rewrite orb_true_iff, negb_true_iff, smem_In. tauto. Qed.

Lemma in_content_isman p q : In p (content q) -> isman q = true.
Proof. intro H. apply content_isman. intro E. rewrite E in H. destruct H. Qed.

Lemma load_J_nodes s fuel roots g' :
  load content (o_sok isman s) fuel roots = (g', true) ->
  forall p, In p (g_nodes g') -> isman p = true -> In p (o_blobs s).
Proof.
  intros H p Hp Hm. apply (load_exact content (o_sok isman s) fuel roots g' H) in Hp.
  destruct Hp as (r & _ & _ & Hs). apply o_sok_true in Hs. destruct Hs as [Hs|Hs]; [congruence | exact Hs].
Qed.

(* every stored manifest is reachable from the roots when each is a root or has a stored
   parent: walk up the parents, the rank grows and is bounded *)
Lemma rooted_reach s roots :
  (forall p, isman p = true -> In p (o_blobs s) -> In p roots \/ parented s p) ->
  forall p, isman p = true -> In p (o_blobs s) ->
    exists r, In r roots /\ areach content (o_sok isman s) r p.
Proof.
  intros Hloc.
  set (B := S (list_max (map rank (o_blobs s)))).
  assert (forall x, In x (o_blobs s) -> rank x < B) as HB.
  { intros x Hx. unfold B. pose proof (list_max_In rank (o_blobs s) x Hx). lia. }
  assert (forall k p, B - rank p <= k -> isman p = true -> In p (o_blobs s) ->
            exists r, In r roots /\ areach content (o_sok isman s) r p) as Hk.
  { induction k as [|k IH]; intros p Hle Hm Hp.
    - pose proof (HB p Hp). lia.
    - destruct (Hloc p Hm Hp) as [Hr|(q & Hq & Hmq & Hc)].
      + exists p. split; auto. split; [apply pre_refl | apply o_sok_true; auto].
      + pose proof (rank_dec q p Hc). pose proof (HB q Hq).
        destruct (IH q) as (r & Hr & Hpre & Hs); auto; [lia|].
        exists r. split; auto. split; [|apply o_sok_true; auto].
        eapply pre_step; eauto. }
  intros p Hm Hp. apply (Hk (B - rank p)); auto.
Qed.

(* a reopened layout: the resolver is the root list, the graph is loaded from it; roots that
   cover the stored manifests re-establish graph = storage *)
Lemma J_reload s fuel roots g' tg dbd dtg (u : Prop) :
  load content (o_sok isman s) fuel roots = (g', true) ->
  (forall p, isman p = true -> In p (o_blobs s) -> In p roots \/ parented s p) ->
  (forall p, In p tg -> In p roots) ->
  (forall p, In p roots <-> In p dbd \/ In p dtg) ->
  JX no_debt no_debt u (mkO (o_blobs s) roots tg g' dbd dtg).
Proof.
  intros E Hloc Htg Hsync. pose proof (load_J_nodes s fuel roots g' E) as Ha.
  constructor; simpl; auto.
  - pose proof (load_Inv content (o_sok isman s) fuel roots) as HI. rewrite E in HI. exact HI.
  - intros p Hm Hp. destruct (Hloc p Hm Hp); auto.
  - intros p Hp Hm. left. destruct (rooted_reach s roots Hloc p Hm Hp) as (r & Hr & Hreach).
    apply (load_exact content (o_sok isman s) fuel roots g' E). exists r. auto.
Qed.

(* Delete: the blob, its resolver entries and its graph node go; a manifest that loses its last
   parent is re-rooted by digest *)
Lemma delete_J fuel s n (u : Prop) :
  JX no_debt no_debt u s ->
  JX no_debt no_debt u (fst (ostep true true true content isman fuel s (PDelete n))).
Proof.
  intros HJ. pose proof HJ as [H1 H2 H3 H4 H5 H6]. cbn [ostep].
  destruct (remove_danglings_full content (o_graph s) n _ H1 (Permutation_refl _)) as (R1 & _ & Rd).
  pose proof (remove_ord_nodes (o_graph s) n (getd (g_succs (o_graph s)) n)) as Rn.
  unfold remove. destruct (remove_ord (o_graph s) n _) as [g' dang]. cbn [fst snd] in R1, Rd, Rn.
  remember (filter (fun d => isman d && negb (smem d (o_bydigest s))) dang) as rr eqn:Err.
  set (s' := mkO (sdel n (o_blobs s)) (rr ++ sdel n (o_bydigest s)) (sdel n (o_tagged s)) g'
                 (o_dbydigest s) (o_dtagged s)).
  assert (forall u0 : Prop, synced s' \/ u0 -> JX no_debt no_debt u0 s') as HJ'.
  { intros u0 Hu0. constructor; simpl; auto.
    - intros p Hm Hb. apply In_sdel in Hb. destruct Hb as [Hne Hb].
      destruct (H2 p Hm Hb) as [H|[(q & Hq & Hmq & Hc)|[]]].
      { left. apply in_app_iff. right. apply In_sdel. auto. }
      (* the parents of p in the memory other than n, as Remove itself looks for them *)
      destruct (H4 p Hb Hm) as [Hpg|[]]. destruct (H4 q Hq Hmq) as [Hqg|[]].
      destruct (exact_full content (o_graph s) H1 p) as (_ & Hpre & _).
      destruct (sdel n (predecessors (o_graph s) p)) as [|x l] eqn:Es.
      + (* none: n was the only one, p is dangling and re-rooted unless entered already *)
        assert (Hall : forall p', In p' (g_nodes (o_graph s)) -> In p (content p') -> p' = n).
        { intros p' Hp' Hc'. apply (proj1 (sdel_nil n _) Es), Hpre. auto. }
        assert (q = n) as -> by (apply Hall; auto).
        assert (In p dang) as Hd by (apply Rd; repeat split; auto).
        left. apply in_app_iff. destruct (smem p (o_bydigest s)) eqn:Mb.
        * right. apply In_sdel. split; auto. apply smem_In, Mb.
        * left. rewrite Err. apply filter_In. split; auto. rewrite Hm, Mb. reflexivity.
      + assert (In x (sdel n (predecessors (o_graph s) p))) as Hx by (rewrite Es; left; reflexivity).
        apply In_sdel in Hx. destruct Hx as [Hxn Hx]. apply Hpre in Hx. destruct Hx as [Hxg Hxc].
        pose proof (in_content_isman p x Hxc) as Hmx.
        right. left. exists x. split; [apply In_sdel; auto | auto].
    - intros p Hp Hm. apply Rn in Hp. destruct Hp as [Hne Hp]. apply In_sdel. auto.
    - intros p Hb Hm. apply In_sdel in Hb. destruct Hb as [Hne Hb]. left. apply Rn.
      destruct (H4 p Hb Hm) as [H|[]]. auto.
    - intros p Hp. apply In_sdel in Hp. destruct Hp as [Hne Hp]. apply in_app_iff. right.
      apply In_sdel. auto. }
  destruct (smem n (o_bydigest s) || smem n (o_tagged s) ||
            negb (match rr with [] => true | _ => false end)) eqn:Cond; cbn [fst].
  + apply (JX_save _ _ True), HJ'. auto.
  + (* nothing was untagged or re-rooted: the resolver is what it was *)
    apply HJ'. destruct H6 as [H6|H6]; [left | right; exact H6].
    apply orb_false_iff in Cond. destruct Cond as [Cond Crr].
    apply orb_false_iff in Cond. destruct Cond as [Cb Ct].
    apply smem_false in Cb. destruct rr; [|discriminate].
    intro p. simpl. rewrite In_sdel, <- (H6 p). split; [tauto|].
    intro Hp. split; auto. intros ->. auto.
Qed.

(* GC: the graph is loaded from the tagged and kept roots, the by-digest entries of what it
   reaches are restored, the blobs outside it are swept, index.json is saved *)
Lemma gc_J fuel s kept (u : Prop) :
  JX no_debt no_debt u s ->
  JX no_debt no_debt u (fst (ostep true true true content isman fuel s (PGC kept))).
Proof.
  intros HJ. pose proof HJ as [H1 H2 H3 H4 H5 H6]. cbn [ostep].
  destruct (load content (o_sok isman s) fuel (o_tagged s ++ kept)) as [g' ok] eqn:E.
  destruct ok; [|exact HJ]. cbn [fst]. apply (JX_save _ _ True).
  pose proof (load_J_nodes s fuel _ g' E) as Ha.
  destruct (load_exact content (o_sok isman s) fuel _ g' E) as [Hn _].
  constructor; simpl; auto.
  + pose proof (load_Inv content (o_sok isman s) fuel (o_tagged s ++ kept)) as HI.
    rewrite E in HI. exact HI.
  + intros p Hm Hp. apply filter_In in Hp. destruct Hp as [Hp Hx].
    apply exists_node_In in Hx. apply Hn in Hx. destruct Hx as (r & Hr & Hpre & Hs).
    destruct (pre_inv _ _ _ _ Hpre) as [->|(q & Hq & Hsq & Hc)].
    * left. apply in_app_iff. auto.
    * right. left. exists q.
      assert (isman q = true) as Hmq by (apply (in_content_isman p q Hc)).
      assert (In q (g_nodes g')) as Hqg by (apply Hn; exists r; split; auto; split; auto).
      split; [|auto]. apply filter_In. split; [apply Ha; auto | apply exists_node_In; auto].
  + intros p Hp Hm. apply filter_In. split; [apply Ha; auto | apply exists_node_In; auto].
  + intros p Hp Hm. apply filter_In in Hp. destruct Hp as [_ Hx]. left. apply exists_node_In, Hx.
  + intros p Hp. apply in_app_iff. left. apply in_app_iff. auto.
Qed.

(* every operation keeps the invariant; a save that was owed before stays owed unless the
   operation saves; a reopen needs index.json up to date *)
Lemma ostep_J fuel s o (u : Prop) :
  JX no_debt no_debt u s -> (o = PReopen -> ~ u) ->
  JX no_debt no_debt u (fst (ostep true true true content isman fuel s o)).
Proof.
  intros HJ Hre. pose proof HJ as [H1 H2 H3 H4 H5 H6]. destruct o; cbn [ostep].
  - (* Push = store, index, and for a manifest: enter by digest, save *)
    destruct (smem n (o_blobs s)) eqn:M; [exact HJ|].
    pose proof (JX_index _ _ _ _ n (JX_store_blob _ _ _ _ n HJ) (or_introl eq_refl)) as A.
    destruct (isman n) eqn:Mn; cbn [fst].
    + apply (JX_resolver _ _ _ True _ (sadd n (o_bydigest s)) (o_tagged s)) in A; auto.
      * apply (JX_save _ _ _ u) in A. eapply JX_mono; [exact A | | |]; auto.
        -- intros p _ [[->|[]] Hn]. apply Hn, In_sadd. auto.
        -- intros p _ [Hn [->|[]]]. now destruct Hn.
      * intros p Hp. apply In_sadd. auto.
      * intros p Hp. apply In_sadd. auto.
    + eapply JX_mono; [exact A | | |]; auto.
      * intros p Hm [->|[]]. congruence.
      * intros p _ [Hn [->|[]]]. now destruct Hn.
  - (* Tag *)
    destruct (smem n (o_blobs s)) eqn:M; [|exact HJ]. cbn [fst]. apply J_retag; [exact HJ | |].
    + intros p Hp. apply In_sadd. auto.
    + intros p Hp. apply In_sadd in Hp. apply In_sadd. destruct Hp; auto.
  - (* Untag *)
    apply J_retag; [exact HJ | auto |]. intros p Hp. apply In_sdel in Hp. apply H5, Hp.
  - exact (delete_J fuel s n u HJ).
  - exact (gc_J fuel s kept u HJ).
  - (* Reopen *)
    destruct (load content (o_sok isman s) fuel (o_dtagged s ++ o_dbydigest s)) as [g' ok] eqn:E.
    destruct ok; [|exact HJ]. destruct H6 as [H6|H6]; [|destruct (Hre eq_refl H6)].
    apply (J_reload s fuel _ g'); auto.
    + intros p Hm Hp. destruct (H2 p Hm Hp) as [H|[H|[]]]; auto.
      left. apply in_app_iff. apply H6 in H. tauto.
    + intros p Hp. apply in_app_iff. auto.
    + intros p. rewrite in_app_iff. tauto.
  - (* Foreign *)
    match goal with |- context [forallb ?f ?l] => destruct (forallb f l) eqn:G end; [|exact HJ].
    destruct (load content (o_sok isman s) fuel (o_tagged s ++ roots)) as [g' ok] eqn:E.
    destruct ok; [|exact HJ].
    apply (J_reload s fuel _ g'); auto.
    + intros p Hm Hp. rewrite forallb_forall in G. specialize (G p Hp).
      rewrite Hm in G. simpl in G.
      apply orb_true_iff in G. destruct G as [G|G].
      * apply orb_true_iff in G. destruct G as [G|G]; apply smem_In in G; left; apply in_app_iff; auto.
      * right. apply existsb_exists in G. destruct G as (q & Hq & Hc).
        apply andb_true_iff in Hc. destruct Hc as [Hmq Hc]. apply smem_In in Hc.
        exists q. auto.
    + intros p Hp. apply in_app_iff. auto.
    + intros p. rewrite in_app_iff. tauto.
Qed.

Lemma orun_J fuel ops : forall s, J s -> J (fst (orun true true true content isman fuel s ops)).
Proof.
  induction ops as [|o r IH]; intros s HJ; simpl; auto.
  pose proof (ostep_J fuel s o False HJ (fun _ F => F)) as H.
  destruct (ostep true true true content isman fuel s o) as [s1 ok1]. simpl in H.
  specialize (IH s1 H). destruct (orun true true true content isman fuel s1 r) as [s2 ok2]. exact IH.
Qed.

(* Predecessors = the stored manifests, indexes and artifact manifests referencing n *)
Lemma J_exact unrooted u s : JX unrooted no_debt u s -> forall n,
  NoDup (predecessors (o_graph s) n) /\
  forall p, In p (predecessors (o_graph s) n) <-> In p (o_blobs s) /\ In n (content p).
Proof.
  intros [H1 H2 H3 H4 H5 H6] n.
  destruct (exact_full content (o_graph s) H1 n) as (Hd & Hm & _). split; auto.
  intro p. rewrite Hm. split; intros [Hp Hn]; split; auto.
  - apply H3; auto. apply (in_content_isman n p Hn).
  - destruct (H4 p Hp (in_content_isman n p Hn)) as [H|[]]. exact H.
Qed.

Lemma store_history_exact fuel ops n :
  let s := fst (orun true true true content isman fuel empty_store ops) in
  NoDup (predecessors (o_graph s) n) /\
  forall p, In p (predecessors (o_graph s) n) <-> In p (o_blobs s) /\ In n (content p).
Proof. intro s. apply (J_exact no_debt False). apply orun_J, J_empty. Qed.

(* closing and opening the layout again changes no answer *)
Lemma J_reopen_same fuel s s' :
  J s -> ostep true true true content isman fuel s PReopen = (s', true) ->
  o_blobs s' = o_blobs s /\
  forall n, Permutation (predecessors (o_graph s') n) (predecessors (o_graph s) n).
Proof.
  intros HJ H.
  assert (J s') as HJ'.
  { pose proof (ostep_J fuel s PReopen False HJ (fun _ F => F)) as H1. rewrite H in H1. exact H1. }
  assert (o_blobs s' = o_blobs s) as Hb.
  { cbn [ostep] in H. destruct (load content (o_sok isman s) fuel (o_dtagged s ++ o_dbydigest s)) as [g' ok].
    destruct ok; inversion H; reflexivity. }
  split; auto. intro n.
  destruct (J_exact _ _ s HJ n) as [Hd Hm]. destruct (J_exact _ _ s' HJ' n) as [Hd' Hm'].
  apply NoDup_Permutation; auto. intro p. rewrite Hm, Hm', Hb. tauto.
Qed.

Lemma store_reopen_same fuel ops s' :
  let s := fst (orun true true true content isman fuel empty_store ops) in
  ostep true true true content isman fuel s PReopen = (s', true) ->
  o_blobs s' = o_blobs s /\
  forall n, Permutation (predecessors (o_graph s') n) (predecessors (o_graph s) n).
Proof. intro s. apply J_reopen_same, orun_J, J_empty. Qed.
End Store.

Arguments JX_mono {content isman unrooted unindexed unrooted' unindexed' u u' s}.
Arguments JX_store_blob {content isman unrooted unindexed u s} n.
Arguments JX_index {content isman unrooted unindexed u s} n.
Arguments JX_resolver {content isman unrooted unindexed u u' s} bd tg.
Arguments JX_save {content isman unrooted unindexed u} u' {s}.
Arguments j_tagged {content isman unrooted unindexed unsaved s}.

(* the code before the repair: a history after which a stored manifest is omitted.
   0 blob; 2 = manifest{0}; 3 = index{2}.  push all, tag 3, GC (nothing kept), delete 3,
   reopen: 2 is on disk, references 0, and Predecessors(0) is empty. *)
Definition pf_ct : amap := [(2, [0]); (3, [2])]%N.
Definition pf_isman (x : node) : bool := N.leb 2 x.
Definition pf_ops : list oop := [PPush 0; PPush 2; PPush 3; PTag 3; PGC []; PDelete 3; PReopen]%N.
(* the chain needed when GC writes index.json too early: reopen BETWEEN GC and Delete *)
Definition pf_ops2 : list oop :=
  [PPush 0; PPush 2; PPush 3; PTag 3; PGC []; PReopen; PDelete 3; PReopen]%N.

Lemma pf_content_isman : forall q, ctab pf_ct q <> [] -> pf_isman q = true.
Proof.
  intros q Hq. apply ctab_nonempty in Hq. destruct Hq as [<-|[<-|[]]]; reflexivity.
Qed.

(* Store.GC writing index.json BEFORE the digest references are restored: the file names
   only the tagged roots; reopen, delete the root (AutoGC off), reopen: 2 is lost. *)
Lemma store_gc_save_early_refuted :
  exists content isman fuel ops n p,
    (forall q, content q <> [] -> isman q = true) /\
    let r := orun true false false content isman fuel empty_store ops in
    snd r = true /\ In p (o_blobs (fst r)) /\ In n (content p) /\
    ~ In p (predecessors (o_graph (fst r)) n).
Proof.
  exists (ctab pf_ct), pf_isman, 50%nat, pf_ops2, 0%N, 2%N.
  split; [exact pf_content_isman|].
  vm_compute. repeat split; auto.
Qed.

(* ... and without the reopen in between the early save is masked (the live resolver is
   complete and Delete rewrites the file): why the chain GC -> reopen -> Delete -> reopen matters *)
Lemma store_gc_save_early_masked :
  let r := orun true false false (ctab pf_ct) pf_isman 50 empty_store pf_ops in
  snd r = true /\ predecessors (o_graph (fst r)) 0%N = [2%N].
Proof. vm_compute. repeat split. Qed.

(* the same history on the code as it is *)
Lemma store_history_fixed_example2 :
  let r := orun true true true (ctab pf_ct) pf_isman 50 empty_store pf_ops2 in
  snd r = true /\ o_blobs (fst r) = [2; 0]%N /\ predecessors (o_graph (fst r)) 0%N = [2%N].
Proof. vm_compute. repeat split. Qed.

(* the same for Store.GC and Store.delete as translated from the source *)
Lemma gc_save_after_restore_true : gc_save_after_restore = true.
Proof. vm_compute. reflexivity. Qed.

Lemma delete_reroots_true : delete_reroots = true.
Proof. vm_compute. reflexivity. Qed.

Lemma store_history_exact_src :
  forall (content : node -> list node) (isman : node -> bool) (rank : node -> nat),
    (forall p, content p <> [] -> isman p = true) ->
    (forall p c, In c (content p) -> rank c < rank p) ->
    forall fuel ops n,
      let s := fst (orun true gc_save_after_restore delete_reroots content isman fuel empty_store ops) in
      NoDup (predecessors (o_graph s) n) /\
      forall p, In p (predecessors (o_graph s) n) <-> In p (o_blobs s) /\ In n (content p).
Proof. rewrite gc_save_after_restore_true, delete_reroots_true. exact store_history_exact. Qed.

(* a layout whose index.json lists only the top-level manifests (other tools; oras-go's
   own GC before 34cefcb), Delete without re-rooting the dangling manifest ([reroot = false]):
   push 0, 2 = manifest{0}, 3 = index{2}; tag 3; the index is rewritten to list 3 only and the
   layout reopened; delete 3; reopen: 2 is stored, references 0, Predecessors(0) is empty. *)
Definition pf_ops3 : list oop :=
  [PPush 0; PPush 2; PPush 3; PTag 3; PForeign []; PDelete 3; PReopen]%N.

Lemma store_foreign_noreroot_refuted :
  exists content isman fuel ops n p,
    (forall q, content q <> [] -> isman q = true) /\
    let r := orun true true false content isman fuel empty_store ops in
    snd r = true /\ In p (o_blobs (fst r)) /\ In n (content p) /\
    ~ In p (predecessors (o_graph (fst r)) n).
Proof.
  exists (ctab pf_ct), pf_isman, 50%nat, pf_ops3, 0%N, 2%N.
  split; [exact pf_content_isman|].
  vm_compute. repeat split; auto.
Qed.

Lemma store_foreign_fixed_example :
  let r := orun true true true (ctab pf_ct) pf_isman 50 empty_store pf_ops3 in
  snd r = true /\ o_blobs (fst r) = [2; 0]%N /\ predecessors (o_graph (fst r)) 0%N = [2%N].
Proof. vm_compute. repeat split. Qed.

Lemma pf_rank_dec : forall p c, In c (ctab pf_ct p) -> (N.to_nat c < N.to_nat p)%nat.
Proof.
  intros p c. unfold ctab, getd, pf_ct. simpl.
  destruct (N.eqb_spec p 2) as [->|]; [intros [<-|[]]; vm_compute; lia|].
  destruct (N.eqb_spec p 3) as [->|]; [intros [<-|[]]; vm_compute; lia|]. intros [].
Qed.

(* file store: graph = stored set after every history of pushes, whatever their outcomes *)
Lemma frun_inv content ops : forall s,
  (Inv content (f_graph s) /\ forall x, In x (g_nodes (f_graph s)) <-> In x (f_blobs s)) ->
  let s' := fold_left (fstep true content) ops s in
  Inv content (f_graph s') /\ forall x, In x (g_nodes (f_graph s')) <-> In x (f_blobs s').
Proof.
  induction ops as [|o r IH]; intros s H; simpl; auto.
  apply IH. destruct H as [HI Hn]. destruct o as [n st rs]. simpl.
  destruct (smem n (f_blobs s) || negb st); [auto|]. simpl. split; [apply index_Inv, HI|].
  intro x. rewrite In_sadd, Hn. intuition auto.
Qed.

Lemma file_history_exact content ops n :
  let s := frun true content ops in
  NoDup (predecessors (f_graph s) n) /\
  forall p, In p (predecessors (f_graph s) n) <-> In p (f_blobs s) /\ In n (content p).
Proof.
  intro s.
  destruct (frun_inv content ops empty_fstore) as [HI Hn].
  { split; [apply Inv_empty | simpl; tauto]. }
  fold (frun true content ops) in HI, Hn. fold s in HI, Hn.
  destruct (exact_full content (f_graph s) HI n) as (Hd & Hm & _). split; auto.
  intro p. rewrite Hm, Hn. tauto.
Qed.

Lemma file_index_first_true : file_index_first = true.
Proof. vm_compute. reflexivity. Qed.

Lemma file_history_exact_src content ops n :
  let s := frun file_index_first content ops in
  NoDup (predecessors (f_graph s) n) /\
  forall p, In p (predecessors (f_graph s) n) <-> In p (f_blobs s) /\ In n (content p).
Proof. rewrite file_index_first_true. apply file_history_exact. Qed.

(* restore before index: a manifest whose duplicate cannot be restored is stored, not indexed *)
Lemma file_restore_first_refuted :
  exists content ops n p,
    let s := frun false content ops in
    In p (f_blobs s) /\ In n (content p) /\ ~ In p (predecessors (f_graph s) n).
Proof.
  exists (ctab pf_ct), [FPush 0%N true true; FPush 2%N true false], 0%N, 2%N.
  vm_compute. repeat split; auto.
Qed.

(* fuel: every GC / reopen step completes (per step; audit F8) *)
Lemma store_step_terminates content isman U fuel fixed save_late reroot s o :
  (forall u, In u U -> forall c, In c (content u) -> In c U) ->
  1 + pot content U [] < fuel ->
  (forall x, In x (o_tagged s) \/ In x (o_dtagged s) \/ In x (o_dbydigest s) -> In x U) ->
  match o with PGC kept => forall x, In x kept -> In x U | PForeign _ => False | _ => True end ->
  snd (ostep fixed save_late reroot content isman fuel s o) = true.
Proof.
  intros Hc Hf He Ho. destruct o; cbn [ostep].
  - destruct (smem n (o_blobs s)); [reflexivity|]. destruct (isman n); reflexivity.
  - destruct (smem n (o_blobs s)); reflexivity.
  - reflexivity.
  - destruct (remove (o_graph s) n) as [g' dang].
    match goal with |- snd (if ?c then _ else _) = true => destruct c; reflexivity end.
  - destruct (load_ok content (o_sok isman s) U fuel (o_tagged s ++ kept) Hc Hf) as (g' & ->).
    { intros r Hr. apply in_app_iff in Hr. destruct Hr; auto. }
    destruct save_late; reflexivity.
  - destruct (load_ok content (o_sok isman s) U fuel (o_dtagged s ++ o_dbydigest s) Hc Hf) as (g' & ->).
    { intros r Hr. apply in_app_iff in Hr. destruct Hr; auto. }
    reflexivity.
  - destruct Ho.
Qed.

Section AutoSave.
Variable content : node -> list node.
Variable isman : node -> bool.
Variable rank : node -> nat.
Hypothesis content_isman : forall p, content p <> [] -> isman p = true.
Hypothesis rank_dec : forall p c, In c (content p) -> rank c < rank p.

(* the part of the state Predecessors, Exists and the resolver depend on *)
Definition core (s : ostore) := (o_blobs s, o_bydigest s, o_tagged s, o_graph s).
(* J without "index.json is up to date": a save is owed *)
Definition Jc : ostore -> Prop := JX content isman no_debt no_debt True.

Lemma Jc_core s s' : core s = core s' -> Jc s -> Jc s'.
Proof.
  destruct s, s'. unfold core. simpl. intros E [H1 H2 H3 H4 H5 _]. inversion E; subst.
  constructor; auto.
Qed.

Lemma Jc_synced_J s : Jc s -> synced_b s = true -> J content isman s.
Proof.
  intros [H1 H2 H3 H4 H5 _] Hs. constructor; auto. left.
  unfold synced_b in Hs. apply andb_true_iff in Hs. destruct Hs as [Ha Hb].
  rewrite forallb_forall in Ha, Hb. intro p. split.
  - intro Hp. specialize (Ha p Hp). apply orb_true_iff in Ha.
    destruct Ha as [Ha|Ha]; apply smem_In in Ha; auto.
  - intro Hp. apply smem_In. apply Hb. apply in_app_iff. tauto.
Qed.

Lemma astep_Jc fuel a o :
  Jc (a_s a) -> snd (astep content isman fuel a o) = true ->
  Jc (a_s (fst (astep content isman fuel a o))).
Proof.
  intros HJ Hok. destruct o as [op|v| |bad]; cbn [astep] in *; auto.
  - pose proof (ostep_J content isman rank content_isman rank_dec fuel (a_s a) op) as Hstep.
    destruct (ostep true true true content isman fuel (a_s a) op) as [s' ok]. cbn [fst] in Hstep.
    destruct op; cbn [fst snd a_s] in *;
      try (destruct (a_auto a); [|apply (Jc_core s'); [reflexivity|]]; (apply Hstep; [exact HJ | discriminate])).
    (* Reopen of a saved index *)
    apply andb_true_iff in Hok. destruct Hok as [_ Hs].
    apply (@JX_mono content isman no_debt no_debt no_debt no_debt False); auto.
    apply Hstep; auto. apply Jc_synced_J; auto.
  - apply (Jc_core (a_s a)); [reflexivity | exact HJ].
Qed.

Lemma arun_Jc fuel ops : forall a,
  Jc (a_s a) -> snd (arun content isman fuel a ops) = true ->
  Jc (a_s (fst (arun content isman fuel a ops))).
Proof.
  induction ops as [|o r IH]; intros a HJ Hok; simpl in *; auto.
  destruct (astep content isman fuel a o) as [a1 ok1] eqn:E1.
  destruct (arun content isman fuel a1 r) as [a2 ok2] eqn:E2.
  simpl in *. apply andb_true_iff in Hok. destruct Hok as [-> ->].
  assert (Jc (a_s a1)) as H1.
  { pose proof (astep_Jc fuel a o HJ) as H. rewrite E1 in H. apply H. reflexivity. }
  specialize (IH a1 H1). rewrite E2 in IH. apply IH. reflexivity.
Qed.

Lemma autosave_history_exact fuel ops n :
  let r := arun content isman fuel empty_astore ops in
  snd r = true ->
  NoDup (predecessors (o_graph (a_s (fst r))) n) /\
  forall p, In p (predecessors (o_graph (a_s (fst r))) n) <->
            In p (o_blobs (a_s (fst r))) /\ In n (content p).
Proof.
  intros r Hok. apply (J_exact content isman content_isman no_debt True).
  apply arun_Jc; auto. apply (@JX_mono content isman no_debt no_debt no_debt no_debt False); auto. apply J_empty.
Qed.
End AutoSave.

Section HistoryFuel.
Variable content : node -> list node.
Variable isman : node -> bool.
Variable U : list node.
Hypothesis closed : forall u, In u U -> forall c, In c (content u) -> In c U.

Definition ents (s : ostore) : Prop :=
  incl (o_tagged s ++ o_bydigest s ++ o_dtagged s ++ o_dbydigest s ++ g_nodes (o_graph s)) U.
Definition op_in (o : oop) : Prop :=
  match o with
  | PPush n | PTag n | PUntag n | PDelete n => In n U
  | PGC kept => forall x, In x kept -> In x U
  | PReopen => True
  | PForeign _ => False
  end.

Lemma pre_in_U sok r x : In r U -> pre content sok r x -> In x U.
Proof. intros Hr H. induction H; auto. eapply closed; eauto. Qed.

Lemma remove_dang_nodes g n d : In d (snd (remove g n)) -> In d (g_nodes g).
Proof.
  unfold remove. rewrite remove_ord_eq. cbn [snd]. intro H.
  apply rm_fold_dang in H. destruct H as [[]|(_ & _ & Hn)]. exact Hn.
Qed.

Lemma load_nodes_in_U sok fuel roots g' :
  (forall r, In r roots -> In r U) -> load content sok fuel roots = (g', true) ->
  forall x, In x (g_nodes g') -> In x U.
Proof.
  intros Hr HL x Hx. destruct (load_exact content sok fuel roots g' HL) as [Hn _].
  apply Hn in Hx. destruct Hx as (r & Hin & Hpre & _). apply (pre_in_U sok r x); auto.
Qed.

Lemma incl_sadd n l : In n U -> incl l U -> incl (sadd n l) U.
Proof. intros Hn Hl x Hx. apply In_sadd in Hx. destruct Hx as [->|Hx]; auto. Qed.

Lemma incl_sdel n l : incl l U -> incl (sdel n l) U.
Proof. intros Hl x Hx. apply In_sdel in Hx. apply Hl, Hx. Qed.

Lemma incl_filter_U (f : node -> bool) l : incl l U -> incl (filter f l) U.
Proof. intros Hl x Hx. apply filter_In in Hx. apply Hl, Hx. Qed.

Lemma ostep_term fuel s o :
  1 + pot content U [] < fuel -> ents s -> op_in o ->
  snd (ostep true true true content isman fuel s o) = true /\
  ents (fst (ostep true true true content isman fuel s o)).
Proof.
  intros Hf He Ho. unfold ents in *.
  destruct (incl_app_inv _ _ He) as [E1 He1]. destruct (incl_app_inv _ _ He1) as [E2 He2].
  destruct (incl_app_inv _ _ He2) as [E3 He3]. destruct (incl_app_inv _ _ He3) as [E4 E5].
  split.
  { apply (store_step_terminates content isman U); auto.
    - intros x [H|[H|H]]; auto.
    - destruct o; auto. }
  destruct o; cbn [ostep]; simpl in Ho.
  - destruct (smem n (o_blobs s)); [exact He|].
    destruct (isman n); simpl; auto 7 using incl_app, incl_sadd.
  - destruct (smem n (o_blobs s)); [|exact He]. simpl. auto 7 using incl_app, incl_sadd.
  - simpl. auto 7 using incl_app, incl_sdel.
  - pose proof (remove_ord_nodes_eq (o_graph s) n (getd (g_succs (o_graph s)) n)) as Hg.
    assert (incl (snd (remove (o_graph s) n)) U) as Hd.
    { intros d Hd. apply E5, (remove_dang_nodes (o_graph s) n), Hd. }
    unfold remove in *. destruct (remove_ord (o_graph s) n _) as [g' dang]. cbn [fst snd] in *.
    match goal with |- context [if ?c then _ else _] => destruct c end; simpl; rewrite Hg;
      auto 8 using incl_app, incl_sdel, incl_filter_U.
  - assert (forall r, In r (o_tagged s ++ kept) -> In r U) as Hr.
    { intros r Hr. apply in_app_iff in Hr. destruct Hr; auto. }
    destruct (load_ok content (o_sok isman s) U fuel _ closed Hf Hr) as (g' & E). rewrite E. simpl.
    pose proof (load_nodes_in_U (o_sok isman s) fuel _ g' Hr E) as Hg.
    auto 8 using incl_app, incl_filter_U.
  - assert (forall r, In r (o_dtagged s ++ o_dbydigest s) -> In r U) as Hr.
    { intros r Hr. apply in_app_iff in Hr. destruct Hr; auto. }
    destruct (load_ok content (o_sok isman s) U fuel _ closed Hf Hr) as (g' & E). rewrite E. simpl.
    pose proof (load_nodes_in_U (o_sok isman s) fuel _ g' Hr E) as Hg.
    auto 8 using incl_app.
  - destruct Ho.
Qed.

Lemma orun_term fuel ops : forall s,
  1 + pot content U [] < fuel -> ents s -> Forall op_in ops ->
  snd (orun true true true content isman fuel s ops) = true.
Proof.
  induction ops as [|o r IH]; intros s Hf He Ho; simpl; auto.
  inversion Ho; subst.
  destruct (ostep_term fuel s o Hf He H1) as [Hok He'].
  destruct (ostep true true true content isman fuel s o) as [s1 ok1]. simpl in *. subst ok1.
  specialize (IH s1 Hf He' H2).
  destruct (orun true true true content isman fuel s1 r) as [s2 ok2]. simpl in *. subst. reflexivity.
Qed.

Lemma store_history_terminates fuel ops :
  1 + pot content U [] < fuel -> Forall op_in ops ->
  snd (orun true true true content isman fuel empty_store ops) = true.
Proof. intros Hf Ho. apply orun_term; auto. intros x []. Qed.
End HistoryFuel.

Section Spec.
Variable content : node -> list node.
Variable isman : node -> bool.
Variable rank : node -> nat.
Hypothesis content_isman : forall p, content p <> [] -> isman p = true.
Hypothesis rank_dec : forall p c, In c (content p) -> rank c < rank p.

Lemma spec_preds_perm (g : graph) (blobs : list node) n :
  NoDup (predecessors g n) ->
  (forall p, In p (predecessors g n) <-> In p blobs /\ In n (content p)) ->
  Permutation (predecessors g n) (spec_preds content blobs n).
Proof.
  intros Hd Hm. apply NoDup_Permutation; auto.
  - unfold spec_preds. apply NoDup_filter, NoDup_nodup.
  - intro p. rewrite Hm. unfold spec_preds. rewrite filter_In, nodup_In, smem_In. tauto.
Qed.

Lemma autosave_refines_spec fuel ops n :
  let r := arun content isman fuel empty_astore ops in
  snd r = true ->
  Permutation (predecessors (o_graph (a_s (fst r))) n)
              (spec_preds content (o_blobs (a_s (fst r))) n).
Proof.
  intros r Hok.
  destruct (autosave_history_exact content isman rank content_isman rank_dec fuel ops n Hok) as [Hd Hm].
  apply spec_preds_perm; auto.
Qed.
End Spec.
