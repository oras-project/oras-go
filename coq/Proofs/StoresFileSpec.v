(* C06 -- the file store refines its abstract specification (Model/StoresFileSpec.v): on every
   history that does not use a second name for one path, equal outputs step by step, and the
   content map by digest is what digestToPath -> path -> file yields. *)
From Oras Require Import Base.Prelude Model.Stores Model.StoresFileSpec Proofs.Stores.

Record frel (s : file_store) (a : fspec) : Prop := mkFR {
  fr_names : fs_names a = f_names s;
  fr_named : forall g, get N.eqb g (fs_named a) =
                       match get N.eqb g (f_d2p s) with Some p => get N.eqb p (f_disk s) | None => None end;
  fr_cas : fs_cas a = f_cas s;
  fr_res : fs_res a = f_res s;
  fr_graph : fs_graph a = f_graph s }.

Lemma frel_init : frel file_init fspec_init.
Proof. constructor; reflexivity. Qed.

Lemma frel_fetch d s a : file_inv s -> frel s a -> fspec_fetch d a = file_fetch d s.
Proof.
  intros [A _ _] [Hn Hm Hc _ _]. unfold fspec_fetch, file_fetch, fs_name_ok, name_ok. rewrite Hn, Hm, Hc.
  destruct ((d_name d =? 0) || mem N.eqb (d_name d) (f_names s)); [|reflexivity].
  destruct (get N.eqb (d_dig d) (f_d2p s)) as [p|] eqn:E; [|reflexivity].
  destruct (A _ _ E) as (_ & c & Hc' & _). now rewrite Hc'.
Qed.

Lemma frel_exists d s a : file_inv s -> frel s a -> fspec_exists d a = file_exists d s.
Proof.
  intros [A _ _] [Hn Hm Hc _ _]. unfold fspec_exists, file_exists, fs_name_ok, name_ok. rewrite Hn, Hm, Hc.
  destruct (get N.eqb (d_dig d) (f_d2p s)) as [p|] eqn:E; [|reflexivity].
  destruct (A _ _ E) as (_ & c & Hc' & _). now rewrite Hc'.
Qed.

Lemma frel_named_push ov s a k n c :
  file_inv s -> frel s a -> path_of n = n ->
  snd (file_named_push true ov s k n c) = snd (fspec_named_push a k n c) /\
  frel (fst (file_named_push true ov s k n c)) (fst (fspec_named_push a k n c)).
Proof.
  intros Hi Hr Hp. pose proof Hi as [A D _]. pose proof Hr as [Hn Hm Hc Hre Hg].
  unfold file_named_push, fspec_named_push. rewrite Hn, Hp.
  destruct (mem N.eqb n (f_names s)) eqn:Em; [split; [reflexivity | exact Hr]|].
  destruct (bad_name n); [split; [reflexivity | exact Hr]|].
  assert (Hnn : ~ In n (f_names s)) by (intro X; apply memN_In in X; congruence).
  assert (Hd : get N.eqb n (f_disk s) = None).
  { destruct (get N.eqb n (f_disk s)) as [c0|] eqn:E; auto. destruct (D _ _ E) as [X _]. contradiction. }
  rewrite Hd. rewrite andb_false_r.
  assert (Hother : forall g p, get N.eqb g (f_d2p s) = Some p -> p <> n).
  { intros g p E. destruct (A _ _ E) as [X _]. congruence. }
  destruct ((k_dig k =? b_hash c) && (k_size k =? b_len c)); cbn [fst snd]; (split; [reflexivity|]).
  - constructor; cbn [fs_names fs_named fs_cas fs_res fs_graph f_names f_d2p f_disk f_cas f_res f_graph]; auto.
    intro g. destruct (N.eq_dec g (k_dig k)) as [->|Hne].
    + repeat rewrite (get_put_eq N.eqb Neqb_spec). reflexivity.
    + rewrite !(get_put_neq N.eqb Neqb_spec) by exact Hne. rewrite Hm.
        destruct (get N.eqb g (f_d2p s)) as [p|] eqn:E; [|reflexivity].
        rewrite (get_put_neq N.eqb Neqb_spec); [reflexivity|]. eapply Hother; eauto.
  - constructor; cbn [f_names f_d2p f_disk f_cas f_res f_graph]; auto.
    intro g. rewrite Hm. destruct (get N.eqb g (f_d2p s)) as [p|] eqn:E; [|reflexivity].
    rewrite (get_del_neq N.eqb Neqb_spec); [reflexivity|]. eapply Hother; eauto.
Qed.

Lemma frel_restore ov tl : forall s a,
  file_inv s -> frel s a -> (forall k n, In (k, n) tl -> path_of n = n) ->
  snd (file_restore true ov tl s) = snd (fspec_restore tl a) /\
  frel (fst (file_restore true ov tl s)) (fst (fspec_restore tl a)).
Proof.
  induction tl as [|[k n] tl IH]; intros s a Hi Hr Ht; [split; [reflexivity | exact Hr]|].
  assert (Ht' : forall k0 n0, In (k0, n0) tl -> path_of n0 = n0) by (intros; eapply Ht; right; eauto).
  pose proof (Ht k n (or_introl eq_refl)) as Hp.
  rewrite (file_restore_cons ov k n tl s Hi Hp). cbn [fspec_restore]. rewrite (fr_names _ _ Hr).
  destruct ((n =? 0) || mem N.eqb n (f_names s)); [now apply IH|].
  rewrite (frel_fetch _ s a Hi Hr).
  destruct (file_fetch (mkDesc (k_mt k) (k_dig k) (k_size k) 0) s) as [c2|] eqn:Ef; [|now apply IH].
  destruct (frel_named_push ov s a k n c2 Hi Hr Hp) as [Hs Hr1].
  pose proof (file_named_push_inv ov s k n c2 Hi Hp (proj2 (file_fetch_inv _ _ _ Hi Ef))) as Hi1.
  destruct (file_named_push true ov s k n c2) as [s1 r1]. destruct (fspec_named_push a k n c2) as [a1 r2].
  cbn [fst snd] in *. subst r2.
  destruct r1 as [[o|[| |]]|]; try (split; [reflexivity | exact Hr1]); now apply IH.
Qed.

Lemma frel_index d s a :
  file_inv s -> frel s a ->
  snd (file_index d s) = snd (fspec_index d a) /\ frel (fst (file_index d s)) (fst (fspec_index d a)).
Proof.
  intros Hi Hr. unfold file_index, fspec_index. rewrite (frel_fetch d s a Hi Hr). pose proof Hr as [Hn Hm Hc Hre Hg].
  destruct (is_manifest (d_mt d)).
  - destruct (file_fetch d s) as [c1|]; [|split; [reflexivity | exact Hr]].
    destruct (d_dig d =? b_hash c1); [|split; [reflexivity | exact Hr]].
    split; [reflexivity|]. constructor; cbn; auto. now rewrite Hg.
  - split; [reflexivity|]. constructor; cbn; auto. now rewrite Hg.
Qed.

Lemma frel_index_after ov d s a :
  file_inv s -> frel s a ->
  snd (file_index_after true ov d s) = snd (fspec_index_after d a) /\
  frel (fst (file_index_after true ov d s)) (fst (fspec_index_after d a)).
Proof.
  intros Hi Hr. unfold file_index_after, fspec_index_after.
  destruct (frel_index d s a Hi Hr) as [Hs Hr2]. pose proof (file_index_inv d s Hi) as Hi2.
  destruct (file_index d s) as [s2 r]. destruct (fspec_index d a) as [a2 r']. cbn [fst snd] in *. subst r'.
  destruct r as [o|e]; [|split; [reflexivity | exact Hr2]].
  destruct o; try (split; [reflexivity | exact Hr2]).
  destruct (is_manifest (d_mt d)); [|split; [reflexivity | exact Hr2]].
  rewrite (frel_fetch d s2 a2 Hi2 Hr2).
  destruct (file_fetch d s2) as [c1|] eqn:Ef; [|split; [reflexivity | exact Hr2]].
  destruct (d_dig d =? b_hash c1); [|split; [reflexivity | exact Hr2]].
  destruct (file_fetch_inv _ _ _ Hi2 Ef) as [_ [Hok _]].
  destruct (frel_restore ov (b_tl c1) s2 a2 Hi2 Hr2 Hok) as [Hs3 Hr3].
  destruct (file_restore true ov (b_tl c1) s2) as [s3 x]. destruct (fspec_restore (b_tl c1) a2) as [a3 x'].
  cbn [fst snd] in *. subst x'. destruct x; (split; [reflexivity | exact Hr3]).
Qed.

Lemma frel_step ig ov s a o :
  no_alias o -> file_inv s -> frel s a ->
  snd (file_step true ig ov s o) = snd (fspec_step ig a o) /\
  frel (fst (file_step true ig ov s o)) (fst (fspec_step ig a o)).
Proof.
  intros Hna Hi Hr. pose proof Hr as [Hn Hm Hc Hre Hg].
  destruct o; cbn [file_step fspec_step]; try (split; [reflexivity | exact Hr]).
  - (* Push *)
    destruct Hna as [Hp Ht]. destruct (d_name d =? 0) eqn:En.
    + destruct ig.
      * destruct (is_manifest (d_mt d)); [|split; [reflexivity | exact Hr]].
        destruct (verify d c); [|split; [reflexivity | exact Hr]].
        destruct (frel_restore ov (b_tl c) s a Hi Hr (proj1 Ht)) as [Hs3 Hr3].
        destruct (file_restore true ov (b_tl c) s) as [s3 x]. destruct (fspec_restore (b_tl c) a) as [a3 x'].
        cbn [fst snd] in *. subst x'. destruct x; (split; [reflexivity | exact Hr3]).
      * rewrite Hc. destruct (get gkey_eqb (gk d) (f_cas s)) eqn:Ec; [split; [reflexivity | exact Hr]|].
        destruct (verify d (limit_reader d c)) eqn:V; [|split; [reflexivity | exact Hr]].
        apply frel_index_after.
        -- apply file_inv_cas_put; auto. now apply titles_ok_limit.
        -- constructor; cbn; auto.
    + destruct (frel_named_push ov s a (gk d) (d_name d) c Hi Hr Hp) as [Hs Hr1].
      pose proof (file_named_push_inv ov s (gk d) (d_name d) c Hi Hp Ht) as Hi1.
      destruct (file_named_push true ov s (gk d) (d_name d) c) as [s1 r1].
      destruct (fspec_named_push a (gk d) (d_name d) c) as [a1 r2]. cbn [fst snd] in *. subst r2.
      destruct r1 as [e|]; [split; [reflexivity | exact Hr1]|]. now apply frel_index_after.
  - rewrite (frel_fetch d s a Hi Hr). destruct (file_fetch d s); (split; [reflexivity | exact Hr]).
  - rewrite (frel_exists d s a Hi Hr). split; [reflexivity | exact Hr].
  - rewrite (frel_exists d s a Hi Hr).
    destruct r; try (split; [reflexivity | exact Hr]);
      (destruct (file_exists d s); [|split; [reflexivity | exact Hr]]; split; [reflexivity|];
       constructor; cbn; auto; now rewrite Hre).
  - rewrite Hre. destruct r; try (split; [reflexivity | exact Hr]);
      (destruct (get ref_eqb _ (r_index (f_res s))); (split; [reflexivity | exact Hr])).
  - rewrite Hg. split; [reflexivity | exact Hr].
Qed.

Lemma frel_run ig ov h : forall s a,
  Forall no_alias h -> file_inv s -> frel s a ->
  snd (runf (file_step true ig ov) s h) = snd (runf (fspec_step ig) a h) /\
  frel (fst (runf (file_step true ig ov) s h)) (fst (runf (fspec_step ig) a h)).
Proof.
  induction h as [|o h IH]; intros s a Hna Hi Hr; [split; [reflexivity | exact Hr]|].
  inversion Hna; subst. rewrite !runf_cons. cbn [fst snd].
  destruct (frel_step ig ov s a o H1 Hi Hr) as [Hs Hr1].
  destruct (IH _ _ H2 (file_step_inv ig ov s o H1 Hi) Hr1) as [Hs2 Hr2].
  split; [now rewrite Hs, Hs2 | exact Hr2].
Qed.

(* The file store (repaired pushFile; any IgnoreNoName / DisableOverwrite setting) answers every
   history without an aliasing name exactly like the abstract content-map specification, and
   its digest -> path -> file indirection is the specification's content map. *)
Theorem refines_file ig ov h :
  Forall no_alias h ->
  snd (runf (file_step true ig ov) file_init h) = snd (runf (fspec_step ig) fspec_init h) /\
  frel (fst (runf (file_step true ig ov) file_init h)) (fst (runf (fspec_step ig) fspec_init h)).
Proof. intro Hna. apply frel_run; [exact Hna | exact file_inv_init | exact frel_init]. Qed.

Corollary file_disable_overwrite_unobservable ig h :
  Forall no_alias h ->
  snd (runf (file_step true ig true) file_init h) = snd (runf (file_step true ig false) file_init h).
Proof.
  intro Hna. rewrite (proj1 (refines_file ig true h Hna)), (proj1 (refines_file ig false h Hna)). reflexivity.
Qed.
