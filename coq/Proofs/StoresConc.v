(* C06 -- quiescent serialisability of the memory store: every interleaving of the atomic
   steps of complete operations ends in the state of a sequential order of the same
   operations (the order of their commit steps). *)
From Oras Require Import Base.Prelude Model.Stores Model.StoresConc Proofs.Stores.
From Coq Require Import Permutation.

Lemma map_snd_pair (i : nat) (lg : list op) : map snd (map (pair i) lg) = lg.
Proof. induction lg; simpl; congruence. Qed.

Lemma log_of_app j L1 L2 : log_of j (L1 ++ L2) = log_of j L1 ++ log_of j L2.
Proof. unfold log_of. now rewrite filter_app, map_app. Qed.

Lemma log_of_pair_same i (lg : list op) : log_of i (map (pair i) lg) = lg.
Proof. unfold log_of. induction lg; simpl; auto. rewrite Nat.eqb_refl. simpl. congruence. Qed.

Lemma log_of_pair_other i j (lg : list op) : j <> i -> log_of j (map (pair i) lg) = [].
Proof.
  intro H. unfold log_of. induction lg; simpl; auto.
  destruct (Nat.eqb i j) eqn:E; [apply Nat.eqb_eq in E; congruence | exact IHlg].
Qed.

Lemma fold_left_invariant {A B} (f : A -> B -> A) (P : A -> Prop) :
  (forall a b, P a -> P (f a b)) -> forall l a, P a -> P (fold_left f l a).
Proof. intro H. induction l as [|b l IH]; intros a Ha; [exact Ha | apply IH, H, Ha]. Qed.

Lemma nth_error_mid {A} (l1 l2 : list A) t : nth_error (l1 ++ t :: l2) (length l1) = Some t.
Proof. induction l1; simpl; auto. Qed.

Lemma nth_error_mid_other {A} (l1 l2 : list A) t t' j :
  j <> length l1 -> nth_error (l1 ++ t :: l2) j = nth_error (l1 ++ t' :: l2) j.
Proof.
  revert j. induction l1 as [|x l1 IH]; intros j H; simpl in *.
  - destruct j; [congruence | reflexivity].
  - destruct j; [reflexivity|]. apply IH. intro; subst. congruence.
Qed.

Lemma upd_nth_split {A} (l1 l2 : list A) t t' :
  upd_nth (length l1) t' (l1 ++ t :: l2) = l1 ++ t' :: l2.
Proof. induction l1 as [|x l1 IH]; simpl; congruence. Qed.

Lemma perm_move {A} (L R1 lg X R2 : list A) :
  Permutation (L ++ R1 ++ (lg ++ X) ++ R2) ((L ++ lg) ++ R1 ++ X ++ R2).
Proof.
  rewrite <- !app_assoc. apply Permutation_app_head.
  rewrite !app_assoc. apply Permutation_app_tail. apply Permutation_app_tail.
  apply Permutation_app_comm.
Qed.

Lemma Forall_mid {A} (P Q : A -> Prop) l1 t t' l2 :
  (forall x, P x -> Q x) -> Q t' -> Forall P (l1 ++ t :: l2) -> Forall Q (l1 ++ t' :: l2).
Proof.
  intros HPQ Ht' H. apply Forall_app in H as [H1 H2]. inversion H2; subst.
  apply Forall_app. split; [|constructor; [exact Ht'|]]; eapply Forall_impl; eauto.
Qed.

(* [rem t] is what goroutine t has not committed yet; the log holds (goroutine, operation)
   in commit order: log and remainders together are the programs, goroutine by goroutine *)
Section Sched.
  Context {T : Type} (rem : T -> list op).

  Record sched_inv (progs : list (list op)) (L : list (nat * op)) (ths : list T) : Prop := mkSI {
    si_perm : Permutation (map snd L ++ flat_map rem ths) (concat progs);
    si_order : forall i, log_of i L ++ match nth_error ths i with Some t => rem t | None => [] end
                         = nth i progs [] }.

  Lemma sched_inv_init (mk : list op -> T) progs :
    (forall p, rem (mk p) = p) -> sched_inv progs [] (map mk progs).
  Proof.
    intro Hmk. constructor; cbn [map app log_of filter].
    - rewrite flat_map_concat_map, map_map, (map_ext _ (fun p => p) Hmk), map_id. apply Permutation_refl.
    - intro i. rewrite nth_error_map. destruct (nth_error progs i) as [p|] eqn:E; cbn [option_map].
      + rewrite Hmk. symmetry. now apply nth_error_nth.
      + symmetry. apply nth_overflow. now apply nth_error_None.
  Qed.

  Lemma sched_inv_step progs L l1 t t' l2 lg :
    rem t = lg ++ rem t' -> sched_inv progs L (l1 ++ t :: l2) ->
    sched_inv progs (L ++ map (pair (length l1)) lg) (l1 ++ t' :: l2).
  Proof.
    intros Hrem [Hperm Hord]. constructor.
    - rewrite map_app, map_snd_pair, flat_map_app. rewrite flat_map_app in Hperm. cbn [flat_map] in *.
      rewrite Hrem in Hperm. eapply Permutation_trans; [apply Permutation_sym, perm_move | exact Hperm].
    - intro j. rewrite log_of_app. destruct (Nat.eq_dec j (length l1)) as [->|Hne].
      + rewrite log_of_pair_same, nth_error_mid. specialize (Hord (length l1)).
        rewrite nth_error_mid, Hrem in Hord. now rewrite <- app_assoc.
      + rewrite (log_of_pair_other _ _ _ Hne), app_nil_r, <- (nth_error_mid_other l1 l2 t t' j Hne). apply Hord.
  Qed.

  Lemma sched_inv_done progs L ths :
    (forall t, In t ths -> rem t = []) -> sched_inv progs L ths ->
    Permutation (map snd L) (concat progs) /\ forall i, log_of i L = nth i progs [].
  Proof.
    intros Hdone [Hperm Hord]. split.
    - rewrite <- Hperm. rewrite flat_map_concat_map, (proj2 (concat_nil_Forall _)), app_nil_r; [reflexivity|].
      apply Forall_forall. intros l Hl. apply in_map_iff in Hl as (t & <- & Ht). now apply Hdone.
    - intro i. rewrite <- (Hord i). destruct (nth_error ths i) as [t|] eqn:E; [|now rewrite app_nil_r].
      now rewrite (Hdone t (nth_error_In _ _ E)), app_nil_r.
  Qed.

  Lemma sched_inv_Forall (P : op -> Prop) progs L ths :
    sched_inv progs L ths -> Forall P (concat progs) ->
    Forall P (map snd L) /\ forall t o, In t ths -> In o (rem t) -> P o.
  Proof.
    intros [Hperm _] HP. apply (Permutation_Forall (Permutation_sym Hperm)), Forall_app in HP as [H1 H2].
    split; [exact H1|]. intros t o Ht Ho. rewrite Forall_forall in H2. apply H2, in_flat_map. eauto.
  Qed.
End Sched.

Definition remaining (t : mthread) : list op :=
  match t_pc t with MPush2 d c => [Push d c] | MTag2 d r => [Tag d r] | _ => [] end ++ t_ops t.

Definition S_ix (cas : list (gkey * blob)) (J : list gkey) : gkey -> option (list gkey) :=
  fun k => if mem gkey_eqb k J then S_mem cas k else None.

Definition thread_ok (s : mem_store) (t : mthread) : Prop :=
  match t_pc t with
  | MIdle => True
  | MPush2 d c => verify d c = true
  | MPush3 d => get gkey_eqb (gk d) (m_cas s) <> None
  | MTag2 d r => get gkey_eqb (gk d) (m_cas s) <> None
  end.

(* goroutine t has stored key k and not indexed it yet *)
Definition indexing (k : gkey) (t : mthread) : Prop := exists d, t_pc t = MPush3 d /\ gk d = k.

Definition seq_state (L : list op) : mem_store := fst (run mem_step mem_init L).

Lemma seq_state_snoc L o : seq_state (L ++ [o]) = fst (mem_step (seq_state L) o).
Proof. unfold seq_state. rewrite run_app. cbn [fst]. rewrite run_cons. reflexivity. Qed.

(* the part of the invariant that ties content map, graph and the ghost set of indexed keys *)
Record mgraph_inv (s : mem_store) (ths : list mthread) (J : list gkey) : Prop := mkMG {
  mg_threads : Forall (thread_ok s) ths;
  mg_graph : graph_inv (S_ix (m_cas s) J) (m_graph s);
  mg_indexed : forall k, get gkey_eqb k (m_cas s) <> None -> In k J \/ exists t, In t ths /\ indexing k t;
  mg_ix_sub : forall k, In k J -> get gkey_eqb k (m_cas s) <> None }.

Record cinv (progs : list (list op)) (cf : mconf) : Prop := mkCI {
  ci_sched : sched_inv remaining progs (c_log cf) (c_threads cf);
  ci_cas : m_cas (c_store cf) = m_cas (seq_state (map snd (c_log cf)));
  ci_res : m_res (c_store cf) = m_res (seq_state (map snd (c_log cf)));
  ci_graph : mgraph_inv (c_store cf) (c_threads cf) (c_indexed cf) }.

Lemma cinv_init progs : cinv progs (mconf_init progs).
Proof.
  constructor; simpl; [now apply sched_inv_init | reflexivity | reflexivity |]. constructor; simpl.
  - apply Forall_forall. intros t Ht. apply in_map_iff in Ht as (p & <- & _). exact I.
  - eapply graph_inv_ext; [|exact graph_inv_init]. intro k. reflexivity.
  - intros k H. exfalso. apply H. reflexivity.
  - tauto.
Qed.

Lemma mstep_idle s o rest x :
  mthread_step s (mkT MIdle (o :: rest)) = Some x ->
  (s, mkT MIdle rest, [o], []) = x /\ fst (mem_step s o) = s \/
  exists pc, (s, mkT pc rest, [], []) = x /\ remaining (mkT pc rest) = o :: rest /\
             thread_ok s (mkT pc rest) /\ forall d, pc <> MPush3 d.
Proof.
  destruct o; cbn [mthread_step t_pc t_ops mem_step]; try (intro H; injection H as <-; left; split; reflexivity).
  - destruct (get gkey_eqb (gk d) (m_cas s)); cbn [is_some]; [intro H; injection H as <-; left; split; reflexivity|].
    destruct (verify d c) eqn:V; intro H; injection H as <-; [right | left; split; reflexivity].
    exists (MPush2 d c). repeat split; [exact V | discriminate].
  - intro H; injection H as <-. left. split; [reflexivity|]. now destruct (get gkey_eqb (gk d) (m_cas s)).
  - destruct (get gkey_eqb (gk d) (m_cas s)) eqn:E; cbn [is_some]; intro H; injection H as <-;
      [right | left; split; reflexivity].
    exists (MTag2 d r). repeat split; [unfold thread_ok; cbn [t_pc]; congruence | discriminate].
  - intro H; injection H as <-. left. split; [reflexivity|]. now destruct (get ref_eqb r (r_index (m_res s))).
Qed.

Lemma step_remaining s t s' t' lg ix :
  mthread_step s t = Some (s', t', lg, ix) -> remaining t = lg ++ remaining t'.
Proof.
  destruct t as [[|d c|d|d r] ops].
  - destruct ops as [|o rest]; [discriminate|]. intro H.
    apply mstep_idle in H as [[H _]|(pc & H & Hrem & _)]; injection H as <- <- <- <-; [reflexivity | now rewrite Hrem].
  - cbn. destruct (get gkey_eqb (gk d) (m_cas s)); intro H; injection H as <- <- <- <-; reflexivity.
  - cbn. destruct (get gkey_eqb (gk d) (m_cas s)); intro H; injection H as <- <- <- <-; reflexivity.
  - intro H; injection H as <- <- <- <-; reflexivity.
Qed.

Lemma mem_step_cas_res s1 s2 o :
  m_cas s1 = m_cas s2 -> m_res s1 = m_res s2 ->
  m_cas (fst (mem_step s1 o)) = m_cas (fst (mem_step s2 o)) /\
  m_res (fst (mem_step s1 o)) = m_res (fst (mem_step s2 o)) /\
  match o with Preds _ => True | _ => snd (mem_step s1 o) = snd (mem_step s2 o) end.
Proof.
  intros Hc Hr. destruct o; simpl; rewrite <- ?Hc, <- ?Hr; auto.
  - destruct (get gkey_eqb (gk d) (m_cas s1)); auto. destruct (verify d c); simpl; auto.
  - destruct (get gkey_eqb (gk d) (m_cas s1)); auto.
  - destruct (is_some _); simpl; auto.
  - destruct (get ref_eqb r (r_index (m_res s1))); auto.
Qed.

Lemma step_commit s t s' t' lg ix :
  thread_ok s t -> mthread_step s t = Some (s', t', lg, ix) ->
  (lg = [] /\ m_cas s' = m_cas s /\ m_res s' = m_res s) \/
  (exists o, lg = [o] /\ m_cas s' = m_cas (fst (mem_step s o)) /\ m_res s' = m_res (fst (mem_step s o))).
Proof.
  destruct t as [[|d c|d|d r] ops]; unfold thread_ok; cbn [t_pc]; intro Hok.
  - destruct ops as [|o rest]; [discriminate|]. intro H.
    apply mstep_idle in H as [[H E]|(pc & H & _)]; injection H as <- <- <- <-; [right | now left].
    exists o. now rewrite E.
  - cbn. destruct (get gkey_eqb (gk d) (m_cas s)) eqn:E; intro H; injection H as <- <- <- <-;
      right; exists (Push d c); cbn [mem_step]; rewrite E, ?Hok; auto.
  - cbn. destruct (get gkey_eqb (gk d) (m_cas s)); intro H; injection H as <- <- <- <-; left; auto.
  - intro H; injection H as <- <- <- <-. right. exists (Tag d r). cbn [mem_step].
    destruct (get gkey_eqb (gk d) (m_cas s)); [auto | congruence].
Qed.

Lemma step_kind s t s' t' lg ix :
  thread_ok s t -> mthread_step s t = Some (s', t', lg, ix) ->
  (m_cas s' = m_cas s /\ m_graph s' = m_graph s /\ ix = [] /\ thread_ok s t' /\ forall d, t_pc t <> MPush3 d)
  \/ (exists d c, t_pc t = MPush2 d c /\ get gkey_eqb (gk d) (m_cas s) = None /\
                  s' = mkMem (put gkey_eqb (gk d) c (m_cas s)) (m_res s) (m_graph s) /\
                  t_pc t' = MPush3 d /\ ix = [])
  \/ (exists d c, t_pc t = MPush3 d /\ get gkey_eqb (gk d) (m_cas s) = Some c /\
                  s' = mkMem (m_cas s) (m_res s) (g_index d (succ_of (gk d) c) (m_graph s)) /\
                  t_pc t' = MIdle /\ ix = [gk d]).
Proof.
  destruct t as [[|d c|d|d r] ops]; unfold thread_ok at 1; cbn [t_pc]; intro Hok.
  - destruct ops as [|o rest]; [discriminate|]. intro H. left.
    apply mstep_idle in H as [[H _]|(pc & H & _ & Hok' & Hpc)]; injection H as <- <- <- <-;
      repeat split; auto; discriminate.
  - cbn. destruct (get gkey_eqb (gk d) (m_cas s)) eqn:E; intro H; injection H as <- <- <- <-.
    + left. repeat split; auto; discriminate.
    + right. left. exists d, c. repeat split; auto.
  - cbn. destruct (get gkey_eqb (gk d) (m_cas s)) as [c|] eqn:E; [|congruence].
    intro H; injection H as <- <- <- <-. right. right. exists d, c. repeat split; auto.
  - intro H; injection H as <- <- <- <-. left. repeat split; auto; discriminate.
Qed.

Lemma thread_ok_mono s s' t :
  (forall k, get gkey_eqb k (m_cas s) <> None -> get gkey_eqb k (m_cas s') <> None) ->
  thread_ok s t -> thread_ok s' t.
Proof. unfold thread_ok. intro H. destruct (t_pc t); auto. Qed.

Lemma ex_in_elt {A} (P : A -> Prop) l1 t l2 :
  (exists x, In x (l1 ++ t :: l2) /\ P x) <-> P t \/ exists x, In x (l1 ++ l2) /\ P x.
Proof.
  split.
  - intros (x & Hin & Hx). apply in_elt_inv in Hin as [->|Hin]; eauto.
  - intros [H|(x & Hin & Hx)]; [exists t; split; [apply in_elt | exact H]|].
    exists x. split; [|exact Hx]. apply in_app_or in Hin as [Hin|Hin]; apply in_or_app; simpl; auto.
Qed.

Lemma ex_in_mid {A} (P : A -> Prop) l1 t t' l2 :
  (exists x, In x (l1 ++ t :: l2) /\ P x) -> P t \/ exists x, In x (l1 ++ t' :: l2) /\ P x.
Proof. rewrite !ex_in_elt. tauto. Qed.

Lemma mgraph_quiet s s' l1 t t' l2 J :
  m_cas s' = m_cas s -> m_graph s' = m_graph s -> thread_ok s t' -> (forall d, t_pc t <> MPush3 d) ->
  mgraph_inv s (l1 ++ t :: l2) J -> mgraph_inv s' (l1 ++ t' :: l2) J.
Proof.
  intros Hc Hgr Hok' Hn [Hthr Hg Hix Hsub]. constructor; rewrite ?Hc, ?Hgr; auto.
  - eapply Forall_mid; [|apply (thread_ok_mono s); [|exact Hok']|exact Hthr]; [intro x; apply thread_ok_mono|];
      intro k; now rewrite Hc.
  - intros k Hk. destruct (Hix k Hk) as [H|H]; [now left | right].
    destruct (ex_in_mid _ _ _ t' _ H) as [(d & E & _)|H']; [now apply Hn in E | exact H'].
Qed.

(* LoadOrStore of a new key *)
Lemma mgraph_store s l1 t t' l2 J d c :
  get gkey_eqb (gk d) (m_cas s) = None -> t_pc t' = MPush3 d -> (forall d', t_pc t <> MPush3 d') ->
  mgraph_inv s (l1 ++ t :: l2) J ->
  mgraph_inv (mkMem (put gkey_eqb (gk d) c (m_cas s)) (m_res s) (m_graph s)) (l1 ++ t' :: l2) J.
Proof.
  intros Habs Hpc' Hn [Hthr Hg Hix Hsub]. constructor; cbn [m_cas m_graph].
  - eapply Forall_mid; [| |exact Hthr].
    + intro x. apply thread_ok_mono. intro k. apply (get_put_mono gkey_eqb gkey_eqb_spec).
    + unfold thread_ok. rewrite Hpc'. cbn [m_cas]. rewrite (get_put_eq gkey_eqb gkey_eqb_spec). discriminate.
  - (* the new key is not indexed yet *)
    eapply graph_inv_ext; [|exact Hg]. intro k. unfold S_ix, S_mem.
    destruct (mem gkey_eqb k J) eqn:Em; auto.
    rewrite (get_put_neq gkey_eqb gkey_eqb_spec); auto.
    intro; subst k. apply (mem_In gkey_eqb gkey_eqb_spec) in Em. apply Hsub in Em. congruence.
  - intros k Hk. destruct (gdec k (gk d)) as [->|Hne].
    + right. exists t'. split; [apply in_elt | exists d; auto].
    + rewrite (get_put_neq gkey_eqb gkey_eqb_spec) in Hk by exact Hne.
      destruct (Hix k Hk) as [H|H]; [now left | right].
      destruct (ex_in_mid _ _ _ t' _ H) as [(d0 & E & _)|H']; [now apply Hn in E | exact H'].
  - intros k Hk. apply (get_put_mono gkey_eqb gkey_eqb_spec). now apply Hsub.
Qed.

(* graph.index of a stored key *)
Lemma mgraph_index s l1 t t' l2 J d c :
  get gkey_eqb (gk d) (m_cas s) = Some c -> t_pc t = MPush3 d -> t_pc t' = MIdle ->
  mgraph_inv s (l1 ++ t :: l2) J ->
  mgraph_inv (mkMem (m_cas s) (m_res s) (g_index d (succ_of (gk d) c) (m_graph s))) (l1 ++ t' :: l2) (gk d :: J).
Proof.
  intros Hpres Hpc Hpc' [Hthr Hg Hix Hsub]. constructor; cbn [m_cas m_graph].
  - eapply Forall_mid; [| |exact Hthr]; [auto|]. unfold thread_ok. now rewrite Hpc'.
  - eapply graph_inv_ext; [|apply g_index_inv; [exact Hg|]].
    + intro k. unfold upd, S_ix. cbn [mem existsb].
      destruct (gkey_eqb k (gk d)) eqn:Ek; cbn [orb]; auto.
      apply gkey_eqb_spec in Ek. subst k. unfold S_mem. now rewrite Hpres.
    + unfold S_ix. destruct (mem gkey_eqb (gk d) J); [right|now left].
      unfold S_mem. now rewrite Hpres.
  - intros k Hk. destruct (Hix k Hk) as [H|H]; [left; now right|].
    destruct (ex_in_mid _ _ _ t' _ H) as [(d0 & E & <-)|H']; [left; left | right; exact H']. congruence.
  - intros k [<-|Hk]; [congruence | auto].
Qed.

Lemma cinv_step progs cf i : cinv progs cf -> cinv progs (mconf_step cf i).
Proof.
  intros Hinv. unfold mconf_step.
  destruct (nth_error (c_threads cf) i) as [t|] eqn:En; [|exact Hinv].
  destruct (mthread_step (c_store cf) t) as [[[[s' t'] lg] ix]|] eqn:Es; [|exact Hinv].
  apply nth_error_split in En as (l1 & l2 & Hth & <-).
  destruct cf as [s ths L J]. cbn [c_store c_threads c_log c_indexed] in *. subst ths.
  rewrite upd_nth_split.
  destruct Hinv as [Hsched Hcas Hres Hgi]. cbn [c_store c_threads c_log c_indexed] in *.
  pose proof (Forall_elt _ _ _ (mg_threads _ _ _ Hgi)) as Hokt.
  assert (Hseq : m_cas s' = m_cas (seq_state (map snd (L ++ map (pair (length l1)) lg))) /\
                 m_res s' = m_res (seq_state (map snd (L ++ map (pair (length l1)) lg)))).
  { rewrite map_app, map_snd_pair.
    destruct (step_commit _ _ _ _ _ _ Hokt Es) as [(-> & A & B)|(o & -> & A & B)].
    - rewrite app_nil_r. split; congruence.
    - rewrite seq_state_snoc. destruct (mem_step_cas_res s (seq_state (map snd L)) o Hcas Hres) as (C & D & _).
      split; congruence. }
  constructor; cbn [c_store c_threads c_log c_indexed]; [|apply Hseq..|].
  - exact (sched_inv_step _ _ _ _ _ _ _ _ (step_remaining _ _ _ _ _ _ Es) Hsched).
  - destruct (step_kind _ _ _ _ _ _ Hokt Es) as
        [(Hc & Hgr & -> & Hok' & Hnot3)
        |[(d & c & Hpc & Habs & -> & Hpc' & ->)
         |(d & c & Hpc & Hpres & -> & Hpc' & ->)]]; cbn [app].
    + now apply (mgraph_quiet s _ _ t).
    + apply (mgraph_store _ _ t); auto. intros d' E. congruence.
    + now apply (mgraph_index _ _ t).
Qed.

Lemma cinv_run progs sched : forall cf, cinv progs cf -> cinv progs (mconf_run cf sched).
Proof.
  apply fold_left_invariant. intros cf i. apply cinv_step.
Qed.

Lemma thread_done_spec t : thread_done t = true -> t_pc t = MIdle /\ remaining t = [].
Proof.
  unfold thread_done, remaining. destruct (t_pc t); try discriminate.
  destruct (t_ops t); [auto|discriminate].
Qed.

(* Every interleaving of the atomic steps, run to quiescence, ends in the content map,
   the resolver and (as answers of Predecessors) the graph of a sequential execution of
   the same operations. *)
Theorem quiescent_serialisable_memory (progs : list (list op)) (sched : list nat) :
  let cf := mconf_run (mconf_init progs) sched in
  quiescent cf = true ->
  exists order : list (nat * op),
    Permutation (map snd order) (concat progs) /\
    (forall i, log_of i order = nth i progs []) /\
    let q := fst (run mem_step mem_init (map snd order)) in
    m_cas (c_store cf) = m_cas q /\ m_res (c_store cf) = m_res q /\
    forall n k, In k (map gk (g_predecessors n (m_graph (c_store cf)))) <->
                In k (map gk (g_predecessors n (m_graph q))).
Proof.
  intros cf Hq. pose proof (cinv_run progs sched _ (cinv_init progs)) as Hinv. fold cf in Hinv.
  destruct Hinv as [Hsched Hcas Hres [Hthr Hg Hix Hsub]].
  assert (Hdone : forall t, In t (c_threads cf) -> t_pc t = MIdle /\ remaining t = []).
  { intros t Ht. apply thread_done_spec. unfold quiescent in Hq. rewrite forallb_forall in Hq. auto. }
  destruct (sched_inv_done _ _ _ _ (fun t Ht => proj2 (Hdone t Ht)) Hsched) as [Hperm Hord].
  exists (c_log cf). split; [exact Hperm|]. split; [exact Hord|].
  cbn zeta. fold (seq_state (map snd (c_log cf))).
  (* every stored key is indexed by now *)
  assert (Hg1 : graph_inv (S_mem (m_cas (c_store cf))) (m_graph (c_store cf))).
  { eapply graph_inv_ext; [|exact Hg]. intro k0. unfold S_ix.
    destruct (mem gkey_eqb k0 (c_indexed cf)) eqn:Em; auto.
    unfold S_mem. destruct (get gkey_eqb k0 (m_cas (c_store cf))) eqn:E; auto. exfalso.
    assert (Hne : get gkey_eqb k0 (m_cas (c_store cf)) <> None) by congruence.
    destruct (Hix k0 Hne) as [H|(tw & Hin & dw & Hpc & _)].
    - apply (mem_In gkey_eqb gkey_eqb_spec) in H. congruence.
    - destruct (Hdone tw Hin). congruence. }
  pose proof (run_invariant_all mem_step mem_inv mem_step_inv (map snd (c_log cf)) mem_init mem_inv_init) as [_ Hg2].
  fold (seq_state (map snd (c_log cf))) in Hg2. rewrite <- Hcas in Hg2.
  split; [exact Hcas|]. split; [exact Hres|]. intros n k.
  rewrite (g_predecessors_spec _ _ _ _ Hg1). rewrite (g_predecessors_spec _ _ _ _ Hg2). tauto.
Qed.

(* non-vacuity: two goroutines racing on the same manifest and its layer, one schedule *)
Definition cx_man := mkDesc 1 1 10 0.
Definition cx_layer := mkDesc 6 2 5 0.
Definition cx_progs : list (list op) :=
  [ [Push cx_man (mkBlob 1 10 [(6, 2, 5)] 1 [(6, 2, 5)]); Tag cx_man (RName 1)];
    [Push cx_man (mkBlob 1 10 [(6, 2, 5)] 1 [(6, 2, 5)]); Push cx_layer (mkBlob 2 5 [] 2 []); Tag cx_man (RName 1)] ].
Definition cx_sched : list nat := [0; 1; 1; 0; 0; 1; 1; 1; 0; 0; 1; 1; 0; 1]%nat.

Lemma cx_quiescent : quiescent (mconf_run (mconf_init cx_progs) cx_sched) = true.
Proof. vm_compute. reflexivity. Qed.

(* At EVERY configuration reachable by any schedule (not only at quiescence) the content
   map holds verified bytes only: a Fetch taking its atomic step there returns bytes whose
   digest and size are those of the requested descriptor. *)
Theorem conc_fetch_matches_memory (progs : list (list op)) (sched : list nat) d hash len :
  snd (mem_step (c_store (mconf_run (mconf_init progs) sched)) (Fetch d)) = OBytes hash len ->
  hash = d_dig d /\ len = d_size d.
Proof.
  pose proof (cinv_run progs sched _ (cinv_init progs)) as Hinv.
  destruct (mem_step_cas_res _ _ (Fetch d) (ci_cas _ _ Hinv) (ci_res _ _ Hinv)) as (_ & _ & ->).
  apply mem_fetch_matches.
Qed.
