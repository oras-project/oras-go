(* C04: free-permit readings of the real semaphore (Model/CopyPermit.v). *)
From Oras Require Import Base.Prelude Model.CopySpec Model.CopyOpt Model.CopyCancel
  Model.CopyHold Model.CopyPermit Proofs.CopySpec Proofs.CopyOpt Proofs.CopyHold.
From Oras Require Model.CopyImpl Proofs.CopyImplBase Proofs.CopyImplInv.
Local Open Scope nat_scope.

Lemma prun_opt_events cs g c tr : forall st st' full,
  prun_opt cs g c st tr = Some (st', full) -> run_opt_h cs g c st (events_of tr) = Some (st', full).
Proof.
  induction tr as [|pe tr IH]; simpl; intros st st' full H; [exact H|].
  destruct pe as [e|f]; simpl in *.
  - destruct (step_opt_h cs g c st e) as [[s1 f1]|]; [|discriminate].
    destruct (prun_opt cs g c s1 tr) as [[s2 f2]|] eqn:E; [|discriminate].
    rewrite (IH _ _ _ E). exact H.
  - destruct (reading_ok g c st f); [|discriminate].
    destruct (prun_opt cs g c st tr) as [[s2 f2]|] eqn:E; [|discriminate].
    simpl in H. injection H as <- <-. apply IH. exact E.
Qed.

Lemma prun_opt_app cs g c tr1 : forall tr2 st st' full,
  prun_opt cs g c st (tr1 ++ tr2) = Some (st', full) ->
  exists st1 f1 f2, prun_opt cs g c st tr1 = Some (st1, f1) /\ prun_opt cs g c st1 tr2 = Some (st', f2).
Proof.
  induction tr1 as [|pe tr1 IH]; simpl; intros tr2 st st' full H.
  - exists st, [], full. split; [reflexivity|exact H].
  - destruct (pstep_opt cs g c st pe) as [[s1 f1]|]; [|discriminate].
    destruct (prun_opt cs g c s1 (tr1 ++ tr2)) as [[s2 f2]|] eqn:E; [|discriminate].
    destruct (IH _ _ _ _ E) as [st1 [g1 [g2 [A B]]]]. rewrite A.
    injection H as <- <-. exists st1, (f1 ++ g1), g2. split; [reflexivity|exact B].
Qed.

Lemma readings_bounded cs g c d0 tr1 f tr2 st full :
  paccepts_opt cs g c d0 (tr1 ++ PFree f :: tr2) = Some (st, full) ->
  exists st1 f1, paccepts_opt cs g c d0 tr1 = Some (st1, f1) /\
    (returned st1 = None ->
       holders g st1 + f <= c_K c /\ holders g st1 <= c_K c /\
       inflight_src g st1 + f <= c_K c /\ inflight_dst g st1 + f <= c_K c) /\
    (returned st1 <> None -> f = c_K c).
Proof.
  unfold paccepts_opt. intro H. apply prun_opt_app in H as [st1 [f1 [f2 [H1 H2]]]].
  exists st1, f1. split; [exact H1|].
  simpl in H2. unfold reading_ok in H2.
  destruct (returned st1) as [b|] eqn:R.
  - split; [discriminate|]. intros _.
    destruct (Nat.eqb f (c_K c)) eqn:E; [|discriminate]. now apply Nat.eqb_eq in E.
  - split; [|congruence]. intros _.
    destruct (Nat.leb (holders g st1 + f) (c_K c)) eqn:E; [|discriminate].
    apply Nat.leb_le in E.
    destruct (inflight_le_holders g st1) as [_ [A B]]. lia.
Qed.

Lemma run_opt_p_prun_opt cs g c tr : forall st,
  run_opt_p cs g c st tr = prun_opt cs g c st (map (decode c) tr).
Proof.
  induction tr as [|e tr IH]; simpl; intro st; [reflexivity|].
  unfold step_opt_p. destruct (pstep_opt cs g c st (decode c e)) as [[s1 f1]|]; [|reflexivity].
  rewrite IH. reflexivity.
Qed.

Lemma step_opt_p_other_modes cs g c st e : c_mode c <> MGraph ->
  step_opt_p cs g c st e = step_opt_h cs g c st e.
Proof.
  intro Hm. unfold step_opt_p, decode. destruct (c_mode c); try contradiction; reflexivity.
Qed.

Lemma cstep_opt_p_other_modes cs g c s ce : c_mode c <> MGraph ->
  cstep_opt_p cs g c s ce = cstep_opt_h cs g c s ce.
Proof.
  intro Hm. unfold cstep_opt_p, decode. destruct ce as [e|]; [|reflexivity].
  destruct (c_mode c); try contradiction; reflexivity.
Qed.

Lemma cstep_opt_p_event cs g c s e : (forall f, e <> TagB f) ->
  cstep_opt_p cs g c s (Ev e) = cstep_opt_h cs g c s (Ev e).
Proof.
  intro Hn. unfold cstep_opt_p, decode. destruct (c_mode c); try reflexivity.
  destruct e; try reflexivity. exfalso. eapply Hn. reflexivity.
Qed.

(* the token used for readings (TagB) is free: CopyGraph never calls dst.Tag *)
Lemma no_tag_in_copygraph g c d0 tr st n :
  accepts g c d0 tr = Some st -> c_mode c = MGraph -> ~ In (TagB n) tr.
Proof.
  intros Ha Hm Hin. apply in_split in Hin as [t1 [t2 ->]].
  apply accepts_mid in Ha as (s1 & s2 & _ & I1 & E & _).
  destruct (step_no_tag g c d0 s1 _ s2 Hm I1 E) as [NB _]. now apply (NB n).
Qed.

Section Proto.
Variable succ : nat -> list nat.
Variable K : nat.
Variable ext : bool.
Variable roots : list nat.

Definition must_holders (s : CopyImpl.state) : nat :=
  CopyImpl.count_upto (fun t => CopyImplBase.must_hold (CopyImpl.t_pc (CopyImpl.tasks s t))) (CopyImpl.ntasks s).

Lemma free_permits_cover_must_hold s : CopyImplBase.Reachable succ K ext roots s ->
  CopyImpl.free s + must_holders s <= K.
Proof.
  intro Hr. destruct (CopyImplInv.inv1_reach succ K ext roots s Hr) as [_ Hperm Hmust _].
  assert (must_holders s <= CopyImpl.holders s).
  { unfold must_holders, CopyImpl.holders. apply CopyImplBase.count_upto_le. intros i Hi. apply Hmust. exact Hi. }
  lia.
Qed.
End Proto.

(* K = 2, manifest 2 -> blobs 0, 1 (the graph of the overlay's example), with readings: 1 free while the
   manifest is probed, 0 free while both blobs are in their copy; a reading of 1 there is rejected *)
Definition ptr_ok : list pev :=
  [PEv (ExB 2); PFree 1; PEv (ExE 2 false); PEv (SFB 2); PEv (SFE 2); PEv (SFC 2); PFree 2;
   PEv (ExB 0); PFree 1; PEv (ExB 1); PFree 0; PEv (ExE 0 false); PEv (ExE 1 false); PFree 0;
   PEv (Cb CPre 0); PEv (SFB 0); PEv (SFE 0); PEv (PuB 0 false); PEv (PuE 0 false POk); PEv (SFC 0);
   PEv (Cb CPost 0); PFree 1;
   PEv (Cb CPre 1); PEv (SFB 1); PEv (SFE 1); PEv (PuB 1 false); PEv (PuE 1 false POk); PEv (SFC 1);
   PEv (Cb CPost 1); PEv (Cb CPre 2); PEv (PuB 2 false); PEv (PuE 2 false POk); PEv (Cb CPost 2);
   PEv (Ret true); PFree 2].
Definition ptr_leak : list pev := removelast ptr_ok ++ [PFree 1].
Definition ptr_bad : list pev :=
  [PEv (ExB 2); PFree 1; PEv (ExE 2 false); PEv (SFB 2); PEv (SFE 2); PEv (SFC 2);
   PEv (ExB 0); PEv (ExB 1); PFree 1].
Definition c_perm : cfg := mkCfg 2 MGraph 2 false true [] [].

