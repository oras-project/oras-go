(* The bytes saveFile writes do not depend on Go's map iteration order: the
   writer sorts the keys (Model/JsonDoc.v sort_keys). *)
From Coq Require Import Permutation Sorting.Sorted Lia.
From Oras Require Import Base.Prelude Model.CredFile Model.JsonDoc.

Lemma str_ltb_irrefl x : str_ltb x x = false.
Proof. induction x as [|c x IH]; [reflexivity|]. cbn. rewrite N.ltb_irrefl. exact IH. Qed.

Lemma str_ltb_trans x : forall y z, str_ltb x y = true -> str_ltb y z = true -> str_ltb x z = true.
Proof.
  induction x as [|c x IH]; intros [|d y] [|e z] H1 H2; cbn in *; try discriminate; try reflexivity.
  destruct (c <? d) eqn:E1.
  - apply N.ltb_lt in E1. destruct (d <? e) eqn:E2.
    + apply N.ltb_lt in E2. assert (E : c <? e = true) by (apply N.ltb_lt; lia). now rewrite E.
    + destruct (e <? d) eqn:E3; [discriminate|]. apply N.ltb_ge in E2. apply N.ltb_ge in E3.
      assert (d = e) by lia. subst. assert (E : c <? e = true) by (apply N.ltb_lt; lia). now rewrite E.
  - destruct (d <? c) eqn:E1'; [discriminate|]. apply N.ltb_ge in E1. apply N.ltb_ge in E1'.
    assert (c = d) by lia. subst d.
    destruct (c <? e) eqn:E2; [reflexivity|]. destruct (e <? c) eqn:E3; [discriminate|]. now apply (IH y z).
Qed.

Lemma str_ltb_total x : forall y, x <> y -> str_ltb x y = true \/ str_ltb y x = true.
Proof.
  induction x as [|c x IH]; intros [|d y] N; cbn.
  - congruence.
  - now left.
  - now right.
  - destruct (c <? d) eqn:E1; [now left|]. destruct (d <? c) eqn:E2; [now right|].
    apply N.ltb_ge in E1. apply N.ltb_ge in E2. assert (c = d) by lia. subst d.
    apply IH. congruence.
Qed.

Lemma str_ltb_asym x y : str_ltb x y = true -> str_ltb y x = false.
Proof.
  intro H. destruct (str_ltb y x) eqn:E; [|reflexivity].
  pose proof (str_ltb_trans _ _ _ H E) as T. rewrite str_ltb_irrefl in T. discriminate.
Qed.

Section SortProofs.
  Context {V : Type}.
  Implicit Types (l : list (str * V)).

  Definition klt (a b : str * V) : Prop := str_ltb (fst a) (fst b) = true.

  Lemma insert_perm kv l : Permutation (insert_key kv l) (kv :: l).
  Proof.
    induction l as [|h t IH]; cbn; [apply Permutation_refl|].
    destruct (str_ltb (fst kv) (fst h)); [apply Permutation_refl|].
    eapply perm_trans; [apply perm_skip, IH|apply perm_swap].
  Qed.

  Lemma sort_perm l : Permutation (sort_keys l) l.
  Proof.
    induction l as [|kv l IH]; [constructor|]. cbn.
    eapply perm_trans; [apply insert_perm|now apply perm_skip].
  Qed.

  Lemma insert_sorted kv l :
    StronglySorted klt l -> (forall x, In x l -> fst x <> fst kv) -> StronglySorted klt (insert_key kv l).
  Proof.
    induction 1 as [|h t ST IH ALL]; intro D; cbn.
    - repeat constructor.
    - destruct (str_ltb (fst kv) (fst h)) eqn:E.
      + constructor; [constructor; assumption|]. constructor; [exact E|].
        apply Forall_forall. intros x I. unfold klt.
        apply (str_ltb_trans _ _ _ E). exact (proj1 (Forall_forall _ _) ALL x I).
      + constructor; [apply IH; intros x I; apply D; now right|].
        apply Forall_forall. intros x I.
        apply (Permutation_in _ (insert_perm kv t)) in I. destruct I as [<-|I].
        * destruct (str_ltb_total (fst h) (fst kv)) as [L|L]; [apply D; now left|exact L|congruence].
        * exact (proj1 (Forall_forall _ _) ALL x I).
  Qed.

  Lemma sort_sorted l : NoDup (map fst l) -> StronglySorted klt (sort_keys l).
  Proof.
    induction l as [|kv l IH]; intro ND; [constructor|]. inversion ND as [|? ? NI ND']; subst. cbn.
    apply insert_sorted; [now apply IH|].
    intros x I E. apply NI. apply (Permutation_in _ (sort_perm l)) in I.
    rewrite <- E. now apply in_map.
  Qed.

  Lemma sorted_perm_eq l1 : forall l2,
    StronglySorted klt l1 -> StronglySorted klt l2 -> Permutation l1 l2 -> l1 = l2.
  Proof.
    induction l1 as [|a l1 IH]; intros l2 S1 S2 P.
    - apply Permutation_nil in P. now subst.
    - destruct l2 as [|b2 l2]; [apply Permutation_sym, Permutation_nil in P; discriminate|].
      inversion S1 as [|? ? S1' A1]; subst. inversion S2 as [|? ? S2' A2]; subst.
      assert (E : a = b2).
      { assert (Ia : In a (b2 :: l2)) by (eapply Permutation_in; [exact P|now left]).
        assert (Ib : In b2 (a :: l1)) by (eapply Permutation_in; [apply Permutation_sym; exact P|now left]).
        destruct Ia as [Ia|Ia]; [now symmetry|]. destruct Ib as [Ib|Ib]; [exact Ib|].
        pose proof (proj1 (Forall_forall _ _) A2 a Ia) as L1.
        pose proof (proj1 (Forall_forall _ _) A1 b2 Ib) as L2.
        unfold klt in *. rewrite (str_ltb_asym _ _ L1) in L2. discriminate. }
      subst b2. f_equal. apply IH; [assumption|assumption|]. now apply Permutation_cons_inv in P.
  Qed.

  Lemma sort_keys_perm l l' : NoDup (map fst l) -> Permutation l l' -> sort_keys l = sort_keys l'.
  Proof.
    intros ND P.
    assert (ND' : NoDup (map fst l')) by (eapply Permutation_NoDup; [apply Permutation_map; exact P|exact ND]).
    apply sorted_perm_eq; [now apply sort_sorted|now apply sort_sorted|].
    eapply perm_trans; [apply sort_perm|]. eapply perm_trans; [exact P|apply Permutation_sym, sort_perm].
  Qed.
End SortProofs.

Lemma render_file_order tops ents d d' :
  NoDup (map fst d) -> Permutation d d' -> render_file tops ents d = render_file tops ents d'.
Proof. intros ND P. unfold render_file, render_object. now rewrite (sort_keys_perm d d' ND P). Qed.

Lemma render_auths_order tops ents k l l' :
  NoDup (map fst l) -> Permutation l l' ->
  render_top tops ents (k, TAuths l) = render_top tops ents (k, TAuths l').
Proof. intros ND P. unfold render_top, render_object. cbn [snd]. now rewrite (sort_keys_perm l l' ND P). Qed.
