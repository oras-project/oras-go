(* Proofs/IndexLTS.v -- with saveIndex atomic w.r.t. the resolver snapshot, every
   interleaving of concurrent Push/Tag/Untag leaves index.json equal to the final resolver
   map at quiescence; with the snapshot outside the lock it does not. *)
From Coq Require Import List NArith Arith Bool Permutation.
Import ListNotations.
From Oras Require Import Base.Prelude Generated.GC07 Model.GraphMem Model.IndexLTS Proofs.GraphMem.
Local Open Scope nat_scope.

Definition pending (s : lstate) : bool := existsb (fun t => Nat.eqb (t_pc t) 2) (l_threads s).

Definition others {A} (l : list A) (i : nat) : list A := firstn i l ++ skipn (S i) l.

Lemma existsb_others {A} (P : A -> bool) : forall l i t,
  nth_error l i = Some t ->
  forall x, existsb P (set_nth i x l) = (P x || existsb P (others l i))%bool.
Proof.
  induction l as [|a l IH]; intros i t E x; destruct i; simpl in *; try discriminate; auto.
  unfold others in IH. rewrite (IH i t E x). destruct (P a); destruct (P x); reflexivity.
Qed.

Lemma set_nth_same {A} : forall (l : list A) i t, nth_error l i = Some t -> set_nth i t l = l.
Proof.
  induction l as [|a l IH]; intros i t E; destruct i; simpl in *; try discriminate.
  - now inversion E.
  - now rewrite (IH i t E).
Qed.

Definition Iv (s : lstate) : Prop := l_disk s = l_res s \/ pending s = true.

Lemma lstep_Iv s i s' : Iv s -> lstep true s i = Some s' -> Iv s'.
Proof.
  unfold lstep, Iv, pending. intros HI H.
  destruct (nth_error (l_threads s) i) as [t|] eqn:E; [|discriminate].
  rewrite <- (set_nth_same _ i t E), (existsb_others _ _ i t E) in HI.
  (* pc 0: nothing changes; pc 1: the resolver changes and thread i is pending from now on;
     pc 2: the file becomes the resolver *)
  destruct (t_pc t) as [|[|[|[|k]]]] eqn:Epc; try discriminate; inversion H; subst; clear H; simpl;
    rewrite ?(existsb_others _ _ i t E); simpl; auto.
Qed.

Lemma lrun_Iv trace : forall s s', Iv s -> lrun true s trace = Some s' -> Iv s'.
Proof.
  induction trace as [|i r IH]; intros s s' HI H; simpl in H.
  - inversion H; subst; auto.
  - destruct (lstep true s i) as [s1|] eqn:E; [|discriminate].
    apply (IH s1); auto. apply (lstep_Iv s i); auto.
Qed.

Lemma done_not_pending s : all_done s = true -> pending s = false.
Proof.
  unfold all_done, pending. induction (l_threads s) as [|t r IH]; simpl; auto.
  intro H. apply andb_true_iff in H. destruct H as [H1 H2].
  apply Nat.eqb_eq in H1. rewrite H1. simpl. auto.
Qed.

Lemma save_index_atomic_quiescent res acts trace s' :
  lrun true (linit res acts) trace = Some s' -> all_done s' = true ->
  l_disk s' = l_res s'.
Proof.
  intros H Hd.
  assert (Iv s') as HI by (apply (lrun_Iv trace (linit res acts)); [left; reflexivity | exact H]).
  destruct HI as [HI|HI]; auto.
  rewrite (done_not_pending s' Hd) in HI. discriminate.
Qed.

(* consequence for Predecessors: after any interleaving of concurrent Push/Tag/Untag that has
   run to completion, a store reopened from the index.json on disk answers like the live
   graph, provided the resolver names every live node with successors (Push tags every
   manifest by digest) and the storage holds the live graph's nodes. *)
Lemma concurrent_save_then_reload content sok fuel res acts trace s' g g' :
  lrun true (linit res acts) trace = Some s' -> all_done s' = true ->
  Inv content g ->
  (forall p, In p (g_nodes g) -> sok p = true) ->
  (forall p, sok p = true -> content p <> [] -> In p (g_nodes g)) ->
  (forall p, In p (g_nodes g) -> content p <> [] -> In p (l_res s')) ->
  load content sok fuel (l_disk s') = (g', true) ->
  forall n, Permutation (predecessors g' n) (predecessors g n).
Proof.
  intros H Hd HI Ha Hb Hc HL.
  rewrite (save_index_atomic_quiescent res acts trace s' H Hd) in HL.
  apply (reload_equiv content sok fuel (l_res s') g g'); auto.
Qed.

(* the same for the code as translated from the source *)
Lemma save_index_atomic_true : save_index_atomic = true.
Proof. vm_compute. auto. Qed.

Lemma save_index_quiescent_src res acts trace s' :
  lrun save_index_atomic (linit res acts) trace = Some s' -> all_done s' = true ->
  l_disk s' = l_res s'.
Proof. rewrite save_index_atomic_true. apply save_index_atomic_quiescent. Qed.

(* the recogniser rejects the narrowed critical section *)
Lemma atomic_calls_split_false :
  atomic_calls [b "s.tagResolver.Map"; b "s.indexLock.Lock"; b "s.indexLock.Unlock"; b "s.writeIndexFile"] = false /\
  atomic_calls [b "s.indexLock.Lock"; b "s.tagResolver.Map"; b "s.indexLock.Unlock"; b "s.writeIndexFile"] = false.
Proof. vm_compute. auto. Qed.
