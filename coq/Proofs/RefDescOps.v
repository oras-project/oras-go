(* C20: requests of the descriptor-driven operations (Model/RefOps.v desc_op_requests): exact slot
   in the base repository, and the query decodes to exactly the documented parameters. *)
From Oras Require Import Base.Prelude Model.NetURL Model.Reference Model.RefOps
  Proofs.Reference Proofs.RefOps Proofs.RefURL Proofs.NetURL.

Definition bytes (s : str) : Prop := Forall (fun c => (c < 256)%N) s.

Lemma esc_no x s : qsafe x = false -> bytes s -> contains x (query_escape s) = false.
Proof. intros Hx Hb. eapply qsafe_contains; [exact Hx | now apply query_escape_safe]. Qed.

Definition enc1 (kv : str * str) : str := query_escape (fst kv) ++ [61] ++ query_escape (snd kv).

Definition params_bytes (ps : list (str * str)) : Prop := Forall (fun kv => bytes (fst kv) /\ bytes (snd kv)) ps.

Lemma encs_no x ps :
  qsafe x = false -> (x =? 61) = false -> params_bytes ps -> Forall (fun y => contains x y = false) (map enc1 ps).
Proof.
  intros Hx H61 Hb. apply Forall_map. eapply Forall_impl; [|exact Hb]. intros kv [Hk Hv].
  unfold enc1. rewrite !contains_app, (esc_no x _ Hx Hk), (esc_no x _ Hx Hv).
  unfold contains. cbn [existsb]. rewrite (N.eqb_sym 61 x), H61. reflexivity.
Qed.

Lemma split_join_amp l :
  l <> [] -> Forall (fun x => contains 38 x = false) l -> split_on 38 (join_amp l) = l.
Proof.
  intros Hne F. induction F as [|x l Hx F IH]; [contradiction|].
  destruct l as [|y r]; [simpl; now apply split_on_none|].
  change (join_amp (x :: y :: r)) with (x ++ 38 :: join_amp (y :: r)).
  rewrite split_on_app, (split_on_none _ _ Hx), IH by discriminate. reflexivity.
Qed.

Lemma parse_params_enc ps : params_bytes ps -> parse_params (map enc1 ps) = Some ps.
Proof.
  induction 1 as [|[k v] ps [Hk Hv] F IH]; [reflexivity|]. cbn [fst snd] in Hk, Hv.
  cbn [map parse_params]. unfold enc1 at 1. cbn [fst snd app].
  rewrite (split_first_app 61 (query_escape k) (query_escape v) (esc_no 61 _ eq_refl Hk)).
  rewrite (query_escape_roundtrip k Hk), (query_escape_roundtrip v Hv), IH. reflexivity.
Qed.

Theorem parse_query_encode ps : ps <> [] -> params_bytes ps -> parse_query (encode_params ps) = Some ps.
Proof.
  intros Hne Hb. unfold parse_query, encode_params. fold enc1.
  change (map (fun kv => query_escape (fst kv) ++ [61] ++ query_escape (snd kv)) ps) with (map enc1 ps).
  rewrite split_join_amp.
  - now apply parse_params_enc.
  - destruct ps; [contradiction | discriminate].
  - now apply (encs_no 38).
Qed.

Lemma join_amp_no x l : (x =? 38) = false -> Forall (fun y => contains x y = false) l -> contains x (join_amp l) = false.
Proof.
  intros Hx F. induction F as [|y l Hy F IH]; [reflexivity|].
  destruct l as [|z r]; [exact Hy|].
  change (join_amp (y :: z :: r)) with (y ++ [38] ++ join_amp (z :: r)).
  rewrite !contains_app, Hy, IH. unfold contains. cbn [existsb]. rewrite (N.eqb_sym 38 x), Hx. reflexivity.
Qed.

Lemma encode_params_no_hash ps : params_bytes ps -> contains c_hash (encode_params ps) = false.
Proof.
  intro Hb. unfold encode_params. apply join_amp_no; [reflexivity|]. now apply (encs_no c_hash).
Qed.

Lemma query_unescape_plain s : contains c_pct s = false -> contains 43 s = false -> query_unescape s = Some s.
Proof.
  unfold contains. induction s as [|c s IH]; [reflexivity|]. simpl. intros A B.
  apply orb_false_iff in A as [A1 A2]. apply orb_false_iff in B as [B1 B2].
  rewrite A1, (IH A2 B2), B1. reflexivity.
Qed.

Definition desc_op_slot (op : descop) (d : str) : list str :=
  match op with
  | DMFetch | DMDelete => [b "manifests"; d]
  | DBFetch | DBDelete => [b "blobs"; d]
  | DReferrers => [b "referrers"; d]
  | DMount | DBPush => [b "blobs"; b "uploads"; []]
  | DTags => [b "tags"; b "list"]
  end.

Definition desc_op_params (op : descop) (d a1 num : str) : list (str * str) :=
  match op with
  | DReferrers => opt_param (b "artifactType") a1 ++ opt_param (b "n") num
  | DMount => [(b "mount", d); (b "from", a1)]
  | DTags => opt_param (b "n") num ++ opt_param (b "last") a1
  | _ => []
  end.

Definition desc_op_method (op : descop) : str :=
  match op with
  | DMFetch | DBFetch | DReferrers | DTags => m_get
  | DMDelete | DBDelete => m_delete
  | DMount | DBPush => m_post
  end.

Lemma opt_param_bytes k v : bytes k -> bytes v -> params_bytes (opt_param k v).
Proof.
  intros Hk Hv. unfold opt_param, params_bytes. destruct v; [constructor|].
  constructor; [split; assumption | constructor].
Qed.

Definition desc_op_query (op : descop) (d a1 num : str) : option str :=
  match op with
  | DMount => Some (b "mount=" ++ d ++ b "&from=" ++ a1)
  | _ => match desc_op_params op d a1 num with [] => None | ps => Some (encode_params ps) end
  end.

Lemma desc_op_requests_shape op plain breg brepo d a1 num :
  desc_op_requests op plain (mkRef breg brepo []) d a1 num =
  [(desc_op_method op,
    scheme plain ++ b "://" ++ host_of breg ++ (c_slash :: b "v2/" ++ brepo ++ tail_of (desc_op_slot op d)) ++
    match desc_op_query op d a1 num with Some q => c_qm :: q | None => [] end)].
Proof.
  unfold desc_op_requests, desc_op_query, with_query, url_manifest, url_blob, url_referrers, url_taglist,
    url_upload, url_repo_base.
  destruct op; cbn [desc_op_slot desc_op_method desc_op_params tail_of flat_map r_registry r_repository r_reference];
    try match goal with |- context [match ?ps with [] => _ | _ => _ end] => destruct ps end;
    cbn [app]; rewrite ?app_nil_r; repeat rewrite <- app_assoc; reflexivity.
Qed.

Lemma encoded_query ps :
  params_bytes ps ->
  match (match ps with [] => None | p :: l => Some (encode_params (p :: l)) end) with
  | Some q => contains c_hash q = false /\ ps <> [] /\ parse_query q = Some ps
  | None => ps = []
  end.
Proof.
  intro Hb. destruct ps as [|p ps]; [reflexivity|].
  split; [now apply encode_params_no_hash|]. split; [discriminate | now apply parse_query_encode].
Qed.

Section DescOps.
  Variable avail : str -> bool.
  Variable vr : str -> bool.
  Hypothesis vr_clean : forall reg, vr reg = true -> reg_clean reg = true.

  (* one request, of the documented method, to exactly
       <scheme>://<host of the base registry>/v2/<base repository>/<slot of the operation>
     without fragment; without query when the operation documents no parameter, otherwise with a
     query that url.ParseQuery decodes to exactly the documented parameters -- whatever bytes the
     caller passes as artifact type or last tag *)
  Theorem desc_op_requests_exact op plain breg brepo d a1 num :
    vr breg = true -> valid_repository brepo = true -> valid_digest avail d = true ->
    bytes a1 -> bytes num -> (op = DMount -> valid_repository a1 = true) ->
    exists u q,
      desc_op_requests op plain (mkRef breg brepo []) d a1 num = [(desc_op_method op, u)] /\
      url_split u = Some (mkParts (scheme plain) (host_of breg) (path_of brepo (desc_op_slot op d)) q None) /\
      split_on c_slash (path_of brepo (desc_op_slot op d)) = [[]; b "v2"] ++ split_on c_slash brepo ++ desc_op_slot op d /\
      contains c_at (host_of breg) = false /\
      match desc_op_params op d a1 num with
      | [] => q = None
      | ps => exists qs, q = Some qs /\ parse_query qs = Some ps
      end.
  Proof.
    intros Hreg Hrepo Hd Ha Hn Hm.
    pose proof (vr_clean _ Hreg) as Hc. pose proof (repo_qf_free _ Hrepo) as Hq.
    assert (Hsegs : Forall seg_ok (desc_op_slot op d)).
    { pose proof (seg_clean_ok _ (digest_seg_clean avail d Hd)) as Hds.
      destruct op; simpl; repeat (constructor; try exact Hds); repeat split; reflexivity. }
    assert (Q : match desc_op_query op d a1 num with
                | Some q => contains c_hash q = false /\ desc_op_params op d a1 num <> [] /\
                            parse_query q = Some (desc_op_params op d a1 num)
                | None => desc_op_params op d a1 num = []
                end).
    { destruct op; try reflexivity.
      - refine (encoded_query (desc_op_params DReferrers d a1 num) _).
        apply Forall_app. split; apply opt_param_bytes; auto; repeat constructor.
      - pose proof (proj1 (Forall_forall _ _) (mount_values_plain avail d a1 Hd (Hm eq_refl))) as M.
        destruct (M 38) as [A1 B1]; [simpl; auto|]. destruct (M c_hash) as [A3 B3]; [simpl; auto|].
        destruct (M c_pct) as [A4 B4]; [simpl; auto|]. destruct (M 43) as [A5 B5]; [simpl; auto 6|].
        cbn [desc_op_query desc_op_params].
        split; [rewrite !contains_app, A3, B3; reflexivity|]. split; [discriminate|].
        unfold parse_query.
        change (b "mount=" ++ d ++ b "&from=" ++ a1) with ((b "mount=" ++ d) ++ 38 :: (b "from=" ++ a1)).
        rewrite split_on_app.
        rewrite (split_on_none 38 (b "mount=" ++ d)) by (rewrite contains_app, A1; reflexivity).
        rewrite (split_on_none 38 (b "from=" ++ a1)) by (rewrite contains_app, B1; reflexivity).
        change ([b "mount=" ++ d] ++ [b "from=" ++ a1]) with [b "mount" ++ 61 :: d; b "from" ++ 61 :: a1].
        cbn [parse_params].
        rewrite (split_first_app 61 (b "mount") d eq_refl), (split_first_app 61 (b "from") a1 eq_refl).
        rewrite (query_unescape_plain d A4 A5), (query_unescape_plain a1 B4 B5). reflexivity.
      - refine (encoded_query (desc_op_params DTags d a1 num) _).
        apply Forall_app. split; apply opt_param_bytes; auto; repeat constructor. }
    rewrite desc_op_requests_shape. eexists. exists (desc_op_query op d a1 num). split; [reflexivity|].
    split; [|split; [|split; [now apply host_of_clean|]]].
    - apply (url_split_rooted plain breg _ _ Hc (path_free brepo _ Hq Hsegs)).
      destruct (desc_op_query op d a1 num); [apply Q | exact I].
    - exact (proj2 (url_split_general plain breg brepo _ Hc Hq Hsegs)).
    - destruct (desc_op_query op d a1 num) as [q|]; [|now rewrite Q].
      destruct Q as (_ & Ne & Pq). destruct (desc_op_params op d a1 num); [contradiction | eauto].
  Qed.
End DescOps.

Inductive call :=
| CRef (op : refop) (s d : str)
| CDesc (op : descop) (d a1 num : str).

Section Sessions.
  Variable avail : str -> bool.
  Variable vr : str -> bool.
  Hypothesis vr_clean : forall reg, vr reg = true -> reg_clean reg = true.
  Variable plain : bool.
  Variables breg brepo : str.

  Definition call_requests (c : call) : list (str * str) :=
    match c with
    | CRef op s d => match op_requests avail vr op plain breg brepo s d with Some l => l | None => [] end
    | CDesc op d a1 num => desc_op_requests op plain (mkRef breg brepo []) d a1 num
    end.
  Definition session_requests (cs : list call) : list (str * str) := flat_map call_requests cs.

  (* what the caller must respect: descriptors carry valid digests, strings are byte strings, a
     mount names a valid source repository; reference strings are arbitrary *)
  Definition call_ok (c : call) : Prop :=
    match c with
    | CRef _ _ d => valid_digest avail d = true
    | CDesc op d a1 num => valid_digest avail d = true /\ bytes a1 /\ bytes num /\ (op = DMount -> valid_repository a1 = true)
    end.

  (* the request goes to the base registry (authority exactly its host, no user-info), its path is
     /v2/<base repository>/<segments> and it has no fragment *)
  Definition in_base_slot (u : str) : Prop :=
    exists segs q,
      url_split u = Some (mkParts (scheme plain) (host_of breg) (path_of brepo segs) q None) /\
      split_on c_slash (path_of brepo segs) = [[]; b "v2"] ++ split_on c_slash brepo ++ segs /\
      contains c_at (host_of breg) = false.

  Hypothesis Hbreg : vr breg = true.
  Hypothesis Hbrepo : valid_repository brepo = true.

  Lemma call_in_base c : call_ok c -> Forall (fun mu => in_base_slot (snd mu)) (call_requests c).
  Proof.
    destruct c as [op s d | op d a1 num]; simpl.
    - intro Hd. destruct (op_requests avail vr op plain breg brepo s d) as [l|] eqn:E; [|constructor].
      pose proof (clean_ok_registry vr breg vr_clean Hbreg) as Hok.
      destruct (op_requests_exact_paths avail vr op plain breg brepo s d l vr_clean Hok Hbrepo Hd E) as (r & _ & F).
      eapply Forall_impl; [|exact F]. intros mu (seg & x & _ & _ & (U & S & A & _)).
      exists [seg; x], None. cbn [r_registry r_repository r_reference] in U, S, A.
      rewrite (path_of_two brepo seg x). auto.
    - intros (Hd & Ha & Hn & Hm).
      destruct (desc_op_requests_exact avail vr vr_clean op plain breg brepo d a1 num Hbreg Hbrepo Hd Ha Hn Hm)
        as (u & q & -> & U & S & A & _).
      constructor; [|constructor]. exists (desc_op_slot op d), q. auto.
  Qed.

  Theorem session_in_base cs :
    Forall call_ok cs -> Forall (fun mu => in_base_slot (snd mu)) (session_requests cs).
  Proof.
    induction 1 as [|c cs Hc F IH]; [constructor|].
    unfold session_requests. simpl. apply Forall_app. split; [now apply call_in_base | exact IH].
  Qed.

  Lemma manifest_url_in_base s r :
    repo_parse avail vr breg brepo s = Some r -> in_base_slot (url_manifest plain r).
  Proof.
    intro H. destruct (repo_parse_result_in_base avail vr breg brepo s r H) as (Hreg & Hrepo & Hne & Hv).
    pose proof (clean_ok_registry vr breg vr_clean Hbreg) as Hok.
    assert (W : wf_ref avail vr r).
    { unfold wf_ref. rewrite Hreg, Hrepo. split; [exact Hok|]. split; [exact Hbrepo | now right]. }
    destruct (url_exact avail vr plain r vr_clean W Hne) as ((U & S & A & _) & _ & _).
    rewrite Hreg, ?Hrepo in U. rewrite ?Hreg, ?Hrepo in S. rewrite ?Hreg in A.
    exists [b "manifests"; r_reference r], None. rewrite (path_of_two brepo (b "manifests") (r_reference r)). auto.
  Qed.

  (* whatever source and destinations are passed to oras.Tag / oras.TagN on a Repository with a
     valid base, and whatever the registry serves, every request stays in the base repository *)
  Theorem oras_tag_in_base src dsts served :
    Forall (fun mu => in_base_slot (snd mu)) (oras_tag_requests avail vr plain breg brepo src dsts served).
  Proof.
    unfold oras_tag_requests. destruct dsts as [|d0 dr]; [constructor|].
    destruct (repo_parse avail vr breg brepo src) as [r|] eqn:E; [|constructor].
    constructor; [now apply (manifest_url_in_base src)|].
    destruct (fetch_ok avail r served); [|constructor].
    generalize (d0 :: dr). intro l. induction l as [|dst l IH]; simpl; [constructor|].
    destruct (repo_parse avail vr breg brepo dst) as [r2|] eqn:E2; [|constructor].
    constructor; [now apply (manifest_url_in_base dst) | exact IH].
  Qed.

  Theorem oras_tag_forms_agree t dg d2 served :
    valid_tag t = true -> valid_digest avail dg = true -> valid_tag d2 = true ->
    oras_tag_requests avail vr plain breg brepo (t ++ [c_at] ++ dg) [breg ++ [c_slash] ++ brepo ++ [c_colon] ++ d2] served
    = oras_tag_requests avail vr plain breg brepo dg [d2] served.
  Proof.
    intros Ht Hd H2.
    pose proof (clean_ok_registry vr breg vr_clean Hbreg) as Hok.
    unfold oras_tag_requests, put_until_refused.
    rewrite (repo_parse_tag_at_digest avail vr breg brepo t dg (tag_no_slash _ Ht) (tag_no_at _ Ht) Hd).
    rewrite (repo_parse_digest avail vr breg brepo dg Hd).
    rewrite (repo_parse_full_tag avail vr breg brepo Hok Hbrepo d2 H2).
    rewrite (repo_parse_tag avail vr breg brepo d2 H2). reflexivity.
  Qed.
End Sessions.

(* constructors: every Repository value the library hands out has a valid base *)
Section Constructors.
  Variable avail : str -> bool.
  Variable vr : str -> bool.

  (* remote.NewRepository(s) *)
  Theorem new_repository_base_ok s base :
    new_repository avail vr s = Some base ->
    vr (r_registry base) = true /\ valid_repository (r_repository base) = true.
  Proof.
    unfold new_repository. intro H. destruct (parse_wf avail vr s base H) as ([Hr _] & Hp & _). auto.
  Qed.

  (* remote.NewRegistry(name) followed by Registry.Repository(ctx, sub) *)
  Theorem registry_repository_base_ok name sub reg base :
    new_registry vr name = Some reg -> registry_repository reg sub = Some base ->
    base = mkRef name sub [] /\ vr name = true /\ valid_repository sub = true.
  Proof.
    unfold new_registry, registry_repository. destruct (vr name) eqn:V; [|discriminate].
    intro H. injection H as <-. destruct (valid_repository sub) eqn:P; [|discriminate].
    intro H. injection H as <-. auto.
  Qed.
End Constructors.

Definition reg_op_path (op : regop) : str := match op with RPing => b "/v2/" | RCatalog => b "/v2/_catalog" end.
Definition reg_op_params (op : regop) (a1 num : str) : list (str * str) :=
  match op with RPing => [] | RCatalog => opt_param (b "n") num ++ opt_param (b "last") a1 end.

(* Ping and Repositories: one GET to exactly /v2/ resp. /v2/_catalog of the registry's host, no
   user-info, no fragment, query = exactly the documented parameters *)
Theorem reg_op_requests_exact (vr : str -> bool) op plain reg a1 num :
  (forall r, vr r = true -> reg_clean r = true) -> vr reg = true -> bytes a1 -> bytes num ->
  exists u q,
    reg_op_requests op plain reg a1 num = [(m_get, u)] /\
    url_split u = Some (mkParts (scheme plain) (host_of reg) (reg_op_path op) q None) /\
    contains c_at (host_of reg) = false /\
    match reg_op_params op a1 num with
    | [] => q = None
    | ps => exists qs, q = Some qs /\ parse_query qs = Some ps
    end.
Proof.
  intros Hvr Hreg Ha Hn. pose proof (Hvr _ Hreg) as Hc.
  assert (Hb : params_bytes (reg_op_params op a1 num)).
  { destruct op; [constructor|]. apply Forall_app. split; apply opt_param_bytes; auto; repeat constructor. }
  pose proof (encoded_query _ Hb) as Q.
  set (q := match reg_op_params op a1 num with [] => None | p :: l => Some (encode_params (p :: l)) end) in *.
  exists (scheme plain ++ b "://" ++ host_of reg ++ reg_op_path op ++ match q with Some qs => c_qm :: qs | None => [] end), q.
  split; [|split; [|split; [now apply host_of_clean|]]].
  - subst q. unfold reg_op_requests, with_query, url_base, url_catalog. cbn [r_registry].
    destruct op; cbn [reg_op_params reg_op_path]; [|destruct (_ ++ _)]; rewrite ?app_nil_r, <- ?app_assoc; reflexivity.
  - assert (Fp : free [c_qm; c_hash] (reg_op_path op)) by (destruct op; vm_compute; repeat constructor).
    destruct op; refine (url_split_rooted plain reg _ q Hc Fp _); (destruct q; [apply Q | exact I]).
  - destruct q as [qs|]; [|now rewrite Q]. destruct Q as (_ & Ne & Pq).
    destruct (reg_op_params op a1 num); [contradiction | eauto].
Qed.
