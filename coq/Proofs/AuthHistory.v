(* C16 -- over a whole history: the password (a Basic header) reaches registry h
   only after h sent a Basic challenge earlier in the history. *)
From Oras Require Import Base.Prelude Model.Scopes Model.Challenge Model.AuthClient Model.AuthConc Proofs.AuthClient.

Section WithParse.
Variable parse : str -> scheme * params.

Definition basic_inv (f : flavour) (past : list event) (c : cc) : Prop :=
  forall h, cache_get_scheme f c h = Some SchBasic -> basic_challenged parse h past.

Lemma bc_mono h l l' : basic_challenged parse h l -> basic_challenged parse h (l ++ l').
Proof.
  intros (a & fr & hdr & ps & Hin & P). exists a, fr, hdr, ps. split; auto. apply in_or_app. now left.
Qed.

Lemma bc_mono_l h l l' : basic_challenged parse h l' -> basic_challenged parse h (l ++ l').
Proof.
  intros (a & fr & hdr & ps & Hin & P). exists a, fr, hdr, ps. split; auto. apply in_or_app. now right.
Qed.

Lemma basic_inv_keep f past c evs : basic_inv f past c -> basic_inv f (past ++ evs) c.
Proof. intros H h E. apply bc_mono. auto. Qed.

Lemma basic_inv_store f past c evs h s k v :
  basic_inv f past c -> (s = SchBasic -> basic_challenged parse h (past ++ evs)) ->
  basic_inv f (past ++ evs) (cache_store f c h s k v).
Proof.
  intros H B h' E. rewrite cache_scheme_store in E. destruct f; [discriminate| |];
    (destruct (h' =? h) eqn:Eh; [apply N.eqb_eq in Eh; injection E as ->; subst; auto | apply bc_mono, H; exact E]).
Qed.

Lemma cached_basic_scheme f c h k t :
  cache_get_token f c h SchBasic k = Some t -> cache_get_scheme f c h = Some SchBasic.
Proof.
  assert (H : forall k, cc_get_token c h SchBasic k = Some t -> cc_get_scheme c h = Some SchBasic).
  { unfold cc_get_token, cc_get_scheme. intro k'. destruct (cc_entry c h) as [[[| |] ts]|]; now try discriminate. }
  destruct f; simpl; [discriminate | apply H |].
  destruct (cc_get_token c h SchBasic k) eqn:E; [intros [= ->]|]; eauto.
Qed.

Lemma call_run_basic_store clean cf rq a1 otok2 evs op r :
  call_run parse clean cf rq a1 otok2 evs op r ->
  forall k v, op = Some (SchBasic, k, v) -> basic_challenged parse (rq_host rq) evs.
Proof.
  intros [? ? E|hdr ps P|hdr ps ? P B|hdr ps tok ? ? P B F|hdr ps ? ? ? ? P _ F
         |hdr ps P Rw|hdr ps tok2 ? ? P T E|hdr ps tok2 hdr2 ? ? ? ? P T _ F] k v Eo;
    try discriminate; try (destruct F; discriminate).
  exists a1, false, hdr, ps. split; [now left | exact P].
Qed.

(* one call: a re-used Basic token was in the cache, so its host was challenged in
   the past; a fresh one follows a Basic challenge of this call; and Basic becomes a
   host's scheme only after a Basic challenge of this call *)
Lemma do_request_basic clean cf c rq script past :
  cache_ok c -> basic_inv (cf_flavour cf) past c ->
  let '(evs, c', r) := do_request clean parse cf c rq script in
  cache_ok c' /\ basic_inv (cf_flavour cf) (past ++ evs) c' /\
  forall pre h t fr ans post, evs = pre ++ (SReg h (ABasic t) fr, ans) :: post ->
    basic_challenged parse h (past ++ pre).
Proof.
  intros H I.
  pose proof (do_request_ok parse clean cf c rq script H) as D.
  pose proof (do_request_cached_sends parse clean cf c rq script) as K.
  pose proof (do_request_run parse clean cf rq c script) as R.
  destruct (do_request clean parse cf c rq script) as [[evs c'] r].
  destruct D as [H' T]. destruct R as (op & -> & R).
  split; [exact H'|]. split.
  - destruct op as [[[s k] v]|]; [|now apply basic_inv_keep].
    apply basic_inv_store; [exact I|]. intros ->.
    apply bc_mono_l, (call_run_basic_store _ _ _ _ _ _ _ _ R _ _ eq_refl).
  - intros pre h t fr ans post E.
    destruct (trace_ok_of_from parse _ _ T _ _ _ E) as (-> & _ & Fr). destruct fr.
    + apply bc_mono_l, Fr. reflexivity.
    + apply bc_mono, I. rewrite Forall_forall in K.
      destruct (K (SReg (rq_host rq) (ABasic t) false, ans)) as [_ K1]; [subst evs; apply in_elt|].
      exact (cached_basic_scheme _ _ _ _ _ K1).
Qed.

Lemma run_history_basic clean cf : forall hist c past,
  cache_ok c -> basic_inv (cf_flavour cf) past c ->
  forall pre h t fr ans post,
    concat (map fst (fst (run_history clean parse cf c hist))) = pre ++ (SReg h (ABasic t) fr, ans) :: post ->
    basic_challenged parse h (past ++ pre).
Proof.
  induction hist as [|[rq script] hist IH]; intros c past Hc Hinv pre h t fr ans post E; simpl in E.
  - destruct pre; discriminate.
  - pose proof (do_request_basic clean cf c rq script past Hc Hinv) as D.
    destruct (do_request clean parse cf c rq script) as [[evs c'] r]. destruct D as (Hc' & Hinv' & Htr).
    specialize (IH c' (past ++ evs) Hc' Hinv').
    destruct (run_history clean parse cf c' hist) as [rest c'']. simpl in *.
    symmetry in E. apply app_eq_app in E as (l & [[E1 E2]|[E1 E2]]).
    + (* the send is in a later request *)
      subst pre. rewrite app_assoc. eapply IH. exact E2.
    + (* the send is in this request, or the first of the later ones *)
      destruct l as [|x l].
      * simpl in E2. rewrite app_nil_r in E1. subst evs.
        specialize (IH [] h t fr ans post (eq_sym E2)). now rewrite app_nil_r in IH.
      * simpl in E2. injection E2 as <- E2. exact (Htr pre h t fr ans l E1).
Qed.

Lemma basic_inv_nil f past : basic_inv f past [].
Proof. intros h E. destruct f; discriminate. Qed.

Lemma history_basic_only_after_challenge clean cf hist pre h t fr ans post :
  concat (map fst (fst (run_history clean parse cf [] hist))) = pre ++ (SReg h (ABasic t) fr, ans) :: post ->
  basic_challenged parse h pre.
Proof.
  intro E. exact (run_history_basic clean cf hist [] [] cache_ok_nil (basic_inv_nil _ _) pre h t fr ans post E).
Qed.

End WithParse.
