(* About Model/OciIndex.v.  The store invariant [Inv] (resolver map, graph and blob files agree)
   and [Synced] (index.json is a projection of the resolver map, whatever the iteration orders
   of saveIndex) hold after every history ([run_good_from], [run_good]); under them the store
   reopened from its directory is observationally equal to the running one and every index.json
   entry points to an existing blob ([reopen_equiv]); what GC keeps and drops, as one operation
   ([gc_effect]). *)
From Coq Require Import List Arith Bool PeanoNat Permutation.
From Oras Require Import Model.OciIndex.
Import ListNotations.

Lemma ref_eqb_eq a b : ref_eqb a b = true <-> a = b.
Proof.
  destruct a, b; simpl; split; intro H; try discriminate; try congruence;
    try (apply Nat.eqb_eq in H; congruence); try (injection H as ->; apply Nat.eqb_refl).
Qed.
Lemma ref_eqb_refl r : ref_eqb r r = true.
Proof. now apply ref_eqb_eq. Qed.
Lemma ref_eqb_neq a b : ref_eqb a b = false <-> a <> b.
Proof.
  split; intro H.
  - intro E. apply ref_eqb_eq in E. congruence.
  - destruct (ref_eqb a b) eqn:E; auto. apply ref_eqb_eq in E. contradiction.
Qed.
Lemma ref_eqb_sym a b : ref_eqb a b = ref_eqb b a.
Proof.
  destruct (ref_eqb a b) eqn:E.
  - apply ref_eqb_eq in E. subst. now rewrite ref_eqb_refl.
  - symmetry. apply ref_eqb_neq. apply ref_eqb_neq in E. congruence.
Qed.

Lemma mem_In n l : mem n l = true <-> In n l.
Proof.
  unfold mem. rewrite existsb_exists. split.
  - intros (x & Hx & E). apply Nat.eqb_eq in E. now subst.
  - intro H. exists n. split; auto. apply Nat.eqb_refl.
Qed.
Lemma mem_false n l : mem n l = false <-> ~ In n l.
Proof.
  split; intro H.
  - intro I. apply mem_In in I. congruence.
  - destruct (mem n l) eqn:E; auto. apply mem_In in E. contradiction.
Qed.
Lemma mem_iff_eq x a b : (In x a <-> In x b) -> mem x a = mem x b.
Proof.
  intro H. destruct (mem x a) eqn:A; destruct (mem x b) eqn:B; auto.
  - apply mem_In in A. apply H in A. apply mem_In in A. congruence.
  - apply mem_In in B. apply H in B. apply mem_In in B. congruence.
Qed.
Lemma In_add x n l : In x (add n l) <-> x = n \/ In x l.
Proof.
  unfold add. destruct (mem n l) eqn:E; simpl.
  - apply mem_In in E. split; [auto|]. intros [->|H]; auto.
  - split; intros [H|H]; auto.
Qed.
Lemma In_del x n l : In x (del n l) <-> x <> n /\ In x l.
Proof.
  unfold del. rewrite filter_In. split.
  - intros [H E]. split; auto. intro; subst. rewrite Nat.eqb_refl in E. discriminate.
  - intros [H I]. split; auto. destruct (Nat.eqb n x) eqn:E; auto. apply Nat.eqb_eq in E. congruence.
Qed.

Lemma lookup_runset r r' m : lookup r' (runset r m) = if ref_eqb r' r then None else lookup r' m.
Proof.
  induction m as [|[k v] m IH]; simpl; [now destruct (ref_eqb r' r)|].
  destruct (ref_eqb r k) eqn:E; simpl; rewrite IH.
  - apply ref_eqb_eq in E. subst k. now destruct (ref_eqb r' r).
  - destruct (ref_eqb r' k) eqn:E2; [|reflexivity]. apply ref_eqb_eq in E2. subst k.
    now rewrite ref_eqb_sym, E.
Qed.
Lemma lookup_rset r r' d m : lookup r' (rset r d m) = if ref_eqb r' r then Some d else lookup r' m.
Proof. unfold rset. simpl. rewrite lookup_runset. now destruct (ref_eqb r' r). Qed.
Lemma lookup_rset_eq r d m : lookup r (rset r d m) = Some d.
Proof. now rewrite lookup_rset, ref_eqb_refl. Qed.

Definition keys_le (m m' : rmap) : Prop := forall r, lookup r m <> None -> lookup r m' <> None.
Lemma rset_keeps r d m : keys_le m (rset r d m).
Proof. intros r' H. rewrite lookup_rset. destruct (ref_eqb r' r); congruence. Qed.

Lemma lookup_Some_In r d m : lookup r m = Some d -> In (r, d) m.
Proof.
  induction m as [|[k v] m IH]; simpl; [discriminate|].
  destruct (ref_eqb r k) eqn:E.
  - apply ref_eqb_eq in E. intros [= ->]. subst. auto.
  - auto.
Qed.
Lemma lookup_None_notin r m : lookup r m = None -> forall d, ~ In (r, d) m.
Proof.
  induction m as [|[k v] m IH]; simpl; intros H d; [tauto|].
  destruct (ref_eqb r k) eqn:E; [discriminate|].
  intros [X|X].
  - injection X as -> ->. rewrite ref_eqb_refl in E. discriminate.
  - eapply IH; eauto.
Qed.
Lemma In_lookup r d m : NoDup (map fst m) -> In (r, d) m -> lookup r m = Some d.
Proof.
  induction m as [|[k v] m IH]; simpl; intros ND H; [tauto|].
  inversion ND as [|? ? Hn ND']; subst.
  destruct H as [H|H].
  - injection H as -> ->. now rewrite ref_eqb_refl.
  - destruct (ref_eqb r k) eqn:E.
    + apply ref_eqb_eq in E. subst. exfalso. apply Hn. apply in_map_iff. exists (k, d). auto.
    + auto.
Qed.

Lemma nodup_filter_keys (f : ref * desc -> bool) m : NoDup (map fst m) -> NoDup (map fst (filter f m)).
Proof.
  induction m as [|[k v] m IH]; simpl; intro ND; auto.
  inversion ND as [|? ? Hn ND']; subst.
  destruct (f (k, v)); simpl; auto.
  constructor; auto. intro H. apply Hn. apply in_map_iff in H as ((k', v') & E & I).
  simpl in E. subst. apply filter_In in I as [I _]. apply in_map_iff. exists (k, v'). auto.
Qed.
Lemma nodup_runset r m : NoDup (map fst m) -> NoDup (map fst (runset r m)).
Proof. apply nodup_filter_keys. Qed.
Lemma notin_runset r m : ~ In r (map fst (runset r m)).
Proof.
  intro H. apply in_map_iff in H as ((k, v) & E & I). simpl in E. subst.
  apply filter_In in I as [_ I]. simpl in I. rewrite ref_eqb_refl in I. discriminate.
Qed.
Lemma nodup_rset r d m : NoDup (map fst m) -> NoDup (map fst (rset r d m)).
Proof.
  intro ND. unfold rset. simpl. constructor; [apply notin_runset | now apply nodup_runset].
Qed.

Lemma in_runset r m r' d' : In (r', d') (runset r m) -> In (r', d') m.
Proof. unfold runset. intro H. now apply filter_In in H as [H _]. Qed.
Lemma in_rset r d m r' d' : In (r', d') (rset r d m) -> (r' = r /\ d' = d) \/ In (r', d') m.
Proof. intros [H|H]; [injection H as <- <-; now left|right; now apply in_runset in H]. Qed.

Lemma remove_at_perm {A} (l : list A) : forall i x, nth_error l i = Some x -> Permutation (x :: remove_at i l) l.
Proof.
  induction l as [|y l IH]; intros [|i] x H; simpl in *; try discriminate.
  - injection H as ->. apply Permutation_refl.
  - apply IH in H. eapply perm_trans; [apply perm_swap|]. now constructor.
Qed.
Lemma shuffle_perm {A} cs : forall l : list A, Permutation (shuffle cs l) l.
Proof.
  induction cs as [|c cs IH]; intro l; simpl; [apply Permutation_refl|].
  destruct (nth_error l (c mod length l)) eqn:E; [|apply Permutation_refl].
  eapply perm_trans; [apply perm_skip, IH|]. now apply remove_at_perm.
Qed.
Lemma In_shuffle {A} cs (l : list A) x : In x (shuffle cs l) <-> In x l.
Proof.
  split; apply Permutation_in; [apply shuffle_perm | apply Permutation_sym, shuffle_perm].
Qed.

Lemma fold_left_inv {A B} (P : A -> Prop) (f : A -> B -> A) l :
  (forall a b, In b l -> P a -> P (f a b)) -> forall a, P a -> P (fold_left f l a).
Proof.
  induction l as [|b l IH]; intros Hf a Ha; simpl; auto.
  apply IH; [intros; apply Hf; auto; now right|apply Hf; auto; now left].
Qed.

Lemma fold_keys_le {A B} (ix : A -> rmap) (f : A -> B -> A) l :
  (forall a b, keys_le (ix a) (ix (f a b))) -> forall a, keys_le (ix a) (ix (fold_left f l a)).
Proof.
  intros Hf a r X. apply (fold_left_inv (fun a' => lookup r (ix a') <> None)); [|exact X].
  intros a' b _. apply Hf.
Qed.

Lemma fold_left_reach {A B} (P Q : A -> Prop) (f : A -> B -> A) l b :
  In b l -> (forall a b', In b' l -> P a -> P (f a b')) -> (forall a, P a -> Q (f a b)) ->
  (forall a b', Q a -> Q (f a b')) -> forall a, P a -> Q (fold_left f l a).
Proof.
  intros Hb HP Hq HQ. induction l as [|c l IH]; [destruct Hb|]. intros a Ha. simpl. destruct Hb as [->|Hb].
  - apply fold_left_inv; [intros; now apply HQ|]. now apply Hq.
  - apply IH; auto; [intros; apply HP; auto; now right|apply HP; auto; now left].
Qed.

(* the shape of the resolver map: a digest key names the node of its descriptor ([J2]); a tagged
   node also has its digest entry ([J1]: Store.tag registers both); keys are unique (a Go map) *)
Definition J2 (ix : rmap) := forall k d, lookup (RDig k) ix = Some d -> d_node d = k.
Definition J1 (ix : rmap) := forall t d, lookup (RTag t) ix = Some d -> lookup (RDig (d_node d)) ix <> None.
Record IxInv (ix : rmap) : Prop := {
  ix_nd : NoDup (map fst ix);
  ix_j2 : J2 ix;
  ix_j1 : J1 ix }.

(* index.json is a projection of the resolver map (independent of iteration order) *)
Record DiskOK (ents : list desc) (ix : rmap) : Prop := {
  dk1 : forall t d, lookup (RTag t) ix = Some d -> In (with_ref d (RTag t)) ents;
  dk2 : forall e r, In e ents -> d_refann e = Some r ->
        exists t d, r = RTag t /\ lookup (RTag t) ix = Some d /\ e = with_ref d (RTag t);
  dk3 : forall e, In e ents -> lookup (RDig (d_node e)) ix <> None;
  dk4 : forall k, lookup (RDig k) ix <> None -> exists e, In e ents /\ d_node e = k }.

Lemma digest_ref_inv r d : is_digest_ref r d = true <-> r = RDig (d_node d).
Proof. unfold is_digest_ref. apply ref_eqb_eq. Qed.

Lemma nondigest_is_tag ix r d :
  IxInv ix -> In (r, d) ix -> is_digest_ref r d = false -> exists t, r = RTag t.
Proof.
  intros I H E. destruct r as [t|k]; [eauto|].
  apply In_lookup in H; [|apply I]. apply (ix_j2 _ I) in H. subst k.
  unfold is_digest_ref in E. rewrite ref_eqb_refl in E. discriminate.
Qed.

Lemma in_pass1 e l : In e (save_pass1 l) <->
  exists r d, In (r, d) l /\ is_digest_ref r d = false /\ e = with_ref d r.
Proof.
  unfold save_pass1. rewrite in_flat_map. split.
  - intros ((r, d) & I & H). simpl in H. destruct (is_digest_ref r d) eqn:E; simpl in H; [tauto|].
    destruct H as [<-|[]]. eauto.
  - intros (r & d & I & E & ->). exists (r, d). split; auto. simpl. rewrite E. simpl. auto.
Qed.
Lemma in_pass2 e tg l : In e (save_pass2 tg l) <->
  exists r d, In (r, d) l /\ is_digest_ref r d = true /\ mem (d_node d) tg = false /\ e = strip d.
Proof.
  unfold save_pass2. rewrite in_flat_map. split.
  - intros ((r, d) & I & H). simpl in H. destruct (is_digest_ref r d) eqn:E; simpl in H; [|tauto].
    destruct (mem (d_node d) tg) eqn:M; simpl in H; [tauto|]. destruct H as [<-|[]]. exists r, d. auto.
  - intros (r & d & I & E & M & ->). exists (r, d). split; auto. simpl. rewrite E, M. simpl. auto.
Qed.

Lemma save_diskok c1 c2 ix : IxInv ix -> DiskOK (save_index c1 c2 ix) ix.
Proof.
  intro I. unfold save_index. set (p1 := save_pass1 (shuffle c1 ix)).
  split.
  - intros t d H. apply in_or_app. left. apply in_pass1. exists (RTag t), d.
    split; [apply In_shuffle; now apply lookup_Some_In|]. split; auto.
  - intros e r H R. apply in_app_or in H as [H|H].
    + apply in_pass1 in H as (r0 & d0 & H & E & ->). apply In_shuffle in H.
      simpl in R. injection R as <-. destruct (nondigest_is_tag _ _ _ I H E) as (t & ->).
      exists t, d0. split; auto. split; auto. apply In_lookup; auto. apply I.
    + apply in_pass2 in H as (r0 & d0 & _ & _ & _ & ->). simpl in R. discriminate.
  - intros e H. apply in_app_or in H as [H|H].
    + apply in_pass1 in H as (r0 & d0 & H & E & ->). apply In_shuffle in H.
      destruct (nondigest_is_tag _ _ _ I H E) as (t & ->). simpl.
      apply (ix_j1 _ I t). apply In_lookup; auto. apply I.
    + apply in_pass2 in H as (r0 & d0 & H & E & _ & ->). apply In_shuffle in H.
      apply digest_ref_inv in E. subst r0. simpl. apply In_lookup in H; [|apply I]. congruence.
  - intros k H. destruct (lookup (RDig k) ix) as [d|] eqn:L; [|congruence].
    pose proof (ix_j2 _ I _ _ L) as Hk.
    destruct (mem k (map d_node p1)) eqn:M.
    + apply mem_In in M. apply in_map_iff in M as (e & E & Ie). exists e. split; auto.
      apply in_or_app. now left.
    + exists (strip d). split; [|simpl; auto]. apply in_or_app. right. apply in_pass2.
      exists (RDig k), d. split; [apply In_shuffle; now apply lookup_Some_In|].
      split; [apply digest_ref_inv; congruence|]. split; auto. now rewrite Hk.
Qed.

(* the resolver part of a step of loadIndex ([load_entry]) *)
Definition load_res (m : resolver) (e : desc) : resolver :=
  let m1 := res_tag (strip e) (RDig (d_node e)) m in
  match d_refann e with Some r => res_tag e r m1 | None => m1 end.

Definition wf_ents (ents : list desc) :=
  forall e r, In e ents -> d_refann e = Some r -> exists t, r = RTag t.

Lemma load_res_lookup m e r :
  lookup r (r_index (load_res m e)) =
  match d_refann e with
  | Some r' => if ref_eqb r r' then Some e
               else if ref_eqb r (RDig (d_node e)) then Some (strip e) else lookup r (r_index m)
  | None => if ref_eqb r (RDig (d_node e)) then Some (strip e) else lookup r (r_index m)
  end.
Proof.
  unfold load_res, res_tag. destruct (d_refann e) as [r'|]; cbn [r_index]; now rewrite !lookup_rset.
Qed.

Lemma load_res_nodup m e : NoDup (map fst (r_index m)) -> NoDup (map fst (r_index (load_res m e))).
Proof.
  intro H. unfold load_res, res_tag. destruct (d_refann e); cbn [r_index]; repeat apply nodup_rset; auto.
Qed.

Lemma load_res_dig m e k : (forall r, d_refann e = Some r -> exists t, r = RTag t) ->
  lookup (RDig k) (r_index (load_res m e)) =
  if Nat.eqb k (d_node e) then Some (strip e) else lookup (RDig k) (r_index m).
Proof.
  intro W. rewrite load_res_lookup. destruct (d_refann e) as [r|]; [destruct (W r eq_refl) as (t & ->)|]; reflexivity.
Qed.

Lemma res_tag_keeps d r m : keys_le (r_index m) (r_index (res_tag d r m)).
Proof. exact (rset_keeps r d (r_index m)). Qed.

Lemma load_res_keeps m e : keys_le (r_index m) (r_index (load_res m e)).
Proof. intros r H. unfold load_res. destruct (d_refann e); repeat apply res_tag_keeps; exact H. Qed.

Lemma load_tag_in t ents : forall m d,
  lookup (RTag t) (r_index (fold_left load_res ents m)) = Some d ->
  lookup (RTag t) (r_index m) = Some d \/ (In d ents /\ d_refann d = Some (RTag t)).
Proof.
  induction ents as [|e ents IH]; intros m d H; simpl in *; auto.
  apply IH in H as [H|[H R]]; [|right; auto].
  rewrite load_res_lookup in H.
  destruct (d_refann e) as [r'|] eqn:R.
  - destruct (ref_eqb (RTag t) r') eqn:E; cbv iota in H.
    + apply ref_eqb_eq in E. subst r'. injection H as <-. right. auto.
    + cbn in H. auto.
  - cbn in H. auto.
Qed.

Lemma load_tag_ex t ents : forall m,
  (exists e, In e ents /\ d_refann e = Some (RTag t)) ->
  lookup (RTag t) (r_index (fold_left load_res ents m)) <> None.
Proof.
  intros m (e & I & R).
  apply (fold_left_reach (fun _ => True) (fun m => lookup (RTag t) (r_index m) <> None) _ _ _ I); auto.
  - intros m' _. rewrite load_res_lookup, R, ref_eqb_refl. congruence.
  - intros m' e'. apply load_res_keeps.
Qed.

Lemma load_dig k ents : wf_ents ents -> forall m,
  lookup (RDig k) (r_index (fold_left load_res ents m)) <> None <->
  (lookup (RDig k) (r_index m) <> None \/ exists e, In e ents /\ d_node e = k).
Proof.
  induction ents as [|e ents IH]; intros W m; simpl.
  - split; [auto|]. intros [H|(e & [] & _)]; auto.
  - rewrite IH by (intros x r I; apply W; now right).
    rewrite load_res_dig by (intros r; apply W; now left).
    destruct (Nat.eqb k (d_node e)) eqn:E.
    + apply Nat.eqb_eq in E. split; [right; eauto|left; congruence].
    + apply Nat.eqb_neq in E. split; intros [H|(x & I & Ex)]; eauto.
      destruct I as [<-|I]; [congruence|eauto].
Qed.

Section LoadSave.
  Variables (ents : list desc) (ix : rmap).
  Hypothesis I : IxInv ix.
  Hypothesis D : DiskOK ents ix.
  Let ix' := r_index (fold_left load_res ents res_empty).

  Lemma disk_wf : wf_ents ents.
  Proof. intros e r H R. destruct (dk2 _ _ D e r H R) as (t & _ & -> & _). eauto. Qed.

  Lemma reload_tag t : lookup (RTag t) ix' = option_map (fun d => with_ref d (RTag t)) (lookup (RTag t) ix).
  Proof.
    destruct (lookup (RTag t) ix') as [d|] eqn:L'.
    - apply load_tag_in in L' as [L'|[Hi R]]; [discriminate|].
      destruct (dk2 _ _ D _ _ Hi R) as (t' & d1 & E & L1 & ->). injection E as <-. now rewrite L1.
    - destruct (lookup (RTag t) ix) as [d0|] eqn:L; [exfalso|reflexivity].
      apply (load_tag_ex t ents res_empty); [|exact L']. exists (with_ref d0 (RTag t)).
      split; [now apply (dk1 _ _ D)|reflexivity].
  Qed.

  Lemma reload_dig k : lookup (RDig k) ix' <> None <-> lookup (RDig k) ix <> None.
  Proof.
    unfold ix'. rewrite (load_dig k ents disk_wf). simpl. split.
    - intros [H|(e & H & <-)]; [congruence|]. now apply (dk3 _ _ D).
    - intro H. right. now apply (dk4 _ _ D).
  Qed.

  Lemma reload_j2 : J2 ix'.
  Proof.
    apply (fold_left_inv (fun m => J2 (r_index m))); [|intros k d H; discriminate].
    intros m e Ie H k d L. rewrite load_res_dig in L by (intro r; now apply disk_wf).
    destruct (Nat.eqb k (d_node e)) eqn:E; [|now apply H].
    injection L as <-. symmetry. now apply Nat.eqb_eq.
  Qed.

  Lemma reload_inv : IxInv ix'.
  Proof.
    split.
    - apply (fold_left_inv (fun m => NoDup (map fst (r_index m)))); [|constructor].
      intros m e _. apply load_res_nodup.
    - apply reload_j2.
    - intros t d H. rewrite reload_tag in H. destruct (lookup (RTag t) ix) as [d0|] eqn:L; [|discriminate].
      injection H as <-. simpl. apply reload_dig. now apply (ix_j1 _ I t).
  Qed.

  Lemma reload_diskok : DiskOK ents ix'.
  Proof.
    split.
    - intros t d H. rewrite reload_tag in H. destruct (lookup (RTag t) ix) as [d0|] eqn:L; [|discriminate].
      injection H as <-. exact (dk1 _ _ D t d0 L).
    - intros e r H R. destruct (dk2 _ _ D _ _ H R) as (t & d0 & -> & L & ->).
      exists t, (with_ref d0 (RTag t)). split; auto. split; auto. rewrite reload_tag, L. reflexivity.
    - intros e H. apply reload_dig. now apply (dk3 _ _ D).
    - intros k H. apply reload_dig in H. now apply (dk4 _ _ D).
  Qed.
End LoadSave.

Section Univ.
  Variable N : nat.
  Variable mf : nat -> bool.
  Variable succs : nat -> list nat.
  Variable subj : nat -> option nat.
  Variable sk : nat -> bool.
  Variable bad : nat -> bool.
  Variable dflt : nat -> bool.

  Notation visit := (visit mf succs).
  Notation index_all := (index_all N mf succs).
  Notation st_tagop := (st_tagop mf true).
  Notation delete1 := (delete1 mf succs).
  Notation delete_loop := (delete_loop N mf succs subj true).
  Notation st_delete := (st_delete N mf succs subj true).
  Notation gc_round := (gc_round N mf succs subj sk).
  Notation gc_rounds := (gc_rounds N mf succs subj sk).
  Notation st_gc := (st_gc N mf succs subj sk true true true).
  Notation reopen := (reopen N mf succs).
  Notation step := (step N mf succs subj sk bad true true true true true).
  Notation run := (run N mf succs subj sk bad true true true true true).
  Notation obs_equiv := (obs_equiv N succs dflt).
  Notation wf_op := (wf_op mf).
  Notation wf_history := (wf_history mf).

  Lemma fold_visit_mono f p (IH : forall c g x, In x g -> In x (visit f p c g)) :
    forall l g x, In x g -> In x (fold_left (fun acc c => visit f p c acc) l g).
  Proof. induction l as [|c l IHl]; intros g x H; simpl; auto. Qed.

  Lemma visit_mono f p : forall n g x, In x g -> In x (visit f p n g).
  Proof.
    induction f as [|f IH]; intros n g x H; simpl; auto.
    destruct (mem n g); auto. destruct (mf n).
    - destruct (p n); auto. apply fold_visit_mono; auto. now right.
    - now right.
  Qed.

  Lemma visit_root f p n g : (mf n = true -> p n = true) -> In n (visit (S f) p n g).
  Proof.
    intro H. simpl. destruct (mem n g) eqn:M; [now apply mem_In|].
    destruct (mf n).
    - rewrite H by reflexivity. apply fold_visit_mono; [apply visit_mono|]. now left.
    - now left.
  Qed.

  Definition mf_present (p : nat -> bool) (g : list nat) := forall x, In x g -> mf x = true -> p x = true.

  Lemma visit_present f p : forall n g, mf_present p g -> mf_present p (visit f p n g).
  Proof.
    induction f as [|f IH]; intros n g H; simpl; auto.
    destruct (mem n g); auto. destruct (mf n) eqn:M.
    - destruct (p n) eqn:P; auto.
      assert (H' : mf_present p (n :: g)).
      { intros x [<-|I] Hx; auto. }
      revert H'. generalize (n :: g). induction (succs n) as [|c l IHl]; intros g0 H0; simpl; auto.
    - intros x [<-|I] Hx; [congruence|auto].
  Qed.

  Lemma index_all_mono bl r g x : In x g -> In x (index_all bl r g).
  Proof. apply visit_mono. Qed.
  Lemma index_all_root bl r g : (mf r = true -> In r bl) -> In r (index_all bl r g).
  Proof. intro H. apply visit_root. intro M. apply mem_In. auto. Qed.
  Lemma index_all_present bl r g :
    (forall x, In x g -> mf x = true -> In x bl) -> forall x, In x (index_all bl r g) -> mf x = true -> In x bl.
  Proof.
    intros H x I M. apply mem_In.
    apply (visit_present (S N) (fun k => mem k bl) r g); auto.
    intros y Iy My. apply mem_In. auto.
  Qed.

  (* the graph part of loadIndex *)
  Definition load_gr (bl : list nat) (ents : list desc) (g : list nat) :=
    fold_left (fun g e => index_all bl (d_node e) g) ents g.

  Lemma load_split bl ents : forall m g,
    fold_left (load_entry N mf succs bl) ents (m, g) = (fold_left load_res ents m, load_gr bl ents g).
  Proof.
    induction ents as [|e ents IH]; intros m g; simpl; auto.
    unfold load_entry at 2. simpl. rewrite IH. reflexivity.
  Qed.

  Lemma load_gr_root bl ents g e : In e ents -> (mf (d_node e) = true -> In (d_node e) bl) ->
    In (d_node e) (load_gr bl ents g).
  Proof.
    intros H P. apply (fold_left_reach (fun _ => True) (fun g' => In (d_node e) g') _ _ _ H); auto.
    - intros g' _. now apply index_all_root.
    - intros g' e'. apply index_all_mono.
  Qed.
  Lemma load_gr_present bl ents g :
    (forall x, In x g -> mf x = true -> In x bl) ->
    forall x, In x (load_gr bl ents g) -> mf x = true -> In x bl.
  Proof.
    apply (fold_left_inv (fun g' => forall x, In x g' -> mf x = true -> In x bl)).
    intros g' e _. apply index_all_present.
  Qed.

  Notation store := OciIndex.store.
  Definition idx (s : store) := r_index (res s).

  Record InvC (bl : list nat) (ix : rmap) (g : list nat) : Prop := {
    inv_ix : IxInv ix;
    inv_i4 : forall r d, lookup r ix = Some d -> In (d_node d) bl;
    inv_k : forall k, mf k = true -> In k bl -> lookup (RDig k) ix <> None;
    inv_g2a : forall k, mf k = true -> In k g -> In k bl;
    inv_g2b : forall k, mf k = true -> In k bl -> In k g }.
  Definition Inv (s : store) := InvC (blobs s) (idx s) (gr s).

  Definition Synced (s : store) := DiskOK (disk s) (idx s).

  Lemma inv_empty : Inv store_empty.
  Proof.
    split.
    - split; simpl; [constructor| |]; intros ? ? H; discriminate.
    - intros ? ? H; discriminate.
    - intros k _ [].
    - intros k _ [].
    - intros k _ [].
  Qed.
  Lemma synced_empty : Synced store_empty.
  Proof.
    split; simpl.
    - intros ? ? H; discriminate.
    - intros ? ? [].
    - intros ? [].
    - intros k H. congruence.
  Qed.
  (* the invariant, and index.json is current if AutoSaveIndex is on or ([b]) the last operation
     was a SaveIndex or a reopen *)
  Definition Good (cfg : config) (b : bool) (s : store) :=
    Inv s /\ (autosave cfg = true \/ b = true -> Synced s).

  Lemma good_weaken cfg b s : Good cfg b s -> Good cfg false s.
  Proof. intros [H S]. split; [exact H|]. intros [A|A]; [auto|discriminate]. Qed.
  Lemma good_save cfg o s : Inv s -> Good cfg false (maybe_save cfg o s).
  Proof.
    intro H. unfold maybe_save, do_save. destruct (autosave cfg) eqn:A.
    - split; [exact H|]. intros _. unfold Synced, idx. simpl. apply save_diskok. apply H.
    - split; [exact H|]. intros [X|X]; congruence.
  Qed.
  Lemma good_same cfg b s s' :
    Good cfg b s -> Inv s' -> idx s' = idx s -> disk s' = disk s -> Good cfg b s'.
  Proof.
    intros [_ S] I E1 E2. split; auto. intro A. unfold Synced. rewrite E1, E2. now apply S.
  Qed.

  Lemma ixinv_set_dig ix d : IxInv ix -> IxInv (rset (RDig (d_node d)) d ix).
  Proof.
    intro I. split.
    - apply nodup_rset, I.
    - intros k d' H. rewrite lookup_rset in H. destruct (ref_eqb (RDig k) (RDig (d_node d))) eqn:E.
      + apply ref_eqb_eq in E. injection E as ->. now injection H as <-.
      + now apply (ix_j2 _ I).
    - intros t d' H. rewrite lookup_rset in H. simpl in H. apply (ix_j1 _ I) in H.
      rewrite lookup_rset. destruct (ref_eqb (RDig (d_node d')) (RDig (d_node d))); congruence.
  Qed.
  Lemma ixinv_set_tag ix d t : IxInv ix -> lookup (RDig (d_node d)) ix <> None -> IxInv (rset (RTag t) d ix).
  Proof.
    intros I L. split.
    - apply nodup_rset, I.
    - intros k d' H. rewrite lookup_rset in H. simpl in H. now apply (ix_j2 _ I).
    - intros t' d' H. rewrite lookup_rset in H. rewrite lookup_rset. simpl.
      destruct (ref_eqb (RTag t') (RTag t)).
      + now injection H as <-.
      + now apply (ix_j1 _ I) in H.
  Qed.

  Lemma ixinv_untag ix t : IxInv ix -> IxInv (runset (RTag t) ix).
  Proof.
    intro I. split.
    - apply nodup_runset, I.
    - intros k d H. rewrite lookup_runset in H. simpl in H. now apply (ix_j2 _ I).
    - intros t' d H. rewrite lookup_runset in H. destruct (ref_eqb (RTag t') (RTag t)); [discriminate|].
      rewrite lookup_runset. simpl. now apply (ix_j1 _ I t').
  Qed.

  (* dropping the references to some nodes (delete(): one node; gcIndex: the nodes not kept) *)
  Lemma ixinv_drop (keep : nat -> bool) ix ix' : IxInv ix -> NoDup (map fst ix') ->
    (forall r, lookup r ix' =
               match lookup r ix with Some d => if keep (d_node d) then Some d else None | None => None end) ->
    IxInv ix'.
  Proof.
    intros I ND E. split; [exact ND| |].
    - intros k d H. rewrite E in H. destruct (lookup (RDig k) ix) as [d0|] eqn:L; [|discriminate].
      destruct (keep (d_node d0)); [|discriminate]. injection H as <-. now apply (ix_j2 _ I).
    - intros t d H. rewrite E in H. destruct (lookup (RTag t) ix) as [d0|] eqn:L; [|discriminate].
      destruct (keep (d_node d0)) eqn:F; [|discriminate]. injection H as <-.
      pose proof (ix_j1 _ I _ _ L) as X. rewrite E.
      destruct (lookup (RDig (d_node d0)) ix) as [d1|] eqn:L1; [|congruence].
      rewrite (ix_j2 _ I _ _ L1), F. congruence.
  Qed.

  Definition tag_ix (d : desc) (r : ref) (ix : rmap) : rmap :=
    if is_digest_ref r d then rset r d ix else rset r d (rset (RDig (d_node d)) d ix).

  Lemma res_tag_ix d r m :
    r_index (res_tag d r (if is_digest_ref r d then m else res_tag d (RDig (d_node d)) m)) = tag_ix d r (r_index m).
  Proof. unfold tag_ix. destruct (is_digest_ref r d); reflexivity. Qed.

  (* registering [d] under [r] when the content of [d] has just been stored (and indexed, if a
     manifest) or was there before *)
  Lemma tag_ix_inv bl ix g d r bl' g' :
    InvC bl ix g -> wf_tag d r ->
    (forall x, In x bl' <-> x = d_node d \/ In x bl) ->
    (forall x, mf x = true -> (In x g' <-> x = d_node d \/ In x g)) ->
    InvC bl' (tag_ix d r ix) g'.
  Proof.
    intros H W Hb Hg.
    assert (M : keys_le ix (tag_ix d r ix)).
    { unfold tag_ix. destruct (is_digest_ref r d); intros r' L; repeat apply rset_keeps; exact L. }
    assert (V : forall r' d', lookup r' (tag_ix d r ix) = Some d' -> d' = d \/ lookup r' ix = Some d').
    { intros r' d' L. unfold tag_ix in L. destruct (is_digest_ref r d); rewrite !lookup_rset in L;
        repeat (match type of L with context[if ?b then _ else _] => destruct b end);
        try (injection L as <-); auto. }
    assert (Dg : lookup (RDig (d_node d)) (tag_ix d r ix) <> None).
    { unfold tag_ix. destruct (is_digest_ref r d) eqn:E.
      - apply digest_ref_inv in E. rewrite E, lookup_rset_eq. congruence.
      - apply rset_keeps. rewrite lookup_rset_eq. congruence. }
    split.
    - unfold tag_ix. destruct r as [t|k]; simpl in W.
      + unfold is_digest_ref. simpl. apply ixinv_set_tag; [apply ixinv_set_dig, H|].
        rewrite lookup_rset_eq. congruence.
      + subst k. unfold is_digest_ref. rewrite ref_eqb_refl. apply ixinv_set_dig, H.
    - intros r' d' L. apply Hb. apply V in L as [->|L]; [now left|right]. eapply inv_i4; eauto.
    - intros k Mk Ik. apply Hb in Ik as [->|Ik]; [exact Dg|]. apply M. eapply inv_k; eauto.
    - intros k Mk Ik. apply Hb. apply (Hg k Mk) in Ik as [->|Ik]; [now left|right]. eapply inv_g2a; eauto.
    - intros k Mk Ik. apply (Hg k Mk). apply Hb in Ik as [->|Ik]; [now left|right]. eapply inv_g2b; eauto.
  Qed.

  Lemma st_tag_good cfg o d r s bl g :
    InvC bl (idx s) g -> wf_tag d r ->
    (forall x, In x (blobs s) <-> x = d_node d \/ In x bl) ->
    (forall x, mf x = true -> (In x (gr s) <-> x = d_node d \/ In x g)) ->
    Good cfg false (st_tag cfg o d r s).
  Proof.
    intros H W Hb Hg. unfold st_tag. apply good_save. unfold Inv, idx. cbn [blobs res gr].
    rewrite res_tag_ix. now apply (tag_ix_inv bl _ g).
  Qed.

  (* blobs and graph nodes that are no manifests are nothing the invariant speaks of *)
  Lemma invc_ext bl ix g bl' g' : InvC bl ix g -> (forall x, In x bl -> In x bl') ->
    (forall x, mf x = true -> (In x bl' -> In x bl) /\ (In x g' <-> In x g)) -> InvC bl' ix g'.
  Proof.
    intros H Hb Hm. split.
    - apply H.
    - intros r d L. eapply Hb, inv_i4; eauto.
    - intros k Mk Ik. apply (Hm k Mk) in Ik. eapply inv_k; eauto.
    - intros k Mk Ik. apply (Hm k Mk) in Ik. eapply Hb, inv_g2a; eauto.
    - intros k Mk Ik. apply (Hm k Mk). apply (Hm k Mk) in Ik. eapply inv_g2b; eauto.
  Qed.

  Lemma push_desc_good cfg o d s : Good cfg false s -> Good cfg false (fst (st_push_desc mf bad cfg o d s)).
  Proof.
    intros G. unfold st_push_desc. set (k := d_node d).
    destruct (mem k (blobs s)) eqn:M; [exact G|].
    destruct (bad k); [exact G|].
    destruct G as [H S]. destruct (mf k) eqn:Mk; simpl.
    - eapply st_tag_good; [exact H|reflexivity| |].
      + intro x. subst k. split; (intros [E|I]; [left; congruence|now right]).
      + intros x _. apply In_add.
    - apply (good_same cfg false s); [split; auto| |reflexivity|reflexivity]. unfold Inv, idx. cbn [blobs res gr].
      apply (invc_ext _ _ _ _ _ H); [intros x Ix; now right|]. intros x Mx. rewrite In_add.
      split; [intros [<-|Ix]|split; [intros [->|Ix]|now right]]; congruence || assumption.
  Qed.

  Lemma tagop_good cfg o d r s : Good cfg false s -> Good cfg false (fst (st_tagop cfg o d r s)).
  Proof.
    intros G. unfold OciIndex.st_tagop. simpl.
    destruct (negb match r with RDig k => Nat.eqb k (d_node d) | RTag _ => true end) eqn:W; [exact G|].
    destruct (mem (d_node d) (blobs s)) eqn:M; [|exact G].
    apply mem_In in M. simpl.
    assert (Wf : wf_tag d r).
    { destruct r as [t|k]; simpl; auto. apply negb_false_iff in W. now apply Nat.eqb_eq in W. }
    assert (Hb : forall x, In x (blobs s) <-> x = d_node d \/ In x (blobs s)).
    { intro x. split; [auto|intros [->|I]; auto]. }
    destruct G as [H _]. destruct (mf (d_node d)) eqn:Mf.
    - eapply st_tag_good; [exact H|exact Wf|exact Hb|]. intros x _. apply In_add.
    - eapply st_tag_good; [exact H|exact Wf|exact Hb|]. intros x Mx.
      split; [auto|intros [->|I]; [congruence|exact I]].
  Qed.

  Lemma res_untag_lookup r0 m r :
    lookup r (r_index (res_untag r0 m)) = if ref_eqb r r0 then None else lookup r (r_index m).
  Proof.
    unfold res_untag. destruct (lookup r0 (r_index m)) eqn:L; cbn [r_index].
    - apply lookup_runset.
    - destruct (ref_eqb r r0) eqn:E; auto. apply ref_eqb_eq in E. now subst.
  Qed.
  Lemma res_untag_nodup r0 m : NoDup (map fst (r_index m)) -> NoDup (map fst (r_index (res_untag r0 m))).
  Proof.
    intro H. unfold res_untag. destruct (lookup r0 (r_index m)); cbn [r_index]; auto. now apply nodup_runset.
  Qed.

  Lemma untag_good cfg o r s : Good cfg false s -> Good cfg false (fst (st_untag cfg o r s)).
  Proof.
    intros G. unfold st_untag. destruct (lookup r (r_index (res s))) as [d|] eqn:L; [|exact G].
    destruct (is_digest_ref r d) eqn:E; [exact G|]. simpl.
    destruct G as [H S]. apply good_save. unfold Inv, idx. simpl.
    assert (Ht : exists t, r = RTag t).
    { eapply nondigest_is_tag; [apply H| |exact E]. apply lookup_Some_In. exact L. }
    destruct Ht as (t & ->).
    unfold res_untag. rewrite L. cbn [r_index]. split.
    - apply ixinv_untag, H.
    - intros r' d' X. rewrite lookup_runset in X. destruct (ref_eqb r' (RTag t)); [discriminate|].
      eapply inv_i4; eauto.
    - intros k Mk Ik. rewrite lookup_runset. simpl. eapply inv_k; eauto.
    - apply H.
    - apply H.
  Qed.

  Definition untag_all (refs : list ref) (m : resolver) := fold_left (fun m r => res_untag r m) refs m.

  Lemma untag_all_lookup refs : forall m r,
    lookup r (r_index (untag_all refs m)) = if existsb (ref_eqb r) refs then None else lookup r (r_index m).
  Proof.
    induction refs as [|r0 refs IH]; intros m r; simpl; auto.
    unfold untag_all in *. rewrite IH, res_untag_lookup.
    destruct (ref_eqb r r0); simpl; destruct (existsb (ref_eqb r) refs); auto.
  Qed.
  Lemma untag_all_nodup refs m : NoDup (map fst (r_index m)) -> NoDup (map fst (r_index (untag_all refs m))).
  Proof.
    apply (fold_left_inv (fun m' => NoDup (map fst (r_index m')))). intros m' r _. apply res_untag_nodup.
  Qed.

  Definition refs_of (k : nat) (ix : rmap) := map fst (filter (fun kv => Nat.eqb (d_node (snd kv)) k) ix).

  Lemma del_lookup k ix m r : r_index m = ix -> NoDup (map fst ix) ->
    lookup r (r_index (untag_all (refs_of k ix) m)) =
    match lookup r ix with Some d => if negb (Nat.eqb (d_node d) k) then Some d else None | None => None end.
  Proof.
    intros E ND. rewrite untag_all_lookup, E.
    destruct (existsb (ref_eqb r) (refs_of k ix)) eqn:X.
    - apply existsb_exists in X as (r' & I & Er). apply ref_eqb_eq in Er. subst r'.
      apply in_map_iff in I as ((r', d) & Ef & I). simpl in Ef. subst r'.
      apply filter_In in I as [I Ek]. simpl in Ek. rewrite (In_lookup _ _ _ ND I), Ek. reflexivity.
    - destruct (lookup r ix) as [d|] eqn:L; auto.
      destruct (Nat.eqb (d_node d) k) eqn:Ek; auto.
      exfalso. apply Bool.not_true_iff_false in X. apply X. apply existsb_exists. exists r.
      split; [|apply ref_eqb_refl]. apply in_map_iff. exists (r, d). split; auto.
      apply filter_In. split; auto. now apply lookup_Some_In.
  Qed.

  Lemma graph_remove_fst k g x : In x (fst (graph_remove succs k g)) <-> x <> k /\ In x g.
  Proof.
    unfold graph_remove. destruct (mem k g) eqn:M; simpl.
    - apply In_del.
    - apply mem_false in M. split; [|tauto]. intro H. split; auto. intro; subst. contradiction.
  Qed.

  Lemma delete_invc k bl ix g m bl' :
    InvC bl ix g -> r_index m = ix ->
    (forall x, In x bl' <-> x <> k /\ In x bl) ->
    InvC bl' (r_index (untag_all (refs_of k ix) m)) (fst (graph_remove succs k g)).
  Proof.
    intros H E Hb.
    assert (ND : NoDup (map fst ix)) by apply H.
    assert (V : forall r d, lookup r (r_index (untag_all (refs_of k ix) m)) = Some d ->
                lookup r ix = Some d /\ d_node d <> k).
    { intros r d L. rewrite (del_lookup k ix m r E ND) in L.
      destruct (lookup r ix) as [d0|]; [|discriminate].
      destruct (Nat.eqb (d_node d0) k) eqn:Ek; [discriminate|]. injection L as <-.
      split; auto. now apply Nat.eqb_neq. }
    assert (P : forall r d, lookup r ix = Some d -> d_node d <> k ->
                lookup r (r_index (untag_all (refs_of k ix) m)) = Some d).
    { intros r d L Nk. rewrite (del_lookup k ix m r E ND), L.
      apply Nat.eqb_neq in Nk. now rewrite Nk. }
    assert (B : forall x, x <> k -> In x bl -> In x bl') by (intros x Nx Ix; now apply Hb).
    split.
    - apply (ixinv_drop (fun n => negb (Nat.eqb n k)) ix); [apply H|apply untag_all_nodup; now rewrite E|].
      intro r. apply (del_lookup k ix m r E ND).
    - intros r d L. apply V in L as [L Nk]. apply B; auto. eapply inv_i4; eauto.
    - intros k' Mk Ik. apply Hb in Ik as [Nk Ik'].
      pose proof (inv_k _ _ _ H _ Mk Ik') as X.
      destruct (lookup (RDig k') ix) as [d1|] eqn:L1; [|congruence].
      pose proof (ix_j2 _ (inv_ix _ _ _ H) _ _ L1) as E1.
      rewrite (P _ _ L1); congruence.
    - intros k' Mk Ik. apply graph_remove_fst in Ik as [Nk Ik]. apply B; auto. eapply inv_g2a; eauto.
    - intros k' Mk Ik. apply Hb in Ik as [Nk Ik']. apply graph_remove_fst. split; auto. eapply inv_g2b; eauto.
  Qed.

  Lemma graph_remove_snd k g x : In x (snd (graph_remove succs k g)) -> In x (fst (graph_remove succs k g)).
  Proof.
    unfold graph_remove. destruct (mem k g); simpl; [|tauto].
    intro H. apply filter_In in H as [_ H]. apply andb_true_iff in H as [H _]. now apply mem_In.
  Qed.

  Lemma keep_danglings_inv bl g dang : forall m,
    (forall x, In x dang -> In x g) -> InvC bl (r_index m) g ->
    InvC bl (r_index (keep_danglings mf dang m)) g.
  Proof.
    induction dang as [|d dang IH]; intros m Hd H; simpl; auto.
    apply IH; [intros x I; apply Hd; now right|].
    unfold needs_ref. destruct (mf d) eqn:Md; simpl; auto.
    destruct (lookup (RDig d) (r_index m)); auto.
    cbn [r_index res_tag].
    assert (E : rset (RDig d) (plain d) (r_index m) = tag_ix (plain d) (RDig d) (r_index m)).
    { unfold tag_ix, is_digest_ref. simpl. now rewrite Nat.eqb_refl. }
    assert (Ig : In d g) by (apply Hd; now left).
    rewrite E. apply (tag_ix_inv bl _ g); [exact H|reflexivity| |].
    - intro x. split; [auto|intros [->|I]; [|exact I]]. eapply inv_g2a; [exact H|exact Md|exact Ig].
    - intros x _. split; [auto|intros [->|I]; assumption].
  Qed.

  Lemma keep_danglings_same dang : forall m,
    existsb (needs_ref mf m) dang = false -> keep_danglings mf dang m = m.
  Proof.
    induction dang as [|d dang IH]; intros m H; simpl in *; auto.
    apply orb_false_iff in H as [H1 H2]. rewrite H1. now apply IH.
  Qed.

  Lemma delete1_good cfg o k s : Good cfg false s -> Good cfg false (fst (fst (delete1 cfg o k s))).
  Proof.
    intros G. pose proof G as [H _]. unfold OciIndex.delete1.
    fold (refs_of k (r_index (res s))). fold (untag_all (refs_of k (r_index (res s))) (res s)).
    set (m := untag_all (refs_of k (r_index (res s))) (res s)).
    set (g' := fst (graph_remove succs k (gr s))).
    set (dang := snd (graph_remove succs k (gr s))).
    set (m2 := keep_danglings mf dang m).
    (* the blob file of k is gone, or was never there *)
    set (bl' := if mem k (blobs s) then del k (blobs s) else blobs s).
    assert (I1 : Inv (mkStore bl' m2 g' (disk s))).
    { unfold Inv, idx. simpl. apply keep_danglings_inv; [intros x I; now apply graph_remove_snd|].
      apply (delete_invc k (blobs s) (r_index (res s)) (gr s) (res s)); [exact H|reflexivity|].
      intro x. unfold bl'. destruct (mem k (blobs s)) eqn:M; [apply In_del|]. apply mem_false in M.
      split; [|tauto]. intro Ix. split; [|exact Ix]. now intros ->. }
    (* index.json is written iff a reference went or came and AutoSaveIndex is on; the blob file
       goes afterwards *)
    destruct (negb _ || _) eqn:C.
    - pose proof (good_save cfg o _ I1) as X. revert X. unfold bl', maybe_save, do_save.
      destruct (mem k (blobs s)); destruct (autosave cfg); exact (fun X => X).
    - assert (X : Good cfg false (mkStore bl' m2 g' (disk s))).
      { apply (good_same cfg false s _ G I1); [|reflexivity]. apply orb_false_iff in C as [C1 C2].
        unfold idx, m2. cbn [res]. rewrite keep_danglings_same by exact C2.
        unfold m. destruct (refs_of k (r_index (res s))); [reflexivity|discriminate]. }
      revert X. unfold bl'. destruct (mem k (blobs s)); exact (fun X => X).
  Qed.

  Lemma delete_loop_good cfg o fuel : forall ds qq pd s, Good cfg false s -> Good cfg false (fst (delete_loop fuel cfg o ds qq pd s)).
  Proof.
    induction fuel as [|f IH]; intros ds qq pd s G; simpl; auto.
    destruct (fst qq) as [|h q]; simpl; auto.
    pose proof (delete1_good cfg o h s G) as G1.
    destruct (delete1 cfg o h s) as [[s' dang] okb]. simpl in G1.
    destruct okb; simpl; auto.
  Qed.

  Definition src_ok (ix : rmap) (m : resolver) : Prop :=
    forall r d, lookup r (r_index m) = Some d -> exists d0, lookup r ix = Some d0 /\ d_node d0 = d_node d.

  Lemma src_tag ix m d r : src_ok ix m -> (exists d0, lookup r ix = Some d0 /\ d_node d0 = d_node d) ->
    src_ok ix (res_tag d r m).
  Proof.
    intros S E r' d' L. unfold res_tag in L. cbn [r_index] in L. rewrite lookup_rset in L.
    destruct (ref_eqb r' r) eqn:Er; [|now apply S].
    apply ref_eqb_eq in Er. subst r'. injection L as <-. exact E.
  Qed.

  Lemma entry_sources ix r d : IxInv ix -> In (r, d) ix ->
    (exists d0, lookup r ix = Some d0 /\ d_node d0 = d_node d) /\
    (exists d0, lookup (RDig (d_node d)) ix = Some d0 /\ d_node d0 = d_node (strip d)).
  Proof.
    intros I Hin. pose proof (In_lookup _ _ _ (ix_nd _ I) Hin) as L. split; [eauto|].
    destruct r as [t|k].
    - pose proof (ix_j1 _ I _ _ L) as X. destruct (lookup (RDig (d_node d)) ix) as [d1|] eqn:L1; [|congruence].
      exists d1. split; auto. now apply (ix_j2 _ I) in L1.
    - pose proof (ix_j2 _ I _ _ L) as E. subst k. eauto.
  Qed.

  Definition p1step (bl : list nat) (a : gcacc) (kv : ref * desc) : gcacc :=
    let r := fst kv in let d := snd kv in
    if is_digest_ref r d then a
    else mkGc (res_tag d r (res_tag (strip d) (RDig (d_node d)) (g_res a)))
              (index_all bl (d_node d) (g_gr a)) (d_node d :: g_tagged a).
  Definition rstep (bl : list nat) (ac : gcacc * bool) (kv : ref * desc) : gcacc * bool :=
    let a := fst ac in let r := fst kv in let d := snd kv in
    if negb (is_digest_ref r d) || mem (d_node d) (g_tagged a) then ac
    else if chain_hits mf subj sk (S N) bl (g_gr a) (d_node d)
         then (mkGc (res_tag (strip d) (RDig (d_node d)) (g_res a))
                    (index_all bl (d_node d) (g_gr a)) (d_node d :: g_tagged a), true)
         else ac.
  Definition p3step (a : gcacc) (kv : ref * desc) : gcacc :=
    let r := fst kv in let d := snd kv in
    if is_digest_ref r d && mem (d_node d) (g_gr a) then
      match lookup r (r_index (g_res a)) with
      | None => mkGc (res_tag (strip d) r (g_res a)) (g_gr a) (g_tagged a)
      | Some _ => a
      end
    else a.

  Lemma gc_round_eq bl l a : gc_round bl l a = fold_left (rstep bl) l (a, false).
  Proof. reflexivity. Qed.

  (* the accumulator of gcIndex after its three passes *)
  Definition gc_acc (o : orders) (bl : list nat) (m : rmap) : gcacc :=
    fold_left p3step m
      (gc_rounds (S (length m)) bl m (o_gc2 o)
         (fold_left (p1step bl) (shuffle (o_gc1 o) m) (mkGc res_empty [] []))).

  Lemma st_gc_eq cfg o s :
    st_gc cfg o s =
    let a := gc_acc o (blobs s) (r_index (res s)) in
    let s1 := mkStore (blobs s) (g_res a) (g_gr a) (disk s) in
    (mkStore (filter (fun k => mem k (g_gr a)) (blobs s)) (g_res a) (g_gr a) (disk (maybe_save cfg o s1)), ROk).
  Proof. unfold OciIndex.st_gc, maybe_save. cbn. now destruct (autosave cfg). Qed.

  Lemma p1step_le bl a kv : keys_le (r_index (g_res a)) (r_index (g_res (p1step bl a kv))).
  Proof.
    unfold p1step. destruct (is_digest_ref _ _); [now intros r|]. intros r H. now apply res_tag_keeps, res_tag_keeps.
  Qed.
  Lemma rstep_le bl ac kv : keys_le (r_index (g_res (fst ac))) (r_index (g_res (fst (rstep bl ac kv)))).
  Proof.
    unfold rstep. destruct (_ || _); [now intros r|]. destruct (chain_hits _ _ _ _ _ _ _); [|now intros r].
    intros r H. now apply res_tag_keeps.
  Qed.
  Lemma p3step_le a kv : keys_le (r_index (g_res a)) (r_index (g_res (p3step a kv))).
  Proof.
    unfold p3step. destruct (_ && _); [|now intros r]. destruct (lookup (fst kv) _); [now intros r|].
    intros r H. now apply res_tag_keeps.
  Qed.
  Lemma rounds_le bl m fuel : forall os a,
    keys_le (r_index (g_res a)) (r_index (g_res (gc_rounds fuel bl m os a))).
  Proof.
    induction fuel as [|f IH]; intros os a r H; cbn [OciIndex.gc_rounds]; [exact H|].
    assert (X : lookup r (r_index (g_res (fst (gc_round bl (shuffle (hd [] os) m) a)))) <> None).
    { rewrite gc_round_eq.
      exact (fold_keys_le (fun ac => r_index (g_res (fst ac))) _ _ (rstep_le bl) (a, false) r H). }
    destruct (snd (gc_round bl (shuffle (hd [] os) m) a)); [now apply IH|exact X].
  Qed.

  Section GC.
    Variables (bl : list nat) (ix : rmap) (g0 : list nat).
    Hypothesis H : InvC bl ix g0.

    (* the accumulator: a resolver map with the store's shape whose references come from old ones
       and name stored nodes of the new graph; the manifests of the new graph are stored *)
    Record GcInv (a : gcacc) : Prop := {
      gi_ix : IxInv (r_index (g_res a));
      gi_val : forall r d, lookup r (r_index (g_res a)) = Some d -> In (d_node d) bl /\ In (d_node d) (g_gr a);
      gi_gr : forall x, In x (g_gr a) -> mf x = true -> In x bl;
      gi_src : src_ok ix (g_res a) }.

    Lemma entry_present r d : In (r, d) ix -> In (d_node d) bl.
    Proof. intro I. eapply inv_i4; [exact H|]. apply In_lookup; eauto. apply H. Qed.

    Lemma gcinv_empty : GcInv (mkGc res_empty [] []).
    Proof.
      split; cbn.
      - split; cbn; [constructor| |]; intros ? ? X; discriminate.
      - intros ? ? X; discriminate.
      - intros ? [].
      - intros ? ? X; discriminate.
    Qed.

    Lemma gcinv_dig rs g tg tg' r d g' : GcInv (mkGc rs g tg) -> In (r, d) ix ->
      g' = g /\ In (d_node d) g \/ g' = index_all bl (d_node d) g ->
      GcInv (mkGc (res_tag (strip d) (RDig (d_node d)) rs) g' tg').
    Proof.
      intros [I V G S] Hin Hg. pose proof (entry_present r d Hin) as B.
      cbn [r_index g_res g_gr g_tagged res_tag] in *.
      assert (Ig : In (d_node d) g') by (destruct Hg as [[-> X]| ->]; [exact X|apply index_all_root; auto]).
      assert (Mg : forall x, In x g -> In x g') by (destruct Hg as [[-> _]| ->]; [auto|intro; apply index_all_mono]).
      split; cbn [r_index g_res g_gr g_tagged res_tag].
      - apply (ixinv_set_dig _ (strip d)). exact I.
      - intros r' d' L. rewrite lookup_rset in L. destruct (ref_eqb r' (RDig (d_node d))).
        + injection L as <-. now split.
        + apply V in L as [L1 L2]. auto.
      - destruct Hg as [[-> _]| ->]; [exact G|]. intros x Ix Mx. eapply index_all_present; eauto.
      - apply src_tag; [exact S|]. apply (entry_sources ix r d (inv_ix _ _ _ H) Hin).
    Qed.
    Lemma gcinv_tag rs g tg tg' d t : GcInv (mkGc rs g tg) -> In (RTag t, d) ix ->
      lookup (RDig (d_node d)) (r_index rs) <> None -> In (d_node d) g ->
      GcInv (mkGc (res_tag d (RTag t) rs) g tg').
    Proof.
      intros [I V G S] Hin L Ig. cbn [r_index g_res g_gr g_tagged res_tag] in *.
      split; cbn [r_index g_res g_gr g_tagged res_tag]; try exact G.
      - now apply ixinv_set_tag.
      - intros r d' L'. rewrite lookup_rset in L'. destruct (ref_eqb r (RTag t)); [|eapply V; eassumption].
        injection L' as <-. split; [eapply entry_present; eauto|assumption].
      - apply src_tag; [exact S|]. apply (entry_sources ix _ d (inv_ix _ _ _ H) Hin).
    Qed.

    Lemma p1step_inv a kv : In kv ix -> GcInv a -> GcInv (p1step bl a kv).
    Proof.
      destruct kv as [r d]. intros I Ga. unfold p1step. cbn [fst snd].
      destruct (is_digest_ref r d) eqn:E; [exact Ga|].
      destruct (nondigest_is_tag _ _ _ (inv_ix _ _ _ H) I E) as (t & ->). destruct a as [rs g tg].
      eapply gcinv_tag; [eapply (gcinv_dig rs g tg tg); eauto|exact I| |].
      - cbn [r_index res_tag]. rewrite lookup_rset_eq. congruence.
      - apply index_all_root. intro. eapply entry_present; eauto.
    Qed.
    Lemma rstep_inv ac kv : In kv ix -> GcInv (fst ac) -> GcInv (fst (rstep bl ac kv)).
    Proof.
      destruct kv as [r d]. intros I Ga. unfold rstep. cbn [fst snd].
      destruct (_ || _); [exact Ga|]. destruct (chain_hits _ _ _ _ _ _ _); [|exact Ga].
      destruct (fst ac) as [rs g tg]. cbn [fst]. eapply (gcinv_dig rs g tg); eauto.
    Qed.
    Lemma p3step_gr a kv : g_gr (p3step a kv) = g_gr a.
    Proof. unfold p3step. destruct (_ && _); auto. destruct (lookup _ _); auto. Qed.
    Lemma p3step_inv a kv : In kv ix -> GcInv a -> GcInv (p3step a kv).
    Proof.
      intros I Ga. destruct kv as [r d]. unfold p3step. cbn [fst snd].
      destruct (is_digest_ref r d) eqn:E; [|exact Ga]. destruct (mem (d_node d) (g_gr a)) eqn:M; [|exact Ga].
      cbn [andb]. destruct (lookup r (r_index (g_res a))); [exact Ga|].
      apply digest_ref_inv in E. subst r. destruct a as [rs g tg]. cbn in *.
      eapply (gcinv_dig rs g tg tg); eauto. left. split; [reflexivity|now apply mem_In].
    Qed.

    Lemma rounds_inv fuel : forall os a, GcInv a -> GcInv (gc_rounds fuel bl ix os a).
    Proof.
      induction fuel as [|f IH]; intros os a Ga; cbn [OciIndex.gc_rounds]; [exact Ga|].
      assert (G1 : GcInv (fst (gc_round bl (shuffle (hd [] os) ix) a))).
      { rewrite gc_round_eq. apply (fold_left_inv (fun ac => GcInv (fst ac))); [|exact Ga].
        intros ac kv I. apply rstep_inv. now apply In_shuffle in I. }
      destruct (snd (gc_round bl (shuffle (hd [] os) ix) a)); auto.
    Qed.

    (* what gcIndex returns: the invariant; the graph of the third pass is that of the second;
       every tag is kept, and every digest reference whose node is in the new graph *)
    Lemma gc_acc_spec o :
      let a := gc_acc o bl ix in
      GcInv a /\
      (forall t d, lookup (RTag t) ix = Some d -> lookup (RTag t) (r_index (g_res a)) <> None) /\
      (forall k, lookup (RDig k) ix <> None -> In k (g_gr a) -> lookup (RDig k) (r_index (g_res a)) <> None).
    Proof.
      unfold gc_acc.
      set (a1 := fold_left (p1step bl) (shuffle (o_gc1 o) ix) (mkGc res_empty [] [])).
      set (a2 := gc_rounds (S (length ix)) bl ix (o_gc2 o) a1).
      assert (G2 : GcInv a2).
      { apply rounds_inv. apply fold_left_inv; [|exact gcinv_empty].
        intros a kv I. apply p1step_inv. now apply In_shuffle in I. }
      assert (Inv3 : forall l a, incl l ix -> GcInv a -> GcInv (fold_left p3step l a)).
      { intros l a Hl. apply fold_left_inv. intros a' kv I. apply p3step_inv. now apply Hl. }
      assert (Le3 : forall l a, keys_le (r_index (g_res a)) (r_index (g_res (fold_left p3step l a)))).
      { intro l. apply (fold_keys_le (fun a => r_index (g_res a))), p3step_le. }
      assert (Gr3 : forall l a, g_gr (fold_left p3step l a) = g_gr a).
      { intros l a. apply (fold_left_inv (fun a' => g_gr a' = g_gr a)); [|reflexivity].
        intros a' kv _ E. now rewrite p3step_gr. }
      split; [apply Inv3; [apply incl_refl|exact G2]|]. split.
      - intros t d L. apply Le3, rounds_le. apply lookup_Some_In, (In_shuffle (o_gc1 o)) in L.
        apply (fold_left_reach (fun _ => True) (fun a => lookup (RTag t) (r_index (g_res a)) <> None) _ _ _ L); auto.
        + intros a _. unfold p1step. cbn [fst snd is_digest_ref ref_eqb g_res]. unfold res_tag at 1. cbn [r_index].
          rewrite lookup_rset_eq. congruence.
        + intros a kv. apply p1step_le.
      - intros k L Ik. destruct (lookup (RDig k) ix) as [d|] eqn:Ld; [|congruence].
        pose proof (ix_j2 _ (inv_ix _ _ _ H) _ _ Ld) as Ek. rewrite Gr3 in Ik. apply lookup_Some_In in Ld.
        apply (fold_left_reach (fun a => GcInv a /\ In k (g_gr a))
                 (fun a => lookup (RDig k) (r_index (g_res a)) <> None) _ _ _ Ld); auto.
        + intros a kv I [Ga Ia]. split; [now apply p3step_inv|now rewrite p3step_gr].
        + intros a [Ga Ia]. unfold p3step. cbn [fst snd]. rewrite <- Ek at 1 2.
          unfold is_digest_ref. rewrite ref_eqb_refl, Ek, (proj2 (mem_In _ _) Ia). cbn [andb].
          destruct (lookup (RDig k) (r_index (g_res a))) eqn:La; [congruence|].
          cbn [r_index g_res res_tag]. rewrite lookup_rset_eq. congruence.
        + intros a kv. apply p3step_le.
    Qed.
  End GC.

  Lemma gc_good cfg o s : Good cfg false s -> Good cfg false (fst (st_gc cfg o s)).
  Proof.
    intros [H S]. rewrite st_gc_eq. pose proof H as H0. unfold Inv, idx in H0.
    destruct (gc_acc_spec _ _ _ H0 o) as (G3 & _ & Hit). set (a3 := gc_acc o (blobs s) (r_index (res s))) in *.
    assert (I3 : forall dk, Inv (mkStore (filter (fun k => mem k (g_gr a3)) (blobs s)) (g_res a3) (g_gr a3) dk)).
    { intro dk. unfold Inv, idx. simpl. split.
      - apply G3.
      - intros r d L. apply (gi_val _ _ _ G3) in L as [L1 L2]. apply filter_In. split; auto. now apply mem_In.
      - intros k Mk Ik. apply filter_In in Ik as [Ik Ig]. apply mem_In in Ig. apply Hit; [|exact Ig].
        eapply inv_k; eauto.
      - intros k Mk Ik. apply filter_In. split; [|now apply mem_In]. eapply gi_gr; eauto.
      - intros k Mk Ik. apply filter_In in Ik as [_ Ik]. now apply mem_In. }
    cbn [fst]. unfold maybe_save, do_save. destruct (autosave cfg) eqn:A; cbn [disk].
    - split; [apply I3|]. intros _. unfold Synced, idx. simpl. apply save_diskok. apply G3.
    - split; [apply I3|]. intros [X|X]; congruence.
  Qed.

  (* GC as one operation: exactly the blob files of the rebuilt graph stay; every reference that is
     left names a node of that graph; every reference whose node is in that graph is still there
     (all tags: their nodes are roots of the graph) - i.e. GC is the abstract "keep the nodes of the
     graph" step of Model/OciLocks.v with keep = the rebuilt graph *)
  Theorem gc_effect cfg o s : Inv s -> snd (st_gc cfg o s) = ROk ->
    let s' := fst (st_gc cfg o s) in
    blobs s' = filter (fun k => mem k (gr s')) (blobs s) /\
    (forall r d, lookup r (idx s') = Some d -> In (d_node d) (gr s')) /\
    (forall t d, lookup (RTag t) (idx s) = Some d -> lookup (RTag t) (idx s') <> None) /\
    (forall k, lookup (RDig k) (idx s) <> None -> In k (gr s') -> lookup (RDig k) (idx s') <> None) /\
    (forall r d, lookup r (idx s') = Some d -> exists d0, lookup r (idx s) = Some d0 /\ d_node d0 = d_node d).
  Proof using N mf succs subj sk bad dflt.
    intros H _. rewrite st_gc_eq. cbn [fst]. unfold idx. cbn [blobs res gr r_index].
    destruct (gc_acc_spec _ _ _ H o) as (G3 & Tags & Digs).
    split; [reflexivity|]. split; [|split; [exact Tags|split; [exact Digs|apply G3]]].
    intros r d L. now apply (gi_val _ _ _ G3) in L.
  Qed.

  Lemma reopen_good s : Inv s -> Synced s -> Inv (reopen s) /\ Synced (reopen s).
  Proof.
    intros H S. unfold OciIndex.reopen, load_index. rewrite load_split. simpl.
    pose proof H as H0. unfold Inv, idx in H0. unfold Synced, idx in S.
    pose proof (inv_ix _ _ _ H0) as I.
    split.
    - unfold Inv, idx. simpl. split.
      + now apply (reload_inv (disk s) (r_index (res s))).
      + intros r d L. destruct r as [t|k].
        * rewrite (reload_tag _ _ S) in L.
          destruct (lookup (RTag t) (r_index (res s))) as [d0|] eqn:L0; [|discriminate].
          injection L as <-. simpl. eapply inv_i4; eauto.
        * pose proof (reload_j2 _ _ S _ _ L) as Ek.
          assert (X : lookup (RDig k) (r_index (res s)) <> None).
          { apply (reload_dig _ _ S). congruence. }
          destruct (lookup (RDig k) (r_index (res s))) as [d0|] eqn:L0; [|congruence].
          pose proof (ix_j2 _ I _ _ L0) as E0. rewrite Ek, <- E0. eapply inv_i4; eauto.
      + intros k Mk Ik. apply (reload_dig _ _ S). eapply inv_k; eauto.
      + intros k Mk Ik. apply (load_gr_present (blobs s) (disk s) []) in Ik; auto. intros ? [].
      + intros k Mk Ik. pose proof (inv_k _ _ _ H0 _ Mk Ik) as X.
        apply (dk4 _ _ S) in X as (e & Ie & <-). apply load_gr_root; auto.
    - unfold Synced, idx. simpl. exact (reload_diskok _ _ S).
  Qed.

  Definition saved_after (o : op) : bool := match o with OSave | OReopen => true | _ => false end.

  Lemma step_good cfg b s oo :
    Good cfg b s -> wf_op (fst oo) -> (fst oo = OReopen -> autosave cfg = true \/ b = true) ->
    Good cfg (saved_after (fst oo)) (fst (step cfg s oo)).
  Proof.
    intros G0 W R. pose proof (good_weaken cfg b s G0) as G. destruct G0 as [H S].
    destruct oo as [o ord]. cbn [fst] in W, R |- *.
    destruct o; cbn [step fst snd saved_after].
    - now apply push_desc_good.
    - now apply push_desc_good.
    - now apply tagop_good.
    - now apply untag_good.
    - unfold OciIndex.st_delete. now apply delete_loop_good.
    - now apply gc_good.
    - split; [exact H|]. intros _. unfold Synced, idx. simpl. apply save_diskok. apply H.
    - destruct (reopen_good s H (S (R eq_refl))) as [H' S']. now split.
    - exact G.
    - destruct (mem k (blobs s)); [exact G|].
      apply (good_same cfg false s); [exact G| |reflexivity|reflexivity]. unfold Inv, idx. cbn [blobs res gr].
      apply (invc_ext _ _ _ _ _ H); [intros x Ix; now right|]. intros x Mx.
      split; [intros [<-|Ix]; congruence || assumption|reflexivity].
  Qed.

  Lemma good_cfg cfg cfg' b s : autosave cfg' = autosave cfg -> Good cfg b s -> Good cfg' b s.
  Proof. intros E [H S]. split; auto. rewrite E. exact S. Qed.
  Lemma next_cfg_autosave cfg o : autosave (next_cfg cfg o) = autosave cfg.
  Proof. destruct o; reflexivity. Qed.

  Lemma run_good_from h : forall cfg b s,
    Good cfg b s -> wf_history h -> (autosave cfg = true \/ reopen_after_save b h) -> Good cfg false (run cfg h s).
  Proof.
    induction h as [|oo h IH]; intros cfg b s G W R; simpl.
    - exact (good_weaken cfg b s G).
    - inversion W as [|? ? W1 W2]; subst.
      apply (good_cfg (next_cfg cfg (fst oo))); [symmetry; apply next_cfg_autosave|].
      apply (IH _ (saved_after (fst oo))); auto.
      + apply (good_cfg cfg); [apply next_cfg_autosave|]. apply (step_good cfg b); [exact G|exact W1|].
        intro E. destruct R as [A|R]; [now left|right]. simpl in R. rewrite E in R. apply R.
      + rewrite next_cfg_autosave. destruct R as [A|R]; [now left|right].
        simpl in R. destruct (fst oo); simpl; try exact R. apply R.
  Qed.

  Lemma no_reopen_after_save h : forall b, no_reopen h -> reopen_after_save b h.
  Proof.
    induction h as [|oo h IH]; intros b R; simpl; [exact I|]. inversion R as [|? ? R1 R2]; subst.
    destruct (fst oo); auto; congruence.
  Qed.

  Lemma run_good cfg h :
    wf_history h -> (autosave cfg = true \/ no_reopen h) -> Good cfg false (run cfg h store_empty).
  Proof.
    intros W R. apply (run_good_from h cfg false); [|exact W|].
    - split; [apply inv_empty|intros _; apply synced_empty].
    - destruct R as [A|R]; [now left|right; now apply no_reopen_after_save].
  Qed.

  Lemma run_app h : forall cfg s x,
    exists cfg', autosave cfg' = autosave cfg /\ run cfg (h ++ [x]) s = fst (step cfg' (run cfg h s) x).
  Proof.
    induction h as [|oo h IH]; intros cfg s x; simpl.
    - exists cfg. auto.
    - destruct (IH (next_cfg cfg (fst oo)) (fst (step cfg s oo)) x) as (c & E & Hc).
      exists c. split; auto. now rewrite E, next_cfg_autosave.
  Qed.

  Hypothesis succs_blob : forall k, mf k = false -> succs k = [].

  Lemma reopen_equiv T s : Inv s -> Synced s -> obs_equiv T (reopen s) s /\ disk_valid s = true.
  Proof.
    intros H S. destruct (reopen_good s H S) as [H' S'].
    pose proof H as H0. unfold Inv, idx in H0. unfold Synced, idx in S.
    pose proof (inv_ix _ _ _ H0) as I.
    assert (Ei : r_index (res (reopen s)) = r_index (fold_left load_res (disk s) res_empty)).
    { unfold OciIndex.reopen, load_index. rewrite load_split. reflexivity. }
    assert (Et : obs_tags T (reopen s) = obs_tags T s).
    { unfold obs_tags. apply filter_ext. intro t. rewrite Ei, (reload_tag _ _ S).
      destruct (lookup (RTag t) (r_index (res s))); reflexivity. }
    split; [split|].
    - exact Et.
    - intro f. unfold obs_tags_from. now rewrite Et.
    - intro t. unfold obs_resolve_tag. rewrite Ei, (reload_tag _ _ S).
      destruct (lookup (RTag t) (r_index (res s))) as [d|]; simpl; auto.
      unfold desc_eqb_mod. simpl. now rewrite !Nat.eqb_refl.
    - intro k. unfold obs_resolve_dig. change (blobs (reopen s)) with (blobs s). rewrite Ei.
      pose proof (reload_dig _ _ S k) as X. pose proof (reload_j2 _ _ S k) as J.
      destruct (lookup (RDig k) (r_index (fold_left load_res (disk s) res_empty))) as [d'|] eqn:L';
        destruct (lookup (RDig k) (r_index (res s))) as [d|] eqn:L.
      + rewrite (J _ eq_refl), (ix_j2 _ I _ _ L), Nat.eqb_refl. reflexivity.
      + exfalso. destruct X as [X1 X2]. apply X1; congruence.
      + exfalso. destruct X as [X1 X2]. apply X2; congruence.
      + reflexivity.
    - intro k. reflexivity.
    - intro k. unfold obs_preds, predecessors. apply filter_ext. intro p.
      destruct (mf p) eqn:Mp.
      + f_equal. apply mem_iff_eq. split; intro X.
        * eapply inv_g2b; [exact H|exact Mp|]. eapply inv_g2a in X; [|exact H'|exact Mp]. exact X.
        * eapply inv_g2b; [exact H'|exact Mp|]. eapply inv_g2a in X; [|exact H|exact Mp]. exact X.
      + rewrite (succs_blob _ Mp). simpl. now rewrite !andb_false_r.
    - unfold disk_valid. apply forallb_forall. intros e Ie. apply mem_In.
      pose proof (dk3 _ _ S _ Ie) as X.
      destruct (lookup (RDig (d_node e)) (r_index (res s))) as [d|] eqn:L; [|congruence].
      rewrite <- (ix_j2 _ I _ _ L). eapply inv_i4; [exact H|exact L].
  Qed.

  (* AutoSaveIndex on: after every history (read-write reopening included) *)
  Theorem reopen_equiv_autosave T cfg h :
    autosave cfg = true -> wf_history h ->
    let s := run cfg h store_empty in
    obs_equiv T (reopen s) s /\ disk_valid s = true.
  Proof.
    intros A W s. destruct (run_good cfg h W (or_introl A)) as [H S]. apply reopen_equiv; auto.
  Qed.

  Lemma reopen_equiv_saved T cfg h o : Inv (run cfg h store_empty) ->
    let s := run cfg (h ++ [(OSave, o)]) store_empty in
    obs_equiv T (reopen s) s /\ disk_valid s = true.
  Proof.
    intros H s.
    assert (E : s = do_save o (run cfg h store_empty)).
    { unfold s. destruct (run_app h cfg store_empty (OSave, o)) as (c & _ & ->). reflexivity. }
    rewrite E. apply reopen_equiv; [exact H|]. unfold Synced, idx. simpl. apply save_diskok. apply H.
  Qed.

  (* AutoSaveIndex off (or on): any history without reopening, followed by SaveIndex *)
  Theorem reopen_equiv_saveindex T cfg h o :
    wf_history h -> no_reopen h ->
    let s := run cfg (h ++ [(OSave, o)]) store_empty in
    obs_equiv T (reopen s) s /\ disk_valid s = true.
  Proof. intros W R. apply reopen_equiv_saved, (run_good cfg h W (or_intror R)). Qed.

  (* any AutoSaveIndex setting: read-write reopens only right after SaveIndex *)
  Theorem reopen_equiv_saveindex_general T cfg h o :
    wf_history h -> reopen_after_save true h ->
    let s := run cfg (h ++ [(OSave, o)]) store_empty in
    obs_equiv T (reopen s) s /\ disk_valid s = true.
  Proof.
    intros W R. apply reopen_equiv_saved, (run_good_from h cfg true); auto.
    split; [apply inv_empty | intros _; apply synced_empty].
  Qed.

  (* the representation facts other properties rely on (C07: the reloaded graph is the live graph) *)
  Theorem store_invariant cfg h :
    wf_history h -> (autosave cfg = true \/ no_reopen h) ->
    let s := run cfg h store_empty in
    (forall k, mf k = true -> In k (blobs s) -> lookup (RDig k) (r_index (res s)) <> None /\ In k (gr s)) /\
    (forall k, mf k = true -> In k (gr s) -> In k (blobs s)) /\
    (forall r d, lookup r (r_index (res s)) = Some d -> In (d_node d) (blobs s)).
  Proof.
    intros W R s. destruct (run_good cfg h W R) as [H _].
    split; [|split].
    - intros k Mk Ik. split; [eapply inv_k | eapply inv_g2b]; eauto.
    - intros k Mk Ik. eapply inv_g2a; eauto.
    - intros r d L. eapply inv_i4; eauto.
  Qed.
End Univ.

(* concrete universes and histories: the witnesses of Properties/C08.v *)
Definition ex_cfg := mkCfg true false.
Definition ex_plain_hist (l : list op) : list (op * orders) := map (fun o => (o, ord0)) l.

(* a child manifest 1 (layer 0) listed by the index 2 *)
Definition ex_mf (k : nat) := match k with 1 | 2 => true | _ => false end.
Definition ex_succs (k : nat) := match k with 1 => [0] | 2 => [1] | _ => [] end.
(* Without fixA, GC drops the digest reference of the kept child 1 of the tagged index 2: Resolve
   by digest degrades to the generic blob descriptor.  Since Delete gives a manifest that loses
   its last predecessor a digest reference again, this does not lead to a reopen difference:
   [example_repaired] runs the history Push 1; Push 2; Tag 2; GC; Delete 2 of
   corpus/C08/gc-orphan-digest-ref.json. *)
Lemma gc_digest_ref_effect :
  let h := ex_plain_hist [OPush 1; OPush 2; OTag (plain 2) (RTag 0); OGC] in
  let run' := fun fixA => run 3 ex_mf ex_succs (fun _ => None) (fun _ => true) (fun _ => false)
                              true fixA true true true ex_cfg h store_empty in
  obs_resolve_dig (fun _ => false) (run' false) 1 = DBlob 1 /\
  obs_resolve_dig (fun _ => false) (run' true) 1 = DPlain 1.
Proof. vm_compute. split; reflexivity. Qed.

(* a history with re-tags, annotations, a tagged blob, Untag, GC, Delete, a read-write reopen and
   non-trivial map orders *)
Definition ex_hist : list (op * orders) :=
  [ (OPush 0, ord0); (OPush 1, ord0); (OPush 2, ord0);
    (OTag (mkDesc 2 1 (Some (RTag 5))) (RTag 0), mkOrd [1;0] [2] [] [] []);
    (OTag (plain 1) (RTag 1), ord0); (OTag (mkDesc 1 2 None) (RTag 0), ord0);
    (OTag (plain 0) (RDig 0), ord0);
    (OUntag (RTag 1), mkOrd [3;1] [0;2] [] [] []); (OGC, mkOrd [] [1] [2;1] [[1;1;0]; [2]] []);
    (ODelete 2, mkOrd [1] [] [] [] [([1], [2;0])]); (OReopen, ord0); (OPush 2, ord0) ].
Lemma example_repaired :
  let s := run 3 ex_mf ex_succs (fun _ => None) (fun _ => true) (fun _ => false) true true true true true ex_cfg
             (ex_plain_hist [OPush 1; OPush 2; OTag (plain 2) (RTag 0); OGC; ODelete 2]) store_empty in
  obs_preds 3 ex_succs (reopen 3 ex_mf ex_succs s) 0 = [1] /\ obs_preds 3 ex_succs s 0 = [1].
Proof. vm_compute. split; reflexivity. Qed.

(* two manifests 1 and 2 (layer 0 of 2): the code as found accepts a reference that is the digest
   string of OTHER stored content (validateReference only refuses ""): Tag(m1, digest(m2))
   replaces m2's digest entry, the reopened store no longer indexes m2 (Predecessors of its layer
   differ; a later GC would collect it).  The repaired Tag refuses it. *)
Definition ex2_mf (k : nat) := match k with 1 | 2 => true | _ => false end.
Definition ex2_succs (k : nat) := match k with 2 => [0] | _ => [] end.
