(* C12: filepath.Walk's sorting of every directory does not change the tree as a file system:
   the hypotheses and the expected result of the round-trip theorem can be stated on the
   tree as given. *)
From Coq Require Import Permutation.
From Oras Require Import Base.Prelude Model.TarRoundTrip Proofs.TarRoundTrip.

Lemma insert_child_perm x l : Permutation (insert_child x l) (x :: l).
Proof.
  induction l as [|y l IH]; simpl; [reflexivity|].
  destruct (str_ltb (fst y) (fst x)); [|reflexivity].
  rewrite IH. apply perm_swap.
Qed.

Lemma sort_children_perm l : Permutation (sort_children l) l.
Proof.
  induction l as [|x l IH]; [reflexivity|].
  unfold sort_children in *. simpl. rewrite insert_child_perm. now constructor.
Qed.

Lemma forallb_perm {A} (f : A -> bool) l l' : Permutation l l' -> forallb f l = forallb f l'.
Proof.
  induction 1; simpl; try congruence. destruct (f x), (f y); reflexivity.
Qed.

Lemma existsb_perm {A} (f : A -> bool) l l' : Permutation l l' -> existsb f l = existsb f l'.
Proof.
  induction 1; simpl; try congruence. destruct (f x), (f y); reflexivity.
Qed.

Lemma names_nodupb_perm l l' : Permutation l l' -> names_nodupb l = names_nodupb l'.
Proof.
  induction 1; simpl; try congruence.
  - now rewrite IHPermutation, (existsb_perm _ _ _ H).
  - rewrite (str_eqb_sym y x).
    destruct (str_eqb x y), (existsb (str_eqb x) l), (existsb (str_eqb y) l), (names_nodupb l); reflexivity.
Qed.

Lemma find_child_perm n l l' :
  Permutation l l' -> names_nodupb (map fst l) = true -> find_child n l = find_child n l'.
Proof.
  induction 1 as [|[m c] l l' HP IH|[m1 c1] [m2 c2] l|l l' l'' HP1 IH1 HP2 IH2]; simpl; intro Hnd.
  - reflexivity.
  - apply andb_true_iff in Hnd as [_ Hnd]. now rewrite IH.
  - apply andb_true_iff in Hnd as [Hn _]. apply negb_true_iff, orb_false_iff in Hn as [Hn _].
    destruct (str_eqb m1 n) eqn:E1, (str_eqb m2 n) eqn:E2; try reflexivity.
    apply str_eqb_spec in E1, E2. subst. rewrite str_eqb_refl in Hn. discriminate.
  - rewrite IH1 by exact Hnd. apply IH2.
    rewrite <- (names_nodupb_perm _ _ (Permutation_map fst HP1)). exact Hnd.
Qed.

Lemma forallb_map {A B} (f : B -> bool) (g : A -> B) l : forallb f (map g l) = forallb (fun x => f (g x)) l.
Proof. induction l; simpl; congruence. Qed.

Lemma forallb_ext_Forall {A} (f g : A -> bool) l :
  Forall (fun x => f x = g x) l -> forallb f l = forallb g l.
Proof. induction 1; simpl; congruence. Qed.

Lemma find_child_map (g : tree -> tree) n l :
  find_child n (map (fun nc => (fst nc, g (snd nc))) l) = option_map g (find_child n l).
Proof.
  induction l as [|[m c] l IH]; simpl; [reflexivity|]. destruct (str_eqb m n); [reflexivity|exact IH].
Qed.

Lemma find_child_forallb (f : tree -> bool) n l c :
  forallb (fun nc => f (snd nc)) l = true -> find_child n l = Some c -> f c = true.
Proof.
  induction l as [|[m c'] l IH]; simpl; [discriminate|]. intros Hf Hc.
  apply andb_true_iff in Hf as [H1 H2]. destruct (str_eqb m n); [congruence|now apply IH].
Qed.

Definition sortg (nc : name * tree) : name * tree := (fst nc, sort_tree (snd nc)).

Lemma sort_tree_dir m mt ch : sort_tree (Dir m mt ch) = Dir m mt (sort_children (map sortg ch)).
Proof. reflexivity. Qed.

Lemma map_fst_sortg ch : map fst (map sortg ch) = map fst ch.
Proof. rewrite map_map. reflexivity. Qed.

Lemma names_sorted ch : Permutation (map fst (sort_children (map sortg ch))) (map fst ch).
Proof. now rewrite (Permutation_map fst (sort_children_perm (map sortg ch))), map_fst_sortg. Qed.

Lemma forallb_sorted (f : name * tree -> bool) ch :
  forallb f (sort_children (map sortg ch)) = forallb (fun nc => f (sortg nc)) ch.
Proof. now rewrite (forallb_perm _ _ _ (sort_children_perm _)), forallb_map. Qed.

Lemma wf_sort : forall t, wf_treeb (sort_tree t) = wf_treeb t.
Proof.
  induction t as [c m mt|tg mt|m mt ch IH] using tree_ind'; try reflexivity.
  rewrite sort_tree_dir. cbn [wf_treeb].
  rewrite (names_nodupb_perm _ _ (names_sorted ch)), (forallb_perm name_okb _ _ (names_sorted ch)), forallb_sorted.
  f_equal. now apply forallb_ext_Forall.
Qed.

Lemma modes_sort : forall t, modes_okb (sort_tree t) = modes_okb t.
Proof.
  induction t as [c m mt|tg mt|m mt ch IH] using tree_ind'; try reflexivity.
  rewrite sort_tree_dir. cbn [modes_okb]. rewrite forallb_sorted. f_equal. now apply forallb_ext_Forall.
Qed.

Lemma benign_sort pre isl isf : forall t rel, benignb pre isl isf rel (sort_tree t) = benignb pre isl isf rel t.
Proof.
  induction t as [c m mt|tg mt|m mt ch IH] using tree_ind'; intro rel; try reflexivity.
  rewrite sort_tree_dir. cbn [benignb]. rewrite forallb_sorted.
  apply forallb_ext_Forall. eapply Forall_impl; [|exact IH]. intros nc H. apply H.
Qed.

Lemma prefixes_clear_ext isl isl' isf isf' : (forall p, isl p = isl' p) -> (forall p, isf p = isf' p) ->
  forall rest acc, prefixes_clear isl isf acc rest = prefixes_clear isl' isf' acc rest.
Proof.
  intros E F. induction rest as [|x rest IH]; intro acc; simpl; [reflexivity|].
  destruct rest; [reflexivity|]. now rewrite E, IH.
Qed.

Lemma benign_ext pre isl isl' isf isf' : (forall p, isl p = isl' p) -> (forall p, isf p = isf' p) ->
  forall t rel, benignb pre isl isf rel t = benignb pre isl' isf' rel t.
Proof.
  intros E F. induction t as [c m mt|tg mt|m mt ch IH] using tree_ind'; intro rel; simpl.
  - apply F.
  - rewrite E. destruct (link_target_path pre rel tg); [|reflexivity].
    now rewrite (prefixes_clear_ext isl isl' isf isf' E F).
  - apply forallb_ext_Forall. eapply Forall_impl; [|exact IH]. intros nc H. apply H.
Qed.

Lemma flat_map_perm_Forall {A B} (f g : A -> list B) l :
  Forall (fun x => Permutation (f x) (g x)) l -> Permutation (flat_map f l) (flat_map g l).
Proof. induction 1; simpl; [reflexivity|]. now apply Permutation_app. Qed.

(* [link_paths] and [file_paths]: a list of paths collected child by child *)
Lemma paths_sort (g : path -> tree -> list path) :
  (forall rel m mt ch, g rel (Dir m mt ch) = flat_map (fun nc => g (rel ++ [fst nc]) (snd nc)) ch) ->
  forall t rel, Permutation (g rel (sort_tree t)) (g rel t).
Proof.
  intro Hg. induction t as [c m mt|tg mt|m mt ch IH] using tree_ind'; intro rel; try reflexivity.
  rewrite sort_tree_dir, !Hg.
  rewrite (Permutation_flat_map _ (sort_children_perm (map sortg ch))).
  rewrite flat_map_concat_map, map_map, <- flat_map_concat_map. simpl.
  apply flat_map_perm_Forall. eapply Forall_impl; [|exact IH]. intros nc H. apply H.
Qed.

Lemma benign_tree_sort pre T : benign_tree pre (sort_tree T) = benign_tree pre T.
Proof.
  unfold benign_tree. rewrite benign_sort. apply benign_ext; intro p.
  - unfold links_of. now apply existsb_perm, (paths_sort link_paths).
  - unfold files_of. now apply existsb_perm, (paths_sort file_paths).
Qed.

Lemma tree_get_sort : forall p t,
  wf_treeb t = true -> tree_get (sort_tree t) p = option_map sort_tree (tree_get t p).
Proof.
  induction p as [|n p IH]; intros t Hwf; [reflexivity|].
  destruct t as [c m mt|tg mt|m mt ch]; try reflexivity.
  rewrite sort_tree_dir. simpl in *. apply andb_true_iff in Hwf as [Hnd Hwf]. apply andb_true_iff in Hnd as [Hnd Hnok].
  rewrite (find_child_perm n _ _ (sort_children_perm (map sortg ch))) by now rewrite (names_nodupb_perm _ _ (names_sorted ch)).
  unfold sortg. rewrite find_child_map.
  destruct (find_child n ch) as [c|] eqn:Ec; simpl; [|reflexivity].
  apply IH. exact (find_child_forallb wf_treeb n ch c Hwf Ec).
Qed.

Lemma expected_sort umask preserve T p :
  wf_treeb T = true -> expected umask preserve (sort_tree T) p = expected umask preserve T p.
Proof.
  intro Hwf. unfold expected. rewrite (tree_get_sort p T Hwf).
  destruct (tree_get T p) as [[| |]|]; reflexivity.
Qed.

Lemma hyps_sort pre T :
  is_dir T = true -> wf_treeb T = true -> modes_okb T = true -> benign_tree pre T = true ->
  is_dir (sort_tree T) = true /\ wf_treeb (sort_tree T) = true /\
  modes_okb (sort_tree T) = true /\ benign_tree pre (sort_tree T) = true.
Proof.
  intros Hd Hwf Hmo Hbe. rewrite wf_sort, modes_sort, benign_tree_sort.
  destruct T; try discriminate. auto.
Qed.

(* reproducibility does not depend on the order in which a directory lists its entries:
   sorting is idempotent on the walk, so two listings of the same children give the same tar
   as soon as their sorted forms agree *)
Theorem walk_order_irrelevant pre repro t1 t2 :
  sort_tree t1 = sort_tree t2 -> tar_entries pre repro t1 = tar_entries pre repro t2.
Proof. intro E. unfold tar_entries. now rewrite E. Qed.
