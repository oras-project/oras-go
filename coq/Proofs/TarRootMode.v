(* C12: restoreDirModes -- every directory is created owner-writable (mode | 0700) and gets
   its recorded mode after the last entry; with it the round trip holds at full strength:
   the directory itself included, setuid/setgid/sticky directories included, and without any
   directory being read-only while its entries are created. *)
From Oras Require Import Base.Prelude Model.TarRoundTrip Proofs.TarRoundTrip Proofs.TarWalkOrder Proofs.TarModeSweep.

Lemma finish_step_lookup pre preserve f0 acc e p :
  fs_lookup (finish_step pre preserve f0 acc e) p =
  match fs_lookup f0 p, e_kind e, strip_prefix pre (e_name e) with
  | Some (NDir cur), EDir, Some rel =>
      if path_eqb rel p then Some (NDir (final_dir_mode preserve cur (e_mode e))) else fs_lookup acc p
  | _, _, _ => fs_lookup acc p
  end.
Proof.
  unfold finish_step. destruct (e_kind e); try (now destruct (fs_lookup f0 p) as [[]|]).
  destruct (strip_prefix pre (e_name e)) as [rel|]; [|now destruct (fs_lookup f0 p) as [[]|]].
  destruct (path_eqb rel p) eqn:E.
  - apply path_eqb_spec in E. subst rel. destruct (fs_lookup f0 p) as [[]|]; try reflexivity. apply lookup_set_same.
  - destruct (fs_lookup f0 rel) as [[]|]; rewrite ?lookup_set, ?E; now destruct (fs_lookup f0 p) as [[]|].
Qed.

Lemma finish_lookup pre preserve f0 : forall es acc p,
  fs_lookup (fold_left (finish_step pre preserve f0) es acc) p =
  match last_dir_mode pre p es, fs_lookup f0 p with
  | Some m, Some (NDir cur) => Some (NDir (final_dir_mode preserve cur m))
  | _, _ => fs_lookup acc p
  end.
Proof.
  induction es as [|e es IH]; intros acc p; simpl; [now destruct (fs_lookup f0 p) as [[]|]|].
  rewrite IH, finish_step_lookup.
  destruct (last_dir_mode pre p es); [now destruct (fs_lookup f0 p) as [[]|]|].
  destruct (e_kind e); try (now destruct (fs_lookup f0 p) as [[]|]).
  destruct (strip_prefix pre (e_name e)) as [rel|]; [|now destruct (fs_lookup f0 p) as [[]|]].
  destruct (path_eqb rel p); now destruct (fs_lookup f0 p) as [[]|].
Qed.

Definition dir_mode_of (o : option tree) : option N :=
  match o with Some (Dir m _ _) => Some m | _ => None end.

Lemma last_dir_mode_app pre p a b0 :
  last_dir_mode pre p (a ++ b0) =
  match last_dir_mode pre p b0 with Some m => Some m | None => last_dir_mode pre p a end.
Proof.
  induction a as [|e a IH]; simpl.
  - destruct (last_dir_mode pre p b0); reflexivity.
  - rewrite IH. destruct (last_dir_mode pre p b0); reflexivity.
Qed.

Lemma last_dir_mode_tree pre repro : forall t rel q,
  wf_treeb t = true ->
  last_dir_mode pre q (entries pre repro rel t) =
  match strip_prefix rel q with Some p => dir_mode_of (tree_get t p) | None => None end.
Proof.
  induction t as [c m mt|tg mt|m mt ch IH] using tree_ind'; intros rel q Hwf.
  - simpl. now destruct (strip_prefix rel q) as [[|n p]|].
  - simpl. now destruct (strip_prefix rel q) as [[|n p]|].
  - simpl in Hwf. apply andb_true_iff in Hwf as [Hnd Hwf]. apply andb_true_iff in Hnd as [Hnd _].
    assert (Hch : last_dir_mode pre q (flat_map (fun nc => entries pre repro (rel ++ [fst nc]) (snd nc)) ch)
                = match strip_prefix rel q with
                  | Some (n :: p) => match find_child n ch with Some c => dir_mode_of (tree_get c p) | None => None end
                  | _ => None
                  end).
    { induction ch as [|[n0 c0] l IHl]; [simpl; now destruct (strip_prefix rel q) as [[|n p]|]|].
      inversion IH as [|? ? IH0 IHr]; subst. simpl in IH0, Hnd, Hwf |- *.
      apply andb_true_iff in Hnd as [Hn0 Hnd]. apply negb_true_iff in Hn0.
      apply andb_true_iff in Hwf as [Hw0 Hwf].
      rewrite last_dir_mode_app, (IHl IHr Hnd Hwf), (IH0 (rel ++ [n0]) q Hw0), strip_prefix_snoc.
      destruct (strip_prefix rel q) as [[|n p]|]; try reflexivity.
      destruct (str_eqb n0 n) eqn:En.
      - apply str_eqb_spec in En. subst n. now rewrite (find_child_fresh n0 l Hn0).
      - destruct (find_child n l) as [c|]; [destruct (dir_mode_of (tree_get c p))|]; reflexivity. }
    change (entries pre repro rel (Dir m mt ch))
      with (mkEntry (pre ++ rel) EDir m (hdr_time repro mt) ::
            flat_map (fun nc => entries pre repro (rel ++ [fst nc]) (snd nc)) ch).
    simpl last_dir_mode. rewrite Hch, strip_prefix_app, path_eqb_strip.
    destruct (strip_prefix rel q) as [[|n p]|]; try reflexivity.
    simpl. destruct (find_child n ch) as [c|]; [destruct (dir_mode_of (tree_get c p))|]; reflexivity.
Qed.

Lemma modes_get : forall p t m mt ch,
  modes_okb t = true -> tree_get t p = Some (Dir m mt ch) -> m <= 4095.
Proof.
  induction p as [|n p IH]; intros t m mt ch Hmo Hg.
  - simpl in Hg. injection Hg as ->. simpl in Hmo. apply andb_true_iff in Hmo as [Hm _]. now apply N.leb_le.
  - destruct t as [| |m0 mt0 ch0]; try discriminate. simpl in Hg, Hmo.
    apply andb_true_iff in Hmo as [_ Hmo].
    destruct (find_child n ch0) as [c|] eqn:Ec; [|discriminate].
    eapply IH; [|exact Hg]. exact (find_child_forallb modes_okb n ch0 c Hmo Ec).
Qed.

Lemma expected_mid_top_get umask preserve T p :
  is_dir T = true ->
  expected_mid_top umask preserve T p =
  match tree_get T p with
  | None => None
  | Some (File c m _) => Some (NFile c (restored_mode umask preserve m))
  | Some (Link tg _) => Some (NLink tg)
  | Some (Dir m _ _) => Some (NDir (match p with [] => N.ldiff 511 umask | _ => mid_dir_mode umask m end))
  end.
Proof. intro Hd. destruct T; try discriminate. destruct p; reflexivity. Qed.

(* every directory carries the bits [sg] it inherited at creation *)
Definition with_sg (sg : N) (o : option node) : option node :=
  match o with Some (NDir m) => Some (NDir (N.lor m sg)) | _ => o end.

Lemma finish_tree sg pre umask preserve repro T f :
  N.land sg 3584 = sg -> (preserve = false -> umask <= 511) ->
  is_dir T = true -> wf_treeb T = true -> modes_okb T = true ->
  (forall p, fs_lookup f p = with_sg sg (expected_mid_top umask preserve T p)) ->
  forall p, fs_lookup (finish_dirs pre preserve (entries pre repro [] T) f) p = expected_sg sg umask preserve T p.
Proof.
  intros Hs Hu Hd Hwf Hmo L p. unfold finish_dirs. rewrite finish_lookup, L.
  rewrite (last_dir_mode_tree pre repro T [] p Hwf), (expected_mid_top_get umask preserve T p Hd). cbn [strip_prefix].
  unfold expected_sg. destruct (tree_get T p) as [[c m mt|tg mt|m mt ch]|] eqn:Eg; try reflexivity.
  cbn [with_sg dir_mode_of].
  rewrite (final_ok umask preserve m _ sg (modes_get p T m mt ch Hmo Eg) Hu Hs); [reflexivity | destruct p; auto].
Qed.

Lemma expected_sg_0 umask preserve T p : expected_sg 0 umask preserve T p = expected umask preserve T p.
Proof.
  unfold expected_sg, expected, restored_mode. destruct (tree_get T p) as [[| |]|]; try reflexivity.
  now rewrite N.lor_0_r.
Qed.

Theorem roundtrip_full pre umask preserve repro T :
  (preserve = false -> umask <= 511) ->
  is_dir T = true -> wf_treeb T = true -> modes_okb T = true -> benign_tree pre T = true ->
  exists f', extract pre umask preserve (entries pre repro [] T) = Ok f' /\
    forall p, fs_lookup f' p = expected umask preserve T p.
Proof.
  intros Hu Hd Hwf Hmo Hbe.
  destruct (extract_list_mid pre umask preserve repro T Hd Hwf Hmo Hbe) as (f' & E & L).
  unfold extract. rewrite E. eexists. split; [reflexivity|]. intro p.
  rewrite <- expected_sg_0. apply finish_tree; auto. intro q. rewrite L.
  destruct (expected_mid_top umask preserve T q) as [[| |]|]; try reflexivity. simpl. now rewrite N.lor_0_r.
Qed.

(* what Store.Add really writes (filepath.Walk sorts every directory) *)
Theorem roundtrip_walk_full pre umask preserve repro T :
  (preserve = false -> umask <= 511) ->
  is_dir T = true -> wf_treeb T = true -> modes_okb T = true -> benign_tree pre T = true ->
  exists f', extract pre umask preserve (tar_entries pre repro T) = Ok f' /\
    forall p, fs_lookup f' p = expected umask preserve T p.
Proof.
  intros Hu Hd Hwf Hmo Hbe. destruct (hyps_sort pre T Hd Hwf Hmo Hbe) as (A & B & C & D).
  destruct (roundtrip_full pre umask preserve repro (sort_tree T) Hu A B C D) as (f' & E & L).
  exists f'. split; [exact E|]. intro p. rewrite L. now apply expected_sort.
Qed.

Theorem root_mode_fixed_witness :
  exists f', extract [b "d"] 18 false (tar_entries [b "d"] true root_mode_witness) = Ok f' /\
    fs_lookup f' [] = expected 18 false root_mode_witness [].
Proof. eexists. split; vm_compute; reflexivity. Qed.

(* Before the fix of tarDirectory, a directory added through a symbolic link was archived as
   what filepath.Walk yields for a root that is a link: the single link entry.  No such
   archive can be unpacked (a link cannot replace the base directory), whatever the target. *)
Theorem symlinked_root_prefix_refuted pre umask preserve repro tg mt :
  forall f, extract pre umask preserve (entries pre repro [] (Link tg mt)) <> Ok f.
Proof.
  intro f. unfold extract. simpl. unfold extract_entry. simpl.
  rewrite strip_prefix_app. simpl. discriminate.
Qed.

Section Codec.
  Variable digest : Type.
  Variable H : str -> digest.
  Variable digest_eqb : digest -> digest -> bool.
  Variable enc : list entry -> str.
  Variable dec : str -> option (list entry).
  Variable gz : str -> str.
  Variable gunz : str -> option str.
  Hypothesis digest_eqb_spec : forall a b, digest_eqb a b = true <-> a = b.
  Hypothesis dec_enc : forall es, dec (enc es) = Some es.
  Hypothesis gunz_gz : forall s, gunz (gz s) = Some s.

  Theorem unpack_roundtrip_full pre umask preserve repro T :
    (preserve = false -> umask <= 511) ->
    is_dir T = true -> wf_treeb T = true -> modes_okb T = true -> benign_tree pre T = true ->
    exists f', unpack digest H digest_eqb dec gunz umask preserve
                 (dir_descriptor digest H enc gz pre repro T) (dir_blob enc gz pre repro T) = Ok f' /\
      forall p, fs_lookup f' p = expected umask preserve T p.
  Proof.
    intros Hu Hd Hwf Hmo Hbe.
    destruct (roundtrip_walk_full pre umask preserve repro T Hu Hd Hwf Hmo Hbe) as (f' & E & L).
    exists f'. split; [|exact L].
    unfold unpack, dir_descriptor, dir_blob. simpl.
    rewrite (proj2 (digest_eqb_spec _ _) eq_refl), N.eqb_refl. simpl.
    rewrite gunz_gz, dec_enc, E, (proj2 (digest_eqb_spec _ _) eq_refl). reflexivity.
  Qed.

End Codec.

Corollary roundtrip_preserve_full pre umask repro T :
  is_dir T = true -> wf_treeb T = true -> modes_okb T = true -> benign_tree pre T = true ->
  exists f', extract pre umask true (entries pre repro [] T) = Ok f' /\
    forall p, fs_lookup f' p = expected umask true T p.
Proof. apply roundtrip_full. discriminate. Qed.

(* a relative link that stays inside but passes through another link of the tree: rejected
   when the other link is extracted first, accepted when it comes later *)
Definition through_link_tree (first : string) : tree :=
  Dir 493 0 [ (b "b", Dir 493 0 [(b "f", File (b "x") 420 0)]);
              (b first, Link (b "b") 0);
              (b "c", Link (b first ++ b "/f") 0) ].

(* a target that leaves the base and comes back through the base's own name is inside *)
Example out_and_back_in_accepted :
  let T := Dir 493 0 [(b "f", File (b "x") 420 0); (b "l", Link (b "../d/f") 0)] in
  benign_tree [b "d"] T = true /\ benign_tree [b "e"] T = false.
Proof. vm_compute. split; reflexivity. Qed.

(* a symlink entry replaces an empty directory at its path, not a non-empty one *)
Example link_replaces_empty_dir :
  (exists f', extract [b "d"] 18 false
     [mkEntry [b "d"] EDir 493 0; mkEntry [b "d"; b "x"] EDir 493 0; mkEntry [b "d"; b "x"] (ELnk (b "y")) 511 0] = Ok f' /\
     fs_lookup f' [b "x"] = Some (NLink (b "y"))) /\
  extract [b "d"] 18 false
     [mkEntry [b "d"] EDir 493 0; mkEntry [b "d"; b "x"] EDir 493 0; mkEntry [b "d"; b "x"; b "f"] (EReg []) 420 0;
      mkEntry [b "d"; b "x"] (ELnk (b "y")) 511 0] = Err XExists.
Proof. split; [eexists; split|]; vm_compute; reflexivity. Qed.

From Oras Require Import Generated.GC12 Model.FileAnnotations.

Section SkipUnpack.
  Variable digest : Type.
  Variable H : str -> digest.
  Variable digest_eqb : digest -> digest -> bool.
  Variable enc : list entry -> str.
  Variable dec : str -> option (list entry).
  Variable gz : str -> str.
  Variable gunz : str -> option str.
  Hypothesis digest_eqb_spec : forall a b, digest_eqb a b = true <-> a = b.

  Theorem skipunpack_stores_blob pre umask preserve repro T checksum nm :
    let d := dir_descriptor digest H enc gz pre repro T in
    let blob := dir_blob enc gz pre repro T in
    push_named digest H digest_eqb dec gunz true umask preserve (dir_annotations checksum nm) d blob
    = Ok (inr (NFile blob (N.ldiff 438 umask))).
  Proof.
    simpl. unfold push_named.
    change (need_unpack (dir_annotations checksum nm) true) with false. cbv beta iota.
    unfold push_file, dir_descriptor, dir_blob. simpl.
    rewrite (proj2 (digest_eqb_spec _ _) eq_refl), N.eqb_refl. reflexivity.
  Qed.

  Theorem unpack_when_asked pre umask preserve repro T checksum nm :
    let d := dir_descriptor digest H enc gz pre repro T in
    let blob := dir_blob enc gz pre repro T in
    push_named digest H digest_eqb dec gunz false umask preserve (dir_annotations checksum nm) d blob
    = match unpack digest H digest_eqb dec gunz umask preserve d blob with Ok f => Ok (inl f) | Err e => Err e end.
  Proof. reflexivity. Qed.

End SkipUnpack.
