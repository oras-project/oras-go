(* ExtendedCopy (Model/CopyExt.v): success => the graph of every root above the node is in the
   destination and the destination reference is the node. *)
From Oras Require Import Base.Prelude Model.CopySpec Model.CopyExt Proofs.CopySpec Proofs.CopyLinks Model.CopyBytes Proofs.CopyBytes Model.CopyCancel Proofs.CopyCancel.
Local Open Scope nat_scope.

(* the events of ExtendedCopyGraph's walk: no tag, no success return *)
Definition walk_ev (e : event) : bool :=
  match e with TagB _ | TagE _ | Ret true => false | _ => true end.

Lemma xrun_walk g c tgt st e r : walk_ev e = true ->
  xrun g c tgt st (e :: r) = match step g c st e with Some st' => xrun g c tgt st' r | None => None end.
Proof. destruct e; try discriminate; try reflexivity. destruct ok; [discriminate|reflexivity]. Qed.

Lemma xrun_tag g c tgt st n r :
  xrun g c tgt st (TagB n :: r) =
  match r with
  | [TagE n'; Ret true] =>
      if Nat.eqb n tgt && Nat.eqb n' tgt
      then match step g c st (Ret true) with Some st' => Some (with_tag st' tgt) | None => None end
      else None
  | _ => None
  end.
Proof. reflexivity. Qed.

Lemma xrun_cases g c tgt tr : forall st st', xrun g c tgt st tr = Some st' ->
  (forallb walk_ev tr = true /\ run g c st tr = Some st') \/
  exists walk s1, tr = walk ++ [TagB tgt; TagE tgt; Ret true] /\ forallb walk_ev walk = true /\
                  run g c st (walk ++ [Ret true]) = Some s1 /\ st' = with_tag s1 tgt.
Proof.
  induction tr as [|e r IH]; intros st st' H; [now left|].
  destruct (walk_ev e) eqn:W.
  - rewrite (xrun_walk g c tgt st e r W) in H. cbn [forallb run app]. rewrite W.
    destruct (step g c st e) as [s0|] eqn:E; [|discriminate H].
    destruct (IH s0 st' H) as [[A B]|(w & s1 & -> & A & B & C)]; [now left|right].
    exists (e :: w), s1. cbn [forallb run app]. rewrite W, E. auto.
  - right. destruct e; try discriminate W; [|discriminate H|destruct ok; discriminate].
    rewrite xrun_tag in H.
    destruct r as [|e2 r2]; [discriminate H|]. destruct e2; try discriminate H.
    destruct r2 as [|e3 r3]; [discriminate H|]. destruct e3; try discriminate H.
    destruct ok; [|discriminate H]. destruct r3; [|discriminate H].
    destruct (Nat.eqb n tgt && Nat.eqb n0 tgt) eqn:En; [|discriminate H].
    apply andb_true_iff in En as [E1 E2]. apply Nat.eqb_eq in E1, E2. subst n n0.
    destruct (step g c st (Ret true)) as [s1|] eqn:E; [|discriminate H]. injection H as <-.
    exists [], s1. cbn [app run forallb]. rewrite E. auto.
Qed.

Lemma xrun_success g c tgt tr st st' : returned st = None ->
  xrun g c tgt st tr = Some st' -> returned st' = Some true ->
  exists walk st1, run g c st (walk ++ [Ret true]) = Some st1 /\ st' = with_tag st1 tgt /\
                   tr = walk ++ [TagB tgt; TagE tgt; Ret true].
Proof.
  intros Hn H Hr. destruct (xrun_cases g c tgt tr st st' H) as [[W R]|(w & s1 & -> & _ & R & ->)]; [exfalso|eauto].
  destruct (run_ret g c tr st st' true R Hn Hr) as [_ [tr0 ->]].
  rewrite forallb_app in W. apply andb_true_iff in W as [_ W]. discriminate W.
Qed.

Lemma extended_copy_lemma g c tgt d0 tr st :
  closed_nodes g d0 -> mt_consistent g ->
  xaccepts g c tgt d0 tr = Some st -> returned st = Some true ->
  tag st = Some tgt /\
  forall r n, In r (c_root c :: c_xroots c) -> reach g r n -> has g (dst st) n = true.
Proof.
  intros Hc Hm Ha Hr. unfold xaccepts in Ha.
  destruct (xrun_success g c tgt tr (init c d0) st eq_refl Ha Hr) as [w [s1 [R [-> _]]]].
  split; [reflexivity|]. intros r n Hin Hn. simpl.
  simpl in Hr. exact (closure_all_roots g c d0 (w ++ [Ret true]) s1 Hc Hm R Hr r n Hin Hn).
Qed.

Lemma reach_trans g a b x : reach g a b -> reach g b x -> reach g a x.
Proof. induction 1; auto. intro H1. econstructor; eauto. Qed.

Lemma step_keeps_tag g c st e st' : c_mode c = MGraph -> step g c st e = Some st' ->
  (forall n, e <> TagE n) -> tag st' = tag st.
Proof.
  intros Hm H Hne. apply step_cases in H as [_ S]. destruct S as [n p q _ M | ok _ _]; [|reflexivity].
  cbn [moved tag]. destruct (sets_tag e) eqn:T; [exfalso|reflexivity].
  (* only a ReferencePusher root's push sets the reference *)
  destruct M; try discriminate T; [..|now elim (Hne n)|now elim (Hne n)];
    apply root_refpush_root in T as [_ T]; congruence.
Qed.

Lemma run_keeps_tag g c tr : c_mode c = MGraph -> forallb walk_ev tr = true ->
  forall st st', run g c st tr = Some st' -> tag st' = tag st.
Proof.
  intros Hm. induction tr as [|e r IH]; simpl; intros W st st' H; [now injection H as <-|].
  apply andb_true_iff in W as [We W]. destruct (step g c st e) as [s0|] eqn:E; [|discriminate H].
  rewrite (IH W s0 st' H). apply (step_keeps_tag g c st e s0 Hm E). intros n ->. discriminate We.
Qed.

Lemma xrun_failure_untagged g c tgt tr st st' : c_mode c = MGraph -> tag st = None ->
  xrun g c tgt st tr = Some st' -> returned st' <> Some true -> tag st' = None.
Proof.
  intros Hm Ht H Hr. destruct (xrun_cases g c tgt tr st st' H) as [[W R]|(w & s1 & _ & _ & R & ->)].
  - now rewrite (run_keeps_tag g c tr Hm W st st' R).
  - exfalso. apply Hr. apply run_app in R as [s0 [_ R]]. simpl in R.
    destruct (step g c s0 (Ret true)) as [s2|] eqn:E; [|discriminate R]. injection R as <-.
    now destruct (step_Ret g c s0 true s2 E) as [_ ->].
Qed.

(* the reference is written once, last, and only after every root's walk has returned success *)
Lemma extended_copy_tag_last g c tgt d0 tr st :
  xaccepts g c tgt d0 tr = Some st -> returned st = Some true ->
  exists walk st1, accepts g c d0 (walk ++ [Ret true]) = Some st1 /\ returned st1 = Some true /\
                   dst st = dst st1 /\ tr = walk ++ [TagB tgt; TagE tgt; Ret true].
Proof.
  intros H Hr. destruct (xrun_success g c tgt tr (init c d0) st eq_refl H Hr) as [w [s1 [R [-> ->]]]].
  exists w, s1. repeat split; auto.
Qed.

Lemma stored_nodes_app a : forall b acc, stored_nodes (a ++ b) acc = stored_nodes b (stored_nodes a acc).
Proof. induction a as [|e a IH]; simpl; intros; [reflexivity|apply IH]. Qed.

Section BytesExt.
Variable digest : str -> nat.
Variable src_bytes : node -> str.

(* ExtendedCopy: success => the reference is on the node and every node under every root is in the
   destination with the source's bytes *)
Lemma extended_copy_bytes g c tgt d0 tr st served bs0 bs :
  closed_nodes g d0 -> mt_consistent g ->
  collision_free digest src_bytes -> key_respects_bytes src_bytes g ->
  (forall n b, In (n, b) bs0 -> verify digest src_bytes n b = true) -> map fst bs0 = d0 ->
  xaccepts g c tgt d0 tr = Some st -> returned st = Some true ->
  brun digest src_bytes tr served bs0 = Some bs ->
  tag st = Some tgt /\
  forall r n, In r (c_root c :: c_xroots c) -> reach g r n ->
    exists m b, In (m, b) bs /\ g_dkey g m = g_dkey g n /\ b = src_bytes n.
Proof.
  intros Hc Hm Hcf Hk Hv0 Hd0 Ha Hr Hb.
  destruct (extended_copy_lemma g c tgt d0 tr st Hc Hm Ha Hr) as [Ht Hall].
  split; [exact Ht|]. intros r n Hin Hn. pose proof (Hall r n Hin Hn) as Hp.
  destruct (extended_copy_tag_last g c tgt d0 tr st Ha Hr) as [w [s1 [A1 [_ [Hd ->]]]]].
  rewrite Hd, (run_dst_stores g c _ _ _ A1) in Hp. cbn [init dst] in Hp.
  assert (E : stored_nodes (w ++ [TagB tgt; TagE tgt; Ret true]) d0 = stored_nodes (w ++ [Ret true]) d0)
    by (rewrite !stored_nodes_app; reflexivity).
  rewrite <- E in Hp.
  exact (bytes_of_present digest src_bytes g _ served bs0 bs d0 n Hcf Hk Hv0 Hd0 Hb Hp).
Qed.
End BytesExt.

Lemma walk_prefix g c d0 : c_mode c = MGraph -> forall w e st s2, Inv g c d0 st ->
  run g c st (w ++ [e]) = Some s2 -> forallb walk_ev w = true.
Proof.
  intro Hm. induction w as [|a r IH]; intros e st s2 I R; [reflexivity|]. simpl in R.
  destruct (step g c st a) as [s1|] eqn:E; [|discriminate R]. cbn [forallb].
  rewrite (IH e s1 s2 (step_preserves_inv g c d0 st a s1 I E) R), andb_true_r.
  destruct (step_no_tag g c d0 st a s1 Hm I E) as [NB NE].
  destruct a; try reflexivity; [now elim (NB n) | now elim (NE n) |].
  destruct ok; [exfalso|reflexivity]. destruct (step_Ret g c st true s1 E) as [_ ->].
  destruct r; cbn [app run] in R; now rewrite (step_after_ret g c (with_ret st true)) with (b := true) in R.
Qed.

Lemma xrun_of_walk g c tgt w : forallb walk_ev w = true -> forall rest st s1,
  run g c st w = Some s1 -> xrun g c tgt st (w ++ rest) = xrun g c tgt s1 rest.
Proof.
  induction w as [|a r IH]; cbn [app forallb run]; intros W rest st s1 R; [now injection R as <-|].
  apply andb_true_iff in W as [Wa W]. rewrite (xrun_walk g c tgt st a (r ++ rest) Wa).
  destruct (step g c st a) as [s0|]; [now apply IH|discriminate R].
Qed.

Lemma run_to_xrun g c d0 tgt full st s0 : c_mode c = MGraph -> Inv g c d0 st -> returned st = None ->
  run g c st full = Some s0 -> returned s0 = Some true ->
  exists w, full = w ++ [Ret true] /\
            xrun g c tgt st (w ++ [TagB tgt; TagE tgt; Ret true]) = Some (with_tag s0 tgt).
Proof.
  intros Hm I Hn R Hr. destruct (run_ret g c full st s0 true R Hn Hr) as [_ [w ->]].
  exists w. split; [reflexivity|]. pose proof (walk_prefix g c d0 Hm w _ st s0 I R) as W.
  apply run_app in R as [s1 [R1 R2]]. rewrite (xrun_of_walk g c tgt w W _ st s1 R1).
  simpl in R2. cbn [xrun]. rewrite !Nat.eqb_refl. cbn [andb].
  destruct (step g c s1 (Ret true)) as [s2|]; [now injection R2 as <-|discriminate R2].
Qed.

Lemma xcaccepts_sound cs g c tgt d0 tr s full : c_mode c = MGraph ->
  xcaccepts_opt cs g c tgt d0 tr = Some (s, full) -> returned (cs_st s) = Some true ->
  exists w, full = w ++ [Ret true] /\
            xaccepts g c tgt d0 (w ++ [TagB tgt; TagE tgt; Ret true]) = Some (cs_st s).
Proof.
  intros Hm H Hr. unfold xcaccepts_opt in H. destruct (xstrip tgt tr) as [tr'|].
  - destruct (caccepts_opt cs g c d0 tr') as [[s0 f]|] eqn:A; [|discriminate H].
    destruct (returned (cs_st s0)) as [[|]|] eqn:R0; try discriminate H. injection H as <- <-. simpl.
    apply (run_to_xrun g c d0 tgt f (init c d0) (cs_st s0) Hm (init_inv g c d0) eq_refl); [|exact R0].
    exact (crun_sound cs g c tr' _ _ _ A R0).
  - destruct (caccepts_opt cs g c d0 tr) as [[s0 f]|]; [|discriminate H].
    destruct (returned (cs_st s0)) as [[|]|] eqn:R0; try discriminate H; injection H as <- <-; congruence.
Qed.

(* no success without the tag: a recorded trace that returns success ends TagB node, TagE node, Ret true *)
Lemma xstrip_shape tgt tr : forall tr', xstrip tgt tr = Some tr' ->
  exists w, tr = w ++ [Ev (TagB tgt); Ev (TagE tgt); Ev (Ret true)] /\ tr' = w ++ [Ev (Ret true)].
Proof.
  induction tr as [|ce r IH]; intros tr' H; [discriminate H|].
  assert (Gen : match xstrip tgt r with Some r' => Some (ce :: r') | None => None end = Some tr' ->
                exists w, ce :: r = w ++ [Ev (TagB tgt); Ev (TagE tgt); Ev (Ret true)] /\ tr' = w ++ [Ev (Ret true)]).
  { intro H0. destruct (xstrip tgt r) as [r'|]; [|discriminate H0]. injection H0 as <-.
    destruct (IH r' eq_refl) as [w [-> ->]]. exists (ce :: w). split; reflexivity. }
  destruct ce as [e|]; [|apply Gen; exact H].
  destruct e; try (apply Gen; exact H).
  destruct r as [|[e2|] r2]; try (apply Gen; exact H).
  destruct e2; try (apply Gen; exact H).
  destruct r2 as [|[e3|] r3]; try (apply Gen; exact H).
  destruct e3; try (apply Gen; exact H).
  destruct ok; try (apply Gen; exact H).
  destruct r3; try (apply Gen; exact H).
  simpl in H. destruct (Nat.eqb n tgt && Nat.eqb n0 tgt) eqn:En; [|discriminate H].
  apply andb_true_iff in En as [E1 E2]. apply Nat.eqb_eq in E1, E2. subst. injection H as <-.
  exists []. split; reflexivity.
Qed.

Lemma extended_copy_success_is_tagged cs g c tgt d0 tr s full :
  xcaccepts_opt cs g c tgt d0 tr = Some (s, full) -> returned (cs_st s) = Some true ->
  exists w, tr = w ++ [Ev (TagB tgt); Ev (TagE tgt); Ev (Ret true)].
Proof.
  intros H Hr. unfold xcaccepts_opt in H. destruct (xstrip tgt tr) as [tr'|] eqn:X.
  - destruct (xstrip_shape tgt tr tr' X) as [w [-> _]]. now exists w.
  - destruct (caccepts_opt cs g c d0 tr) as [[s0 f]|]; [|discriminate H].
    destruct (returned (cs_st s0)) as [[|]|] eqn:R0; try discriminate H; injection H as <- <-; congruence.
Qed.
